From Coq Require Import List NArith ZArith Lia Bool.
From Coq Require Import ZifyN ZifyNat ZifyBool.
From Vivid Require Import Codec.Prim Codec.PrimProofs Codec.Prim2.
Import ListNotations.
Local Open Scope N_scope.
#[local] Ltac Zify.zify_post_hook ::= Z.div_mod_to_equations.

Lemma rd_i8_put z rest : (- 2 ^ 7 <= z < 2 ^ 7)%Z -> rd_i8 (put_i8 z ++ rest) = Ok (z, rest).
Proof. apply (rd_signed_put 8 rd_u8 put_u8); [discriminate|intros n; apply rd_u8_put]. Qed.
Lemma rd_i16_put z rest : (- 2 ^ 15 <= z < 2 ^ 15)%Z -> rd_i16 (put_i16 z ++ rest) = Ok (z, rest).
Proof. apply (rd_signed_put 16 rd_u16 put_u16); [discriminate|intros n; apply rd_u16_put]. Qed.

Lemma to_signed_range bits n : bits <> 0 -> n < 2 ^ bits ->
  (- 2 ^ (Z.of_N bits - 1) <= to_signed bits n < 2 ^ (Z.of_N bits - 1))%Z.
Proof.
  intros Hb Hn. unfold to_signed. destruct (half_range bits Hb) as (E & E2 & Hpos).
  assert (E3 : Z.of_N (2 ^ bits) = (2 ^ Z.of_N bits)%Z) by (rewrite N2Z.inj_pow; reflexivity).
  destruct (N.ltb_spec n (2 ^ (bits - 1))); lia.
Qed.

Lemma rd_f32_put n rest : n < 4294967296 -> rd_f32 (put_f32 n ++ rest) = Ok (n, rest).
Proof. exact (rd_u32_put n rest). Qed.
Lemma rd_f64_put n rest : n < 18446744073709551616 -> rd_f64 (put_f64 n ++ rest) = Ok (n, rest).
Proof. exact (rd_u64_put n rest). Qed.

Lemma uv_dec_enc fuel : forall i x acc s rest,
  (i + fuel = 9)%nat -> 2 ^ s = 128 ^ N.of_nat i -> x * 128 ^ N.of_nat i < 18446744073709551616 ->
  uv_dec i acc s (uv_enc fuel x ++ rest) = Ok (acc + x * 2 ^ s, rest).
Proof.
  induction fuel as [|f IH]; intros i x acc s rest Hi Hs Hx.
  - assert (i = 9%nat) by lia. subst i.
    change (128 ^ N.of_nat 9) with 9223372036854775808 in *.
    assert (x < 2) by lia.
    cbn [uv_enc]. replace (x <? 128) with true by lia. cbn [app uv_dec Nat.eqb].
    replace (x <? 128) with true by lia. replace (1 <? x) with false by lia. reflexivity.
  - cbn [uv_enc]. destruct (N.ltb_spec x 128) as [Hlt|Hge].
    + cbn [app uv_dec]. replace (Nat.eqb i 10) with false by (symmetry; apply Nat.eqb_neq; lia).
      replace (x <? 128) with true by lia.
      replace (Nat.eqb i 9) with false by (symmetry; apply Nat.eqb_neq; lia). reflexivity.
    + cbn [app uv_dec]. replace (Nat.eqb i 10) with false by (symmetry; apply Nat.eqb_neq; lia).
      replace (x mod 128 + 128 <? 128) with false by lia.
      replace ((x mod 128 + 128) mod 128) with (x mod 128) by lia.
      assert (Hp := pow_succ_nat 128 i).
      rewrite IH.
      * f_equal. f_equal. rewrite N.pow_add_r. change (2 ^ 7) with 128.
        pose proof (N.div_mod x 128 ltac:(lia)). nia.
      * lia.
      * rewrite N.pow_add_r, Hs, Hp. change (2 ^ 7) with 128. lia.
      * rewrite Hp. pose proof (N.div_mod x 128 ltac:(lia)). nia.
Qed.

Lemma rd_uvarint_put n rest : n < 18446744073709551616 -> rd_uvarint (put_uvarint n ++ rest) = Ok (n, rest).
Proof.
  intros H. unfold rd_uvarint, put_uvarint. rewrite N.mod_small by exact H.
  rewrite (uv_dec_enc 9 0 n 0 0 rest); [f_equal; f_equal; cbn; lia|reflexivity|reflexivity|cbn; lia].
Qed.

(** the writer's argument is a uint64: larger numbers are reduced first (a fact about the model's
    domain, not about Go values) *)
Lemma put_uvarint_mod n : put_uvarint (n mod 18446744073709551616) = put_uvarint n.
Proof. unfold put_uvarint. rewrite N.mod_mod by lia. reflexivity. Qed.

Lemma uv_enc_length fuel x : (1 <= length (uv_enc fuel x) <= S fuel)%nat.
Proof.
  revert x; induction fuel as [|f IH]; intros x; cbn [uv_enc]; destruct (x <? 128); cbn [length]; try lia.
  specialize (IH (x / 128)). lia.
Qed.
Lemma put_uvarint_length n : (1 <= length (put_uvarint n) <= 10)%nat.
Proof. apply (uv_enc_length 9). Qed.

Lemma uv_enc_wf fuel x : wf_bytes (uv_enc fuel x) = true.
Proof.
  revert x; induction fuel as [|f IH]; intros x; cbn [uv_enc]; destruct (N.ltb_spec x 128).
  - cbn. unfold wf_byte. rewrite andb_true_r. lia.
  - cbn. unfold wf_byte. rewrite andb_true_r. lia.
  - cbn. unfold wf_byte. rewrite andb_true_r. lia.
  - cbn [wf_bytes forallb]. fold (wf_bytes (uv_enc f (x / 128))). rewrite IH, andb_true_r. unfold wf_byte. lia.
Qed.
Lemma put_uvarint_wf n : wf_bytes (put_uvarint n) = true.
Proof. apply uv_enc_wf. Qed.

(** the reader: the three outcomes the Go Reader distinguishes, for EVERY byte string *)
Lemma uv_dec_total bs : forall i x s, (exists v r, uv_dec i x s bs = Ok (v, r)) \/ uv_dec i x s bs = Err EEOF \/ uv_dec i x s bs = Err EOverflow.
Proof.
  induction bs as [|b r IH]; intros i x s; cbn [uv_dec]; [right; left; reflexivity|].
  destruct (Nat.eqb i 10); [right; right; reflexivity|].
  destruct (b <? 128); [|apply IH].
  destruct (Nat.eqb i 9 && (1 <? b)); [right; right; reflexivity|left; eauto].
Qed.

(** n == 0 ("buffer too small"): exactly the strings of at most 10-i continuation bytes *)
Lemma uv_dec_eof bs : forall i x s, (i <= 10)%nat ->
  (uv_dec i x s bs = Err EEOF <-> forallb (fun b => 128 <=? b) bs = true /\ (i + length bs <= 10)%nat).
Proof.
  induction bs as [|b r IH]; intros i x s Hi; cbn [uv_dec forallb length].
  - split; [intros _; split; [reflexivity|lia]|reflexivity].
  - destruct (Nat.eqb_spec i 10) as [->|Hn].
    + split; [discriminate|intros [_ H]; lia].
    + destruct (N.ltb_spec b 128) as [Hb|Hb].
      * replace (128 <=? b) with false by lia. cbn [andb].
        destruct (Nat.eqb i 9 && (1 <? b)); split; try discriminate; intros [H _]; discriminate.
      * replace (128 <=? b) with true by lia. cbn [andb].
        rewrite IH by lia. split; intros [H1 H2]; (split; [exact H1|lia]).
Qed.
Lemma rd_uvarint_eof bs : rd_uvarint bs = Err EEOF <-> forallb (fun b => 128 <=? b) bs = true /\ (length bs <= 10)%nat.
Proof. unfold rd_uvarint. rewrite uv_dec_eof by lia. reflexivity. Qed.

Lemma uv_dec_consumes bs : forall i x s v r, (i <= 10)%nat -> uv_dec i x s bs = Ok (v, r) ->
  exists h, bs = h ++ r /\ (1 <= length h)%nat /\ (i + length h <= 10)%nat.
Proof.
  induction bs as [|b t IH]; intros i x s v r Hi; cbn [uv_dec]; [discriminate|].
  destruct (Nat.eqb_spec i 10); [discriminate|].
  destruct (b <? 128).
  - destruct (Nat.eqb_spec i 9); cbn [andb].
    + destruct (1 <? b); [discriminate|]. intros H; injection H as _ <-. exists [b]. cbn. split; [reflexivity|lia].
    + intros H; injection H as _ <-. exists [b]. cbn. split; [reflexivity|].
      lia.
  - intros H. destruct (IH (S i) _ _ _ _ ltac:(lia) H) as (h & -> & H1 & H2). exists (b :: h). cbn. split; [reflexivity|lia].
Qed.

(** no truncation: every decoded value fits in 64 bits (so [+] in [uv_dec] is Go's [|] on uint64) *)
Lemma uv_dec_bound bs : forall i x s v r, wf_bytes bs = true -> (i <= 9)%nat ->
  2 ^ s = 128 ^ N.of_nat i -> x < 128 ^ N.of_nat i ->
  uv_dec i x s bs = Ok (v, r) -> v < 18446744073709551616.
Proof.
  induction bs as [|b t IH]; intros i x s v r Hwf Hi Hs Hx; cbn [uv_dec]; [discriminate|].
  cbn [wf_bytes forallb] in Hwf. apply andb_prop in Hwf as [Hb Hwf]. unfold wf_byte in Hb. fold (wf_bytes t) in Hwf.
  replace (Nat.eqb i 10) with false by (symmetry; apply Nat.eqb_neq; lia).
  assert (Hmono : 128 ^ N.of_nat i <= 128 ^ 9) by (apply N.pow_le_mono_r; lia).
  change (128 ^ 9) with 9223372036854775808 in Hmono.
  destruct (N.ltb_spec b 128) as [Hlt|Hge].
  - destruct (Nat.eqb_spec i 9) as [->|Hn]; cbn [andb].
    + destruct (N.ltb_spec 1 b); [discriminate|]. intros HH; injection HH as <- _.
      rewrite Hs. change (128 ^ N.of_nat 9) with 9223372036854775808 in *. nia.
    + intros HH; injection HH as <- _. rewrite Hs.
      assert (128 ^ N.of_nat (S i) <= 128 ^ 9) by (apply N.pow_le_mono_r; lia).
      rewrite (pow_succ_nat 128 i) in *. change (128 ^ 9) with 9223372036854775808 in *. nia.
  - destruct (Nat.eqb_spec i 9) as [->|Hn].
    + (* the 10th byte is a continuation byte: the next index is 10: overflow or eof, never Ok *)
      destruct t as [|c t']; cbn [uv_dec]; [discriminate|]. cbn [Nat.eqb]. discriminate.
    + intros H. eapply (IH (S i)); [exact Hwf|lia| | |exact H].
      * rewrite N.pow_add_r, Hs, (pow_succ_nat 128). change (2 ^ 7) with 128. lia.
      * rewrite (pow_succ_nat 128), Hs. assert (b mod 128 < 128) by (apply N.mod_lt; lia). nia.
Qed.
Lemma rd_uvarint_bound bs v r : wf_bytes bs = true -> rd_uvarint bs = Ok (v, r) -> v < 18446744073709551616.
Proof. intros Hwf H. eapply (uv_dec_bound bs 0 0 0); eauto; cbn; lia. Qed.

Lemma rd_uvarint_overflow_11 h c rest : length h = 10%nat -> forallb (fun b => 128 <=? b) h = true ->
  rd_uvarint (h ++ c :: rest) = Err EOverflow.
Proof.
  intros Hl Hh. unfold rd_uvarint.
  do 10 (destruct h as [|?b h]; [discriminate Hl|]). destruct h; [|discriminate Hl]. clear Hl.
  cbn [forallb] in Hh. repeat (apply andb_prop in Hh as [? Hh]).
  cbn [app uv_dec Nat.eqb].
  repeat match goal with H : (128 <=? ?b) = true |- context [?b <? 128] => replace (b <? 128) with false by lia end.
  reflexivity.
Qed.

Lemma unzigzag_zigzag z : unzigzag (zigzag z) = z.
Proof.
  unfold unzigzag, zigzag. destruct (Z.leb_spec 0 z).
  - replace (N.even (Z.to_N (2 * z))) with true.
    + lia.
    + symmetry. apply N.even_spec. exists (Z.to_N z). lia.
  - replace (N.even (Z.to_N (-2 * z - 1))) with false.
    + lia.
    + symmetry. apply Bool.not_true_iff_false. rewrite N.even_spec. intros [k Hk]. lia.
Qed.
Lemma zigzag_bound z : (- 2 ^ 63 <= z < 2 ^ 63)%Z -> zigzag z < 18446744073709551616.
Proof. intros H. unfold zigzag. change (2 ^ 63)%Z with 9223372036854775808%Z in H. destruct (Z.leb_spec 0 z); lia. Qed.
Lemma rd_varint_put z rest : (- 2 ^ 63 <= z < 2 ^ 63)%Z -> rd_varint (put_varint z ++ rest) = Ok (z, rest).
Proof.
  intros H. unfold rd_varint, put_varint. rewrite (signed_roundtrip 64 z ltac:(discriminate) H).
  rewrite rd_uvarint_put by (apply zigzag_bound; exact H). cbn [bind]. rewrite unzigzag_zigzag. reflexivity.
Qed.
Lemma rd_varint_total bs : (exists v r, rd_varint bs = Ok (v, r)) \/ rd_varint bs = Err EEOF \/ rd_varint bs = Err EOverflow.
Proof.
  unfold rd_varint, rd_uvarint. destruct (uv_dec_total bs 0 0 0) as [(v & r & ->)|[->| ->]]; cbn [bind]; eauto.
Qed.

Lemma rd_lp_put k b w rest : put_lp k b = Ok w -> rd_lp k (w ++ rest) = Ok (b, rest).
Proof.
  unfold put_lp, rd_lp. destruct (N.ltb_spec (N.of_nat (length b)) (256 ^ N.of_nat k)); [|discriminate].
  intros E; injection E as <-. rewrite <- app_assoc, rd_uint_be by assumption. cbn [bind]. apply take_N_app.
Qed.
Lemma put_lp_ok k b : N.of_nat (length b) < 256 ^ N.of_nat k -> exists w, put_lp k b = Ok w.
Proof. intros H. unfold put_lp. replace (_ <? _) with true by lia. eauto. Qed.
Lemma put_lp_err k b : 256 ^ N.of_nat k <= N.of_nat (length b) -> put_lp k b = Err ETooLarge.
Proof. intros H. unfold put_lp. replace (_ <? _) with false by lia. reflexivity. Qed.

(** the [lengthSize] switch of WriteBytesWithLength / ReadBytesWithLength: 1, 2, 4, or the default branch *)
Lemma size_cases (size : Z) :
  size = 1%Z \/ size = 2%Z \/ size = 4%Z \/
  forall A (a b c d : A), match size with 1%Z => a | 2%Z => b | 4%Z => c | _ => d end = d.
Proof.
  destruct size as [|p|p]; auto.
  destruct p as [[[|[]|]|[[]|[]|]|]|[[|[]|]|[[]|[]|]|]|]; auto.
Qed.

Lemma rd_lpk_put size b w rest : N.of_nat (length b) < 4294967296 -> put_lpk size b = Ok w -> rd_lpk size (w ++ rest) = Ok (b, rest).
Proof.
  intros Hl. unfold put_lpk, rd_lpk. destruct (size_cases size) as [->|[->|[->|E]]].
  1-2: apply rd_lp_put.
  - intros [= <-]. apply rd_lp4_put, Hl.
  - rewrite E. discriminate.
Qed.
Lemma put_lpk_invalid size b : size <> 1%Z -> size <> 2%Z -> size <> 4%Z -> put_lpk size b = Err EInvalid.
Proof. intros H1 H2 H4. destruct (size_cases size) as [->|[->|[->|E]]]; try contradiction. apply E. Qed.
Lemma rd_lpk_invalid size bs : size <> 1%Z -> size <> 2%Z -> size <> 4%Z -> rd_lpk size bs = Err EInvalid.
Proof. intros H1 H2 H4. destruct (size_cases size) as [->|[->|[->|E]]]; try contradiction. apply E. Qed.

(** a 4-byte length is uint32(len(v)): data of 2^32 bytes or more is written with a wrapped length *)
Lemma put_lp4_wraps b : put_lp4 b = put_u32 (N.of_nat (length b) mod 4294967296) ++ b.
Proof. unfold put_lp4, put_u32. rewrite (be_mod 4). reflexivity. Qed.

Lemma rd_uint_err k bs e : rd_uint k bs = Err e -> e = EEOF /\ (length bs < k)%nat.
Proof.
  unfold rd_uint, take_n. destruct (Nat.leb_spec k (length bs)); cbn [bind]; [discriminate|].
  intros E; injection E as <-. split; [reflexivity|assumption].
Qed.
