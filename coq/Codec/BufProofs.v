(** Proofs about the Writer / Reader state machines of [Codec.Buf].  The Writer with its pool and capacity refines the
    abstract Writer ([run_wop_refines]); the Reader keeps its position in range and does not depend on its pool
    ([run_rop_inv], [run_rop_pool]); writer operations followed by the inverse reader operations give the values back
    ([machine_roundtrip], [message_roundtrip]).  At the end the regression scenarios of the repaired pool-order and Seek
    defects. *)
From Coq Require Import List NArith ZArith Lia Bool.
From Coq Require Import ZifyN ZifyNat ZifyBool.
From Vivid Require Import Codec.Prim Codec.PrimProofs Codec.Prim2 Codec.Prim2Proofs Codec.PrimO
                          Codec.Reflect Codec.ReflectProofs Codec.ReflectO Codec.ReflectOProofs Codec.Buf.
Import ListNotations.
Local Open Scope N_scope.

Section WopInd.
  Variable P : wop -> Prop.
  Hypothesis Hprim : forall b v, P (WPrim b v).
  Hypothesis Hvarint : forall z, P (WVarint z).
  Hypothesis Huvarint : forall n, P (WUvarint n).
  Hypothesis Hbytes : forall bs, P (WBytes bs).
  Hypothesis Hbyteslen : forall size bs, P (WBytesLen size bs).
  Hypothesis Hshort : forall s, P (WShort s).
  Hypothesis Hwrite : forall ty v, P (WWrite ty v).
  Hypothesis Hwritefrom : forall l, P (WWriteFrom l).
  Hypothesis Hreset : P WReset.
  Hypothesis Hreg : forall name body ret, Forall P body -> P (WMsgReg name body ret).
  Hypothesis Hout : forall enc, P (WMsgOut enc).
  Fixpoint wop_ind' (op : wop) : P op :=
    match op with
    | WPrim b v => Hprim b v
    | WVarint z => Hvarint z
    | WUvarint n => Huvarint n
    | WBytes bs => Hbytes bs
    | WBytesLen size bs => Hbyteslen size bs
    | WShort s => Hshort s
    | WWrite ty v => Hwrite ty v
    | WWriteFrom l => Hwritefrom l
    | WReset => Hreset
    | WMsgReg name body ret =>
        Hreg name body ret ((fix go (l : list wop) : Forall P l :=
                               match l with [] => Forall_nil _ | x :: r => Forall_cons x (wop_ind' x) (go r) end) body)
    | WMsgOut enc => Hout enc
    end.
End WopInd.

Lemma run_wbody_cons x rest dw p :
  run_wbody (x :: rest) dw p =
  let '(dw1, p1, e) := run_wop x dw p in
  match e with Some _ => (dw1, p1, e) | None => run_wbody rest dw1 p1 end.
Proof. reflexivity. Qed.
Lemma spec_wop_reg o name body ret a :
  spec_wop o (WMsgReg name body ret) a =
  let '(d, r) := spec_wbody body ([], None) in
  let r' := match r with
            | Some _ => r
            | None => match ret with
                      | RetSticky => option_map XE (snd d)
                      | RetNil => None
                      | RetErr => Some XScript
                      | RetPanic => Some XRecovered
                      end
            end in
  match r' with
  | Some e => (a, Some e)
  | None => match snd a with
            | Some e => (a, Some (XE e))
            | None => (aw_emit (put_lp4O o (fst d) ++ put_lp4O o name) a, None)
            end
  end.
Proof. reflexivity. Qed.
Lemma spec_wbody_cons x rest d :
  spec_wbody (x :: rest) d =
  let '(d1, e) := spec_wop BE x d in
  match e with Some _ => (d1, e) | None => spec_wbody rest d1 end.
Proof. reflexivity. Qed.

Definition w_ok (w : writer) : Prop := wlen w <= w_cap w.

Lemma ensure_buf n w : w_buf (ensure n w) = w_buf w /\ w_err (ensure n w) = w_err w /\ w_ord (ensure n w) = w_ord w.
Proof. unfold ensure. destruct (w_err w) eqn:E; [auto|]. destruct (_ <? _); cbn; auto. Qed.
(** after ensureCapacity(n) there is room for n bytes: append never reallocates *)
Lemma ensure_room n w : w_ok w -> w_err w = None -> wlen (ensure n w) + n <= w_cap (ensure n w).
Proof.
  unfold w_ok, ensure, wlen. intros Hok ->. destruct (w_cap w - N.of_nat (length (w_buf w)) <? n) eqn:E; cbn [w_buf w_cap].
  - destruct (2 * w_cap w <? w_cap w + n) eqn:E1; [destruct (w_cap w + n <? n) eqn:E2|destruct (2 * w_cap w <? n) eqn:E2]; lia.
  - lia.
Qed.
Lemma ensure_cap n w : w_ok w -> w_cap w <= w_cap (ensure n w) <= N.max (w_cap w) (2 * (wlen w + n)).
Proof.
  unfold w_ok, ensure, wlen. intros Hok. destruct (w_err w); [lia|].
  destruct (w_cap w - N.of_nat (length (w_buf w)) <? n) eqn:E; cbn [w_cap]; [|lia].
  destruct (2 * w_cap w <? w_cap w + n) eqn:E1; [destruct (w_cap w + n <? n) eqn:E2|destruct (2 * w_cap w <? n) eqn:E2]; lia.
Qed.

Lemma emit_err bs w e : w_err w = Some e -> emit bs w = w.
Proof. unfold emit. intros ->. reflexivity. Qed.

Lemma emit_spec bs w : w_ok w -> w_err w = None ->
  w_buf (emit bs w) = w_buf w ++ bs /\ w_err (emit bs w) = None /\ w_ord (emit bs w) = w_ord w
  /\ w_cap (emit bs w) = w_cap (ensure (N.of_nat (length bs)) w)          (* append did not reallocate *)
  /\ w_ok (emit bs w).
Proof.
  intros Hok He. unfold emit. rewrite He.
  pose proof (ensure_room (N.of_nat (length bs)) w Hok He) as Hr.
  destruct (ensure_buf (N.of_nat (length bs)) w) as (Hb & Hee & Ho).
  unfold app_raw, w_ok, wlen in *. cbn [w_buf w_cap w_err w_ord]. rewrite Hb, Hee, Ho, He in *.
  replace (_ <=? _) with true by lia. rewrite app_length. repeat split; auto. lia.
Qed.

(** what an operation other than Reset does to the shape of a Writer: len <= cap still holds, the byte order stays,
    length and capacity only grow, the capacity to at most max(capacity before, 2 * length after) *)
Definition wstep (w w' : writer) : Prop :=
  w_ok w' /\ w_ord w' = w_ord w /\ wlen w <= wlen w' /\ w_cap w <= w_cap w' <= N.max (w_cap w) (2 * wlen w').
Lemma wstep_refl w : w_ok w -> wstep w w.
Proof. unfold wstep. intros H. repeat split; auto; lia. Qed.
Lemma wstep_trans a b c : wstep a b -> wstep b c -> wstep a c.
Proof. unfold wstep. intros (H1 & H2 & H3 & H4) (G1 & G2 & G3 & G4). rewrite G2, H2. repeat split; auto; lia. Qed.

(** [f] acts on what a Writer holds, (bytes, sticky error) = [abs], as [g] does; the capacity, which [abs] forgets, is covered
    by [wstep]. Closed under composition ([wdoes_comp]), so an operation is proved emit by emit *)
Definition wdoes (o : order) (f : writer -> writer) (g : aw -> aw) : Prop :=
  forall w, w_ok w -> w_ord w = o -> wstep w (f w) /\ abs (f w) = g (abs w).
Lemma wdoes_id o : wdoes o (fun w => w) (fun a => a).
Proof. intros w H _. split; [apply wstep_refl, H|reflexivity]. Qed.
Lemma wdoes_comp o f1 g1 f2 g2 : wdoes o f1 g1 -> wdoes o f2 g2 -> wdoes o (fun w => f2 (f1 w)) (fun a => g2 (g1 a)).
Proof.
  intros H1 H2 w Hok Ho. destruct (H1 w Hok Ho) as [S1 A1]. pose proof S1 as (Hok1 & Ho1 & _).
  destruct (H2 (f1 w) Hok1 (eq_trans Ho1 Ho)) as [S2 A2]. split; [exact (wstep_trans _ _ _ S1 S2)|rewrite A2, A1; reflexivity].
Qed.
Lemma wdoes_ext o f g g' : (forall a, g a = g' a) -> wdoes o f g -> wdoes o f g'.
Proof. intros E H w Hok Ho. rewrite <- E. exact (H w Hok Ho). Qed.

Lemma emit_does o bs : wdoes o (emit bs) (aw_emit bs).
Proof.
  intros w H _. unfold abs, aw_emit. cbn [fst snd]. destruct (w_err w) eqn:E.
  - rewrite (emit_err _ _ _ E), E. split; [apply wstep_refl, H|reflexivity].
  - destruct (emit_spec bs w H E) as (Hb & He & Ho & Hc & Hok). pose proof (ensure_cap (N.of_nat (length bs)) w H) as Hcap.
    rewrite Hb, He. split; [|reflexivity]. unfold wstep, wlen in *. rewrite Hb, Hc, app_length. repeat split; auto; lia.
Qed.
Lemma aw_emit_app a b x : aw_emit b (aw_emit a x) = aw_emit (a ++ b) x.
Proof. unfold aw_emit. destruct x as [bs [e|]]; cbn [fst snd]; [reflexivity|]. rewrite app_assoc. reflexivity. Qed.
Lemma aw_emit_nil x : aw_emit [] x = x.
Proof. unfold aw_emit. destruct x as [bs [e|]]; cbn [fst snd]; [reflexivity|]. rewrite app_nil_r. reflexivity. Qed.
Lemma emits_does o cs : wdoes o (emits cs) (aw_emit (concat cs)).
Proof.
  induction cs as [|c r IH]; cbn [concat].
  - apply (wdoes_ext o _ (fun a => a)); [intros a; symmetry; apply aw_emit_nil|apply wdoes_id].
  - apply (wdoes_ext o _ (fun a => aw_emit (concat r) (aw_emit c a))); [intros a; apply aw_emit_app|].
    exact (wdoes_comp o _ _ _ _ (emit_does o c) IH).
Qed.
Lemma set_err_does o e : wdoes o (set_err e) (aw_err e).
Proof.
  intros w H _. unfold set_err, abs, aw_err, wstep, w_ok, wlen in *. cbn [fst snd].
  destruct (w_err w) eqn:E; cbn [w_buf w_err w_cap w_ord]; rewrite ?E; (split; [repeat split; auto; lia|reflexivity]).
Qed.
Lemma apply_wres_does o r : wdoes o (apply_wres r) (aw_res r).
Proof.
  unfold apply_wres, aw_res, flat. destruct (snd r); try apply emits_does.
  exact (wdoes_comp o _ _ _ _ (emits_does o (fst r)) (set_err_does o e)).
Qed.

Lemma emits_err cs w e : w_err w = Some e -> emits cs w = w.
Proof. intros He. induction cs as [|c r IH]; [reflexivity|]. cbn [emits fold_left]. rewrite (emit_err _ _ _ He). exact IH. Qed.
Lemma emits_none cs w : w_ok w -> w_err w = None -> w_err (emits cs w) = None.
Proof.
  intros Hok He. destruct (emits_does (w_ord w) cs w Hok eq_refl) as [_ H]. unfold abs, aw_emit in H. cbn [fst snd] in H.
  rewrite He in H. injection H as _ H. exact H.
Qed.

Lemma w_byteslen_does o size bs : wdoes o (w_byteslen size bs) (aw_byteslen o size bs).
Proof.
  intros w H Ho. unfold w_byteslen, aw_byteslen. cbn [abs snd]. destruct (w_err w) eqn:E; [split; [apply wstep_refl, H|reflexivity]|].
  assert (Hs : forall e, wstep w (set_err e w) /\ abs (set_err e w) = aw_err e (abs w)) by (intros e; apply (set_err_does o e w H Ho)).
  assert (He : forall k, wstep w (emits [beO o k (N.of_nat (length bs)); bs] w) /\
                         abs (emits [beO o k (N.of_nat (length bs)); bs] w) = aw_emit (beO o k (N.of_nat (length bs)) ++ bs) (abs w)).
  { intros k. destruct (emits_does o [beO o k (N.of_nat (length bs)); bs] w H Ho) as [S A]. cbn [concat] in A. rewrite app_nil_r in A. auto. }
  rewrite Ho. unfold put_lpkO, put_lpO, put_lp4O, put_u32O.
  destruct (size_cases size) as [->|[->|[->|D]]]; [| |apply He|rewrite !D; apply Hs].
  - change (256 ^ N.of_nat 1) with 256. destruct (255 <? N.of_nat (length bs)) eqn:E2;
      [replace (N.of_nat (length bs) <? 256) with false by lia; apply Hs|replace (N.of_nat (length bs) <? 256) with true by lia; apply He].
  - change (256 ^ N.of_nat 2) with 65536. destruct (65535 <? N.of_nat (length bs)) eqn:E2;
      [replace (N.of_nat (length bs) <? 65536) with false by lia; apply Hs|replace (N.of_nat (length bs) <? 65536) with true by lia; apply He].
Qed.

Lemma plain_wop_does o op : op <> WReset -> wdoes o (plain_wop op) (spec_plain o op).
Proof.
  intros Hn. destruct op; try contradiction; try apply wdoes_id; intros w H Ho; cbn [plain_wop spec_plain]; rewrite ?Ho.
  1,7,8: exact (apply_wres_does o _ w H Ho).
  1-3: exact (emit_does o _ w H Ho).
  1-2: exact (w_byteslen_does o _ _ w H Ho).
Qed.
Lemma wop_eq_reset op : op = WReset \/ op <> WReset.
Proof. destruct op; auto; right; discriminate. Qed.
Lemma plain_wop_abs op w : w_ok w -> abs (plain_wop op w) = spec_plain (w_ord w) op (abs w).
Proof.
  intros H. destruct (wop_eq_reset op) as [->|Hn]; [reflexivity|]. apply (plain_wop_does (w_ord w) op Hn w H eq_refl).
Qed.
Lemma plain_wop_inv op w : w_ok w -> w_ok (plain_wop op w) /\ w_ord (plain_wop op w) = w_ord w.
Proof.
  intros H. destruct (wop_eq_reset op) as [->|Hn].
  - unfold w_ok, wlen. cbn. split; [lia|reflexivity].
  - destruct (plain_wop_does (w_ord w) op Hn w H eq_refl) as [(? & ? & _) _]. split; assumption.
Qed.

Lemma w_clean_spec w : w_clean w = true <-> w_buf w = [] /\ w_err w = None.
Proof.
  unfold w_clean. destruct (w_buf w), (w_err w); split; try discriminate; auto;
    intros (H1 & H2); try discriminate H1; try discriminate H2.
Qed.
Lemma w_clean_ok w : w_clean w = true -> w_ok w.
Proof. intros H. apply w_clean_spec in H as (H & _). unfold w_ok, wlen. rewrite H. cbn. lia. Qed.
Lemma new_writer_clean : w_clean new_writer = true.
Proof. reflexivity. Qed.
Lemma w_reset_clean w : w_clean (w_reset w) = true.
Proof. reflexivity. Qed.

Lemma take_id_Forall {A} (P : N * A -> Prop) k l x rest : take_id k l = Some (x, rest) -> Forall P l -> P (k, x) /\ Forall P rest.
Proof.
  revert x rest. induction l as [|[i w] r IH]; intros x rest; cbn [take_id]; [discriminate|].
  destruct (i =? k) eqn:E.
  - apply N.eqb_eq in E. subst i. intros [= <- <-] H. inversion H; subst. auto.
  - destruct (take_id k r) as [[y r']|]; [|discriminate]. intros [= <- <-] H. inversion H; subst.
    destruct (IH y r' eq_refl H3) as [H4 H5]. auto.
Qed.
Lemma take_id_forallb {A} (f : N * A -> bool) k l x rest :
  take_id k l = Some (x, rest) -> forallb f l = true -> f (k, x) = true /\ forallb f rest = true.
Proof.
  intros E H. rewrite forallb_forall, <- Forall_forall in H.
  destruct (take_id_Forall (fun y => f y = true) k l x rest E H) as [H1 H2]. split; [exact H1|].
  apply forallb_forall, Forall_forall, H2.
Qed.

Lemma wget_clean p id dw p1 : wpool_clean p = true -> wget p = ((id, dw), p1) ->
  w_clean dw = true /\ wpool_clean p1 = true.
Proof.
  unfold wget, wpool_clean. intros Hc. destruct (wp_keys p) as [|k ks].
  - intros [= <- <- <-]. cbn. auto.
  - destruct (take_id k (wp_free p)) as [[w rest]|] eqn:E.
    + intros [= <- <- <-]. cbn [wp_free]. destruct (take_id_forallb _ _ _ _ _ E Hc) as [H1 H2]. auto.
    + intros [= <- <- <-]. cbn. auto.
Qed.
Lemma wput_clean id dw p : wpool_clean p = true -> wpool_clean (wput (id, dw) p) = true.
Proof. unfold wput, wpool_clean. intros Hc. cbn [wp_free forallb fst snd]. rewrite w_reset_clean. exact Hc. Qed.
(** NewWriterFromPool(opts) on a clean pool: an empty, error-free Writer of the requested (default: big-endian) order,
    whatever the pool's history *)
Lemma get_writer_clean ord p id dw p1 : wpool_clean p = true -> get_writer_opt ord p = ((id, dw), p1) ->
  w_buf dw = [] /\ w_err dw = None /\ w_ord dw = match ord with Some o => o | None => BE end /\ wpool_clean p1 = true.
Proof.
  unfold get_writer_opt. intros Hc. destruct (wget p) as [[i w] p0] eqn:E. destruct (wget_clean p i w p0 Hc E) as [Hw Hp].
  apply w_clean_spec in Hw as (H1 & H2). intros [= <- <- <-]. cbn [w_buf w_err w_ord]. auto.
Qed.

(** the frame of WriteMessage: two length-prefixed blocks; a sticky error after either cuts the buffer back to where
    WriteMessage started.  On a Writer in the error state nothing is appended, on any other both blocks are. *)
Definition wframe (c1 c2 : list bytes) (w : writer) : writer * option xerr :=
  let start := length (w_buf w) in
  let w1 := emits c1 w in
  match w_err w1 with
  | Some e => (w_trunc start w1, Some (XE e))
  | None => let w2 := emits c2 w1 in
            match w_err w2 with
            | Some e => (w_trunc start w2, Some (XE e))
            | None => (w2, None)
            end
  end.
Lemma w_trunc_self w : w_trunc (length (w_buf w)) w = w.
Proof. unfold w_trunc. rewrite firstn_all. destruct w; reflexivity. Qed.
Lemma wframe_spec c1 c2 w : w_ok w ->
  wframe c1 c2 w = match w_err w with
                   | Some e => (w, Some (XE e))
                   | None => (emits c2 (emits c1 w), None)
                   end.
Proof.
  intros Hok. unfold wframe. destruct (w_err w) eqn:Ew.
  - rewrite (emits_err _ _ _ Ew), Ew, w_trunc_self. reflexivity.
  - rewrite (emits_none _ _ Hok Ew). destruct (emits_does (w_ord w) c1 w Hok eq_refl) as [(Hok1 & _) _].
    rewrite (emits_none _ _ Hok1 (emits_none _ _ Hok Ew)). reflexivity.
Qed.
Lemma frame_does o a b c d : wdoes o (fun w => emits [c; d] (emits [a; b] w)) (aw_emit ((a ++ b) ++ (c ++ d))).
Proof.
  apply (wdoes_ext o _ (fun x => aw_emit (concat [c; d]) (aw_emit (concat [a; b]) x))).
  - intros x. rewrite aw_emit_app. cbn [concat]. rewrite !app_nil_r. reflexivity.
  - exact (wdoes_comp o _ _ _ _ (emits_does o [a; b]) (emits_does o [c; d])).
Qed.

Lemma run_wop_reg name body ret w p :
  run_wop (WMsgReg name body ret) w p =
  let '((id, dw), p1) := get_writer_opt None p in
  let '(dw', p2, r) := run_wbody body dw p1 in
  let p3 := wput (id, dw') p2 in
  match (match r with Some _ => r | None => ret_err ret dw' end) with
  | Some e => (w_trunc (length (w_buf w)) w, p3, Some e)
  | None => let '(w', e) := wframe [put_u32O (w_ord w) (wlen dw'); w_buf dw'] [put_u32O (w_ord w) (N.of_nat (length name)); name] w in
            (w', p3, e)
  end.
Proof.
  cbn [run_wop]. fold run_wbody. destruct (get_writer_opt None p) as [[id dw] p1]. destruct (run_wbody body dw p1) as [[dw' p2] r].
  destruct (match r with Some _ => r | None => ret_err ret dw' end); [reflexivity|].
  unfold wframe. destruct (w_err _); [reflexivity|]. destruct (w_err _); reflexivity.
Qed.
Lemma run_wop_out d w p :
  run_wop (WMsgOut (Some (Some d))) w p =
  let '(w', e) := wframe [put_u32O (w_ord w) (N.of_nat (length d)); d] [put_u32O (w_ord w) 0; []] w in (w', p, e).
Proof. cbn [run_wop]. unfold wframe. destruct (w_err _); [reflexivity|]. destruct (w_err _); reflexivity. Qed.

Definition refines (op : wop) : Prop :=
  forall w p w' p' e, w_ok w -> wpool_clean p = true -> run_wop op w p = (w', p', e) ->
    (abs w', e) = spec_wop (w_ord w) op (abs w) /\ wpool_clean p' = true /\ w_ord w' = w_ord w /\ w_ok w'.

Lemma run_wbody_spec body : Forall refines body ->
  forall dw p dw' p' e, w_ok dw -> wpool_clean p = true -> w_ord dw = BE -> run_wbody body dw p = (dw', p', e) ->
    (abs dw', e) = spec_wbody body (abs dw) /\ wpool_clean p' = true /\ w_ord dw' = BE /\ w_ok dw'.
Proof.
  induction 1 as [|x rest Hx Hr IH]; intros dw p dw' p' e Hok Hc Ho.
  - intros [= <- <- <-]. auto.
  - rewrite run_wbody_cons, spec_wbody_cons. destruct (run_wop x dw p) as [[dw1 p1] e1] eqn:E1.
    destruct (Hx dw p dw1 p1 e1 Hok Hc E1) as (Hs & Hc1 & Ho1 & Hok1). rewrite Ho in Hs, Ho1. rewrite <- Hs.
    destruct e1.
    + intros [= <- <- <-]. auto.
    + apply IH; auto.
Qed.

Definition is_plain (op : wop) : bool := match op with WMsgReg _ _ _ | WMsgOut _ => false | _ => true end.
Lemma run_wop_plain op w p : is_plain op = true -> run_wop op w p = (plain_wop op w, p, None).
Proof. destruct op; try discriminate; reflexivity. Qed.
Lemma spec_wop_plain o op a : is_plain op = true -> spec_wop o op a = (spec_plain o op a, None).
Proof. destruct op; try discriminate; reflexivity. Qed.

Lemma wframe_refines a b c d w w' e : w_ok w -> wframe [a; b] [c; d] w = (w', e) ->
  (abs w', e) = match snd (abs w) with
                | Some x => (abs w, Some (XE x))
                | None => (aw_emit ((a ++ b) ++ (c ++ d)) (abs w), None)
                end
  /\ w_ord w' = w_ord w /\ w_ok w'.
Proof.
  intros Hok. rewrite (wframe_spec _ _ _ Hok). change (snd (abs w)) with (w_err w). destruct (w_err w).
  - intros [= <- <-]. auto.
  - intros E. apply pair_equal_spec in E as [<- <-].
    destruct (frame_does (w_ord w) a b c d w Hok eq_refl) as [(Hok' & Ho' & _) ->]. auto.
Qed.

Lemma refines_plain op : is_plain op = true -> refines op.
Proof.
  intros Hp w p w' p' e Hok Hc. rewrite (run_wop_plain _ _ _ Hp), (spec_wop_plain _ _ _ Hp). intros [= <- <- <-].
  rewrite (plain_wop_abs op w Hok). destruct (plain_wop_inv op w Hok). auto.
Qed.

Theorem run_wop_refines op : refines op.
Proof.
  induction op as [b v|z|n|bs|size bs|s|ty v|l| |name body ret IH|enc] using wop_ind'; try (apply refines_plain; reflexivity);
    intros w p w' p' e Hok Hc.
  - rewrite run_wop_reg, spec_wop_reg. cbv zeta.
    destruct (get_writer_opt None p) as [[id dw] p1] eqn:Eg. destruct (get_writer_clean None p id dw p1 Hc Eg) as (Hb0 & He0 & Ho0 & Hc1).
    destruct (run_wbody body dw p1) as [[dw' p2] r] eqn:Eb.
    assert (Hokdw : w_ok dw) by (unfold w_ok, wlen; rewrite Hb0; cbn; lia).
    destruct (run_wbody_spec body IH dw p1 dw' p2 r Hokdw Hc1 Ho0 Eb) as (Hs & Hc2 & Ho2 & Hok2).
    assert (Hadw : abs dw = ([], None)) by (unfold abs; rewrite Hb0, He0; reflexivity).
    rewrite Hadw in Hs. rewrite <- Hs. cbn [snd fst abs]. fold (abs w).
    pose proof (wput_clean id dw' p2 Hc2) as Hc3.
    change (match ret with RetSticky => option_map XE (w_err dw') | RetNil => None | RetErr => Some XScript | RetPanic => Some XRecovered end)
      with (ret_err ret dw').
    destruct (match r with Some _ => r | None => ret_err ret dw' end) as [x|].
    + intros [= <- <- <-]. rewrite w_trunc_self. auto.
    + destruct (wframe _ _ w) as [w1 e1] eqn:Ef. intros [= <- <- <-].
      destruct (wframe_refines _ _ _ _ w w1 e1 Hok Ef) as (Ha & Hor & Hk). rewrite Ha. cbn [abs snd].
      destruct (w_err w); auto.
  - destruct enc as [[d|]|]; [|intros [= <- <- <-]; auto..].
    rewrite run_wop_out. destruct (wframe _ _ w) as [w1 e1] eqn:Ef. intros [= <- <- <-].
    destruct (wframe_refines _ _ _ _ w w1 e1 Hok Ef) as (Ha & Hor & Hk). rewrite Ha. cbn [spec_wop abs snd].
    destruct (w_err w); auto.
Qed.

Theorem run_wops_refines ops : forall w p w' p' es, w_ok w -> wpool_clean p = true -> run_wops ops w p = (w', p', es) ->
  (abs w', es) = spec_wops (w_ord w) ops (abs w) /\ wpool_clean p' = true /\ w_ord w' = w_ord w /\ w_ok w'.
Proof.
  induction ops as [|x r IH]; intros w p w' p' es Hok Hc; cbn [run_wops spec_wops].
  - intros [= <- <- <-]. auto.
  - destruct (run_wop x w p) as [[w1 p1] e] eqn:E1. destruct (run_wop_refines x w p w1 p1 e Hok Hc E1) as (Hs & Hc1 & Ho1 & Hok1).
    rewrite <- Hs. destruct (run_wops r w1 p1) as [[w2 p2] es'] eqn:E2.
    destruct (IH w1 p1 w2 p2 es' Hok1 Hc1 E2) as (Hs2 & Hc2 & Ho2 & Hok2). rewrite Ho1 in Hs2. rewrite <- Hs2.
    intros [= <- <- <-]. rewrite Ho2, Ho1. auto.
Qed.

(** the error is sticky: nothing but Reset changes a Writer in the error state; WriteMessage returns an error *)
Lemma spec_wop_sticky o op b e : op <> WReset -> fst (spec_wop o op (b, Some e)) = (b, Some e).
Proof.
  intros Hn. destruct op; try reflexivity; try contradiction.
  1-3: cbn [spec_wop spec_plain fst]; unfold aw_res, aw_emit, aw_err; cbn [fst snd];
       match goal with |- context [snd ?r] => destruct (snd r) end; reflexivity.
  - rewrite spec_wop_reg. destruct (spec_wbody body ([], None)) as [d r]. cbn [snd].
    destruct (match r with Some _ => r | None => _ end); reflexivity.
  - cbn [spec_wop]. destruct enc as [[d|]|]; reflexivity.
Qed.
Lemma spec_wop_sticky_msg o op b e : is_plain op = false -> exists x, snd (spec_wop o op (b, Some e)) = Some x.
Proof.
  destruct op; try discriminate; intros _.
  - rewrite spec_wop_reg. destruct (spec_wbody body ([], None)) as [d r]. cbn [snd].
    destruct (match r with Some _ => r | None => _ end); cbn [snd]; eauto.
  - cbn [spec_wop]. destruct enc as [[d|]|]; cbn [snd]; eauto.
Qed.

(** what an operation appends does not depend on what the Writer already holds *)
Definition enc_of (o : order) (op : wop) : aw * option xerr := spec_wop o op ([], None).
Lemma aw_emit_prefix b x : aw_emit x (b, None) = (b ++ x, None).
Proof. reflexivity. Qed.
Lemma aw_res_prefix r b : aw_res r (b, None) = (b ++ fst (aw_res r ([], None)), snd (aw_res r ([], None))).
Proof. unfold aw_res, aw_emit, aw_err. cbn [fst snd]. destruct (snd r); reflexivity. Qed.
Lemma spec_wop_prefix o op b : op <> WReset ->
  spec_wop o op (b, None) = ((b ++ fst (fst (enc_of o op)), snd (fst (enc_of o op))), snd (enc_of o op)).
Proof.
  intros Hn. unfold enc_of. destruct op; try contradiction.
  1,7,8: cbn [spec_wop spec_plain fst snd]; rewrite aw_res_prefix; reflexivity.
  1-3: cbn [spec_wop spec_plain fst snd aw_emit app]; reflexivity.
  1-2: cbn [spec_wop spec_plain fst snd]; unfold aw_byteslen; cbn [fst snd];
       match goal with |- context [put_lpkO ?o ?s ?x] => destruct (put_lpkO o s x) end; cbn [aw_emit aw_err fst snd app]; rewrite ?app_nil_r; reflexivity.
  - rewrite !spec_wop_reg. destruct (spec_wbody body ([], None)) as [d r]. cbn [snd fst].
    destruct (match r with Some _ => r | None => _ end); cbn [fst snd aw_emit app]; rewrite ?app_nil_r; reflexivity.
  - cbn [spec_wop]. destruct enc as [[d|]|]; cbn [fst snd aw_emit app]; rewrite ?app_nil_r; reflexivity.
Qed.

(** the frame of a nested message: 4-byte length of the body, the body exactly as a fresh big-endian Writer produces it,
    4-byte length of the name, the name — in the outer Writer's byte order, at every nesting depth *)
Theorem nested_frame o name body b d :
  spec_wbody body ([], None) = ((d, None), None) ->
  spec_wop o (WMsgReg name body RetSticky) (b, None) = ((b ++ put_lp4O o d ++ put_lp4O o name, None), None).
Proof. intros H. rewrite spec_wop_reg, H. reflexivity. Qed.
(** a failing body leaves the outer Writer untouched (WriteMessage's roll-back) *)
Theorem nested_rollback o name body ret a e :
  snd (spec_wop o (WMsgReg name body ret) a) = Some e -> fst (spec_wop o (WMsgReg name body ret) a) = a.
Proof.
  rewrite spec_wop_reg. destruct (spec_wbody body ([], None)) as [d r].
  destruct (match r with Some _ => r | None => _ end); cbn [fst snd]; [reflexivity|].
  destruct (snd a); cbn [fst snd]; [reflexivity|discriminate].
Qed.

Theorem run_wop_cap op w p w' p' e : w_ok w -> op <> WReset -> run_wop op w p = (w', p', e) ->
  w_cap w <= w_cap w' /\ w_cap w' <= N.max (w_cap w) (2 * wlen w') \/ (w_cap w' = w_cap w /\ e <> None).
Proof.
  intros Hok Hn. destruct (is_plain op) eqn:Hp.
  { rewrite (run_wop_plain _ _ _ Hp). intros [= <- <- <-]. left.
    destruct (plain_wop_does (w_ord w) op Hn w Hok eq_refl) as [(_ & _ & _ & H) _]. exact H. }
  assert (Hf : forall a b c d w1 e1, wframe [a; b] [c; d] w = (w1, e1) ->
                 w_cap w <= w_cap w1 /\ w_cap w1 <= N.max (w_cap w) (2 * wlen w1) \/ (w_cap w1 = w_cap w /\ e1 <> None)).
  { intros a b c d w1 e1. rewrite (wframe_spec _ _ _ Hok). destruct (w_err w).
    - intros [= <- <-]. right. split; [reflexivity|discriminate].
    - intros E. apply pair_equal_spec in E as [<- <-]. left.
      destruct (frame_does (w_ord w) a b c d w Hok eq_refl) as [(_ & _ & _ & H) _]. exact H. }
  destruct op; try discriminate Hp.
  - rewrite run_wop_reg. cbv zeta. destruct (get_writer_opt None p) as [[id dw] p1]. destruct (run_wbody body dw p1) as [[dw' p2] r].
    destruct (match r with Some _ => r | None => ret_err ret dw' end).
    + intros [= <- <- <-]. right. split; [reflexivity|discriminate].
    + destruct (wframe _ _ w) as [w1 e1] eqn:Ef. intros [= <- <- <-]. exact (Hf _ _ _ _ _ _ Ef).
  - destruct enc as [[d|]|]; [|intros [= <- <- <-]; right; split; [reflexivity|discriminate]..].
    rewrite run_wop_out. destruct (wframe _ _ w) as [w1 e1] eqn:Ef. intros [= <- <- <-]. exact (Hf _ _ _ _ _ _ Ef).
Qed.

Definition r_ok (r : reader) : Prop := r_pos r <= rlen r.

Lemma rrem_length r : r_ok r -> N.of_nat (length (rrem r)) = rlen r - r_pos r.
Proof. unfold r_ok, rrem, rlen. intros H. rewrite skipn_length. lia. Qed.
Lemma rrem_suffix r : r_buf r = firstn (N.to_nat (r_pos r)) (r_buf r) ++ rrem r.
Proof. unfold rrem. symmetry. apply firstn_skipn. Qed.

Lemma of_resO_good {A : Type} (bs : bytes) (r : Prim.res (A * bytes)%type) :
  (forall a t, r = Ok (a, t) -> exists h, bs = h ++ t) -> goodB false bs (of_resO bs r).
Proof.
  intros H. destruct r as [[a t]|e]; cbn [of_resO]; [|apply goodB_fail].
  destruct (H a t eq_refl) as [h ->]. replace (length (h ++ t) - length t)%nat with (length h) by (rewrite app_length; lia).
  apply (goodB_skip false); [discriminate|apply goodB_ret].
Qed.
Lemma rd_uvarint_suffix bs v t : rd_uvarint bs = Ok (v, t) -> exists h, bs = h ++ t.
Proof. unfold rd_uvarint. intros H. destruct (uv_dec_consumes bs 0 0 0 v t ltac:(lia) H) as (h & -> & _). eauto. Qed.
Lemma rd_varint_suffix bs v t : rd_varint bs = Ok (v, t) -> exists h, bs = h ++ t.
Proof.
  unfold rd_varint. destruct (rd_uvarint bs) as [[u t']|e] eqn:E; cbn [bind]; [|discriminate].
  intros [= _ <-]. eapply rd_uvarint_suffix; exact E.
Qed.

Lemma lpnO_good o k bs : (1 <= k)%nat -> goodB true bs (lpnO o k bs).
Proof. intros Hk. apply (goodB_bind true false); [apply fixedO_good, Hk|]. intros n t _. exact (takeO_good n t). Qed.

Lemma msg_frame_good o bs : goodB true bs (msg_frame o bs).
Proof.
  apply (goodB_bind true false); [apply fixedO_good; lia|]. intros n t _. cbn [fst snd].
  destruct (take_N n t) as [[body t']|e] eqn:E; [|apply goodB_fail]. destruct (take_N_suffix _ _ _ _ E) as (-> & <-).
  apply (goodB_skip true); [auto|]. apply (goodB_bind true false); [apply lp4O_good|].
  intros s r _. apply goodB_tick; [reflexivity|apply goodB_ret].
Qed.

Lemma r_step_inv {A} (f : bytes -> MO (A * bytes)) r : (forall bs, goodB false bs (f bs)) -> r_ok r ->
  r_ok (fst (r_step f r)) /\ r_buf (fst (r_step f r)) = r_buf r /\ r_ord (fst (r_step f r)) = r_ord r
  /\ r_elems (fst (r_step f r)) = r_elems r.
Proof.
  intros Hf Hok. unfold r_step. destruct (r_err r); [auto|].
  pose proof (rrem_length r Hok) as Hl.
  destruct (Hf (rrem r)) as [(a & t & h & H1 & H2 & _ & H3 & _)|(e & H1 & H2 & _)]; rewrite H1; cbn [fst r_buf r_ord r_pos r_elems];
    unfold r_ok, rlen in *; cbn [r_pos r_buf]; repeat split; auto.
  - rewrite H2, app_length in Hl. lia.
  - lia.
Qed.
Lemma r_stepS_inv {A} (f : N -> rst -> MO (A * rst)) r : (forall tot st, goodAt false st (f tot st)) -> r_ok r ->
  r_ok (fst (r_stepS f r)) /\ r_buf (fst (r_stepS f r)) = r_buf r /\ r_ord (fst (r_stepS f r)) = r_ord r.
Proof.
  intros Hf Hok. unfold r_stepS. destruct (r_err r); [auto|].
  pose proof (rrem_length r Hok) as Hl.
  destruct (Hf (rlen r) (rrem r, r_elems r)) as [(a & st' & h & H1 & H2 & _ & _ & H3)|(e & H1 & H2)]; rewrite H1; cbn [fst snd r_buf r_ord r_pos] in *;
    unfold r_ok, rlen in *; cbn [r_pos r_buf]; repeat split; auto.
  - rewrite H2, app_length in Hl. lia.
  - lia.
Qed.
Theorem plain_rop_inv op r : r_ok r ->
  r_ok (fst (plain_rop op r)) /\ r_buf (fst (plain_rop op r)) = r_buf r /\ r_ord (fst (plain_rop op r)) = r_ord r.
Proof.
  intros Hok.
  assert (Hb : forall A (f : bytes -> MO (A * bytes)) (g : A -> rval), (forall bs, goodB false bs (f bs)) ->
            r_ok (fst (lift_r g (r_step f r))) /\ r_buf (fst (lift_r g (r_step f r))) = r_buf r /\ r_ord (fst (lift_r g (r_step f r))) = r_ord r).
  { intros A f g Hf. destruct (r_step_inv f r Hf Hok) as (? & ? & ? & _). auto. }
  assert (Hlp : forall k, (1 <= k)%nat -> forall bs, goodB false bs (lpnO (r_ord r) k bs)).
  { intros k Hk bs. eapply goodB_false, lpnO_good, Hk. }
  destruct op; cbn [plain_rop].
  - apply Hb. intros bs. eapply goodB_false, rprimO_good.
  - apply Hb. intros bs. apply of_resO_good. intros a t. apply rd_varint_suffix.
  - apply Hb. intros bs. apply of_resO_good. intros a t. apply rd_uvarint_suffix.
  - apply Hb. exact (takeO_good n).
  - destruct (size_cases size) as [->|[->|[->|E]]]; [apply Hb, Hlp; lia..|rewrite E; auto].
  - apply Hb, Hlp; lia.
  - apply (r_stepS_inv (fun tot st => readO (r_ord r) tot ty st) r); [|exact Hok].
    intros tot st. eapply goodAt_weaken, readO_good. discriminate.
  - destruct tys as [|t0 tr]; [cbn [fst]; auto|].
    apply (r_stepS_inv (fun tot st => read_intoO (r_ord r) tot (t0 :: tr) st) r); [|exact Hok].
    intros tot st. apply read_intoO_good.
  - destruct (r_err r); cbn [fst]; auto. destruct (rlen r <? r_pos r + n) eqn:E; cbn [fst r_buf r_ord]; unfold r_ok, rlen in *; cbn [r_pos r_buf]; auto.
    repeat split; auto. lia.
  - destruct ((p <? 0)%Z || (Z.of_N (rlen r) <? p)%Z) eqn:E; cbn [fst r_buf r_ord]; auto.
    unfold r_ok, rlen in *. cbn [r_pos r_buf]. repeat split; auto. lia.
Qed.

Lemma run_props_inv ops : forall r, r_ok r ->
  r_ok (fst (run_props ops r)) /\ r_buf (fst (run_props ops r)) = r_buf r /\ r_ord (fst (run_props ops r)) = r_ord r.
Proof.
  induction ops as [|x rest IH]; intros r Hok; cbn [run_props fst]; [auto|].
  destruct (plain_rop_inv x r Hok) as (H1 & H2 & H3). destruct (plain_rop x r) as [r1 [v|e]]; cbn [fst] in *; [|auto].
  destruct (IH r1 H1) as (G1 & G2 & G3). destruct (run_props rest r1) as [r2 [vs|e]]; cbn [fst] in *; rewrite <- ?H2, <- ?H3; auto.
Qed.

(** every Reader operation keeps 0 <= Pos() <= len(buf): Remaining() never slices out of range *)
Theorem run_rop_inv env op r p : r_ok r -> r_ok (fst (fst (run_rop env op r p))).
Proof.
  intros Hok. destruct op; cbn [run_rop].
  - destruct (plain_rop op r) as [r1 v] eqn:E. cbn [fst]. pose proof (plain_rop_inv op r Hok) as (H & _). rewrite E in H. exact H.
  - cbn [fst]. unfold r_ok, r_reset, rlen. cbn. lia.
  - pose proof (r_step_inv (msg_frame (r_ord r)) r (fun bs => goodB_false _ _ _ (msg_frame_good _ bs)) Hok) as (H & _).
    destruct (r_step (msg_frame (r_ord r)) r) as [r1 [[body name]|e]]; cbn [fst] in *; [|exact H].
    destruct (lookup name (e_table env)); [|exact H].
    destruct (get_reader_opt body None p) as [[id ir] p1]. destruct (run_props l ir) as [ir' res]. exact H.
Qed.

Lemma r_clean_spec r : r_clean r = true <-> r_buf r = [] /\ r_err r = None /\ r_pos r = 0 /\ r_elems r = 0.
Proof.
  unfold r_clean. destruct (r_buf r), (r_err r); split; try discriminate;
    try (intros (H1 & H2 & _); try discriminate H1; try discriminate H2; fail).
  - intros H. apply andb_prop in H as [H1 H2]. apply N.eqb_eq in H1, H2. auto.
  - intros (_ & _ & -> & ->). reflexivity.
Qed.
Lemma rget_clean p id r p1 : rpool_clean p = true -> rget p = ((id, r), p1) -> r_clean r = true /\ rpool_clean p1 = true.
Proof.
  unfold rget, rpool_clean. intros Hc. destruct (rp_keys p) as [|k ks].
  - intros [= <- <- <-]. cbn. auto.
  - destruct (take_id k (rp_free p)) as [[w rest]|] eqn:E.
    + intros [= <- <- <-]. cbn [rp_free]. destruct (take_id_forallb _ _ _ _ _ E Hc) as [H1 H2]. auto.
    + intros [= <- <- <-]. cbn. auto.
Qed.
(** NewReaderFromPool(data) on a clean pool is NewReader(data) *)
Lemma get_reader_clean data p id r p1 : rpool_clean p = true -> get_reader_opt data None p = ((id, r), p1) ->
  r = new_reader data /\ rpool_clean p1 = true.
Proof.
  unfold get_reader_opt. intros Hc. destruct (rget p) as [[i r0] p0] eqn:E. destruct (rget_clean p i r0 p0 Hc E) as [Hr Hp].
  apply r_clean_spec in Hr as (H1 & H2 & H4 & H5). intros [= <- <- <-]. rewrite H2, H4, H5. auto.
Qed.
Lemma rput_clean id r p : rpool_clean p = true -> rpool_clean (rput (id, r) p) = true.
Proof. unfold rput, rpool_clean. intros Hc. cbn [rp_free forallb fst snd]. rewrite Hc. reflexivity. Qed.

(** what ReadMessage returns does not depend on the pool of Readers *)
Theorem run_rop_pool env op r p : rpool_clean p = true ->
  rpool_clean (snd (fst (run_rop env op r p))) = true /\
  fst (fst (run_rop env op r p)) = fst (fst (run_rop env op r (mkRP [] []))) /\
  snd (run_rop env op r p) = snd (run_rop env op r (mkRP [] [])).
Proof.
  intros Hc. destruct op; cbn [run_rop].
  - destruct (plain_rop op r) as [r1 v]. auto.
  - auto.
  - destruct (r_step (msg_frame (r_ord r)) r) as [r1 [[body name]|e]]; [|auto].
    destruct (lookup name (e_table env)) as [script|]; [|auto].
    destruct (get_reader_opt body None p) as [[id ir] p1] eqn:E.
    destruct (get_reader_clean body p id ir p1 Hc E) as [-> Hp1].
    change (get_reader_opt body None (mkRP [] [])) with ((0, new_reader body), mkRP [] []).
    pose proof (run_props_inv script (new_reader body)) as Hinv.
    destruct (run_props script (new_reader body)) as [ir' res] eqn:Er. cbn [fst snd] in *.
    split; [|rewrite Er; split; reflexivity]. apply rput_clean; exact Hp1.
Qed.

Definition reads (op : prop) : bool :=
  match op with
  | RSeek _ => false
  | RReadInto [] => false
  | RBytesLen size => (size =? 1)%Z || (size =? 2)%Z || (size =? 4)%Z
  | _ => true
  end.
Theorem reader_sticky op r e : r_err r = Some e -> reads op = true -> plain_rop op r = (r, inr (XE e)).
Proof.
  intros He Hr. destruct op; cbn [plain_rop]; try discriminate Hr;
    try (unfold lift_r, r_step, r_stepS; rewrite He; reflexivity).
  - cbn [reads] in Hr.
    destruct (Z.eqb_spec size 1) as [->|_]; [|destruct (Z.eqb_spec size 2) as [->|_]; [|destruct (Z.eqb_spec size 4) as [->|_]; [|discriminate Hr]]];
      unfold lift_r, r_step; rewrite He; reflexivity.
  - destruct tys; [discriminate Hr|]. unfold lift_r, r_stepS. rewrite He. reflexivity.
Qed.
(** Seek clears the error and the element budget: the Reader is a new one positioned at p; Reset makes it new over other data *)
Theorem seek_spec p r : (0 <= p <= Z.of_N (rlen r))%Z ->
  plain_rop (RSeek p) r = (mkR (r_buf r) (Z.to_N p) (r_ord r) None 0, inl RVUnit).
Proof. intros H. cbn [plain_rop]. replace ((p <? 0)%Z || (Z.of_N (rlen r) <? p)%Z) with false by lia. reflexivity. Qed.
Theorem reset_spec data r : r_reset data r = mkR data 0 (r_ord r) None 0.
Proof. reflexivity. Qed.

Lemma goodB_okerr {A} s bs (m : MO (A * bytes)) : goodB s bs m -> okerr (fst m).
Proof. intros [(a & t & h & -> & _)|(e & -> & _)]; auto. Qed.

Definition size_ok (size : Z) (n : N) : Prop :=
  (size = 1%Z /\ n < 256) \/ (size = 2%Z /\ n < 65536) \/ (size = 4%Z /\ n < 4294967296).
(** the operations whose effect the Reader can undo, and the values for which it does *)
Definition wf_op (op : wop) : Prop :=
  match op with
  | WPrim b v => basic_ok b v = true /\ fits (TBasic b) v = true
  | WVarint z => (- 2 ^ 63 <= z < 2 ^ 63)%Z
  | WUvarint n => n < 18446744073709551616
  | WBytes _ => True
  | WBytesLen size bs => size_ok size (N.of_nat (length bs))
  | WShort s => N.of_nat (length s) < 256
  | WWrite ty v => supported ty = true /\ has_typeb ty v = true /\ fits ty v = true
  | WWriteFrom l => l <> [] /\ supported_all l = true
  | _ => False
  end.
Definition inv_op (op : wop) : prop :=
  match op with
  | WPrim b _ => RPrim b
  | WVarint _ => RVarint
  | WUvarint _ => RUvarint
  | WBytes bs => RBytes (N.of_nat (length bs))
  | WBytesLen size _ => RBytesLen size
  | WShort _ => RShort
  | WWrite ty _ => RRead ty
  | WWriteFrom l => RReadInto (map fst l)
  | _ => RSkip 0
  end.
Definition val_op (op : wop) : rval :=
  match op with
  | WPrim _ v => RVGo v
  | WVarint z => RVZ z
  | WUvarint n => RVN n
  | WBytes bs | WBytesLen _ bs | WShort bs => RVBytes bs
  | WWrite ty v => RVGo (norm ty v)
  | WWriteFrom l => RVGos (map (fun p => norm (fst p) (snd p)) l)
  | _ => RVUnit
  end.
(** slice elements the Reader's budget is charged with *)
Definition cnt_op (op : wop) : N :=
  match op with WWrite ty v => cnt ty v | WWriteFrom l => cnt_all l | _ => 0 end.

Lemma r_step_val {A} (f : bytes -> MO (A * bytes)) r a enc rest :
  r_err r = None -> rrem r = enc ++ rest -> goodB false (enc ++ rest) (f (enc ++ rest)) -> fst (f (enc ++ rest)) = OOk (a, rest) ->
  r_step f r = (mkR (r_buf r) (r_pos r + N.of_nat (length enc)) (r_ord r) None (r_elems r), inl a).
Proof.
  intros He Hr Hb Hv. unfold r_step. rewrite He, Hr, Hv.
  destruct Hb as [(a' & t & h & H1 & H2 & _ & H3 & _)|(e & H1 & _)]; rewrite Hv in H1; [|discriminate].
  injection H1 as <- <-. apply app_inv_tail in H2. subst h. rewrite H3. reflexivity.
Qed.
Lemma plain_step_val {A} (g : A -> rval) (f : bytes -> MO (A * bytes)) r a enc rest :
  r_err r = None -> rrem r = enc ++ rest -> goodB false (enc ++ rest) (f (enc ++ rest)) -> fst (f (enc ++ rest)) = OOk (a, rest) ->
  lift_r g (r_step f r) = (mkR (r_buf r) (r_pos r + N.of_nat (length enc)) (r_ord r) None (r_elems r + 0), inl (g a)).
Proof. intros He Hr Hb Hv. rewrite (r_step_val f r a enc rest He Hr Hb Hv), N.add_0_r. reflexivity. Qed.
Lemma r_stepS_val {A} (g : A -> rval) (f : N -> rst -> MO (A * rst)) r a enc rest c :
  r_err r = None -> rrem r = enc ++ rest -> goodAt false (enc ++ rest, r_elems r) (f (rlen r) (enc ++ rest, r_elems r)) ->
  fst (f (rlen r) (enc ++ rest, r_elems r)) = OOk (a, (rest, r_elems r + c)) ->
  lift_r g (r_stepS f r) = (mkR (r_buf r) (r_pos r + N.of_nat (length enc)) (r_ord r) None (r_elems r + c), inl (g a)).
Proof.
  intros He Hr Hb Hv. unfold lift_r, r_stepS. rewrite He, Hr, Hv.
  destruct Hb as [(a' & st' & h & H1 & H2 & _ & H4 & H5)|(e & H1 & _)]; rewrite Hv in H1; [|discriminate].
  injection H1 as <- <-. cbn [fst snd] in *. apply app_inv_tail in H2. subst h. rewrite H5, <- H4. reflexivity.
Qed.
Lemma lpnO_put o k b rest : N.of_nat (length b) < 256 ^ N.of_nat k ->
  fst (lpnO o k (beO o k (N.of_nat (length b)) ++ b ++ rest)) = OOk (b, rest).
Proof.
  intros H. unfold lpnO. rewrite fst_bindO, fixedO_put by exact H. cbn [fst snd]. rewrite take_N_app. reflexivity.
Qed.

Lemma skipn_add {A} (a b : nat) (l : list A) : skipn (a + b) l = skipn b (skipn a l).
Proof. revert l. induction a as [|a IH]; intros l; [reflexivity|]. destruct l; cbn [Nat.add skipn]; [destruct b; reflexivity|apply IH]. Qed.
Lemma rrem_past buf pos o e el enc rest : skipn (N.to_nat pos) buf = enc ++ rest ->
  rrem (mkR buf (pos + N.of_nat (length enc)) o e el) = rest.
Proof.
  unfold rrem. cbn [r_buf r_pos]. intros H.
  replace (N.to_nat (pos + N.of_nat (length enc))) with (N.to_nat pos + length enc)%nat by lia.
  rewrite skipn_add, H, skipn_app, skipn_all, Nat.sub_diag. reflexivity.
Qed.
Lemma rrem_after r enc rest : r_ok r -> rrem r = enc ++ rest ->
  rrem (mkR (r_buf r) (r_pos r + N.of_nat (length enc)) (r_ord r) None (r_elems r)) = rest.
Proof. intros _. apply rrem_past. Qed.

(** WriteBytesWithLength(v, size) / ReadBytesWithLength(size) for an accepted [size]: the prefix has [k = size] bytes *)
Lemma size_ok_inv o size bs : size_ok size (N.of_nat (length bs)) ->
  exists k, (1 <= k)%nat /\ N.of_nat (length bs) < 256 ^ N.of_nat k /\
            put_lpkO o size bs = Ok (beO o k (N.of_nat (length bs)) ++ bs) /\
            forall r, plain_rop (RBytesLen size) r = lift_r RVBytes (r_step (lpnO (r_ord r) k) r).
Proof.
  intros [[-> H]|[[-> H]|[-> H]]]; [exists 1%nat|exists 2%nat|exists 4%nat]; (split; [lia|]); (split; [exact H|]);
    (split; [|reflexivity]); cbn [put_lpkO]; unfold put_lpO, put_lp4O, put_u32O; try (replace (_ <? _) with true by (symmetry; apply N.ltb_lt; exact H)); reflexivity.
Qed.
Lemma lp_roundtrip (rop : prop) k bs r rest :
  (1 <= k)%nat -> N.of_nat (length bs) < 256 ^ N.of_nat k -> plain_rop rop r = lift_r RVBytes (r_step (lpnO (r_ord r) k) r) ->
  r_err r = None -> rrem r = (beO (r_ord r) k (N.of_nat (length bs)) ++ bs) ++ rest ->
  plain_rop rop r = (mkR (r_buf r) (r_pos r + N.of_nat (length (beO (r_ord r) k (N.of_nat (length bs)) ++ bs))) (r_ord r) None (r_elems r + 0), inl (RVBytes bs)).
Proof.
  intros Hk Hl -> He Hr. apply (plain_step_val RVBytes (lpnO (r_ord r) k) r bs _ rest He Hr); [eapply goodB_false, lpnO_good, Hk|].
  rewrite <- app_assoc. apply lpnO_put, Hl.
Qed.

Theorem op_roundtrip o op : wf_op op ->
  exists enc, spec_wop o op ([], None) = ((enc, None), None) /\ cnt_op op <= N.of_nat (length enc) /\
    forall r rest, r_err r = None -> r_ord r = o -> rrem r = enc ++ rest -> r_elems r + cnt_op op <= rlen r ->
      plain_rop (inv_op op) r =
      (mkR (r_buf r) (r_pos r + N.of_nat (length enc)) o None (r_elems r + cnt_op op), inl (val_op op)).
Proof.
  destruct op; cbn [wf_op]; try contradiction.
  - intros [Hok Hf]. destruct (prim_rtO o b v [] Hok Hf) as (Hw & _ & _).
    exists (flat (wprimC o b v)). split; [cbn [spec_wop spec_plain]; unfold aw_res; rewrite Hw; reflexivity|]. split; [cbn; lia|].
    intros r rest He <- Hr _. destruct (prim_rtO (r_ord r) b v rest Hok Hf) as (_ & _ & Hrd).
    apply (plain_step_val RVGo (rprimO (r_ord r) b) r v _ rest He Hr); [eapply goodB_false, rprimO_good|exact Hrd].
  - intros Hz. exists (put_varint z). split; [reflexivity|]. split; [cbn; lia|].
    intros r rest He <- Hr _. apply (plain_step_val RVZ (fun bs => of_resO bs (rd_varint bs)) r z _ rest He Hr).
    + apply of_resO_good. intros a t. apply rd_varint_suffix.
    + rewrite rd_varint_put by exact Hz. reflexivity.
  - intros Hn. exists (put_uvarint n). split; [reflexivity|]. split; [cbn; lia|].
    intros r rest He <- Hr _. apply (plain_step_val RVN (fun bs => of_resO bs (rd_uvarint bs)) r n _ rest He Hr).
    + apply of_resO_good. intros a t. apply rd_uvarint_suffix.
    + rewrite rd_uvarint_put by exact Hn. reflexivity.
  - intros _. exists bs. split; [reflexivity|]. split; [cbn; lia|].
    intros r rest He <- Hr _. apply (plain_step_val RVBytes (takeO (N.of_nat (length bs))) r bs bs rest He Hr (takeO_good _ _)).
    unfold takeO. rewrite take_N_app. reflexivity.
  - intros Hs. destruct (size_ok_inv o size bs Hs) as (k & Hk & Hl & Hp & Hrop). exists (beO o k (N.of_nat (length bs)) ++ bs).
    split; [cbn [spec_wop spec_plain]; unfold aw_byteslen; cbn [snd]; rewrite Hp; reflexivity|]. split; [cbn; lia|].
    intros r rest He <- Hr _. exact (lp_roundtrip _ k bs r rest Hk Hl (Hrop r) He Hr).
  - intros Hl. destruct (size_ok_inv o 1 s (or_introl (conj eq_refl Hl))) as (k & Hk & Hl' & Hp & Hrop). exists (beO o k (N.of_nat (length s)) ++ s).
    split; [cbn [spec_wop spec_plain]; unfold aw_byteslen; cbn [snd]; rewrite Hp; reflexivity|]. split; [cbn; lia|].
    intros r rest He <- Hr _. exact (lp_roundtrip _ k s r rest Hk Hl' (Hrop r) He Hr).
  - intros (Hs & Ht & Hf). destruct (roundtrip_stateO o ty v Hs Ht Hf) as (Hw & Hc & Hrd).
    exists (flat (writeC o ty v)). split; [cbn [spec_wop spec_plain]; unfold aw_res; rewrite Hw; reflexivity|]. split; [exact Hc|].
    intros r rest He <- Hr Hb. apply (r_stepS_val RVGo (fun tot st => readO (r_ord r) tot ty st) r (norm ty v) _ rest (cnt ty v) He Hr).
    + eapply goodAt_weaken, readO_good. discriminate.
    + apply Hrd, Hb.
  - intros (Hne & Hs). destruct (roundtrip_list_stateO o l Hs) as (Hw & Hc & Hrd).
    exists (flat (write_fromC o l)). split; [cbn [spec_wop spec_plain]; unfold aw_res; rewrite Hw; reflexivity|]. split; [exact Hc|].
    intros r rest He <- Hr Hb. cbn [inv_op plain_rop]. destruct (map fst l) as [|g l0] eqn:El; [destruct l; [contradiction|discriminate El]|].
    apply (r_stepS_val RVGos (fun tot st => read_intoO (r_ord r) tot (g :: l0) st) r _ _ rest (cnt_all l) He Hr).
    + apply read_intoO_good.
    + apply Hrd, Hb.
Qed.

Fixpoint total_cnt (ops : list wop) : N := match ops with [] => 0 | x :: r => cnt_op x + total_cnt r end.
Lemma wf_not_reset op : wf_op op -> op <> WReset.
Proof. intros H ->. exact H. Qed.

Lemma spec_wops_prefix o ops : forall b, Forall wf_op ops ->
  exists enc, spec_wops o ops (b, None) = ((b ++ enc, None), map (fun _ => None) ops) /\ total_cnt ops <= N.of_nat (length enc)
    /\ spec_wops o ops ([], None) = ((enc, None), map (fun _ => None) ops).
Proof.
  induction ops as [|x r IH]; intros b Hwf.
  - exists []. cbn. rewrite app_nil_r. repeat split; auto. lia.
  - inversion Hwf as [|? ? Hx Hr]; subst. destruct (op_roundtrip o x Hx) as (e1 & Hs1 & Hc1 & _).
    cbn [spec_wops]. rewrite (spec_wop_prefix o x b (wf_not_reset _ Hx)). unfold enc_of. rewrite Hs1. cbn [fst snd].
    destruct (IH (b ++ e1) Hr) as (e2 & Hs2 & Hc2 & Hs0). rewrite Hs2.
    destruct (IH e1 Hr) as (e2' & Hs2' & _ & Hs0'). rewrite Hs0 in Hs0'. injection Hs0' as <-.
    exists (e1 ++ e2). rewrite Hs2', app_assoc, app_length. cbn [map total_cnt]. repeat split; auto. lia.
Qed.

Theorem ops_roundtrip o ops : Forall wf_op ops ->
  exists enc, spec_wops o ops ([], None) = ((enc, None), map (fun _ => None) ops) /\ total_cnt ops <= N.of_nat (length enc) /\
    forall r rest, r_err r = None -> r_ord r = o -> rrem r = enc ++ rest -> r_elems r + total_cnt ops <= rlen r ->
      run_props (map inv_op ops) r =
      (mkR (r_buf r) (r_pos r + N.of_nat (length enc)) o None (r_elems r + total_cnt ops), inl (map val_op ops)).
Proof.
  induction ops as [|x rest IH]; intros Hwf.
  - exists []. split; [reflexivity|]. split; [cbn; lia|]. intros r junk He Ho _ _. cbn [map run_props total_cnt length].
    rewrite !N.add_0_r. destruct r; cbn in *. subst. reflexivity.
  - inversion Hwf as [|? ? Hx Hr]; subst. destruct (op_roundtrip o x Hx) as (e1 & Hs1 & Hc1 & Hrd1).
    destruct (IH Hr) as (e2 & Hs2 & Hc2 & Hrd2).
    destruct (spec_wops_prefix o rest e1 Hr) as (e2' & Hp & _ & Hp0). rewrite Hs2 in Hp0. injection Hp0 as <-.
    exists (e1 ++ e2). split.
    { cbn [spec_wops]. rewrite Hs1, Hp. reflexivity. }
    split; [rewrite app_length; cbn [total_cnt]; lia|].
    intros r junk He Ho Hrem Hb. cbn [map run_props total_cnt] in *.
    rewrite <- app_assoc in Hrem. rewrite (Hrd1 r (e2 ++ junk) He Ho Hrem ltac:(lia)).
    set (r1 := mkR (r_buf r) (r_pos r + N.of_nat (length e1)) o None (r_elems r + cnt_op x)).
    assert (Hrem1 : rrem r1 = e2 ++ junk) by exact (rrem_past _ _ _ _ _ _ _ Hrem).
    rewrite (Hrd2 r1 junk eq_refl eq_refl Hrem1) by (unfold r1, rlen in *; cbn [r_elems r_buf]; lia).
    unfold r1. cbn [r_buf r_pos r_elems]. rewrite app_length. apply f_equal2; [|reflexivity].
    apply (f_equal2 (fun ps el => mkR (r_buf r) ps o None el)); lia.
Qed.

(** the two machines together: ANY Writer (new, reset, pooled, grown; any capacity; either byte order; any earlier
    content b0) performs the operations; a Reader of the same order placed behind b0 over the Writer's bytes (+ anything)
    performs the inverse operations: it returns the values, ends exactly at the end of the Writer's bytes and has charged
    exactly the slice elements of the values *)
Theorem machine_roundtrip ops w p w' p' es r junk :
  Forall wf_op ops -> w_ok w -> w_err w = None -> wpool_clean p = true ->
  run_wops ops w p = (w', p', es) ->
  r_buf r = w_buf w' ++ junk -> r_pos r = wlen w -> r_err r = None -> r_ord r = w_ord w -> r_elems r = 0 ->
  w_err w' = None /\ Forall (eq None) es /\
  run_props (map inv_op ops) r = (mkR (r_buf r) (wlen w') (w_ord w) None (total_cnt ops), inl (map val_op ops)).
Proof.
  intros Hwf Hok He Hc Hrun Hbuf Hpos Hre Hro Hrel.
  destruct (run_wops_refines ops w p w' p' es Hok Hc Hrun) as (Hs & _ & _ & _).
  destruct (spec_wops_prefix (w_ord w) ops (w_buf w) Hwf) as (enc & Hp & Hcnt & Hp0).
  unfold abs in Hs at 2. rewrite He, Hp in Hs. injection Hs as Hb' He' Hes.
  destruct (ops_roundtrip (w_ord w) ops Hwf) as (enc' & Hs0 & _ & Hrd). rewrite Hp0 in Hs0. injection Hs0 as <-.
  split; [exact He'|]. split.
  { rewrite Hes. clear. induction ops; cbn [map]; constructor; auto. }
  assert (Hrem : rrem r = enc ++ junk).
  { unfold rrem. rewrite Hbuf, Hb', Hpos. unfold wlen. rewrite Nat2N.id, <- app_assoc, skipn_app, skipn_all, Nat.sub_diag. reflexivity. }
  rewrite (Hrd r junk Hre Hro Hrem) by (unfold rlen; rewrite Hrel, Hbuf, Hb', !app_length; lia).
  rewrite Hpos, Hrel, N.add_0_l. unfold wlen. rewrite Hb', app_length. apply f_equal2; [|reflexivity].
  apply (f_equal2 (fun ps el => mkR (r_buf r) ps (w_ord w) None el)); lia.
Qed.

Definition sst_ok (s : sst) : Prop :=
  wpool_clean (mkWP (s_wfree s) []) = true /\ rpool_clean (mkRP (s_rfree s) []) = true /\
  Forall (fun x => w_ok (snd (snd x))) (s_hw s) /\ Forall (fun x => r_ok (snd (snd x))) (s_hr s).
(** the only side condition: a caller-supplied buffer is a Go slice (len <= cap) *)
Definition admissible (op : sop) : Prop :=
  match op with
  | SNewW _ _ _ (Some (b, c)) _ => N.of_nat (length b) <= c
  | _ => True
  end.

Lemma find_h_Forall {A} (P : N * A -> Prop) h l x : find_h h l = Some x -> Forall P l -> P (h, x).
Proof.
  unfold find_h. destruct (take_id h l) as [[y r]|] eqn:E; [|discriminate]. intros [= <-] H.
  apply (take_id_Forall P h l y r E H).
Qed.
Lemma drop_h_Forall {A} (P : N * A -> Prop) h l : Forall P l -> Forall P (drop_h h l).
Proof.
  induction 1 as [|[i x] r Hx Hr IH]; cbn [drop_h]; [constructor|]. destruct (i =? h); [exact IH|constructor; assumption].
Qed.
Lemma wpool_clean_keys l ks : wpool_clean (mkWP l ks) = wpool_clean (mkWP l []).
Proof. reflexivity. Qed.
Lemma rpool_clean_keys l ks : rpool_clean (mkRP l ks) = rpool_clean (mkRP l []).
Proof. reflexivity. Qed.

Theorem scenario_step env op s : sst_ok s -> admissible op ->
  sst_ok (fst (run_sop env op s)) /\
  match op with
  | SW h x ids =>
      match find_h h (s_hw s) with
      | Some (i, w) => exists w' e, snd (run_sop env op s) = ObsW w' e /\ (abs w', e) = spec_wop (w_ord w) x (abs w) /\ w_ord w' = w_ord w
      | None => snd (run_sop env op s) = ObsDead
      end
  | SGetW h ord id =>
      exists w, snd (run_sop env op s) = ObsW w None /\ abs w = ([], None) /\ w_ord w = match ord with Some o => o | None => BE end
  | SR h x ids =>
      match find_h h (s_hr s) with
      | Some (i, r) => exists r' v, snd (run_sop env op s) = ObsR r' v /\ (r', v) = (fst (fst (run_rop env x r (mkRP [] []))), snd (run_rop env x r (mkRP [] [])))
      | None => snd (run_sop env op s) = ObsDead
      end
  | SGetR h data ord id =>
      exists r, snd (run_sop env op s) = ObsR r (inl RVUnit) /\ r = mkR data 0 (match ord with Some o => o | None => BE end) None 0
  | _ => True
  end.
Proof.
  intros (Hw & Hr & Hhw & Hhr) Ha. destruct op; cbn [run_sop admissible] in *.
  - split; [|exact I]. cbn [fst]. repeat split; auto. constructor; [|apply drop_h_Forall, Hhw]. cbn [snd].
    unfold new_writer_opt, w_ok, wlen. destruct buf as [[b c]|]; cbn [w_buf w_cap]; [destruct reset; cbn; lia|cbn; lia].
  - destruct (get_writer_opt ord (mkWP (s_wfree s) [id])) as [[i w] p] eqn:E.
    destruct (get_writer_clean ord (mkWP (s_wfree s) [id]) i w p Hw E) as (Hb & He & Ho & Hcp).
    cbn [fst snd]. split.
    + repeat split; auto. constructor; [|apply drop_h_Forall, Hhw]. cbn [snd]. unfold w_ok, wlen. rewrite Hb. cbn. lia.
    + eexists. split; [reflexivity|]. unfold abs. rewrite Hb, He. auto.
  - split; [|exact I]. destruct (find_h h (s_hw s)) as [[i w]|] eqn:E; cbn [fst]; [|repeat split; auto].
    repeat split; auto; try (apply drop_h_Forall, Hhw); try (apply (wput_clean i w (mkWP (s_wfree s) []) Hw)).
  - destruct (find_h h (s_hw s)) as [[i w]|] eqn:E; [|cbn [fst snd]; repeat split; auto].
    pose proof (find_h_Forall _ h _ _ E Hhw) as Hok. cbn [snd] in Hok.
    destruct (run_wop op w (mkWP (s_wfree s) ids)) as [[w' p] e] eqn:Er.
    destruct (run_wop_refines op w (mkWP (s_wfree s) ids) w' p e Hok Hw Er) as (Hs & Hc & Ho & Hok').
    cbn [fst snd]. split.
    + repeat split; auto. constructor; [exact Hok'|apply drop_h_Forall, Hhw].
    + exists w', e. auto.
  - split; [|exact I]. cbn [fst]. repeat split; auto. constructor; [|apply drop_h_Forall, Hhr]. cbn [snd].
    unfold r_ok, rlen. cbn. lia.
  - unfold get_reader_opt. destruct (rget (mkRP (s_rfree s) [id])) as [[i r] p] eqn:E.
    destruct (rget_clean (mkRP (s_rfree s) [id]) i r p Hr E) as [Hcr Hcp]. apply r_clean_spec in Hcr as (Hb & He & Hp & Hel).
    cbn [fst snd]. split.
    + repeat split; auto. constructor; [|apply drop_h_Forall, Hhr]. cbn [snd]. unfold r_ok, rlen. cbn [r_pos r_buf]. lia.
    + eexists. split; [reflexivity|]. rewrite He, Hp, Hel. reflexivity.
  - split; [|exact I]. destruct (find_h h (s_hr s)) as [[i r]|] eqn:E; cbn [fst]; [|repeat split; auto].
    repeat split; auto; try (apply drop_h_Forall, Hhr); try (apply (rput_clean i r (mkRP (s_rfree s) []) Hr)).
  - destruct (find_h h (s_hr s)) as [[i r]|] eqn:E; [|cbn [fst snd]; repeat split; auto].
    pose proof (find_h_Forall _ h _ _ E Hhr) as Hok. cbn [snd] in Hok.
    pose proof (run_rop_pool env op r (mkRP (s_rfree s) ids) Hr) as (Hc & H1 & H2).
    pose proof (run_rop_inv env op r (mkRP (s_rfree s) ids) Hok) as Hok'.
    destruct (run_rop env op r (mkRP (s_rfree s) ids)) as [[r' p] v] eqn:Er. cbn [fst snd] in *.
    split.
    + repeat split; auto. constructor; [exact Hok'|apply drop_h_Forall, Hhr].
    + exists r', v. rewrite H1, H2. auto.
Qed.

Lemma spec_wbody_of_wops ops : forall a a' es, spec_wops BE ops a = (a', es) -> Forall (eq None) es -> spec_wbody ops a = (a', None).
Proof.
  induction ops as [|x r IH]; intros a a' es; cbn [spec_wops].
  - intros [= <- <-] _. reflexivity.
  - rewrite spec_wbody_cons. destruct (spec_wop BE x a) as [a1 e]. destruct (spec_wops BE r a1) as [a2 es'] eqn:E.
    intros [= <- <-] H. inversion H as [|? ? He Hr]; subst. apply (IH a1 a2 es' E Hr).
Qed.

(** a registered message: what WriteMessage appends ([spec_wop], hence on any Writer by [run_wop_refines]) is read back
    by ReadMessage on any Reader of the same order, through any clean pool *)
Theorem message_roundtrip o name body : Forall wf_op body ->
  exists d, spec_wbody body ([], None) = ((d, None), None) /\
    (N.of_nat (length d) < 4294967296 -> N.of_nat (length name) < 4294967296 ->
     spec_wop o (WMsgReg name body RetSticky) ([], None) = ((put_lp4O o d ++ put_lp4O o name, None), None) /\
     forall env r rest p, lookup name (e_table env) = Some (map inv_op body) ->
       r_err r = None -> r_ord r = o -> rrem r = (put_lp4O o d ++ put_lp4O o name) ++ rest -> rpool_clean p = true ->
       fst (fst (run_rop env RMsg r p)) = mkR (r_buf r) (r_pos r + N.of_nat (length (put_lp4O o d ++ put_lp4O o name))) o None (r_elems r)
       /\ snd (run_rop env RMsg r p) = inl (RVMsg name (map val_op body))).
Proof.
  intros Hwf. destruct (ops_roundtrip BE body Hwf) as (d & Hs & Hc & Hrd). exists d.
  assert (Hb : spec_wbody body ([], None) = ((d, None), None)).
  { apply (spec_wbody_of_wops body _ _ _ Hs). clear. induction body; cbn [map]; constructor; auto. }
  split; [exact Hb|]. intros Hld Hln. split; [apply (nested_frame o name body [] d Hb)|].
  intros env r rest p Hlk He Ho Hrem Hp.
  destruct (run_rop_pool env RMsg r p Hp) as (_ & -> & ->). cbn [run_rop].
  assert (Hfr : fst (msg_frame o ((put_lp4O o d ++ put_lp4O o name) ++ rest)) = OOk ((d, name), rest)).
  { unfold msg_frame, put_lp4O at 1, put_u32O. rewrite fst_bindO, <- !app_assoc, fixedO_put by exact Hld. cbn [fst snd].
    rewrite take_N_app, fst_tickO, fst_bindO. unfold put_lp4O. rewrite <- app_assoc, lp4O_put by exact Hln. reflexivity. }
  rewrite Ho, (r_step_val (msg_frame o) r (d, name) _ rest He Hrem (goodB_false _ _ _ (msg_frame_good o _)) Hfr). rewrite Hlk.
  change (get_reader_opt d None (mkRP [] [])) with ((0, new_reader d), mkRP [] []). cbv iota beta.
  rewrite (Hrd (new_reader d) [] eq_refl eq_refl) by (try (unfold rrem; cbn; rewrite app_nil_r; reflexivity); unfold rlen; cbn [new_reader r_elems r_buf]; lia).
  cbn [fst snd]. rewrite Ho. auto.
Qed.

(** regression scenarios of the two repaired defects (each is replayed on the implementation by the harness) *)
(** 1. (fix 62b310d / 4dbfc0b) a pooled Writer / Reader that was once given LittleEndian is big-endian again for every later
    user who asks for the default — at top level and as the scratch Writer of SerializeRemotingMessage *)
Definition leak_scenario : list sop :=
  [SGetW 0 (Some LE) 1; SRelW 0; SGetW 1 None 1; SW 1 (WPrim BU16 (VN 1)) []; SRelW 1;
   SNewW 2 2 (Some LE) None false; SRelW 2;
   SNewW 3 3 None None false; SW 3 (WMsgReg [120] [WPrim BU16 (VN 1)] RetSticky) [2]].
Lemma pool_order_regression :
  snd (run_scenario (mkEnv [] 0) leak_scenario s_init) =
  [ObsW (mkW [] 256 LE None) None; ObsNone; ObsW (mkW [] 256 BE None) None;
   ObsW (mkW [0; 1] 256 BE None) None;
   ObsNone;
   ObsW (mkW [] 256 LE None) None; ObsNone;                                   (* a Writer made with NewWriter(LittleEndian) is put into the pool *)
   ObsW (mkW [] 256 BE None) None;
   ObsW (mkW [0; 0; 0; 2; 0; 1; 0; 0; 0; 1; 120] 256 BE None) None].          (* the message body is written by that object: big-endian *)
Proof. vm_compute. reflexivity. Qed.
Definition leak_scenario_r : list sop :=
  [SGetR 0 [0; 1] (Some LE) 1; SRelR 0; SGetR 1 [0; 1] None 1; SR 1 (RPlain (RPrim BU16)) []].
Lemma pool_order_regression_reader :
  snd (run_scenario (mkEnv [] 0) leak_scenario_r s_init) =
  [ObsR (mkR [0; 1] 0 LE None 0) (inl RVUnit); ObsNone; ObsR (mkR [0; 1] 0 BE None 0) (inl RVUnit);
   ObsR (mkR [0; 1] 2 BE None 0) (inl (RVGo (VN 1)))].
Proof. vm_compute. reflexivity. Qed.

(** 2. (fix ce2f8d5) Seek gives the element budget back.  After Seek(p) the Reader IS a new Reader positioned at p
    ([seek_spec]); so whatever happened before — budget used up, error state — decoding what a Writer wrote at p succeeds,
    any number of times *)
Lemma run_props_app a b : forall r,
  run_props (a ++ b) r =
  match run_props a r with
  | (r1, inl va) => match run_props b r1 with (r2, inl vb) => (r2, inl (va ++ vb)) | (r2, inr e) => (r2, inr e) end
  | (r1, inr e) => (r1, inr e)
  end.
Proof.
  induction a as [|x a IH]; intros r; cbn [app run_props].
  - destruct (run_props b r) as [r2 [vb|e]]; reflexivity.
  - destruct (plain_rop x r) as [r1 [v|e]]; [|reflexivity]. rewrite IH.
    destruct (run_props a r1) as [r2 [va|e]]; [|reflexivity]. destruct (run_props b r2) as [r3 [vb|e]]; reflexivity.
Qed.

Theorem seek_then_decode o ops : Forall wf_op ops ->
  exists enc, spec_wops o ops ([], None) = ((enc, None), map (fun _ => None) ops) /\
    forall r p rest, r_ord r = o -> p <= rlen r -> skipn (N.to_nat p) (r_buf r) = enc ++ rest ->
      run_props (RSeek (Z.of_N p) :: map inv_op ops) r =
      (mkR (r_buf r) (p + N.of_nat (length enc)) o None (total_cnt ops), inl (RVUnit :: map val_op ops)).
Proof.
  intros Hwf. destruct (ops_roundtrip o ops Hwf) as (enc & Hs & Hc & Hrd). exists enc. split; [exact Hs|].
  intros r p rest Ho Hp Hrem. cbn [run_props]. rewrite seek_spec by lia. rewrite N2Z.id.
  set (r1 := mkR (r_buf r) p (r_ord r) None 0).
  assert (Hlen : N.of_nat (length enc) + p <= rlen r).
  { unfold rlen. apply (f_equal (@length N)) in Hrem. rewrite skipn_length, app_length in Hrem. unfold rlen in Hp. lia. }
  rewrite (Hrd r1 rest eq_refl Ho Hrem) by (unfold r1, rlen in *; cbn [r_elems r_buf]; lia).
  unfold r1. cbn [r_buf r_pos r_elems]. rewrite N.add_0_l. reflexivity.
Qed.
Theorem seek_reread_n o ops n : Forall wf_op ops ->
  exists enc, spec_wops o ops ([], None) = ((enc, None), map (fun _ => None) ops) /\
    forall r p rest, r_ord r = o -> p <= rlen r -> skipn (N.to_nat p) (r_buf r) = enc ++ rest ->
      run_props (concat (repeat (RSeek (Z.of_N p) :: map inv_op ops) (S n))) r =
      (mkR (r_buf r) (p + N.of_nat (length enc)) o None (total_cnt ops), inl (concat (repeat (RVUnit :: map val_op ops) (S n)))).
Proof.
  intros Hwf. destruct (seek_then_decode o ops Hwf) as (enc & Hs & Hone). exists enc. split; [exact Hs|].
  intros r p rest Ho Hp Hrem. revert r Ho Hp Hrem. induction n as [|n IH]; intros r Ho Hp Hrem.
  - cbn [repeat concat]. rewrite !app_nil_r. apply (Hone r p rest Ho Hp Hrem).
  - change (repeat ?x (S (S n))) with (x :: repeat x (S n)). cbn [concat]. rewrite run_props_app, (Hone r p rest Ho Hp Hrem).
    rewrite (IH (mkR (r_buf r) (p + N.of_nat (length enc)) o None (total_cnt ops)) eq_refl Hp Hrem). reflexivity.
Qed.

Definition reread_ty : goty := TSlice false (TBasic BBool).
Definition reread_val : goval := VList [VB true; VB true; VB true; VB true; VB true].
Definition reread_data : bytes := flat (writeC BE reread_ty reread_val).
Lemma seek_reread_regression :
  run_props [RRead reread_ty; RSeek 0; RRead reread_ty; RSeek 0; RRead reread_ty] (new_reader reread_data) =
  (mkR reread_data 9 BE None 5, inl [RVGo reread_val; RVUnit; RVGo reread_val; RVUnit; RVGo reread_val]).
Proof. vm_compute. reflexivity. Qed.

(** no crash, no fuel: every functional reader the Reader machine runs ends in Ok or Err, for both orders *)
Theorem reader_okerr :
  (forall o b bs, okerr (fst (rprimO o b bs))) /\
  (forall o k bs, (1 <= k)%nat -> okerr (fst (lpnO o k bs))) /\
  (forall o tot ty st, okerr (fst (readO o tot ty st))) /\
  (forall o tot tys st, okerr (fst (read_intoO o tot tys st))) /\
  (forall o bs, okerr (fst (msg_frame o bs))).
Proof.
  repeat split; intros.
  - eapply goodB_okerr, rprimO_good.
  - eapply goodB_okerr, lpnO_good; assumption.
  - apply readO_okerr.
  - destruct (read_intoO_good o tot tys st) as [(v & st' & h & -> & _)|(e & -> & _)]; auto.
  - eapply goodB_okerr, msg_frame_good.
Qed.

(** Reset makes any Writer — whatever it holds, whatever its error, capacity or origin — behave as a new one *)
Theorem reset_forgets ops w p w' p' es : w_ok w -> wpool_clean p = true ->
  run_wops (WReset :: ops) w p = (w', p', es) ->
  (abs w', tl es) = spec_wops (w_ord w) ops ([], None).
Proof.
  intros Hok Hc Hrun. destruct (run_wops_refines _ w p w' p' es Hok Hc Hrun) as (Hs & _).
  cbn [spec_wops spec_wop spec_plain] in Hs. destruct (spec_wops (w_ord w) ops ([], None)) as [a2 es2].
  injection Hs as -> ->. reflexivity.
Qed.
(** a Writer in the error state ignores everything but Reset; WriteMessage on it fails *)
Theorem writer_sticky op w p w' p' r e : w_ok w -> wpool_clean p = true -> w_err w = Some e -> op <> WReset ->
  run_wop op w p = (w', p', r) -> abs w' = abs w /\ (is_plain op = false -> r <> None).
Proof.
  intros Hok Hc He Hn Hrun. destruct (run_wop_refines op w p w' p' r Hok Hc Hrun) as (Hs & _).
  pose proof (spec_wop_sticky (w_ord w) op (w_buf w) e Hn) as H1. unfold abs in Hs at 2. rewrite He in Hs.
  split.
  - rewrite <- Hs in H1. cbn [fst] in H1. unfold abs at 2. rewrite He. exact H1.
  - intros Hp. destruct (spec_wop_sticky_msg (w_ord w) op (w_buf w) e Hp) as [x Hx]. rewrite <- Hs in Hx. cbn [snd] in Hx. rewrite Hx. discriminate.
Qed.
(** a failed WriteMessage leaves Bytes() and Err() as they were *)
Theorem writemessage_rollback name body ret w p w' p' e : w_ok w -> wpool_clean p = true ->
  run_wop (WMsgReg name body ret) w p = (w', p', Some e) -> abs w' = abs w.
Proof.
  intros Hok Hc Hrun. destruct (run_wop_refines _ w p w' p' (Some e) Hok Hc Hrun) as (Hs & _).
  pose proof (nested_rollback (w_ord w) name body ret (abs w) e) as H. rewrite <- Hs in H. cbn [fst snd] in H. exact (H eq_refl).
Qed.
