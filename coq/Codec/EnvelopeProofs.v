(** Envelope and handshake: round trip, totality, allocation. *)
From Coq Require Import List NArith ZArith Lia Bool.
From Coq Require Import ZifyN ZifyNat ZifyBool.
From stdpp Require Import gmap.
From Vivid Require Import Codec.Prim Codec.PrimProofs Codec.MsgPrim Codec.MsgPrimProofs Cluster.VV
  Codec.ClusterMsgs Codec.ClusterMsgsProofs Codec.Msgs Codec.MsgsProofs Codec.MsgsTotalProofs Codec.Envelope.
Local Open Scope N_scope.

Theorem handshake_rt addr rest :
  N.of_nat (length addr) <= hs_max ->
  drun dec_handshake (enc_handshake addr ++ rest) = MOk (addr, rest).
Proof.
  intros H. unfold dec_handshake, enc_handshake, put_lp4, hs_max in *.
  rt_step. replace (4096 <? N.of_nat (length addr)) with false by (symmetry; apply N.ltb_ge; exact H).
  rt_step. unfold drun. rewrite take_N_app. reflexivity.
Qed.
Theorem handshake_too_long addr rest :
  hs_max < N.of_nat (length addr) < 2 ^ 32 ->
  drun dec_handshake (enc_handshake addr ++ rest) = MErr (ME ETooLarge).
Proof.
  intros [H1 H2]. change (2 ^ 32) with 4294967296 in H2. unfold dec_handshake, enc_handshake, put_lp4, hs_max in *.
  rt_step. replace (4096 <? N.of_nat (length addr)) with true by (symmetry; apply N.ltb_lt; exact H1). reflexivity.
Qed.
Lemma safe_handshake : safe dec_handshake.
Proof.
  intros bs e. unfold drun, dec_handshake, dbind, d_u32, dlift, dalloc.
  destruct (rd_u32 bs) as [[n t]|]; cbn; [|intros [= <-]; apply not_bad_ME].
  destruct (hs_max <? n); cbn; [intros [= <-]; apply not_bad_ME|].
  destruct (take_N n t) as [[a r]|]; cbn; [discriminate|intros [= <-]; apply not_bad_ME].
Qed.
Lemma addb_handshake : addb (4 + hs_max) dec_handshake.
Proof.
  unfold dec_handshake. change (4 + hs_max) with (0 + (4 + hs_max)). apply addb_bind; [apply addb_u32|intros n].
  destruct (N.ltb_spec hs_max n); [eapply addb_weaken; [|apply addb_dfail]; vm_compute; discriminate|].
  eapply addb_weaken with (K := (4 + n) + 0); [lia|]. apply addb_bind; [apply addb_dalloc|intros _].
  intros bs. destruct (take_N n bs) as [[a t]|] eqn:E; [|lia]. apply take_N_len in E. lia.
Qed.
(** a failed Wait leaves the caller's address untouched *)
Theorem handshake_no_clobber old stream e :
  drun dec_handshake stream = MErr e -> handshake_wait old stream = (old, Some e).
Proof. unfold handshake_wait, drun. intros ->. reflexivity. Qed.

Section Envelope.
  Variable U : Type.
  Variable has_codec : bool.
  Variable cenc : U -> mres bytes.
  Variable cdec : bytes -> mres U.
  Variable qerr : Z -> option bytes.
  Variable newref : bytes -> bytes -> mres (bytes * bytes).

  Notation msg := (msg U).
  Notation enc_body := (enc_body U has_codec cenc).
  Notation dec_body := (dec_body U has_codec cdec qerr newref).
  Notation enc_envelope := (enc_envelope U has_codec cenc).
  Notation dec_envelope := (dec_envelope U has_codec cdec qerr newref).
  Notation valid_envelope := (valid_envelope U has_codec cenc cdec qerr newref).
  Notation expected_out := (expected_out U).

  Lemma strs_valid r : valid_ref r -> len32 (fst (strs_of r)) /\ len32 (snd (strs_of r)).
  Proof. destruct r; cbn; intros H; try apply H; split; vm_compute; reflexivity. Qed.

  (** EncodeEnvelopWithRemoting on a registered message: the seven fields in the order written *)
  Lemma enc_envelope_registered (e : envelope U) k b :
    kind_of U (e_msg U e) = Some k -> enc_body (e_msg U e) = MOk b ->
    enc_envelope e = MOk (put_lp4 b ++ put_lp4 (name_of k) ++ put_bool (e_system U e) ++
                          put_lp4 (fst (strs_of (e_sender U e))) ++ put_lp4 (snd (strs_of (e_sender U e))) ++
                          put_lp4 (fst (strs_of (e_receiver U e))) ++ put_lp4 (snd (strs_of (e_receiver U e)))).
  Proof.
    unfold Envelope.enc_envelope, serialize_remoting. intros Hk Hb.
    destruct (e_msg U e); try discriminate Hk; rewrite Hk, Hb; reflexivity.
  Qed.

  (** [m'] need not be the message sent: Remoting/TransparencyProofs.v uses this for a PipeResult whose error
      [perr_of_wire] maps to another one *)
  Lemma envelope_decode_body (e : envelope U) k b m' rest :
    valid_ref (e_sender U e) -> valid_ref (e_receiver U e) ->
    kind_of U (e_msg U e) = Some k -> enc_body (e_msg U e) = MOk b -> len32 b ->
    drun (dec_body (S (length b)) k) b = MOk (m', []) ->
    exists w, enc_envelope e = MOk w /\
      drun dec_envelope (w ++ rest) =
      MOk ({| o_system := e_system U e;
              o_saddr := fst (strs_of (e_sender U e)); o_spath := snd (strs_of (e_sender U e));
              o_raddr := fst (strs_of (e_receiver U e)); o_rpath := snd (strs_of (e_receiver U e));
              o_msg := m' |}, rest).
  Proof.
    intros Vs Vr Ek Hb Hlb Hd.
    destruct (strs_valid _ Vs) as (Ls1 & Ls2). destruct (strs_valid _ Vr) as (Lr1 & Lr2).
    eexists. split; [exact (enc_envelope_registered e k b Ek Hb)|].
    unfold Envelope.dec_envelope. pose proof (name_of_len32 k).
    do 7 rt_step. rewrite kind_of_name_of. unfold drun, deserialize_remoting in *.
    destruct (dec_body (S (length b)) k b) as [a res]. cbn [snd] in Hd. subst res. reflexivity.
  Qed.

  (** system flag, sender, receiver and payload survive; absent refs come back as empty strings *)
  Theorem envelope_rt (e : envelope U) rest :
    valid_envelope e -> fits U has_codec cenc (e_msg U e) ->
    exists b, enc_envelope e = MOk b /\ drun dec_envelope (b ++ rest) = MOk (expected_out e, rest).
  Proof.
    intros (Vs & Vr & Tm & Vm) Hfit. destruct (kind_of U (e_msg U e)) as [k|] eqn:Ek.
    - destruct (rt_deserialize U has_codec cenc cdec qerr newref _ k Ek Tm Vm) as (b & Hb & Hd).
      specialize (Hd []). rewrite app_nil_r in Hd.
      exact (envelope_decode_body e k b (e_msg U e) rest Vs Vr Ek Hb (Hfit b Hb) Hd).
    - destruct (strs_valid _ Vs) as (Ls1 & Ls2). destruct (strs_valid _ Vr) as (Lr1 & Lr2).
      destruct e as [sys s r m]. cbn [e_system e_sender e_receiver e_msg] in *.
      destruct m; cbn in Ek; try discriminate. destruct Vm as (Hc & d & He & Hld & Hdd).
      exists (put_lp4 d ++ put_lp4 [] ++ put_bool sys ++
              put_lp4 (fst (strs_of s)) ++ put_lp4 (snd (strs_of s)) ++ put_lp4 (fst (strs_of r)) ++ put_lp4 (snd (strs_of r))).
      split.
      + unfold Envelope.enc_envelope. cbn [e_system e_sender e_receiver e_msg]. rewrite Hc, He.
        cbn [mbind fst snd]. rewrite <- ?app_assoc. reflexivity.
      + unfold Envelope.dec_envelope. assert (len32 []) by (vm_compute; reflexivity).
        do 7 rt_step. rewrite kind_of_name_nil, Hc. unfold drun. rewrite Hdd. reflexivity.
  Qed.

  (** the receiver's reading of the four strings gives the refs back (a present ref made of two
      empty strings is the one exception: it reads back as absent) *)
  Lemma ref_of_strs_of r :
    r <> RTypedNil -> r <> RRef [] [] -> ref_of_strs (fst (strs_of r)) (snd (strs_of r)) = r.
  Proof.
    destruct r as [|a p|]; cbn; intros H Hne; try congruence.
    unfold ref_of_strs. destruct a, p; cbn; try reflexivity. congruence.
  Qed.

  Hypothesis cenc_total : forall u e, cenc u = MErr e -> ~ bad e.
  Theorem enc_envelope_safe (e : envelope U) er : enc_envelope e = MErr er -> ~ bad er.
  Proof.
    destruct e as [sys s r m]. unfold Envelope.enc_envelope.
    cbn [e_system e_sender e_receiver e_msg]. intros H.
    apply mbind_inv in H as [H|(pn & _ & H)]; [|discriminate].
    assert (Hreg : forall k, (let*m b := serialize_remoting U has_codec cenc m in MOk (b, name_of k)) = MErr er -> ~ bad er).
    { intros k H'. apply mbind_inv in H' as [H'|(b & _ & H')]; [|discriminate].
      unfold serialize_remoting in H'. apply mbind_inv in H' as [H'|(b & _ & H')]; [|discriminate].
      apply (enc_body_safe U has_codec cenc cenc_total m er H'). }
    destruct m; cbn [kind_of] in H; try (apply (Hreg _ H)).
    destruct has_codec; [|injection H as <-; intros [X|X]; discriminate].
    apply mbind_inv in H as [H|(d & _ & H)]; [apply (cenc_total _ _ H)|discriminate].
  Qed.

End Envelope.

Section EnvelopeDecode.
  Variable U : Type.
  Variable has_codec : bool.
  Variable cdec : bytes -> mres U.
  Variable qerr : Z -> option bytes.
  Variable newref : bytes -> bytes -> mres (bytes * bytes).
  Notation dec_envelope := (dec_envelope U has_codec cdec qerr newref).

  (** the payload and the strings are copied once, the payload is then decoded in place: 11 bytes per input byte;
      the errors are those of the message decoder *)
  Lemma dec_envelope_okd (P : merr -> Prop) : (forall e, P (ME e)) -> P MENoCodec ->
    (forall d e, cdec d = MErr e -> P e) -> (forall a p e, newref a p = MErr e -> P e) -> okd P 11 K_map dec_envelope.
  Proof.
    intros PME PNoCodec cdec_P newref_P bs. unfold okd_at, Envelope.dec_envelope.
    unfold dbind at 1, d_str. destruct (rd_lp4 bs) as [[data b1]|] eqn:E1; [apply rd_lp4_len in E1|split; [lia|apply PME]].
    unfold dbind at 1. destruct (rd_lp4 b1) as [[name b2]|] eqn:E2; [apply rd_lp4_len in E2|split; [lia|apply PME]].
    unfold dbind at 1, d_bool, dlift, rd_bool, rd_u8. destruct (rd_uint 1 b2) as [[sy b3]|] eqn:E3; cbn [bind mlift]; [apply rd_uint_len in E3|split; [lia|apply PME]].
    unfold dbind at 1. destruct (rd_lp4 b3) as [[sa b4]|] eqn:E4; [apply rd_lp4_len in E4|split; [lia|apply PME]].
    unfold dbind at 1. destruct (rd_lp4 b4) as [[sp b5]|] eqn:E5; [apply rd_lp4_len in E5|split; [lia|apply PME]].
    unfold dbind at 1. destruct (rd_lp4 b5) as [[ra b6]|] eqn:E6; [apply rd_lp4_len in E6|split; [lia|apply PME]].
    unfold dbind. destruct (rd_lp4 b6) as [[rp b7]|] eqn:E7; [apply rd_lp4_len in E7|split; [lia|apply PME]].
    destruct (kind_of_name name) as [k|].
    - pose proof (dec_body_okd U has_codec cdec P PME qerr newref newref_P PNoCodec cdec_P (S (length data)) k data
                    (or_intror (Nat.lt_succ_diag_r _))) as Hd.
      unfold okd_at in Hd. unfold deserialize_remoting. destruct (dec_body _ _ _ _ _ _ k data) as [a [[m t]|e]]; (split; [|try tauto]); lia.
    - destruct has_codec; [destruct (cdec data) eqn:E|]; (split; [lia|]); eauto. lia.
  Qed.

  Theorem dec_envelope_safe :
    (forall d e, cdec d = MErr e -> ~ bad e) -> (forall a p e, newref a p = MErr e -> ~ bad e) -> safe dec_envelope.
  Proof.
    intros Hc Hn. apply (okd_safe 11 K_map), dec_envelope_okd; [apply not_bad_ME|intros [H|H]; discriminate|exact Hc|exact Hn].
  Qed.
  Theorem dec_envelope_linb : linb 11 K_map dec_envelope.
  Proof. apply (okd_linb (fun _ => True)), dec_envelope_okd; auto. Qed.
End EnvelopeDecode.
