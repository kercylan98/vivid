(** Proofs about the string-level model of the ActorRef factory ([Codec.RefNorm]): what the round-trip theorems of
    the messages that carry an ActorRef (OnKill, OnKilled, envelopes) need of the factory is that it accepts its own
    output unchanged — it is IDEMPOTENT — and that is proved here for every ParseIP oracle. *)
From Coq Require Import List NArith ZArith Lia Bool.
From Coq Require Import ZifyN ZifyNat ZifyBool.
From Vivid Require Import Codec.Prim Codec.MsgPrim Codec.RefNorm.
From Vivid Require Ref.RefModel Ref.RefTrimProofs.
Import ListNotations.
Local Open Scope N_scope.

(** [RefNorm.trim_space] is the [trim_space] of [Ref.RefModel] (one loop [trim_gen] for both directions there,
    two fixpoints here), so its properties are those proved in [Ref.RefTrimProofs] *)
Lemma trim_gen_unique (p1 : N -> bool) (p2 : N -> N -> bool) (p3 : N -> N -> N -> bool) (f : bytes -> bytes) :
  (forall s, f s = match s with
                   | [] => []
                   | a :: r =>
                       if p1 a then f r else
                       match r with
                       | [] => s
                       | b :: r2 =>
                           if p2 a b then f r2 else
                           match r2 with [] => s | c :: r3 => if p3 a b c then f r3 else s end
                       end
                   end) ->
  forall s, f s = RefModel.trim_gen p1 p2 p3 s.
Proof.
  intros E. fix IH 1. intros [|a r]; rewrite E; [reflexivity|]. cbn [RefModel.trim_gen].
  destruct (p1 a); [apply IH|]. destruct r as [|b r2]; [reflexivity|].
  destruct (p2 a b); [apply IH|]. destruct r2 as [|c r3]; [reflexivity|].
  destruct (p3 a b c); [apply IH|reflexivity].
Qed.
Lemma ltrim_eq s : ltrim s = RefModel.trim_left s.
Proof. apply trim_gen_unique. intros [|a [|b [|c r]]]; reflexivity. Qed.
Lemma ltrim_rev_eq s : ltrim_rev s = RefModel.trim_left_rev s.
Proof. apply trim_gen_unique. intros [|a [|b [|c r]]]; reflexivity. Qed.
Lemma trim_space_eq s : trim_space s = RefModel.trim_space s.
Proof. unfold trim_space, rtrim, RefModel.trim_space, RefModel.trim_right. rewrite ltrim_eq, ltrim_rev_eq. reflexivity. Qed.

Theorem trim_space_idem s : trim_space (trim_space s) = trim_space s.
Proof. rewrite !trim_space_eq. apply RefTrimProofs.trim_space_idem. Qed.
Theorem trim_space_length s : (length (trim_space s) <= length s)%nat.
Proof.
  rewrite trim_space_eq. destruct (RefTrimProofs.trim_space_decomp s) as (pre & post & E & _).
  rewrite E at 2. rewrite !app_length. lia.
Qed.

Lemma norm_path_some p p' : norm_path p = Some p' -> p' = trim_space p /\ exists r, p' = 47 :: r.
Proof.
  unfold norm_path. destruct (trim_space p) as [|b r]; [discriminate|].
  destruct (N.eqb_spec b 47) as [->|_]; [|discriminate]. destruct (path_tail r); [|discriminate]. intros [= <-]. eauto.
Qed.
Theorem norm_path_idem p p' : norm_path p = Some p' -> norm_path p' = Some p'.
Proof. intros H. destruct (norm_path_some p p' H) as [-> _]. unfold norm_path in *. rewrite trim_space_idem. exact H. Qed.
Lemma norm_address_some ip a a' : norm_address ip a = Some a' -> a' = trim_space a /\ a' <> [].
Proof.
  unfold norm_address. set (t := trim_space a). intros H.
  destruct t as [|b r] eqn:E; [discriminate|]. rewrite <- E in *.
  assert (Ht : a' = t).
  { destruct (has_byte 58 t); [destruct (split_host_port t) as [[h q]|]; [destruct (valid_host ip h && valid_port q)|]|destruct (ip t); [|destruct (is_domain t)]];
      try discriminate; injection H as <-; reflexivity. }
  split; [exact Ht|rewrite Ht, E; discriminate].
Qed.
Theorem norm_address_idem ip a a' : norm_address ip a = Some a' -> norm_address ip a' = Some a'.
Proof.
  intros H. destruct (norm_address_some ip a a' H) as [-> _]. unfold norm_address in *. rewrite trim_space_idem. exact H.
Qed.
Theorem new_ref_idem ip a p a' p' : new_ref ip a p = inl (a', p') -> new_ref ip a' p' = inl (a', p').
Proof.
  unfold new_ref. destruct (norm_address ip a) as [x|] eqn:Ea; [|discriminate].
  destruct (norm_path p) as [y|] eqn:Ep; [|discriminate]. intros [= <- <-].
  rewrite (norm_address_idem ip a x Ea), (norm_path_idem p y Ep). reflexivity.
Qed.

(** what the factory returns: never the pair of empty strings (which would read back as a nil ref), never longer than its input *)
Theorem new_ref_shape ip a p a' p' : new_ref ip a p = inl (a', p') ->
  (exists r, p' = 47 :: r) /\ a' <> [] /\ (length a' <= length a)%nat /\ (length p' <= length p)%nat.
Proof.
  unfold new_ref. destruct (norm_address ip a) as [x|] eqn:Ea; [|discriminate].
  destruct (norm_path p) as [y|] eqn:Ep; [|discriminate]. intros [= <- <-].
  destruct (norm_address_some ip a x Ea) as [-> Hne]. destruct (norm_path_some p y Ep) as [-> Hr].
  repeat split; auto using trim_space_length.
Qed.
