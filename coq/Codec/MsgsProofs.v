(** Round trips of the registered messages (Msgs.v): flat codecs, then the whole universe by
    structural induction (nested messages through WriteMessage / ReadMessage). *)
From Coq Require Import List NArith ZArith Lia Bool String.
From Coq Require Import ZifyN ZifyNat ZifyBool.
From stdpp Require Import gmap.
From Vivid Require Import Codec.Prim Codec.PrimProofs Codec.MsgPrim Codec.MsgPrimProofs Cluster.VV Cluster.VVProofs
  Codec.ClusterMsgs Codec.ClusterMsgsProofs Codec.Msgs.
From Vivid Require Import Generated.MsgRegistry.
Local Open Scope N_scope.

Lemma name_of_spelling k : name_of k = str (name_text k).
Proof. destruct k; reflexivity. Qed.
Lemma kind_of_name_of k : kind_of_name (name_of k) = Some k.
Proof. destruct k; vm_compute; reflexivity. Qed.
Lemma kind_of_name_nil : kind_of_name [] = None.
Proof. reflexivity. Qed.
Lemma name_of_len32 k : len32 (name_of k).
Proof. destruct k; vm_compute; reflexivity. Qed.
Lemma texts_spelling :
  txt_exception = str "exception: " /\ txt_error_code = str "error code " /\ txt_not_found = str " not found, message: ".
Proof. repeat split. Qed.

(** every wire name found at a registration site of the tree under test has a codec in the table, and
    no registration uses a computed name *)
Definition registry_covered : bool :=
  forallb (fun n => existsb (bytes_eqb n) codec_names) msg_registry && is_nil msg_registry_dynamic.
Lemma registry_covered_ok : registry_covered = true.
Proof. vm_compute. reflexivity. Qed.
Definition registry_exact : bool :=
  forallb (fun n => existsb (bytes_eqb n) msg_registry) codec_names.
Lemma registry_exact_ok : registry_exact = true.
Proof. vm_compute. reflexivity. Qed.

Theorem Pong_rt p r rest : in_i64 p -> in_i64 r -> drun dec_Pong (enc_Pong p r ++ rest) = MOk ((p, r), rest).
Proof. intros H1 H2. unfold dec_Pong, enc_Pong. do 3 rt_step. reflexivity. Qed.
Theorem Error_rt c t rest : in_i32 c -> len32 t -> drun dec_Error (enc_Error c t ++ rest) = MOk ((c, t), rest).
Proof. intros H1 H2. unfold dec_Error, enc_Error. do 3 rt_step. reflexivity. Qed.
Theorem Command_rt c rest : c < 256 -> drun dec_Command (enc_Command c ++ rest) = MOk (c, rest).
Proof. intros H. apply drun_u8. exact H. Qed.
Theorem Ping_rt t rest : in_i64 t -> drun dec_Ping (enc_Ping t ++ rest) = MOk (t, rest).
Proof. intros H. apply drun_i64. exact H. Qed.
Theorem PongMessage_rt p r rest :
  in_i64 p -> in_i64 r ->
  enc_PongMessage (Some p) r = MOk (put_i64 p ++ put_i64 r) /\
  drun dec_PongMessage ((put_i64 p ++ put_i64 r) ++ rest) = MOk ((Some p, r), rest).
Proof. intros H1 H2. split; [reflexivity|]. unfold dec_PongMessage. do 3 rt_step. reflexivity. Qed.

Section Universe.
  Variable U : Type.
  Variable has_codec : bool.
  Variable cenc : U -> mres bytes.
  Variable cdec : bytes -> mres U.
  Variable qerr : Z -> option bytes.
  Variable newref : bytes -> bytes -> mres (bytes * bytes).

  Notation msg := (msg U).
  Notation enc_body := (enc_body U has_codec cenc).
  Notation dec_body := (dec_body U has_codec cdec qerr newref).
  Notation write_message := (write_message U has_codec cenc).
  Notation read_message_with := (read_message_with U has_codec cdec).
  Notation valid_msg := (valid_msg U has_codec cenc cdec qerr newref).
  Notation ty_msg := (ty_msg U).
  Notation valid_kref := (valid_kref newref).
  Notation d_ref := (d_ref newref).

  Lemma ref_rt k rest : valid_kref k -> drun d_ref (w_ref k ++ rest) = MOk (k, rest).
  Proof.
    destruct k as [|a p|]; cbn [valid_kref w_ref]; [intros _| intros (Ha & Hp & Hne & Hn) | contradiction]; unfold d_ref.
    - do 2 rt_step. reflexivity.
    - do 2 rt_step.
      replace (is_nil a && is_nil p) with false by (destruct a, p; cbn; try reflexivity; destruct Hne; congruence).
      rewrite Hn. reflexivity.
  Qed.
  Theorem OnKill_rt k r p rest :
    valid_kref k -> len32 r ->
    drun (dec_OnKill newref) (enc_OnKill k r p ++ rest) = MOk ((k, r, p), rest).
  Proof.
    intros Hk Hr. unfold dec_OnKill, enc_OnKill.
    rewrite <- ?app_assoc. erewrite drun_bind_ok by (apply ref_rt; exact Hk).
    do 3 rt_step. reflexivity.
  Qed.
  Theorem OnKilled_rt k rest :
    valid_kref k -> drun (dec_OnKilled newref) (enc_OnKilled k ++ rest) = MOk (k, rest).
  Proof. intros Hk. apply ref_rt. exact Hk. Qed.

  (** pipeResultWriter / pipeResultReader error mapping *)
  Lemma perr_rt e : ty_perr e -> valid_perr qerr e ->
    exists c t, perr_wire e = MOk (c, t) /\ in_i32 c /\ len32 t /\ perr_of_wire qerr c t = e.
  Proof.
    destruct e as [|c t|t|]; cbn [ty_perr valid_perr]; try contradiction.
    - intros _ _. exists 0%Z, []. repeat split; try (unfold in_i32; lia); try (vm_compute; reflexivity).
    - intros Tc (Hc & Ht & reg & Hq & Hor). exists c, t. repeat split; try assumption; try apply Tc.
      unfold perr_of_wire. replace (c =? 0)%Z with false by (symmetry; apply Z.eqb_neq; exact Hc).
      rewrite Hq. destruct Hor as [Hne| ->].
      + destruct t as [|x t]; [congruence|]. cbn [is_nil negb andb].
        destruct (bytes_eqb (x :: t) reg) eqn:E; [|reflexivity]. cbn [negb]. f_equal. symmetry. apply bytes_eqb_eq, E.
      + rewrite bytes_eqb_refl, andb_false_r. reflexivity.
  Qed.

  Definition Q (m : msg) : Prop :=
    match kind_of U m with
    | Some k => exists b, enc_body m = MOk b /\
        forall rest fuel, (length (b ++ rest) < fuel)%nat -> drun (dec_body fuel k) (b ++ rest) = MOk (m, rest)
    | None => True
    end.
  Definition W (m : msg) : Prop :=
    exists w, write_message m = MOk w /\ (8 <= length w)%nat /\
      forall rest fuel, (length w < fuel)%nat -> drun (read_message_with (dec_body fuel)) (w ++ rest) = MOk (m, rest).

  Lemma put_lp4_length b : length (put_lp4 b) = (4 + length b)%nat.
  Proof. unfold put_lp4, put_u32. rewrite app_length, be_length. reflexivity. Qed.

  Lemma Q_W m : valid_msg m -> fits U has_codec cenc m -> Q m -> W m.
  Proof.
    intros Hv Hfit HQ. unfold Q in HQ.
    destruct (kind_of U m) as [k|] eqn:Ek.
    - destruct HQ as (b & Hb & Hd).
      assert (Hlb : len32 b) by (apply Hfit; exact Hb).
      exists (put_lp4 b ++ put_lp4 (name_of k)). split; [|split].
      + unfold write_message, write_message_with. fold enc_body.
        destruct m; try (cbn in Ek; discriminate); cbn [kind_of] in Ek |- *;
          try (injection Ek as <-); rewrite ?Ek, Hb; reflexivity.
      + rewrite app_length, !put_lp4_length. lia.
      + intros rest fuel Hf. unfold read_message_with.
        pose proof (name_of_len32 k). do 2 rt_step.
        rewrite kind_of_name_of. unfold drun.
        assert (Hfb : (length (b ++ []) < fuel)%nat).
        { rewrite app_nil_r. rewrite app_length, !put_lp4_length in Hf. lia. }
        specialize (Hd [] fuel Hfb). rewrite app_nil_r in Hd. unfold drun in Hd.
        destruct (dec_body fuel k b) as [a r]. cbn [snd] in Hd. subst r. reflexivity.
    - destruct m; cbn in Ek; try discriminate.
      cbn [valid_msg] in Hv. destruct Hv as (Hc & d & He & Hld & Hdd).
      exists (put_lp4 d ++ put_lp4 []). split; [|split].
      + unfold write_message, write_message_with. rewrite Hc, He. reflexivity.
      + rewrite app_length, !put_lp4_length. cbn. lia.
      + intros rest fuel Hf. unfold read_message_with.
        assert (len32 []) by (vm_compute; reflexivity). do 2 rt_step.
        rewrite kind_of_name_nil, Hc, Hdd. reflexivity.
  Qed.

  (** a kind whose body is one flat codec with round trip [lem] *)
  Ltac flat_case lem :=
    eexists; split; [first [reflexivity|eassumption]|]; intros rest [|fuel] Hf; [cbn in Hf; lia|];
    cbn [dec_body]; rewrite <- ?app_assoc; erewrite drun_bind_ok by (apply lem; assumption); reflexivity.

  Theorem rt_Q m : ty_msg m -> valid_msg m -> Q m.
  Proof.
    induction m as [e|k r p|k|id m' IH pe|id pe|p r|c t|c|t|p r|ref m' IH|ns tok|v|v|v q l|r|d|id tok|tok|s a p m' IH|k|u];
      intros Ht Hv; unfold Q; cbn [kind_of].
    - exists []. split; [reflexivity|]. intros rest [|fuel] Hf; [cbn in Hf; lia|].
      destruct e; reflexivity.
    - destruct Hv as [Hk Hr]. flat_case OnKill_rt.
    - flat_case OnKilled_rt.
    - destruct Ht as [Tm Te]. destruct Hv as (Hid & Vm & Fm & Ve).
      destruct (Q_W m' Vm Fm (IH Tm Vm)) as (w & Hw & Hlw & Hr).
      destruct (perr_rt pe Te Ve) as (c & t & Hp & Hc & Hlt & Hback).
      eexists. split.
      { cbn [Msgs.enc_body]. fold enc_body. unfold write_message in Hw. rewrite Hw. cbn [mbind]. rewrite Hp. reflexivity. }
      intros rest [|fuel] Hf; [cbn in Hf; lia|]. cbn [Msgs.dec_body fst snd]. fold dec_body.
      rt_step. cbv iota. rewrite <- ?app_assoc. erewrite drun_bind_ok.
      2:{ apply Hr. rewrite !app_length, !put_lp4_length in Hf. cbn [length put_bool] in Hf. lia. }
      do 4 rt_step. rewrite Hback. reflexivity.
    - destruct Hv as (Hid & Ve).
      destruct (perr_rt pe Ht Ve) as (c & t & Hp & Hc & Hlt & Hback).
      eexists. split.
      { cbn [Msgs.enc_body]. rewrite Hp. reflexivity. }
      intros rest [|fuel] Hf; [cbn in Hf; lia|]. cbn [Msgs.dec_body fst snd]. fold dec_body.
      rt_step. cbv iota. do 4 rt_step. rewrite Hback. reflexivity.
    - destruct Hv as [H1 H2]. flat_case Pong_rt.
    - cbn in Ht. flat_case Error_rt.
    - cbn in Ht. flat_case Command_rt.
    - cbn in Hv. flat_case Ping_rt.
    - destruct Hv as [(t & -> & Ht1) Hr].
      exists (put_i64 t ++ put_i64 r). split; [reflexivity|].
      intros rest [|fuel] Hf; [cbn in Hf; lia|]. cbn [Msgs.dec_body].
      erewrite drun_bind_ok by (apply PongMessage_rt; assumption). reflexivity.
    - destruct Hv as (Href & Vm & Fm).
      destruct (Q_W m' Vm Fm (IH Ht Vm)) as (w & Hw & Hlw & Hr).
      eexists. split.
      { cbn [Msgs.enc_body]. fold enc_body. unfold write_message in Hw. rewrite Hw. reflexivity. }
      intros rest [|fuel] Hf; [cbn in Hf; lia|]. cbn [Msgs.dec_body mbind]. fold dec_body.
      rewrite <- ?app_assoc. erewrite drun_bind_ok.
      2:{ apply Hr. rewrite !app_length, !put_lp4_length in Hf. lia. }
      do 2 rt_step. reflexivity.
    - destruct Hv as [Vn Vt]. cbn in Ht. flat_case JoinRequest_rt.
    - cbn in Ht, Hv.
      destruct (drun_any_rest _ _ _ (fun rest => view_rt v rest Ht Hv)) as (b & Hb & Hr). flat_case Hr.
    - cbn in Ht, Hv.
      destruct (drun_any_rest _ _ _ (fun rest => view_rt v rest Ht Hv)) as (b & Hb & Hr). flat_case Hr.
    - cbn in Ht. destruct Hv as [Vv Vl].
      destruct (drun_any_rest _ _ _ (fun rest => GetViewResponse_rt v q l rest Ht Vv Vl)) as (b & Hb & Hr). flat_case Hr.
    - cbn in Hv. flat_case LeaveBroadcastRound_rt.
    - cbn in Ht. flat_case JoinRetryTick_rt.
    - destruct Hv as [H1 H2]. flat_case ForceMemberDown_rt.
    - cbn in Hv. flat_case TriggerViewBroadcast_rt.
    - destruct Hv as (-> & Ha & Hp & Vm & Fm).
      destruct (Q_W m' Vm Fm (IH Ht Vm)) as (w & Hw & Hlw & Hr).
      eexists. split.
      { cbn [Msgs.enc_body mbind fst snd]. fold enc_body. unfold write_message in Hw. rewrite Hw. reflexivity. }
      intros rest [|fuel] Hf; [cbn in Hf; lia|]. cbn [Msgs.dec_body mbind]. fold dec_body.
      do 2 rt_step. rewrite <- ?app_assoc. erewrite drun_bind_ok.
      2:{ apply Hr. rewrite !app_length, !put_lp4_length in Hf. lia. }
      reflexivity.
    - contradiction.
    - exact I.
  Qed.

  Theorem rt_registered m k :
    kind_of U m = Some k -> ty_msg m -> valid_msg m ->
    exists b, enc_body m = MOk b /\
      forall rest fuel, (length (b ++ rest) < fuel)%nat -> drun (dec_body fuel k) (b ++ rest) = MOk (m, rest).
  Proof. intros Hk Ht Hv. pose proof (rt_Q m Ht Hv) as H. unfold Q in H. rewrite Hk in H. exact H. Qed.

  (** SerializeRemotingMessage / DeserializeRemotingMessage as the entry points use them *)
  Theorem rt_deserialize m k :
    kind_of U m = Some k -> ty_msg m -> valid_msg m ->
    exists b, enc_body m = MOk b /\
      forall rest, drun (deserialize_remoting U has_codec cdec qerr newref k) (b ++ rest) = MOk (m, rest).
  Proof.
    intros Hk Ht Hv. destruct (rt_registered m k Hk Ht Hv) as (b & Hb & Hd). exists b. split; [exact Hb|].
    intros rest. unfold deserialize_remoting. apply Hd. lia.
  Qed.

  (** WriteMessage / ReadMessage round trip for every valid message, registered or not *)
  Theorem rt_W m : ty_msg m -> valid_msg m -> fits U has_codec cenc m -> W m.
  Proof. intros Ht Hv Hf. apply Q_W; [exact Hv|exact Hf|]. apply rt_Q; assumption. Qed.
  Theorem rt_read_message m :
    ty_msg m -> valid_msg m -> fits U has_codec cenc m ->
    exists w, write_message m = MOk w /\
      forall rest, drun (read_message U has_codec cdec qerr newref) (w ++ rest) = MOk (m, rest).
  Proof.
    intros Ht Hv Hf. destruct (rt_W m Ht Hv Hf) as (w & Hw & _ & Hr). exists w. split; [exact Hw|].
    intros rest. unfold read_message. apply Hr. rewrite app_length. lia.
  Qed.
End Universe.
