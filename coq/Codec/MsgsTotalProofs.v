(** C13 for the registered messages: no decoder ever crashes or runs out of fuel, encoders return a
    value or an error, and every decoder allocates at most 10 bytes per input byte plus one capped map
    (2 MiB).  Both facts about a decoder are one statement, [okd P 10 K_map]: [P] is what its errors satisfy,
    and is instantiated with "not a crash, not fuel exhaustion" (under that assumption on the user's Codec and
    ref factory) and with [True] (no assumption: the allocation bound alone). *)
From Coq Require Import List NArith ZArith Lia Bool.
From Coq Require Import ZifyN ZifyNat ZifyBool.
From stdpp Require Import gmap.
From Vivid Require Import Codec.Prim Codec.PrimProofs Codec.MsgPrim Codec.MsgPrimProofs Cluster.VV Cluster.VVProofs
  Codec.ClusterMsgs Codec.ClusterMsgsProofs Codec.Msgs Codec.MsgsProofs.
Local Open Scope N_scope.

Definition K_map : N := slot_ss * max_map_entries.

(** chains of binds over the primitive readers, and over readers that [known] disposes of; [PME] says that the
    errors of the primitive readers are in [P] *)
Ltac okd_with PME known :=
  repeat first
    [ known | apply okd_dret | apply okd_dfail, PME | (apply okd_str; [exact PME|lia]) | (apply okd_dlift; [exact PME|lia|addb_prim])
    | (apply okd_bind; [|intros ?]) ].

Section Cluster.
  Variable P : merr -> Prop.
  Hypothesis PME : forall e, P (ME e).
  Ltac okd_tac := okd_with PME fail.

  (** a loop of [n] rounds, each consuming at least [k] bytes more than it allocates *)
  Definition loopb {A} (k n : N) (m : dec A) : Prop :=
    forall bs, match m bs with
               | (a, MOk (_, bs')) => a + k * n + N.of_nat (length bs') <= N.of_nat (length bs)
               | (a, MErr e) => a <= N.of_nat (length bs) /\ P e
               end.
  (** [make(map, n)] with [s] bytes per slot, then the loop that fills it: paid by the input the loop consumes,
      or, when the loop fails, by the cap on [n] *)
  Lemma okd_dalloc_loop {A B} c K s k n (m : dec A) (g : A -> B) : 1 <= c -> s <= c * k -> s * n <= K -> loopb k n m ->
    okd P c K (let+ _ := dalloc (s * n) in let+ x := m in dret (g x)).
  Proof using Type.
    intros Hc Hs HK H bs. specialize (H bs). unfold okd_at, dbind, dalloc, dret. destruct (m bs) as [a [[x t]|e]]; (split; [|try tauto]); nia.
  Qed.

  Lemma pairs_loop n : forall acc, loopb 8 (N.of_nat n) (dec_pairs n acc).
  Proof using PME.
    induction n as [|n IH]; intros acc bs; cbn [dec_pairs]; [cbn; lia|].
    unfold dbind at 1, d_str. destruct (rd_lp4 bs) as [[k b1]|] eqn:E1; [apply rd_lp4_len in E1|split; [lia|apply PME]].
    unfold dbind at 1. destruct (rd_lp4 b1) as [[v b2]|] eqn:E2; [apply rd_lp4_len in E2|split; [lia|apply PME]].
    specialize (IH (<[k:=v]> acc) b2). destruct (dec_pairs n (<[k:=v]> acc) b2) as [a [[m t]|e]]; [lia|split; [lia|tauto]].
  Qed.

  Lemma okd_mapss : okd P 5 K_map dec_mapss.
  Proof using PME.
    unfold dec_mapss. apply okd_bind; [okd_tac|intros n].
    destruct (n =? 0); [apply okd_dret|].
    destruct (N.ltb_spec max_map_entries n); [apply okd_dfail, PME|].
    apply (okd_dalloc_loop 5 K_map slot_ss 8 n); [lia|unfold slot_ss; lia|unfold K_map, slot_ss, max_map_entries in *; lia|].
    rewrite <- (N2Nat.id n) at 1. apply pairs_loop.
  Qed.
  Lemma okd_ns_body : okd P 5 K_map dec_ns_body.
  Proof using PME. unfold dec_ns_body. okd_with PME ltac:(apply okd_mapss). Qed.
  Lemma okd_ns_opt : okd P 5 K_map dec_ns_opt.
  Proof using PME.
    unfold dec_ns_opt. apply okd_bind; [okd_tac|intros n]. destruct (n =? 0); [apply okd_dret|].
    apply okd_bind; [apply okd_ns_body|intros ?]. apply okd_dret.
  Qed.

  Lemma vv_loop n : forall acc, loopb 12 (N.of_nat n) (d_vv_entries n acc).
  Proof using PME.
    induction n as [|n IH]; intros acc bs; cbn [d_vv_entries]; [cbn; lia|].
    unfold dbind at 1, d_str. destruct (rd_lp4 bs) as [[k b1]|] eqn:E1; [apply rd_lp4_len in E1|split; [lia|apply PME]].
    destruct (valid_addr k); [|split; [lia|apply PME]].
    unfold dbind at 1, d_u64, dlift, rd_u64. destruct (rd_uint 8 b1) as [[c b2]|] eqn:E2; cbn [mlift]; [apply rd_uint_len in E2|split; [lia|apply PME]].
    destruct (max_counter <? c); [split; [lia|apply PME]|].
    specialize (IH (<[k:=c]> acc) b2). destruct (d_vv_entries n (<[k:=c]> acc) b2) as [a [[m t]|e]]; [lia|split; [lia|tauto]].
  Qed.
  Lemma okd_vv : okd P 5 K_map d_vv.
  Proof using PME.
    unfold d_vv. apply okd_bind; [okd_tac|intros n].
    destruct (N.ltb_spec max_entries n); [apply okd_dfail, PME|].
    apply (okd_mono P 5 5 (slot_member * max_entries)); [lia|vm_compute; discriminate|].
    intros bs. pose proof (vv_loop (N.to_nat n) ∅ bs) as Hl. rewrite N2Nat.id in Hl. unfold okd_at, dbind, dalloc.
    destruct (d_vv_entries (N.to_nat n) ∅ bs) as [a [[m t]|e]]; unfold slot_member in *; (split; [|try tauto]); nia.
  Qed.

  (** the third clause (at least 5 bytes consumed per member: the 4-byte id length and the presence byte) is what
      [okd_d_members] pays the pre-allocated member map with: 24 bytes per slot against 5 input bytes, on top of the
      loop's own 5 per byte, gives the 10.  The disjunction serves both instances of [P]: either fuel exhaustion is an
      allowed error, or the fuel exceeds the input and is never used up *)
  Lemma members_bounds : forall fuel cnt acc bs, P MEFuel \/ (length bs < fuel)%nat ->
    match dec_members fuel cnt acc bs with
    | (a, MOk (_, bs')) => (length bs' <= length bs)%nat /\ a + 5 * N.of_nat (length bs') <= 5 * N.of_nat (length bs) /\
                           (N.of_nat fuel >= cnt -> 5 * cnt + N.of_nat (length bs') <= N.of_nat (length bs))
    | (a, MErr e) => a <= 5 * N.of_nat (length bs) + K_map /\ P e
    end.
  Proof using PME.
    induction fuel as [|f IH]; intros cnt acc bs HF; cbn [dec_members].
    - destruct (N.eqb_spec cnt 0); unfold dret, dfail; [lia|]. split; [lia|]. destruct HF as [HF|HF]; [exact HF|lia].
    - destruct (N.eqb_spec cnt 0); [unfold dret; lia|].
      unfold dbind at 1, d_str. destruct (rd_lp4 bs) as [[id b1]|] eqn:E1; [apply rd_lp4_len in E1|split; [lia|apply PME]].
      unfold dbind at 1, d_u8, dlift, rd_u8. destruct (rd_uint 1 b1) as [[has b2]|] eqn:E2; cbn [bind mlift]; [apply rd_uint_len in E2|split; [lia|apply PME]].
      destruct (has =? 0).
      + specialize (IH (cnt - 1) acc b2 ltac:(destruct HF; [auto|right; lia])).
        destruct (dec_members f (cnt - 1) acc b2) as [a3 [[m t]|e]]; [|split; [lia|tauto]].
        destruct IH as (I1 & I2 & I3). split; [lia|]. split; [lia|]. intros Hf. lia.
      + unfold dbind at 1. pose proof (okd_ns_body b2) as H3. unfold okd_at in H3. destruct (dec_ns_body b2) as [a3 [[st b3]|e]]; [|split; [lia|tauto]].
        specialize (IH (cnt - 1) (<[id:=Some st]> acc) b3 ltac:(destruct HF; [auto|right; lia])).
        destruct (dec_members f (cnt - 1) (<[id:=Some st]> acc) b3) as [a4 [[m t]|e]]; [|split; [lia|tauto]].
        destruct IH as (I1 & I2 & I3). split; [lia|]. split; [lia|]. intros Hf. lia.
  Qed.
  Lemma okd_d_members m : okd P 10 K_map (d_members m).
  Proof using PME.
    intros bs. unfold okd_at, d_members, dbind, d_member_guard, dalloc.
    destruct (N.ltb_spec (N.of_nat (length bs) / 5) m); [split; [lia|apply PME]|].
    pose proof (members_bounds (S (length bs)) m ∅ bs (or_intror (Nat.lt_succ_diag_r _))) as Hm.
    assert (H5 : 5 * m <= N.of_nat (length bs)).
    { pose proof (N.mul_div_le (N.of_nat (length bs)) 5 ltac:(lia)). nia. }
    destruct (dec_members (S (length bs)) m ∅ bs) as [a [[ms t]|e]]; unfold slot_member.
    - destruct Hm as (M1 & M2 & M3). specialize (M3 ltac:(lia)). lia.
    - split; [lia|tauto].
  Qed.

  Lemma okd_view : okd P 10 K_map dec_view.
  Proof using PME.
    assert (H5 : forall A (m : dec A), okd P 5 K_map m -> okd P 10 K_map m) by (intros A m; apply okd_mono; lia).
    unfold dec_view. apply okd_bind; [okd_tac|intros n]. destruct (n =? 0); [apply okd_dret|].
    okd_with PME ltac:(first [apply okd_d_members | apply H5, okd_vv]).
  Qed.
End Cluster.


Lemma safe_view : safe dec_view.
Proof. exact (okd_safe 10 K_map _ (okd_view _ not_bad_ME)). Qed.
Lemma linb_view : linb 10 K_map dec_view.
Proof. exact (okd_linb _ 10 K_map _ (okd_view (fun _ => True) (fun _ => I))). Qed.

Lemma addb_dec_pairs n acc : addb 0 (dec_pairs n acc).
Proof.
  intros bs. pose proof (pairs_loop (fun _ => True) (fun _ => I) n acc bs) as H. destruct (dec_pairs n acc bs) as [a [[m t]|e]]; lia.
Qed.
Lemma addb_mapss : addb K_map dec_mapss.
Proof.
  unfold dec_mapss. change K_map with (0 + K_map). apply addb_bind; [apply addb_u32|intros n].
  destruct (n =? 0); [eapply addb_weaken; [|apply addb_dret]; vm_compute; discriminate|].
  destruct (N.ltb_spec max_map_entries n); [eapply addb_weaken; [|apply addb_dfail]; vm_compute; discriminate|].
  eapply addb_weaken with (K := slot_ss * n + (0 + 0)); [unfold K_map; nia|].
  apply addb_bind; [apply addb_dalloc|intros _].
  apply addb_bind; [apply addb_dec_pairs|intros m]. apply addb_dret.
Qed.

Ltac addb_with known :=
  repeat first
    [ known | apply addb_dret | apply addb_dfail | addb_prim | apply addb_str | apply addb_dalloc | apply addb_mapss
    | (eapply addb_bind; [|intros ?]) ].
Ltac addb_tac := addb_with fail.

Lemma addb_ns_body : addb (2 * K_map) dec_ns_body.
Proof. eapply addb_weaken; cycle 1. { unfold dec_ns_body. addb_tac. } cbn. lia. Qed.
Lemma addb_ns_opt : addb (2 * K_map) dec_ns_opt.
Proof.
  unfold dec_ns_opt. change (2 * K_map) with (0 + 2 * K_map). apply addb_bind; [apply addb_u32|intros n].
  destruct (n =? 0); [eapply addb_weaken; [|apply addb_dret]; vm_compute; discriminate|].
  change (2 * K_map) with (2 * K_map + 0). apply addb_bind; [apply addb_ns_body|intros b]. apply addb_dret.
Qed.
Lemma addb_JoinRequest : addb (2 * K_map) dec_JoinRequest.
Proof.
  eapply addb_weaken; cycle 1.
  { unfold dec_JoinRequest. eapply addb_bind; [apply addb_ns_opt|intros ?]. addb_tac. }
  cbn. lia.
Qed.

Section Universe.
  Variable U : Type.
  Variable has_codec : bool.
  Variable cdec : bytes -> mres U.
  Variable P : merr -> Prop.
  Hypothesis PME : forall e, P (ME e).
  Notation msg := (msg U).
  Notation read_message_with := (read_message_with U has_codec cdec).

  Section ReadMessage.
    (** what the user's Codec fails with *)
    Hypothesis PNoCodec : P MENoCodec.
    Hypothesis cdec_P : forall d e, cdec d = MErr e -> P e.

    (** ReadMessage decodes the body in place: a sub-slice of the input, shorter than it *)
    Lemma rm_okd (body : kind -> dec msg) f :
      (forall k bs, P MEFuel \/ (length bs < f)%nat -> okd_at P 10 K_map (body k) bs) ->
      forall bs, P MEFuel \/ (length bs <= f)%nat -> okd_at P 10 K_map (read_message_with body) bs.
    Proof.
      intros IH bs HF. unfold okd_at, Msgs.read_message_with.
      unfold dbind at 1, d_sub, dlift. destruct (rd_lp4 bs) as [[data b1]|] eqn:E1; cbn [mlift]; [apply rd_lp4_len in E1|split; [lia|apply PME]].
      unfold dbind, d_str. destruct (rd_lp4 b1) as [[name b2]|] eqn:E2; [apply rd_lp4_len in E2|split; [lia|apply PME]].
      destruct (kind_of_name name) as [k|].
      - specialize (IH k data ltac:(destruct HF; [auto|right; lia])). unfold okd_at in IH.
        destruct (body k data) as [a [[m t]|e]]; (split; [|try tauto]); lia.
      - destruct has_codec; [destruct (cdec data) eqn:E|]; (split; [lia|]); eauto. lia.
    Qed.
  End ReadMessage.

  Variable qerr : Z -> option bytes.
  Variable newref : bytes -> bytes -> mres (bytes * bytes).
  (** what the ref factory fails with *)
  Hypothesis newref_P : forall a p e, newref a p = MErr e -> P e.
  Notation dec_body := (dec_body U has_codec cdec qerr newref).
  Notation d_ref := (d_ref newref).

  Lemma okd_ref : okd P 10 K_map d_ref.
  Proof.
    unfold Msgs.d_ref. do 2 (apply okd_bind; [okd_with PME fail|intros ?]).
    destruct (is_nil _ && is_nil _); [apply okd_dret|]. destruct (newref _ _) eqn:E; [apply okd_dret|apply okd_dfail, (newref_P _ _ _ E)].
  Qed.

  Definition nests (k : kind) : bool := match k with K_PipeResult | K_Scheduler | K_SingletonFwd => true | _ => false end.
  Lemma dec_body_flat f k : nests k = false -> okd P 10 K_map (dec_body (S f) k).
  Proof.
    assert (H5 : forall A (m : dec A), okd P 5 K_map m -> okd P 10 K_map m) by (intros A m; apply okd_mono; lia).
    destruct k; try discriminate; intros _; cbn [Msgs.dec_body];
      okd_with PME ltac:(first [apply okd_ref | exact (okd_view P PME) | apply H5, okd_ns_opt, PME]).
  Qed.

  Hypothesis PNoCodec : P MENoCodec.
  Hypothesis cdec_P : forall d e, cdec d = MErr e -> P e.

  Theorem dec_body_okd : forall fuel k bs, P MEFuel \/ (length bs < fuel)%nat -> okd_at P 10 K_map (dec_body fuel k) bs.
  Proof.
    induction fuel as [|f IH]; intros k bs HF.
    { unfold okd_at. cbn. split; [lia|]. destruct HF as [HF|HF]; [exact HF|lia]. }
    destruct (nests k) eqn:Hk; [|apply dec_body_flat, Hk].
    assert (Hrm : forall bs', (length bs' <= length bs)%nat -> okd_at P 10 K_map (read_message_with (dec_body f)) bs').
    { intros bs' Hl. apply (rm_okd PNoCodec cdec_P _ f); [exact IH|]. destruct HF; [auto|right; lia]. }
    assert (Hflat : forall A (m : dec A) bs', okd P 10 K_map m -> okd_at P 10 K_map m bs') by (intros A m bs' H; apply H).
    destruct k; try discriminate Hk; cbn [Msgs.dec_body].
    - apply okd_at_bind; [apply Hflat; okd_with PME fail|intros has bs0 L0].
      destruct has; [|apply Hflat; okd_with PME fail].
      apply okd_at_bind; [apply Hrm, L0|intros m bs1 _]. apply Hflat; okd_with PME fail.
    - apply okd_at_bind; [apply Hrm; lia|intros m bs1 _]. apply Hflat; okd_with PME fail.
    - apply okd_at_bind; [apply Hflat; okd_with PME fail|intros a bs1 L1].
      apply okd_at_bind; [apply Hflat; okd_with PME fail|intros p bs2 L2].
      apply okd_at_bind; [apply Hrm; lia|intros m bs3 _]. apply Hflat; okd_with PME fail.
  Qed.
End Universe.

Section Flat.
  Variable U : Type.
  Variable has_codec : bool.
  Variable cdec : bytes -> mres U.
  Variable qerr : Z -> option bytes.
  Variable newref : bytes -> bytes -> mres (bytes * bytes).

  Lemma addb_ref : addb 0 (d_ref newref).
  Proof.
    unfold d_ref. change 0 with (0 + (0 + 0)). apply addb_bind; [apply addb_str|intros a].
    apply addb_bind; [apply addb_str|intros p].
    destruct (is_nil a && is_nil p); [apply addb_dret|]. destruct (newref a p); [apply addb_dret|apply addb_dfail].
  Qed.

  (** the finer bound of the flat entry points ([alloc_flat]): at most the input length plus two capped maps *)
  Definition flat_kind (k : kind) : bool :=
    match k with
    | K_PipeResult | K_Scheduler | K_SingletonFwd | K_JoinResponse | K_Gossip | K_GetViewResponse => false
    | _ => true
    end.

  Theorem alloc_flat fuel k : flat_kind k = true -> addb (2 * K_map) (dec_body U has_codec cdec qerr newref (S fuel) k).
  Proof.
    destruct k; cbn [flat_kind]; try discriminate; intros _; cbn [Msgs.dec_body];
      unfold dec_OnKill, dec_OnKilled, dec_Pong, dec_Error, dec_Command, dec_Ping, dec_PongMessage, dec_LeaveBroadcastRound,
        dec_JoinRetryTick, dec_ForceMemberDown, dec_TriggerViewBroadcast;
      (eapply addb_weaken; [|addb_with ltac:(first [apply addb_ref | apply addb_JoinRequest])]); vm_compute; discriminate.
  Qed.

End Flat.

Section Entry.
  Variable U : Type.
  Variable has_codec : bool.
  Variable cdec : bytes -> mres U.
  Variable qerr : Z -> option bytes.
  Variable newref : bytes -> bytes -> mres (bytes * bytes).

  Section Safe.
    Hypothesis cdec_total : forall d e, cdec d = MErr e -> ~ bad e.
    Hypothesis newref_total : forall a p e, newref a p = MErr e -> ~ bad e.
    Let nocodec : ~ bad MENoCodec. Proof. intros [H|H]; discriminate. Qed.
    Let body_okd := dec_body_okd U has_codec cdec _ not_bad_ME qerr newref newref_total nocodec cdec_total.

    Theorem dec_body_safe fuel k bs e :
      (length bs < fuel)%nat -> drun (dec_body U has_codec cdec qerr newref fuel k) bs = MErr e -> ~ bad e.
    Proof. intros Hl. apply (okd_at_safe 10 K_map), body_okd. right. exact Hl. Qed.
    Theorem deserialize_safe k bs e :
      drun (deserialize_remoting U has_codec cdec qerr newref k) bs = MErr e -> ~ bad e.
    Proof. unfold deserialize_remoting. apply dec_body_safe. lia. Qed.
    Theorem read_message_safe bs e :
      drun (read_message U has_codec cdec qerr newref) bs = MErr e -> ~ bad e.
    Proof.
      unfold read_message. apply (okd_at_safe 10 K_map).
      apply (rm_okd U has_codec cdec _ not_bad_ME nocodec cdec_total _ (S (length bs)) (body_okd _)). right. lia.
    Qed.
  End Safe.

  Let body_okd := dec_body_okd U has_codec cdec (fun _ => True) (fun _ => I) qerr newref (fun _ _ _ _ => I) I (fun _ _ _ => I).
  Theorem dec_body_linb fuel k : linb 10 K_map (dec_body U has_codec cdec qerr newref fuel k).
  Proof. apply (okd_linb (fun _ => True)). intros bs. apply body_okd. left. exact I. Qed.
  Theorem deserialize_linb k : linb 10 K_map (deserialize_remoting U has_codec cdec qerr newref k).
  Proof. intros bs. unfold deserialize_remoting. apply dec_body_linb. Qed.
  Theorem read_message_linb : linb 10 K_map (read_message U has_codec cdec qerr newref).
  Proof.
    apply (okd_linb (fun _ => True)). intros bs. unfold read_message.
    apply (rm_okd U has_codec cdec _ (fun _ => I) I (fun _ _ _ => I) _ (S (length bs)) (body_okd _)). left. exact I.
  Qed.
End Entry.

Section Encode.
  Variable U : Type.
  Variable has_codec : bool.
  Variable cenc : U -> mres bytes.
  Hypothesis cenc_total : forall u e, cenc u = MErr e -> ~ bad e.
  Notation msg := (msg U).
  Notation enc_body := (enc_body U has_codec cenc).

  Lemma mbind_inv {A B} (r : mres A) (f : A -> mres B) e :
    mbind r f = MErr e -> r = MErr e \/ exists a, r = MOk a /\ f a = MErr e.
  Proof. destruct r as [a|e']; cbn; intros H; [right; exists a; split; [reflexivity|exact H]|left; injection H as ->; reflexivity]. Qed.

  Lemma wm_safe_of (m : msg) :
    (forall e, enc_body m = MErr e -> ~ bad e) ->
    forall e, write_message_with U has_codec cenc enc_body m = MErr e -> ~ bad e.
  Proof.
    intros IH e. unfold write_message_with.
    assert (Hreg : forall k, (let*m b := enc_body m in MOk (put_lp4 b ++ put_lp4 (name_of k))) = MErr e -> ~ bad e).
    { intros k H. apply mbind_inv in H as [H|(b & _ & H)]; [apply IH; exact H|discriminate]. }
    destruct m; cbn [kind_of]; try apply Hreg.
    destruct has_codec; [|intros [= <-] [X|X]; discriminate].
    intros H. apply mbind_inv in H as [H|(b & _ & H)]; [apply (cenc_total _ _ H)|discriminate].
  Qed.

  Lemma enc_view_safe v e : enc_view v = MErr e -> ~ bad e.
  Proof using Type.
    unfold enc_view. destruct v as [v|]; [|discriminate]. intros H. apply mbind_inv in H as [H|(b & _ & H)]; [|discriminate].
    destruct (vwrite (v_vv v)); cbn in H; [discriminate|]. injection H as <-. apply not_bad_ME.
  Qed.

  Theorem enc_body_safe : forall (m : msg) e, enc_body m = MErr e -> ~ bad e.
  Proof.
    induction m as [e0|k r p|k|id m' IH pe|id pe|p r|c t|c|t|p r|ref m' IH|ns tok|v|v|v q l|r|d|id tok|tok|s a p m' IH|k|u];
      intros e; cbn [Msgs.enc_body]; try discriminate.
    - intros H. apply mbind_inv in H as [H|(w & _ & H)]; [apply (wm_safe_of m' IH e H)|].
      apply mbind_inv in H as [H|(ct & _ & H)]; [|discriminate].
      destruct pe; cbn in H; try discriminate. injection H as <-. intros [X|X]; discriminate.
    - intros H. apply mbind_inv in H as [H|(ct & _ & H)]; [|discriminate].
      destruct pe; cbn in H; try discriminate. injection H as <-. intros [X|X]; discriminate.
    - destruct p; cbn; [discriminate|]. intros [= <-] [X|X]; discriminate.
    - intros H. apply mbind_inv in H as [H|(w & _ & H)]; [apply (wm_safe_of m' IH e H)|discriminate].
    - apply enc_view_safe.
    - apply enc_view_safe.
    - unfold enc_GetViewResponse. intros H. apply mbind_inv in H as [H|(b & _ & H)]; [exact (enc_view_safe _ _ H)|discriminate].
    - intros H. apply mbind_inv in H as [H|(ap & _ & H)].
      + destruct s; try discriminate. injection H as <-. intros [X|X]; discriminate.
      + apply mbind_inv in H as [H|(w & _ & H)]; [apply (wm_safe_of m' IH e H)|discriminate].
    - destruct (empty_of_kind k); [discriminate|]. intros [= <-] [X|X]; discriminate.
    - intros [= <-] [X|X]; discriminate.
  Qed.

  Theorem write_message_safe (m : msg) e : write_message U has_codec cenc m = MErr e -> ~ bad e.
  Proof. apply wm_safe_of. apply enc_body_safe. Qed.

End Encode.
