(** Proofs about the byte-order parametric generic writer/reader [Codec.ReflectO]:
    - for [o = BE] it computes exactly what [Codec.Reflect] computes (so every theorem of ReflectProofs is a
      theorem about the big-endian instance of the functions the state machines of [Codec.Buf] run);
    - totality and the meter facts the state machines need, for BOTH orders: outcome Ok or Err, the bytes
      consumed are a prefix of the input (also on the failure path), the element counter only grows;
    - the round trip for BOTH orders. *)
From Coq Require Import List NArith ZArith Lia Bool.
From Coq Require Import ZifyN ZifyNat ZifyBool.
From Vivid Require Import Codec.Prim Codec.PrimProofs Codec.Prim2 Codec.Prim2Proofs Codec.PrimO
                          Codec.Reflect Codec.ReflectBase Codec.ReflectO.
Import ListNotations.
Local Open Scope N_scope.

Lemma fst_tickO {A} c (m : MO A) : fst (tickO c m) = fst m.
Proof. reflexivity. Qed.
Lemma snd_tickO {A} c (m : MO A) : snd (tickO c m) = caddO c (snd m).
Proof. reflexivity. Qed.
Lemma fst_bindO {A B} (m : MO A) (f : A -> MO B) :
  fst (bindO m f) = match fst m with OOk a => fst (f a) | OErr e => OErr e | OPanic w => OPanic w | OFuel => OFuel | OIll => OIll end.
Proof. unfold bindO. destruct (fst m); reflexivity. Qed.
Lemma snd_bindO {A B} (m : MO A) (f : A -> MO B) :
  snd (bindO m f) = match fst m with OOk a => caddO (snd m) (snd (f a)) | _ => snd m end.
Proof. unfold bindO. destruct (fst m); reflexivity. Qed.

Lemma wthen_ok cs b : wthen (wok cs) b = (cs ++ fst b, snd b).
Proof. reflexivity. Qed.
Lemma wthen_nil b : wthen (wok []) b = b.
Proof. destruct b; reflexivity. Qed.

Definition of_wres (r : wres) : out bytes :=
  match snd r with
  | OOk _ => OOk (concat (fst r))
  | OErr e => OErr e
  | OPanic w => OPanic w
  | OFuel => OFuel
  | OIll => OIll
  end.
Lemma of_wres_wthen a b :
  of_wres (wthen a b) = obind (of_wres a) (fun x => obind (of_wres b) (fun y => OOk (x ++ y))).
Proof.
  unfold wthen, of_wres. destruct a as [ca [[]|e|w| |]]; cbn [fst snd obind]; try reflexivity.
  destruct b as [cb [[]|e|w| |]]; cbn [fst snd obind]; try reflexivity. rewrite concat_app. reflexivity.
Qed.

Definition wlistC (o : order) (e : goty) : list goval -> wres :=
  fix wl (l : list goval) : wres :=
    match l with
    | [] => wok []
    | x :: r => wthen (wreflC o e x) (wl r)
    end.
Lemma wlistC_cons o e x r : wlistC o e (x :: r) = wthen (wreflC o e x) (wlistC o e r).
Proof. reflexivity. Qed.
Definition wfieldsC (o : order) : list (bool * goty) -> list goval -> wres :=
  fix wf (fs : list (bool * goty)) (l : list goval) {struct l} : wres :=
    match fs, l with
    | [], [] => wok []
    | (ex, t) :: fr, x :: r => if ex then wthen (wreflC o t x) (wf fr r) else wf fr r
    | _, _ => will
    end.
Definition rfieldsO (o : order) (tot : N) : list (bool * goty) -> rst -> MO (list goval * rst) :=
  fix rf (fs : list (bool * goty)) (st : rst) : MO (list goval * rst) :=
    match fs with
    | [] => retO ([], st)
    | (ex, t) :: r =>
        if ex then bindO (readO o tot t st) (fun p => bindO (rf r (snd p)) (fun q => retO (fst p :: fst q, snd q)))
        else bindO (rf r st) (fun q => retO (zero t :: fst q, snd q))
    end.
Lemma rfieldsO_nil o tot st : rfieldsO o tot [] st = retO ([], st). Proof. reflexivity. Qed.
Lemma rfieldsO_cons o tot ex t r st : rfieldsO o tot ((ex, t) :: r) st =
  if ex then bindO (readO o tot t st) (fun p => bindO (rfieldsO o tot r (snd p)) (fun q => retO (fst p :: fst q, snd q)))
  else bindO (rfieldsO o tot r st) (fun q => retO (zero t :: fst q, snd q)).
Proof. reflexivity. Qed.

Lemma wreflC_list_eq o ty l :
  wreflC o ty (VList l) = match elem_ty ty with
                          | Some e => wthen (wok [put_u32O o (N.of_nat (length l))]) (wlistC o e l)
                          | None => will
                          end.
Proof. destruct ty as [| | | |[]| | | | | | |]; reflexivity. Qed.
Lemma wreflC_struct_eq o fs l : wreflC o (TStruct fs) (VStruct l) = wfieldsC o fs l.
Proof. reflexivity. Qed.
Lemma readO_struct_eq o tot fs st :
  readO o tot (TStruct fs) st = tickO (c_alloc (tsize (TStruct fs))) (bindO (rfieldsO o tot fs st) (fun q => retO (VStruct (fst q), snd q))).
Proof. reflexivity. Qed.

(** the type switch of Write: the four shapes it handles itself; every other type goes to writeReflect *)
Inductive write_fast : goty -> Prop :=
| WF_basic b : write_fast (TBasic b)
| WF_ptr_basic b : write_fast (TPtr (TBasic b))
| WF_bytes : write_fast (TSlice false (TBasic BU8))
| WF_ptr_bytes : write_fast (TPtr (TSlice false (TBasic BU8))).
Lemma write_cases ty :
  write_fast ty \/ (forall o v, writeC o ty v = wreflC o ty v) /\ (forall v, write ty v = wrefl ty v).
Proof.
  destruct ty as [b| | | |nm e| | |e| | | |]; try (right; split; reflexivity); try (left; constructor).
  - destruct nm; [right; split; reflexivity|]. destruct e as [[]| | | | | | | | | | |]; try (right; split; reflexivity). left; constructor.
  - destruct e as [b| | | |[] [[]| | | | | | | | | | |]| | | | | | |]; try (right; split; reflexivity); left; constructor.
Qed.

Lemma wprimC_BE b v : of_wres (wprimC BE b v) = wprim b v.
Proof.
  destruct b, v; try reflexivity; unfold of_wres; cbn [wprimC wok snd fst concat wprim]; rewrite ?app_nil_r; reflexivity.
Qed.

Lemma wlistC_BE e l : Forall (fun v => forall ty, of_wres (wreflC BE ty v) = wrefl ty v) l ->
  of_wres (wlistC BE e l) = wseq (wrefl e) l.
Proof.
  induction 1 as [|x r Hx Hr IH]; [reflexivity|].
  rewrite wlistC_cons, wseq_cons, of_wres_wthen, Hx, IH. reflexivity.
Qed.
Lemma wfieldsC_BE l : Forall (fun v => forall ty, of_wres (wreflC BE ty v) = wrefl ty v) l ->
  forall fs, of_wres (wfieldsC BE fs l) = wfields fs l.
Proof.
  induction 1 as [|x r Hx Hr IH]; intros fs; destruct fs as [|[ex t] fr]; try reflexivity.
  cbn [wfieldsC wfields]. destruct ex; [|apply IH]. rewrite of_wres_wthen, Hx, IH. reflexivity.
Qed.

Theorem wreflC_BE v : forall ty, of_wres (wreflC BE ty v) = wrefl ty v.
Proof.
  induction v as [n|z|b|s| |l IH|l IH|x IH|t x IH| ] using goval_ind'; intros ty.
  1-4: destruct ty; try reflexivity; cbn [wreflC wrefl]; apply wprimC_BE.
  - destruct ty; reflexivity.
  - rewrite wreflC_list_eq, wrefl_list_eq. destruct (elem_ty ty) as [e|]; [|reflexivity].
    rewrite of_wres_wthen, (wlistC_BE e l IH). unfold of_wres at 1. cbn [wok snd fst concat obind]. rewrite app_nil_r.
    destruct (wseq (wrefl e) l); reflexivity.
  - destruct ty as [| | | | | |fs| | | | |]; try reflexivity.
    rewrite wreflC_struct_eq, wrefl_struct_eq. apply wfieldsC_BE; exact IH.
  - destruct ty as [| | | | | | |t| | | |]; try reflexivity. cbn [wreflC wrefl].
    destruct t; try apply IH.
    destruct x; try reflexivity. destruct ty; try reflexivity. apply wprimC_BE.
  - destruct ty; try reflexivity. cbn [wreflC wrefl]. apply IH.
  - destruct ty; reflexivity.
Qed.

Theorem writeC_BE ty v : of_wres (writeC BE ty v) = write ty v.
Proof.
  destruct (write_cases ty) as [[b|b| |]|[HC HW]]; [..|rewrite HC, HW; apply wreflC_BE]; cbn [writeC write].
  - apply wprimC_BE.
  - destruct v; try reflexivity. apply wprimC_BE.
  - destruct v; try reflexivity; unfold of_wres, put_lp4; cbn [wok fst snd concat length]; rewrite ?app_nil_r, ?map_length; reflexivity.
  - destruct v as [| | | | | | |[]| |]; try reflexivity; unfold of_wres, put_lp4; cbn [wok fst snd concat length]; rewrite ?app_nil_r, ?map_length; reflexivity.
Qed.

Theorem write_fromC_BE l : of_wres (write_fromC BE l) = write_from l.
Proof.
  induction l as [|[t v] r IH]; [reflexivity|].
  cbn [write_fromC write_from]. rewrite of_wres_wthen, writeC_BE, IH. reflexivity.
Qed.

(** a computation with the meter of [Codec.Reflect]: allocation and iterations only *)
Definition proj {A} (m : MO A) : M A := (fst m, fst (snd m)).
Lemma proj_ret {A} (a : A) : proj (retO a) = ret a. Proof. reflexivity. Qed.
Lemma proj_fail {A} e : proj (@failO A e) = failM e. Proof. reflexivity. Qed.
Lemma proj_tick {A} c (m : MO A) : proj (tickO c m) = tick (fst c) (proj m).
Proof. destruct m as [r [[a i] [c1 c2]]], c as [[a' i'] [c1' c2']]. reflexivity. Qed.
Lemma tick00 {A} (m : M A) : tick (0, 0) m = m.
Proof. destruct m as [r [a i]]. reflexivity. Qed.
Lemma proj_bind {A B} (m : MO A) (f : A -> MO B) (g : A -> M B) :
  (forall a, fst m = OOk a -> proj (f a) = g a) -> proj (bindO m f) = bindM (proj m) g.
Proof.
  intros H. unfold bindO, bindM. cbn [proj fst snd]. destruct (fst m) eqn:E; try reflexivity.
  rewrite proj_tick, (H a eq_refl). reflexivity.
Qed.

Lemma proj_fixedO {A} k (f : N -> A) bs :
  proj (fixedO BE k f bs) = liftR (let* (n, t) := rd_uint k bs in Ok (f n, t)).
Proof. unfold fixedO. rewrite rd_uintO_BE. destruct (rd_uint k bs) as [[n t]|e]; reflexivity. Qed.

Lemma proj_fixedO_id k bs : proj (fixedO BE k (fun n => n) bs) = liftR (rd_uint k bs).
Proof. unfold fixedO. rewrite rd_uintO_BE. destruct (rd_uint k bs) as [[n t]|e]; reflexivity. Qed.

Lemma proj_lp4O bs :
  proj (lp4O BE bs) = bindM (liftR (rd_lp4 bs)) (fun p => tick (N.of_nat (length (fst p)), 0) (ret p)).
Proof.
  unfold lp4O, fixedO, rd_lp4, rd_u32. rewrite rd_uintO_BE. destruct (rd_uint 4 bs) as [[n t]|e]; [|reflexivity].
  cbn [bind]. unfold bindO, bindM. cbn [fst snd tickO retO liftR of_res].
  destruct (take_N n t) as [[s r]|e] eqn:E; [|reflexivity].
  destruct (take_N_suffix _ _ _ _ E) as [_ Hl]. cbn [fst snd of_res proj tickO retO tick ret caddO cadd c_cons c_alloc c0].
  rewrite Hl. unfold proj, tickO, retO, tick, ret, caddO, cadd, c_cons, c_alloc, c0. cbn [fst snd].
  apply f_equal2; [reflexivity|apply f_equal2; lia].
Qed.

Lemma proj_rprimO b bs : proj (rprimO BE b bs) = rprim b bs.
Proof.
  destruct b; cbn [rprimO rprim]; try apply proj_fixedO.
  1-4: rewrite proj_fixedO; unfold rd_i8, rd_i16, rd_i32, rd_i64, rd_u8, rd_u16, rd_u32, rd_u64;
       match goal with |- context [rd_uint ?k ?x] => destruct (rd_uint k x) as [[n t]|e] end; reflexivity.
  - rewrite proj_fixedO. unfold rd_bool, rd_u8. destruct (rd_uint 1 bs) as [[n t]|e]; reflexivity.
  - erewrite proj_bind with (g := fun p => tick (N.of_nat (length (fst p)), 0) (ret (VS (fst p), snd p))); [|intros a _; reflexivity].
    rewrite proj_lp4O. unfold rd_string. destruct (rd_lp4 bs) as [[s r]|e]; [|reflexivity].
    unfold bindM, liftR, tick, ret, cadd. cbn [fst snd of_res].
    apply f_equal2; [reflexivity|apply f_equal2; lia].
Qed.

Lemma proj_with_elO {A} el (m : MO (A * bytes)) : proj (with_elO el m) = with_el el (proj m).
Proof. unfold with_elO, with_el. apply proj_bind. intros a _. reflexivity. Qed.

Lemma proj_rd_elemsO rdO rd : (forall st, proj (rdO st) = rd st) ->
  forall fuel n st, proj (rd_elemsO rdO fuel n st) = rd_elems rd fuel n st.
Proof.
  intros H. induction fuel as [|f IH]; intros n st; cbn [rd_elemsO rd_elems]; destruct (n =? 0); try reflexivity.
  rewrite <- H. apply proj_bind. intros p _. rewrite proj_tick. cbn [c_iter fst]. f_equal.
  rewrite <- IH. apply proj_bind. intros q _. reflexivity.
Qed.

Lemma proj_rfieldsO tot fs : Forall (fun p => forall st, proj (readO BE tot (snd p) st) = read tot (snd p) st) fs ->
  forall st, proj (rfieldsO BE tot fs st) = rfields tot fs st.
Proof.
  induction 1 as [|[ex t] r Hx Hr IH]; intros st; [reflexivity|].
  rewrite rfieldsO_cons, rfields_cons. cbn [snd] in Hx. destruct ex.
  - rewrite <- Hx. apply proj_bind. intros p _. rewrite <- IH. apply proj_bind. intros q _. reflexivity.
  - rewrite <- IH. apply proj_bind. intros q _. reflexivity.
Qed.

Theorem readO_BE tot ty : forall st, proj (readO BE tot ty st) = read tot ty st.
Proof.
  induction ty as [b|b| | |nm e IH|n e IH|fs IH|e IH| | | |] using goty_ind'; intros [bs el]; try reflexivity.
  - cbn [readO read fst snd]. rewrite proj_with_elO, proj_rprimO. reflexivity.
  - cbn [readO read fst snd]. destruct (negb nm && match e with TBasic BU8 => true | _ => false end).
    + rewrite proj_with_elO. f_equal.
      erewrite proj_bind; [rewrite proj_lp4O|intros a _; reflexivity].
      destruct (rd_lp4 bs) as [[s r]|e']; [|reflexivity].
      unfold bindM, liftR, tick, ret, cadd, proj, retO, c0; cbn [fst snd of_res]. apply f_equal2; [reflexivity|apply f_equal2; lia].
    + erewrite proj_bind; [rewrite proj_fixedO_id; reflexivity|].
      intros [n t] _. cbn [fst snd].
      destruct (N.of_nat (length t) <? n); [reflexivity|]. rewrite proj_tick. cbn [c_elems fst]. rewrite tick00.
      destruct (tot <? el + n); [reflexivity|]. rewrite proj_tick. cbn [c_alloc fst]. f_equal.
      destruct (wire0 e); [reflexivity|].
      erewrite proj_bind; [rewrite (proj_rd_elemsO _ _ IH); reflexivity|intros q _; reflexivity].
  - cbn [readO read fst snd]. rewrite proj_tick. cbn [c_alloc fst]. f_equal.
    erewrite proj_bind; [rewrite proj_fixedO_id; reflexivity|].
    intros [m t] _. cbn [fst snd]. destruct (negb (m =? n)); [reflexivity|]. destruct (wire0 e); [reflexivity|].
    erewrite proj_bind; [rewrite (proj_rd_elemsO _ _ IH); reflexivity|intros q _; reflexivity].
  - rewrite readO_struct_eq, read_struct_eq, proj_tick. cbn [c_alloc fst]. f_equal.
    erewrite proj_bind; [rewrite (proj_rfieldsO tot fs IH); reflexivity|intros q _; reflexivity].
Qed.

Corollary readO_BE_out tot ty st : fst (readO BE tot ty st) = fst (read tot ty st).
Proof. rewrite <- readO_BE. reflexivity. Qed.

Lemma read_intoO_BE tot tys : forall st, proj (read_intoO BE tot tys st) = read_into tot tys st.
Proof.
  induction tys as [|t r IH]; intros st; [reflexivity|]. cbn [read_intoO read_into].
  rewrite <- readO_BE. apply proj_bind. intros p _. rewrite <- IH. apply proj_bind. intros q _. reflexivity.
Qed.

Lemma consumed_tickO {A} c (m : MO A) : consumedO (tickO c m) = fst (snd c) + consumedO m.
Proof. reflexivity. Qed.
Lemma elems_tickO {A} c (m : MO A) : elemsO (tickO c m) = snd (snd c) + elemsO m.
Proof. reflexivity. Qed.
Lemma consumed_bindO {A B} (m : MO A) (f : A -> MO B) :
  consumedO (bindO m f) = match fst m with OOk a => consumedO m + consumedO (f a) | _ => consumedO m end.
Proof. unfold bindO. destruct (fst m); reflexivity. Qed.
Lemma elems_bindO {A B} (m : MO A) (f : A -> MO B) :
  elemsO (bindO m f) = match fst m with OOk a => elemsO m + elemsO (f a) | _ => elemsO m end.
Proof. unfold bindO. destruct (fst m); reflexivity. Qed.

(** [strict]: a success consumed at least one byte, which is what lets [rd_elemsO_good] bound the element loop by the input
    length. [goodAt] ties the element meter to the counter in the state; a byte-level reader has no such counter, so [goodB] says
    it adds none. After a failure there is no state to compare with, and [c_elems] is ticked before the limit test: nothing is said *)
Definition goodB {A} (strict : bool) (bs : bytes) (m : MO (A * bytes)) : Prop :=
  (exists v r h, fst m = OOk (v, r) /\ bs = h ++ r /\ (strict = true -> h <> []) /\ consumedO m = N.of_nat (length h) /\ elemsO m = 0)
  \/ (exists e, fst m = OErr e /\ consumedO m <= N.of_nat (length bs) /\ elemsO m = 0).
Definition goodAt {A} (strict : bool) (st : rst) (m : MO (A * rst)) : Prop :=
  (exists v st' h, fst m = OOk (v, st') /\ fst st = h ++ fst st' /\ (strict = true -> h <> [])
                   /\ snd st' = snd st + elemsO m /\ consumedO m = N.of_nat (length h))
  \/ (exists e, fst m = OErr e /\ consumedO m <= N.of_nat (length (fst st))).

Lemma goodAt_ret {A} (v : A) st : goodAt false st (retO (v, st)).
Proof. left. exists v, st, []. unfold elemsO, consumedO. cbn. repeat split; auto; try discriminate. lia. Qed.
Lemma goodAt_fail {A} s st e : goodAt s st (@failO (A * rst) e).
Proof. right. exists e. unfold consumedO. cbn. split; [reflexivity|lia]. Qed.
Lemma goodAt_weaken {A} s1 s2 st (m : MO (A * rst)) : (s2 = true -> s1 = true) -> goodAt s1 st m -> goodAt s2 st m.
Proof.
  intros Hs [(v & st' & h & H1 & H2 & H3 & H4 & H5)|H]; [left|right; exact H].
  exists v, st', h. repeat split; auto.
Qed.
Lemma goodAt_tick {A} s st c (m : MO (A * rst)) : snd c = (0, 0) -> goodAt s st m -> goodAt s st (tickO c m).
Proof.
  intros Hc [(v & st' & h & H1 & H2 & H3 & H4 & H5)|(e & H1 & H2)].
  - left. exists v, st', h. rewrite fst_tickO, elems_tickO, consumed_tickO, Hc. cbn [fst snd]. repeat split; auto.
  - right. exists e. rewrite fst_tickO, consumed_tickO, Hc. cbn [fst snd]. auto.
Qed.
Lemma goodAt_elems {A} s bs el n (m : MO (A * rst)) : goodAt s (bs, el + n) m -> goodAt s (bs, el) (tickO (c_elems n) m).
Proof.
  intros [(v & st' & h & H1 & H2 & H3 & H4 & H5)|(e & H1 & H2)]; cbn [fst snd] in *.
  - left. exists v, st', h. rewrite fst_tickO, elems_tickO, consumed_tickO. cbn [c_elems fst snd]. repeat split; auto. lia.
  - right. exists e. rewrite fst_tickO, consumed_tickO. cbn [c_elems fst snd]. auto.
Qed.
Lemma goodAt_bind {A B} s1 s2 st (m : MO (A * rst)) (f : A * rst -> MO (B * rst)) :
  goodAt s1 st m -> (forall v st1, fst m = OOk (v, st1) -> goodAt s2 st1 (f (v, st1))) -> goodAt (s1 || s2) st (bindO m f).
Proof.
  intros [(v & st1 & h & H1 & H2 & H3 & H4 & H5)|(e & H1 & H2)] Hf.
  - specialize (Hf v st1 H1). unfold goodAt. rewrite fst_bindO, elems_bindO, consumed_bindO, H1.
    destruct Hf as [(w & st2 & h' & G1 & G2 & G3 & G4 & G5)|(e & G1 & G2)].
    + left. exists w, st2, (h ++ h'). rewrite G1, H2, G2, app_assoc, app_length. repeat split; auto; try lia.
      intros Hs Heq. apply app_eq_nil in Heq as [-> ->]. apply orb_prop in Hs as [Hs|Hs]; [apply H3|apply G3]; auto.
    + right. exists e. split; [exact G1|]. rewrite H2, app_length. lia.
  - right. exists e. rewrite fst_bindO, consumed_bindO, H1. auto.
Qed.
Lemma goodAt_bindB {A B} s el bs (m : MO (A * bytes)) (f : A * bytes -> MO (B * rst)) :
  goodB true bs m -> (forall v t, fst m = OOk (v, t) -> goodAt s (t, el) (f (v, t))) -> goodAt true (bs, el) (bindO m f).
Proof.
  intros [(v & t & h & H1 & H2 & H3 & H4 & H5)|(e & H1 & H2 & H3)] Hf; cbn [fst snd].
  - specialize (Hf v t H1). unfold goodAt. rewrite fst_bindO, elems_bindO, consumed_bindO, H1, H5.
    destruct Hf as [(w & st2 & h' & G1 & G2 & _ & G4 & G5)|(e & G1 & G2)]; cbn [fst snd] in *.
    + left. exists w, st2, (h ++ h'). rewrite G1. subst bs. rewrite app_length, <- app_assoc, <- G2. repeat split; auto; try lia.
      intros _ Heq. apply app_eq_nil in Heq as [-> _]. apply H3; reflexivity.
    + right. exists e. split; [exact G1|]. rewrite H2, app_length. lia.
  - right. exists e. rewrite fst_bindO, consumed_bindO, H1. auto.
Qed.

Lemma goodB_ret {A} (v : A) bs : goodB false bs (retO (v, bs)).
Proof. left. exists v, bs, []. unfold consumedO, elemsO. cbn. repeat split; auto. discriminate. Qed.
Lemma goodB_fail {A} s bs e : goodB s bs (@failO (A * bytes) e).
Proof. right. exists e. unfold consumedO, elemsO. cbn. repeat split; auto. lia. Qed.
Lemma goodB_false {A} s bs (m : MO (A * bytes)) : goodB s bs m -> goodB false bs m.
Proof.
  intros [(v & r & h & H1 & H2 & _ & H4 & H5)|H]; [left|right; exact H]. exists v, r, h. repeat split; auto. discriminate.
Qed.
Lemma goodB_tick {A} s bs c (m : MO (A * bytes)) : snd c = (0, 0) -> goodB s bs m -> goodB s bs (tickO c m).
Proof.
  intros Hc [(v & r & h & H1 & H2 & H3 & H4 & H5)|(e & H1 & H2 & H3)]; [left; exists v, r, h|right; exists e];
    rewrite fst_tickO, elems_tickO, consumed_tickO, Hc; cbn [fst snd]; repeat split; auto.
Qed.
Lemma goodB_skip {A} s s' h t (m : MO (A * bytes)) : (s' = true -> s = true \/ h <> []) ->
  goodB s t m -> goodB s' (h ++ t) (tickO (c_cons (N.of_nat (length h))) m).
Proof.
  intros Hs [(v & r & h' & H1 & H2 & H3 & H4 & H5)|(e & H1 & H2 & H3)].
  - left. exists v, r, (h ++ h'). rewrite fst_tickO, elems_tickO, consumed_tickO, H2, app_assoc, app_length. cbn [c_cons fst snd].
    repeat split; auto; try lia. intros Hs' Heq. apply app_eq_nil in Heq as [-> ->]. destruct (Hs Hs') as [Hx|Hx]; [apply (H3 Hx)|apply Hx]; reflexivity.
  - right. exists e. rewrite fst_tickO, elems_tickO, consumed_tickO, app_length. cbn [c_cons fst snd]. repeat split; auto. lia.
Qed.
Lemma goodB_bind {A B} s1 s2 bs (m : MO (A * bytes)) (f : A * bytes -> MO (B * bytes)) :
  goodB s1 bs m -> (forall v t, fst m = OOk (v, t) -> goodB s2 t (f (v, t))) -> goodB (s1 || s2) bs (bindO m f).
Proof.
  intros [(v & t & h & H1 & H2 & H3 & H4 & H5)|(e & H1 & H2 & H3)] Hf.
  - specialize (Hf v t H1). unfold goodB. rewrite fst_bindO, elems_bindO, consumed_bindO, H1, H5.
    destruct Hf as [(w & r & h' & G1 & G2 & G3 & G4 & G5)|(e & G1 & G2 & G3)].
    + left. exists w, r, (h ++ h'). rewrite G1, app_length, H4, G4, G5. subst bs. rewrite <- app_assoc, <- G2. repeat split; auto; try lia.
      intros Hs Heq. apply app_eq_nil in Heq as [-> ->]. apply orb_prop in Hs as [Hs|Hs]; [apply H3|apply G3]; auto.
    + right. exists e. rewrite H2, app_length, G3. repeat split; auto. lia.
  - right. exists e. rewrite fst_bindO, consumed_bindO, elems_bindO, H1. auto.
Qed.

Lemma rd_uintO_suffix o k bs v t : rd_uintO o k bs = Ok (v, t) -> exists h, bs = h ++ t /\ length h = k.
Proof.
  unfold rd_uintO. destruct (take_n k bs) as [[h t']|e] eqn:E; [|discriminate]. cbn [bind]. intros [= _ <-].
  exists h. apply take_n_suffix; exact E.
Qed.

Lemma fixedO_good {A} o k (f : N -> A) bs : (1 <= k)%nat -> goodB true bs (fixedO o k f bs).
Proof.
  intros Hk. unfold fixedO. destruct (rd_uintO o k bs) as [[n t]|e] eqn:E; [|apply goodB_fail].
  destruct (rd_uintO_suffix _ _ _ _ _ E) as (h & -> & <-).
  apply (goodB_skip false); [|apply goodB_ret]. intros _. right. intros ->. cbn in Hk. lia.
Qed.
(** ReadBytes(n) after its bounds check: n bytes consumed and copied *)
Definition takeO (n : N) (bs : bytes) : MO (bytes * bytes) :=
  match take_N n bs with
  | Ok (s, t) => tickO (c_cons n) (tickO (c_alloc n) (retO (s, t)))
  | Err e => failO e
  end.
Lemma takeO_good n bs : goodB false bs (takeO n bs).
Proof.
  unfold takeO. destruct (take_N n bs) as [[s t]|e] eqn:E; [|apply goodB_fail].
  destruct (take_N_suffix _ _ _ _ E) as (-> & <-).
  apply (goodB_skip false); [discriminate|]. apply goodB_tick; [reflexivity|apply goodB_ret].
Qed.
Lemma lp4O_good o bs : goodB true bs (lp4O o bs).
Proof.
  apply (goodB_bind true false); [apply fixedO_good; lia|]. intros n t _. exact (takeO_good n t).
Qed.

Lemma rprimO_good o b bs : goodB true bs (rprimO o b bs).
Proof.
  destruct b; cbn [rprimO]; try (apply fixedO_good; lia).
  apply (goodB_bind true false); [apply lp4O_good|]. intros s t _. apply goodB_tick; [reflexivity|apply goodB_ret].
Qed.

Lemma with_elO_good {A} bs el (m : MO (A * bytes)) : goodB true bs m -> goodAt true (bs, el) (with_elO el m).
Proof.
  intros H. unfold with_elO. apply (goodAt_bindB false el bs m); [exact H|].
  intros v t _. apply goodAt_ret.
Qed.

Lemma rd_elemsO_good rd : (forall st, goodAt true st (rd st)) -> forall fuel n st, (length (fst st) < fuel)%nat ->
  goodAt false st (rd_elemsO rd fuel n st).
Proof.
  intros Hrd. induction fuel as [|f IH]; intros n st Hl; [lia|].
  cbn [rd_elemsO]. destruct (n =? 0); [apply goodAt_ret|].
  apply (goodAt_weaken (true || false)); [auto|].
  apply goodAt_bind; [apply Hrd|]. intros v st1 E1. apply goodAt_tick; [reflexivity|].
  change false with (false || false). apply goodAt_bind.
  - apply IH. destruct (Hrd st) as [(v' & st1' & h & H1 & H2 & H3 & _)|(e & H1 & _)]; rewrite H1 in E1; [|discriminate].
    injection E1 as <- <-. cbn [fst snd]. rewrite H2, app_length in Hl. destruct h; [exfalso; apply H3; reflexivity|cbn [length] in Hl; lia].
  - intros vs st2 _. apply goodAt_ret.
Qed.

Lemma rfieldsO_good o tot fs : Forall (fun p => forall st, goodAt (negb (wire0 (snd p))) st (readO o tot (snd p) st)) fs ->
  forall st, goodAt (negb (wire0_fields fs)) st (rfieldsO o tot fs st).
Proof.
  induction 1 as [|[ex t] r Hx Hr IH]; intros st.
  - rewrite rfieldsO_nil. apply goodAt_ret.
  - rewrite rfieldsO_cons. cbn [wire0_fields]. cbn [snd] in Hx. destruct ex.
    + apply (goodAt_weaken (negb (wire0 t) || (negb (wire0_fields r) || false))).
      { destruct (wire0 t), (wire0_fields r); cbn; auto. }
      apply goodAt_bind; [apply Hx|]. intros v st1 _. apply goodAt_bind; [apply IH|]. intros vs st2 _. apply goodAt_ret.
    + apply (goodAt_weaken (negb (wire0_fields r) || false)).
      { destruct (wire0 t), (wire0_fields r); cbn; auto. }
      apply goodAt_bind; [apply IH|]. intros vs st2 _. apply goodAt_ret.
Qed.

Theorem readO_good o tot ty : forall st, goodAt (negb (wire0 ty)) st (readO o tot ty st).
Proof.
  induction ty as [b|b| | |nm e IH|n e IH|fs IH|e IH| | | |] using goty_ind'; intros [bs el];
    try (apply goodAt_fail).
  - cbn [readO fst snd wire0 negb]. apply with_elO_good, rprimO_good.
  - cbn [readO wire0 negb fst snd].
    destruct (negb nm && match e with TBasic BU8 => true | _ => false end).
    + apply with_elO_good. apply (goodB_bind true false); [apply lp4O_good|]. intros s t _. apply goodB_ret.
    + apply (goodAt_bindB false el bs); [apply fixedO_good; lia|]. intros n t _. cbn [fst snd].
      destruct (N.of_nat (length t) <? n); [apply goodAt_fail|]. apply goodAt_elems.
      destruct (tot <? el + n); [apply goodAt_fail|]. apply goodAt_tick; [reflexivity|].
      destruct (wire0 e) eqn:W.
      * left. exists (VList (repeat (zero e) (N.to_nat n))), (t, el + n), []. unfold elemsO, consumedO. cbn. repeat split; auto; try discriminate; lia.
      * change false with (false || false). apply goodAt_bind.
        -- apply rd_elemsO_good; [|cbn [fst]; lia]. intros st. exact (IH st).
        -- intros vs st2 _. apply goodAt_ret.
  - cbn [readO wire0 negb fst snd]. apply goodAt_tick; [reflexivity|].
    apply (goodAt_bindB false el bs); [apply fixedO_good; lia|]. intros m t _. cbn [fst snd].
    destruct (negb (m =? n)); [apply goodAt_fail|].
    destruct (wire0 e) eqn:W.
    + left. exists (VList (repeat (zero e) (N.to_nat n))), (t, el), []. unfold elemsO, consumedO. cbn. repeat split; auto; try discriminate; lia.
    + change false with (false || false). apply goodAt_bind.
      * apply rd_elemsO_good; [|cbn [fst]; lia]. intros st. exact (IH st).
      * intros vs st2 _. apply goodAt_ret.
  - rewrite readO_struct_eq, wire0_struct. apply goodAt_tick; [reflexivity|].
    apply (goodAt_weaken (negb (wire0_fields fs) || false)); [destruct (wire0_fields fs); cbn; auto|].
    apply goodAt_bind; [apply rfieldsO_good; exact IH|]. intros vs st2 _. apply goodAt_ret.
Qed.

Lemma read_intoO_good o tot tys : forall st, goodAt false st (read_intoO o tot tys st).
Proof.
  induction tys as [|t r IH]; intros st; cbn [read_intoO]; [apply goodAt_ret|].
  apply (goodAt_weaken (negb (wire0 t) || (false || false))); [discriminate|].
  apply goodAt_bind; [apply readO_good|]. intros v st1 _. apply goodAt_bind; [apply IH|]. intros vs st2 _. apply goodAt_ret.
Qed.

Definition wokerr (r : wres) : Prop := (snd r = OOk tt) \/ (exists e, snd r = OErr e).
Lemma wokerr_wthen a b : wokerr a -> wokerr b -> wokerr (wthen a b).
Proof. unfold wokerr, wthen. intros [Ha|[e Ha]] Hb; rewrite Ha; cbn [snd]; auto. right; eauto. Qed.
Lemma wprimC_ok o b v : basic_ok b v = true -> exists cs, wprimC o b v = wok cs.
Proof. destruct b, v; cbn; try discriminate; eauto. Qed.

Lemma wlistC_okerr o e l : Forall (fun v => forall ty, has_typeb ty v = true -> wokerr (wreflC o ty v)) l ->
  typed_list e l = true -> wokerr (wlistC o e l).
Proof.
  induction 1 as [|x r Hx Hr IH]; [left; reflexivity|]. rewrite typed_list_cons, wlistC_cons.
  intros H. apply andb_prop in H as [H1 H2]. apply wokerr_wthen; [apply Hx; exact H1|apply IH; exact H2].
Qed.
Lemma wfieldsC_okerr o l : Forall (fun v => forall ty, has_typeb ty v = true -> wokerr (wreflC o ty v)) l ->
  forall fs, typed_fields fs l = true -> wokerr (wfieldsC o fs l).
Proof.
  induction 1 as [|x r Hx Hr IH]; intros fs; destruct fs as [|[ex t] fr]; cbn [typed_fields wfieldsC]; try discriminate; [left; reflexivity|].
  intros H. apply andb_prop in H as [H1 H2]. destruct ex; [|apply IH; exact H2].
  apply wokerr_wthen; [apply Hx; exact H1|apply IH; exact H2].
Qed.
Theorem wreflC_total o v : forall ty, has_typeb ty v = true -> wokerr (wreflC o ty v).
Proof.
  induction v as [n|z|b|s| |l IH|l IH|x IH|t x IH| ] using goval_ind'; intros ty Ht.
  1-4: destruct ty; try discriminate Ht; cbn [wreflC]; try (right; eexists; reflexivity);
       match goal with |- wokerr (wprimC _ ?b ?v) => destruct (wprimC_ok o b v Ht) as [cs ->]; left; reflexivity end.
  - destruct ty; try discriminate Ht; cbn [wreflC]; try (right; eexists; reflexivity); left; reflexivity.
  - destruct (has_type_list ty l Ht) as (e & Ee & Hl). rewrite wreflC_list_eq, Ee.
    apply wokerr_wthen; [left; reflexivity|apply wlistC_okerr; assumption].
  - destruct ty as [| | | | | |fs| | | | |]; try discriminate Ht.
    rewrite wreflC_struct_eq. apply wfieldsC_okerr; assumption.
  - destruct ty as [| | | | | | |t| | | |]; try discriminate Ht. cbn [has_typeb] in Ht. cbn [wreflC].
    destruct t; try (apply IH; exact Ht).
    destruct x; try (right; eexists; reflexivity). cbn [has_typeb] in Ht. apply andb_prop in Ht as [_ Ht].
    destruct ty; try (right; eexists; reflexivity). destruct (wprimC_ok o _ _ (has_type_basic _ _ Ht)) as [cs ->]; left; reflexivity.
  - destruct ty; try discriminate Ht. cbn [has_typeb] in Ht. apply andb_prop in Ht as [_ Ht]. cbn [wreflC]. apply IH; exact Ht.
  - destruct ty; try discriminate Ht; cbn [wreflC]; right; eexists; reflexivity.
Qed.

Theorem writeC_total o ty v : has_typeb ty v = true -> wokerr (writeC o ty v).
Proof.
  destruct (write_cases ty) as [[b|b| |]|[HC _]]; intros Ht; [..|rewrite HC; apply wreflC_total; exact Ht]; cbn [writeC].
  - destruct (wprimC_ok o b v (has_type_basic _ _ Ht)) as [cs ->]; left; reflexivity.
  - destruct v; try discriminate Ht; [right; eexists; reflexivity|].
    cbn [has_typeb] in Ht. destruct (wprimC_ok o b v (has_type_basic _ _ Ht)) as [cs ->]; left; reflexivity.
  - destruct v; try discriminate Ht; left; reflexivity.
  - destruct v as [| | | | | | |[]| |]; try discriminate Ht; left; reflexivity.
Qed.

Theorem write_fromC_total o l : forallb (fun p => has_typeb (fst p) (snd p)) l = true -> wokerr (write_fromC o l).
Proof.
  induction l as [|[t v] r IH]; cbn [forallb write_fromC fst snd]; [left; reflexivity|].
  intros H1. apply andb_prop in H1 as [H1 H1']. apply wokerr_wthen; [apply writeC_total; exact H1|apply IH; exact H1'].
Qed.

Lemma beO_1 o n : beO o 1 n = be 1 n.
Proof. destruct o; reflexivity. Qed.

Lemma fixedO_put {A} o k (f : N -> A) n rest : n < 256 ^ N.of_nat k ->
  fst (fixedO o k f (beO o k n ++ rest)) = OOk (f n, rest).
Proof. intros H. unfold fixedO. rewrite rd_uintO_beO by exact H. reflexivity. Qed.
Lemma fixedO_put1 {A} o (f : N -> A) n rest : n < 256 -> fst (fixedO o 1 f (be 1 n ++ rest)) = OOk (f n, rest).
Proof. intros H. rewrite <- (beO_1 o). apply fixedO_put. exact H. Qed.

Lemma lp4O_put o b rest : N.of_nat (length b) < 4294967296 ->
  fst (lp4O o (put_u32O o (N.of_nat (length b)) ++ b ++ rest)) = OOk (b, rest).
Proof.
  intros H. unfold lp4O. rewrite fst_bindO. unfold put_u32O. rewrite fixedO_put by exact H. cbn [fst snd].
  rewrite take_N_app. reflexivity.
Qed.

Lemma flat_wok1 p : flat (wok [p]) = p.
Proof. apply app_nil_r. Qed.
Lemma wthen_flat a b : snd a = OOk tt -> snd (wthen a b) = snd b /\ flat (wthen a b) = flat a ++ flat b.
Proof. unfold wthen, flat. intros ->. cbn [fst snd]. split; [reflexivity|apply concat_app]. Qed.

Lemma prim_rtO o b v rest : basic_ok b v = true -> fits (TBasic b) v = true ->
  snd (wprimC o b v) = OOk tt /\ flat (wprimC o b v) <> [] /\ fst (rprimO o b (flat (wprimC o b v) ++ rest)) = OOk (v, rest).
Proof.
  intros Hok Hfit. destruct b, v; try discriminate Hok; cbn [basic_ok] in Hok; cbn [wprimC rprimO]; (split; [reflexivity|]);
    unfold flat; cbn [wok fst concat]; rewrite ?app_nil_r.
  all: try (apply in_u_lt in Hok); try (apply in_s_range in Hok).
  - split; [apply (nonempty_length _ 0), (be_length 1)|]. unfold put_u8. rewrite fixedO_put1 by exact Hok. reflexivity.
  - split; [apply (nonempty_length _ 0), (be_length 1)|]. unfold put_i8, put_u8.
    rewrite fixedO_put1 by (apply (of_signed_lt 8); lia). rewrite (signed_roundtrip 8 _ ltac:(discriminate) Hok). reflexivity.
  - split; [apply (nonempty_length _ 1), (beO_length o 2)|]. unfold put_u16O. rewrite fixedO_put by exact Hok. reflexivity.
  - split; [apply (nonempty_length _ 1), (beO_length o 2)|]. unfold put_i16O, put_u16O.
    rewrite fixedO_put by (apply (of_signed_lt 16); lia). rewrite (signed_roundtrip 16 _ ltac:(discriminate) Hok). reflexivity.
  - split; [apply (nonempty_length _ 3), (beO_length o 4)|]. unfold put_u32O. rewrite fixedO_put by exact Hok. reflexivity.
  - split; [apply (nonempty_length _ 3), (beO_length o 4)|]. unfold put_i32O, put_u32O.
    rewrite fixedO_put by (apply (of_signed_lt 32); lia). rewrite (signed_roundtrip 32 _ ltac:(discriminate) Hok). reflexivity.
  - split; [apply (nonempty_length _ 7), (beO_length o 8)|]. unfold put_u64O. rewrite fixedO_put by exact Hok. reflexivity.
  - split; [apply (nonempty_length _ 7), (beO_length o 8)|]. unfold put_i64O, put_u64O.
    rewrite fixedO_put by (apply (of_signed_lt 64); lia). rewrite (signed_roundtrip 64 _ ltac:(discriminate) Hok). reflexivity.
  - split; [apply (nonempty_length _ 3), (beO_length o 4)|]. unfold put_u32O. rewrite fixedO_put by exact Hok. reflexivity.
  - split; [apply (nonempty_length _ 7), (beO_length o 8)|]. unfold put_u64O. rewrite fixedO_put by exact Hok. reflexivity.
  - destruct o, b; (split; [discriminate|reflexivity]).
  - cbn [fits] in Hfit. apply N.ltb_lt in Hfit. split.
    + intros H. apply app_eq_nil in H as [H _]. apply (f_equal (@length N)) in H. unfold put_u32O in H. rewrite beO_length in H. discriminate H.
    + rewrite fst_bindO, <- app_assoc, lp4O_put by exact Hfit. reflexivity.
Qed.

(** the statement proved by induction on the type.  [cnt ty v] slice elements are charged to the Reader's element budget;
    a value of a type that occupies wire bytes has more encoding bytes than counted elements *)
Definition RTOv (o : order) (ty : goty) (v : goval) : Prop :=
  snd (wreflC o ty v) = OOk tt
  /\ (if wire0 ty then flat (wreflC o ty v) = [] /\ norm ty v = zero ty /\ cnt ty v = 0
      else cnt ty v + 1 <= N.of_nat (length (flat (wreflC o ty v))))
  /\ forall tot rest el, el + cnt ty v <= tot ->
       fst (readO o tot ty (flat (wreflC o ty v) ++ rest, el)) = OOk (norm ty v, (rest, el + cnt ty v)).
Definition RTO (o : order) (ty : goty) : Prop := forall v, has_typeb ty v = true -> fits ty v = true -> RTOv o ty v.

Lemma elems_rtO o e : RTO o e -> wire0 e = false -> forall l,
  typed_list e l = true -> fits_list e l = true ->
  snd (wlistC o e l) = OOk tt /\ N.of_nat (length l) + cnt_list e l <= N.of_nat (length (flat (wlistC o e l)))
  /\ forall tot rest el fuel, (length l <= fuel)%nat -> el + cnt_list e l <= tot ->
       fst (rd_elemsO (readO o tot e) fuel (N.of_nat (length l)) (flat (wlistC o e l) ++ rest, el)) = OOk (norm_list e l, (rest, el + cnt_list e l)).
Proof.
  intros He W. induction l as [|x r IH]; intros Ht Hf.
  - split; [reflexivity|]. split; [cbn; lia|]. intros tot rest el fuel _ _. cbn [cnt_list]. rewrite N.add_0_r. destruct fuel; reflexivity.
  - rewrite typed_list_cons in Ht. rewrite fits_list_cons in Hf.
    apply andb_prop in Ht as [Ht1 Ht2]. apply andb_prop in Hf as [Hf1 Hf2].
    destruct (He x Ht1 Hf1) as (Hwx & Hne & Hrx). rewrite W in Hne.
    destruct (IH Ht2 Hf2) as (Hwr & Hlen & Hrr).
    rewrite wlistC_cons. destruct (wthen_flat _ (wlistC o e r) Hwx) as [-> ->]. split; [exact Hwr|].
    rewrite cnt_list_cons. split. { rewrite app_length. cbn [length]. lia. }
    intros tot rest el fuel Hfuel Hb. cbn [length] in *. destruct fuel as [|f]; [lia|].
    cbn [rd_elemsO]. replace (N.of_nat (S (length r)) =? 0) with false by lia.
    rewrite fst_bindO, <- app_assoc, Hrx by lia. rewrite fst_tickO, fst_bindO. cbn [fst snd].
    rewrite N_of_nat_S_pred, Hrr by lia. cbn [retO fst snd]. rewrite norm_list_cons.
    replace (el + cnt e x + cnt_list e r) with (el + (cnt e x + cnt_list e r)) by lia. reflexivity.
Qed.

Lemma elems_wire0O o e : RTO o e -> wire0 e = true -> forall l,
  typed_list e l = true -> fits_list e l = true ->
  snd (wlistC o e l) = OOk tt /\ flat (wlistC o e l) = [] /\ norm_list e l = repeat (zero e) (length l) /\ cnt_list e l = 0.
Proof.
  intros He W. induction l as [|x r IH]; intros Ht Hf; [repeat split; reflexivity|].
  rewrite typed_list_cons in Ht. rewrite fits_list_cons in Hf.
  apply andb_prop in Ht as [Ht1 Ht2]. apply andb_prop in Hf as [Hf1 Hf2].
  destruct (He x Ht1 Hf1) as (Hwx & Hne & _). rewrite W in Hne. destruct Hne as (Hbx & Hz & Hc).
  destruct (IH Ht2 Hf2) as (Hwr & Hbr & Hnr & Hcr).
  rewrite wlistC_cons. destruct (wthen_flat _ (wlistC o e r) Hwx) as [-> ->].
  rewrite Hbx, Hbr, norm_list_cons, Hz, Hnr, cnt_list_cons, Hc, Hcr. repeat split; auto.
Qed.

(** []byte: the type switch's fast paths and the reflective path agree *)
Lemma wlistC_bytes o l : typed_list (TBasic BU8) l = true ->
  snd (wlistC o (TBasic BU8) l) = OOk tt /\ flat (wlistC o (TBasic BU8) l) = map byte_of l /\ map VN (map byte_of l) = l.
Proof.
  induction l as [|x r IH]; [repeat split; reflexivity|]. rewrite typed_list_cons. intros H. apply andb_prop in H as [H1 H2].
  destruct (IH H2) as (E1 & E2 & E3). rewrite wlistC_cons. destruct x; try discriminate H1.
  cbn [has_typeb basic_ok] in H1. apply in_u_lt in H1. change (2 ^ 8) with 256 in H1.
  cbn [wreflC wprimC]. destruct (wthen_flat (wok [put_u8 n]) (wlistC o (TBasic BU8) r) eq_refl) as [-> ->].
  rewrite E2. cbn [map byte_of]. rewrite E3. split; [exact E1|]. split; [|reflexivity].
  unfold flat, put_u8. cbn [wok fst concat be app]. rewrite N.mod_small by exact H1. reflexivity.
Qed.

Lemma fields_rtO o fs : Forall (fun p => supported (snd p) = true -> RTO o (snd p)) fs -> supported_fields fs = true -> forall l,
  typed_fields fs l = true -> fits_fields fs l = true ->
  snd (wfieldsC o fs l) = OOk tt
  /\ (if wire0_fields fs then flat (wfieldsC o fs l) = [] /\ norm_fields fs l = zero_fields fs /\ cnt_fields fs l = 0
      else cnt_fields fs l + 1 <= N.of_nat (length (flat (wfieldsC o fs l))))
  /\ cnt_fields fs l <= N.of_nat (length (flat (wfieldsC o fs l)))
  /\ forall tot rest el, el + cnt_fields fs l <= tot ->
       fst (rfieldsO o tot fs (flat (wfieldsC o fs l) ++ rest, el)) = OOk (norm_fields fs l, (rest, el + cnt_fields fs l)).
Proof.
  induction 1 as [|[ex t] fr Hx Hr IH]; intros Hs l Ht Hf.
  - destruct l; [|discriminate Ht]. cbn [wfieldsC wire0_fields norm_fields zero_fields cnt_fields].
    repeat split; try reflexivity; try (cbn; lia). intros tot rest el _. rewrite rfieldsO_nil, N.add_0_r. reflexivity.
  - destruct l as [|x r]; [discriminate Ht|].
    cbn [typed_fields] in Ht. cbn [fits_fields] in Hf. cbn [supported_fields] in Hs. cbn [snd] in Hx.
    apply andb_prop in Ht as [Ht1 Ht2]. apply andb_prop in Hf as [Hf1 Hf2]. apply andb_prop in Hs as [Hs1 Hs2].
    destruct (IH Hs2 r Ht2 Hf2) as (Hwr & Hw0 & Hcb & Hrr).
    cbn [wfieldsC norm_fields zero_fields wire0_fields cnt_fields]. destruct ex; cbn [negb orb andb] in *.
    + destruct (Hx Hs1 x Ht1 Hf1) as (Hwx & Hx0 & Hrx).
      destruct (wthen_flat _ (wfieldsC o fr r) Hwx) as [-> ->]. split; [exact Hwr|]. rewrite app_length.
      assert (Hcx : cnt t x <= N.of_nat (length (flat (wreflC o t x)))) by (destruct (wire0 t); [destruct Hx0 as (_ & _ & ->); lia|lia]).
      split; [|split; [lia|]].
      * destruct (wire0 t) eqn:W; cbn [andb]; [|lia].
        destruct Hx0 as (Hbx & Hz & Hc). rewrite Hbx. cbn [app length]. destruct (wire0_fields fr); [|lia].
        destruct Hw0 as (Hbr & Hz' & Hc'). rewrite Hz, Hz', Hc, Hc', Hbr. auto.
      * intros tot rest el Hb. rewrite rfieldsO_cons, fst_bindO, <- app_assoc, Hrx by lia. rewrite fst_bindO. cbn [fst snd].
        rewrite Hrr by lia. cbn [retO fst snd]. replace (el + cnt t x + cnt_fields fr r) with (el + (cnt t x + cnt_fields fr r)) by lia. reflexivity.
    + split; [exact Hwr|]. split; [|split; [lia|]].
      * destruct (wire0_fields fr); [destruct Hw0 as (Hbr & Hz' & Hc'); rewrite Hz', Hc'; auto|lia].
      * intros tot rest el Hb. rewrite rfieldsO_cons, fst_bindO, Hrr by lia. cbn [retO fst snd]. rewrite N.add_0_l. reflexivity.
Qed.

Lemma be4O_app_length o n b : length (put_u32O o n ++ b) = (4 + length b)%nat.
Proof. rewrite app_length. unfold put_u32O. rewrite beO_length. reflexivity. Qed.

(** the continuation of the slice/array case after the length prefix (and the slice's checks) *)
Lemma elems_contO o e l : RTO o e -> typed_list e l = true -> fits_list e l = true ->
  snd (wlistC o e l) = OOk tt /\
  (if wire0 e then cnt_list e l = 0 /\ flat (wlistC o e l) = []
   else N.of_nat (length l) + cnt_list e l <= N.of_nat (length (flat (wlistC o e l)))) /\
  forall tot rest el, el + cnt_list e l <= tot ->
    fst (if wire0 e then (OOk (VList (repeat (zero e) (N.to_nat (N.of_nat (length l)))), (flat (wlistC o e l) ++ rest, el)), c_iter (N.of_nat (length l)))
         else bindO (rd_elemsO (readO o tot e) (S (length (flat (wlistC o e l) ++ rest))) (N.of_nat (length l)) (flat (wlistC o e l) ++ rest, el))
                    (fun q => retO (VList (fst q), snd q)))
    = OOk (VList (norm_list e l), (rest, el + cnt_list e l)).
Proof.
  intros He Ht Hf. destruct (wire0 e) eqn:W.
  - destruct (elems_wire0O o e He W l Ht Hf) as (Hw & Hcs & Hn & Hc). split; [exact Hw|]. split; [auto|].
    intros tot rest el _. cbn [fst]. rewrite Hcs. cbn [app]. rewrite repeat_to_nat, Hn, Hc, N.add_0_r. reflexivity.
  - destruct (elems_rtO o e He W l Ht Hf) as (Hw & Hl & Hr). split; [exact Hw|]. split; [exact Hl|].
    intros tot rest el Hb. rewrite fst_bindO, Hr by (try rewrite app_length; lia). reflexivity.
Qed.

Theorem roundtrip_reflO o ty : supported ty = true -> RTO o ty.
Proof.
  induction ty as [b|b| | |nm e IH|n e IH|fs IH|e IH| | | |] using goty_ind'; intros Hs; try discriminate Hs.
  - intros v Ht Hf. unfold RTOv. pose proof (fun rest => prim_rtO o b v rest (has_type_basic _ _ Ht) Hf) as Hp.
    destruct (Hp []) as (Hw & Hne & _).
    assert (Hc : cnt (TBasic b) v = 0) by (destruct v; reflexivity). rewrite Hc.
    assert (Ew : wreflC o (TBasic b) v = wprimC o b v) by (destruct v; try discriminate Ht; reflexivity). rewrite Ew.
    split; [exact Hw|]. cbn [wire0]. split; [destruct (flat (wprimC o b v)); [contradiction|cbn [length]; lia]|].
    intros tot rest el _. destruct (Hp rest) as (_ & _ & Hr').
    cbn [readO fst snd]. unfold with_elO. rewrite fst_bindO, Hr'. cbn [retO fst snd]. rewrite N.add_0_r.
    destruct v; try discriminate Ht; reflexivity.
  - cbn [supported] in Hs. specialize (IH Hs).
    assert (HL : forall l, has_typeb (TSlice nm e) (VList l) = true -> fits (TSlice nm e) (VList l) = true ->
              RTOv o (TSlice nm e) (VList l)).
    { intros l Ht Hf. unfold RTOv. cbn [wire0]. rewrite has_type_slice in Ht. rewrite fits_slice in Hf. apply andb_prop in Hf as [Hlen Hf]. apply andb_prop in Hlen as [Hlen Hw0]. apply N.ltb_lt in Hlen.
      rewrite wreflC_list_eq, norm_slice, cnt_slice. cbn [elem_ty].
      destruct (wthen_flat (wok [put_u32O o (N.of_nat (length l))]) (wlistC o e l) eq_refl) as [-> ->].
      rewrite !flat_wok1.
      destruct (negb nm && match e with TBasic BU8 => true | _ => false end) eqn:Fast.
      * pose proof Fast as Fast'. apply andb_prop in Fast' as [_ Fe].
        destruct e as [b| | | | | | | | | | |]; try discriminate Fe. destruct b; try discriminate Fe.
        destruct (wlistC_bytes o l Ht) as (Hw & Hcs & Hm). rewrite Hcs. split; [exact Hw|].
        split; [rewrite be4O_app_length; lia|].
        intros tot rest el _. cbn [readO fst snd]. rewrite Fast. unfold with_elO. rewrite !fst_bindO.
        replace (length l) with (length (map byte_of l)) by apply map_length.
        rewrite <- app_assoc, lp4O_put by (rewrite map_length; exact Hlen). cbn [retO fst snd].
        rewrite Hm, norm_list_bytes, N.add_0_r by exact Ht. reflexivity.
      * destruct (elems_contO o e l IH Ht Hf) as (Hw & Hlb & Hr). split; [exact Hw|].
        assert (Hcnt : N.of_nat (length l) + cnt_list e l <= N.of_nat (length (flat (wlistC o e l)))).
        { destruct (wire0 e); cbn [negb orb] in Hw0; [apply N.eqb_eq in Hw0; destruct Hlb as [-> _]; lia|exact Hlb]. }
        split; [rewrite be4O_app_length; lia|]. intros tot rest el Hb. cbn [readO fst snd]. rewrite Fast.
        rewrite fst_bindO, <- app_assoc. unfold put_u32O. rewrite fixedO_put by exact Hlen. cbn [fst snd].
        replace (N.of_nat (length (flat (wlistC o e l) ++ rest)) <? N.of_nat (length l)) with false by (rewrite app_length; lia).
        rewrite fst_tickO.
        replace (tot <? el + N.of_nat (length l)) with false by lia.
        rewrite fst_tickO, Hr by lia. rewrite N.add_assoc. reflexivity. }
    intros v Ht Hf. destruct v; try discriminate Ht; [|exact (HL l Ht Hf)].
    (* a nil slice is written, counted and read back as the empty one *)
    assert (Ec : cnt (TSlice nm e) (VList []) = 0) by (rewrite cnt_slice; destruct (negb nm && _); reflexivity).
    pose proof (HL [] eq_refl ltac:(rewrite fits_slice; cbn; rewrite orb_true_r; reflexivity)) as H. unfold RTOv in H. rewrite Ec in H. exact H.
  - cbn [supported] in Hs. apply andb_prop in Hs as [Hn Hs]. apply N.ltb_lt in Hn. specialize (IH Hs). intros v Ht Hf. unfold RTOv. cbn [wire0].
    destruct v; try discriminate Ht.
    rewrite has_type_array in Ht. apply andb_prop in Ht as [Hlen Ht]. apply N.eqb_eq in Hlen. rewrite fits_array in Hf.
    rewrite wreflC_list_eq, norm_array, cnt_array. cbn [elem_ty].
    destruct (wthen_flat (wok [put_u32O o (N.of_nat (length l))]) (wlistC o e l) eq_refl) as [-> ->].
    rewrite !flat_wok1.
    destruct (elems_contO o e l IH Ht Hf) as (Hw & Hlb & Hr). split; [exact Hw|].
    assert (Hcnt : cnt_list e l <= N.of_nat (length (flat (wlistC o e l)))).
    { destruct (wire0 e); [destruct Hlb as [-> _]; lia|lia]. }
    split; [rewrite be4O_app_length; lia|]. intros tot rest el Hb. cbn [readO fst snd].
    rewrite fst_tickO, fst_bindO, <- app_assoc. unfold put_u32O. rewrite fixedO_put by lia. cbn [fst snd].
    rewrite Hlen, N.eqb_refl. cbn [negb]. rewrite <- Hlen. exact (Hr tot rest el Hb).
  - rewrite supported_struct in Hs. intros v Ht Hf. unfold RTOv. destruct v; try discriminate Ht.
    rewrite has_type_struct in Ht. rewrite fits_struct in Hf.
    destruct (fields_rtO o fs IH Hs l Ht Hf) as (Hw & H0 & _ & Hr).
    rewrite wreflC_struct_eq, wire0_struct, norm_struct, zero_struct, cnt_struct. split; [exact Hw|]. split.
    + destruct (wire0_fields fs); [destruct H0 as (-> & -> & ->); auto|exact H0].
    + intros tot rest el Hb. rewrite readO_struct_eq, fst_tickO, fst_bindO, Hr by exact Hb. reflexivity.
Qed.

(** the type switch of Write and writeReflect append the same bytes on supported types *)
Lemma writeC_flat_wreflC o ty v : supported ty = true -> has_typeb ty v = true ->
  snd (writeC o ty v) = snd (wreflC o ty v) /\ flat (writeC o ty v) = flat (wreflC o ty v).
Proof.
  destruct (write_cases ty) as [[b|b| |]|[-> _]]; intros Hs Ht; try discriminate Hs; [..|split; reflexivity]; cbn [writeC].
  - destruct v; try discriminate Ht; split; reflexivity.
  - destruct v; try discriminate Ht; [split; reflexivity|].
    rewrite has_type_slice in Ht. rewrite wreflC_list_eq. cbn [elem_ty].
    destruct (wlistC_bytes o l Ht) as (Hw & Hcs & _).
    destruct (wthen_flat (wok [put_u32O o (N.of_nat (length l))]) (wlistC o (TBasic BU8) l) eq_refl) as [-> ->].
    rewrite Hw, Hcs, flat_wok1. unfold flat. cbn [wok fst snd concat]. rewrite app_nil_r. split; reflexivity.
Qed.

Theorem roundtrip_stateO o ty v : supported ty = true -> has_typeb ty v = true -> fits ty v = true ->
  snd (writeC o ty v) = OOk tt /\ cnt ty v <= N.of_nat (length (flat (writeC o ty v))) /\
  forall tot rest el, el + cnt ty v <= tot ->
    fst (readO o tot ty (flat (writeC o ty v) ++ rest, el)) = OOk (norm ty v, (rest, el + cnt ty v)).
Proof.
  intros Hs Ht Hf. destruct (roundtrip_reflO o ty Hs v Ht Hf) as (Hw & H0 & Hr).
  destruct (writeC_flat_wreflC o ty v Hs Ht) as [-> ->]. split; [exact Hw|]. split; [|exact Hr].
  destruct (wire0 ty); [destruct H0 as (_ & _ & ->); lia|lia].
Qed.
Theorem roundtripO o ty v : supported ty = true -> has_typeb ty v = true -> fits ty v = true ->
  snd (writeC o ty v) = OOk tt /\
  forall rest, fst (read0O o ty (flat (writeC o ty v) ++ rest)) = OOk (norm ty v, (rest, cnt ty v)).
Proof.
  intros Hs Ht Hf. destruct (roundtrip_stateO o ty v Hs Ht Hf) as (Hw & Hc & Hr). split; [exact Hw|].
  intros rest. unfold read0O, fresh. rewrite Hr by (rewrite app_length; lia). rewrite N.add_0_l. reflexivity.
Qed.
