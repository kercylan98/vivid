(** Lemmas about the decoder monad of MsgPrim.v: running ([drun]), allocation bounds ([addb], [linb]),
    absence of crash / fuel exhaustion ([safe]), and the last two in one predicate ([okd]). *)
From Coq Require Import List NArith ZArith Lia Bool.
From Coq Require Import ZifyN ZifyNat ZifyBool.
From Vivid Require Import Codec.Prim Codec.PrimProofs Codec.MsgPrim.
Import ListNotations.
Local Open Scope N_scope.

Lemma bytes_eqb_refl a : bytes_eqb a a = true.
Proof. induction a as [|x a IH]; cbn; [reflexivity|]. rewrite N.eqb_refl, IH. reflexivity. Qed.
Lemma bytes_eqb_eq a : forall b, bytes_eqb a b = true -> a = b.
Proof.
  induction a as [|x a IH]; intros [|y b] E; cbn in E; try discriminate; [reflexivity|].
  apply andb_true_iff in E as [E1 E2]. apply N.eqb_eq in E1. subst. f_equal. apply IH, E2.
Qed.

Lemma drun_bind_ok {A B} (m : dec A) (f : A -> dec B) bs x bs' :
  drun m bs = MOk (x, bs') -> drun (dbind m f) bs = drun (f x) bs'.
Proof.
  unfold drun, dbind. destruct (m bs) as [a [[y t]|e]]; cbn; intros H; [|discriminate].
  injection H as -> ->. destruct (f x bs'); reflexivity.
Qed.
Lemma drun_bind_err {A B} (m : dec A) (f : A -> dec B) bs e :
  drun m bs = MErr e -> drun (dbind m f) bs = MErr e.
Proof.
  unfold drun, dbind. destruct (m bs) as [a [[y t]|e']]; cbn; intros H; [discriminate|].
  injection H as ->. reflexivity.
Qed.
(** the encoder's result is a value: the bytes can be named before what follows them *)
Lemma drun_any_rest {A} (enc : mres bytes) (m : dec A) (x : A) :
  (forall rest, exists b, enc = MOk b /\ drun m (b ++ rest) = MOk (x, rest)) ->
  exists b, enc = MOk b /\ forall rest, drun m (b ++ rest) = MOk (x, rest).
Proof.
  intros H. destruct (H []) as (b & Hb & _). exists b. split; [exact Hb|]. intros rest.
  destruct (H rest) as (b' & Hb' & Hr). rewrite Hb in Hb'. injection Hb' as <-. exact Hr.
Qed.
Lemma drun_dret {A} (a : A) bs : drun (dret a) bs = MOk (a, bs).
Proof. reflexivity. Qed.
Lemma drun_dalloc n bs : drun (dalloc n) bs = MOk (tt, bs).
Proof. reflexivity. Qed.

Lemma drun_dlift {A} (r : bytes -> res (A * bytes)) bs v : r bs = Ok v -> drun (dlift r) bs = MOk v.
Proof. unfold drun, dlift. intros ->. reflexivity. Qed.

Lemma drun_u8 n rest : n < 256 -> drun d_u8 (put_u8 n ++ rest) = MOk (n, rest).
Proof. intros H. apply drun_dlift, rd_u8_put, H. Qed.
Lemma drun_u16 n rest : n < 65536 -> drun d_u16 (put_u16 n ++ rest) = MOk (n, rest).
Proof. intros H. apply drun_dlift, rd_u16_put, H. Qed.
Lemma drun_u32 n rest : n < 4294967296 -> drun d_u32 (put_u32 n ++ rest) = MOk (n, rest).
Proof. intros H. apply drun_dlift, rd_u32_put, H. Qed.
Lemma drun_u64 n rest : n < 18446744073709551616 -> drun d_u64 (put_u64 n ++ rest) = MOk (n, rest).
Proof. intros H. apply drun_dlift, rd_u64_put, H. Qed.
Lemma drun_i32 z rest : in_i32 z -> drun d_i32 (put_i32 z ++ rest) = MOk (z, rest).
Proof. intros H. apply drun_dlift, rd_i32_put, H. Qed.
Lemma drun_i64 z rest : in_i64 z -> drun d_i64 (put_i64 z ++ rest) = MOk (z, rest).
Proof. intros H. apply drun_dlift, rd_i64_put, H. Qed.
Lemma drun_bool b rest : drun d_bool (put_bool b ++ rest) = MOk (b, rest).
Proof. apply drun_dlift, rd_bool_put. Qed.
Lemma drun_str b rest : len32 b -> drun d_str (put_lp4 b ++ rest) = MOk (b, rest).
Proof. intros H. unfold drun, d_str. rewrite rd_lp4_put by exact H. reflexivity. Qed.
Lemma drun_sub b rest : len32 b -> drun d_sub (put_lp4 b ++ rest) = MOk (b, rest).
Proof. intros H. apply drun_dlift, rd_lp4_put, H. Qed.

(** one step of a round-trip proof: run the next reader of a [dbind] chain on the next written field *)
Ltac rt_side :=
  first [ assumption | reflexivity | (unfold in_i32, in_i64, len32 in *; lia) ].
Ltac rt_prim :=
  lazymatch goal with
  | |- drun d_str _ = _ => apply drun_str; rt_side
  | |- drun d_sub _ = _ => apply drun_sub; rt_side
  | |- drun d_u8 _ = _ => apply drun_u8; rt_side
  | |- drun d_u16 _ = _ => apply drun_u16; rt_side
  | |- drun d_u32 _ = _ => apply drun_u32; rt_side
  | |- drun d_u64 _ = _ => apply drun_u64; rt_side
  | |- drun d_i32 _ = _ => apply drun_i32; rt_side
  | |- drun d_i64 _ = _ => apply drun_i64; rt_side
  | |- drun d_bool _ = _ => apply drun_bool
  | |- drun (dalloc _) _ = _ => apply drun_dalloc
  | |- drun (dret _) _ = _ => apply drun_dret
  end.
Ltac rt_step :=
  rewrite <- ?app_assoc;
  first [ erewrite drun_bind_ok by rt_prim | rewrite drun_dret ].

Definition shrinks {A} (m : dec A) : Prop :=
  forall bs x bs', drun m bs = MOk (x, bs') -> (length bs' <= length bs)%nat.
Lemma shrinks_bind {A B} (m : dec A) (f : A -> dec B) :
  shrinks m -> (forall x, shrinks (f x)) -> shrinks (dbind m f).
Proof.
  intros Hm Hf bs y bs2. unfold drun, dbind.
  destruct (m bs) as [a [[x t]|e]] eqn:E; cbn; [|discriminate].
  destruct (f x t) as [a' r] eqn:E2. cbn. intros ->.
  pose proof (Hm bs x t) as H1. unfold drun in H1. rewrite E in H1. specialize (H1 eq_refl).
  pose proof (Hf x t y bs2) as H2. unfold drun in H2. rewrite E2 in H2. specialize (H2 eq_refl). lia.
Qed.

Lemma take_N_len k bs h t : take_N k bs = Ok (h, t) -> N.of_nat (length bs) = k + N.of_nat (length t) /\ N.of_nat (length h) = k.
Proof. intros H. apply take_N_suffix in H as [-> <-]. rewrite app_length. lia. Qed.
Lemma rd_uint_len k bs n t : rd_uint k bs = Ok (n, t) -> length bs = (k + length t)%nat.
Proof. intros H. apply rd_uint_suffix in H as (h & -> & <-). apply app_length. Qed.
Lemma rd_lp4_len bs s t : rd_lp4 bs = Ok (s, t) -> (length bs = 4 + length s + length t)%nat.
Proof.
  unfold rd_lp4, rd_u32. destruct (rd_uint 4 bs) as [[n t']|] eqn:E; cbn; [|discriminate].
  intros H. apply rd_uint_len in E. apply take_N_len in H. lia.
Qed.

(** allocation: on success the bytes allocated are covered by the bytes consumed plus [K]; on failure
    by the whole input plus [K] *)
Definition addb {A} (K : N) (m : dec A) : Prop :=
  forall bs, match m bs with
             | (a, MOk (_, bs')) => (length bs' <= length bs)%nat /\ a + N.of_nat (length bs') <= N.of_nat (length bs) + K
             | (a, MErr _) => a <= N.of_nat (length bs) + K
             end.
Lemma addb_weaken {A} K K' (m : dec A) : K <= K' -> addb K m -> addb K' m.
Proof. intros HK H bs. specialize (H bs). destruct (m bs) as [a [[x t]|e]]; lia. Qed.
Lemma addb_bind {A B} K1 K2 (m : dec A) (f : A -> dec B) :
  addb K1 m -> (forall x, addb K2 (f x)) -> addb (K1 + K2) (dbind m f).
Proof.
  intros Hm Hf bs. unfold dbind. specialize (Hm bs). destruct (m bs) as [a [[x t]|e]]; [|lia].
  specialize (Hf x t). destruct (f x t) as [a' [[y t']|e']]; lia.
Qed.
Lemma addb_dret {A} (a : A) : addb 0 (dret a).
Proof. intros bs. cbn. lia. Qed.
Lemma addb_dfail {A} e : addb 0 (@dfail A e).
Proof. intros bs. cbn. lia. Qed.
Lemma addb_dalloc n : addb n (dalloc n).
Proof. intros bs. cbn. lia. Qed.
Lemma addb_dlift {A} (r : bytes -> res (A * bytes)) :
  (forall bs a t, r bs = Ok (a, t) -> (length t <= length bs)%nat) -> addb 0 (dlift r).
Proof. intros H bs. unfold dlift. destruct (r bs) as [[a t]|] eqn:E; cbn; [apply H in E|]; lia. Qed.
Lemma addb_uint k : addb 0 (dlift (rd_uint k)).
Proof. apply addb_dlift. intros bs a t E. apply rd_uint_len in E. lia. Qed.
Lemma addb_dlift_uint {A} k (g : N -> A) : addb 0 (dlift (fun bs => let* (n, t) := rd_uint k bs in Ok (g n, t))).
Proof.
  apply addb_dlift. intros bs a t. destruct (rd_uint k bs) as [[n t']|] eqn:E; [|discriminate].
  intros [= _ <-]. apply rd_uint_len in E. lia.
Qed.
Lemma addb_u8 : addb 0 d_u8. Proof. exact (addb_uint 1). Qed.
Lemma addb_u16 : addb 0 d_u16. Proof. exact (addb_uint 2). Qed.
Lemma addb_u32 : addb 0 d_u32. Proof. exact (addb_uint 4). Qed.
Lemma addb_u64 : addb 0 d_u64. Proof. exact (addb_uint 8). Qed.
Lemma addb_i32 : addb 0 d_i32. Proof. exact (addb_dlift_uint 4 (to_signed 32)). Qed.
Lemma addb_i64 : addb 0 d_i64. Proof. exact (addb_dlift_uint 8 (to_signed 64)). Qed.
Lemma addb_bool : addb 0 d_bool. Proof. exact (addb_dlift_uint 1 (fun n => negb (n =? 0))). Qed.
Lemma addb_str : addb 0 d_str.
Proof. intros bs. unfold d_str. destruct (rd_lp4 bs) as [[s t]|] eqn:E; [apply rd_lp4_len in E|]; lia. Qed.
Lemma addb_sub : addb 0 d_sub.
Proof. apply addb_dlift. intros bs a t E. apply rd_lp4_len in E. lia. Qed.

Ltac addb_prim :=
  first [apply addb_u8|apply addb_u16|apply addb_u32|apply addb_u64|apply addb_i32|apply addb_i64|apply addb_bool|apply addb_sub].

Lemma dcost_bind {A B} (m : dec A) (f : A -> dec B) bs :
  dcost (dbind m f) bs = dcost m bs + match drun m bs with MOk (x, bs') => dcost (f x) bs' | MErr _ => 0 end.
Proof. unfold dcost, drun, dbind. destruct (m bs) as [a [[x t]|e]]; cbn; [destruct (f x t); reflexivity|lia]. Qed.

(** allocation, proportional form: on success the bytes allocated are covered by [c] times the bytes
    consumed; on failure by [c] times the whole input plus [K] (one pre-allocation that the input did
    not back) *)
Definition linb {A} (c K : N) (m : dec A) : Prop :=
  forall bs, match m bs with
             | (a, MOk (_, bs')) => (length bs' <= length bs)%nat /\ a + c * N.of_nat (length bs') <= c * N.of_nat (length bs)
             | (a, MErr _) => a <= c * N.of_nat (length bs) + K
             end.

Definition bad (e : merr) : Prop := e = MECrash \/ e = MEFuel.
Definition safe {A} (m : dec A) : Prop := forall bs e, drun m bs = MErr e -> ~ bad e.
Lemma not_bad_ME e : ~ bad (ME e).
Proof. intros [H|H]; discriminate. Qed.

(** allocation and errors together: on input [bs] the reader [m] allocates at most [c] bytes per byte it consumes
    ([c] per input byte plus [K] when it fails), and fails only with errors in [P] *)
Definition okd_at {A} (P : merr -> Prop) (c K : N) (m : dec A) (bs : bytes) : Prop :=
  match m bs with
  | (a, MOk (_, bs')) => (length bs' <= length bs)%nat /\ a + c * N.of_nat (length bs') <= c * N.of_nat (length bs)
  | (a, MErr e) => a <= c * N.of_nat (length bs) + K /\ P e
  end.
Definition okd {A} (P : merr -> Prop) (c K : N) (m : dec A) : Prop := forall bs, okd_at P c K m bs.

Lemma okd_linb {A} P c K (m : dec A) : okd P c K m -> linb c K m.
Proof. intros H bs. specialize (H bs). unfold okd_at in H. destruct (m bs) as [a [[x t]|e]]; tauto. Qed.
Lemma okd_at_safe {A} c K (m : dec A) bs e : okd_at (fun e => ~ bad e) c K m bs -> drun m bs = MErr e -> ~ bad e.
Proof. unfold okd_at, drun. destruct (m bs) as [a [[x t]|e']]; cbn; [discriminate|]. intros [_ H] [= <-]. exact H. Qed.
Lemma okd_safe {A} c K (m : dec A) : okd (fun e => ~ bad e) c K m -> safe m.
Proof. intros H bs e. apply (okd_at_safe c K), H. Qed.

Section Okd.
  Variable P : merr -> Prop.
  Hypothesis PME : forall e, P (ME e).

  Lemma okd_at_bind {A B} c K (m : dec A) (f : A -> dec B) bs :
    okd_at P c K m bs -> (forall x bs', (length bs' <= length bs)%nat -> okd_at P c K (f x) bs') -> okd_at P c K (dbind m f) bs.
  Proof using Type.
    unfold okd_at, dbind. intros Hm Hf. destruct (m bs) as [a [[x t]|e]]; [|exact Hm].
    specialize (Hf x t (proj1 Hm)). destruct (f x t) as [a' [[y t']|e']]; (split; [|try tauto]); nia.
  Qed.
  Lemma okd_bind {A B} c K (m : dec A) (f : A -> dec B) : okd P c K m -> (forall x, okd P c K (f x)) -> okd P c K (dbind m f).
  Proof using Type. intros Hm Hf bs. apply okd_at_bind; [apply Hm|]. intros x bs' _. apply Hf. Qed.
  Lemma okd_dret {A} c K (a : A) : okd P c K (dret a).
  Proof using Type. intros bs. unfold okd_at. cbn. lia. Qed.
  Lemma okd_dfail {A} c K e : P e -> okd P c K (@dfail A e).
  Proof using Type. intros H bs. unfold okd_at. cbn. split; [lia|exact H]. Qed.
  Lemma okd_mono {A} c c' K K' (m : dec A) : c <= c' -> K <= K' -> okd P c K m -> okd P c' K' m.
  Proof using Type. intros Hc HK H bs. specialize (H bs). unfold okd_at in *. destruct (m bs) as [a [[x t]|e]]; (split; [|try tauto]); nia. Qed.
  Lemma okd_dlift {A} c K (r : bytes -> res (A * bytes)) : 1 <= c -> addb 0 (dlift r) -> okd P c K (dlift r).
  Proof using PME.
    intros Hc H bs. specialize (H bs). unfold okd_at, dlift in *. destruct (r bs) as [[a t]|e]; cbn [mlift] in *; (split; [|try apply PME]); nia.
  Qed.
  Lemma okd_str c K : 1 <= c -> okd P c K d_str.
  Proof using PME.
    intros Hc bs. pose proof (addb_str bs) as H. unfold okd_at, d_str in *. destruct (rd_lp4 bs) as [[s t]|e]; (split; [|try apply PME]); nia.
  Qed.
End Okd.
