(** Round trips of the cluster codecs (ClusterMsgs.v); their totality and allocation bounds are in MsgsTotalProofs.v. *)
From Coq Require Import List NArith ZArith Lia Bool.
From Coq Require Import ZifyN ZifyNat ZifyBool.
From stdpp Require Import gmap.
From Vivid Require Import Codec.Prim Codec.PrimProofs Codec.MsgPrim Codec.MsgPrimProofs Cluster.VV Cluster.VVProofs Codec.ClusterMsgs.
Local Open Scope N_scope.

Lemma fold_insert_nodup `{Countable K} {V} (l : list (K * V)) (acc : gmap K V) :
  NoDup (l.*1) -> foldl (fun a p => <[fst p := snd p]> a) acc l = list_to_map l ∪ acc.
Proof.
  revert acc. induction l as [|[k c] l IH]; intros acc Hnd; cbn [foldl].
  - cbn. rewrite (left_id ∅ (∪)). reflexivity.
  - cbn in Hnd. apply NoDup_cons in Hnd as [Hk Hnd].
    rewrite IH by exact Hnd. cbn [fst snd list_to_map foldr].
    change (foldr (λ p, <[p.1:=p.2]>) ∅ l) with (list_to_map (M:=gmap K V) l).
    rewrite <- insert_union_l, insert_union_r; [reflexivity|].
    apply not_elem_of_list_to_map_1. exact Hk.
Qed.

Lemma sorted_entries_length `{Countable K} {V} (le : K * V -> K * V -> bool) (m : gmap K V) :
  length (isort le (map_to_list m)) = size m.
Proof. rewrite (Permutation_length (isort_perm le (map_to_list m))). reflexivity. Qed.
Lemma foldl_insert_sorted `{Countable K} {V} (le : K * V -> K * V -> bool) (m : gmap K V) :
  foldl (fun a p => <[fst p := snd p]> a) ∅ (isort le (map_to_list m)) = m.
Proof.
  pose proof (isort_perm le (map_to_list m)) as HP.
  rewrite fold_insert_nodup by (rewrite HP; apply NoDup_fst_map_to_list). rewrite (right_id ∅ (∪)).
  rewrite <- (list_to_map_to_list m) at 2. apply list_to_map_proper; [|exact HP]. rewrite HP. apply NoDup_fst_map_to_list.
Qed.

Lemma dec_pairs_enc l : forall acc rest,
  Forall (fun p => len32 (fst p) /\ len32 (snd p)) l ->
  drun (dec_pairs (length l) acc) (enc_pairs l ++ rest) = MOk (foldl (fun a p => <[fst p := snd p]> a) acc l, rest).
Proof.
  induction l as [|[k v] l IH]; intros acc rest Hl; [reflexivity|].
  apply Forall_cons in Hl as [[Hk Hv] Hl]. cbn [fst snd] in Hk, Hv.
  cbn [length dec_pairs enc_pairs foldl fst snd].
  do 2 rt_step. rewrite IH by exact Hl. reflexivity.
Qed.

Theorem mapss_rt (m : gomap) rest :
  valid_mapss m -> drun dec_mapss (enc_mapss m ++ rest) = MOk (m, rest).
Proof.
  destruct m as [m|]; cbn [valid_mapss enc_mapss]; unfold dec_mapss.
  2:{ intros _. rt_step. reflexivity. }
  intros [Hne [Hsz Hkv]].
  pose proof (sorted_entries_length (fun p q => lex_le (fst p) (fst q)) m) as Hlen. fold (sentries m) in Hlen.
  assert (Hpos : size m <> 0%nat) by (intros Hz; apply map_size_empty_iff in Hz; contradiction).
  unfold max_map_entries in *.
  rt_step. rewrite Hlen.
  replace (N.of_nat (size m) =? 0) with false by (symmetry; apply N.eqb_neq; lia).
  replace (65536 <? N.of_nat (size m)) with false by (symmetry; apply N.ltb_ge; lia).
  rt_step. rewrite Nat2N.id, <- Hlen.
  erewrite drun_bind_ok.
  2:{ apply dec_pairs_enc. apply Forall_forall. intros [k v] Hin. unfold sentries in Hin.
      rewrite isort_perm in Hin. apply elem_of_map_to_list in Hin. apply (Hkv k v Hin). }
  rewrite drun_dret. unfold sentries. rewrite foldl_insert_sorted. reflexivity.
Qed.

Theorem mapss_too_large (m : smap) rest :
  max_map_entries < N.of_nat (size m) < 2 ^ 32 ->
  drun dec_mapss (enc_mapss (Some m) ++ rest) = MErr (ME ETooLarge).
Proof.
  intros [Hlo Hhi]. cbn [enc_mapss]. unfold dec_mapss.
  pose proof (sorted_entries_length (fun p q => lex_le (fst p) (fst q)) m) as Hlen. fold (sentries m) in Hlen.
  unfold max_map_entries in *. change (2 ^ 32) with 4294967296 in Hhi.
  rt_step. rewrite Hlen.
  replace (N.of_nat (size m) =? 0) with false by (symmetry; apply N.eqb_neq; lia).
  replace (65536 <? N.of_nat (size m)) with true by (symmetry; apply N.ltb_lt; lia).
  reflexivity.
Qed.

Theorem ns_body_rt n rest :
  ty_ns n -> valid_ns n -> drun dec_ns_body (enc_ns_body n ++ rest) = MOk (n, rest).
Proof.
  intros (Tg & Tts & Tseq & Tst & Tls & Tlc & Tck) (Vid & Vcl & Vad & Vg & Vst & Vme & Vla).
  change (2 ^ 64) with 18446744073709551616 in *. change (2 ^ 32) with 4294967296 in *.
  unfold dec_ns_body, enc_ns_body.
  do 10 rt_step.
  rewrite <- ?app_assoc. erewrite drun_bind_ok by (apply mapss_rt; exact Vme).
  rewrite <- ?app_assoc. erewrite drun_bind_ok by (apply mapss_rt; exact Vla).
  do 2 rt_step. destruct n; reflexivity.
Qed.

Theorem ns_opt_rt n rest :
  ty_ns_opt n -> valid_ns_opt n -> drun dec_ns_opt (enc_ns_opt n ++ rest) = MOk (n, rest).
Proof.
  destruct n as [n|]; cbn [ty_ns_opt valid_ns_opt enc_ns_opt]; intros Ht Hv; unfold dec_ns_opt.
  - rt_step. cbn [N.eqb]. rewrite <- ?app_assoc. erewrite drun_bind_ok by (apply ns_body_rt; assumption).
    reflexivity.
  - rt_step. reflexivity.
Qed.

(** [d_vv] is [vread] of Cluster/VV.v with the allocation counted, so its round trip is [vread_vwrite] *)
Lemma d_vv_entries_vread n : forall acc bs, drun (d_vv_entries n acc) bs = mlift (vread_entries n acc bs).
Proof.
  induction n as [|n IH]; intros acc bs; [reflexivity|].
  cbn [d_vv_entries vread_entries]. unfold drun, dbind at 1, d_str.
  destruct (rd_lp4 bs) as [[k t]|e]; cbn [bind mlift snd]; [|reflexivity].
  destruct (valid_addr k); [|reflexivity].
  unfold dbind, d_u64, dlift. destruct (rd_u64 t) as [[c t2]|e]; cbn [bind mlift snd]; [|reflexivity].
  destruct (max_counter <? c); [reflexivity|].
  specialize (IH (<[k:=c]> acc) t2). unfold drun in IH.
  destruct (d_vv_entries n (<[k:=c]> acc) t2). cbn in *. exact IH.
Qed.
Lemma d_vv_vread bs : drun d_vv bs = mlift (vread bs).
Proof.
  unfold d_vv, vread, drun, dbind at 1, d_u32, dlift.
  destruct (rd_u32 bs) as [[n t]|e]; cbn [bind mlift snd]; [|reflexivity].
  destruct (max_entries <? n); [reflexivity|].
  unfold dbind, dalloc. pose proof (d_vv_entries_vread (N.to_nat n) ∅ t) as H. unfold drun in H.
  destruct (d_vv_entries (N.to_nat n) ∅ t). cbn in *. exact H.
Qed.

Theorem vv_rt (v : vv) rest :
  wf_vv v -> exists b, vwrite v = Ok b /\ drun d_vv (b ++ rest) = MOk (v, rest).
Proof.
  intros H. destruct (vread_vwrite v rest H) as (b & Hw & Hr). exists b. split; [exact Hw|].
  rewrite d_vv_vread, Hr. reflexivity.
Qed.

Definition ins_member (a : members) (p : bytes * option node_state) : members := <[fst p := snd p]> a.

Lemma dec_members_enc l : forall fuel acc rest,
  (length l <= fuel)%nat ->
  Forall (fun p => len32 (fst p) /\ match snd p with None => False | Some n => ty_ns n /\ valid_ns n end) l ->
  drun (dec_members fuel (N.of_nat (length l)) acc) (enc_members l ++ rest) = MOk (foldl ins_member acc l, rest).
Proof.
  induction l as [|[id st] l IH]; intros fuel acc rest Hf Hl.
  - destruct fuel; reflexivity.
  - apply Forall_cons in Hl as [[Hid Hst] Hl]. cbn [fst snd] in Hid, Hst.
    destruct st as [n|]; [|contradiction]. destruct Hst as [Tn Vn].
    destruct fuel as [|fuel]; [cbn in Hf; lia|].
    cbn [length enc_members foldl].
    unfold dec_members; fold dec_members.
    replace (N.of_nat (S (length l)) =? 0) with false by (symmetry; apply N.eqb_neq; lia).
    do 2 rt_step. cbn [N.eqb].
    rewrite <- ?app_assoc. erewrite drun_bind_ok by (apply ns_body_rt; assumption).
    replace (N.of_nat (S (length l)) - 1) with (N.of_nat (length l)) by lia.
    rewrite IH; [reflexivity| cbn in Hf; lia | exact Hl].
Qed.

Lemma enc_members_length l : (5 * length l <= length (enc_members l))%nat.
Proof.
  induction l as [|[id st] l IH]; [cbn; lia|]. cbn [enc_members length].
  rewrite !app_length. unfold put_lp4, put_u32. rewrite app_length, be_length.
  assert (1 <= length (match st with Some s => put_u8 1 ++ enc_ns_body s | None => put_u8 0 end))%nat.
  { destruct st; [rewrite app_length|]; unfold put_u8; rewrite be_length; lia. }
  lia.
Qed.
Lemma member_guard_ok m bs : N.of_nat (length bs) / 5 <? m = false -> drun (d_member_guard m) bs = MOk (tt, bs).
Proof. intros H. unfold drun, d_member_guard. rewrite H. reflexivity. Qed.

Theorem view_rt (v : option view) rest :
  ty_view_opt v -> valid_view_opt v ->
  exists b, enc_view v = MOk b /\ drun dec_view (b ++ rest) = MOk (v, rest).
Proof.
  destruct v as [v|]; cbn [ty_view_opt valid_view_opt].
  2:{ intros _ _. exists (put_u32 0). split; [reflexivity|]. unfold dec_view. rt_step. reflexivity. }
  intros (Tep & Tts & Th & Tu & Tq & Tpv & Tmx & Tms) (Vid & Vh & Vu & Vq & Vmx & Vvv & Vms).
  destruct (v_members v) as [ms|] eqn:Ems; [|contradiction].
  destruct Vms as [Vsz Vms].
  change (2 ^ 32) with 4294967296 in *. change (2 ^ 16) with 65536 in *.
  pose proof (sorted_entries_length (fun p q => lex_le (fst p) (fst q)) ms) as Hlen. fold (mentries ms) in Hlen.
  assert (Hall : Forall (fun p => len32 (fst p) /\ match snd p with None => False | Some n => ty_ns n /\ valid_ns n end) (mentries ms)).
  { apply Forall_forall. intros [k st] Hin. unfold mentries in Hin. rewrite isort_perm in Hin.
    apply elem_of_map_to_list in Hin. apply (Vms k st Hin). }
  set (tail := put_u16 (v_proto v) ++ put_i32 (v_maxvv v) ++ rest).
  destruct (vv_rt (v_vv v) tail Vvv) as (vvb & Hvw & Hvr).
  eexists. split.
  { cbn [enc_view]. rewrite Hvw. cbn [mlift mbind]. reflexivity. }
  rewrite Ems. cbn [members_list]. unfold dec_view.
  rt_step. cbn [N.eqb].
  do 4 rt_step. rewrite Hlen.
  pose proof (enc_members_length (mentries ms)) as Hml.
  rewrite <- ?app_assoc. erewrite drun_bind_ok.
  2:{ unfold d_members. erewrite drun_bind_ok.
      2:{ apply member_guard_ok. apply N.ltb_ge. rewrite app_length. rewrite <- Hlen.
          apply N.div_le_lower_bound; lia. }
      erewrite drun_bind_ok by apply drun_dalloc.
      rewrite <- Hlen. apply dec_members_enc; [|exact Hall].
      rewrite app_length. lia. }
  do 3 rt_step.
  rewrite <- ?app_assoc. erewrite drun_bind_ok by (exact Hvr).
  unfold tail. do 3 rt_step.
  unfold ins_member, mentries. rewrite foldl_insert_sorted.
  destruct v; cbn in *. subst. reflexivity.
Qed.

Theorem JoinRequest_rt ns tok rest :
  ty_ns_opt ns -> valid_ns_opt ns -> len32 tok ->
  drun dec_JoinRequest (enc_JoinRequest ns tok ++ rest) = MOk ((ns, tok), rest).
Proof.
  intros T V Ht. unfold dec_JoinRequest, enc_JoinRequest.
  rewrite <- ?app_assoc. erewrite drun_bind_ok by (apply ns_opt_rt; assumption).
  do 2 rt_step. reflexivity.
Qed.
Theorem GetViewResponse_rt v q l rest :
  ty_view_opt v -> valid_view_opt v -> len32 l ->
  exists b, enc_GetViewResponse v q l = MOk b /\ drun dec_GetViewResponse (b ++ rest) = MOk ((v, q, l), rest).
Proof.
  intros T V Hl. destruct (view_rt v (put_bool q ++ put_lp4 l ++ rest) T V) as (b & Hb & Hr).
  eexists. split; [unfold enc_GetViewResponse; rewrite Hb; reflexivity|].
  unfold dec_GetViewResponse. rewrite <- ?app_assoc. erewrite drun_bind_ok by exact Hr.
  do 3 rt_step. reflexivity.
Qed.
Theorem LeaveBroadcastRound_rt r rest :
  in_i32 r -> drun dec_LeaveBroadcastRound (enc_LeaveBroadcastRound r ++ rest) = MOk (r, rest).
Proof. intros H. apply drun_i32. exact H. Qed.
Theorem JoinRetryTick_rt d rest :
  in_i64 d -> drun dec_JoinRetryTick (enc_JoinRetryTick d ++ rest) = MOk (d, rest).
Proof. intros H. apply drun_i64. exact H. Qed.
Theorem ForceMemberDown_rt id tok rest :
  len32 id -> len32 tok -> drun dec_ForceMemberDown (enc_ForceMemberDown id tok ++ rest) = MOk ((id, tok), rest).
Proof. intros H1 H2. unfold dec_ForceMemberDown, enc_ForceMemberDown. do 3 rt_step. reflexivity. Qed.
Theorem TriggerViewBroadcast_rt tok rest :
  len32 tok -> drun dec_TriggerViewBroadcast (enc_TriggerViewBroadcast tok ++ rest) = MOk (tok, rest).
Proof. intros H. apply drun_str. exact H. Qed.
