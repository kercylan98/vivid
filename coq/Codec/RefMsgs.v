(** The registered messages that carry an ActorRef (OnKill, OnKilled) with the factory instantiated by the
    string-level model of actor.NewRef ([Codec.RefNorm]): every ref the factory built survives the wire. *)
From Coq Require Import List NArith ZArith Lia Bool.
From Vivid Require Import Codec.Prim Codec.MsgPrim Codec.Msgs Codec.MsgsProofs Codec.RefNorm Codec.RefNormProofs.
Import ListNotations.
Local Open Scope N_scope.

(** the ActorRef factory registered by internal/actor: NewRef; its two errors are one class for the decoder *)
Definition newref_model (ip : bytes -> bool) (a p : bytes) : mres (bytes * bytes) :=
  match new_ref ip a p with inl ap => MOk ap | inr _ => MErr MEBadRef end.

Lemma len32_le (a b : bytes) : (length a <= length b)%nat -> len32 b -> len32 a.
Proof. unfold len32. lia. Qed.

Theorem factory_kref ip a p a' p' : new_ref ip a p = inl (a', p') -> len32 a -> len32 p ->
  valid_kref (newref_model ip) (RRef a' p').
Proof.
  intros H La Lp. destruct (new_ref_shape ip a p a' p' H) as ((r & Hp) & Hne & Hla & Hlp).
  cbn [valid_kref]. repeat split.
  - exact (len32_le _ _ Hla La).
  - exact (len32_le _ _ Hlp Lp).
  - left. exact Hne.
  - unfold newref_model. rewrite (new_ref_idem ip a p a' p' H). reflexivity.
Qed.
Theorem OnKill_factory_rt ip a p a' p' reason poison rest :
  new_ref ip a p = inl (a', p') -> len32 a -> len32 p -> len32 reason ->
  drun (dec_OnKill (newref_model ip)) (enc_OnKill (RRef a' p') reason poison ++ rest) = MOk ((RRef a' p', reason, poison), rest).
Proof. intros H La Lp Lr. apply OnKill_rt; [exact (factory_kref ip a p a' p' H La Lp)|exact Lr]. Qed.
Theorem OnKilled_factory_rt ip a p a' p' rest :
  new_ref ip a p = inl (a', p') -> len32 a -> len32 p ->
  drun (dec_OnKilled (newref_model ip)) (enc_OnKilled (RRef a' p') ++ rest) = MOk (RRef a' p', rest).
Proof. intros H La Lp. apply OnKilled_rt. exact (factory_kref ip a p a' p' H La Lp). Qed.
