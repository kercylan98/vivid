(** Byte-order parametric primitives of internal/messages Writer/Reader.

    [WriterOption.ByteOrder] / [ReaderOption.ByteOrder] select how the fixed-width integers (and therefore
    the float bit patterns and every 1/2/4-byte length prefix) are laid out.  The two orders of
    encoding/binary are modelled: [binary.BigEndian] (the default, [Codec.Prim]) and [binary.LittleEndian]
    ([PutUint16(b, v)]: b[0] = byte(v), b[1] = byte(v>>8) ... — the reverse of the big-endian bytes).
    Varints ([binary.PutVarint]/[PutUvarint]), bools, single bytes and raw byte strings do not depend on the order.

    With [o = BE] every definition below reduces to its [Codec.Prim]/[Codec.Prim2] counterpart (lemmas
    [*_BE]); the round-trip lemmas hold for both orders. *)
From Coq Require Import List NArith ZArith Lia Bool.
From Coq Require Import ZifyN ZifyNat ZifyBool.
From Vivid Require Import Codec.Prim Codec.PrimProofs Codec.Prim2 Codec.Prim2Proofs.
Import ListNotations.
Local Open Scope N_scope.

Inductive order : Type := BE | LE.

Definition order_eqb (a b : order) : bool :=
  match a, b with BE, BE | LE, LE => true | _, _ => false end.

(** [k] bytes of [n] in order [o] *)
Definition beO (o : order) (k : nat) (n : N) : bytes :=
  match o with BE => be k n | LE => rev (be k n) end.
Definition unbeO (o : order) (bs : bytes) : N :=
  match o with BE => unbe bs | LE => unbe (rev bs) end.

Definition rd_uintO (o : order) (k : nat) (bs : bytes) : res (N * bytes) :=
  let* (h, t) := take_n k bs in Ok (unbeO o h, t).

Definition put_u16O o (n : N) := beO o 2 n.
Definition put_u32O o (n : N) := beO o 4 n.
Definition put_u64O o (n : N) := beO o 8 n.
Definition rd_u16O o := rd_uintO o 2.
Definition rd_u32O o := rd_uintO o 4.
Definition rd_u64O o := rd_uintO o 8.

Definition put_i16O o (z : Z) := put_u16O o (of_signed 16 z).
Definition put_i32O o (z : Z) := put_u32O o (of_signed 32 z).
Definition put_i64O o (z : Z) := put_u64O o (of_signed 64 z).
Definition rd_i16O o (bs : bytes) : res (Z * bytes) := let* (n, t) := rd_u16O o bs in Ok (to_signed 16 n, t).
Definition rd_i32O o (bs : bytes) : res (Z * bytes) := let* (n, t) := rd_u32O o bs in Ok (to_signed 32 n, t).
Definition rd_i64O o (bs : bytes) : res (Z * bytes) := let* (n, t) := rd_u64O o bs in Ok (to_signed 64 n, t).

(** length-prefixed byte strings: the prefix is written in the Writer's order *)
Definition put_lp4O o (b : bytes) : bytes := put_u32O o (N.of_nat (length b)) ++ b.
Definition rd_lp4O o (bs : bytes) : res (bytes * bytes) :=
  let* (n, t) := rd_u32O o bs in take_N n t.
Definition put_lpO o (k : nat) (b : bytes) : res bytes :=
  if N.of_nat (length b) <? 256 ^ N.of_nat k then Ok (beO o k (N.of_nat (length b)) ++ b) else Err ETooLarge.
Definition rd_lpO o (k : nat) (bs : bytes) : res (bytes * bytes) :=
  let* (n, t) := rd_uintO o k bs in take_N n t.
Definition put_lpkO o (size : Z) (b : bytes) : res bytes :=
  match size with
  | 1%Z => put_lpO o 1 b
  | 2%Z => put_lpO o 2 b
  | 4%Z => Ok (put_lp4O o b)
  | _ => Err EInvalid
  end.
Definition rd_lpkO o (size : Z) (bs : bytes) : res (bytes * bytes) :=
  match size with
  | 1%Z => rd_lpO o 1 bs
  | 2%Z => rd_lpO o 2 bs
  | 4%Z => rd_lp4O o bs
  | _ => Err EInvalid
  end.

Lemma beO_BE k n : beO BE k n = be k n. Proof. reflexivity. Qed.
Lemma rd_uintO_BE k bs : rd_uintO BE k bs = rd_uint k bs. Proof. reflexivity. Qed.
Lemma put_lp4O_BE b : put_lp4O BE b = put_lp4 b. Proof. reflexivity. Qed.
Lemma rd_lp4O_BE bs : rd_lp4O BE bs = rd_lp4 bs. Proof. reflexivity. Qed.
Lemma put_lpkO_BE size b : put_lpkO BE size b = put_lpk size b. Proof. reflexivity. Qed.
Lemma rd_lpkO_BE size bs : rd_lpkO BE size bs = rd_lpk size bs. Proof. reflexivity. Qed.

Lemma beO_length o k n : length (beO o k n) = k.
Proof. destruct o; cbn [beO]; [|rewrite rev_length]; apply be_length. Qed.

Lemma wf_bytes_rev bs : wf_bytes (rev bs) = wf_bytes bs.
Proof.
  induction bs as [|b r IH]; [reflexivity|].
  cbn [rev]. rewrite wf_bytes_app, IH. cbn [wf_bytes forallb]. rewrite andb_true_r. apply andb_comm.
Qed.
Lemma beO_wf o k n : wf_bytes (beO o k n) = true.
Proof. destruct o; cbn [beO]; [|rewrite wf_bytes_rev]; apply be_wf. Qed.

Lemma unbeO_beO o k n : n < 256 ^ N.of_nat k -> unbeO o (beO o k n) = n.
Proof. intros H. destruct o; cbn [unbeO beO]; [|rewrite rev_involutive]; apply unbe_be; exact H. Qed.

Lemma rd_uintO_beO o k n rest : n < 256 ^ N.of_nat k -> rd_uintO o k (beO o k n ++ rest) = Ok (n, rest).
Proof.
  intros H. unfold rd_uintO.
  rewrite <- (beO_length o k n) at 1. rewrite take_n_app. cbn [bind]. rewrite unbeO_beO by exact H. reflexivity.
Qed.

Lemma beO_LE_rev k n : beO LE k n = rev (beO BE k n). Proof. reflexivity. Qed.

(** a little-endian Writer and a big-endian Reader disagree on every value whose bytes are not a palindrome *)
Lemma order_mismatch_refuted : rd_uintO BE 2 (beO LE 2 1) = Ok (256, []).
Proof. reflexivity. Qed.

Lemma rd_lp4O_put o b rest : N.of_nat (length b) < 4294967296 -> rd_lp4O o (put_lp4O o b ++ rest) = Ok (b, rest).
Proof.
  intros H. unfold rd_lp4O, put_lp4O, rd_u32O, put_u32O. rewrite <- app_assoc, rd_uintO_beO by exact H. cbn [bind].
  apply take_N_app.
Qed.

Lemma rd_lpO_put o k b e rest : put_lpO o k b = Ok e -> rd_lpO o k (e ++ rest) = Ok (b, rest).
Proof.
  unfold put_lpO, rd_lpO. destruct (N.of_nat (length b) <? 256 ^ N.of_nat k) eqn:E; [|discriminate].
  intros [= <-]. rewrite <- app_assoc, rd_uintO_beO by lia. cbn [bind]. apply take_N_app.
Qed.

Lemma rd_lpkO_put o size b e rest : put_lpkO o size b = Ok e -> N.of_nat (length b) < 4294967296 ->
  rd_lpkO o size (e ++ rest) = Ok (b, rest).
Proof.
  intros H L. revert H. unfold put_lpkO, rd_lpkO. destruct (size_cases size) as [->|[->|[->|E]]].
  1-2: apply rd_lpO_put.
  - intros [= <-]. apply rd_lp4O_put, L.
  - rewrite E. discriminate.
Qed.

Lemma rd_i16O_put o z rest : (- 2 ^ 15 <= z < 2 ^ 15)%Z -> rd_i16O o (put_i16O o z ++ rest) = Ok (z, rest).
Proof. apply (rd_signed_put 16 (rd_u16O o) (put_u16O o)); [discriminate|intros n; apply (rd_uintO_beO o 2)]. Qed.
Lemma rd_i32O_put o z rest : (- 2 ^ 31 <= z < 2 ^ 31)%Z -> rd_i32O o (put_i32O o z ++ rest) = Ok (z, rest).
Proof. apply (rd_signed_put 32 (rd_u32O o) (put_u32O o)); [discriminate|intros n; apply (rd_uintO_beO o 4)]. Qed.
Lemma rd_i64O_put o z rest : (- 2 ^ 63 <= z < 2 ^ 63)%Z -> rd_i64O o (put_i64O o z ++ rest) = Ok (z, rest).
Proof. apply (rd_signed_put 64 (rd_u64O o) (put_u64O o)); [discriminate|intros n; apply (rd_uintO_beO o 8)]. Qed.
