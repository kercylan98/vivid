(** The nested inductives [goty] / [goval] of [Codec.Reflect]: induction principles (nested lists through
    [Forall]) and the anonymous inner fixpoints of Reflect.v as named functions, each with its defining
    equations (all [reflexivity]).  Shared by the proofs about both generic codecs. *)
From Coq Require Import List NArith ZArith Lia Bool.
From Coq Require Import ZifyN ZifyNat ZifyBool.
From Vivid Require Import Codec.Prim Codec.Prim2 Codec.Reflect.
Import ListNotations.
Local Open Scope N_scope.

Section GotyInd.
  Variable P : goty -> Prop.
  Hypothesis Hbasic : forall b, P (TBasic b).
  Hypothesis Hnamed : forall b, P (TNamed b).
  Hypothesis Hint : P TInt.
  Hypothesis Huint : P TUint.
  Hypothesis Hslice : forall nm e, P e -> P (TSlice nm e).
  Hypothesis Harray : forall n e, P e -> P (TArray n e).
  Hypothesis Hstruct : forall fs, Forall (fun p => P (snd p)) fs -> P (TStruct fs).
  Hypothesis Hptr : forall e, P e -> P (TPtr e).
  Hypothesis Hiface : P TIface.
  Hypothesis Hmap : P TMap.
  Hypothesis Hchan : P TChan.
  Hypothesis Hfunc : P TFunc.
  Fixpoint goty_ind' (t : goty) : P t :=
    match t with
    | TBasic b => Hbasic b
    | TNamed b => Hnamed b
    | TInt => Hint
    | TUint => Huint
    | TSlice nm e => Hslice nm e (goty_ind' e)
    | TArray n e => Harray n e (goty_ind' e)
    | TStruct fs =>
        Hstruct fs ((fix go (fs : list (bool * goty)) : Forall (fun p => P (snd p)) fs :=
                       match fs with
                       | [] => Forall_nil _
                       | p :: r => Forall_cons p (goty_ind' (snd p)) (go r)
                       end) fs)
    | TPtr e => Hptr e (goty_ind' e)
    | TIface => Hiface
    | TMap => Hmap
    | TChan => Hchan
    | TFunc => Hfunc
    end.
End GotyInd.

Section GovalInd.
  Variable P : goval -> Prop.
  Hypothesis Hn : forall n, P (VN n).
  Hypothesis Hz : forall z, P (VZ z).
  Hypothesis Hb : forall b, P (VB b).
  Hypothesis Hs : forall s, P (VS s).
  Hypothesis Hnil : P VNil.
  Hypothesis Hlist : forall l, Forall P l -> P (VList l).
  Hypothesis Hstruct : forall l, Forall P l -> P (VStruct l).
  Hypothesis Hptr : forall v, P v -> P (VPtr v).
  Hypothesis Hiface : forall t v, P v -> P (VIface t v).
  Hypothesis Hop : P VOpaque.
  Fixpoint goval_ind' (v : goval) : P v :=
    match v with
    | VN n => Hn n | VZ z => Hz z | VB b => Hb b | VS s => Hs s | VNil => Hnil
    | VList l => Hlist l ((fix go (l : list goval) : Forall P l :=
                             match l with [] => Forall_nil _ | x :: r => Forall_cons x (goval_ind' x) (go r) end) l)
    | VStruct l => Hstruct l ((fix go (l : list goval) : Forall P l :=
                                 match l with [] => Forall_nil _ | x :: r => Forall_cons x (goval_ind' x) (go r) end) l)
    | VPtr x => Hptr x (goval_ind' x)
    | VIface t x => Hiface t x (goval_ind' x)
    | VOpaque => Hop
    end.
End GovalInd.

(** the element loop of writeReflect for an element writer [w]: the encodings, concatenated *)
Definition wseq (w : goval -> out bytes) : list goval -> out bytes :=
  fix wl (l : list goval) : out bytes :=
    match l with
    | [] => OOk []
    | x :: r => obind (w x) (fun b => obind (wl r) (fun b' => OOk (b ++ b')))
    end.
Lemma wseq_cons w x r : wseq w (x :: r) = obind (w x) (fun b => obind (wseq w r) (fun b' => OOk (b ++ b'))).
Proof. reflexivity. Qed.
Fixpoint wfields (fs : list (bool * goty)) (l : list goval) {struct l} : out bytes :=
  match fs, l with
  | [], [] => OOk []
  | (ex, t) :: fr, x :: r =>
      if ex then obind (wrefl t x) (fun b => obind (wfields fr r) (fun b' => OOk (b ++ b'))) else wfields fr r
  | _, _ => OIll
  end.
Definition rfields (tot : N) : list (bool * goty) -> rst -> M (list goval * rst) :=
  fix rf (fs : list (bool * goty)) (st : rst) : M (list goval * rst) :=
    match fs with
    | [] => ret ([], st)
    | (ex, t) :: r =>
        if ex then bindM (read tot t st) (fun p => bindM (rf r (snd p)) (fun q => ret (fst p :: fst q, snd q)))
        else bindM (rf r st) (fun q => ret (zero t :: fst q, snd q))
    end.
Lemma rfields_nil tot st : rfields tot [] st = ret ([], st). Proof. reflexivity. Qed.
Lemma rfields_cons tot ex t r st : rfields tot ((ex, t) :: r) st =
  if ex then bindM (read tot t st) (fun p => bindM (rfields tot r (snd p)) (fun q => ret (fst p :: fst q, snd q)))
  else bindM (rfields tot r st) (fun q => ret (zero t :: fst q, snd q)).
Proof. reflexivity. Qed.
Definition typed_list (e : goty) : list goval -> bool :=
  fix all (l : list goval) : bool := match l with [] => true | x :: r => has_typeb e x && all r end.
Lemma typed_list_cons e x r : typed_list e (x :: r) = has_typeb e x && typed_list e r. Proof. reflexivity. Qed.
Fixpoint typed_fields (fs : list (bool * goty)) (l : list goval) {struct l} : bool :=
  match fs, l with
  | [], [] => true
  | (_, t) :: fr, x :: r => has_typeb t x && typed_fields fr r
  | _, _ => false
  end.
Definition fits_list (e : goty) : list goval -> bool :=
  fix all (l : list goval) : bool := match l with [] => true | x :: r => fits e x && all r end.
Lemma fits_list_cons e x r : fits_list e (x :: r) = fits e x && fits_list e r. Proof. reflexivity. Qed.
Fixpoint fits_fields (fs : list (bool * goty)) (l : list goval) {struct l} : bool :=
  match fs, l with
  | (ex, t) :: fr, x :: r => (negb ex || fits t x) && fits_fields fr r
  | _, _ => true
  end.
Definition norm_list (e : goty) : list goval -> list goval :=
  fix go (l : list goval) : list goval := match l with [] => [] | x :: r => norm e x :: go r end.
Lemma norm_list_cons e x r : norm_list e (x :: r) = norm e x :: norm_list e r. Proof. reflexivity. Qed.
Fixpoint norm_fields (fs : list (bool * goty)) (l : list goval) {struct l} : list goval :=
  match fs, l with
  | (ex, t) :: fr, x :: r => (if ex then norm t x else zero t) :: norm_fields fr r
  | _, _ => []
  end.
Fixpoint zero_fields (fs : list (bool * goty)) : list goval :=
  match fs with [] => [] | (_, t) :: r => zero t :: zero_fields r end.
Fixpoint wire0_fields (fs : list (bool * goty)) : bool :=
  match fs with [] => true | (ex, t) :: r => (negb ex || wire0 t) && wire0_fields r end.
Fixpoint supported_fields (fs : list (bool * goty)) : bool :=
  match fs with [] => true | (ex, t) :: r => (negb ex || supported t) && supported_fields r end.
Fixpoint tsize_fields (fs : list (bool * goty)) : N :=
  match fs with [] => 0 | (_, t) :: r => tsize t + tsize_fields r end.
Fixpoint kK_fields (fs : list (bool * goty)) : N :=
  match fs with [] => 0 | (ex, t) :: r => (if ex then kK t else 0) + kK_fields r end.
Fixpoint kA_fields (fs : list (bool * goty)) : N :=
  match fs with [] => 0 | (ex, t) :: r => (if ex then kA t else 0) + kA_fields r end.

Definition elem_ty (ty : goty) : option goty := match ty with TSlice _ e | TArray _ e => Some e | _ => None end.
Lemma wrefl_list_eq ty l :
  wrefl ty (VList l) = match elem_ty ty with
                       | Some e => obind (wseq (wrefl e) l) (fun b => OOk (put_u32 (N.of_nat (length l)) ++ b))
                       | None => OIll
                       end.
Proof. destruct ty as [| | | |[]| | | | | | |]; reflexivity. Qed.
Lemma wrefl_struct_eq fs l : wrefl (TStruct fs) (VStruct l) = wfields fs l.
Proof. reflexivity. Qed.
Lemma read_struct_eq tot fs st :
  read tot (TStruct fs) st = tick (tsize (TStruct fs), 0) (bindM (rfields tot fs st) (fun q => ret (VStruct (fst q), snd q))).
Proof. reflexivity. Qed.
Definition cnt_list (e : goty) : list goval -> N :=
  fix sum (l : list goval) : N := match l with [] => 0 | x :: r => cnt e x + sum r end.
Lemma cnt_list_cons e x r : cnt_list e (x :: r) = cnt e x + cnt_list e r. Proof. reflexivity. Qed.
Fixpoint cnt_fields (fs : list (bool * goty)) (l : list goval) {struct l} : N :=
  match fs, l with
  | (ex, t) :: fr, x :: r => (if ex then cnt t x else 0) + cnt_fields fr r
  | _, _ => 0
  end.
Lemma cnt_slice nm e l : cnt (TSlice nm e) (VList l) =
  if negb nm && (match e with TBasic BU8 => true | _ => false end) then 0 else N.of_nat (length l) + cnt_list e l.
Proof. reflexivity. Qed.
Lemma cnt_array n e l : cnt (TArray n e) (VList l) = cnt_list e l.
Proof. reflexivity. Qed.
Lemma cnt_struct fs l : cnt (TStruct fs) (VStruct l) = cnt_fields fs l.
Proof. reflexivity. Qed.
Lemma has_type_slice nm e l : has_typeb (TSlice nm e) (VList l) = typed_list e l.
Proof. reflexivity. Qed.
Lemma has_type_array n e l : has_typeb (TArray n e) (VList l) = (N.of_nat (length l) =? n) && typed_list e l.
Proof. reflexivity. Qed.
Lemma has_type_list ty l : has_typeb ty (VList l) = true -> exists e, elem_ty ty = Some e /\ typed_list e l = true.
Proof. destruct ty; try discriminate; cbn [has_typeb elem_ty]; intros H; [|apply andb_prop in H as [_ H]]; eauto. Qed.
Lemma has_type_struct fs l : has_typeb (TStruct fs) (VStruct l) = typed_fields fs l.
Proof. reflexivity. Qed.
Lemma fits_slice nm e l : fits (TSlice nm e) (VList l) = (N.of_nat (length l) <? 4294967296) && (negb (wire0 e) || (N.of_nat (length l) =? 0)) && fits_list e l.
Proof. reflexivity. Qed.
Lemma fits_array n e l : fits (TArray n e) (VList l) = fits_list e l.
Proof. reflexivity. Qed.
Lemma fits_struct fs l : fits (TStruct fs) (VStruct l) = fits_fields fs l.
Proof. reflexivity. Qed.
Lemma norm_slice nm e l : norm (TSlice nm e) (VList l) = VList (norm_list e l).
Proof. reflexivity. Qed.
Lemma norm_array n e l : norm (TArray n e) (VList l) = VList (norm_list e l).
Proof. reflexivity. Qed.
Lemma norm_struct fs l : norm (TStruct fs) (VStruct l) = VStruct (norm_fields fs l).
Proof. reflexivity. Qed.
Lemma zero_struct fs : zero (TStruct fs) = VStruct (zero_fields fs).
Proof. reflexivity. Qed.
Lemma wire0_struct fs : wire0 (TStruct fs) = wire0_fields fs.
Proof. reflexivity. Qed.
Lemma supported_struct fs : supported (TStruct fs) = supported_fields fs.
Proof. reflexivity. Qed.
Lemma tsize_struct fs : tsize (TStruct fs) = tsize_fields fs.
Proof. reflexivity. Qed.
Lemma kK_struct fs : kK (TStruct fs) = tsize_fields fs + kK_fields fs.
Proof. reflexivity. Qed.
Lemma kA_struct fs : kA (TStruct fs) = kA_fields fs.
Proof. reflexivity. Qed.

Lemma has_type_basic b y : has_typeb (TBasic b) y = true -> basic_ok b y = true.
Proof. destruct y; cbn; auto; discriminate. Qed.
Lemma in_u_lt bits n : in_u bits n = true -> n < 2 ^ bits.
Proof. unfold in_u. intros H. apply N.ltb_lt. exact H. Qed.
Lemma in_s_range bits z : in_s bits z = true -> (- 2 ^ (Z.of_N bits - 1) <= z < 2 ^ (Z.of_N bits - 1))%Z.
Proof. unfold in_s. intros H. apply andb_prop in H as [H1 H2]. apply Z.leb_le in H1. apply Z.ltb_lt in H2. lia. Qed.
Lemma nonempty_length {A} (l : list A) k : length l = S k -> l <> [].
Proof. intros H ->. discriminate H. Qed.
Lemma N_of_nat_S_pred k : N.of_nat (S k) - 1 = N.of_nat k.
Proof. lia. Qed.
Lemma repeat_to_nat {A} (x : A) k : repeat x (N.to_nat (N.of_nat k)) = repeat x k.
Proof. rewrite Nat2N.id. reflexivity. Qed.
Lemma norm_list_bytes l : typed_list (TBasic BU8) l = true -> norm_list (TBasic BU8) l = l.
Proof.
  induction l as [|x r IH]; [reflexivity|]. rewrite typed_list_cons, norm_list_cons. intros H. apply andb_prop in H as [H1 H2].
  rewrite IH by exact H2. destruct x; try discriminate H1. reflexivity.
Qed.
