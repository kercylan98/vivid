From Coq Require Import List NArith ZArith Lia Bool.
From Coq Require Import ZifyN ZifyNat ZifyBool.
From Vivid Require Import Codec.Prim.
Import ListNotations.
Local Open Scope N_scope.
#[local] Ltac Zify.zify_post_hook ::= Z.div_mod_to_equations.

Lemma be_length k n : length (be k n) = k.
Proof. revert n; induction k as [|k IH]; intros n; cbn [be]; [reflexivity|]. rewrite app_length, IH; cbn; lia. Qed.

Lemma wf_bytes_app a b : wf_bytes (a ++ b) = wf_bytes a && wf_bytes b.
Proof. unfold wf_bytes. apply forallb_app. Qed.

Lemma be_wf k n : wf_bytes (be k n) = true.
Proof.
  revert n; induction k as [|k IH]; intros n; cbn [be]; [reflexivity|].
  rewrite wf_bytes_app, IH. cbn. unfold wf_byte. rewrite andb_true_r.
  apply N.ltb_lt. apply N.mod_lt. lia.
Qed.

Lemma pow_succ_nat b k : b ^ N.of_nat (S k) = b * b ^ N.of_nat k.
Proof. rewrite Nat2N.inj_succ. apply N.pow_succ_r'. Qed.

Lemma be_mod k n : be k (n mod 256 ^ N.of_nat k) = be k n.
Proof.
  revert n. induction k as [|k IH]; intros n; cbn [be]; [reflexivity|].
  rewrite (pow_succ_nat 256). assert (0 < 256 ^ N.of_nat k) by (apply N.neq_0_lt_0, N.pow_nonzero; lia).
  set (P := 256 ^ N.of_nat k) in *.
  assert (Ha : n mod 256 < 256) by (apply N.mod_lt; lia).
  assert (E1 : n mod (256 * P) / 256 = (n / 256) mod P).
  { rewrite N.mod_mul_r by lia. symmetry. apply N.div_unique with (n mod 256); lia. }
  assert (E2 : (n mod (256 * P)) mod 256 = n mod 256).
  { rewrite N.mod_mul_r by lia. symmetry. apply N.mod_unique with ((n / 256) mod P); lia. }
  rewrite E1, E2, IH. reflexivity.
Qed.

Lemma unbe_acc_app acc a b : unbe_acc acc (a ++ b) = unbe_acc (unbe_acc acc a) b.
Proof. revert acc; induction a as [|x a IH]; intros acc; cbn [unbe_acc app]; [reflexivity|]. apply IH. Qed.

Lemma unbe_acc_be k : forall acc n, n < 256 ^ N.of_nat k -> unbe_acc acc (be k n) = acc * 256 ^ N.of_nat k + n.
Proof.
  induction k as [|k IH]; intros acc n Hn.
  - cbn [be unbe_acc]. change (256 ^ N.of_nat 0) with 1 in *. lia.
  - cbn [be]. rewrite unbe_acc_app. cbn [unbe_acc].
    rewrite (pow_succ_nat 256) in *.
    rewrite IH by (apply N.div_lt_upper_bound; lia).
    pose proof (N.div_mod n 256 ltac:(lia)). nia.
Qed.

Lemma unbe_be k n : n < 256 ^ N.of_nat k -> unbe (be k n) = n.
Proof. intros H. unfold unbe. rewrite unbe_acc_be by exact H. lia. Qed.

Lemma take_n_app a b : take_n (length a) (a ++ b) = Ok (a, b).
Proof.
  unfold take_n. rewrite app_length.
  replace (Nat.leb (length a) (length a + length b)) with true by (symmetry; apply Nat.leb_le; lia).
  rewrite firstn_app, Nat.sub_diag, firstn_all, skipn_app, skipn_all, Nat.sub_diag. cbn. rewrite app_nil_r. reflexivity.
Qed.

Lemma take_N_app a b : take_N (N.of_nat (length a)) (a ++ b) = Ok (a, b).
Proof.
  unfold take_N. rewrite app_length.
  replace (N.of_nat (length a) <=? N.of_nat (length a + length b)) with true by (symmetry; apply N.leb_le; lia).
  rewrite Nat2N.id, firstn_app, Nat.sub_diag, firstn_all, skipn_app, skipn_all, Nat.sub_diag. cbn. rewrite app_nil_r. reflexivity.
Qed.

Lemma take_n_suffix k bs h t : take_n k bs = Ok (h, t) -> bs = h ++ t /\ length h = k.
Proof.
  unfold take_n. destruct (Nat.leb_spec k (length bs)); [|discriminate].
  intros E; injection E as <- <-. split; [symmetry; apply firstn_skipn|apply firstn_length_le; assumption].
Qed.
Lemma take_N_suffix k bs h t : take_N k bs = Ok (h, t) -> bs = h ++ t /\ N.of_nat (length h) = k.
Proof.
  unfold take_N. destruct (N.leb_spec k (N.of_nat (length bs))); [|discriminate].
  intros E; injection E as <- <-. split; [symmetry; apply firstn_skipn|rewrite firstn_length_le; lia].
Qed.
Lemma rd_uint_suffix k bs v t : rd_uint k bs = Ok (v, t) -> exists h, bs = h ++ t /\ length h = k.
Proof.
  unfold rd_uint. destruct (take_n k bs) as [[h t']|] eqn:E; cbn [bind]; [|discriminate].
  intros H; injection H as _ <-. exists h. eapply take_n_suffix; exact E.
Qed.
Lemma rd_uint_be k n rest : n < 256 ^ N.of_nat k -> rd_uint k (be k n ++ rest) = Ok (n, rest).
Proof.
  intros H. unfold rd_uint.
  rewrite <- (be_length k n) at 1. rewrite take_n_app. cbn. rewrite unbe_be by exact H. reflexivity.
Qed.

Lemma rd_u8_put n rest : n < 256 -> rd_u8 (put_u8 n ++ rest) = Ok (n, rest).
Proof. exact (rd_uint_be 1 n rest). Qed.
Lemma rd_u16_put n rest : n < 65536 -> rd_u16 (put_u16 n ++ rest) = Ok (n, rest).
Proof. exact (rd_uint_be 2 n rest). Qed.
Lemma rd_u32_put n rest : n < 4294967296 -> rd_u32 (put_u32 n ++ rest) = Ok (n, rest).
Proof. exact (rd_uint_be 4 n rest). Qed.
Lemma rd_u64_put n rest : n < 18446744073709551616 -> rd_u64 (put_u64 n ++ rest) = Ok (n, rest).
Proof. exact (rd_uint_be 8 n rest). Qed.

Lemma rd_lp4_put b rest : N.of_nat (length b) < 4294967296 -> rd_lp4 (put_lp4 b ++ rest) = Ok (b, rest).
Proof.
  intros H. unfold rd_lp4, put_lp4. rewrite <- app_assoc, rd_u32_put by exact H. cbn [bind].
  apply take_N_app.
Qed.

Lemma rd_bool_put b rest : rd_bool (put_bool b ++ rest) = Ok (b, rest).
Proof. destruct b; reflexivity. Qed.

Lemma half_range bits : bits <> 0 ->
  (2 ^ Z.of_N bits = 2 * 2 ^ (Z.of_N bits - 1) /\ Z.of_N (2 ^ (bits - 1)) = 2 ^ (Z.of_N bits - 1) /\ 0 < 2 ^ (Z.of_N bits - 1))%Z.
Proof.
  intros Hb. split; [|split].
  - rewrite <- Z.pow_succ_r by lia. f_equal. lia.
  - rewrite N2Z.inj_pow. f_equal. lia.
  - apply Z.pow_pos_nonneg; lia.
Qed.
Lemma signed_roundtrip bits z : bits <> 0 -> (- 2 ^ (Z.of_N bits - 1) <= z < 2 ^ (Z.of_N bits - 1))%Z ->
  to_signed bits (of_signed bits z) = z.
Proof.
  intros Hb H. destruct (half_range bits Hb) as (E & E2 & Hpos). unfold to_signed, of_signed.
  (* the representative of z modulo 2 ^ bits: z itself, or z + 2 ^ bits when z is negative *)
  destruct (Z.leb_spec 0 z) as [Hz|Hz].
  - rewrite Z.mod_small by lia. destruct (N.ltb_spec (Z.to_N z) (2 ^ (bits - 1))); lia.
  - replace (z mod 2 ^ Z.of_N bits)%Z with (z + 2 ^ Z.of_N bits)%Z by (apply Z.mod_unique with (-1)%Z; lia).
    destruct (N.ltb_spec (Z.to_N (z + 2 ^ Z.of_N bits)) (2 ^ (bits - 1))); lia.
Qed.
Lemma of_signed_lt bits z : bits <> 0 -> of_signed bits z < 2 ^ bits.
Proof.
  intros Hb. unfold of_signed.
  assert (0 < 2 ^ Z.of_N bits)%Z by (apply Z.pow_pos_nonneg; lia).
  pose proof (Z.mod_pos_bound z (2 ^ Z.of_N bits) H).
  apply N2Z.inj_lt. rewrite Z2N.id by lia. rewrite N2Z.inj_pow. cbn. lia.
Qed.
(* the conclusion is the unfolded body of every signed reader ([rd_i8] .. [rd_i64], and those of PrimO), so each
   follows by conversion *)
Lemma rd_signed_put bits (rd : bytes -> res (N * bytes)) (put : N -> bytes) z rest :
  bits <> 0 -> (forall n, n < 2 ^ bits -> rd (put n ++ rest) = Ok (n, rest)) ->
  (- 2 ^ (Z.of_N bits - 1) <= z < 2 ^ (Z.of_N bits - 1))%Z ->
  (let* (n, t) := rd (put (of_signed bits z) ++ rest) in Ok (to_signed bits n, t)) = Ok (z, rest).
Proof.
  intros Hb Hrd H. rewrite Hrd by (apply of_signed_lt, Hb). cbn [bind]. rewrite signed_roundtrip by assumption. reflexivity.
Qed.
Lemma rd_i64_put z rest : (- 2 ^ 63 <= z < 2 ^ 63)%Z -> rd_i64 (put_i64 z ++ rest) = Ok (z, rest).
Proof. apply (rd_signed_put 64 rd_u64 put_u64); [discriminate|intros n; apply rd_u64_put]. Qed.
Lemma rd_i32_put z rest : (- 2 ^ 31 <= z < 2 ^ 31)%Z -> rd_i32 (put_i32 z ++ rest) = Ok (z, rest).
Proof. apply (rd_signed_put 32 rd_u32 put_u32); [discriminate|intros n; apply rd_u32_put]. Qed.
