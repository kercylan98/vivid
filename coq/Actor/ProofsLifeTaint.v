(** Tree invariants of C06-c, part 1: an OnKilled naming actor c is found outside c's own context only after c has
    released its path (c's cleanup removes the registry entry before it sends the notifications). *)
From Coq Require Import List Arith Bool Lia.
From Vivid Require Import Actor.Core Actor.ProofsMailBase Actor.ProofsMail Actor.ProofsMailInv Actor.SpecLife Actor.ProofsLife Actor.ProofsLifeInv Actor.ProofsLifeSum Actor.ProofsLifePhase Actor.ProofsLifeReg.
Import ListNotations.
Local Open Scope N_scope.

Definition mkb (c : aid) (m : msg) : bool := match m with MKilled (RObj b) => Nat.eqb b c | _ => false end.
Definition env_mk (c : aid) (e : envelope) : bool := mkb c (e_msg e).
Definition instr_mk (c : aid) (i : instr) : bool :=
  match i with
  | IEnq _ _ _ m | IEnqR _ _ _ m | IEnqAny _ _ _ m => mkb c m
  | IEnqMb _ e => env_mk c e
  | IOnKilled (RObj b) => Nat.eqb b c
  | _ => false
  end.
(** instructions of c's own thread that would carry "c was killed" to somebody else *)
Definition send_mk (c : aid) (i : instr) : bool :=
  match i with
  | IEnq _ _ _ m | IEnqR _ _ _ m | IEnqAny _ _ _ m => mkb c m
  | IEnqMb b e => negb (Nat.eqb b c) && env_mk c e
  | _ => false
  end.

Definition taint (c : aid) (y : actor) : bool :=
  existsb (env_mk c) (a_sq y) || existsb (env_mk c) (a_uq y) || existsb (env_mk c) (a_stash y)
  || (match a_cons y with CH e => env_mk c e | _ => false end)
  || (match a_cur y with Some e => env_mk c e | None => false end)
  || existsb (instr_mk c) (a_pend y).

Definition otaint (c q : aid) (y : actor) : bool :=
  if Nat.eqb q c then existsb (send_mk c) (a_pend y) else taint c y.

Definition isreg (s : state) (c : aid) : Prop := exists x, get s c = Some x /\ alookup (reg s) (a_path x) = Some c.
Definition live (s : state) (c : aid) : Prop := (c <> 0%nat /\ isreg s c) \/ (length (actors s) <= c)%nat.

Definition clean (s : state) (c : aid) : Prop :=
  (forall q y, get s q = Some y -> otaint c q y = false) /\
  (forall k ex, nth_error (exts s) k = Some ex -> existsb (instr_mk c) (x_pend ex) = false).

Definition T2 (s : state) : Prop := forall c, live s c -> clean s c.

Lemma send_le_instr c i : send_mk c i = true -> instr_mk c i = true.
Proof. destruct i; cbn; try discriminate; auto. intros H. apply andb_prop in H as [_ H]. exact H. Qed.

Lemma taint_split c y :
  taint c y = true <->
  (existsb (env_mk c) (a_sq y) = true \/ existsb (env_mk c) (a_uq y) = true \/ existsb (env_mk c) (a_stash y) = true \/
   (match a_cons y with CH e => env_mk c e | _ => false end) = true \/
   (match a_cur y with Some e => env_mk c e | None => false end) = true \/
   existsb (instr_mk c) (a_pend y) = true).
Proof. unfold taint. rewrite !orb_true_iff. tauto. Qed.

Lemma otaint_false_pend c q y : otaint c q y = false -> existsb (send_mk c) (a_pend y) = false.
Proof.
  unfold otaint. destruct (Nat.eqb q c); [auto|]. intros H.
  destruct (existsb (send_mk c) (a_pend y)) eqn:E; [|reflexivity].
  apply existsb_exists in E as (i & Hi & Hs). apply send_le_instr in Hs.
  assert (Ht : taint c y = true) by (apply taint_split; do 5 right; apply existsb_exists; exists i; auto). congruence.
Qed.

Definition csame (x y : actor) : Prop :=
  lsame x y /\ a_sq y = a_sq x /\ a_uq y = a_uq x.

Lemma taint_csame c x y : csame x y -> taint c y = taint c x.
Proof.
  intros ((_ & _ & _ & _ & _ & _ & _ & _ & _ & Hst & _ & _ & _ & _ & Hco & Hcu & Hp) & Hsq & Huq).
  unfold taint. rewrite Hst, Hco, Hcu, Hp, Hsq, Huq. reflexivity.
Qed.

Lemma otaint_csame c q x y : csame x y -> otaint c q y = otaint c q x.
Proof.
  intros H. unfold otaint. rewrite (taint_csame c x y H).
  destruct H as ((_ & _ & _ & _ & _ & _ & _ & _ & _ & _ & _ & _ & _ & _ & _ & _ & Hp) & _). rewrite Hp. reflexivity.
Qed.

Definition cequiv (s s' : state) : Prop :=
  (forall b, match get s b, get s' b with
             | Some x, Some y => csame x y
             | None, None => True
             | _, _ => False
             end) /\ exts s' = exts s /\ reg s' = reg s.

Lemma length_of_get s s' :
  (forall b, match get s b, get s' b with Some _, Some _ => True | None, None => True | _, _ => False end) ->
  length (actors s') = length (actors s).
Proof.
  intros H. unfold get in H.
  destruct (Nat.lt_trichotomy (length (actors s')) (length (actors s))) as [Hl|[Hl|Hl]]; [|exact Hl|].
  - specialize (H (length (actors s'))).
    assert (E2 : nth_error (actors s') (length (actors s')) = None) by (apply nth_error_None; lia).
    rewrite E2 in H. destruct (nth_error (actors s) (length (actors s'))) eqn:E1; [contradiction|].
    apply nth_error_None in E1. lia.
  - specialize (H (length (actors s))).
    assert (E2 : nth_error (actors s) (length (actors s)) = None) by (apply nth_error_None; lia).
    rewrite E2 in H. destruct (nth_error (actors s') (length (actors s))) eqn:E1; [contradiction|].
    apply nth_error_None in E1. lia.
Qed.

Lemma live_cequiv s s' c : cequiv s s' -> live s' c -> live s c.
Proof.
  intros (Hm & _ & Hr) [(Hc0 & y & Hy & Hl)|Hlen].
  - left. split; [exact Hc0|]. pose proof (Hm c) as Hc. rewrite Hy in Hc. destruct (get s c) as [x|] eqn:Hx; [|contradiction].
    exists x. split; [exact Hx|]. rewrite Hr in Hl. destruct Hc as ((Hp & _) & _). rewrite <- Hp. exact Hl.
  - right. rewrite <- (length_of_get s s'); [exact Hlen|].
    intros b. specialize (Hm b). destruct (get s b), (get s' b); auto.
Qed.

Lemma clean_cequiv s s' c : cequiv s s' -> clean s c -> clean s' c.
Proof.
  intros (Hm & He & _) (C1 & C2). split.
  - intros q y Hy. specialize (Hm q). rewrite Hy in Hm. destruct (get s q) as [x|] eqn:Hx; [|contradiction].
    rewrite (otaint_csame c q x y Hm). apply (C1 q x Hx).
  - rewrite He. exact C2.
Qed.

Lemma T2_cequiv s s' : cequiv s s' -> T2 s -> T2 s'.
Proof. intros Hc HT c Hl. apply (clean_cequiv s s' c Hc). apply HT. apply (live_cequiv s s' c Hc Hl). Qed.

Lemma cequiv_refl s : cequiv s s.
Proof. split; [|split; reflexivity]. intros b. destruct (get s b); [split; [apply lsame_refl|split; reflexivity]|exact I]. Qed.

Lemma cequiv_set_actor s a x y : get s a = Some x -> csame x y -> cequiv s (set_actor s a y).
Proof.
  intros Hg Hc. split; [|split; reflexivity]. intros b. destruct (Nat.eq_dec a b) as [<-|Hab].
  - rewrite (get_set_same' _ _ _ _ Hg), Hg. exact Hc.
  - rewrite get_set_other by exact Hab. destruct (get s b); [split; [apply lsame_refl|split; reflexivity]|exact I].
Qed.

Lemma cequiv_set_err s : cequiv s (set_err s).
Proof. split; [|split; reflexivity]. intros b. change (get (set_err s) b) with (get s b). destruct (get s b); [split; [apply lsame_refl|split; reflexivity]|exact I]. Qed.

Lemma cequiv_resolve s r : cequiv s (snd (resolve s r)).
Proof.
  destruct r as [a|p|]; cbn [resolve]; [| |apply cequiv_refl].
  - destruct (get s a) as [x|] eqn:Hg; [|apply cequiv_set_err].
    destruct (a_cache x); [apply cequiv_refl|].
    destruct (alookup (reg s) (a_path x)); [|destruct (path_eqb (a_path x) []); apply cequiv_refl].
    cbn [snd]. apply (cequiv_set_actor _ _ x); [exact Hg|]. split; [repeat split|split; reflexivity].
  - destruct (alookup (reg s) p); [apply cequiv_refl|]. destruct (path_eqb p []); apply cequiv_refl.
Qed.

Lemma cequiv_trans s1 s2 s3 : cequiv s1 s2 -> cequiv s2 s3 -> cequiv s1 s3.
Proof.
  intros (H1 & E1 & R1) (H2 & E2 & R2). split; [|split; congruence].
  intros b. specialize (H1 b). specialize (H2 b).
  destruct (get s1 b), (get s2 b), (get s3 b); try contradiction; try exact I.
  destruct H1 as (L1 & A1 & B1), H2 as (L2 & A2 & B2). split; [apply (lsame_trans _ _ _ L1 L2)|split; congruence].
Qed.

Definition psame (s s' : state) : Prop :=
  reg s' = reg s /\ forall b, option_map a_path (get s' b) = option_map a_path (get s b).

Lemma live_psame s s' c : psame s s' -> live s' c -> live s c.
Proof.
  intros (Hr & Hp) [(Hc0 & y & Hy & Hl)|Hlen].
  - left. split; [exact Hc0|]. specialize (Hp c). rewrite Hy in Hp. destruct (get s c) as [x|] eqn:Hx; [|discriminate Hp].
    cbn [option_map] in Hp. inversion Hp as [Hpp]. exists x. split; [exact Hx|]. rewrite <- Hpp, <- Hr. exact Hl.
  - right. rewrite <- (length_of_get s s'); [exact Hlen|].
    intros b. specialize (Hp b). destruct (get s b), (get s' b); try discriminate Hp; exact I.
Qed.

Lemma psame_set_pend s t p : psame s (set_pend s t p).
Proof. split; [apply set_pend_reg|apply (keeps_set_pend (fun x => Some (a_path x)) None s t p (fun _ _ => eq_refl))]. Qed.

Lemma psame_set_actor s a x y : get s a = Some x -> a_path y = a_path x -> psame s (set_actor s a y).
Proof.
  intros Hg Hp. split; [reflexivity|]. apply (keeps_set_actor (fun x => Some (a_path x)) None s a x y Hg). rewrite Hp. reflexivity.
Qed.

Lemma existsb_false_forall {A} (f : A -> bool) l : existsb f l = false -> forall j, In j l -> f j = false.
Proof.
  intros H j Hj. destruct (f j) eqn:E; [|reflexivity].
  assert (existsb f l = true) by (apply existsb_exists; exists j; auto). congruence.
Qed.

Lemma existsb_false_intro {A} (f : A -> bool) l : (forall j, In j l -> f j = false) -> existsb f l = false.
Proof.
  intros H. destruct (existsb f l) eqn:E; [|reflexivity]. apply existsb_exists in E as (j & Hj & Hf). rewrite (H j Hj) in Hf. discriminate.
Qed.

Lemma T2_ext s s' : (forall b, get s' b = get s b) -> reg s' = reg s -> exts s' = exts s -> T2 s -> T2 s'.
Proof.
  intros Ha Hr He HT c Hl.
  assert (Hl0 : live s c).
  { destruct Hl as [(Hc0 & x & Hx & Hlk)|Hlen]; [left; split; [exact Hc0|]; exists x; rewrite <- Ha, <- Hr; auto|right].
    rewrite <- (length_of_get s s'); [exact Hlen|]. intros b. rewrite Ha. destruct (get s b); exact I. }
  destruct (HT c Hl0) as (C1 & C2). split; [intros q y Hy; apply (C1 q y); rewrite <- Ha; exact Hy|rewrite He; exact C2].
Qed.

Lemma T2_set_actor s a x y :
  T2 s -> get s a = Some x -> a_path y = a_path x ->
  (forall c, live s c -> a <> c -> taint c y = true -> taint c x = true) ->
  (live s a -> existsb (send_mk a) (a_pend y) = true -> existsb (send_mk a) (a_pend x) = true) ->
  T2 (set_actor s a y).
Proof.
  intros HT Hg Hp Ht Hs c Hl. apply (live_psame _ _ c (psame_set_actor s a x y Hg Hp)) in Hl.
  destruct (HT c Hl) as (C1 & C2). split; [|exact C2].
  intros q z Hz. destruct (Nat.eq_dec a q) as [<-|Haq].
  - rewrite (get_set_same' _ _ _ _ Hg) in Hz. inversion Hz; subst z. specialize (C1 a x Hg).
    unfold otaint in *. destruct (Nat.eqb a c) eqn:Hac.
    + apply Nat.eqb_eq in Hac. subst c. destruct (existsb (send_mk a) (a_pend y)) eqn:E; [|reflexivity]. rewrite (Hs Hl eq_refl) in C1. discriminate C1.
    + apply Nat.eqb_neq in Hac. destruct (taint c y) eqn:E; [|reflexivity]. rewrite (Ht c Hl Hac E) in C1. discriminate C1.
  - rewrite get_set_other in Hz by exact Haq. apply (C1 q z Hz).
Qed.

Lemma taint_upd_pend c y P :
  taint c (upd_pend y P) = true -> taint c (upd_pend y []) = true \/ existsb (instr_mk c) P = true.
Proof.
  intros H. apply taint_split in H. cbn [upd_pend a_sq a_uq a_stash a_cons a_cur a_pend] in H.
  destruct H as [H|[H|[H|[H|[H|H]]]]]; [left|left|left|left|left|right; exact H];
  apply taint_split; cbn [upd_pend a_sq a_uq a_stash a_cons a_cur a_pend]; auto 10.
Qed.

Lemma taint_upd_pend_mono c y P Q0 :
  (forall j, In j P -> In j Q0) -> taint c (upd_pend y P) = true -> taint c (upd_pend y Q0) = true.
Proof.
  intros Hsub H. apply taint_split in H. apply taint_split. cbn [upd_pend a_sq a_uq a_stash a_cons a_cur a_pend] in *.
  destruct H as [H|[H|[H|[H|[H|H]]]]]; auto 10. do 5 right.
  apply existsb_exists in H as (j & Hj & Hm). apply existsb_exists. exists j. auto.
Qed.

Lemma T2_set_pend_live s t l p :
  T2 s -> pend_of s t = l ->
  (forall c j, live s c -> t <> TA c -> In j p -> instr_mk c j = true -> existsb (instr_mk c) l = true) ->
  (forall c j, live s c -> t = TA c -> In j p -> send_mk c j = true -> existsb (send_mk c) l = true) ->
  T2 (set_pend s t p).
Proof.
  intros HT Hl Hi Hs. destruct t as [a|k]; cbn [pend_of] in Hl.
  - destruct (get s a) as [x|] eqn:Hg; [|rewrite (set_pend_TA_none _ _ _ Hg); apply (T2_ext s); auto].
    rewrite (set_pend_TA _ _ _ _ Hg). apply (T2_set_actor s a x _ HT Hg); [reflexivity| |]; subst l.
    + intros c Hlc Hac H. destruct (taint_upd_pend c x p H) as [H0|H0].
      * replace x with (upd_pend x (a_pend x)) by (destruct x; reflexivity).
        apply (taint_upd_pend_mono c x [] _ (fun j (F : In j []) => match F with end) H0).
      * apply existsb_exists in H0 as (j & Hj & Hm). apply taint_split. do 5 right.
        apply (Hi c j Hlc (fun E => Hac (f_equal self_of E)) Hj Hm).
    + intros Hla H. apply existsb_exists in H as (j & Hj & Hm). apply (Hs a j Hla eq_refl Hj Hm).
  - intros c Hlive. apply (live_psame _ _ c (psame_set_pend s (TX k) p)) in Hlive. destruct (HT c Hlive) as (C1 & C2). split.
    + intros q y Hy. rewrite get_set_pend_TX in Hy. apply (C1 q y Hy).
    + cbn [set_pend]. destruct (nth_error (exts s) k) as [ex|] eqn:Hn; [|exact C2].
      intros j exj Hj. unfold set_ext in Hj; cbn [exts] in Hj. destruct (Nat.eq_dec k j) as [<-|Hkj].
      * rewrite (nth_error_upd_same _ _ _ _ Hn) in Hj. inversion Hj; subst exj. cbn [x_pend].
        apply existsb_false_intro. intros i Hin. destruct (instr_mk c i) eqn:E; [|reflexivity].
        assert (Hne : TX k <> TA c) by discriminate.
        rewrite <- Hl in Hi. specialize (Hi c i Hlive Hne Hin E). rewrite (C2 k ex Hn) in Hi. discriminate Hi.
      * rewrite nth_upd_neq in Hj by exact Hkj. apply (C2 j exj Hj).
Qed.

Lemma T2_set_pend s t l p :
  T2 s -> pend_of s t = l ->
  (forall c j, In j p -> instr_mk c j = true -> existsb (instr_mk c) l = true) ->
  (forall c j, In j p -> send_mk c j = true -> existsb (send_mk c) l = true) ->
  T2 (set_pend s t p).
Proof. intros HT Hl Hi Hs. apply (T2_set_pend_live s t l p HT Hl); intros c j _ _; [apply Hi|apply Hs]. Qed.

Lemma T2_pop s t i rest : T2 s -> pend_of s t = i :: rest -> T2 (set_pend s t rest).
Proof.
  intros HT Hp. apply (T2_set_pend s t (i :: rest) rest HT Hp).
  - intros c j Hj Hm. apply existsb_exists. exists j. split; [right; exact Hj|exact Hm].
  - intros c j Hj Hm. apply existsb_exists. exists j. split; [right; exact Hj|exact Hm].
Qed.

Lemma T2_push_mb s b e :
  T2 s -> (forall c, live s c -> b <> c -> env_mk c e = false) -> T2 (push_mb s b e).
Proof.
  intros HT He. unfold push_mb, with_actor. destruct (get s b) as [x|] eqn:Hg; [|exact HT].
  apply (T2_set_actor s b x _ HT Hg); [reflexivity| |intros _ H; exact H].
  intros c Hlive Hbc E. specialize (He c Hlive Hbc). apply taint_split.
  apply taint_split in E. cbn [a_sq a_uq a_stash a_cons a_cur a_pend] in E.
  destruct (e_sys e); rewrite existsb_app in E; cbn [existsb] in E; rewrite He, !orb_false_r in E; exact E.
Qed.

Definition mb_target (m : mbox) : aid := match m with MbActor b => b | _ => 0%nat end.

Lemma T2_deliver s mb e :
  T2 s -> (forall c, live s c -> mb_target mb <> c -> env_mk c e = false) -> T2 (fst (deliver s mb e)).
Proof.
  intros HT He. destruct mb as [b| |]; cbn [deliver fst].
  - apply T2_push_mb; [exact HT|exact He].
  - apply T2_push_mb; [exact HT|exact He].
  - apply T2_push_mb; [exact HT|]. intros c _ _. reflexivity.
Qed.

Lemma head_clean s t i rest c :
  T2 s -> live s c -> pend_of s t = i :: rest ->
  send_mk c i = false /\ (t <> TA c -> instr_mk c i = false).
Proof.
  intros HT Hl Hp. destruct (HT c Hl) as (C1 & C2). destruct t as [q|k].
  - cbn [pend_of] in Hp. destruct (get s q) as [y|] eqn:Hg; [|discriminate Hp].
    specialize (C1 q y Hg). split.
    + pose proof (otaint_false_pend c q y C1) as H. rewrite Hp in H. cbn [existsb] in H. apply orb_false_elim in H as [H _]. exact H.
    + intros Hne. unfold otaint in C1. destruct (Nat.eqb q c) eqn:E; [apply Nat.eqb_eq in E; congruence|].
      destruct (instr_mk c i) eqn:Ei; [|reflexivity].
      assert (taint c y = true) by (apply taint_split; do 5 right; rewrite Hp; cbn [existsb]; rewrite Ei; reflexivity). congruence.
  - cbn [pend_of] in Hp. destruct (nth_error (exts s) k) as [ex|] eqn:Hn; [|discriminate Hp].
    specialize (C2 k ex Hn). rewrite Hp in C2. cbn [existsb] in C2. apply orb_false_elim in C2 as [C2 _].
    split; [|intros _; exact C2]. destruct (send_mk c i) eqn:E; [|reflexivity]. apply send_le_instr in E. congruence.
Qed.

Lemma mb_equiv_psame_pend s s' t : mb_equiv s s' -> pend_of s' t = pend_of s t.
Proof. apply pend_of_mb. Qed.

Lemma live_resolve s r c : live (snd (resolve s r)) c <-> live s c.
Proof.
  pose proof (cequiv_resolve s r) as Hc. split; [apply (live_cequiv _ _ c Hc)|].
  intros [(Hc0 & x & Hx & Hl)|Hlen].
  - left. split; [exact Hc0|]. destruct Hc as (Hm & _ & Hr). specialize (Hm c). rewrite Hx in Hm.
    destruct (get (snd (resolve s r)) c) as [y|] eqn:Hy; [|contradiction]. exists y. split; [exact Hy|].
    rewrite Hr. destruct Hm as ((Hp & _) & _). rewrite Hp. exact Hl.
  - right. destruct Hc as (Hm & _). rewrite (length_of_get s (snd (resolve s r))); [exact Hlen|].
    intros b. specialize (Hm b). destruct (get s b), (get (snd (resolve s r)) b); auto.
Qed.

Lemma T2_push s t choice : SInv s -> T2 s -> err (step s (EvPush t choice)) = false -> T2 (step s (EvPush t choice)).
Proof.
  intros _ HT Herr. destruct (step_push s t choice Herr) as (i & rest & s1 & mb & e & front & Hp & Hpu & ->).
  destruct (pushes_plain _ _ _ _ _ _ _ _ Hpu) as (Hm & _ & _).
  (* the target has been resolved: caches only *)
  assert (H1 : T2 s1 /\ forall c0, live s1 c0 -> live s c0).
  { destruct Hpu; try (split; [exact HT|auto]); (split; [apply (T2_cequiv _ _ (cequiv_resolve s to) HT)|intros c0; apply live_resolve]). }
  destruct H1 as [HT1 Hlive].
  apply (T2_set_pend _ t (i :: rest)); [|rewrite (pend_of_mb _ _ t Hm); exact Hp| |].
  - (* the envelope carries what the instruction carried *)
    apply (T2_deliver s1 mb e HT1). intros c Hl Hne. destruct (head_clean s t i rest c HT (Hlive c Hl) Hp) as [Hs _].
    destruct Hpu; cbn [send_mk] in Hs; try exact Hs; try reflexivity.
    cbn [mb_target] in Hne. apply Nat.eqb_neq in Hne. rewrite Hne in Hs. exact Hs.
  - intros c j Hj Hmk. cbn [existsb]. apply orb_true_intro. apply in_app_or in Hj as [Hj|Hj]; [left|right; apply existsb_exists; eauto].
    destruct Hpu; in_front Hj; subst; try discriminate Hmk; exact Hmk.
  - intros c j Hj Hmk. cbn [existsb]. apply orb_true_intro. apply in_app_or in Hj as [Hj|Hj]; [left|right; apply existsb_exists; eauto].
    destruct Hpu; in_front Hj; subst; try discriminate Hmk; exact Hmk.
Qed.

Lemma T2_consumer s ev :
  (match ev with EvSysPop _ | EvLoadPaused _ | EvUserPop _ => True | _ => False end) ->
  SInv s -> T2 s -> err (step s ev) = false -> T2 (step s ev).
Proof.
  intros Hev _ HT Herr. destruct (consumer_move s ev Herr Hev) as (a & x & sq & uq & co & Hg & Hm & _ & ->).
  apply (T2_set_actor s a x _ HT Hg); [reflexivity| |intros _ H; exact H].
  (* the envelopes of the queues and of the consumer position afterwards are those of the queues before *)
  intros c _ _ H. apply taint_split in H. apply taint_split. cbn [set_mb a_sq a_uq a_stash a_cons a_cur a_pend] in H.
  destruct Hm as [e r Hc Hq|Hc Hq|Hc|e r Hc Hq|Hc Hq]; try rewrite Hq; cbn [existsb]; rewrite ?orb_true_iff;
    destruct H as [H|[H|[H|[H|[H|H]]]]]; try discriminate H; try (destruct (a_paused x); discriminate H); tauto.
Qed.

Lemma taint_handler c x y :
  a_sq y = a_sq x -> a_uq y = a_uq x -> a_stash y = a_stash x -> a_cons y = a_cons x ->
  taint c y = true ->
  taint c x = true \/ match a_cur y with Some e => env_mk c e | None => false end = true \/ existsb (instr_mk c) (a_pend y) = true.
Proof.
  intros H1 H2 H3 H4 H. apply taint_split in H. rewrite H1, H2, H3, H4 in H. rewrite taint_split. tauto.
Qed.

Lemma dispatch_taint s a x e s1 ins y c :
  get s a = Some x -> dispatch s a x e = (s1, ins) -> get s1 a = Some y ->
  (taint c (upd_pend y ins) = true -> env_mk c e = true \/ taint c x = true) /\ existsb (send_mk c) ins = false.
Proof.
  intros Hg.
  destruct (dispatch_cases s a x e) as [| |r _ []]; intros He Hy; injection He as <- <-.
  all: rewrite ?get_add_ghost, ?(get_set_same' _ _ _ _ Hg), ?Hg in Hy; injection Hy as <-.
  all: (split; [|unfold kill_children; cbn; repeat (destr_match; cbn); rewrite ?andb_false_r; reflexivity]).
  all: intros H; apply (taint_handler c x) in H; try reflexivity.
  all: destruct H as [H|[H|H]]; [right; exact H| |].
  (* the dead branch keeps the record *)
  1-4: right; apply taint_split; cbn in H; try discriminate H; tauto.
  all: unfold env_mk, kill_children in *; cbn in H; rewrite ?Em in *.
  all: repeat (match type of H with context [match ?z with _ => _ end] => destruct z end; cbn in H).
  all: rewrite ?orb_false_r in H; first [discriminate H|left; exact H].
Qed.

Lemma T2_handle s a x e s1 ins :
  SInv s -> T2 s -> get s a = Some x -> a_cons x = CH e -> a_pend x = [] ->
  let x0 := set_mb x (a_sq x) (a_uq x) (a_paused x) (CBusy (mode_top x)) (a_cur x) in
  dispatch (set_actor s a x0) a x0 e = (s1, ins) ->
  T2 (set_pend s1 (TA a) ins).
Proof.
  intros _ HT Hg Hc Hpx x0 Hd.
  assert (Hg0 : get (set_actor s a x0) a = Some x0) by apply (get_set_same' _ _ _ _ Hg).
  destruct (handle_pre s a x e s1 ins Hg Hd) as (y & Hg1 & Hy & Hga & Hoth & Hreg & Hex & _).
  apply (T2_ext (set_actor s a (upd_pend y ins))); [|exact Hreg|exact Hex|].
  - intros b. destruct (Nat.eq_dec a b) as [<-|Hab]; [rewrite Hga, (get_set_same' _ _ _ _ Hg)|rewrite (Hoth b Hab), get_set_other by exact Hab]; reflexivity.
  - apply (T2_set_actor s a x _ HT Hg).
    + apply (df_path _ _ Hy).
    + intros c _ _ H. destruct (dispatch_taint _ _ _ _ _ _ _ c Hg0 Hd Hg1) as (D1 & _).
      destruct (D1 H) as [He|Hx0].
      * apply taint_split. rewrite Hc. tauto.
      * apply taint_split in Hx0. apply taint_split. cbn [x0 set_mb a_sq a_uq a_stash a_cons a_cur a_pend] in Hx0. rewrite Hc.
        destruct Hx0 as [H1|[H1|[H1|[H1|[H1|H1]]]]]; auto 10. discriminate H1.
    + intros _ H. destruct (dispatch_taint _ _ _ _ _ _ _ a Hg0 Hd Hg1) as (_ & D2).
      cbn [upd_pend a_pend] in H. congruence.
Qed.

Lemma T2_resolve s t sys to sender m rest :
  SInv s -> T2 s -> pend_of s t = IEnq sys to sender m :: rest ->
  T2 (set_pend (snd (resolve s to)) t (IEnqR sys (fst (resolve s to)) sender m :: rest)).
Proof.
  intros _ HT Hp. pose proof (cequiv_resolve s to) as Hc. pose proof (mb_equiv_resolve s to) as Hm.
  apply (T2_set_pend _ t (IEnq sys to sender m :: rest)); [apply (T2_cequiv _ _ Hc HT)|rewrite (pend_of_mb _ _ t Hm); exact Hp| |].
  - intros c j [<-|Hj] Hmk; cbn [existsb instr_mk] in *; [rewrite Hmk; reflexivity|].
    apply orb_true_intro. right. apply existsb_exists. exists j. auto.
  - intros c j [<-|Hj] Hmk; cbn [existsb send_mk] in *; [rewrite Hmk; reflexivity|].
    apply orb_true_intro. right. apply existsb_exists. exists j. auto.
Qed.

Lemma cequiv_of_paused s a f :
  (forall x, csame x (f x)) -> cequiv s (with_actor s a f).
Proof.
  intros Hf. unfold with_actor. destruct (get s a) as [x|] eqn:Hg; [|apply cequiv_set_err].
  apply (cequiv_set_actor _ _ x); [exact Hg|apply Hf].
Qed.

Lemma T2_pause s t rest :
  SInv s -> T2 s -> pend_of s t = IPauseSt :: rest ->
  T2 (set_pend (with_actor s (self_of t) (fun x => set_mb x (a_sq x) (a_uq x) true (a_cons x) (a_cur x))) t rest).
Proof.
  intros _ HT Hp.
  assert (Hc : cequiv s (with_actor s (self_of t) (fun x => set_mb x (a_sq x) (a_uq x) true (a_cons x) (a_cur x))))
    by (apply cequiv_of_paused; intros x; split; [repeat split|split; reflexivity]).
  assert (Hm : mb_equiv s (with_actor s (self_of t) (fun x => set_mb x (a_sq x) (a_uq x) true (a_cons x) (a_cur x))))
    by (apply mb_equiv_with_actor; intros; repeat split).
  apply (T2_pop _ t IPauseSt rest (T2_cequiv _ _ Hc HT)). rewrite (pend_of_mb _ _ t Hm). exact Hp.
Qed.

Lemma T2_resume1p s t rest x :
  SInv s -> T2 s -> pend_of s t = IResume1 :: rest -> get s (self_of t) = Some x ->
  T2 (set_pend (set_actor s (self_of t) (set_mb x (a_sq x) (a_uq x) false (a_cons x) (a_cur x))) t (IResume2 :: rest)).
Proof.
  intros _ HT Hp Hg.
  assert (Hc : cequiv s (set_actor s (self_of t) (set_mb x (a_sq x) (a_uq x) false (a_cons x) (a_cur x))))
    by (apply (cequiv_set_actor _ _ x); [exact Hg|split; [repeat split|split; reflexivity]]).
  assert (Hm : mb_equiv s (set_actor s (self_of t) (set_mb x (a_sq x) (a_uq x) false (a_cons x) (a_cur x))))
    by (apply (mb_equiv_set_actor _ _ x); [exact Hg|repeat split]).
  apply (T2_set_pend _ t (IResume1 :: rest)); [apply (T2_cequiv _ _ Hc HT)|rewrite (pend_of_mb _ _ t Hm); exact Hp| |].
  - intros c j [<-|Hj] Hmk; [discriminate Hmk|]. cbn [existsb]. apply orb_true_intro. right. apply existsb_exists. exists j. auto.
  - intros c j [<-|Hj] Hmk; [discriminate Hmk|]. cbn [existsb]. apply orb_true_intro. right. apply existsb_exists. exists j. auto.
Qed.

Lemma T2_pophead s t i rest :
  SInv s -> T2 s -> pend_of s t = i :: rest -> (i = IEnqDone \/ i = IResume1 \/ i = IResume2) -> T2 (set_pend s t rest).
Proof. intros _ HT Hp _. apply (T2_pop s t i rest HT Hp). Qed.

Lemma existsb_skipn {A} (f : A -> bool) k l : existsb f (skipn k l) = true -> existsb f l = true.
Proof.
  intros H. apply existsb_exists in H as (j & Hj & Hf). apply existsb_exists. exists j. split; [|exact Hf].
  rewrite <- (firstn_skipn k l). apply in_or_app. right. exact Hj.
Qed.

Lemma exec1_front_taint s t h i s' front x c :
  exec1 s t h i = (s', front) -> get s (self_of t) = Some x -> c <> self_of t ->
  forall j, In j front -> instr_mk c j = true -> existsb (env_mk c) (a_stash x) = true.
Proof.
  intros He Hg Hc j Hj Hm.
  assert (Hsc : Nat.eqb (self_of t) c = false) by (apply Nat.eqb_neq; congruence).
  assert (Hem : emits s (self_of t) h x i j) by (apply (exec1_emits _ _ _ _ _ _ Hg); rewrite He; exact Hj).
  destruct Hem; cbn in Hm; rewrite ?Hsc in Hm; try discriminate Hm.
  apply existsb_exists. exists e. auto.
Qed.

Lemma exec1_front_send s t h i s' front x :
  exec1 s t h i = (s', front) -> get s (self_of t) = Some x ->
  forall j, In j front -> send_mk (self_of t) j = true -> i = ICleanup.
Proof.
  intros He Hg j Hj Hm.
  assert (Hem : emits s (self_of t) h x i j) by (apply (exec1_emits _ _ _ _ _ _ Hg); rewrite He; exact Hj).
  destruct Hem; cbn in Hm; rewrite ?Nat.eqb_refl in Hm; try discriminate Hm; reflexivity.
Qed.

Lemma exec1_self_taint s t h i s' front x x' c :
  exec1 s t h i = (s', front) -> get s (self_of t) = Some x -> get s' (self_of t) = Some x' -> c <> self_of t ->
  taint c x' = true -> taint c x = true.
Proof.
  intros He Hg Hg' Hc Ht.
  assert (Hsc : Nat.eqb (self_of t) c = false) by (apply Nat.eqb_neq; congruence).
  destruct (exec1_self _ _ _ _ _ _ _ He Hg) as (y & Hy & Hl). rewrite Hg' in Hy. injection Hy as <-.
  apply taint_split in Ht. apply taint_split. rewrite (lu_sq _ _ _ Hl), (lu_uq _ _ _ Hl), (lu_pend _ _ _ Hl) in Ht.
  (* a changed consumer position does not hold an envelope *)
  assert (Hco : match a_cons x' with CH e => env_mk c e | _ => false end = true ->
                match a_cons x with CH e => env_mk c e | _ => false end = true)
    by (destruct (lu_cons _ _ _ Hl) as [->|[(_ & ->)|(_ & ->)]]; [auto|discriminate..]).
  (* the stash receives the current envelope or loses envelopes *)
  assert (Hst : existsb (env_mk c) (a_stash x') = true ->
                existsb (env_mk c) (a_stash x) = true \/ match a_cur x with Some e => env_mk c e | None => false end = true).
  { destruct (lu_stash _ _ _ Hl) as [->|[->|(n & ->)]]; [auto| |]; unfold exec1 in He; rewrite Hg in He.
    - destruct (a_cur x) as [e|]; injection He as <- _; [|rewrite get_set_err, Hg in Hg'; injection Hg' as <-; auto].
      rewrite (get_set_same' _ _ _ _ Hg) in Hg'. injection Hg' as <-. cbn [set_stash upd_local a_stash].
      rewrite existsb_app. cbn [existsb]. rewrite orb_false_r. intros H. apply orb_prop in H. exact H.
    - intros H. left. revert H.
      destruct n as [n|]; [destruct (Nat.eqb (length (a_stash x)) 0)|destruct (a_stash x) as [|e r] eqn:Hs]; injection He as <- _.
      1,3: rewrite Hg in Hg'; injection Hg' as <-; rewrite ?Hs; auto.
      all: rewrite (get_set_same' _ _ _ _ Hg) in Hg'; injection Hg' as <-; cbn [set_stash upd_local a_stash].
      + apply existsb_skipn.
      + intros H. cbn [existsb]. rewrite H. apply orb_true_r. }
  (* a new current envelope is the own OnKilled or the OnLaunch of a restart *)
  assert (Hcu : match a_cur x' with Some e => env_mk c e | None => false end = true ->
                match a_cur x with Some e => env_mk c e | None => false end = true).
  { destruct (lu_cur _ _ _ Hl) as [->|[->| ->]]; [auto| |]; unfold exec1 in He; rewrite Hg in He.
    - destruct (a_children x); [destruct (a_state x)|]; injection He as <- _;
        rewrite ?(get_set_same' _ _ _ _ Hg), ?Hg in Hg'; injection Hg' as <-; auto.
      cbn. rewrite Hsc. discriminate.
    - destruct (a_hooks x) as [|[[h1 h2] h3] rest]; [|destruct (h2 && h3)]; injection He as <- _;
        rewrite (get_set_same' _ _ _ _ Hg) in Hg'; injection Hg' as <-; destruct (sp_provider (a_spec x)); cbn; auto; discriminate. }
  tauto.
Qed.

Lemma alookup_aremove_Some {A} (l : list (path * A)) p q v : alookup (aremove l p) q = Some v -> alookup l q = Some v.
Proof.
  induction l as [|[r w] l IH]; cbn [aremove alookup]; [discriminate|].
  destruct (path_eqb p r) eqn:E.
  - intros H. specialize (IH H). destruct (path_eqb q r) eqn:E2; [|exact IH].
    apply path_eqb_eq in E, E2. subst. rewrite alookup_aremove_same in H. discriminate H.
  - cbn [alookup]. destruct (path_eqb q r); [auto|exact IH].
Qed.

Lemma live_exec1 s t h i s' front x c :
  exec1 s t h i = (s', front) -> get s (self_of t) = Some x -> live s' c -> live s c.
Proof.
  intros He Hg Hl. destruct (spawn_dec i) as [[sp ->]|Hns].
  - destruct (exec1_spawn_cases _ _ _ _ _ _ _ He Hg) as [(o & ->)|(Hnk & Hpl & Hr)]; [exact Hl|].
    destruct (exec1_spawn_ok s t h sp x s' front Hg Hnk Hpl Hr He) as (Hlen & Hnew & Hoth & Hself & Hreg & _).
    destruct Hl as [(Hc0 & y & Hy & Hlk)|Hlen']; [|right; lia].
    destruct (Nat.eq_dec c (length (actors s))) as [->|Hcn]; [right; lia|]. left. split; [exact Hc0|].
    assert (Hyx : exists y0, get s c = Some y0 /\ a_path y0 = a_path y).
    { destruct (Nat.eq_dec c (self_of t)) as [->|Hcs].
      - rewrite Hself in Hy. inversion Hy; subst y. exists x. split; [exact Hg|reflexivity].
      - rewrite (Hoth c Hcs Hcn) in Hy. exists y. split; [exact Hy|reflexivity]. }
    destruct Hyx as (y0 & Hy0 & Hp). exists y0. split; [exact Hy0|]. rewrite Hp.
    rewrite Hreg, alookup_app in Hlk. destruct (alookup (reg s) (a_path y)) as [v|]; [exact Hlk|].
    cbn [alookup] in Hlk. destruct (path_eqb (a_path y) (a_path x ++ [sp_name sp])); [|discriminate Hlk].
    inversion Hlk. congruence.
  - destruct (exec1_local s t h i x Hg Hns) as (x' & Hlu & Ha & _ & _ & Hrg & _). rewrite He in *. cbn [fst] in *.
    assert (Hlen : length (actors s') = length (actors s)) by (rewrite Ha; apply upd_length).
    destruct Hl as [(Hc0 & y & Hy & Hlk)|Hlen']; [|right; lia]. left. split; [exact Hc0|].
    assert (Hyx : exists y0, get s c = Some y0 /\ a_path y0 = a_path y).
    { unfold get in Hy. rewrite Ha in Hy. destruct (Nat.eq_dec (self_of t) c) as [<-|Hcs].
      - rewrite (nth_error_upd_same _ _ _ _ Hg) in Hy. inversion Hy; subst y. exists x. split; [exact Hg|]. symmetry. apply Hlu.
      - rewrite nth_upd_neq in Hy by exact Hcs. exists y. split; [exact Hy|reflexivity]. }
    destruct Hyx as (y0 & Hy0 & Hp). exists y0. split; [exact Hy0|]. rewrite Hp.
    rewrite Hrg in Hlk. destruct i; try exact Hlk. apply (alookup_aremove_Some _ _ _ _ Hlk).
Qed.

Lemma taint_new c p g pa sp : taint c (new_actor p g pa sp) = false.
Proof. reflexivity. Qed.

Lemma T2_exec1 s t h i s' front x :
  T2 s -> exec1 s t h i = (s', front) -> get s (self_of t) = Some x -> T2 s'.
Proof.
  intros HT He Hg c Hl'. pose proof (live_exec1 _ _ _ _ _ _ _ c He Hg Hl') as Hl.
  destruct (HT c Hl) as (C1 & C2). destruct (exec1_self _ _ _ _ _ _ _ He Hg) as (x' & Hg' & Hlu). split.
  - intros q y Hq. destruct (Nat.eq_dec q (self_of t)) as [->|Hqs].
    + rewrite Hg' in Hq. injection Hq as <-. specialize (C1 _ x Hg). unfold otaint in *.
      destruct (Nat.eqb (self_of t) c) eqn:Hsc; [rewrite (lu_pend _ _ _ Hlu); exact C1|].
      apply Nat.eqb_neq in Hsc. destruct (taint c x') eqn:E; [|reflexivity].
      rewrite (exec1_self_taint _ _ _ _ _ _ _ _ c He Hg Hg' (fun Ec => Hsc (eq_sym Ec)) E) in C1. discriminate C1.
    + destruct (exec1_other _ _ _ _ _ _ q y He Hqs Hq) as [Hq0|(_ & _ & sp & x0 & _ & _ & _ & _ & _ & ->)]; [apply (C1 q y Hq0)|].
      unfold otaint. destruct (Nat.eqb q c); reflexivity.
  - intros k ex Hk. pose proof (exec1_exts_pend_nth _ _ _ _ _ _ He k) as Hx. rewrite Hk in Hx. cbn [option_map] in Hx.
    destruct (nth_error (exts s) k) as [ex0|] eqn:Hk0; [|discriminate Hx]. inversion Hx as [Hxp]. rewrite Hxp. apply (C2 k ex0 Hk0).
Qed.

Lemma T2_astep s t i rest :
  SInv s -> T2 s -> pend_of s t = i :: rest -> yielding i = false -> err (astep s t i rest) = false -> T2 (astep s t i rest).
Proof.
  intros _ HT Hp _ He1. pose proof (T2_pop s t i rest HT Hp) as HT0. unfold astep in *.
  set (s0 := set_pend s t rest) in *. destruct (exec1 s0 t (held_of s0 t) i) as [s1 front] eqn:He.
  destruct (get s0 (self_of t)) as [x|] eqn:Hg.
  2:{ rewrite (exec1_none s0 t _ i Hg) in He. injection He as <- _. rewrite (set_pend_err_mono (set_err s0) t _ eq_refl) in He1. discriminate He1. }
  apply (T2_set_pend_live s1 t (pend_of s1 t) _ (T2_exec1 _ _ _ _ _ _ _ HT0 He Hg) eq_refl).
  - (* what the instruction emits about another registered context would have been in the stash *)
    intros c j Hl1 Ht Hj Hm. apply existsb_exists. apply in_app_or in Hj as [Hj|Hj]; [exfalso|exists j; auto].
    pose proof (live_exec1 _ _ _ _ _ _ _ c He Hg Hl1) as Hl0.
    assert (Hcs : c <> self_of t).
    { destruct t as [a|k]; cbn [self_of] in *; [congruence|]. destruct Hl0 as [(Hc0 & _)|Hlen]; [exact Hc0|]. apply nth_error_lt in Hg. lia. }
    pose proof (exec1_front_taint _ _ _ _ _ _ _ c He Hg Hcs j Hj Hm) as Hst.
    destruct (HT0 c Hl0) as (C1 & _). specialize (C1 _ x Hg). unfold otaint in C1.
    rewrite (proj2 (Nat.eqb_neq _ _) (fun E => Hcs (eq_sym E))) in C1.
    assert (taint c x = true) by (apply taint_split; auto 10). congruence.
  - (* only the cleanup emits the notice of the own end, and it has removed the registration *)
    intros c j Hl1 -> Hj Hm. apply existsb_exists. apply in_app_or in Hj as [Hj|Hj]; [exfalso|exists j; auto].
    pose proof (exec1_front_send _ _ _ _ _ _ _ He Hg j Hj Hm) as ->.
    rewrite (exec1_ICleanup s0 (TA c) _ x Hg) in He. cbn [self_of] in Hg. injection He as <- _.
    destruct Hl1 as [(_ & y & Hy & Hlk)|Hlen]; [|apply nth_error_lt in Hg; cbn [actors set_reg set_subs] in Hlen; lia].
    change (get s0 c = Some y) in Hy. rewrite Hg in Hy. injection Hy as <-.
    cbn [reg set_reg set_subs] in Hlk. rewrite alookup_aremove_same in Hlk. discriminate Hlk.
Qed.
