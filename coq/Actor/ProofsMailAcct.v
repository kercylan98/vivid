(** Accounting of envelopes along a run (C03-d): every envelope inserted by a push is, at every later moment,
    in a queue or in a consumer's hands, or has been given to HandleEnvelop - exactly once. *)
From Coq Require Import List Bool Lia Arith.
From Vivid Require Import Actor.Core Actor.CoreRun Actor.SpecMail Actor.ProofsMailBase Actor.ProofsMailInv Actor.ProofsMailWf.
Import ListNotations.

Lemma wf_init scs : wf (init_with scs).
Proof.
  split.
  - rewrite init_with_actors. constructor; [left; reflexivity|constructor].
  - eapply Forall_impl; [|apply init_with_exts]. intros ex [sc ->]. apply forallb_map_IAct.
Qed.

Lemma wf_run evs : forall s, wf s -> err (run_events evs s) = false -> wf (run_events evs s).
Proof.
  induction evs as [|ev r IH]; intros s W He; [exact W|].
  change (run_events (ev :: r) s) with (run_events r (step s ev)) in *.
  apply IH; [|exact He]. apply step_wf_held; [exact W|]. exact (err_false_run_head r s ev He).
Qed.

Lemma reachable_wf s : reachable s -> wf s.
Proof. intros (scs & evs & -> & He). apply wf_run; [apply wf_init|exact He]. Qed.

Fixpoint sum_upto (n : nat) (f : nat -> nat) : nat := match n with O => 0 | S k => sum_upto k f + f k end.

Lemma sum_upto_ext n f g : (forall b, b < n -> f b = g b) -> sum_upto n f = sum_upto n g.
Proof. induction n as [|n IH]; intros H; cbn [sum_upto]; [reflexivity|]. rewrite IH, H by auto. reflexivity. Qed.
Lemma sum_upto_add n f g : sum_upto n (fun b => f b + g b) = sum_upto n f + sum_upto n g.
Proof. induction n as [|n IH]; cbn [sum_upto]; [reflexivity|]. rewrite IH. lia. Qed.
Lemma sum_upto_shift n f : sum_upto (S n) f = f 0 + sum_upto n (fun b => f (S b)).
Proof. induction n as [|n IH]; [cbn; lia|]. change (sum_upto (S (S n)) f) with (sum_upto (S n) f + f (S n)). rewrite IH. cbn [sum_upto]. lia. Qed.
Lemma sum_upto_zero n f : (forall b, b < n -> f b = 0) -> sum_upto n f = 0.
Proof. induction n as [|n IH]; intros H; cbn [sum_upto]; [reflexivity|]. rewrite IH, H by auto. reflexivity. Qed.
Lemma sum_upto_delta n i v : i < n -> sum_upto n (fun b => if Nat.eqb i b then v else 0) = v.
Proof.
  induction n as [|n IH]; intros H; [lia|]. cbn [sum_upto]. destruct (Nat.eqb_spec i n) as [->|Hne].
  - rewrite sum_upto_zero; [lia|]. intros b Hb. destruct (Nat.eqb_spec n b); [lia|reflexivity].
  - rewrite IH by lia. lia.
Qed.

Lemma cnt_env_app P l1 l2 : cnt_env P (l1 ++ l2) = cnt_env P l1 + cnt_env P l2.
Proof. unfold cnt_env. rewrite filter_app, app_length. reflexivity. Qed.
Lemma cnt_env_one P e : cnt_env P [e] = b2n (P (e_msg e)).
Proof. unfold cnt_env. cbn [filter]. destruct (P (e_msg e)); reflexivity. Qed.

Definition inbox_nth (l : list actor) (b : nat) : list envelope := match nth_error l b with Some x => inbox x | None => [] end.

Lemma cnt_inbox_sum P l : forall n, length l <= n -> cnt_inbox P l = sum_upto n (fun b => cnt_env P (inbox_nth l b)).
Proof.
  induction l as [|x r IH]; intros n Hn.
  - cbn [cnt_inbox]. symmetry. apply sum_upto_zero. intros b _. unfold inbox_nth. destruct b; reflexivity.
  - destruct n as [|n]; [cbn in Hn; lia|]. rewrite sum_upto_shift. cbn [cnt_inbox]. f_equal.
    apply IH. cbn in Hn. lia.
Qed.

Definition cntb (P : msg -> bool) (s : state) (b : aid) : nat := cnt_env P (sq_at s b ++ uq_at s b ++ held_at s b).

Lemma in_mail_sum P s n : length (actors s) <= n -> in_mail P s = sum_upto n (cntb P s).
Proof.
  intros Hn. unfold in_mail. rewrite (cnt_inbox_sum P _ n Hn). apply sum_upto_ext. intros b _.
  unfold cntb, inbox_nth, sq_at, uq_at, held_at, get. destruct (nth_error (actors s) b); reflexivity.
Qed.

Lemma cntb_step P s ev b :
  wf s -> err (step s ev) = false ->
  cntb P (step s ev) b + cnt_env P (handled_at s ev b) =
  cntb P s b + cnt_env P (pushed_to s ev b true) + cnt_env P (pushed_to s ev b false).
Proof.
  intros W He. destruct (step_wf_held s ev W He) as [_ Hh]. specialize (Hh b).
  pose proof (queue_step s ev b true He) as Hs. pose proof (queue_step s ev b false He) as Hu. cbn [q_at] in Hs, Hu.
  apply (f_equal (cnt_env P)) in Hh, Hs, Hu. repeat rewrite cnt_env_app in Hh. repeat rewrite cnt_env_app in Hs. repeat rewrite cnt_env_app in Hu.
  unfold cntb. rewrite !cnt_env_app. lia.
Qed.

Lemma handled_sum P s ev n :
  (forall a e, ev = EvHandle a -> handle_of s a = Some e -> a < n) ->
  sum_upto n (fun b => cnt_env P (handled_at s ev b)) = handles1 P s ev.
Proof.
  intros Hn. destruct ev; try (apply sum_upto_zero; intros; reflexivity).
  cbn [handles1 handled_at]. destruct (handle_of s a) as [e|] eqn:E.
  - rewrite <- (sum_upto_delta n a (b2n (P (e_msg e)))) by (eapply Hn; eauto).
    apply sum_upto_ext. intros b _. destruct (Nat.eqb a b); [apply cnt_env_one|reflexivity].
  - apply sum_upto_zero. intros b _. destruct (Nat.eqb a b); reflexivity.
Qed.

Lemma pushed_sum P s ev n :
  (forall t c tgt e, ev = EvPush t c -> push_of s t c = Some (tgt, e) -> tgt < n) ->
  sum_upto n (fun b => cnt_env P (pushed_to s ev b true) + cnt_env P (pushed_to s ev b false)) = pushes1 P s ev.
Proof.
  intros Hn. destruct ev; try (apply sum_upto_zero; intros; reflexivity).
  cbn [pushes1 pushed_to]. destruct (push_of s t choice) as [[tgt e]|] eqn:E.
  - rewrite <- (sum_upto_delta n tgt (b2n (P (e_msg e)))) by (eapply Hn; eauto).
    apply sum_upto_ext. intros b _. destruct (Nat.eqb tgt b); [|reflexivity]. cbn [andb].
    destruct (e_sys e); cbn [Bool.eqb]; rewrite cnt_env_one; cbn [cnt_env filter length]; lia.
  - apply sum_upto_zero. intros b _. reflexivity.
Qed.

Lemma in_mail_step P s ev :
  wf s -> err (step s ev) = false ->
  in_mail P (step s ev) + handles1 P s ev = in_mail P s + pushes1 P s ev.
Proof.
  intros W He.
  set (n := S (length (actors s) + length (actors (step s ev)) +
              match ev with EvHandle a => a | EvPush t c => match push_of s t c with Some (tgt, _) => tgt | None => 0 end | _ => 0 end)).
  rewrite (in_mail_sum P (step s ev) n) by (unfold n; lia). rewrite (in_mail_sum P s n) by (unfold n; lia).
  rewrite <- (handled_sum P s ev n), <- (pushed_sum P s ev n).
  - rewrite <- !sum_upto_add. apply sum_upto_ext. intros b _. pose proof (cntb_step P s ev b W He). lia.
  - intros t c tgt e -> Hpo. unfold n. rewrite Hpo. lia.
  - intros a e -> _. unfold n. lia.
Qed.

Lemma in_mail_run P evs : forall s,
  wf s -> err (run_events evs s) = false ->
  in_mail P (run_events evs s) + handles P evs s = in_mail P s + pushes P evs s.
Proof.
  induction evs as [|ev r IH]; intros s W He; [cbn; lia|].
  change (run_events (ev :: r) s) with (run_events r (step s ev)) in *. cbn [handles pushes].
  pose proof (err_false_run_head r s ev He) as He1.
  pose proof (in_mail_step P s ev W He1). destruct (step_wf_held s ev W He1) as [W1 _].
  pose proof (IH _ W1 He). lia.
Qed.

Lemma in_mail_init P scs : in_mail P (init_with scs) = 0.
Proof. unfold in_mail. rewrite init_with_actors. reflexivity. Qed.

Theorem conservation P scs evs :
  err (run_events evs (init_with scs)) = false ->
  pushes P evs (init_with scs) = in_mail P (run_events evs (init_with scs)) + handles P evs (init_with scs).
Proof.
  intros He. pose proof (in_mail_run P evs (init_with scs) (wf_init scs) He). rewrite in_mail_init in H. lia.
Qed.
