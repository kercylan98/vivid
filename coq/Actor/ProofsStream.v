(** Proofs for the ActorCore part of C19 (event stream): the subscription table [subs] of Actor/Core.v. *)
From Coq Require Import List NArith Bool.
From Vivid Require Import Actor.Core Actor.CoreRun Actor.ProofsMailBase Actor.ProofsMail Actor.SpecSup Actor.ProofsSup.
Import ListNotations.

Lemma alookup_none {A} (l : list (path * A)) p : alookup l p = None <-> ~ In p (map fst l).
Proof.
  induction l as [|[q v] r IH]; cbn; [tauto|].
  destruct (path_eqb p q) eqn:E.
  - apply path_eqb_eq in E. subst. split; [discriminate|]. intros H. exfalso. apply H. left; reflexivity.
  - apply path_eqb_neq in E. rewrite IH. split.
    + intros H [H1|H1]; [congruence|contradiction].
    + intros H H1. apply H. right; exact H1.
Qed.

Lemma alookup_in {A} (l : list (path * A)) p v : alookup l p = Some v -> In (p, v) l.
Proof.
  induction l as [|[q w] r IH]; cbn; [discriminate|].
  destruct (path_eqb p q) eqn:E.
  - apply path_eqb_eq in E. intros H; inversion H; subst. left; reflexivity.
  - intros H. right. apply IH, H.
Qed.

Lemma aremove_in {A} (l : list (path * A)) p q v : In (q, v) (aremove l p) <-> In (q, v) l /\ q <> p.
Proof.
  induction l as [|[r w] l IH]; cbn; [tauto|].
  destruct (path_eqb p r) eqn:E.
  - apply path_eqb_eq in E. subst r. rewrite IH. split.
    + intros [H1 H2]. auto.
    + intros [[H1|H1] H2]; [inversion H1; subst; contradiction|auto].
  - apply path_eqb_neq in E. cbn. rewrite IH. split.
    + intros [H|[H1 H2]]; [inversion H; subst; split; [left; reflexivity|congruence]|auto].
    + intros [[H1|H1] H2]; auto.
Qed.

Lemma aremove_fst {A} (l : list (path * A)) p q : In q (map fst (aremove l p)) <-> In q (map fst l) /\ q <> p.
Proof.
  rewrite !in_map_iff. split.
  - intros ([q' v] & E & H). cbn in E; subst q'. apply aremove_in in H as [H1 H2]. split; [exists (q, v); auto|exact H2].
  - intros (([q' v] & E & H) & N). cbn in E; subst q'. exists (q, v). split; [reflexivity|]. apply aremove_in. auto.
Qed.

Lemma alookup_aremove_same {A} (l : list (path * A)) p : alookup (aremove l p) p = None.
Proof. apply alookup_none. intros H. apply aremove_fst in H as [_ H]. congruence. Qed.

Lemma alookup_aremove_other {A} (l : list (path * A)) p q : q <> p -> alookup (aremove l p) q = alookup l q.
Proof.
  intros N. induction l as [|[r w] l IH]; cbn; [reflexivity|].
  destruct (path_eqb p r) eqn:E.
  - apply path_eqb_eq in E. subst r. rewrite IH.
    destruct (path_eqb q p) eqn:E2; [apply path_eqb_eq in E2; contradiction|reflexivity].
  - cbn. rewrite IH. reflexivity.
Qed.

Lemma aremove_nodup {A} (l : list (path * A)) p : NoDup (map fst l) -> NoDup (map fst (aremove l p)).
Proof.
  induction l as [|[r w] l IH]; cbn; [auto|]. intros H. inversion H; subst.
  destruct (path_eqb p r); [auto|]. cbn. constructor; [|auto].
  intros Hin. apply aremove_fst in Hin as [Hin _]. contradiction.
Qed.

Lemma aremove_absent {A} (l : list (path * A)) p : alookup l p = None -> aremove l p = l.
Proof.
  induction l as [|[r w] l IH]; cbn; [reflexivity|].
  destruct (path_eqb p r); [discriminate|]. intros H. rewrite IH by exact H. reflexivity.
Qed.

Lemma nlookup_in {A} (l : list (N * A)) k v : nlookup l k = Some v -> In (k, v) l.
Proof.
  induction l as [|[q w] r IH]; cbn; [discriminate|].
  destruct (N.eqb_spec k q).
  - intros H; inversion H; subst. left; reflexivity.
  - intros H. right. apply IH, H.
Qed.

Lemma nlookup_none {A} (l : list (N * A)) k : nlookup l k = None <-> ~ In k (map fst l).
Proof.
  induction l as [|[q v] r IH]; cbn; [tauto|].
  destruct (N.eqb_spec k q).
  - subst. split; [discriminate|]. intros H. exfalso. apply H. left; reflexivity.
  - rewrite IH. split.
    + intros H [H1|H1]; [congruence|contradiction].
    + intros H H1. apply H. right; exact H1.
Qed.

Lemma in_nlookup {A} (l : list (N * A)) k v : NoDup (map fst l) -> In (k, v) l -> nlookup l k = Some v.
Proof.
  induction l as [|[q w] r IH]; cbn; [intros _ []|]. intros Hn. inversion Hn; subst. intros [H|H].
  - inversion H; subst. rewrite N.eqb_refl. reflexivity.
  - destruct (N.eqb_spec k q).
    + subst. exfalso. apply H1. apply in_map_iff. exists (q, v). auto.
    + apply IH; assumption.
Qed.

Lemma nremove_in {A} (l : list (N * A)) k q v : In (q, v) (nremove l k) <-> In (q, v) l /\ q <> k.
Proof.
  induction l as [|[r w] l IH]; cbn; [tauto|].
  destruct (N.eqb_spec k r).
  - subst r. rewrite IH. split.
    + intros [H1 H2]. auto.
    + intros [[H1|H1] H2]; [inversion H1; subst; contradiction|auto].
  - cbn. rewrite IH. split.
    + intros [H|[H1 H2]]; [inversion H; subst; split; [left; reflexivity|congruence]|auto].
    + intros [[H1|H1] H2]; auto.
Qed.

Lemma nremove_fst {A} (l : list (N * A)) k q : In q (map fst (nremove l k)) <-> In q (map fst l) /\ q <> k.
Proof.
  rewrite !in_map_iff. split.
  - intros ([q' v] & E & H). cbn in E; subst q'. apply nremove_in in H as [H1 H2]. split; [exists (q, v); auto|exact H2].
  - intros (([q' v] & E & H) & N). cbn in E; subst q'. exists (q, v). split; [reflexivity|]. apply nremove_in. auto.
Qed.

Lemma nremove_nodup {A} (l : list (N * A)) k : NoDup (map fst l) -> NoDup (map fst (nremove l k)).
Proof.
  induction l as [|[r w] l IH]; cbn; [auto|]. intros H. inversion H; subst.
  destruct (N.eqb_spec k r); [auto|]. cbn. constructor; [|auto].
  intros Hin. apply nremove_fst in Hin as [Hin _]. contradiction.
Qed.

Lemma nset_in {A} (l : list (N * A)) k v q w : In (q, w) (nset l k v) <-> (In (q, w) l /\ q <> k) \/ (q = k /\ w = v).
Proof.
  unfold nset. rewrite in_app_iff, nremove_in. cbn. split.
  - intros [H|[H|[]]]; [auto|inversion H; auto].
  - intros [H|[-> ->]]; auto.
Qed.

Lemma nodup_snoc {A} (l : list A) x : NoDup l -> ~ In x l -> NoDup (l ++ [x]).
Proof.
  induction l as [|h t IH]; cbn; intros H N.
  - constructor; [intros []|constructor].
  - inversion H; subst. constructor.
    + rewrite in_app_iff. cbn. intros [H1|[H1|[]]]; [contradiction|subst; apply N; left; reflexivity].
    + apply IH; [assumption|]. intros H1. apply N. right; exact H1.
Qed.

Lemma nset_nodup {A} (l : list (N * A)) k v : NoDup (map fst l) -> NoDup (map fst (nset l k v)).
Proof.
  intros H. unfold nset. rewrite map_app. cbn. apply nodup_snoc; [apply nremove_nodup, H|].
  intros Hin. apply nremove_fst in Hin as [_ Hin]. congruence.
Qed.

Lemma nlookup_nremove_other {A} (l : list (N * A)) k q : q <> k -> nlookup (nremove l k) q = nlookup l q.
Proof.
  intros N. induction l as [|[r w] l IH]; cbn; [reflexivity|].
  destruct (N.eqb_spec k r).
  - subst r. rewrite IH. destruct (N.eqb_spec q k); [contradiction|reflexivity].
  - cbn. rewrite IH. reflexivity.
Qed.

Lemma nlookup_app_none {A} (l1 l2 : list (N * A)) k : nlookup l1 k = None -> nlookup (l1 ++ l2) k = nlookup l2 k.
Proof. induction l1 as [|[q v] r IH]; cbn; [reflexivity|]. destruct (N.eqb k q); [discriminate|exact IH]. Qed.

Lemma nlookup_app_some {A} (l1 l2 : list (N * A)) k v : nlookup l1 k = Some v -> nlookup (l1 ++ l2) k = Some v.
Proof. induction l1 as [|[q w] r IH]; cbn; [discriminate|]. destruct (N.eqb k q); [auto|exact IH]. Qed.

Lemma nlookup_nset_same {A} (l : list (N * A)) k v : nlookup (nset l k v) k = Some v.
Proof.
  unfold nset. rewrite nlookup_app_none; [cbn; rewrite N.eqb_refl; reflexivity|].
  apply nlookup_none. intros H. apply nremove_fst in H as [_ H]. congruence.
Qed.

Lemma nlookup_nset_other {A} (l : list (N * A)) k v q : q <> k -> nlookup (nset l k v) q = nlookup l q.
Proof.
  intros N. unfold nset. destruct (nlookup (nremove l k) q) eqn:E.
  - rewrite (nlookup_app_some _ _ _ _ E). rewrite nlookup_nremove_other in E by exact N. congruence.
  - rewrite (nlookup_app_none _ _ _ E). cbn. destruct (N.eqb_spec q k); [contradiction|].
    rewrite nlookup_nremove_other in E by exact N. congruence.
Qed.

Lemma unsub_all_in l p ty m' :
  In (ty, m') (unsub_all l p) -> exists m, In (ty, m) l /\ m' = aremove m p /\ m' <> [] \/ In (ty, m') l /\ alookup m' p = None.
Proof.
  induction l as [|[ty0 m0] l IH]; cbn; [intros []|].
  destruct (alookup m0 p) eqn:E.
  - destruct (aremove m0 p) eqn:Er.
    + intros H. destruct (IH H) as (m & [(H1 & H2 & H3)|(H1 & H2)]); exists m; [left|right]; auto.
    + intros [H|H].
      * inversion H; subst. exists m0. left. split; [left; reflexivity|]. split; [congruence|discriminate].
      * destruct (IH H) as (m & [(H1 & H2 & H3)|(H1 & H2)]); exists m; [left|right]; auto.
  - intros [H|H].
    + inversion H; subst. exists m'. right. split; [left; reflexivity|exact E].
    + destruct (IH H) as (m & [(H1 & H2 & H3)|(H1 & H2)]); exists m; [left|right]; auto.
Qed.

Lemma unsub_all_no_entry l p ty m : In (ty, m) (unsub_all l p) -> alookup m p = None.
Proof.
  intros H. destruct (unsub_all_in _ _ _ _ H) as (m0 & [(H1 & H2 & H3)|(H1 & H2)]); [|exact H2].
  subst m. apply alookup_aremove_same.
Qed.

Lemma unsub_all_fst l p ty : In ty (map fst (unsub_all l p)) -> In ty (map fst l).
Proof.
  induction l as [|[ty0 m0] l IH]; cbn; [auto|].
  destruct (alookup m0 p); [destruct (aremove m0 p)|]; cbn; intros H; try tauto.
  all: destruct H as [H|H]; auto.
Qed.

Lemma unsub_all_types_nodup l p : NoDup (map fst l) -> NoDup (map fst (unsub_all l p)).
Proof.
  induction l as [|[ty0 m0] l IH]; cbn; [auto|]. intros H. inversion H; subst.
  assert (Hn : ~ In ty0 (map fst (unsub_all l p))) by (intros Hin; apply unsub_all_fst in Hin; contradiction).
  destruct (alookup m0 p); [destruct (aremove m0 p)|]; cbn; auto; constructor; auto.
Qed.

Lemma unsub_all_nodup l p : subs_nodup l -> subs_nodup (unsub_all l p).
Proof.
  intros [H1 H2]. split; [apply unsub_all_types_nodup, H1|].
  intros ty m Hin. destruct (unsub_all_in _ _ _ _ Hin) as (m0 & [(Ha & Hb & Hc)|(Ha & Hb)]).
  - subst m. apply aremove_nodup. eapply H2; eassumption.
  - eapply H2; eassumption.
Qed.

Lemma unsub_all_lookup l p ty : NoDup (map fst l) ->
  nlookup (unsub_all l p) ty =
    match nlookup l ty with
    | None => None
    | Some m => match alookup m p with
                | None => Some m
                | Some _ => match aremove m p with [] => None | m' => Some m' end
                end
    end.
Proof.
  induction l as [|[ty0 m0] l IH]; cbn; [reflexivity|]. intros H. inversion H; subst.
  destruct (N.eqb_spec ty ty0).
  - subst ty0. assert (Hn : nlookup (unsub_all l p) ty = None).
    { apply nlookup_none. intros Hin. apply unsub_all_fst in Hin. contradiction. }
    destruct (alookup m0 p); [destruct (aremove m0 p)|]; cbn; rewrite ?N.eqb_refl; auto.
  - destruct (alookup m0 p); [destruct (aremove m0 p)|]; cbn; auto.
    all: destruct (N.eqb_spec ty ty0); [contradiction|auto].
Qed.

Lemma unsub_all_subscribers l p ty : NoDup (map fst l) ->
  match nlookup (unsub_all l p) ty with Some m => m | None => [] end =
  aremove (match nlookup l ty with Some m => m | None => [] end) p.
Proof.
  intros H. rewrite (unsub_all_lookup _ _ _ H). destruct (nlookup l ty) as [m|]; [|reflexivity].
  destruct (alookup m p) eqn:E.
  - destruct (aremove m p); reflexivity.
  - rewrite (aremove_absent _ _ E). reflexivity.
Qed.

Lemma subscribers_nodup s ty : subs_nodup (subs s) -> NoDup (map fst (subscribers s ty)).
Proof.
  intros [_ H]. unfold subscribers. destruct (nlookup (subs s) ty) eqn:E; [|constructor].
  eapply H. apply nlookup_in. exact E.
Qed.

Lemma prim_subs_nodup t s s' : prim t s s' -> subs_nodup (subs s) -> subs_nodup (subs s').
Proof.
  intros Hp Hi. destruct Hp; cbn [subs set_err set_actor set_reg set_subs add_obs add_ghost]; auto.
  - rewrite set_pend_subs. exact Hi.
  - split; [apply nset_nodup, Hi|]. intros ty0 m Hin. apply nset_in in Hin as [[Hin _]|[-> ->]]; [eapply Hi; eassumption|].
    rewrite map_app. cbn. apply nodup_snoc; [apply subscribers_nodup, Hi|]. apply alookup_none. assumption.
  - split; [apply nset_nodup, Hi|]. intros ty0 m Hin. apply nset_in in Hin as [[Hin _]|[-> ->]]; [eapply Hi; eassumption|].
    apply aremove_nodup. eapply Hi. apply nlookup_in. eassumption.
  - apply unsub_all_nodup, Hi.
Qed.

Lemma subs_nodup_reachable s : reachable s -> subs_nodup (subs s).
Proof.
  apply (reachable_inv (fun s => subs_nodup (subs s))).
  - intros scs. rewrite init_with_subs. split; [constructor|intros ty m []].
  - intros t s1 s2 Hp. apply (prim_subs_nodup t s1 s2 Hp).
Qed.

Lemma prim_subs_wf t s s' : prim t s s' -> subs_wf s -> subs_wf s'.
Proof.
  intros Hp Hi.
  assert (Hsame : subs s' = subs s -> subs_wf s').
  { intros E ty m p a H1 H2. rewrite E in H1. destruct (Hi ty m p a H1 H2) as (x & Hx & Hpth).
    destruct (prim_keeps_actors t s s' Hp a x Hx) as (x' & Hx' & E1 & _). exists x'. split; [exact Hx'|congruence]. }
  destruct Hp; try (apply Hsame; reflexivity).
  - apply Hsame. apply set_pend_subs.
  - intros ty0 m p a0 H1 H2. cbn in H1. change (get (set_subs s _) a0) with (get s a0).
    apply nset_in in H1 as [[H1 _]|[-> ->]]; [eapply Hi; eassumption|].
    apply in_app_or in H2 as [H2|[H2|[]]].
    + unfold subscribers in H2. destruct (nlookup (subs s) ty) eqn:E; [|destruct H2].
      eapply Hi; [apply nlookup_in; exact E|exact H2].
    + inversion H2; subst. eauto.
  - intros ty0 m p0 a0 H1 H2. cbn in H1. change (get (set_subs s _) a0) with (get s a0).
    apply nset_in in H1 as [[H1 _]|[-> ->]]; [eapply Hi; eassumption|].
    apply aremove_in in H2 as [H2 _]. eapply Hi; [apply nlookup_in; eassumption|exact H2].
  - intros ty0 m p0 a0 H1 H2. cbn in H1. change (get (set_subs s _) a0) with (get s a0).
    destruct (unsub_all_in _ _ _ _ H1) as (m0 & [(Ha & Hb & Hc)|(Ha & Hb)]).
    + subst m. apply aremove_in in H2 as [H2 _]. eapply Hi; eassumption.
    + eapply Hi; eassumption.
Qed.

Lemma subs_wf_reachable s : reachable s -> subs_wf s.
Proof.
  apply (reachable_inv subs_wf).
  - intros scs ty m p a H. rewrite init_with_subs in H. destruct H.
  - apply prim_subs_wf.
Qed.

Lemma subscribers_set_subs s r ty : subscribers (set_subs s r) ty = match nlookup r ty with Some l => l | None => [] end.
Proof. reflexivity. Qed.

Lemma exec1_ASub_again s t held x ty v :
  get s (self_of t) = Some x -> alookup (subscribers s ty) (a_path x) = Some v ->
  exec1 s t held (IAct (ASub ty)) = (s, []).
Proof. intros H E. unfold exec1. rewrite H, E. reflexivity. Qed.

Lemma exec1_ASub_new s t held x ty :
  get s (self_of t) = Some x -> alookup (subscribers s ty) (a_path x) = None ->
  exists s', exec1 s t held (IAct (ASub ty)) = (s', []) /\
    subscribers s' ty = subscribers s ty ++ [(a_path x, self_of t)] /\
    (forall ty', ty' <> ty -> nlookup (subs s') ty' = nlookup (subs s) ty') /\
    actors s' = actors s /\ reg s' = reg s.
Proof.
  intros H E. unfold exec1. rewrite H, E. eexists; split; [reflexivity|]. split; [|split; [|split; reflexivity]].
  - rewrite subscribers_set_subs, nlookup_nset_same. reflexivity.
  - intros ty' N. cbn. apply nlookup_nset_other, N.
Qed.

(** Unsubscribe: removes exactly that path from exactly that type; the type's entry stays, possibly empty
    (the Go code deletes from the inner map only) *)
Lemma exec1_AUnsub s t held x ty :
  get s (self_of t) = Some x ->
  exists s', exec1 s t held (IAct (AUnsub ty)) = (s', []) /\
    nlookup (subs s') ty = match nlookup (subs s) ty with Some l => Some (aremove l (a_path x)) | None => None end /\
    subscribers s' ty = aremove (subscribers s ty) (a_path x) /\
    (forall ty', ty' <> ty -> nlookup (subs s') ty' = nlookup (subs s) ty') /\
    actors s' = actors s /\ reg s' = reg s.
Proof.
  intros H. unfold exec1. rewrite H. unfold subscribers. destruct (nlookup (subs s) ty) as [l|] eqn:E.
  - eexists; split; [reflexivity|]. cbn [subs set_subs]. rewrite nlookup_nset_same.
    repeat split. intros ty' N. apply nlookup_nset_other, N.
  - eexists; split; [reflexivity|]. rewrite E. repeat split.
Qed.

Lemma exec1_AUnsubAll s t held x :
  get s (self_of t) = Some x ->
  exec1 s t held (IAct AUnsubAll) = (set_subs s (unsub_all (subs s) (a_path x)), []).
Proof. intros H. unfold exec1. rewrite H. reflexivity. Qed.

Lemma exec1_IPub s t held x ty payload :
  get s (self_of t) = Some x ->
  exec1 s t held (IPub ty payload) =
    (s, match subscribers s ty with
        | [] => []
        | _ :: _ => [IEnqAny false (map (fun p => RObj (snd p)) (subscribers s ty)) root_ref (MEvent ty payload)]
        end).
Proof. intros H. unfold exec1. rewrite H. destruct (subscribers s ty); reflexivity. Qed.

Lemma exec1_APub s t held x ty payload :
  get s (self_of t) = Some x -> exec1 s t held (IAct (APub ty payload)) = (s, [IPub ty [payload]]).
Proof. intros H. unfold exec1. rewrite H. reflexivity. Qed.

Lemma nodup_snd_of_fst {A B} (l : list (A * B)) (f : B -> option A) :
  NoDup (map fst l) -> (forall p a, In (p, a) l -> f a = Some p) -> NoDup (map snd l).
Proof.
  induction l as [|[p a] l IH]; cbn; intros Hn Hf; [constructor|].
  inversion Hn; subst. constructor; [|apply IH; auto].
  intros Hin. apply in_map_iff in Hin as ([q b] & E & Hin). cbn in E; subst b.
  apply H1. apply in_map_iff. exists (q, a). split; [|exact Hin]. cbn.
  pose proof (Hf p a (or_introl eq_refl)) as F1. pose proof (Hf q a (or_intror Hin)) as F2. congruence.
Qed.

Lemma fanout_targets s ty :
  reachable s ->
  NoDup (sub_paths s ty) /\
  (forall p a, In (p, a) (subscribers s ty) -> exists y, get s a = Some y /\ a_path y = p) /\
  NoDup (map (fun p => RObj (snd p)) (subscribers s ty)).
Proof.
  intros Hr. pose proof (subs_nodup_reachable s Hr) as Hn. pose proof (subs_wf_reachable s Hr) as Hw.
  assert (Hwf : forall p a, In (p, a) (subscribers s ty) -> exists y, get s a = Some y /\ a_path y = p).
  { intros p a Hin. unfold subscribers in Hin. destruct (nlookup (subs s) ty) eqn:E; [|destruct Hin].
    eapply Hw; [apply nlookup_in; exact E|exact Hin]. }
  split; [apply subscribers_nodup, Hn|]. split; [exact Hwf|].
  rewrite <- (map_map snd RObj). apply FinFun.Injective_map_NoDup; [intros a b E; inversion E; reflexivity|].
  apply (nodup_snd_of_fst _ (fun a => match get s a with Some y => Some (a_path y) | None => None end)).
  - apply subscribers_nodup, Hn.
  - intros p a Hin. destruct (Hwf p a Hin) as (y & -> & ->). reflexivity.
Qed.

Lemma exec1_subs s t held i : stream_instr i = false -> subs (fst (exec1 s t held i)) = subs s.
Proof.
  intros Hi. destruct (get s (self_of t)) as [x|] eqn:Hx; [|rewrite (exec1_none _ _ _ _ Hx); reflexivity].
  destruct (spawn_dec i) as [[sp ->]|Hns].
  - destruct (exec1_spawn s t held sp x Hx) as [[code ->]|(_ & _ & _ & g & s' & -> & _ & _ & _ & _ & Hs & _)]; [reflexivity|exact Hs].
  - destruct (exec1_local s t held i x Hx Hns) as (y & _ & _ & _ & _ & _ & _ & _ & _ & [Hs|Hw]); [exact Hs|].
    destruct i as [| | | | | | | | |[]| | | | | | | | | | | |]; first [discriminate Hi|destruct Hw].
Qed.

Lemma dispatch_subs s a x e : subs (fst (dispatch s a x e)) = subs s.
Proof. destruct (dispatch_cases s a x e) as [| |r _ []]; reflexivity. Qed.

Lemma cleanup_cleans s t held x :
  get s (self_of t) = Some x ->
  subs (fst (exec1 s t held ICleanup)) = unsub_all (subs s) (a_path x) /\
  (forall ty m, In (ty, m) (subs (fst (exec1 s t held ICleanup))) -> alookup m (a_path x) = None) /\
  (forall ty, alookup (subscribers (fst (exec1 s t held ICleanup)) ty) (a_path x) = None).
Proof.
  intros H. rewrite (exec1_cleanup _ _ _ _ H). cbn [fst subs set_reg set_subs].
  split; [reflexivity|]. split.
  - intros ty m Hin. eapply unsub_all_no_entry; exact Hin.
  - intros ty. unfold subscribers. cbn [subs set_reg set_subs].
    destruct (nlookup (unsub_all (subs s) (a_path x)) ty) eqn:E; [|reflexivity].
    eapply unsub_all_no_entry. apply nlookup_in. exact E.
Qed.

Lemma subs_nodup_unfolded s : reachable s ->
  NoDup (map fst (subs s)) /\ (forall ty m, In (ty, m) (subs s) -> NoDup (map fst m)) /\ (forall ty, NoDup (sub_paths s ty)).
Proof.
  intros Hr. pose proof (subs_nodup_reachable s Hr) as [H1 H2]. split; [exact H1|]. split; [exact H2|].
  intros ty. apply subscribers_nodup. split; assumption.
Qed.

Lemma unsubscribe_exact s t held x ty :
  get s (self_of t) = Some x ->
  exists s', exec1 s t held (IAct (AUnsub ty)) = (s', []) /\
    subscribers s' ty = aremove (subscribers s ty) (a_path x) /\
    alookup (subscribers s' ty) (a_path x) = None /\
    ~ In (a_path x) (sub_paths s' ty) /\
    (forall q, q <> a_path x -> alookup (subscribers s' ty) q = alookup (subscribers s ty) q) /\
    (forall ty', ty' <> ty -> nlookup (subs s') ty' = nlookup (subs s) ty').
Proof.
  intros H. destruct (exec1_AUnsub s t held x ty H) as (s' & E & _ & Hs & Ho & _).
  exists s'. split; [exact E|]. split; [exact Hs|]. rewrite Hs.
  split; [apply alookup_aremove_same|]. split; [|split; [|exact Ho]].
  - unfold sub_paths. rewrite Hs. apply alookup_none, alookup_aremove_same.
  - intros q N. apply alookup_aremove_other, N.
Qed.

Lemma unsubscribe_leaves_type s t held x ty l :
  get s (self_of t) = Some x -> nlookup (subs s) ty = Some l ->
  nlookup (subs (fst (exec1 s t held (IAct (AUnsub ty))))) ty = Some (aremove l (a_path x)).
Proof.
  intros H E. destruct (exec1_AUnsub s t held x ty H) as (s' & E' & Hl & _). rewrite E'. cbn [fst].
  rewrite Hl, E. reflexivity.
Qed.

Lemma unsubscribe_all_exact s t held x :
  get s (self_of t) = Some x -> subs_nodup (subs s) ->
  exists s', exec1 s t held (IAct AUnsubAll) = (s', []) /\
    subs s' = unsub_all (subs s) (a_path x) /\
    (forall ty, subscribers s' ty = aremove (subscribers s ty) (a_path x)) /\
    (forall ty m, In (ty, m) (subs s') -> alookup m (a_path x) = None) /\
    (forall ty m v, nlookup (subs s) ty = Some m -> alookup m (a_path x) = Some v -> aremove m (a_path x) = [] -> nlookup (subs s') ty = None) /\
    (forall ty m, nlookup (subs s) ty = Some m -> alookup m (a_path x) = None -> nlookup (subs s') ty = Some m) /\
    subs_nodup (subs s').
Proof.
  intros H [Hn1 Hn2]. rewrite (exec1_AUnsubAll _ _ _ _ H). eexists; split; [reflexivity|].
  cbn [subs set_subs]. split; [reflexivity|]. split; [|split; [|split; [|split]]].
  - intros ty. unfold subscribers. cbn [subs set_subs]. apply unsub_all_subscribers, Hn1.
  - intros ty m Hin. eapply unsub_all_no_entry; exact Hin.
  - intros ty m v E1 E2 E3. rewrite (unsub_all_lookup _ _ _ Hn1), E1, E2, E3. reflexivity.
  - intros ty m E1 E2. rewrite (unsub_all_lookup _ _ _ Hn1), E1, E2. reflexivity.
  - apply unsub_all_nodup. split; assumption.
Qed.

Lemma fanout s t held x ty payload :
  reachable s -> get s (self_of t) = Some x ->
  exec1 s t held (IPub ty payload) =
    (s, match subscribers s ty with
        | [] => []
        | _ :: _ => [IEnqAny false (map (fun p => RObj (snd p)) (subscribers s ty)) root_ref (MEvent ty payload)]
        end) /\
  NoDup (sub_paths s ty) /\
  (forall p a, In (p, a) (subscribers s ty) -> exists y, get s a = Some y /\ a_path y = p) /\
  NoDup (map (fun p => RObj (snd p)) (subscribers s ty)).
Proof. intros Hr H. split; [apply (exec1_IPub _ _ _ _ _ _ H)|apply fanout_targets, Hr]. Qed.

Lemma restart_keeps s t held a x e poison :
  e_msg e = MRestart poison ->
  subs (fst (dispatch s a x e)) = subs s /\
  subs (fst (exec1 s t held (IDoKill poison))) = subs s /\
  subs (fst (exec1 s t held ICheckMark)) = subs s /\
  subs (fst (exec1 s t held IRestartFinish)) = subs s /\
  reg (fst (exec1 s t held IRestartFinish)) = reg s.
Proof.
  intros _. split; [apply dispatch_subs|]. repeat split; try (apply exec1_subs; reflexivity).
  destruct (get s (self_of t)) as [y|] eqn:Hg; [|rewrite (exec1_none _ _ _ _ Hg); reflexivity].
  destruct (exec1_local s t held IRestartFinish y Hg) as (_ & _ & _ & _ & _ & Hr & _); [discriminate|exact Hr].
Qed.
