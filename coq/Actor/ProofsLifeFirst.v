(** C05-e (partial): once OnLaunch is at the head of the system queue of an actor that has handled nothing yet and
    whose consumer is idle, OnLaunch is the first message its behaviour sees - whatever happens afterwards. *)
From Coq Require Import List NArith Arith.
From Vivid Require Import Actor.Core Actor.ProofsMailBase Actor.ProofsMailInv Actor.ProofsMailWf Actor.SpecLife Actor.ProofsLife Actor.ProofsLifeSum Actor.ProofsLifePhase Actor.ProofsLifeTree Actor.ProofsLifeLog.
Import ListNotations.
Local Open Scope N_scope.

Definition fresh (x : actor) : Prop :=
  a_state x = Running /\ a_zombie x = false /\ a_parent x <> None /\ a_pend x = [].

Definition launch_first (c : aid) (s : state) : Prop :=
  exists x e r, get s c = Some x /\ fresh x /\ a_cons x = C0 /\ a_sq x = e :: r /\ e_msg e = MLaunch /\ seen_of c (olog s) = [].

Definition lview (x : actor) := (a_state x, a_zombie x, a_parent x, a_pend x, a_cons x).

Definition LQ (c : aid) (s : state) : Prop :=
  exists x, get s c = Some x /\
    ((seen_of c (olog s) = [] /\ a_state x = Running /\ a_zombie x = false /\ a_parent x <> None /\
      ((a_pend x = [] /\ a_cons x = C0 /\ exists e r, a_sq x = e :: r /\ e_msg e = MLaunch) \/
       (a_pend x = [] /\ exists e, a_cons x = CH e /\ e_msg e = MLaunch) \/
       (exists ac r rest, a_pend x = IBeh MLaunch ac r :: rest))) \/
     (exists r, seen_of c (olog s) = MLaunch :: r)).

Lemma LQ_keep c s s' :
  (forall x, get s c = Some x -> exists y, get s' c = Some y /\ lview y = lview x /\
             (forall e r, a_sq x = e :: r -> exists r', a_sq y = e :: r')) ->
  seen_of c (olog s') = seen_of c (olog s) ->
  LQ c s -> LQ c s'.
Proof.
  intros Hrec Hseen (x & Hg & H). destruct (Hrec x Hg) as (y & Hy & Hv & Hsq).
  unfold lview in Hv. inversion Hv as [[V1 V2 V3 V4 V5]].
  exists y. split; [exact Hy|]. rewrite Hseen, V1, V2, V3, V4, V5.
  destruct H as [(H0 & H1 & H2 & H3 & H4)|H]; [left|right; exact H].
  repeat split; try assumption.
  destruct H4 as [(P1 & P2 & e & r & P3 & P4)|[H4|H4]]; [left|right; left; exact H4|right; right; exact H4].
  repeat split; try assumption. destruct (Hsq e r P3) as (r' & Hr'). exists e, r'. split; assumption.
Qed.

Lemma LQ_same_rec c s s' :
  get s' c = get s c -> seen_of c (olog s') = seen_of c (olog s) -> LQ c s -> LQ c s'.
Proof.
  intros Hg. apply LQ_keep. intros x Hx. exists x. split; [rewrite Hg; exact Hx|]. split; [reflexivity|].
  intros e r Hr. exists r. exact Hr.
Qed.

Lemma olog_nil_app s : exists l, olog s = olog s ++ l /\ forall c, seen_of c l = [].
Proof. exists []. split; [rewrite app_nil_r; reflexivity|reflexivity]. Qed.

Lemma LQ_astep_other c s t i rest :
  c <> 0%nat -> SInv s -> LQ c s -> t <> TA c -> pend_of s t = i :: rest -> yielding i = false ->
  err (astep s t i rest) = false -> LQ c (astep s t i rest).
Proof.
  intros Hc0 HI HL Ht Hp Hy He1.
  assert (Hself : self_of t <> c) by (destruct t as [a|k]; cbn; congruence).
  unfold astep in *. set (s0 := set_pend s t rest) in *.
  destruct (exec1 s0 t (held_of s0 t) i) as [s1 front] eqn:He.
  destruct HL as (xc & Hxc & HL). apply (LQ_same_rec c s); [| |exists xc; auto].
  - rewrite get_set_pend_other, Hxc by exact Ht.
    apply (exec1_keeps _ _ _ _ _ _ c xc He); [congruence|]. unfold s0. rewrite get_set_pend_other by exact Ht. exact Hxc.
  - (* what is logged is not an invocation of c's behaviour *)
    rewrite set_pend_olog, !seen_of_full. f_equal. destruct (get s0 (self_of t)) as [x0|] eqn:Hg0.
    + rewrite (exec1_seen _ _ _ _ _ _ _ c He Hg0 (SInv_no_seen s t i rest HI Hp)). unfold s0. rewrite set_pend_olog.
      replace (seen_by c (self_of t) x0 i) with (@nil (N * N * msg)); [apply app_nil_r|].
      unfold seen_by. destruct i; try reflexivity. destruct (a_parent x0); [|reflexivity].
      apply Nat.eqb_neq in Hself. rewrite Hself. reflexivity.
    + rewrite (exec1_none _ _ _ _ Hg0) in He. injection He as <- _. unfold s0. cbn [olog set_err]. rewrite set_pend_olog. reflexivity.
Qed.

Lemma LQ_astep_self c s i rest :
  SInv s -> LQ c s -> pend_of s (TA c) = i :: rest -> yielding i = false -> LQ c (astep s (TA c) i rest).
Proof.
  intros [HA HX] (x & Hg & H) Hp Hy.
  destruct (pend_of_TA_cons _ _ _ _ Hp) as (x' & Hg' & Hpx). rewrite Hg in Hg'. inversion Hg'; subst x'.
  destruct (astep_TA s c i rest x Hg) as (s1 & front & x1 & He & Hg1 & _ & ->).
  assert (Hg0 : get (set_actor s c (upd_pend x rest)) (self_of (TA c)) = Some (upd_pend x rest)) by apply (get_set_same' _ _ _ _ Hg).
  exists (upd_pend x1 (front ++ rest)). split; [apply (get_set_same' _ _ _ _ Hg1)|].
  change (olog (set_actor s1 c (upd_pend x1 (front ++ rest)))) with (olog s1).
  destruct H as [(H0 & H1 & H2 & H3 & H4)|(r & Hr)].
  - destruct H4 as [(P1 & _)|[(P1 & _)|(ac & r & rest' & P)]]; try (rewrite Hpx in P1; discriminate P1).
    rewrite Hpx in P. inversion P; subst i rest'.
    destruct (a_parent x) as [pa|] eqn:Hpa; [|congruence].
    pose proof (exec1_IBeh_logs _ _ [] _ MLaunch ac r pa Hg0 H2 Hpa) as Hl. rewrite He in Hl. cbn [fst] in Hl.
    right. rewrite Hl. cbn [olog add_obs]. change (olog (set_actor s c (upd_pend x rest))) with (olog s).
    rewrite seen_of_app, H0. cbn [seen_of app self_of]. rewrite Nat.eqb_refl. eexists. reflexivity.
  - right. destruct (exec1_state (set_actor s c (upd_pend x rest)) (TA c) [] i) as ([Hol|(o & Hol)] & _); rewrite He in Hol; cbn [fst] in Hol;
    rewrite Hol; change (olog (set_actor s c (upd_pend x rest))) with (olog s); rewrite ?seen_of_app, Hr; eexists; reflexivity.
Qed.

Lemma LQ_D_any c s s' :
  (exists r, seen_of c (olog s) = MLaunch :: r) -> (exists l, olog s' = olog s ++ l) -> (exists y, get s' c = Some y) -> LQ c s'.
Proof.
  intros (r & Hr) (l & Hl) (y & Hy). exists y. split; [exact Hy|]. right. rewrite Hl, seen_of_app, Hr. eexists. reflexivity.
Qed.

Lemma LQ_cases c s :
  LQ c s -> (exists r, seen_of c (olog s) = MLaunch :: r) \/
            (forall i rest, pend_of s (TA c) = i :: rest -> exists ac r, i = IBeh MLaunch ac r).
Proof.
  intros (x & Hg & [(H0 & H1 & H2 & H3 & H4)|H]); [right|left; exact H].
  intros i rest Hp. cbn [pend_of] in Hp. rewrite Hg in Hp.
  destruct H4 as [(P & _)|[(P & _)|(ac & r & rest' & P)]]; rewrite P in Hp; try discriminate Hp.
  inversion Hp. eauto.
Qed.

Lemma get_set_pend_exists s t p c y : get s c = Some y -> exists y', get (set_pend s t p) c = Some y'.
Proof.
  intros Hy. destruct t as [a|k].
  - destruct (Nat.eq_dec a c) as [->|Hac].
    + eexists. apply (get_set_pend_TA_same _ _ _ _ Hy).
    + exists y. rewrite get_set_pend_TA_other by exact Hac. exact Hy.
  - exists y. rewrite get_set_pend_TX. exact Hy.
Qed.

Lemma LQ_thread_op c s s1 t i rest p :
  LQ c s -> pend_of s t = i :: rest -> yielding i = true ->
  olog s1 = olog s ->
  (forall x, get s c = Some x -> exists y, get s1 c = Some y /\ lview y = lview x /\
             (forall e r, a_sq x = e :: r -> exists r', a_sq y = e :: r')) ->
  LQ c (set_pend s1 t p).
Proof.
  intros HL Hp Hy Hol Hrec.
  destruct (LQ_cases c s HL) as [HD|Hny].
  - destruct HL as (x & Hg & _). destruct (Hrec x Hg) as (y & Hy1 & _).
    apply (LQ_D_any c s); [exact HD| |apply (get_set_pend_exists _ _ _ _ _ Hy1)].
    exists []. rewrite set_pend_olog, Hol, app_nil_r. reflexivity.
  - assert (Ht : t <> TA c) by (intros ->; destruct (Hny i rest Hp) as (ac & r & ->); discriminate Hy).
    apply (LQ_keep c s); [| |exact HL].
    + intros x Hx. destruct (Hrec x Hx) as (y & Hy1 & Hv & Hsq). exists y. split; [|split; assumption].
      destruct t as [a|k]; [|rewrite get_set_pend_TX; exact Hy1].
      rewrite get_set_pend_TA_other by congruence. exact Hy1.
    + rewrite set_pend_olog, Hol. reflexivity.
Qed.

Lemma lview_mb s s' c x :
  mb_equiv s s' -> get s c = Some x -> exists y, get s' c = Some y /\ lview y = lview x.
Proof.
  intros (Hm & _) Hx. specialize (Hm c). rewrite Hx in Hm. destruct (get s' c) as [y|]; [|contradiction].
  exists y. split; [reflexivity|]. unfold lview. destruct Hm as (_ & _ & -> & _ & -> & -> & _ & _ & _ & _ & _ & _ & _ & _ & -> & _ & ->). reflexivity.
Qed.

Lemma push_mb_view s b e c x :
  get s c = Some x -> exists y, get (push_mb s b e) c = Some y /\ lview y = lview x /\
                               (forall e0 r, a_sq x = e0 :: r -> exists r', a_sq y = e0 :: r').
Proof.
  intros Hx. unfold push_mb, with_actor. destruct (get s b) as [xb|] eqn:Hb.
  - destruct (Nat.eq_dec b c) as [->|Hbc].
    + rewrite Hx in Hb. inversion Hb; subst xb. eexists. split; [apply (get_set_same' _ _ _ _ Hx)|]. split; [reflexivity|].
      intros e0 r Hr. cbn [a_sq]. rewrite Hr. destruct (e_sys e); eexists; reflexivity.
    + exists x. split; [rewrite get_set_other by exact Hbc; exact Hx|]. split; [reflexivity|]. intros e0 r Hr. eauto.
  - exists x. split; [exact Hx|]. split; [reflexivity|]. intros e0 r Hr. eauto.
Qed.

Lemma deliver_view s mb e c x :
  get s c = Some x -> exists y, get (fst (deliver s mb e)) c = Some y /\ lview y = lview x /\
                               (forall e0 r, a_sq x = e0 :: r -> exists r', a_sq y = e0 :: r').
Proof. intros Hx. destruct mb; cbn [deliver fst]; apply push_mb_view; exact Hx. Qed.

Lemma resolve_view s r c x :
  get s c = Some x -> exists y, get (snd (resolve s r)) c = Some y /\ lview y = lview x /\ a_sq y = a_sq x.
Proof.
  intros Hx. destruct r as [a|p|]; cbn [resolve].
  - destruct (get s a) as [xa|] eqn:Ha; [|exists x; auto].
    destruct (a_cache xa); [exists x; auto|].
    destruct (alookup (reg s) (a_path xa)); [|destruct (path_eqb (a_path xa) []); exists x; auto].
    cbn [snd]. destruct (Nat.eq_dec a c) as [->|Hac].
    + rewrite Hx in Ha. inversion Ha; subst xa. eexists. split; [apply (get_set_same' _ _ _ _ Hx)|]. split; reflexivity.
    + exists x. split; [rewrite get_set_other by exact Hac; exact Hx|]. auto.
  - destruct (alookup (reg s) p); [exists x; auto|]. destruct (path_eqb p []); exists x; auto.
  - exists x. auto.
Qed.

Lemma olog_deliver s mb e : olog (fst (deliver s mb e)) = olog s.
Proof. destruct mb; cbn [deliver fst]; apply push_mb_fields. Qed.

Lemma LQ_push c s t choice : SInv s -> LQ c s -> err (step s (EvPush t choice)) = false -> LQ c (step s (EvPush t choice)).
Proof.
  intros _ HL Herr. destruct (step_push s t choice Herr) as (i & rest & s1 & mb & e & front & Hp & Hpu & ->).
  apply (LQ_thread_op c s _ t i rest _ HL Hp).
  - destruct Hpu; try reflexivity. destruct rem; [destruct choice; discriminate|reflexivity].
  - rewrite olog_deliver. destruct Hpu; first [reflexivity|apply resolve_olog].
  - intros x Hx.
    assert (H1 : exists y1, get s1 c = Some y1 /\ lview y1 = lview x /\ a_sq y1 = a_sq x)
      by (destruct Hpu; first [exists x; auto; fail|apply resolve_view; exact Hx]).
    destruct H1 as (y1 & Hy1 & Hl1 & Hs1). destruct (deliver_view s1 mb e c y1 Hy1) as (y2 & Hy2 & Hl2 & Hs2).
    exists y2. split; [exact Hy2|]. split; [congruence|]. intros e0 r Hr. apply (Hs2 e0 r). rewrite Hs1. exact Hr.
Qed.

Lemma LQ_resolve c s t sys to sender m rest :
  SInv s -> LQ c s -> pend_of s t = IEnq sys to sender m :: rest ->
  LQ c (set_pend (snd (resolve s to)) t (IEnqR sys (fst (resolve s to)) sender m :: rest)).
Proof.
  intros _ HL Hp.
  destruct (LQ_cases c s HL) as [HD|Hny].
  - destruct HL as (x & Hg & _). destruct (resolve_view s to c x Hg) as (y & Hy & _).
    apply (LQ_D_any c s); [exact HD| |apply (get_set_pend_exists _ _ _ _ _ Hy)].
    exists []. rewrite set_pend_olog, resolve_olog, app_nil_r. reflexivity.
  - assert (Ht : t <> TA c) by (intros ->; destruct (Hny _ _ Hp) as (ac & r & E); discriminate E).
    apply (LQ_keep c s); [| |exact HL].
    + intros x Hx. destruct (resolve_view s to c x Hx) as (y & Hy & Hv & Hsq). exists y. split; [|split; [exact Hv|]].
      * destruct t as [a|k]; [|rewrite get_set_pend_TX; exact Hy]. rewrite get_set_pend_TA_other by congruence. exact Hy.
      * intros e r Hr. exists r. congruence.
    + rewrite set_pend_olog, resolve_olog. reflexivity.
Qed.

Lemma LQ_pophead c s t i rest :
  SInv s -> LQ c s -> pend_of s t = i :: rest -> (i = IEnqDone \/ i = IResume1 \/ i = IResume2) -> LQ c (set_pend s t rest).
Proof.
  intros _ HL Hp Hi. apply (LQ_thread_op c s s t i rest rest HL Hp); [destruct Hi as [->|[->| ->]]; reflexivity|reflexivity|].
  intros x Hx. exists x. split; [exact Hx|]. split; [reflexivity|]. eauto.
Qed.

Lemma LQ_pause c s t rest :
  c <> 0%nat -> SInv s -> LQ c s -> pend_of s t = IPauseSt :: rest ->
  LQ c (set_pend (with_actor s (self_of t) (fun x => set_mb x (a_sq x) (a_uq x) true (a_cons x) (a_cur x))) t rest).
Proof.
  intros Hc0 _ HL Hp. apply (LQ_thread_op c s _ t IPauseSt rest rest HL Hp eq_refl).
  - unfold with_actor. destruct (get s (self_of t)); reflexivity.
  - intros x Hx. unfold with_actor. destruct (get s (self_of t)) as [xs|] eqn:Hs; [|exists x; split; [exact Hx|split; [reflexivity|eauto]]].
    destruct (Nat.eq_dec (self_of t) c) as [E|E].
    + rewrite E in *. rewrite Hx in Hs. inversion Hs; subst xs. eexists. split; [apply (get_set_same' _ _ _ _ Hx)|]. split; [reflexivity|]. cbn [set_mb a_sq]. eauto.
    + exists x. split; [rewrite get_set_other by exact E; exact Hx|]. split; [reflexivity|eauto].
Qed.

Lemma LQ_resume1p c s t rest x :
  SInv s -> LQ c s -> pend_of s t = IResume1 :: rest -> get s (self_of t) = Some x ->
  LQ c (set_pend (set_actor s (self_of t) (set_mb x (a_sq x) (a_uq x) false (a_cons x) (a_cur x))) t (IResume2 :: rest)).
Proof.
  intros _ HL Hp Hg. apply (LQ_thread_op c s _ t IResume1 rest _ HL Hp eq_refl); [reflexivity|].
  intros xc Hxc. destruct (Nat.eq_dec (self_of t) c) as [E|E].
  - rewrite E in *. rewrite Hxc in Hg. inversion Hg; subst xc. eexists. split; [apply (get_set_same' _ _ _ _ Hxc)|]. split; [reflexivity|]. cbn [set_mb a_sq]. eauto.
  - exists xc. split; [rewrite get_set_other by exact E; exact Hxc|]. split; [reflexivity|eauto].
Qed.

Lemma LQ_consumer c s ev :
  (match ev with EvSysPop _ | EvLoadPaused _ | EvUserPop _ => True | _ => False end) ->
  SInv s -> LQ c s -> err (step s ev) = false -> LQ c (step s ev).
Proof.
  intros Hev HI HL Herr. destruct (consumer_move s ev Herr Hev) as (a & x & sq & uq & co & Hg & Hm & Hb & ->).
  destruct (Nat.eq_dec a c) as [->|Hac]; [|apply (LQ_same_rec c s); [apply get_set_other; exact Hac|reflexivity|exact HL]].
  destruct HL as (x' & Hg' & H). rewrite Hg in Hg'. injection Hg' as <-.
  eexists. split; [apply (get_set_same' _ _ _ _ Hg)|].
  destruct H as [(H0 & H1 & H2 & H3 & H4)|Hd]; [left|right; exact Hd].
  cbn [set_mb a_state a_zombie a_parent a_pend a_cons]. do 4 (split; [assumption|]). right. left.
  destruct H4 as [(P1 & P2 & e & r & P3 & P4)|[(_ & e & P2 & _)|(ac & r & rest & P)]].
  - (* idle with OnLaunch at the head of the system queue: only popSys applies, and takes it *)
    split; [exact P1|]. destruct Hm as [e' r' _ Hq|_ Hq|Hc|e' r' Hc _|Hc _]; try congruence.
    exists e'. split; [reflexivity|]. rewrite P3 in Hq. injection Hq as <- _. exact P4.
  - destruct Hm as [e' r' [Hc|Hc] _|[Hc|Hc] _|Hc|e' r' Hc _|Hc _]; congruence.
  - rewrite (INV_not_busy _ _ (proj1 HI c x Hg) Hb) in P. discriminate P.
Qed.

Lemma tid_dec (t1 t2 : tid) : {t1 = t2} + {t1 <> t2}.
Proof. decide equality; apply Nat.eq_dec. Qed.

Lemma LQ_handle c s a x e s1 ins :
  SInv s -> LQ c s -> get s a = Some x -> a_cons x = CH e -> a_pend x = [] ->
  let x0 := set_mb x (a_sq x) (a_uq x) (a_paused x) (CBusy (mode_top x)) (a_cur x) in
  dispatch (set_actor s a x0) a x0 e = (s1, ins) ->
  LQ c (set_pend s1 (TA a) ins).
Proof.
  intros _ HL Hg Hc Hpx x0 Hd.
  assert (Hg0 : get (set_actor s a x0) a = Some x0) by apply (get_set_same' _ _ _ _ Hg).
  destruct (handle_pre s a x e s1 ins Hg Hd) as (y & Hg1 & _ & Hga & Hoth & _ & _ & Holog & _).
  destruct (Nat.eq_dec a c) as [->|Hac].
  - destruct HL as (x' & Hg' & H). rewrite Hg in Hg'. inversion Hg'; subst x'.
    exists (upd_pend y ins). split; [exact Hga|]. rewrite Holog.
    destruct H as [(H0 & H1 & H2 & H3 & H4)|Hdd]; [|right; exact Hdd]. left.
    destruct H4 as [(_ & P2 & _)|[(_ & e' & P2 & P3)|(ac & r & rest & P)]]; [congruence| |rewrite Hpx in P; discriminate P].
    rewrite Hc in P2. inversion P2; subst e'.
    unfold dispatch in Hd. cbn [x0 set_mb a_state a_zombie] in Hd. rewrite H1, H2, P3 in Hd. cbn in Hd.
    inversion Hd; subst s1 ins. rewrite (get_set_same' _ _ _ _ Hg0) in Hg1. inversion Hg1; subst y.
    cbn [upd_pend set_mb a_state a_zombie a_parent a_pend]. repeat split; try assumption. right. right. eexists _, _, _. reflexivity.
  - apply (LQ_same_rec c s); [apply (Hoth c Hac)|rewrite Holog; reflexivity|exact HL].
Qed.

Theorem launch_first_stable c s evs :
  c <> 0%nat -> reachable s -> launch_first c s -> err (run_events evs s) = false ->
  forall m rest, seen_of c (olog (run_events evs s)) = m :: rest -> m = MLaunch.
Proof.
  intros Hc0 Hr (x & e & r & Hg & (F1 & F2 & F3 & F4) & Hc & Hsq & He & Hseen) Herr.
  assert (HL0 : LQ c s).
  { exists x. split; [exact Hg|]. left. repeat split; try assumption. left. split; [exact F4|]. split; [exact Hc|]. exists e, r. auto. }
  assert (Hstep : forall s0 ev, SQ (LQ c) s0 -> err (step s0 ev) = false -> SQ (LQ c) (step s0 ev)).
  { apply (SQ_step (LQ c)).
    - intros s0 t i rest0 HI HQ Hp Hy He1. destruct (tid_dec t (TA c)) as [->|Ht].
      + apply LQ_astep_self; assumption.
      + apply LQ_astep_other; assumption.
    - intros; apply LQ_resolve; assumption.
    - intros; apply LQ_push; assumption.
    - intros s0 t i rest0 HI HQ Hp Hi. apply (LQ_pophead c s0 t i rest0 HI HQ Hp Hi).
    - intros; apply LQ_pause; assumption.
    - intros; apply LQ_resume1p; assumption.
    - intros; apply LQ_consumer; assumption.
    - intros s0 a x1 e1 s1 ins HI HQ Hg1 Hc1 Hp1 x0 Hd. apply (LQ_handle c s0 a x1 e1 s1 ins HI HQ Hg1 Hc1 Hp1 Hd). }
  assert (Hall : forall evs0 s0, SQ (LQ c) s0 -> err (run_events evs0 s0) = false -> SQ (LQ c) (run_events evs0 s0)).
  { induction evs0 as [|ev evs0 IH]; intros s0 HS He0; [exact HS|].
    change (run_events (ev :: evs0) s0) with (run_events evs0 (step s0 ev)) in *.
    apply IH; [|exact He0]. apply Hstep; [exact HS|]. apply (err_false_run_events _ _ He0). }
  destruct (Hall evs s (conj (SInv_reachable s Hr) HL0) Herr) as (_ & (y & _ & [(H0 & _)|(r0 & Hr0)])).
  - intros m rest Hm. rewrite H0 in Hm. discriminate Hm.
  - intros m rest Hm. rewrite Hr0 in Hm. inversion Hm. reflexivity.
Qed.

Lemma spawn_launch_resolves s c p g pa sp :
  get s c = Some (new_actor p g pa sp) -> alookup (reg s) p = Some c ->
  fst (resolve s (RObj c)) = MbActor c.
Proof. intros Hg Hr. cbn [resolve]. rewrite Hg. cbn [a_cache new_actor a_path]. rewrite Hr. reflexivity. Qed.

Lemma launch_push_establishes s t c x sender rest :
  get s c = Some x -> fresh x -> a_cons x = C0 -> a_sq x = [] -> seen_of c (olog s) = [] ->
  pend_of s t = IEnqR true (MbActor c) sender MLaunch :: rest -> t <> TA c ->
  launch_first c (step s (EvPush t 0)).
Proof.
  intros Hg (F1 & F2 & F3 & F4) Hc Hsq Hseen Hp Ht. cbn [step]. rewrite Hp. cbn [deliver].
  unfold push_mb, with_actor. rewrite Hg. cbn [e_sys].
  match goal with |- launch_first c (set_pend (set_actor s c ?y) t rest) => set (y0 := y) end.
  assert (Hy : get (set_pend (set_actor s c y0) t rest) c = Some y0).
  { destruct t as [a|k]; [|rewrite get_set_pend_TX; apply (get_set_same' _ _ _ _ Hg)].
    rewrite get_set_pend_TA_other by congruence. apply (get_set_same' _ _ _ _ Hg). }
  exists y0, {| e_sys := true; e_sender := sender; e_msg := MLaunch |}, []. split; [exact Hy|].
  split; [repeat split; assumption|]. split; [exact Hc|]. split; [unfold y0; cbn [a_sq]; rewrite Hsq; reflexivity|].
  split; [reflexivity|]. rewrite set_pend_olog. exact Hseen.
Qed.
