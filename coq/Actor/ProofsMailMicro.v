(** Micro-steps: every event of ActorCore is a finite sequence of micro-steps - the non-atomic part of the
    event, followed by iterations of the atomic loop (resolve one tell, or execute one atomic instruction).
    An invariant preserved by every micro-step holds in every reachable state. *)
From Coq Require Import List Bool.
From Vivid Require Import Actor.Core Actor.CoreRun Actor.SpecMail Actor.ProofsMailBase Actor.ProofsMail Actor.ProofsMailInv.
Import ListNotations.

(** one iteration of the atomic loop on a non-yielding, non-tell instruction *)
Definition astep (s : state) (t : tid) (i : instr) (rest : list instr) : state :=
  let s0 := set_pend s t rest in
  let (s1, front) := exec1 s0 t (held_of s0 t) i in
  set_pend s1 t (front ++ pend_of s1 t).

Inductive micro :=
| MSysPop (a : aid) | MLoadPaused (a : aid) | MUserPop (a : aid)
| MHandle (a : aid)
| MPush (t : tid) (c : nat)
| MEnqDone (t : tid) | MPauseSt (t : tid) | MResume1 (t : tid) | MResume2 (t : tid)
| MAtomic (t : tid).

Definition mstep (s : state) (m : micro) : state :=
  match m with
  | MSysPop a => step s (EvSysPop a)
  | MLoadPaused a => step s (EvLoadPaused a)
  | MUserPop a => step s (EvUserPop a)
  | MPush t c => step s (EvPush t c)
  | MHandle a =>
      match get s a with
      | Some x => match a_cons x with
                  | CH e => let (s1, ins) := dispatch (set_actor s a (busy x)) a (busy x) e in set_pend s1 (TA a) ins
                  | _ => set_err s
                  end
      | None => set_err s
      end
  | MEnqDone t => match pend_of s t with IEnqDone :: rest => set_pend s t rest | _ => set_err s end
  | MPauseSt t =>
      match pend_of s t with
      | IPauseSt :: rest =>
          set_pend (with_actor s (self_of t) (fun x => set_mb x (a_sq x) (a_uq x) true (a_cons x) (a_cur x))) t rest
      | _ => set_err s
      end
  | MResume1 t =>
      match pend_of s t, get s (self_of t) with
      | IResume1 :: rest, Some x =>
          if a_paused x then
            set_pend (set_actor s (self_of t) (set_mb x (a_sq x) (a_uq x) false (a_cons x) (a_cur x))) t (IResume2 :: rest)
          else set_pend s t rest
      | _, _ => set_err s
      end
  | MResume2 t => match pend_of s t with IResume2 :: rest => set_pend s t rest | _ => set_err s end
  | MAtomic t =>
      match pend_of s t with
      | [] => s
      | IEnq sys to sender m :: rest =>
          set_pend (snd (resolve s to)) t (IEnqR sys (fst (resolve s to)) sender m :: rest)
      | i :: rest => if yielding i then s else astep s t i rest
      end
  end.

Definition mrun (ms : list micro) (s : state) : state := fold_left mstep ms s.

Lemma mrun_app ms1 ms2 s : mrun (ms1 ++ ms2) s = mrun ms2 (mrun ms1 s).
Proof. apply fold_left_app. Qed.

Lemma mstep_atomic_exec s t i rest :
  pend_of s t = i :: rest -> yielding i = false -> is_enq i = false -> mstep s (MAtomic t) = astep s t i rest.
Proof.
  intros Hp Hy Hq. cbn [mstep]. rewrite Hp. destruct i; try discriminate Hq; try discriminate Hy; try reflexivity.
  destruct remaining; [reflexivity|discriminate Hy].
Qed.

Lemma run_atomic_micro t : forall f s, err (run_atomic f s t) = false -> exists n, run_atomic f s t = mrun (repeat (MAtomic t) n) s.
Proof.
  induction f as [|f IH]; intros s He; [discriminate He|].
  destruct (pend_of s t) as [|i rest] eqn:Hp; [exists 0; rewrite (run_atomic_nil _ _ _ Hp); reflexivity|].
  destruct (is_enq i) eqn:Hq.
  - destruct i; try discriminate Hq. exists 1. rewrite (run_atomic_enq _ _ _ _ _ _ _ _ Hp).
    cbn [repeat mrun fold_left mstep]. rewrite Hp. reflexivity.
  - destruct (yielding i) eqn:Hy.
    + exists 0. rewrite (run_atomic_yield _ _ _ _ _ Hp Hy). reflexivity.
    + rewrite (run_atomic_exec _ _ _ _ _ Hp Hy Hq) in *. cbv zeta in *.
      assert (E : (let (s1, front) := exec1 (set_pend s t rest) t (held_of (set_pend s t rest) t) i in
                   run_atomic f (set_pend s1 t (front ++ pend_of s1 t)) t) = run_atomic f (astep s t i rest) t).
      { unfold astep. destruct (exec1 _ _ _ _). reflexivity. }
      rewrite E in *. destruct (IH _ He) as [n Hn]. exists (S n). rewrite Hn.
      cbn [repeat mrun fold_left]. rewrite (mstep_atomic_exec _ _ _ _ Hp Hy Hq). reflexivity.
Qed.

Lemma err_mono_astep s t i rest : err s = true -> err (astep s t i rest) = true.
Proof.
  intros He. unfold astep.
  pose proof (set_pend_err_mono s t rest He) as H0.
  pose proof (exec1_state (set_pend s t rest) t (held_of (set_pend s t rest) t) i) as (_ & _ & H1). cbv zeta in H1. specialize (H1 H0).
  destruct (exec1 (set_pend s t rest) t (held_of (set_pend s t rest) t) i) as [s1 front]. cbn [fst] in H1.
  apply set_pend_err_mono. exact H1.
Qed.

Lemma err_mono_mstep s m : err s = true -> err (mstep s m) = true.
Proof.
  intros He. destruct m; cbn [mstep]; try (apply err_mono_step; exact He).
  - destruct (get s a) as [x|] eqn:Hg; [|reflexivity]. destruct (a_cons x); try reflexivity.
    pose proof (dispatch_err (set_actor s a (busy x)) a (busy x) e (get_set_same' s a _ x Hg)) as Hd.
    destruct (dispatch (set_actor s a (busy x)) a (busy x) e) as [s1 ins]. cbn [fst] in Hd.
    apply set_pend_err_mono. rewrite Hd. exact He.
  - destruct (pend_of s t) as [|i rest]; [reflexivity|]. destruct i; try reflexivity. apply set_pend_err_mono. exact He.
  - destruct (pend_of s t) as [|i rest]; [reflexivity|]. destruct i; try reflexivity. apply set_pend_err_mono. apply with_actor_fields. exact He.
  - destruct (pend_of s t) as [|i rest]; [reflexivity|]. destruct i; try reflexivity.
    destruct (get s (self_of t)) as [x|]; [|reflexivity]. destruct (a_paused x); apply set_pend_err_mono; exact He.
  - destruct (pend_of s t) as [|i rest]; [reflexivity|]. destruct i; try reflexivity. apply set_pend_err_mono. exact He.
  - destruct (pend_of s t) as [|i rest]; [exact He|].
    destruct i; try exact He; try (apply err_mono_astep; exact He).
    + apply set_pend_err_mono, resolve_err_mono. exact He.
    + destruct remaining; [apply err_mono_astep; exact He|exact He].
Qed.

(** Events as runs of micro-steps, for any reading [ms] of the atomic micro-step that unrolls the atomic loop
    ([mstep] itself, or [mstep2] of Actor/ProofsMailMicro2.v) *)
Section MicroRuns.
  Variable ms : state -> micro -> state.
  Hypothesis ms_other : forall s m, (forall t, m <> MAtomic t) -> ms s m = mstep s m.
  Hypothesis ms_loop : forall t f s, err (run_atomic f s t) = false -> exists n, run_atomic f s t = fold_left ms (repeat (MAtomic t) n) s.
  Hypothesis ms_err : forall s m, err s = true -> err (ms s m) = true.

  Lemma step_runs s ev : err (step s ev) = false -> exists l, step s ev = fold_left ms l s.
  Proof.
    (* the prefix [m] of the event alone, or followed by the loop of thread [t] *)
    assert (Hone : forall m, (forall t, m <> MAtomic t) -> exists l, mstep s m = fold_left ms l s).
    { intros m Hm. exists [m]. cbn [fold_left]. rewrite (ms_other s m Hm). reflexivity. }
    assert (Hloop : forall m t, (forall t0, m <> MAtomic t0) -> err (run_atomic FUEL (mstep s m) t) = false ->
                               exists l, run_atomic FUEL (mstep s m) t = fold_left ms l s).
    { intros m t Hm He. destruct (ms_loop t _ _ He) as [n Hn]. exists (m :: repeat (MAtomic t) n).
      cbn [fold_left]. rewrite (ms_other s m Hm). exact Hn. }
    intros He. destruct ev.
    - apply (Hone (MSysPop a)). discriminate.
    - apply (Hone (MLoadPaused a)). discriminate.
    - apply (Hone (MUserPop a)). discriminate.
    - cbn [step] in *. destruct (get s a) as [x|] eqn:Hg; [|discriminate He].
      destruct (a_cons x) eqn:Hc; try discriminate He. cbv zeta in *. fold (busy x) in *.
      replace (let (s1, ins) := dispatch (set_actor s a (busy x)) a (busy x) e in run_atomic FUEL (set_pend s1 (TA a) ins) (TA a))
        with (run_atomic FUEL (mstep s (MHandle a)) (TA a)) in *
        by (cbn [mstep]; rewrite Hg, Hc; destruct (dispatch _ a (busy x) e); reflexivity).
      apply Hloop; [discriminate|exact He].
    - apply (Hone (MPush t choice)). discriminate.
    - cbn [step] in *. destruct (pend_of s t) as [|i rest] eqn:Hp; [discriminate He|]. destruct i; try discriminate He.
      replace (set_pend s t rest) with (mstep s (MEnqDone t)) in * by (cbn [mstep]; rewrite Hp; reflexivity).
      apply Hloop; [discriminate|exact He].
    - cbn [step] in *. destruct (pend_of s t) as [|i rest] eqn:Hp; [discriminate He|]. destruct i; try discriminate He.
      match type of He with err (run_atomic _ ?s1 _) = _ => replace s1 with (mstep s (MPauseSt t)) in * by (cbn [mstep]; rewrite Hp; reflexivity) end.
      apply Hloop; [discriminate|exact He].
    - cbn [step] in *. destruct (pend_of s t) as [|i rest] eqn:Hp; [discriminate He|]. destruct i; try discriminate He.
      destruct (get s (self_of t)) as [x|] eqn:Hg; [|discriminate He]. destruct (a_paused x) eqn:Hpa.
      + destruct (Hone (MResume1 t)) as [l Hl]; [discriminate|]. exists l. rewrite <- Hl. cbn [mstep]. rewrite Hp, Hg, Hpa. reflexivity.
      + replace (set_pend s t rest) with (mstep s (MResume1 t)) in * by (cbn [mstep]; rewrite Hp, Hg, Hpa; reflexivity).
        apply Hloop; [discriminate|exact He].
    - cbn [step] in *. destruct (pend_of s t) as [|i rest] eqn:Hp; [discriminate He|]. destruct i; try discriminate He.
      replace (set_pend s t rest) with (mstep s (MResume2 t)) in * by (cbn [mstep]; rewrite Hp; reflexivity).
      apply Hloop; [discriminate|exact He].
    - cbn [step] in *. destruct (ms_loop _ _ _ He) as [n Hn]. eauto.
  Qed.

  Lemma err_mono_runs l : forall s, err s = true -> err (fold_left ms l s) = true.
  Proof. induction l as [|m l IH]; intros s H; [exact H|]. apply (IH (ms s m)), ms_err, H. Qed.

  Theorem invariant_runs (I : state -> Prop) :
    (forall s m, I s -> err (ms s m) = false -> I (ms s m)) ->
    forall evs s, I s -> err (run_events evs s) = false -> I (run_events evs s).
  Proof.
    intros HI.
    assert (Hm : forall l s0, I s0 -> err (fold_left ms l s0) = false -> I (fold_left ms l s0)).
    { induction l as [|m l IH]; intros s0 I0 E0; [exact I0|]. cbn [fold_left] in *. apply IH; [|exact E0]. apply HI; [exact I0|].
      destruct (err (ms s0 m)) eqn:E; [rewrite (err_mono_runs l _ E) in E0; discriminate|reflexivity]. }
    induction evs as [|ev r IH]; intros s0 I0 E0; [exact I0|].
    change (run_events (ev :: r) s0) with (run_events r (step s0 ev)) in *.
    pose proof (err_false_run_head r s0 ev E0) as E1. destruct (step_runs s0 ev E1) as [l Hl].
    apply IH; [|exact E0]. rewrite Hl in *. apply Hm; assumption.
  Qed.
End MicroRuns.

Lemma step_micro s ev : err (step s ev) = false -> exists ms, step s ev = mrun ms s.
Proof. apply (step_runs mstep); [reflexivity|exact run_atomic_micro]. Qed.

(** lifting an invariant of micro-steps to reachable states; [J] is an auxiliary invariant proved along with [I],
    and a step of [I] may assume that the micro-step leaves the model inside its domain *)
Theorem micro_invariant_err (J I : state -> Prop) :
  (forall scs, J (init_with scs)) -> (forall s m, J s -> J (mstep s m)) ->
  (forall scs, I (init_with scs)) ->
  (forall s m, J s -> I s -> err (mstep s m) = false -> I (mstep s m)) ->
  forall s, reachable s -> I s.
Proof.
  intros HJ0 HJ HI0 HI s (scs & evs & -> & He).
  enough (H : J (run_events evs (init_with scs)) /\ I (run_events evs (init_with scs))) by apply H.
  apply (invariant_runs mstep (fun _ _ _ => eq_refl) run_atomic_micro err_mono_mstep (fun s0 => J s0 /\ I s0)); [|auto|exact He].
  intros s0 m [J0 I0] E. auto.
Qed.

Theorem micro_invariant_with (J I : state -> Prop) :
  (forall scs, J (init_with scs)) -> (forall s m, J s -> J (mstep s m)) ->
  (forall scs, I (init_with scs)) ->
  (forall s m, J s -> I s -> I (mstep s m)) ->
  forall s, reachable s -> I s.
Proof. intros HJ0 HJ HI0 HI. apply (micro_invariant_err J I); auto. Qed.

Theorem micro_invariant (I : state -> Prop) :
  (forall scs, I (init_with scs)) ->
  (forall s m, I s -> I (mstep s m)) ->
  forall s, reachable s -> I s.
Proof. intros HI0 HI. apply (micro_invariant_with (fun _ => True) I); auto. Qed.
