(** Summaries of what [exec1] / [dispatch] / the mailbox operations can change (frame lemmas). *)
From Coq Require Import List NArith Arith.
From Vivid Require Import Actor.Core Actor.ProofsMailBase Actor.ProofsMail Actor.ProofsMailInv Actor.ProofsMailWf Actor.SpecStash Actor.SpecLife Actor.ProofsLife.
Import ListNotations.
Local Open Scope N_scope.

Definition chg_state (i : instr) : bool := match i with ICheckMark | IRestartFinish => true | _ => false end.
Definition chg_zombie (i : instr) : bool := match i with IUnzombie | IRestartFinish => true | _ => false end.
Definition chg_cons (i : instr) : bool := match i with IEndHandler | IRestartFinish => true | _ => false end.
Definition chg_cur (i : instr) : bool := match i with ICheckMark | IRestartFinish => true | _ => false end.

Lemma lu_state_keep i x y : local_upd i x y -> chg_state i = false -> a_state y = a_state x.
Proof. intros Hl C. destruct (lu_state _ _ _ Hl) as [E|[(-> & _)|(-> & _)]]; [exact E|discriminate C..]. Qed.
Lemma lu_zombie_keep i x y : local_upd i x y -> chg_zombie i = false -> a_zombie y = a_zombie x.
Proof. intros Hl C. destruct (lu_zombie _ _ _ Hl) as [E|[(-> & _)|(-> & _)]]; [exact E|discriminate C..]. Qed.
Lemma lu_cons_keep i x y : local_upd i x y -> chg_cons i = false -> a_cons y = a_cons x.
Proof. intros Hl C. destruct (lu_cons _ _ _ Hl) as [E|[(-> & _)|(-> & _)]]; [exact E|discriminate C..]. Qed.
Lemma lu_cur_keep i x y : local_upd i x y -> chg_cur i = false -> a_cur y = a_cur x.
Proof. intros Hl C. destruct (lu_cur _ _ _ Hl) as [E|[->| ->]]; [exact E|discriminate C..]. Qed.

Lemma exec1_self s t h i s' front x :
  exec1 s t h i = (s', front) -> get s (self_of t) = Some x ->
  exists x', get s' (self_of t) = Some x' /\ local_upd i x x'.
Proof.
  intros He Hg. destruct (exec1_actors s t h i x Hg) as (y & news & Hl & _ & Ha). rewrite He in Ha. cbn [fst] in Ha.
  exists y. split; [|exact Hl].
  unfold get. rewrite Ha, nth_error_app1 by (rewrite upd_length; eapply nth_error_lt; exact Hg).
  apply (nth_error_upd_same _ _ _ _ Hg).
Qed.

Definition is_beh (i : instr) : bool := match i with IBeh _ _ _ => true | _ => false end.
Definition is_obs_seen (i : instr) : bool := match i with IObs (OSeen _ _ _ _) => true | _ => false end.
(** significant instructions: everything that is not a plain send / publish / user action *)
Definition sig (i : instr) : bool := life_src i || is_unzombie i || is_beh i || is_end i || is_obs_seen i.
Definition gen_sig (i : instr) : bool :=
  match i with IDoKill _ | IOnKilled _ | ICheckMark | IRestartFinish => true | _ => false end.

Lemma existsb_filter_sig (f : instr -> bool) l : (forall j, f j = true -> sig j = true) -> existsb f (filter sig l) = existsb f l.
Proof.
  intros H. induction l as [|j l IH]; [reflexivity|]. cbn [filter existsb]. destruct (sig j) eqn:Hs.
  - cbn [existsb]. rewrite IH. reflexivity.
  - rewrite IH. destruct (f j) eqn:Hf; [rewrite (H j Hf) in Hs; discriminate|reflexivity].
Qed.

Ltac in_front Hj :=
  repeat first
    [ rewrite in_app_iff in Hj
    | match type of Hj with
      | _ \/ _ => destruct Hj as [Hj|Hj]
      | False => destruct Hj
      | In _ [] => destruct Hj
      | In _ (_ :: _) => destruct Hj as [Hj|Hj]
      | In _ (map _ _) => apply in_map_iff in Hj as (? & Hj & ?)
      | In _ (flat_map _ _) => apply in_flat_map in Hj as (? & ? & Hj)
      | In _ (if ?b then _ else _) => destruct b
      | In _ (match ?b with _ => _ end) => destruct b
      end ].

Lemma exec1_front_plain s t h i s' front :
  gen_sig i = false -> exec1 s t h i = (s', front) -> forall j, In j front -> sig j = false.
Proof.
  intros Hgs He j Hj.
  destruct (get s (self_of t)) as [x|] eqn:Hg; [|rewrite (exec1_none _ _ _ _ Hg) in He; injection He as _ <-; destruct Hj].
  assert (Hem : emits s (self_of t) h x i j) by (apply (exec1_emits _ _ _ _ _ _ Hg); rewrite He; exact Hj).
  revert Hgs. destruct Hem; intros Hgs; try reflexivity; discriminate Hgs.
Qed.

(** everything but the mailbox part (cache, queues, paused flag) *)
Definition lsame (x y : actor) : Prop :=
  a_path y = a_path x /\ a_gen y = a_gen x /\ a_parent y = a_parent x /\ a_spec y = a_spec x /\
  a_state y = a_state x /\ a_zombie y = a_zombie x /\ a_restarting y = a_restarting x /\
  a_children y = a_children x /\ a_watchers y = a_watchers x /\ a_stash y = a_stash x /\ a_modes y = a_modes x /\
  a_inst y = a_inst x /\ a_decisions y = a_decisions x /\ a_hooks y = a_hooks x /\
  a_cons y = a_cons x /\ a_cur y = a_cur x /\ a_pend y = a_pend x.

Lemma lsame_refl x : lsame x x. Proof. repeat split. Qed.
Lemma lsame_trans x y z : lsame x y -> lsame y z -> lsame x z.
Proof. unfold lsame. intros H1 H2. decompose [and] H1. decompose [and] H2. repeat split; congruence. Qed.

Definition mb_equiv (s s' : state) : Prop :=
  (forall b, match get s b, get s' b with
             | Some x, Some y => lsame x y
             | None, None => True
             | _, _ => False
             end) /\
  exts s' = exts s /\ reg s' = reg s /\ gens s' = gens s /\ subs s' = subs s /\ olog s' = olog s.

Lemma mb_equiv_refl s : mb_equiv s s.
Proof. split; [|repeat split]. intros b. destruct (get s b); [apply lsame_refl|exact I]. Qed.

Lemma mb_equiv_trans s1 s2 s3 : mb_equiv s1 s2 -> mb_equiv s2 s3 -> mb_equiv s1 s3.
Proof.
  intros (H1 & E1 & R1 & G1 & S1 & O1) (H2 & E2 & R2 & G2 & S2 & O2).
  split; [|repeat split; congruence].
  intros b. specialize (H1 b). specialize (H2 b).
  destruct (get s1 b), (get s2 b), (get s3 b); try contradiction; try exact I. eapply lsame_trans; eassumption.
Qed.

Lemma mb_equiv_set_actor s a x y : get s a = Some x -> lsame x y -> mb_equiv s (set_actor s a y).
Proof.
  intros Hg Hl. split; [|repeat split]. intros b. destruct (Nat.eq_dec a b) as [<-|Hne].
  - rewrite (get_set_same' _ _ _ _ Hg), Hg. exact Hl.
  - rewrite get_set_other by exact Hne. destruct (get s b); [apply lsame_refl|exact I].
Qed.

Lemma mb_equiv_set_err s : mb_equiv s (set_err s).
Proof. split; [|repeat split]. intros b. change (get (set_err s) b) with (get s b). destruct (get s b); [apply lsame_refl|exact I]. Qed.

Lemma mb_equiv_push_mb s a e : mb_equiv s (push_mb s a e).
Proof.
  unfold push_mb, with_actor. destruct (get s a) as [x|] eqn:Hg; [|apply mb_equiv_set_err].
  apply mb_equiv_set_actor with (x := x); [exact Hg|repeat split].
Qed.

Lemma mb_equiv_deliver s m e : mb_equiv s (fst (deliver s m e)).
Proof. destruct m; cbn [deliver fst]; apply mb_equiv_push_mb. Qed.

Lemma mb_equiv_resolve s r : mb_equiv s (snd (resolve s r)).
Proof.
  destruct r as [a|p|]; cbn [resolve]; [| |apply mb_equiv_refl].
  - destruct (get s a) as [x|] eqn:Hg; [|apply mb_equiv_set_err].
    destruct (a_cache x); [apply mb_equiv_refl|].
    destruct (alookup (reg s) (a_path x)); [|destruct (path_eqb (a_path x) []); apply mb_equiv_refl].
    cbn [snd]. apply mb_equiv_set_actor with (x := x); [exact Hg|repeat split].
  - destruct (alookup (reg s) p); [apply mb_equiv_refl|]. destruct (path_eqb p []); apply mb_equiv_refl.
Qed.

Lemma mb_equiv_with_actor s a f : (forall x, lsame x (f x)) -> mb_equiv s (with_actor s a f).
Proof.
  intros Hf. unfold with_actor. destruct (get s a) as [x|] eqn:Hg; [|apply mb_equiv_set_err].
  apply (mb_equiv_set_actor _ _ x); [exact Hg|apply Hf].
Qed.

Lemma mb_equiv_keeps {A} (pi : actor -> A) s s' :
  (forall x y, lsame x y -> pi y = pi x) -> mb_equiv s s' -> keeps (fun x => Some (pi x)) None s s'.
Proof.
  intros Hpi (Hm & _) b. unfold proj_at. specialize (Hm b).
  destruct (get s b) as [x|], (get s' b) as [y|]; try contradiction; [|reflexivity]. rewrite (Hpi x y Hm). reflexivity.
Qed.

Lemma get_set_pend_TA_same s a p x : get s a = Some x -> get (set_pend s (TA a) p) a = Some (upd_pend x p).
Proof. intros Hg. cbn [set_pend]. unfold with_actor. rewrite Hg. apply (get_set_same' _ _ _ _ Hg). Qed.

Lemma get_set_pend_TA_other s a b p : a <> b -> get (set_pend s (TA a) p) b = get s b.
Proof.
  intros Hne. cbn [set_pend]. unfold with_actor. destruct (get s a); [apply get_set_other; exact Hne|reflexivity].
Qed.

Lemma get_set_pend_TX s i p b : get (set_pend s (TX i) p) b = get s b.
Proof. cbn [set_pend]. destruct (nth_error (exts s) i); reflexivity. Qed.

Lemma get_set_pend_other s t p a : t <> TA a -> get (set_pend s t p) a = get s a.
Proof. destruct t as [b|k]; intros Ht; [apply get_set_pend_TA_other; congruence|apply get_set_pend_TX]. Qed.

Lemma pend_of_set_pend_same s t p : err (set_pend s t p) = false -> pend_of (set_pend s t p) t = p.
Proof.
  destruct t as [a|i]; cbn [set_pend pend_of].
  - unfold with_actor. destruct (get s a) as [x|] eqn:Hg; [|discriminate]. intros _.
    rewrite (get_set_same' _ _ _ _ Hg). reflexivity.
  - destruct (nth_error (exts s) i) as [ex|] eqn:Hn; [|discriminate]. intros _.
    unfold set_ext; cbn [exts]. rewrite (nth_error_upd_same _ _ _ _ Hn). reflexivity.
Qed.

(** [EvPush t choice] with [i] at the head of the thread's list: from state [s1] (where the target has been
    resolved, if it had to be) envelope [e] goes to mailbox [mb], and [front] takes the place of [i] *)
Inductive pushes (s : state) (t : tid) (choice : nat) : instr -> state -> mbox -> envelope -> list instr -> Prop :=
| PuR sys mb sender m : pushes s t choice (IEnqR sys mb sender m) s mb {| e_sys := sys; e_sender := sender; e_msg := m |} []
| PuMb a e : pushes s t choice (IEnqMb a e) s (MbActor a) e []
| PuAny sys tos sender m to (Hn : nth_error tos choice = Some to) :
    pushes s t choice (IEnqAny sys tos sender m) (snd (resolve s to)) (fst (resolve s to))
      {| e_sys := sys; e_sender := sender; e_msg := m |}
      (IEnqDone :: match firstn choice tos ++ skipn (S choice) tos with [] => [] | tos' => [IEnqAny sys tos' sender m] end)
| PuPause c d rem done to (Hn : nth_error rem choice = Some to) :
    pushes s t choice (ISupPause c d rem done) (snd (resolve s to)) (fst (resolve s to))
      {| e_sys := true; e_sender := RObj (self_of t); e_msg := MCmdPause |}
      [IEnqDone; ISupPause c d (firstn choice rem ++ skipn (S choice) rem) (done ++ [to])].

Lemma step_push s t choice :
  err (step s (EvPush t choice)) = false ->
  exists i rest s1 mb e front, pend_of s t = i :: rest /\ pushes s t choice i s1 mb e front /\
    step s (EvPush t choice) = set_pend (fst (deliver s1 mb e)) t (front ++ rest).
Proof.
  cbn [step]. destruct (pend_of s t) as [|i rest]; [discriminate|]. destruct i; try discriminate; intros Herr.
  - eexists _, _, _, _, _, _. split; [reflexivity|]. split; [apply PuR|]. destruct (deliver s to _). reflexivity.
  - eexists _, _, _, _, _, _. split; [reflexivity|]. split; [apply PuMb|]. reflexivity.
  - destruct (nth_error tos choice) as [to|] eqn:Hn; [|discriminate].
    eexists _, _, _, _, _, _. split; [reflexivity|]. split; [apply (PuAny _ _ _ _ _ _ _ to Hn)|].
    destruct (resolve s to) as [mb s1]. cbn [fst snd]. destruct (deliver s1 mb _).
    destruct (firstn choice tos ++ skipn (S choice) tos); reflexivity.
  - destruct (nth_error remaining choice) as [to|] eqn:Hn; [|discriminate].
    eexists _, _, _, _, _, _. split; [reflexivity|]. split; [apply (PuPause _ _ _ _ _ _ _ to Hn)|].
    destruct (resolve s to) as [mb s1]. cbn [fst snd]. destruct (deliver s1 mb _). reflexivity.
Qed.

Lemma pushes_plain s t choice i s1 mb e front :
  pushes s t choice i s1 mb e front ->
  mb_equiv s (fst (deliver s1 mb e)) /\ sig i = false /\ (forall j, In j front -> sig j = false).
Proof.
  intros H. split; [|destruct H; split; try reflexivity; intros j Hj; in_front Hj; subst; reflexivity].
  apply (mb_equiv_trans _ s1); [destruct H; first [apply mb_equiv_refl|apply mb_equiv_resolve]|apply mb_equiv_deliver].
Qed.

Lemma no_atomic_cases s ev :
  pre_atomic s ev = None -> err (step s ev) = false ->
  match ev with
  | EvSysPop _ | EvLoadPaused _ | EvUserPop _ | EvPush _ _ => True
  | EvResume1 t => exists rest x, pend_of s t = IResume1 :: rest /\ get s (self_of t) = Some x /\
      step s ev = set_pend (set_actor s (self_of t) (set_mb x (a_sq x) (a_uq x) false (a_cons x) (a_cur x))) t (IResume2 :: rest)
  | _ => False
  end.
Proof.
  destruct ev; cbn [pre_atomic step]; auto; intros E Herr.
  - destruct (get s a) as [x|]; [|discriminate Herr]. destruct (a_cons x); try discriminate Herr. destruct (dispatch _ a _ e). discriminate E.
  - destruct (pend_of s t) as [|i rest]; [discriminate Herr|]. destruct i; discriminate.
  - destruct (pend_of s t) as [|i rest]; [discriminate Herr|]. destruct i; discriminate.
  - destruct (pend_of s t) as [|i rest]; [discriminate Herr|]. destruct i; try discriminate Herr.
    destruct (get s (self_of t)) as [x|]; [|discriminate Herr]. destruct (a_paused x); [eauto|discriminate E].
  - destruct (pend_of s t) as [|i rest]; [discriminate Herr|]. destruct i; discriminate.
  - discriminate E.
Qed.

(** the consumer's moves (popSys, the load of the paused flag, popUser) on the record of a context that is not in a
    handler: the queues and the consumer position afterwards *)
Inductive cmove (x : actor) : list envelope -> list envelope -> cons -> Prop :=
| CmSys e r : a_cons x = C0 \/ a_cons x = C1 -> a_sq x = e :: r -> cmove x r (a_uq x) (CH e)
| CmSysNone : a_cons x = C0 \/ a_cons x = C1 -> a_sq x = [] -> cmove x [] (a_uq x) C2
| CmLoad : a_cons x = C2 -> cmove x (a_sq x) (a_uq x) (if a_paused x then C0 else C3)
| CmUser e r : a_cons x = C3 -> a_uq x = e :: r -> cmove x (a_sq x) r (CH e)
| CmUserNone : a_cons x = C3 -> a_uq x = [] -> cmove x (a_sq x) [] C0.

Lemma consumer_move s ev :
  err (step s ev) = false -> match ev with EvSysPop _ | EvLoadPaused _ | EvUserPop _ => True | _ => False end ->
  exists a x sq uq co, get s a = Some x /\ cmove x sq uq co /\ is_busy (a_cons x) = false /\
    step s ev = set_actor s a (set_mb x sq uq (a_paused x) co (a_cur x)).
Proof.
  destruct ev; try contradiction; cbn [step]; (destruct (get s a) as [x|] eqn:Hg; [|discriminate]);
    destruct (a_cons x) eqn:Hc; try discriminate.
  1,2: destruct (a_sq x) eqn:Hq.
  6: destruct (a_uq x) eqn:Hq.
  all: intros _ _; eexists a, x, _, _, _; (split; [exact Hg|]); (split; [|split; [rewrite Hc|]; reflexivity]); econstructor; eauto.
Qed.

Lemma exec1_exts_pend_nth s t h i s' front :
  exec1 s t h i = (s', front) ->
  forall k, option_map x_pend (nth_error (exts s') k) = option_map x_pend (nth_error (exts s) k).
Proof.
  intros He k. rewrite <- !nth_error_map. f_equal. rewrite <- (exec1_exts_pend s t h i), He. reflexivity.
Qed.

Lemma astep_TA s a i rest x :
  get s a = Some x ->
  exists s1 front x1,
    exec1 (set_actor s a (upd_pend x rest)) (TA a) [] i = (s1, front) /\ get s1 a = Some x1 /\ a_pend x1 = rest /\
    astep s (TA a) i rest = set_actor s1 a (upd_pend x1 (front ++ rest)).
Proof.
  intros Hg. unfold astep. cbn [set_pend held_of]. unfold with_actor at 1. rewrite Hg.
  destruct (exec1 (set_actor s a (upd_pend x rest)) (TA a) [] i) as [s1 front] eqn:He.
  assert (Hg0 : get (set_actor s a (upd_pend x rest)) (self_of (TA a)) = Some (upd_pend x rest))
    by (apply (get_set_same' _ _ _ _ Hg)).
  destruct (exec1_self _ _ _ _ _ _ _ He Hg0) as (x1 & Hg1 & Hl).
  exists s1, front, x1. split; [reflexivity|]. split; [exact Hg1|].
  assert (Hp : a_pend x1 = rest) by apply (lu_pend _ _ _ Hl).
  split; [exact Hp|]. cbn [pend_of self_of] in *. unfold with_actor. rewrite Hg1, Hp. reflexivity.
Qed.

Lemma astep_TX s k i rest ex :
  nth_error (exts s) k = Some ex ->
  exists s1 front ex1,
    exec1 (set_ext s k {| x_pend := rest; x_held := x_held ex |}) (TX k) (x_held ex) i = (s1, front) /\
    nth_error (exts s1) k = Some ex1 /\ x_pend ex1 = rest /\
    (forall j, j <> k -> option_map x_pend (nth_error (exts s1) j) = option_map x_pend (nth_error (exts s) j)) /\
    astep s (TX k) i rest = set_ext s1 k {| x_pend := front ++ rest; x_held := x_held ex1 |}.
Proof.
  intros Hn. unfold astep. cbn [set_pend]. rewrite Hn.
  assert (Hn0 : nth_error (exts (set_ext s k {| x_pend := rest; x_held := x_held ex |})) k = Some {| x_pend := rest; x_held := x_held ex |})
    by (unfold set_ext; cbn [exts]; apply (nth_error_upd_same _ _ _ _ Hn)).
  assert (Hh : held_of (set_ext s k {| x_pend := rest; x_held := x_held ex |}) (TX k) = x_held ex)
    by (cbn [held_of]; rewrite Hn0; reflexivity).
  rewrite Hh.
  destruct (exec1 (set_ext s k {| x_pend := rest; x_held := x_held ex |}) (TX k) (x_held ex) i) as [s1 front] eqn:He.
  pose proof (exec1_exts_pend_nth _ _ _ _ _ _ He) as Hx.
  pose proof (Hx k) as Hk. rewrite Hn0 in Hk. cbn [option_map x_pend] in Hk.
  destruct (nth_error (exts s1) k) as [ex1|] eqn:Hn1; [|discriminate Hk].
  cbn [option_map] in Hk. assert (Hk' : x_pend ex1 = rest) by congruence.
  exists s1, front, ex1. split; [reflexivity|]. split; [exact Hn1|]. split; [exact Hk'|]. split.
  - intros j Hj. rewrite Hx. unfold set_ext; cbn [exts]. rewrite nth_upd_neq by congruence. reflexivity.
  - cbn [pend_of set_pend]. rewrite Hn1, Hk'. reflexivity.
Qed.

Lemma exec1_other s t h i s' front b y :
  exec1 s t h i = (s', front) -> b <> self_of t -> get s' b = Some y ->
  get s b = Some y \/
  (get s b = None /\ b = length (actors s) /\
   exists sp x, i = IAct (ASpawn sp) /\ get s (self_of t) = Some x /\ a_state x <> Killed /\ sp_prelaunch sp = true /\
     alookup (reg s) (a_path x ++ [sp_name sp]) = None /\
     y = new_actor (a_path x ++ [sp_name sp]) (match alookup (gens s) (a_path x ++ [sp_name sp]) with Some g => g | None => 0 end)
                   (Some (self_of t)) sp).
Proof.
  intros He Hb Hy.
  destruct (get s (self_of t)) as [x|] eqn:Hg; [|rewrite (exec1_none _ _ _ _ Hg) in He; injection He as <- _; left; exact Hy].
  destruct (spawn_dec i) as [[sp ->]|Hns].
  - destruct (exec1_spawn s t h sp x Hg) as [[code E]|(Hk & Hp & Hr & g & s1 & E & _)].
    { rewrite E in He. injection He as <- _. left. exact Hy. }
    destruct (exec1_spawn_ok s t h sp x s' front Hg Hk Hp Hr He) as (_ & Hnew & Hoth & _).
    destruct (Nat.eq_dec b (length (actors s))) as [->|Hbn]; [right|left; rewrite <- (Hoth b Hb Hbn); exact Hy].
    rewrite Hnew in Hy. injection Hy as <-.
    split; [apply nth_error_None, Nat.le_refl|]. split; [reflexivity|]. exists sp, x. auto 10.
  - destruct (exec1_local s t h i x Hg Hns) as (y0 & _ & Ha & _). rewrite He in Ha. cbn [fst] in Ha.
    left. unfold get in *. rewrite Ha, nth_upd_neq in Hy by congruence. exact Hy.
Qed.

Lemma get_add_ghost s o a : get (add_ghost s o) a = get s a.
Proof. reflexivity. Qed.
Lemma get_set_err s a : get (set_err s) a = get s a.
Proof. reflexivity. Qed.

Lemma handle_pre s a x e s1 ins :
  get s a = Some x ->
  let x0 := set_mb x (a_sq x) (a_uq x) (a_paused x) (CBusy (mode_top x)) (a_cur x) in
  dispatch (set_actor s a x0) a x0 e = (s1, ins) ->
  let s' := set_pend s1 (TA a) ins in
  exists y, get s1 a = Some y /\ disp_frame x0 y /\ get s' a = Some (upd_pend y ins) /\ (forall b, a <> b -> get s' b = get s b) /\
            reg s' = reg s /\ exts s' = exts s /\ olog s' = olog s /\ gens s' = gens s.
Proof.
  intros Hg x0 Hd. assert (Hg0 : get (set_actor s a x0) a = Some x0) by apply (get_set_same' _ _ _ _ Hg).
  destruct (dispatch_effect _ a x0 e Hg0) as (y & Hy & Ha & Hol & _ & Hex & Hrg & _).
  assert (Hgn : gens (fst (dispatch (set_actor s a x0) a x0 e)) = gens s) by (destruct (dispatch_cases (set_actor s a x0) a x0 e) as [| |r _ []]; reflexivity).
  rewrite Hd in *. cbn [fst] in *.
  assert (Hg1 : get s1 a = Some y) by (unfold get; rewrite Ha; apply (nth_error_upd_same _ _ _ _ Hg0)).
  exists y. rewrite (set_pend_TA _ _ _ _ Hg1). split; [exact Hg1|]. split; [exact Hy|]. split; [apply (get_set_same' _ _ _ _ Hg1)|]. split; [|auto].
  intros b Hab. rewrite get_set_other by exact Hab. unfold get. rewrite Ha, nth_upd_neq by exact Hab. apply (get_set_other s a b x0 Hab).
Qed.

Lemma handle_pre_keeps {A} (pi : actor -> A) s a x e s1 ins :
  (forall x y, disp_frame x y -> pi y = pi x) -> (forall x sq uq pa co cu, pi (set_mb x sq uq pa co cu) = pi x) ->
  (forall x p, pi (upd_pend x p) = pi x) -> get s a = Some x ->
  let x0 := set_mb x (a_sq x) (a_uq x) (a_paused x) (CBusy (mode_top x)) (a_cur x) in
  dispatch (set_actor s a x0) a x0 e = (s1, ins) -> keeps (fun x => Some (pi x)) None s (set_pend s1 (TA a) ins).
Proof.
  intros H1 H2 H3 Hg x0 Hd b. unfold proj_at. destruct (handle_pre s a x e s1 ins Hg Hd) as (y & _ & Hy & Hga & Hoth & _).
  destruct (Nat.eq_dec a b) as [<-|Hab]; [|rewrite (Hoth b Hab); reflexivity]. rewrite Hga, Hg, H3, (H1 _ _ Hy). unfold x0. rewrite H2. reflexivity.
Qed.
