(** Proofs for C03 between the API call and the queue insertion (statements: Properties/C03_copies.v; notions:
    Actor/SpecCopies.v).  Main result [thread_balance_run]: along any run, for every thread t and every class P of user
    messages,  pending(t) before + issued by t  =  inserted by t + turned into a dead-letter report at the insertion
    + pending(t) after. *)
From Coq Require Import List Bool Lia PeanoNat.
From Vivid Require Import Actor.Core Actor.CoreRun Actor.SpecMail Actor.SpecSup Actor.SpecStash Actor.SpecCopies
  Actor.ProofsMailBase Actor.ProofsMail Actor.ProofsMailInv Actor.ProofsMailWf Actor.ProofsStep Actor.ProofsStash.
From Vivid Require Actor.ProofsSup Actor.ProofsMailAcct.
Import ListNotations.

Lemma pend_list_app P l1 l2 : pend_list P (l1 ++ l2) = pend_list P l1 + pend_list P l2.
Proof. induction l1 as [|i l1 IH]; [reflexivity|]. cbn [app pend_list]. rewrite IH. lia. Qed.

Lemma pend_list_map_act P l : pend_list P (map IAct l) = 0.
Proof. induction l as [|a l IH]; [reflexivity|]. cbn [map pend_list pend1]. exact IH. Qed.

Lemma nonuser P m : user_class P -> is_user m = false -> b2n (P m) = 0.
Proof. intros HP Hm. destruct (P m) eqn:E; [|reflexivity]. rewrite (HP m E) in Hm. discriminate. Qed.

Lemma pend_list_tells P (f : rref -> instr) m l :
  (forall r, pend1 P (f r) = b2n (P m)) -> pend_list P (flat_map (fun r => [f r; IEnqDone]) l) = length l * b2n (P m).
Proof.
  intros Hf. induction l as [|r l IH]; [reflexivity|]. cbn [flat_map app pend_list pend1 length]. rewrite IH, Hf. lia.
Qed.

Lemma pend_list_unstash P a es : pend_list P (flat_map (fun e => [IEnqMb a e; IEnqDone]) es) = cnt_env P es.
Proof.
  induction es as [|e es IH]; [reflexivity|]. cbn [flat_map app pend_list pend1]. rewrite IH.
  unfold cnt_env. cbn [filter]. destruct (P (e_msg e)); reflexivity.
Qed.

Lemma cnt_env_app P l1 l2 : cnt_env P (l1 ++ l2) = cnt_env P l1 + cnt_env P l2.
Proof. unfold cnt_env. rewrite filter_app, app_length. reflexivity. Qed.

Ltac nu HP :=
  repeat match goal with
         | |- context[b2n (?P ?m)] =>
             lazymatch m with
             | MUser _ _ => fail
             | _ => rewrite (nonuser P m HP eq_refl)
             end
         end.

Lemma exec1_issues P s t h i :
  user_class P -> yielding i = false -> is_enq i = false ->
  pend_list P (snd (exec1 s t h i)) = issued1 P s t i.
Proof.
  intros HP Hy He. unfold issued1, exec1. destruct (get s (self_of t)) as [x|] eqn:Hg; [|reflexivity].
  destruct i; try discriminate Hy; try discriminate He; cbn [snd pend_list pend1]; try reflexivity.
  - destruct remaining; [reflexivity|discriminate Hy].
  - destruct a; cbn [snd pend_list pend1 e_msg]; nu HP; try reflexivity.
    + lia.
    + lia.
    + destruct (a_state x); cbn [snd pend_list]; try reflexivity.
      all: destruct (negb (sp_prelaunch sp)); cbn [snd pend_list]; [reflexivity|].
      all: destruct (alookup (reg s) (a_path x ++ [sp_name sp])); cbn [snd pend_list pend1 app]; nu HP; reflexivity.
    + destruct (a_cur x); reflexivity.
    + destruct n as [n|].
      * destruct (a_stash x) as [|e0 r] eqn:Es.
        { cbn [length Nat.eqb snd pend_list]. rewrite firstn_nil. reflexivity. }
        cbn [length Nat.eqb snd]. rewrite pend_list_unstash. reflexivity.
      * destruct (a_stash x) as [|e0 r] eqn:Es; [reflexivity|]. cbn [snd pend_list pend1 unstash_k firstn].
        unfold cnt_env. cbn [filter]. destruct (P (e_msg e0)); reflexivity.
    + destruct (alookup (subscribers s ty) (a_path x)); reflexivity.
    + destruct (nlookup (subs s) ty); reflexivity.
  - destruct (a_zombie x); [reflexivity|]. destruct (a_parent x).
    + destruct (take_until_panic acts) as [pre panics]. cbn [snd]. rewrite pend_list_app, pend_list_map_act.
      destruct panics; [|reflexivity]. destruct r; try reflexivity.
      destruct (a_state x); try reflexivity. destruct (ref_eq s who (RObj (self_of t))); reflexivity.
    + destruct m; try reflexivity. destruct (ref_eq s who (RObj (self_of t))); reflexivity.
  - nu HP. reflexivity.
  - destruct (subscribers s ty); cbn [snd pend_list pend1]; nu HP; [reflexivity|lia].
  - destruct (a_children x); cbn [snd app pend_list pend1]; nu HP; [reflexivity|lia].
  - destruct (a_zombie x); [reflexivity|]. destruct (ref_eq s who (RObj (self_of t))); reflexivity.
  - destruct (a_children x); [|reflexivity]. destruct (a_state x); try reflexivity.
    cbn [snd app pend_list pend1]. destruct (a_restarting x); reflexivity.
  - cbn [snd]. rewrite !pend_list_app.
    destruct (a_watchers x); destruct (a_parent x); cbn [pend_list pend1]; nu HP; lia.
  - destruct (a_hooks x) as [|[[h1 h2] h3] hs]; [reflexivity|]. destruct (h2 && h3); reflexivity.
  - destruct d; cbn [snd is_graceful negb]; rewrite ?pend_list_app;
      rewrite ?(pend_list_tells P (fun r => IEnq false r (RObj (self_of t)) (MRestart true)) (MRestart true)) by (intros; reflexivity);
      rewrite ?(pend_list_tells P (fun r => IEnq true r (RObj (self_of t)) (MRestart false)) (MRestart false)) by (intros; reflexivity);
      rewrite ?(pend_list_tells P (fun r => IEnq false r (RObj (self_of t)) (MKill (RObj (self_of t)) true)) (MKill (RObj (self_of t)) true)) by (intros; reflexivity);
      rewrite ?(pend_list_tells P (fun r => IEnq true r (RObj (self_of t)) (MKill (RObj (self_of t)) false)) (MKill (RObj (self_of t)) false)) by (intros; reflexivity);
      rewrite ?(pend_list_tells P (fun r => IEnq true r (RObj (self_of t)) MCmdResume) MCmdResume) by (intros; reflexivity);
      cbn [pend_list pend1]; nu HP; lia.
Qed.

Lemma dispatch_no_user P s a x e : user_class P -> pend_list P (snd (dispatch s a x e)) = 0.
Proof.
  intros HP. destruct (dispatch_cases s a x e) as [| |r _ []]; cbn [snd]; unfold dead_report, dead_env, kill_children;
    rewrite ?pend_list_app; try destruct poison; try destruct (a_state x); try destruct (a_children x);
    cbn [pend_list pend1 e_msg app]; nu HP; lia.
Qed.

Definition trace_sum (g : state -> tid -> instr -> nat) (t : tid) (tr : list (state * instr)) : nat :=
  fold_right (fun p v => g (fst p) t (snd p) + v) 0 tr.

Lemma atomic_sum_trace g f s t : atomic_sum g f s t = trace_sum g t (atomic_trace f s t).
Proof. apply (atomic_trace_fold (atomic_sum g) g); reflexivity. Qed.

Lemma pend1_atomic P i : yielding i = false -> is_enq i = false -> pend1 P i = 0.
Proof. destruct i; cbn; try discriminate; try reflexivity. destruct remaining; [reflexivity|discriminate]. Qed.

Lemma atomic_balance P : user_class P -> forall f s t,
  err (run_atomic f s t) = false ->
  pend_list P (pend_of (run_atomic f s t) t) = pend_list P (pend_of s t) + atomic_sum (issued1 P) f s t.
Proof.
  intros HP f s t. rewrite atomic_sum_trace. revert f s.
  apply (run_atomic_trace_ind (fun s tr s' =>
    err s' = false -> pend_list P (pend_of s' t) = pend_list P (pend_of s t) + trace_sum (issued1 P) t tr));
    cbn [trace_sum fold_right fst snd].
  - intros s _. lia.
  - intros s H. discriminate H.
  - intros s sys to sender m rest Hp He. rewrite (pend_of_set_pend_ok _ _ _ He), Hp. cbn [pend_list pend1]. lia.
  - intros s i rest s1 front f Hp Hy Hq E IH He. rewrite (IH He), Hp.
    pose proof (exec1_issues P (set_pend s t rest) t (held_of (set_pend s t rest) t) i HP Hy Hq) as Hi.
    rewrite E in Hi. cbn [snd] in Hi.
    destruct (ProofsSup.atomic_next_pend s t i rest s1 front E (ProofsSup.err_false_before_run_atomic _ _ _ He)) as [_ ->].
    rewrite pend_list_app, Hi. cbn [pend_list]. rewrite (pend1_atomic P i Hy Hq). unfold trace_sum. lia.
Qed.

Lemma tid_eqb_spec t u : reflect (t = u) (tid_eqb t u).
Proof.
  destruct t as [a|i], u as [b|j]; cbn [tid_eqb]; try (constructor; discriminate).
  - destruct (Nat.eqb_spec a b); constructor; congruence.
  - destruct (Nat.eqb_spec i j); constructor; congruence.
Qed.

Lemma tid_eqb_refl t : tid_eqb t t = true.
Proof. destruct (tid_eqb_spec t t); congruence. Qed.

Lemma remove_nth_length {A} (l : list A) c x : nth_error l c = Some x -> S (length (firstn c l ++ skipn (S c) l)) = length l.
Proof.
  revert c. induction l as [|h l IH]; intros [|c] H; cbn in *; try discriminate; [reflexivity|].
  rewrite (IH c H). reflexivity.
Qed.

Lemma landing_weight P mb e :
  user_class P ->
  b2n (P (e_msg (snd (landing mb e)))) + match mb with MbDead => b2n (P (e_msg e)) | _ => 0 end = b2n (P (e_msg e)).
Proof.
  intros HP. destruct mb; cbn [landing snd]; try lia.
  unfold dead_env. cbn [e_msg]. rewrite (nonuser P (MDeadLetter (e_sys e) (e_msg e)) HP eq_refl). lia.
Qed.

Theorem step_thread_balance P s ev t :
  user_class P -> wf s -> err (step s ev) = false ->
  pend_list P (pend_of (step s ev) t) + pushed1 P s ev t + dead_at_push1 P s ev t =
  pend_list P (pend_of s t) + step_sum (issued1 P) s ev t.
Proof.
  intros HP W Herr.
  destruct (tid_eqb_spec (ev_thread ev) t) as [Et|Nt].
  2:{ 
    rewrite (ProofsSup.step_pend_frame s ev t Nt).
    assert (E1 : pushed1 P s ev t = 0).
    { destruct ev; try reflexivity. cbn [pushed1 ev_thread] in *. destruct (tid_eqb_spec t0 t); [congruence|reflexivity]. }
    assert (E2 : dead_at_push1 P s ev t = 0).
    { destruct ev; try reflexivity. cbn [dead_at_push1 ev_thread] in *. destruct (tid_eqb_spec t0 t); [congruence|reflexivity]. }
    assert (E3 : step_sum (issued1 P) s ev t = 0).
    { unfold step_sum. destruct (pre_atomic s ev) as [[s' t']|] eqn:E; [|reflexivity].
      rewrite (pre_atomic_thread _ _ _ _ E). destruct (tid_eqb_spec (ev_thread ev) t); [congruence|reflexivity]. }
    rewrite E1, E2, E3. lia. }
  subst t. unfold step_sum. rewrite (step_pre s ev) in *.
  destruct (pre_atomic s ev) as [[s' t']|] eqn:Epre.
  - (* an atomic phase of this thread: its prefix removes a mailbox word, or installs HandleEnvelop's program *)
    destruct (pre_atomic_cases _ _ _ _ Epre) as [-> Hc]. rewrite tid_eqb_refl, (atomic_balance P HP FUEL s' _ Herr).
    pose proof (ProofsSup.err_false_before_run_atomic _ _ _ Herr) as Es'.
    assert (Z1 : pushed1 P s ev (ev_thread ev) = 0) by (destruct ev; try reflexivity; discriminate Epre).
    assert (Z2 : dead_at_push1 P s ev (ev_thread ev) = 0) by (destruct ev; try reflexivity; discriminate Epre).
    rewrite Z1, Z2.
    enough (Hpl : pend_list P (pend_of s' (ev_thread ev)) = pend_list P (pend_of s (ev_thread ev))) by lia.
    destruct Hc as [(a & x & e & -> & Hg & Hc & ->)|[_ [->|(i & rest & Hp & Hi & Hs')]]]; [| reflexivity |].
    + rewrite (pend_of_set_pend_ok _ _ _ Es'), dispatch_no_user by exact HP.
      cbn [ev_thread pend_of]. rewrite Hg. destruct W as [Wa _].
      destruct (Forall_nth _ _ _ _ Wa Hg) as [->|(md & l & Hb & _)]; [reflexivity|congruence].
    + rewrite Hp. replace (pend_of s' (ev_thread ev)) with rest
        by (destruct Hs' as [E|E]; rewrite E in *; symmetry; apply pend_of_set_pend_ok, Es').
      cbn [pend_list]. destruct Hi as [<-|[<-|[<-|[<-|[]]]]]; reflexivity.
  - destruct (no_atomic_cases s ev Epre Herr) as [(a & [-> |[-> | ->]])|[(t & k & ->)|(t & x & rest & -> & Hp & Hg & Hpa)]];
      cbn [step ev_thread pushed1 dead_at_push1] in *.
    + destruct (ProofsSup.consumer_pend_frame s a (TA a)) as (E & _ & _). cbn [step] in E. rewrite E. lia.
    + destruct (ProofsSup.consumer_pend_frame s a (TA a)) as (_ & E & _). cbn [step] in E. rewrite E. lia.
    + destruct (ProofsSup.consumer_pend_frame s a (TA a)) as (_ & _ & E). cbn [step] in E. rewrite E. lia.
    + rewrite tid_eqb_refl. cbn [pushes1]. fold (step s (EvPush t k)) in *.
      destruct (push_of s t k) as [[tgt e]|] eqn:Epo; [|rewrite (step_push_none _ _ _ Epo) in Herr; discriminate Herr].
      destruct (step_push _ _ _ _ _ Epo) as (i & rest & Hp & E). rewrite E in *.
      rewrite (pend_of_set_pend_ok _ _ _ Herr), Hp, pend_list_app. unfold push_of in Epo. rewrite Hp in Epo.
      (* what lands is the envelope of the instruction, or its dead-letter report, which is not of class P *)
      assert (Lw : forall mb e0, Some (landing mb e0) = Some (tgt, e) ->
                b2n (P (e_msg e)) + match mb with MbDead => b2n (P (e_msg e0)) | _ => 0 end = b2n (P (e_msg e0)))
        by (intros mb e0 [= E0]; pose proof (landing_weight P mb e0 HP) as L; rewrite E0 in L; exact L).
      destruct i; try discriminate Epo; cbn [push_left pend_list pend1].
      * specialize (Lw _ _ Epo). cbn [e_msg] in Lw. destruct to; lia.
      * injection Epo as _ <-. lia.
      * destruct (nth_error tos k) as [to|] eqn:En; [|discriminate Epo]. specialize (Lw _ _ Epo). cbn [e_msg] in Lw.
        pose proof (remove_nth_length tos k to En) as Hlen.
        destruct (firstn k tos ++ skipn (S k) tos); cbn [pend_list pend1 length] in *; destruct (fst (resolve s to)); nia.
      * destruct (nth_error remaining k) as [to|] eqn:En; [|discriminate Epo]. specialize (Lw _ _ Epo). cbn [e_msg] in Lw.
        pose proof (remove_nth_length remaining k to En) as Hlen.
        cbn [pend_list pend1 length] in *. destruct (fst (resolve s to)); nia.
    + rewrite Hp, Hg, Hpa in *. rewrite (pend_of_set_pend_ok _ _ _ Herr). cbn [pend_list pend1]. lia.
Qed.

Theorem thread_balance_run P : user_class P -> forall evs s t,
  wf s -> err (run_events evs s) = false ->
  pend_list P (pend_of (run_events evs s) t) + pushed P evs s t + dead_at_push P evs s t =
  pend_list P (pend_of s t) + issued P evs s t.
Proof.
  intros HP. induction evs as [|ev r IH]; intros s t W Herr.
  - cbn. lia.
  - change (run_events (ev :: r) s) with (run_events r (step s ev)) in *.
    pose proof (err_false_run_head r s ev Herr) as He.
    pose proof (step_thread_balance P s ev t HP W He) as B1.
    pose proof (IH (step s ev) t (proj1 (step_wf_held s ev W He)) Herr) as B2.
    unfold issued in *. cbn [pushed dead_at_push run_sum]. lia.
Qed.

Lemma pend_zero_init P scs t : pend_list P (pend_of (init_with scs) t) = 0.
Proof. destruct (pend_of_init scs t) as [sc E]. change (pend_of (init_with scs) t = map IAct sc) in E. rewrite E. apply pend_list_map_act. Qed.

Theorem thread_history P scs evs t :
  user_class P -> err (run_events evs (init_with scs)) = false ->
  issued P evs (init_with scs) t =
  pushed P evs (init_with scs) t + dead_at_push P evs (init_with scs) t + pend_list P (pend_of (run_events evs (init_with scs)) t).
Proof.
  intros HP He. pose proof (thread_balance_run P HP evs (init_with scs) t (ProofsMailAcct.wf_init scs) He) as H.
  rewrite pend_zero_init in H. lia.
Qed.

Lemma quiescent_no_pending s t : quiescent s = true -> pend_of s t = [].
Proof.
  unfold quiescent. intros H. apply andb_prop in H as [Ha Hx]. rewrite forallb_forall in Ha, Hx.
  destruct t as [a|i]; cbn [pend_of].
  - destruct (get s a) as [x|] eqn:Hg; [|reflexivity].
    specialize (Ha x (nth_error_In _ _ Hg)). unfold idle_actor in Ha. destruct (a_pend x); [reflexivity|discriminate Ha].
  - destruct (nth_error (exts s) i) as [ex|] eqn:Hn; [|reflexivity].
    specialize (Hx ex (nth_error_In _ _ Hn)). destruct (x_pend ex); [reflexivity|discriminate Hx].
Qed.

Theorem thread_history_quiescent P scs evs t :
  user_class P -> err (run_events evs (init_with scs)) = false -> quiescent (run_events evs (init_with scs)) = true ->
  issued P evs (init_with scs) t = pushed P evs (init_with scs) t + dead_at_push P evs (init_with scs) t.
Proof.
  intros HP He Hq. rewrite (thread_history P scs evs t HP He), (quiescent_no_pending _ t Hq). cbn [pend_list]. lia.
Qed.

Lemma issued1_split P s t i : issued1 P s t i = sent1 P s t i + untaken1 P s t i.
Proof.
  unfold issued1, sent1, untaken1. destruct (get s (self_of t)) as [x|]; [|reflexivity].
  destruct i; try reflexivity. destruct a; try reflexivity; lia.
Qed.

Lemma trace_sum_split (f g h : state -> tid -> instr -> nat) t tr :
  (forall s i, f s t i = g s t i + h s t i) -> trace_sum f t tr = trace_sum g t tr + trace_sum h t tr.
Proof. intros E. unfold trace_sum. induction tr as [|p tr IH]; [reflexivity|]. cbn [fold_right]. rewrite E, IH. lia. Qed.

Theorem issued_split P evs : forall s t, issued P evs s t = sent P evs s t + untaken P evs s t.
Proof.
  unfold issued, sent, untaken. induction evs as [|ev r IH]; intros s t; [reflexivity|].
  cbn [run_sum]. rewrite IH. unfold step_sum. destruct (pre_atomic s ev) as [[s' t']|]; [|lia].
  destruct (tid_eqb t' t); [|lia]. rewrite !atomic_sum_trace, (trace_sum_split (issued1 P) (sent1 P) (untaken1 P) t _ (fun s0 i => issued1_split P s0 t i)). lia.
Qed.

Lemma untaken1_sops P s t i : untaken1 P s t i = cnt_env P (taken_of (self_of t) (instr_sops s t i)).
Proof.
  unfold untaken1, instr_sops. destruct (get s (self_of t)) as [x|]; [|reflexivity].
  destruct i; try reflexivity. destruct a; try reflexivity.
  - destruct (a_cur x); cbn [taken_of flat_map]; reflexivity.
  - destruct (a_stash x) as [|e0 r] eqn:Es.
    + rewrite firstn_nil. reflexivity.
    + rewrite <- Es. cbn [taken_of flat_map]. rewrite Nat.eqb_refl, app_nil_r. reflexivity.
Qed.

Lemma atomic_untaken_sops P n s t :
  atomic_sum (untaken1 P) n s t = cnt_env P (taken_of (self_of t) (atomic_sops n s t)).
Proof.
  rewrite atomic_sum_trace, atomic_sops_trace. unfold trace_sum, trace_sops.
  induction (atomic_trace n s t) as [|p tr IH]; [reflexivity|].
  cbn [fold_right]. rewrite taken_app, cnt_env_app, IH, untaken1_sops. reflexivity.
Qed.

Lemma taken_of_foreign b ops : Forall (fun o => sop_actor o <> b) ops -> taken_of b ops = [].
Proof. intros F. apply (proj2 (parked_of_foreign b ops F)). Qed.

Theorem untaken_is_taken P b : b <> 0%nat -> forall evs s,
  untaken P evs s (TA b) = cnt_env P (taken_of b (run_sops evs s)).
Proof.
  intros Hb. unfold untaken. induction evs as [|ev r IH]; intros s; [reflexivity|].
  cbn [run_sum run_sops]. rewrite taken_app, cnt_env_app, IH. f_equal.
  unfold step_sum, step_sops. destruct (pre_atomic s ev) as [[s' t']|] eqn:E; [|reflexivity].
  destruct (tid_eqb_spec t' (TA b)) as [->|Nt].
  - apply (atomic_untaken_sops P FUEL s' (TA b)).
  - rewrite taken_of_foreign; [reflexivity|].
    eapply Forall_impl; [|apply atomic_sops_actor]. cbn. intros o Ho. rewrite Ho.
    destruct t' as [c|k]; cbn [self_of]; [congruence|auto].
Qed.

Theorem parked_count P scs evs b :
  cnt_env P (parked_of b (run_sops evs (init_with scs))) =
  cnt_env P (taken_of b (run_sops evs (init_with scs))) + cnt_env P (stash_at (run_events evs (init_with scs)) b).
Proof. rewrite (history_balance scs evs b), cnt_env_app. reflexivity. Qed.

Theorem actor_books P scs evs b :
  user_class P -> b <> 0%nat -> err (run_events evs (init_with scs)) = false ->
  sent P evs (init_with scs) (TA b) + cnt_env P (parked_of b (run_sops evs (init_with scs))) =
  pushed P evs (init_with scs) (TA b) + dead_at_push P evs (init_with scs) (TA b) +
  pend_list P (pend_of (run_events evs (init_with scs)) (TA b)) + cnt_env P (stash_at (run_events evs (init_with scs)) b).
Proof.
  intros HP Hb He. pose proof (thread_history P scs evs (TA b) HP He) as H1.
  rewrite issued_split, (untaken_is_taken P b Hb) in H1. rewrite (parked_count P scs evs b). lia.
Qed.
