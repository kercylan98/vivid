(** Base lemmas about ActorCore for the C03 / C09 proofs: list updates, [get]/[set_actor], unfolding of
    [run_atomic] and an induction principle for it; what one instruction does ([exec1_local], [exec1_spawn]) and
    what it may put in front of the pending list ([emits]); relations between actor tables that hold across a
    primitive as soon as they hold across its record update ([trel]), with the pointwise projections [keeps] as the
    first instance. *)
From Coq Require Import List NArith Bool Arith.
From Vivid Require Import Actor.Core Actor.CoreRun Actor.SpecMail.
Import ListNotations.

Lemma upd_length {A} (l : list A) i x : length (upd l i x) = length l.
Proof. revert i; induction l as [|h t IH]; intros [|i]; cbn [upd length]; auto. Qed.

Lemma nth_upd_eq {A} (l : list A) i x : i < length l -> nth_error (upd l i x) i = Some x.
Proof.
  revert i; induction l as [|h t IH]; intros [|i] H; cbn [upd length nth_error] in *; try (inversion H; fail); auto.
  apply IH, Nat.succ_lt_mono, H.
Qed.

Lemma nth_upd_neq {A} (l : list A) i j x : i <> j -> nth_error (upd l i x) j = nth_error l j.
Proof. revert i j; induction l as [|h t IH]; intros [|i] [|j] H; cbn [upd nth_error]; try congruence; auto. Qed.

Lemma nth_upd_none {A} (l : list A) i x : nth_error l i = None -> upd l i x = l.
Proof. revert i; induction l as [|h t IH]; intros [|i] H; cbn [upd nth_error] in *; try congruence; auto. f_equal; auto. Qed.

Lemma upd_same {A} (l : list A) i x : nth_error l i = Some x -> upd l i x = l.
Proof. revert i; induction l as [|h t IH]; intros [|i] H; cbn [upd nth_error] in *; try congruence. f_equal; auto. Qed.

Lemma upd_upd {A} (l : list A) i x y : upd (upd l i x) i y = upd l i y.
Proof. revert i; induction l as [|h t IH]; intros [|i]; cbn [upd]; auto. f_equal; auto. Qed.

Lemma upd_app_l {A} (l r : list A) i x : i < length l -> upd (l ++ r) i x = upd l i x ++ r.
Proof.
  revert i; induction l as [|h t IH]; intros [|i] H; cbn [upd length app] in *; try (inversion H; fail); auto.
  f_equal. apply IH, Nat.succ_lt_mono, H.
Qed.

Lemma nth_error_lt {A} (l : list A) i x : nth_error l i = Some x -> i < length l.
Proof. intros H. apply nth_error_Some. congruence. Qed.

Lemma map_upd {A B} (f : A -> B) l i y : map f (upd l i y) = upd (map f l) i (f y).
Proof. revert i. induction l; intros [|i]; cbn [upd map]; auto. f_equal; auto. Qed.

Lemma Forall_upd {A} (P : A -> Prop) l i y : Forall P l -> P y -> Forall P (upd l i y).
Proof. intros Hl Hy. revert i. induction Hl; intros [|i]; cbn [upd]; constructor; auto. Qed.

Lemma Forall_nth {A} (P : A -> Prop) l i x : Forall P l -> nth_error l i = Some x -> P x.
Proof. intros Hl Hn. rewrite Forall_forall in Hl. apply Hl. eapply nth_error_In; exact Hn. Qed.

Lemma firstn_In {A} n (l : list A) a : In a (firstn n l) -> In a l.
Proof. intros H. rewrite <- (firstn_skipn n l). apply in_or_app. left. exact H. Qed.

Lemma get_set_same s a x : a < length (actors s) -> get (set_actor s a x) a = Some x.
Proof. intros H. unfold get, set_actor; cbn [actors]. apply nth_upd_eq; auto. Qed.

Lemma get_set_same' s a x y : get s a = Some y -> get (set_actor s a x) a = Some x.
Proof. intros H. apply get_set_same. eapply nth_error_lt; eauto. Qed.

Lemma get_set_other s a b x : a <> b -> get (set_actor s a x) b = get s b.
Proof. intros H. unfold get, set_actor; cbn [actors]. apply nth_upd_neq; auto. Qed.

Lemma get_set_actor_dec s a x y b : get s a = Some x -> get (set_actor s a y) b = if Nat.eqb a b then Some y else get s b.
Proof.
  intros Hg. destruct (Nat.eqb_spec a b) as [<-|Hne]; [exact (get_set_same' _ _ _ _ Hg)|apply get_set_other; exact Hne].
Qed.

Lemma with_actor_some s a f x : get s a = Some x -> with_actor s a f = set_actor s a (f x).
Proof. intros H. unfold with_actor. rewrite H. reflexivity. Qed.

Lemma with_actor_none s a f : get s a = None -> with_actor s a f = set_err s.
Proof. intros H. unfold with_actor. rewrite H. reflexivity. Qed.

Lemma set_actor_same s a x : get s a = Some x -> set_actor s a x = s.
Proof. intros H. unfold set_actor. rewrite (upd_same _ _ _ H). destruct s; reflexivity. Qed.

Definition FUEL4 : nat := FUEL - 4.
Lemma FUEL_eq : FUEL = S (S (S (S FUEL4))).
Proof. reflexivity. Qed.
Global Opaque FUEL.

Lemma run_atomic_S f s t :
  run_atomic (S f) s t =
  match pend_of s t with
  | [] => s
  | IEnq sys to sender m :: rest => let (mb, s1) := resolve s to in set_pend s1 t (IEnqR sys mb sender m :: rest)
  | i :: rest =>
      if yielding i then s
      else let s0 := set_pend s t rest in
           let (s1, front) := exec1 s0 t (held_of s0 t) i in
           run_atomic f (set_pend s1 t (front ++ pend_of s1 t)) t
  end.
Proof. reflexivity. Qed.

Lemma run_atomic_nil f s t : pend_of s t = [] -> run_atomic (S f) s t = s.
Proof. intros H. rewrite run_atomic_S, H. reflexivity. Qed.

Lemma run_atomic_yield f s t i rest : pend_of s t = i :: rest -> yielding i = true -> run_atomic (S f) s t = s.
Proof. intros H Hy. rewrite run_atomic_S, H. destruct i; try discriminate Hy; try reflexivity. destruct remaining; [discriminate Hy|reflexivity]. Qed.

Definition is_enq (i : instr) : bool := match i with IEnq _ _ _ _ => true | _ => false end.
Lemma run_atomic_exec f s t i rest :
  pend_of s t = i :: rest -> yielding i = false -> is_enq i = false ->
  run_atomic (S f) s t =
  (let s0 := set_pend s t rest in
   let (s1, front) := exec1 s0 t (held_of s0 t) i in
   run_atomic f (set_pend s1 t (front ++ pend_of s1 t)) t).
Proof. intros H Hy He. rewrite run_atomic_S, H. destruct i; try discriminate He; try discriminate Hy; try reflexivity. destruct remaining; [reflexivity|discriminate Hy]. Qed.

Lemma run_atomic_enq f s t sys to sender m rest :
  pend_of s t = IEnq sys to sender m :: rest ->
  run_atomic (S f) s t = set_pend (snd (resolve s to)) t (IEnqR sys (fst (resolve s to)) sender m :: rest).
Proof. intros H. rewrite run_atomic_S, H. destruct (resolve s to). reflexivity. Qed.

Lemma run_atomic_rel (R : state -> state -> Prop) (t : tid) :
  (forall s, R s s) -> (forall a b c, R a b -> R b c -> R a c) ->
  (forall s, R s (set_err s)) ->
  (forall s l, R s (set_pend s t l)) ->
  (forall s r, R s (snd (resolve s r))) ->
  (forall s h i, R s (fst (exec1 s t h i))) ->
  forall f s, R s (run_atomic f s t).
Proof.
  intros Hr Ht He Hp Hres Hex. induction f as [|f IH]; intros s; [apply He|].
  rewrite run_atomic_S. destruct (pend_of s t) as [|i rest]; [apply Hr|].
  assert (Hgen : R s (if yielding i then s
      else let s0 := set_pend s t rest in let (s1, front) := exec1 s0 t (held_of s0 t) i in
           run_atomic f (set_pend s1 t (front ++ pend_of s1 t)) t)).
  { destruct (yielding i); [apply Hr|]. cbv zeta.
    destruct (exec1 (set_pend s t rest) t (held_of (set_pend s t rest) t) i) as [s1 front] eqn:E.
    eapply Ht; [apply Hp|]. eapply Ht; [|eapply Ht; [apply Hp|apply IH]].
    replace s1 with (fst (exec1 (set_pend s t rest) t (held_of (set_pend s t rest) t) i)) by (rewrite E; reflexivity).
    apply Hex. }
  destruct i; try exact Hgen.
  destruct (resolve s to) as [mb s1] eqn:E. eapply Ht; [|apply Hp].
  replace s1 with (snd (resolve s to)) by (rewrite E; reflexivity). apply Hres.
Qed.

Lemma set_err_actors s : actors (set_err s) = actors s. Proof. reflexivity. Qed.

Lemma set_pend_TX_actors s i l : actors (set_pend s (TX i) l) = actors s.
Proof. unfold set_pend. destruct (nth_error (exts s) i); reflexivity. Qed.

Lemma set_pend_TA s a l x : get s a = Some x -> set_pend s (TA a) l = set_actor s a (upd_pend x l).
Proof. intros H. unfold set_pend. apply (with_actor_some s a (fun x => upd_pend x l) x H). Qed.

Lemma set_pend_TA_none s a l : get s a = None -> set_pend s (TA a) l = set_err s.
Proof. intros H. unfold set_pend. apply with_actor_none; exact H. Qed.

Lemma pend_of_set_pend_ok s t p : err (set_pend s t p) = false -> pend_of (set_pend s t p) t = p.
Proof.
  destruct t as [a|j]; intros He.
  - destruct (get s a) as [x|] eqn:E.
    + rewrite (set_pend_TA _ _ _ _ E) in *. cbn [pend_of]. rewrite (get_set_same' _ _ _ _ E). reflexivity.
    + rewrite (set_pend_TA_none _ _ _ E) in He. discriminate He.
  - cbn [set_pend] in *. destruct (nth_error (exts s) j) as [ex|] eqn:E; [|discriminate He].
    cbn [pend_of set_ext exts]. rewrite nth_upd_eq by (eapply nth_error_lt; exact E). reflexivity.
Qed.

(** [resolve] only ever fills a cache *)
Definition set_cache (x : actor) (c : option aid) : actor :=
  {| a_path := a_path x; a_gen := a_gen x; a_parent := a_parent x; a_spec := a_spec x; a_state := a_state x;
     a_zombie := a_zombie x; a_restarting := a_restarting x; a_children := a_children x; a_watchers := a_watchers x;
     a_stash := a_stash x; a_modes := a_modes x; a_inst := a_inst x; a_decisions := a_decisions x; a_hooks := a_hooks x;
     a_cache := c; a_sq := a_sq x; a_uq := a_uq x; a_paused := a_paused x; a_cons := a_cons x; a_cur := a_cur x;
     a_pend := a_pend x |}.

Lemma resolve_shape s r :
  snd (resolve s r) = s \/ snd (resolve s r) = set_err s \/
  exists a x y, r = RObj a /\ get s a = Some x /\ a_cache x = None /\ alookup (reg s) (a_path x) = Some y /\
                snd (resolve s r) = set_actor s a (set_cache x (Some y)) /\ fst (resolve s r) = MbActor y.
Proof.
  unfold resolve. destruct r as [a|p|]; [|destruct (alookup (reg s) p); [|destruct (path_eqb p [])]; auto|auto].
  destruct (get s a) as [x|] eqn:E; [|auto].
  destruct (a_cache x) eqn:Ec; [auto|].
  destruct (alookup (reg s) (a_path x)) as [y|] eqn:Er; [|destruct (path_eqb (a_path x) []); auto].
  right; right. exists a, x, y. repeat split; auto.
Qed.

Definition enq (x : actor) (e : envelope) : actor :=
  set_mb x (if e_sys e then a_sq x ++ [e] else a_sq x) (if e_sys e then a_uq x else a_uq x ++ [e]) (a_paused x) (a_cons x) (a_cur x).
Lemma push_mb_enq s a e : push_mb s a e = with_actor s a (fun x => enq x e).
Proof. reflexivity. Qed.
Lemma push_mb_none s a e : get s a = None -> push_mb s a e = set_err s.
Proof. intros H. unfold push_mb. apply with_actor_none. exact H. Qed.

Lemma deliver_eq s mb e : deliver s mb e = (push_mb s (fst (landing mb e)) (snd (landing mb e)), fst (landing mb e)).
Proof. destruct mb; reflexivity. Qed.

(** Effect of [exec1]: the executing context's own record is replaced by a record that differs only in
    actor-local fields; only ActorOf appends a record (and touches [gens], [exts]), only ActorOf and the cleanup touch
    the registry *)
Record local_upd (i : instr) (x y : actor) : Prop := {
  lu_path : a_path y = a_path x; lu_gen : a_gen y = a_gen x; lu_parent : a_parent y = a_parent x;
  lu_spec : a_spec y = a_spec x; lu_cache : a_cache y = a_cache x;
  lu_sq : a_sq y = a_sq x; lu_uq : a_uq y = a_uq x; lu_paused : a_paused y = a_paused x; lu_pend : a_pend y = a_pend x;
  lu_watchers : a_watchers y = a_watchers x; lu_decisions : a_decisions y = a_decisions x;
  lu_cons : a_cons y = a_cons x \/ (i = IEndHandler /\ a_cons y = C1) \/ (i = IRestartFinish /\ a_cons y = CBusy 0%N);
  lu_cur : a_cur y = a_cur x \/ i = ICheckMark \/ i = IRestartFinish;
  lu_stash : a_stash y = a_stash x \/ i = IAct AStash \/ (exists n, i = IAct (AUnstash n));
  lu_state : a_state y = a_state x \/ (i = ICheckMark /\ a_state x = Killing /\ a_state y = Killed) \/
             (i = IRestartFinish /\ a_state y = Running);
  lu_zombie : a_zombie y = a_zombie x \/ (i = IUnzombie /\ a_zombie y = false) \/ (i = IRestartFinish /\ a_zombie y = true);
  lu_children : a_children y = a_children x \/ (exists sp, i = IAct (ASpawn sp)) \/ (exists w, i = IOnKilled w);
  lu_restarting : a_restarting y = a_restarting x \/ i = IRestartFinish;
  lu_inst : a_inst y = a_inst x \/ i = IRestartFinish;
}.

Lemma local_upd_refl i x : local_upd i x x.
Proof. constructor; auto. Qed.

Definition is_new (n : actor) : Prop := exists p g par sp, n = new_actor p g par sp.

Lemma exec1_none s t h i : get s (self_of t) = None -> exec1 s t h i = (set_err s, []).
Proof. intros H. unfold exec1. rewrite H. reflexivity. Qed.

Lemma spawn_dec i : {sp | i = IAct (ASpawn sp)} + {forall sp, i <> IAct (ASpawn sp)}.
Proof. destruct i as [| | | | | | | | |[]| | | | | | | | | | | |]; try (right; discriminate). left. eexists. reflexivity. Qed.

(* the fields of [local_upd] for a record written by one branch of [exec1]: each is [reflexivity] or the disjunct naming
   the instruction *)
Ltac lu_solve := constructor; cbn; auto 6; try (right; eauto; fail).

Definition writes_subs (i : instr) : Prop :=
  match i with ICleanup | IAct (ASub _) | IAct (AUnsub _) | IAct AUnsubAll => True | _ => False end.

Lemma exec1_local s t h i x :
  get s (self_of t) = Some x -> (forall sp, i <> IAct (ASpawn sp)) ->
  let s' := fst (exec1 s t h i) in
  exists y, local_upd i x y /\ actors s' = upd (actors s) (self_of t) y /\ exts s' = exts s /\ gens s' = gens s /\
    reg s' = match i with ICleanup => aremove (reg s) (a_path x) | _ => reg s end /\
    (olog s' = olog s \/ exists o, olog s' = olog s ++ [o] /\ ((exists m acts r, i = IBeh m acts r) \/ i = IObs o)) /\
    (ghost s' = ghost s \/ (ghost s' = ghost s ++ [OGuardClosed] /\ a_parent x = None)) /\
    (err s = true -> err s' = true) /\
    (subs s' = subs s \/ writes_subs i).
Proof.
  intros Hg Hns. cbv zeta.
  (* the statement as a predicate [P j r] of the instruction and the result, so that the case analysis of [exec1]
     carries a small goal; its leaves are of six kinds *)
  set (P := fun (j : instr) (r : state * list instr) =>
    exists y, local_upd j x y /\ actors (fst r) = upd (actors s) (self_of t) y /\ exts (fst r) = exts s /\ gens (fst r) = gens s /\
      reg (fst r) = match j with ICleanup => aremove (reg s) (a_path x) | _ => reg s end /\
      (olog (fst r) = olog s \/ exists o, olog (fst r) = olog s ++ [o] /\ ((exists m acts r0, j = IBeh m acts r0) \/ j = IObs o)) /\
      (ghost (fst r) = ghost s \/ (ghost (fst r) = ghost s ++ [OGuardClosed] /\ a_parent x = None)) /\
      (err s = true -> err (fst r) = true) /\
      (subs (fst r) = subs s \/ writes_subs j)).
  change (P i (exec1 s t h i)).
  assert (Hid : actors s = upd (actors s) (self_of t) x) by (symmetry; apply upd_same; exact Hg).
  assert (Hrg : forall j, j <> ICleanup -> match j with ICleanup => aremove (reg s) (a_path x) | _ => reg s end = reg s).
  { intros j Hj. destruct j; try reflexivity. destruct (Hj eq_refl). }
  assert (Hsame : forall j l, j <> ICleanup -> P j (s, l)).
  { intros j l Hj. exists x. rewrite (Hrg j Hj). split; [apply local_upd_refl|]. cbn. auto 12. }
  assert (Herr : forall j l, j <> ICleanup -> P j (set_err s, l)).
  { intros j l Hj. exists x. rewrite (Hrg j Hj). split; [apply local_upd_refl|]. cbn. auto 12. }
  assert (Hsubs : forall j sb l, j <> ICleanup -> writes_subs j -> P j (set_subs s sb, l)).
  { intros j sb l Hj Hw. exists x. rewrite (Hrg j Hj). split; [apply local_upd_refl|]. cbn. auto 12. }
  assert (Hset : forall j y l, j <> ICleanup -> local_upd j x y -> P j (set_actor s (self_of t) y, l)).
  { intros j y l Hj Hy. exists y. rewrite (Hrg j Hj). split; [exact Hy|]. cbn. auto 12. }
  assert (Hobs : forall j o l, j <> ICleanup -> (exists m acts r0, j = IBeh m acts r0) \/ j = IObs o -> P j (add_obs s o, l)).
  { intros j o l Hj Ho. exists x. rewrite (Hrg j Hj). split; [apply local_upd_refl|]. cbn. eauto 14. }
  unfold exec1. rewrite Hg.
  destruct i; try (apply Hsame; discriminate); try (apply Herr; discriminate).
  - destruct remaining; [apply Hsame|apply Herr]; discriminate.
  - destruct a; try (apply Hsame; discriminate).
    + destruct (Hns sp eq_refl).
    + destruct (a_cur x); [apply Hset; [discriminate|lu_solve]|apply Herr; discriminate].
    + destruct n as [n|]; [destruct (Nat.eqb (length (a_stash x)) 0)|destruct (a_stash x)];
        first [apply Hsame; discriminate|apply Hset; [discriminate|lu_solve]].
    + destruct (alookup (subscribers s ty) (a_path x)); [apply Hsame; discriminate|apply Hsubs; [discriminate|exact I]].
    + destruct (nlookup (subs s) ty); [apply Hsubs; [discriminate|exact I]|apply Hsame; discriminate].
    + apply Hsubs; [discriminate|exact I].
    + apply Hset; [discriminate|lu_solve].
    + apply Hset; [discriminate|lu_solve].
  - destruct (a_zombie x); [apply Hsame; discriminate|]. destruct (a_parent x) eqn:Hp.
    + destruct (take_until_panic acts). apply Hobs; [discriminate|eauto].
    + destruct m; try (apply Hsame; discriminate). destruct (ref_eq s who (RObj (self_of t))); [|apply Hsame; discriminate].
      exists x. split; [apply local_upd_refl|]. cbn. auto 12.
  - destruct (subscribers s ty); apply Hsame; discriminate.
  - destruct (a_zombie x); [apply Hsame; discriminate|]. destruct (ref_eq s who (RObj (self_of t))); [apply Hsame; discriminate|].
    apply Hset; [discriminate|].
    repeat match goal with |- context[match ?e with _ => _ end] => destruct e end; lu_solve.
  - destruct (a_children x); [|apply Hsame; discriminate]. destruct (a_state x) eqn:Est; first [apply Hsame; discriminate|apply Hset; [discriminate|lu_solve]].
  - exists x. split; [apply local_upd_refl|]. cbn. auto 14.
  - destruct (a_hooks x) as [|[[h1 h2] h3] rest]; [|destruct (h2 && h3)]; destruct (sp_provider (a_spec x)); (apply Hset; [discriminate|lu_solve]).
  - apply Hset; [discriminate|lu_solve].
  - destruct d; apply Hsame; discriminate.
  - apply Hobs; [discriminate|auto].
  - apply Hset; [discriminate|lu_solve].
Qed.

(** Context.ActorOf: refused (parent stopped, prelaunch failed, name taken) with a note in the log; or the new record
    is appended, registered and entered in the parent's children, and an external caller now holds its reference *)
Lemma exec1_spawn s t h sp x :
  get s (self_of t) = Some x ->
  let p := a_path x ++ [sp_name sp] in
  let c := length (actors s) in
  (exists code, exec1 s t h (IAct (ASpawn sp)) = (add_obs s (OSpawn (self_of t) (sp_name sp) code), [])) \/
  (a_state x <> Killed /\ sp_prelaunch sp = true /\ alookup (reg s) p = None /\
   exists g s',
     exec1 s t h (IAct (ASpawn sp)) =
       (s', [IEnq true (RObj c) (RObj (self_of t)) MLaunch; IEnqDone; IPub evSpawned (p ++ [g])]
            ++ match a_state x with
               | Killing => [IEnq true (RObj c) (RObj (self_of t)) (MKill (RObj (self_of t)) false); IEnqDone]
               | _ => []
               end
            ++ [IObs (OSpawn (self_of t) (sp_name sp) 0)]) /\
     actors s' = upd (actors s) (self_of t) (set_children x (aset (a_children x) p c)) ++ [new_actor p g (Some (self_of t)) sp] /\
     reg s' = reg s ++ [(p, c)] /\ map x_pend (exts s') = map x_pend (exts s) /\ (forall a, t = TA a -> exts s' = exts s) /\
     subs s' = subs s /\ olog s' = olog s /\ ghost s' = ghost s /\ err s' = err s /\
     g = match alookup (gens s) p with Some g0 => g0 | None => 0%N end /\ gens s' = aset (gens s) p (g + 1)%N).
Proof.
  intros Hg. cbv zeta. unfold exec1. rewrite Hg.
  assert (Hl : self_of t < length (actors s)) by (eapply nth_error_lt; exact Hg).
  destruct (sp_prelaunch sp) eqn:Hpl; cbn [negb]; [|destruct (a_state x); left; eexists; reflexivity].
  destruct (alookup (reg s) (a_path x ++ [sp_name sp])) eqn:Hr; [destruct (a_state x); left; eexists; reflexivity|].
  destruct (a_state x) eqn:Hs; [right|right|left; eexists; reflexivity].
  all: (split; [discriminate|split; [reflexivity|split; [reflexivity|]]]).
  all: match goal with |- context[with_actor ?s1 _ _] =>
         assert (Hg1 : get s1 (self_of t) = Some x)
           by (unfold get; cbn [actors]; rewrite nth_error_app1 by exact Hl; exact Hg);
         rewrite (with_actor_some _ _ _ _ Hg1) end.
  all: eexists; eexists; split; [reflexivity|].
  all: cbn [set_actor actors reg exts subs olog ghost err]; rewrite upd_app_l by exact Hl.
  all: repeat split; try reflexivity; try (intros a ->; reflexivity).
  all: destruct t as [a0|j]; [reflexivity|]; destruct (nth_error (exts s) j) as [ex|] eqn:E; [|reflexivity].
  all: rewrite map_upd; apply upd_same; rewrite nth_error_map, E; reflexivity.
Qed.

Lemma exec1_actors s t h i x :
  get s (self_of t) = Some x ->
  exists y news, local_upd i x y /\ Forall is_new news /\
                 actors (fst (exec1 s t h i)) = upd (actors s) (self_of t) y ++ news.
Proof.
  intros Hg. destruct (spawn_dec i) as [[sp ->]|Hns].
  - destruct (exec1_spawn s t h sp x Hg) as [[code ->]|(_ & _ & _ & g & s' & -> & Ha & _)]; cbn [fst].
    + exists x, []. split; [apply local_upd_refl|split; [constructor|]].
      rewrite app_nil_r. symmetry. apply upd_same. exact Hg.
    + eexists. eexists. split; [|split; [|exact Ha]]; [lu_solve|]. constructor; [do 4 eexists; reflexivity|constructor].
  - destruct (exec1_local s t h i x Hg Hns) as (y & Hy & Ha & _). exists y, []. rewrite app_nil_r. auto using Forall_nil.
Qed.

Lemma exec1_get_self s t h i x :
  get s (self_of t) = Some x -> exists y, get (fst (exec1 s t h i)) (self_of t) = Some y /\ local_upd i x y.
Proof.
  intros Hg. destruct (exec1_actors s t h i x Hg) as (y & news & Hy & _ & Ha). exists y. split; [|exact Hy].
  pose proof (nth_error_lt _ _ _ Hg) as Hl. unfold get. rewrite Ha, nth_error_app1 by (rewrite upd_length; exact Hl).
  apply nth_upd_eq. exact Hl.
Qed.

Lemma take_until_panic_In acts a : In a (fst (take_until_panic acts)) -> In a acts.
Proof.
  induction acts as [|b r IH]; cbn [take_until_panic]; [tauto|].
  destruct (take_until_panic r) as [p pan]. destruct b; cbn; tauto.
Qed.

(** [emits s self h x i j]: instruction [i], executed by the context [self] with record [x], may put [j] in front of
    the pending list *)
Inductive emits (s : state) (self : aid) (h : list aid) (x : actor) : instr -> instr -> Prop :=
| em_done i : emits s self h x i IEnqDone
| em_tell r tag acts :
    emits s self h x (IAct (ATell r tag acts)) (IEnq false (eval_ref s self h r) (RObj self) (MUser tag acts))
| em_tell_self tag acts :
    emits s self h x (IAct (ATellSelf tag acts)) (IEnqMb self {| e_sys := false; e_sender := RObj self; e_msg := MUser tag acts |})
| em_kill r poison :
    emits s self h x (IAct (AKill r poison)) (IEnq (negb poison) (eval_ref s self h r) (RObj self) (MKill (RObj self) poison))
| em_watch r : emits s self h x (IAct (AWatch r)) (IEnq true (eval_ref s self h r) (RObj self) MWatch)
| em_unwatch r : emits s self h x (IAct (AUnwatch r)) (IEnq true (eval_ref s self h r) (RObj self) MUnwatch)
| em_unstash n e (He : In e (a_stash x)) : emits s self h x (IAct (AUnstash n)) (IEnqMb self e)
| em_pub ty payload : emits s self h x (IAct (APub ty payload)) (IPub ty [payload])
| em_spawn_launch sp : emits s self h x (IAct (ASpawn sp)) (IEnq true (RObj (length (actors s))) (RObj self) MLaunch)
| em_spawn_pub sp g : emits s self h x (IAct (ASpawn sp)) (IPub evSpawned ((a_path x ++ [sp_name sp]) ++ [g]))
| em_spawn_kill sp (Hs : a_state x = Killing) :
    emits s self h x (IAct (ASpawn sp)) (IEnq true (RObj (length (actors s))) (RObj self) (MKill (RObj self) false))
| em_spawn_obs sp : emits s self h x (IAct (ASpawn sp)) (IObs (OSpawn self (sp_name sp) 0))
| em_beh_act m acts r a (Ha : In a acts) : emits s self h x (IBeh m acts r) (IAct a)
| em_beh_failed m acts r (Hz : a_zombie x = false) (Hp : a_parent x <> None) (Hr : r <> RecLog)
                (Hk : forall who, r = RecKilled who -> a_state x = Running /\ ref_eq s who (RObj self) = false) :
    emits s self h x (IBeh m acts r) IFailed
| em_failed_pause : emits s self h x IFailed IPauseSt
| em_failed_report : emits s self h x IFailed (IEnq true (rref_parent x) (RObj self) (MSup (SupCtx (RObj self) [] None)))
| em_failed_pub ty (Hty : ty = evFailed \/ ty = evPaused) : emits s self h x IFailed (IPub ty (actor_key x))
| em_ipub ty payload :
    emits s self h x (IPub ty payload) (IEnqAny false (map (fun p => RObj (snd p)) (subscribers s ty)) root_ref (MEvent ty payload))
| em_dokill_children poison :
    emits s self h x (IDoKill poison)
          (IEnqAny (negb poison) (map (fun p => RObj (snd p)) (a_children x)) (RObj self) (MKill (RObj self) poison))
| em_dokill_beh poison :
    emits s self h x (IDoKill poison)
          (IBeh (match a_cur x with Some e => e_msg e | None => MKill RNone poison end) (sp_kill (a_spec x)) RecLog)
| em_dokill_onkilled poison : emits s self h x (IDoKill poison) (IOnKilled (RObj self))
| em_onkilled_cleanup who (Hz : a_zombie x = true) : emits s self h x (IOnKilled who) ICleanup
| em_onkilled_unzombie who (Hz : a_zombie x = true) : emits s self h x (IOnKilled who) IUnzombie
| em_onkilled_beh who (Hz : a_zombie x = false) :
    emits s self h x (IOnKilled who) (IBeh (MKilled who) (sp_killed (a_spec x)) (RecKilled who))
| em_onkilled_mark who (Hz : a_zombie x = false) : emits s self h x (IOnKilled who) ICheckMark
| em_mark_beh (Hc : a_children x = []) (Hs : a_state x = Killing) :
    emits s self h x ICheckMark (IBeh (MKilled (RObj self)) (sp_killed (a_spec x)) RecLog)
| em_mark_cleanup (Hc : a_children x = []) (Hs : a_state x = Killing) (Hr : a_restarting x = None) : emits s self h x ICheckMark ICleanup
| em_mark_restart (Hc : a_children x = []) (Hs : a_state x = Killing) (Hr : a_restarting x <> None) : emits s self h x ICheckMark IRestartFinish
| em_cleanup_watchers : emits s self h x ICleanup (IEnqAny true (map snd (a_watchers x)) (RObj self) (MKilled (RObj self)))
| em_cleanup_parent p (Hp : a_parent x = Some p) : emits s self h x ICleanup (IEnq true (RObj p) (RObj self) (MKilled (RObj self)))
| em_cleanup_pub : emits s self h x ICleanup (IPub evKilled (actor_key x))
| em_cleanup_resume : emits s self h x ICleanup IResume1
| em_restart_resume : emits s self h x IRestartFinish IResume1
| em_restart_pub ty (Hty : ty = evRestarted \/ ty = evResumed \/ ty = evLaunched) : emits s self h x IRestartFinish (IPub ty (actor_key x))
| em_restart_beh : emits s self h x IRestartFinish (IBeh MLaunch (sp_launch (a_spec x)) RecFail)
| em_sup_restart c d tg r (Hd : d = DRestart \/ d = DGRestart) (Hr : In r tg) :
    emits s self h x (ISupApply c d tg) (IEnq (negb (is_graceful d)) r (RObj self) (MRestart (is_graceful d)))
| em_sup_stop c d tg r (Hd : d = DStop \/ d = DGStop) (Hr : In r tg) :
    emits s self h x (ISupApply c d tg) (IEnq (negb (is_graceful d)) r (RObj self) (MKill (RObj self) (is_graceful d)))
| em_sup_resume c d tg r (Hd : d <> DEscalate /\ d <> DInvalid)
                (Hr : In r (chain_targets (match c with SupCtx ch _ sub => SupCtx ch tg sub end))) :
    emits s self h x (ISupApply c d tg) (IEnq true r (RObj self) MCmdResume)
| em_sup_pause_self c d tg (Hd : d = DEscalate \/ d = DInvalid) : emits s self h x (ISupApply c d tg) IPauseSt
| em_sup_escalate c d tg (Hd : d = DEscalate \/ d = DInvalid) :
    emits s self h x (ISupApply c d tg)
          (IEnq true (rref_parent x) (RObj self) (MSup (SupCtx (RObj self) [] (Some (match c with SupCtx ch _ sub => SupCtx ch tg sub end)))))
| em_sup_pause_done c d done : emits s self h x (ISupPause c d [] done) (ISupApply c d done).

Lemma in_flat_enq {A} (f : A -> instr) l j :
  In j (flat_map (fun a => [f a; IEnqDone]) l) -> j = IEnqDone \/ exists a, In a l /\ j = f a.
Proof. rewrite in_flat_map. intros (a & Ha & [E|[E|[]]]); eauto. Qed.

(* membership in a literal list gives one goal per element, closed by its constructor *)
Ltac em := cbn [snd app In]; intros Hj; repeat destruct Hj as [<-|Hj]; try contradiction; try (econstructor; eauto; fail).

Lemma exec1_emits s t h i x j :
  get s (self_of t) = Some x -> In j (snd (exec1 s t h i)) -> emits s (self_of t) h x i j.
Proof.
  intros Hg. unfold exec1. rewrite Hg.
  destruct i; try (em; fail).
  - destruct remaining; em.
  - destruct a; try (em; fail).
    + destruct (a_state x) eqn:Hs; try (em; fail);
        (destruct (negb (sp_prelaunch sp)); [em|]); (destruct (alookup (reg s) (a_path x ++ [sp_name sp])); em).
    + destruct (a_cur x); em.
    + destruct n as [n|].
      * destruct (Nat.eqb (length (a_stash x)) 0); [em|]. cbn [snd]. intros Hj. apply in_flat_enq in Hj.
        destruct Hj as [->|(e & He & ->)]; constructor. eapply firstn_In. exact He.
      * destruct (a_stash x) eqn:Hst; em. constructor. rewrite Hst. left. reflexivity.
    + destruct (alookup (subscribers s ty) (a_path x)); em.
    + destruct (nlookup (subs s) ty); em.
  - destruct (a_zombie x) eqn:Hz; [em|]. destruct (a_parent x) eqn:Hp.
    + destruct (take_until_panic acts) as [pre pan] eqn:Ht. cbn [snd]. intros Hj. apply in_app_or in Hj. destruct Hj as [Hj|Hj].
      * apply in_map_iff in Hj. destruct Hj as (a0 & <- & Ha). constructor. apply take_until_panic_In. rewrite Ht. exact Ha.
      * revert Hj. destruct pan; [|em].
        destruct r; try destruct (a_state x) eqn:Hs; try destruct (ref_eq s who (RObj (self_of t))) eqn:Hw; em;
          constructor; try congruence; intros w [= <-]; auto.
    + destruct m; try (em; fail). destruct (ref_eq s who (RObj (self_of t))); em.
  - destruct (subscribers s ty) eqn:Hsub; em. rewrite <- Hsub. constructor.
  - destruct (a_restarting x), (a_children x) eqn:Hc; em; rewrite <- Hc; constructor.
  - destruct (a_zombie x) eqn:Hz; [em|]. destruct (ref_eq s who (RObj (self_of t))); em.
  - destruct (a_children x) eqn:Hc; [|em]. destruct (a_state x) eqn:Hs; try (em; fail). destruct (a_restarting x) eqn:Hr; em;
      constructor; congruence.
  - destruct (a_watchers x) eqn:Hw, (a_parent x) eqn:Hp; em; rewrite <- Hw; constructor.
  - destruct (a_hooks x) as [|[[h1 h2] h3] rest]; [|destruct (h2 && h3)]; em.
  - destruct d; cbn [snd is_graceful negb]; rewrite ?app_nil_r; try (em; fail); intros Hj;
      try (apply in_app_or in Hj; destruct Hj as [Hj|Hj]); apply in_flat_enq in Hj; destruct Hj as [->|(r & Hr & ->)];
      try apply em_done; econstructor; eauto; split; discriminate.
Qed.

Lemma exec1_front_all (P : instr -> bool) s t h i :
  (forall x j, get s (self_of t) = Some x -> emits s (self_of t) h x i j -> P j = true) -> forallb P (snd (exec1 s t h i)) = true.
Proof.
  intros H. destruct (get s (self_of t)) as [x|] eqn:Hg; [|rewrite (exec1_none _ _ _ _ Hg); reflexivity].
  apply forallb_forall. intros j Hj. exact (H x j eq_refl (exec1_emits _ _ _ _ _ _ Hg Hj)).
Qed.

(** [trel R N s s']: every record of [s] is still there in [s'] and related by [R] (which may depend on the index),
    and a record that [s'] has beyond those of [s] satisfies [N] (at its index).  Such a relation holds across a primitive as soon
    as [R] holds across the record update the primitive performs. *)
Section Trel.
  Variables (R : aid -> actor -> actor -> Prop) (N : aid -> actor -> Prop).

  Definition trel (s s' : state) : Prop :=
    (forall b x, get s b = Some x -> exists x', get s' b = Some x' /\ R b x x') /\
    (forall b x', get s b = None -> get s' b = Some x' -> N b x').

  Hypothesis R_refl : forall b x, R b x x.

  Lemma trel_same s s' : actors s' = actors s -> trel s s'.
  Proof. intros H. unfold trel, get. rewrite H. split; [eauto|congruence]. Qed.

  Lemma trel_refl s : trel s s.
  Proof. apply trel_same. reflexivity. Qed.

  Lemma trel_upd_app s s' a x y news :
    get s a = Some x -> actors s' = upd (actors s) a y ++ news -> R a x y -> (forall b, Forall (N b) news) -> trel s s'.
  Proof.
    intros Hg Ha Hxy Hn. pose proof (nth_error_lt _ _ _ Hg) as Hl. unfold trel, get in *. rewrite Ha. split.
    - intros b xb Hb. rewrite nth_error_app1 by (rewrite upd_length; eapply nth_error_lt; exact Hb).
      destruct (Nat.eq_dec a b) as [<-|Hne].
      + rewrite nth_upd_eq by exact Hl. replace xb with x by congruence. eauto.
      + rewrite nth_upd_neq by exact Hne. eauto.
    - intros b x' Hb Hb'. apply nth_error_None in Hb. rewrite nth_error_app2 in Hb' by (rewrite upd_length; exact Hb).
      eapply Forall_forall; [apply Hn|]. eapply nth_error_In. exact Hb'.
  Qed.

  Lemma trel_set_actor s a x y : get s a = Some x -> R a x y -> trel s (set_actor s a y).
  Proof. intros Hg Hxy. apply (trel_upd_app s _ a x y [] Hg); [cbn; rewrite app_nil_r; reflexivity|exact Hxy|constructor]. Qed.

  Lemma trel_with_actor s a f : (forall x, R a x (f x)) -> trel s (with_actor s a f).
  Proof.
    intros H. unfold with_actor. destruct (get s a) as [x|] eqn:E; [|apply trel_same; reflexivity].
    eapply trel_set_actor; [exact E|apply H].
  Qed.

  Lemma trel_set_pend s t l : (forall x, R (self_of t) x (upd_pend x l)) -> trel s (set_pend s t l).
  Proof. intros H. destruct t as [a|j]; [apply trel_with_actor; exact H|apply trel_same, set_pend_TX_actors]. Qed.

  Lemma trel_push_mb s a e : (forall x, R a x (enq x e)) -> trel s (push_mb s a e).
  Proof. apply trel_with_actor. Qed.

  Lemma trel_resolve s r : (forall a x c, R a x (set_cache x c)) -> trel s (snd (resolve s r)).
  Proof.
    intros H. destruct (resolve_shape s r) as [E|[E|(a & x & y & _ & Hg & _ & _ & E & _)]]; rewrite E;
      [apply trel_refl|apply trel_same; reflexivity|eapply trel_set_actor; [exact Hg|apply H]].
  Qed.

  Lemma trel_exec1 s t h i :
    (forall x y, local_upd i x y -> R (self_of t) x y) -> (forall b p g par sp, N b (new_actor p g par sp)) ->
    trel s (fst (exec1 s t h i)).
  Proof.
    intros Hl Hn. destruct (get s (self_of t)) as [x|] eqn:E; [|rewrite (exec1_none _ _ _ _ E); apply trel_same; reflexivity].
    destruct (exec1_actors s t h i x E) as (y & news & Hy & Hnews & Ha).
    eapply trel_upd_app; [exact E|exact Ha|apply Hl; exact Hy|].
    intros b. eapply Forall_impl; [|exact Hnews]. intros n (p & g & par & sp & ->). apply Hn.
  Qed.

  Hypothesis R_trans : forall b x y z, R b x y -> R b y z -> R b x z.
  Hypothesis N_R : forall b x y, N b x -> R b x y -> N b y.

  Lemma trel_trans a b c : trel a b -> trel b c -> trel a c.
  Proof.
    intros [F1 N1] [F2 N2]. split.
    - intros i x Hx. destruct (F1 i x Hx) as (y & Hy & Rxy). destruct (F2 i y Hy) as (z & Hz & Ryz). eauto.
    - intros i z Hx Hz. destruct (get b i) as [y|] eqn:Hy; [|exact (N2 i z Hy Hz)].
      destruct (F2 i y Hy) as (z' & Hz' & Ryz). replace z with z' by congruence. exact (N_R i y z' (N1 i y Hx Hy) Ryz).
  Qed.

  Lemma trel_run_atomic f s t :
    (forall x l, R (self_of t) x (upd_pend x l)) -> (forall a x c, R a x (set_cache x c)) ->
    (forall i x y, local_upd i x y -> R (self_of t) x y) -> (forall b p g par sp, N b (new_actor p g par sp)) ->
    trel s (run_atomic f s t).
  Proof.
    intros H1 H2 H3 H4. apply run_atomic_rel.
    - apply trel_refl.
    - apply trel_trans.
    - intros s0. apply trel_same. reflexivity.
    - intros s0 l. apply trel_set_pend. intros x. apply H1.
    - intros s0 r. apply trel_resolve. exact H2.
    - intros s0 h i. apply trel_exec1; [apply H3|exact H4].
  Qed.
End Trel.

Lemma trel_impl (R R' : aid -> actor -> actor -> Prop) (N N' : aid -> actor -> Prop) s s' :
  (forall b x y, R b x y -> R' b x y) -> (forall b n, N b n -> N' b n) -> trel R N s s' -> trel R' N' s s'.
Proof.
  intros HR HN [F Nw]. split.
  - intros b x Hx. destruct (F b x Hx) as (y & Hy & H). eauto.
  - intros b y Hx Hy. eauto.
Qed.

Definition proj_at {A} (pi : actor -> A) (d : A) (s : state) (b : aid) : A :=
  match get s b with Some x => pi x | None => d end.
Definition keeps {A} (pi : actor -> A) (d : A) (s s' : state) : Prop := forall b, proj_at pi d s' b = proj_at pi d s b.

Definition keeps_but {A} (self : aid) (pi : actor -> A) (d : A) (s s' : state) : Prop :=
  forall b, b <> self -> proj_at pi d s' b = proj_at pi d s b.

Lemma keeps_trel {A} (pi : actor -> A) d s s' : trel (fun _ x y => pi y = pi x) (fun _ n => pi n = d) s s' -> keeps pi d s s'.
Proof.
  intros [F Nw] b. unfold proj_at. destruct (get s b) as [x|] eqn:E.
  - destruct (F b x E) as (x' & -> & H). exact H.
  - destruct (get s' b) as [x'|] eqn:E'; [exact (Nw b x' E E')|reflexivity].
Qed.

Lemma keeps_refl {A} (pi : actor -> A) d s : keeps pi d s s.
Proof. intros b; reflexivity. Qed.
Lemma keeps_trans {A} (pi : actor -> A) d a b c : keeps pi d a b -> keeps pi d b c -> keeps pi d a c.
Proof. intros H1 H2 x. rewrite H2. apply H1. Qed.

Lemma keeps_same_actors {A} (pi : actor -> A) d s s' : actors s' = actors s -> keeps pi d s s'.
Proof. intros H. apply keeps_trel, trel_same; auto. Qed.
Lemma keeps_upd_app {A} (pi : actor -> A) d s s' a x y news :
  get s a = Some x -> actors s' = upd (actors s) a y ++ news -> pi y = pi x -> Forall (fun n => pi n = d) news ->
  keeps pi d s s'.
Proof. intros Hg Ha Hp Hn. apply keeps_trel. eapply trel_upd_app; eauto. Qed.
Lemma keeps_set_actor {A} (pi : actor -> A) d s a x y : get s a = Some x -> pi y = pi x -> keeps pi d s (set_actor s a y).
Proof. intros Hg Hp. apply keeps_trel. eapply trel_set_actor; eauto. Qed.
Lemma keeps_with_actor {A} (pi : actor -> A) d s a f : (forall x, pi (f x) = pi x) -> keeps pi d s (with_actor s a f).
Proof. intros H. apply keeps_trel, trel_with_actor; auto. Qed.
Lemma keeps_set_pend {A} (pi : actor -> A) d s t l : (forall x p, pi (upd_pend x p) = pi x) -> keeps pi d s (set_pend s t l).
Proof. intros H. apply keeps_trel, trel_set_pend; auto. Qed.
Lemma keeps_resolve {A} (pi : actor -> A) d s r : (forall x c, pi (set_cache x c) = pi x) -> keeps pi d s (snd (resolve s r)).
Proof. intros H. apply keeps_trel, trel_resolve; auto. Qed.
Lemma keeps_exec1 {A} (pi : actor -> A) d s t h i :
  (forall x y, local_upd i x y -> pi y = pi x) -> (forall p g par sp, pi (new_actor p g par sp) = d) ->
  keeps pi d s (fst (exec1 s t h i)).
Proof. intros Hl Hn. apply keeps_trel, trel_exec1; auto. Qed.

Lemma keeps_run_atomic {A} (pi : actor -> A) d f s t :
  (forall x p, pi (upd_pend x p) = pi x) -> (forall x c, pi (set_cache x c) = pi x) ->
  (forall i x y, local_upd i x y -> pi y = pi x) -> (forall p g par sp, pi (new_actor p g par sp) = d) ->
  keeps pi d s (run_atomic f s t).
Proof. intros H1 H2 H3 H4. apply keeps_trel, trel_run_atomic; auto; congruence. Qed.

Lemma keeps_sq_run_atomic f s t : keeps a_sq [] s (run_atomic f s t).
Proof. apply keeps_run_atomic; auto. intros i x y H. apply H. Qed.
Lemma keeps_uq_run_atomic f s t : keeps a_uq [] s (run_atomic f s t).
Proof. apply keeps_run_atomic; auto. intros i x y H. apply H. Qed.
Lemma keeps_paused_run_atomic f s t : keeps a_paused false s (run_atomic f s t).
Proof. apply keeps_run_atomic; auto. intros i x y H. apply H. Qed.

Lemma keeps_but_run_atomic {A} (pi : actor -> A) d f s t :
  (forall x c, pi (set_cache x c) = pi x) -> (forall p g par sp, pi (new_actor p g par sp) = d) ->
  keeps_but (self_of t) pi d s (run_atomic f s t).
Proof.
  intros H2 H4.
  assert (T : trel (fun b x y => b <> self_of t -> pi y = pi x) (fun b n => b <> self_of t -> pi n = d) s (run_atomic f s t)).
  { apply trel_run_atomic; try congruence; auto.
    - intros b x y z H H' Hb. rewrite (H' Hb). auto.
    - intros b x y Hx Hxy Hb. rewrite (Hxy Hb). auto. }
  destruct T as [F Nw]. intros b Hb. unfold proj_at. destruct (get s b) as [x|] eqn:E.
  - destruct (F b x E) as (x' & -> & H). exact (H Hb).
  - destruct (get (run_atomic f s t) b) as [x'|] eqn:E'; [exact (Nw b x' E E' Hb)|reflexivity].
Qed.

Definition grows {A} (pi : state -> list A) (s s' : state) : Prop := exists l, pi s' = pi s ++ l.
Lemma grows_refl {A} (pi : state -> list A) s : grows pi s s.
Proof. exists []. rewrite app_nil_r. reflexivity. Qed.
Lemma grows_trans {A} (pi : state -> list A) a b c : grows pi a b -> grows pi b c -> grows pi a c.
Proof. intros [l1 H1] [l2 H2]. exists (l1 ++ l2). rewrite H2, H1, app_assoc. reflexivity. Qed.
Lemma grows_eq {A} (pi : state -> list A) s s' : pi s' = pi s -> grows pi s s'.
Proof. intros H. exists []. rewrite app_nil_r. exact H. Qed.

Lemma with_actor_fields s a f :
  olog (with_actor s a f) = olog s /\ ghost (with_actor s a f) = ghost s /\ reg (with_actor s a f) = reg s /\
  subs (with_actor s a f) = subs s /\ exts (with_actor s a f) = exts s /\ (err s = true -> err (with_actor s a f) = true).
Proof. unfold with_actor. destruct (get s a); cbn; auto 10. Qed.

Lemma set_pend_fields s t l :
  olog (set_pend s t l) = olog s /\ ghost (set_pend s t l) = ghost s /\ reg (set_pend s t l) = reg s /\
  subs (set_pend s t l) = subs s /\ (err s = true -> err (set_pend s t l) = true).
Proof. destruct t as [a|i]; unfold set_pend, with_actor; [destruct (get s a)|destruct (nth_error (exts s) i)]; cbn; auto 6. Qed.

Lemma set_pend_olog s t l : olog (set_pend s t l) = olog s.
Proof. apply set_pend_fields. Qed.
Lemma set_pend_ghost s t l : ghost (set_pend s t l) = ghost s.
Proof. apply set_pend_fields. Qed.
Lemma set_pend_reg s t l : reg (set_pend s t l) = reg s.
Proof. apply set_pend_fields. Qed.
Lemma set_pend_subs s t l : subs (set_pend s t l) = subs s.
Proof. apply set_pend_fields. Qed.
Lemma set_pend_err_mono s t l : err s = true -> err (set_pend s t l) = true.
Proof. apply set_pend_fields. Qed.

Lemma resolve_fields s r :
  olog (snd (resolve s r)) = olog s /\ ghost (snd (resolve s r)) = ghost s /\ reg (snd (resolve s r)) = reg s /\
  exts (snd (resolve s r)) = exts s /\ (err s = true -> err (snd (resolve s r)) = true).
Proof. destruct (resolve_shape s r) as [H|[H|(a & x & y & _ & _ & _ & _ & H & _)]]; rewrite H; cbn; auto 6. Qed.

Lemma resolve_olog s r : olog (snd (resolve s r)) = olog s.
Proof. apply resolve_fields. Qed.
Lemma resolve_ghost s r : ghost (snd (resolve s r)) = ghost s.
Proof. apply resolve_fields. Qed.
Lemma resolve_reg s r : reg (snd (resolve s r)) = reg s.
Proof. apply resolve_fields. Qed.
Lemma resolve_exts s r : exts (snd (resolve s r)) = exts s.
Proof. apply resolve_fields. Qed.
Lemma resolve_err_mono s r : err s = true -> err (snd (resolve s r)) = true.
Proof. apply resolve_fields. Qed.

Definition is_guard_closed (o : obs) : bool := match o with OGuardClosed => true | _ => false end.

Lemma exec1_state s t h i :
  let s' := fst (exec1 s t h i) in
  (olog s' = olog s \/ exists o, olog s' = olog s ++ [o]) /\
  (ghost s' = ghost s \/ (ghost s' = ghost s ++ [OGuardClosed] /\ exists x, get s (self_of t) = Some x /\ a_parent x = None)) /\
  (err s = true -> err s' = true).
Proof.
  cbv zeta. destruct (get s (self_of t)) as [x|] eqn:Hg; [|rewrite (exec1_none _ _ _ _ Hg); cbn; auto].
  destruct (spawn_dec i) as [[sp ->]|Hns].
  - destruct (exec1_spawn s t h sp x Hg) as [[code ->]|(_ & _ & _ & g & s' & -> & _ & _ & _ & _ & _ & Ho & Hgh & He & _)]; cbn [fst].
    + cbn. split; [right; eexists; reflexivity|auto].
    + rewrite Ho, Hgh, He. auto.
  - destruct (exec1_local s t h i x Hg Hns) as (y & _ & _ & _ & _ & _ & Ho & Hgh & He & _).
    split; [destruct Ho as [Ho|(o & Ho & _)]; eauto|]. split; [destruct Hgh as [Hgh|[Hgh Hp]]; eauto|exact He].
Qed.

Lemma grows_olog_run_atomic f s t : grows olog s (run_atomic f s t).
Proof.
  apply run_atomic_rel.
  - apply grows_refl.
  - apply grows_trans.
  - intros; apply grows_eq; reflexivity.
  - intros; apply grows_eq, set_pend_olog.
  - intros; apply grows_eq, resolve_olog.
  - intros s0 h i. destruct (exec1_state s0 t h i) as ([H|[o H]] & _ & _); [apply grows_eq; exact H|exists [o]; exact H].
Qed.

Lemma grows_ghost_run_atomic f s t : grows ghost s (run_atomic f s t).
Proof.
  apply run_atomic_rel.
  - apply grows_refl.
  - apply grows_trans.
  - intros; apply grows_eq; reflexivity.
  - intros; apply grows_eq, set_pend_ghost.
  - intros; apply grows_eq, resolve_ghost.
  - intros s0 h i. destruct (exec1_state s0 t h i) as (_ & [H|[H _]] & _); [apply grows_eq; exact H|exists [OGuardClosed]; exact H].
Qed.

Lemma err_mono_run_atomic f s t : err s = true -> err (run_atomic f s t) = true.
Proof.
  revert s. change (forall s, (fun a b => err a = true -> err b = true) s (run_atomic f s t)).
  apply run_atomic_rel; auto.
  - intros s0 l. apply set_pend_err_mono.
  - intros s0 r. apply resolve_err_mono.
  - intros s0 h i. apply (exec1_state s0 t h i).
Qed.

Lemma ghost_run_atomic_nonroot f s t x p :
  get s (self_of t) = Some x -> a_parent x = Some p -> ghost (run_atomic f s t) = ghost s.
Proof.
  intros Hg Hp.
  enough (H : (fun a b => forall x, get a (self_of t) = Some x -> a_parent x = Some p ->
                 ghost b = ghost a /\ exists x', get b (self_of t) = Some x' /\ a_parent x' = Some p) s (run_atomic f s t))
    by (apply (H x Hg Hp)).
  apply run_atomic_rel; clear.
  - intros s x Hg Hp. eauto.
  - intros a b c H1 H2 x Hg Hp. destruct (H1 x Hg Hp) as (E1 & x' & Hg' & Hp').
    destruct (H2 x' Hg' Hp') as (E2 & x'' & Hg'' & Hp''). split; [congruence|eauto].
  - intros s x Hg Hp. split; [reflexivity|]. exists x. auto.
  - intros s l x Hg Hp. split; [apply set_pend_ghost|].
    pose proof (keeps_set_pend a_parent None s t l (fun _ _ => eq_refl) (self_of t)) as K.
    unfold proj_at in K. rewrite Hg in K. destruct (get (set_pend s t l) (self_of t)) as [x'|]; [|congruence]. exists x'. split; congruence.
  - intros s r x Hg Hp. split; [apply resolve_ghost|].
    pose proof (keeps_resolve a_parent None s r (fun _ _ => eq_refl) (self_of t)) as K.
    unfold proj_at in K. rewrite Hg in K. destruct (get (snd (resolve s r)) (self_of t)) as [x'|]; [|congruence]. exists x'. split; congruence.
  - intros s h i x Hg Hp. split.
    + destruct (exec1_state s t h i) as (_ & [H|(_ & x0 & Hg0 & Hp0)] & _); [exact H|congruence].
    + destruct (exec1_actors s t h i x Hg) as (y & news & Hy & _ & Ha). exists y. split.
      * unfold get. rewrite Ha. rewrite nth_error_app1 by (rewrite upd_length; eapply nth_error_lt; exact Hg).
        apply nth_upd_eq. eapply nth_error_lt; exact Hg.
      * rewrite (lu_parent _ _ _ Hy). exact Hp.
Qed.

Lemma set_exts_fields scs : forall s i,
  actors (set_exts s i scs) = actors s /\ reg (set_exts s i scs) = reg s /\ subs (set_exts s i scs) = subs s /\
  olog (set_exts s i scs) = olog s /\ ghost (set_exts s i scs) = ghost s.
Proof.
  induction scs as [|sc r IH]; intros s i; cbn [set_exts]; [auto 6|].
  destruct (IH (set_pend s (TX i) (map IAct sc)) (S i)) as (-> & -> & -> & -> & ->).
  cbn [set_pend]. destruct (nth_error (exts s) i); cbn; auto 6.
Qed.

Lemma init_with_actors scs : actors (init_with scs) = [new_actor [] 0%N None root_spec].
Proof. unfold init_with. rewrite (proj1 (set_exts_fields scs _ 0)). reflexivity. Qed.

Lemma init_with_reg scs : reg (init_with scs) = [].
Proof. unfold init_with. destruct (set_exts_fields scs (init_state (length scs)) 0) as (_ & -> & _). reflexivity. Qed.

Lemma get_init scs a x : get (init_with scs) a = Some x -> a = 0 /\ x = new_actor [] 0%N None root_spec.
Proof. unfold get. rewrite init_with_actors. destruct a as [|[|a]]; cbn; intros H; inversion H. auto. Qed.

Lemma init_with_exts scs : Forall (fun ex => exists sc, x_pend ex = map IAct sc) (exts (init_with scs)).
Proof.
  unfold init_with.
  assert (H : forall l s i, Forall (fun ex => exists sc, x_pend ex = map IAct sc) (exts s) ->
                            Forall (fun ex => exists sc, x_pend ex = map IAct sc) (exts (set_exts s i l))).
  { induction l as [|sc r IH]; intros s i Hs; cbn [set_exts]; [exact Hs|]. apply IH. cbn [set_pend].
    destruct (nth_error (exts s) i); [|exact Hs]. cbn [set_ext exts].
    apply Forall_upd; [exact Hs|]. eexists. reflexivity. }
  apply H. cbn [init_state exts]. apply Forall_forall. intros ex Hin. apply repeat_spec in Hin. subst. exists []. reflexivity.
Qed.

Lemma pend_of_init scs t : exists sc, pend_of (init_with scs) t = map IAct sc.
Proof.
  destruct t as [a|j]; cbn [pend_of].
  - destruct (get (init_with scs) a) as [x|] eqn:Hg; [|exists []; reflexivity].
    destruct (get_init scs a x Hg) as [_ ->]. exists []. reflexivity.
  - destruct (nth_error (exts (init_with scs)) j) as [ex|] eqn:E; [|exists []; reflexivity].
    exact (Forall_nth _ _ _ _ (init_with_exts scs) E).
Qed.

Lemma set_actor_twice s a y z : set_actor (set_actor s a y) a z = set_actor s a z.
Proof. unfold set_actor; cbn. rewrite upd_upd. reflexivity. Qed.

Lemma pend_of_TA s a y : get s a = Some y -> pend_of s (TA a) = a_pend y.
Proof. intros H. cbn [pend_of]. rewrite H. reflexivity. Qed.

(** a handler thread running a short, explicit program: its state is [set_actor s a (upd_pend y prog)] *)
Section Handler.
  Variables (s : state) (a : aid) (y : actor).
  Hypothesis Hl : a < length (actors s).

  Lemma ra_wait f i rest : yielding i = true ->
    run_atomic (S f) (set_actor s a (upd_pend y (i :: rest))) (TA a) = set_actor s a (upd_pend y (i :: rest)).
  Proof. intros Hy. eapply run_atomic_yield; [|exact Hy]. cbn [pend_of]. rewrite (get_set_same _ _ _ Hl). reflexivity. Qed.

  Lemma ra_step f i rest : yielding i = false -> is_enq i = false ->
    run_atomic (S f) (set_actor s a (upd_pend y (i :: rest))) (TA a) =
    (let (s1, front) := exec1 (set_actor s a (upd_pend y rest)) (TA a) [] i in
     run_atomic f (set_pend s1 (TA a) (front ++ pend_of s1 (TA a))) (TA a)).
  Proof.
    intros Hy Hq. rewrite (run_atomic_exec f _ (TA a) i rest); auto.
    - cbv zeta. rewrite (set_pend_TA _ _ _ _ (get_set_same _ _ _ Hl)), set_actor_twice. reflexivity.
    - cbn [pend_of]. rewrite (get_set_same _ _ _ Hl). reflexivity.
  Qed.

  Lemma ra_front f i rest front : yielding i = false -> is_enq i = false ->
    exec1 (set_actor s a (upd_pend y rest)) (TA a) [] i = (set_actor s a (upd_pend y rest), front) ->
    run_atomic (S f) (set_actor s a (upd_pend y (i :: rest))) (TA a) = run_atomic f (set_actor s a (upd_pend y (front ++ rest))) (TA a).
  Proof.
    intros Hy Hq He. rewrite (ra_step f i rest Hy Hq), He.
    rewrite (pend_of_TA _ _ _ (get_set_same _ _ _ Hl)), (set_pend_TA _ _ _ _ (get_set_same _ _ _ Hl)), set_actor_twice. reflexivity.
  Qed.

  Lemma ra_end f :
    run_atomic (S (S f)) (set_actor s a (upd_pend y [IEndHandler])) (TA a) =
    set_actor s a (upd_pend (set_mb y (a_sq y) (a_uq y) (a_paused y) C1 (a_cur y)) []).
  Proof.
    rewrite (ra_step (S f) IEndHandler [] eq_refl eq_refl). unfold exec1. cbn [self_of]. rewrite (get_set_same _ _ _ Hl), set_actor_twice.
    rewrite (pend_of_TA _ _ _ (get_set_same _ _ _ Hl)), (set_pend_TA _ _ _ _ (get_set_same _ _ _ Hl)), set_actor_twice.
    apply run_atomic_nil. cbn [pend_of]. rewrite (get_set_same _ _ _ Hl). reflexivity.
  Qed.
End Handler.

Lemma step_handle s a x e :
  get s a = Some x -> a_cons x = CH e ->
  step s (EvHandle a) =
  (let x0 := set_mb x (a_sq x) (a_uq x) (a_paused x) (CBusy (mode_top x)) (a_cur x) in
   let (s1, ins) := dispatch (set_actor s a x0) a x0 e in
   run_atomic FUEL (set_pend s1 (TA a) ins) (TA a)).
Proof. intros Hg Hc. cbn [step]. rewrite Hg, Hc. reflexivity. Qed.

Lemma pend_of_set_actor_same s a x y t : get s a = Some x -> a_pend y = a_pend x -> pend_of (set_actor s a y) t = pend_of s t.
Proof.
  intros Hg Hp. destruct t as [b|j]; cbn [pend_of]; [|reflexivity].
  destruct (Nat.eq_dec a b) as [<-|Hne]; [rewrite (get_set_same' _ _ _ _ Hg), Hg; exact Hp|rewrite get_set_other by exact Hne; reflexivity].
Qed.
