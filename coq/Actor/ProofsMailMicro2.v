(** Micro-steps, second level: the atomic loop resolves a tell (findMailbox) right after the instruction that issued
    it, without any other thread in between.  [mstep2] groups "one atomic instruction" with the resolution of a tell
    that it leaves at the head of the list.  Every [mstep2] is one or two [mstep]s, so every invariant of [mstep]
    is an invariant of [mstep2]; and every event is a sequence of [mstep2]s. *)
From Coq Require Import List Bool.
From Vivid Require Import Actor.Core Actor.CoreRun Actor.SpecMail Actor.ProofsMailBase Actor.ProofsMail Actor.ProofsMailInv
  Actor.ProofsMailMicro.
Import ListNotations.

Definition head_is_enq (s : state) (t : tid) : bool := match pend_of s t with IEnq _ _ _ _ :: _ => true | _ => false end.

Definition mstep2 (s : state) (m : micro) : state :=
  match m with
  | MAtomic t => let s1 := mstep s (MAtomic t) in if head_is_enq s1 t then mstep s1 (MAtomic t) else s1
  | _ => mstep s m
  end.
Definition mrun2 (ms : list micro) (s : state) : state := fold_left mstep2 ms s.

Lemma mstep2_inv (J : state -> Prop) : (forall s m, J s -> J (mstep s m)) -> forall s m, J s -> J (mstep2 s m).
Proof.
  intros H s m Hs. destruct m; try (apply H; exact Hs). cbn [mstep2]. cbv zeta.
  destruct (head_is_enq (mstep s (MAtomic t)) t); [apply H, H; exact Hs|apply H; exact Hs].
Qed.

Lemma err_mono_mstep2 s m : err s = true -> err (mstep2 s m) = true.
Proof. apply (mstep2_inv (fun s0 => err s0 = true)). intros s0 m0. apply err_mono_mstep. Qed.

Lemma run_atomic_micro2 t : forall f s, err (run_atomic f s t) = false -> exists n, run_atomic f s t = mrun2 (repeat (MAtomic t) n) s.
Proof.
  induction f as [|f IH]; intros s He; [discriminate He|].
  destruct (pend_of s t) as [|i rest] eqn:Hp; [exists 0; rewrite (run_atomic_nil _ _ _ Hp); reflexivity|].
  destruct (is_enq i) eqn:Hq.
  - destruct i; try discriminate Hq. exists 1. rewrite (run_atomic_enq _ _ _ _ _ _ _ _ Hp).
    cbn [repeat mrun2 fold_left mstep2]. cbv zeta. cbn [mstep]. rewrite Hp.
    rewrite (run_atomic_enq _ _ _ _ _ _ _ _ Hp) in He.
    assert (Hh : head_is_enq (set_pend (snd (resolve s to)) t (IEnqR sys (fst (resolve s to)) sender m :: rest)) t = false).
    { unfold head_is_enq. rewrite (pend_of_set_pend_ok _ _ _ He). reflexivity. }
    rewrite Hh. reflexivity.
  - destruct (yielding i) eqn:Hy.
    + exists 0. rewrite (run_atomic_yield _ _ _ _ _ Hp Hy). reflexivity.
    + rewrite (run_atomic_exec _ _ _ _ _ Hp Hy Hq) in *. cbv zeta in *.
      assert (E : (let (s1, front) := exec1 (set_pend s t rest) t (held_of (set_pend s t rest) t) i in
                   run_atomic f (set_pend s1 t (front ++ pend_of s1 t)) t) = run_atomic f (astep s t i rest) t).
      { unfold astep. destruct (exec1 _ _ _ _). reflexivity. }
      rewrite E in *.
      assert (Em : mstep s (MAtomic t) = astep s t i rest) by (apply mstep_atomic_exec; assumption).
      destruct (head_is_enq (astep s t i rest) t) eqn:Hh.
      * (* the next iteration resolves the tell and the loop stops *)
        unfold head_is_enq in Hh. destruct (pend_of (astep s t i rest) t) as [|i2 rest2] eqn:Hp2; [discriminate Hh|].
        destruct i2; try discriminate Hh.
        destruct f as [|f']; [discriminate He|]. rewrite (run_atomic_enq _ _ _ _ _ _ _ _ Hp2) in *.
        exists 1. cbn [repeat mrun2 fold_left mstep2]. cbv zeta. rewrite Em. unfold head_is_enq. rewrite Hp2. cbn [mstep]. rewrite Hp2. reflexivity.
      * destruct (IH _ He) as [n Hn]. exists (S n). rewrite Hn. cbn [repeat mrun2 fold_left mstep2]. cbv zeta. rewrite Em, Hh. reflexivity.
Qed.

Lemma mstep2_other s m : (forall t, m <> MAtomic t) -> mstep2 s m = mstep s m.
Proof. intros H. destruct m; try reflexivity. destruct (H t eq_refl). Qed.

Theorem micro2_invariant_err (J I : state -> Prop) :
  (forall scs, J (init_with scs)) -> (forall s m, J s -> J (mstep s m)) ->
  (forall scs, I (init_with scs)) ->
  (forall s m, J s -> I s -> err (mstep2 s m) = false -> I (mstep2 s m)) ->
  forall s, reachable s -> J s /\ I s.
Proof.
  intros HJ0 HJ HI0 HI s (scs & evs & -> & He).
  apply (invariant_runs mstep2 mstep2_other run_atomic_micro2 err_mono_mstep2 (fun s0 => J s0 /\ I s0)); [|auto|exact He].
  intros s0 m [J0 I0] E. split; [apply (mstep2_inv J HJ); exact J0|auto].
Qed.
