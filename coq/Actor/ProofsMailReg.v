(** C03-a: the registry and the reference caches only ever name an actor that was created under that very path:
    an envelope is never routed to an actor of a different path. *)
From Coq Require Import List NArith Bool Arith.
From Vivid Require Import Actor.Core Actor.CoreRun Actor.SpecMail Actor.ProofsMailBase Actor.ProofsMail Actor.ProofsMailInv Actor.ProofsStep.
Import ListNotations.

Definition reg_ok (s : state) : Prop :=
  forall p y, alookup (reg s) p = Some y -> exists xy, get s y = Some xy /\ a_path xy = p.
Definition cache_ok (s : state) : Prop :=
  forall a x y, get s a = Some x -> a_cache x = Some y -> exists xy, get s y = Some xy /\ a_path xy = a_path x.
Definition route_ok (s : state) : Prop := reg_ok s /\ cache_ok s.

Lemma path_eqb_eq p q : path_eqb p q = true -> p = q.
Proof.
  revert q. induction p as [|x p IH]; intros [|y q] H; cbn [path_eqb] in H; try discriminate; [reflexivity|].
  apply andb_true_iff in H. destruct H as [H1 H2]. apply N.eqb_eq in H1. subst. f_equal. auto.
Qed.

Lemma alookup_aremove {A} (l : list (path * A)) p q v : alookup (aremove l p) q = Some v -> alookup l q = Some v.
Proof.
  induction l as [|[r w] l IH]; cbn [aremove alookup]; [discriminate|].
  destruct (path_eqb p r) eqn:E1.
  - intros H. specialize (IH H). destruct (path_eqb q r) eqn:E2; [|exact IH].
    (* q = r = p, but p was removed from the rest: contradiction is not needed, IH gives the value in the rest only *)
    apply path_eqb_eq in E1. apply path_eqb_eq in E2. subst.
    exfalso. clear IH. revert H. induction l as [|[r' w'] l IH']; cbn [aremove alookup]; [discriminate|].
    destruct (path_eqb r r') eqn:E3; [exact IH'|]. cbn [alookup]. rewrite E3. exact IH'.
  - cbn [alookup]. destruct (path_eqb q r); [auto|exact IH].
Qed.

Lemma alookup_app_one {A} (l : list (path * A)) p c q v :
  alookup (l ++ [(p, c)]) q = Some v -> alookup l q = Some v \/ (q = p /\ v = c).
Proof.
  induction l as [|[r w] l IH]; cbn [app alookup].
  - destruct (path_eqb q p) eqn:E; [|discriminate]. intros H. inversion H. right. split; [apply path_eqb_eq; exact E|reflexivity].
  - destruct (path_eqb q r); [auto|exact IH].
Qed.

(** every record keeps its path; a cache either stays or is filled from the registry [rg] *)
Definition route_rel (rg : list (path * aid)) (_ : aid) (x y : actor) : Prop :=
  a_path y = a_path x /\ (a_cache y = a_cache x \/ exists z, a_cache y = Some z /\ alookup rg (a_path x) = Some z).
Lemma route_rel_refl rg b x : route_rel rg b x x.
Proof. split; auto. Qed.

Lemma route_ok_trel s s' :
  trel (route_rel (reg s)) (fun _ n => a_cache n = None) s s' ->
  (forall q z, alookup (reg s') q = Some z -> alookup (reg s) q = Some z \/ exists n, get s' z = Some n /\ a_path n = q) ->
  route_ok s -> route_ok s'.
Proof.
  intros [F Nw] Hreg [HR HC].
  assert (Hex : forall y xy, get s y = Some xy -> exists xy', get s' y = Some xy' /\ a_path xy' = a_path xy).
  { intros y xy Hg. destruct (F y xy Hg) as (xy' & Hg' & Hp & _). eauto. }
  assert (Hold : forall p y, alookup (reg s) p = Some y -> exists xy', get s' y = Some xy' /\ a_path xy' = p).
  { intros p y Hlk. destruct (HR p y Hlk) as (xy & Hg & Hp). destruct (Hex y xy Hg) as (xy' & Hg' & Hp'). exists xy'. split; [exact Hg'|congruence]. }
  split.
  - intros p y Hlk. destruct (Hreg p y Hlk) as [H|H]; [exact (Hold p y H)|exact H].
  - intros a x' y Hg' Hc. destruct (get s a) as [x|] eqn:Hg; [|rewrite (Nw a x' Hg Hg') in Hc; discriminate Hc].
    destruct (F a x Hg) as (x'' & Hg'' & Hp & Hca). replace x'' with x' in * by congruence. rewrite Hp.
    destruct Hca as [Hsame|(y0 & Hy0 & Hlk)].
    + rewrite Hsame in Hc. destruct (HC a x y Hg Hc) as (xy & Hgy & Hpy). rewrite <- Hpy. exact (Hex y xy Hgy).
    + rewrite Hy0 in Hc. inversion Hc; subst y0. exact (Hold _ _ Hlk).
Qed.

Lemma route_frame_ok s s' : reg s' = reg s -> trel (route_rel (reg s)) (fun _ n => a_cache n = None) s s' -> route_ok s -> route_ok s'.
Proof. intros Hr T. apply (route_ok_trel s s' T). intros q z Hlk. left. rewrite <- Hr. exact Hlk. Qed.

Lemma route_ok_same s s' : actors s' = actors s -> reg s' = reg s -> route_ok s -> route_ok s'.
Proof. intros Ha Hr. apply route_frame_ok; [exact Hr|apply trel_same; [apply route_rel_refl|exact Ha]]. Qed.

Lemma route_ok_set_actor s a x y : get s a = Some x -> a_path y = a_path x -> a_cache y = a_cache x -> route_ok s -> route_ok (set_actor s a y).
Proof.
  intros Hg Hp Hc. apply route_frame_ok; [reflexivity|].
  eapply trel_set_actor; [apply route_rel_refl|exact Hg|split; auto].
Qed.

Lemma route_ok_with_actor s a f :
  (forall x, a_path (f x) = a_path x /\ a_cache (f x) = a_cache x) -> route_ok s -> route_ok (with_actor s a f).
Proof.
  intros H. apply route_frame_ok; [apply with_actor_fields|].
  apply trel_with_actor; [apply route_rel_refl|]. intros x. split; [apply H|left; apply H].
Qed.

Lemma route_ok_set_pend s t l : route_ok s -> route_ok (set_pend s t l).
Proof.
  apply route_frame_ok; [apply set_pend_reg|].
  apply trel_set_pend; [apply route_rel_refl|]. intros x. split; auto.
Qed.

Lemma route_ok_resolve s r : route_ok s -> route_ok (snd (resolve s r)).
Proof.
  apply route_frame_ok; [apply resolve_reg|].
  destruct (resolve_shape s r) as [H|[H|(a & x & y & _ & Hg & _ & Hlk & H & _)]]; rewrite H;
    [apply trel_refl, route_rel_refl|apply trel_same; [apply route_rel_refl|reflexivity]|].
  eapply trel_set_actor; [apply route_rel_refl|exact Hg|]. split; [reflexivity|right; exists y; split; [reflexivity|exact Hlk]].
Qed.

Lemma route_ok_push_mb s a e : route_ok s -> route_ok (push_mb s a e).
Proof. apply route_ok_with_actor. auto. Qed.

Lemma route_ok_exec1 s t h i : route_ok s -> route_ok (fst (exec1 s t h i)).
Proof.
  intros Hok. destruct (get s (self_of t)) as [x|] eqn:Hg; [|rewrite (exec1_none _ _ _ _ Hg); exact Hok].
  revert Hok. destruct (spawn_dec i) as [[sp ->]|Hns].
  - destruct (exec1_spawn s t h sp x Hg) as [[code ->]|(_ & _ & _ & g & s' & -> & Ha & Hr & _)]; cbn [fst].
    + apply route_ok_same; reflexivity.
    + apply route_ok_trel.
      * eapply trel_upd_app; [apply route_rel_refl|exact Hg|exact Ha|split; auto|intros b; repeat constructor].
      * intros q z Hlk. rewrite Hr in Hlk. apply alookup_app_one in Hlk. destruct Hlk as [Hlk|[-> ->]]; [left; exact Hlk|right].
        exists (new_actor (a_path x ++ [sp_name sp]) g (Some (self_of t)) sp). split; [|reflexivity]. unfold get. rewrite Ha, nth_error_app2 by (rewrite upd_length; apply le_n).
        rewrite upd_length, Nat.sub_diag. reflexivity.
  - destruct (exec1_local s t h i x Hg Hns) as (y & Hy & Ha & _ & _ & Hr & _). apply route_ok_trel.
    + eapply trel_upd_app with (news := []); [apply route_rel_refl|exact Hg|rewrite app_nil_r; exact Ha| |constructor].
      split; [apply Hy|left; apply Hy].
    + intros q z Hlk. left. rewrite Hr in Hlk. destruct i; try exact Hlk. eapply alookup_aremove. exact Hlk.
Qed.

Lemma route_ok_dispatch s a x e : get s a = Some x -> route_ok s -> route_ok (fst (dispatch s a x e)).
Proof.
  intros Hg. destruct (dispatch_effect s a x e Hg) as (y & Hy & _ & _ & _ & _ & Hr & _).
  apply route_frame_ok; [exact Hr|]. apply trel_dispatch; [apply route_rel_refl|exact Hg|].
  intros y0 Hy0. split; [apply Hy0|left; apply Hy0].
Qed.

Lemma route_ok_step s ev : route_ok s -> route_ok (step s ev).
Proof.
  apply (step_rel (fun _ s0 s1 => route_ok s0 -> route_ok s1)); auto.
  - intros t s0 l. apply route_ok_set_pend.
  - intros t s0 x sq uq pa co cu Hg. apply (route_ok_set_actor s0 _ x); auto.
  - intros _ s0 a e. apply route_ok_push_mb.
  - intros _ s0 r. apply route_ok_resolve.
  - intros s0 a x e. apply route_ok_dispatch.
  - intros t s0 h i. apply route_ok_exec1.
Qed.

Lemma route_ok_init scs : route_ok (init_with scs).
Proof.
  split.
  - intros p y Hlk. rewrite init_with_reg in Hlk. discriminate Hlk.
  - intros a x y Hg Hc. destruct (get_init scs a x Hg) as [_ ->]. discriminate Hc.
Qed.

Lemma route_ok_run evs : forall s, route_ok s -> route_ok (run_events evs s).
Proof. induction evs as [|ev r IH]; intros s H; [exact H|]. apply IH, route_ok_step, H. Qed.

Lemma reachable_route_ok s : reachable s -> route_ok s.
Proof. intros (scs & evs & -> & _). apply route_ok_run, route_ok_init. Qed.

Theorem routed_same_path s r y :
  reachable s -> fst (resolve s r) = MbActor y -> exists xy, get s y = Some xy /\ ref_path s r = Some (a_path xy).
Proof.
  intros Hr Hres. destruct (reachable_route_ok s Hr) as [HR HC].
  destruct (routing_actor s r y Hres) as [(p & Hp & Hlk)|(a & x & -> & Hg & Hc)].
  - destruct (HR p y Hlk) as (xy & Hgy & Hpy). exists xy. split; [exact Hgy|congruence].
  - destruct (HC a x y Hg Hc) as (xy & Hgy & Hpy). exists xy. split; [exact Hgy|]. cbn [ref_path]. rewrite Hg. congruence.
Qed.
