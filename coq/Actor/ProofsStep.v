(** The shape of one event of ActorCore: [step s ev] is one of eight things ([step_shape]) - a failure, a move
    of the consumer, the entry into the handler, a queue insertion, a thread's yield word, Pause's store, Resume's
    first word on a paused mailbox, a start - and where it runs an atomic phase, that phase comes last, on
    [pre_atomic] of Actor/SpecStash.v ([step_pre]).  So a reflexive-transitive relation that holds across each of
    the few primitive updates holds across every event ([step_rel]); and an event touches the words of a mailbox
    at most once, the rest being such primitive updates ([step_word]).  The atomic phase is read as the list of
    instructions it executes ([atomic_trace]): the instrumented copies of [run_atomic]'s recursion in the Spec
    files are folds of it ([atomic_trace_fold]), and facts about the phase are proved by one induction along it
    ([run_atomic_trace_ind]). *)
From Coq Require Import List.
From Vivid Require Import Actor.Core Actor.CoreRun Actor.SpecMail Actor.SpecSup Actor.SpecStash Actor.ProofsMailBase.
Import ListNotations.

(** The queue insertion [EvPush t c] in one form: [push_of] says what is inserted where; a fan-out ([IEnqAny],
    [ISupPause]) first resolves the target it picked and leaves [IEnqDone] and the remaining fan-out behind *)
Definition push_ref (i : instr) (c : nat) : option rref :=
  match i with IEnqAny _ tos _ _ => nth_error tos c | ISupPause _ _ rem _ => nth_error rem c | _ => None end.
Definition push_left (i : instr) (c : nat) : list instr :=
  match i with
  | IEnqAny sys tos sender m =>
      IEnqDone :: match firstn c tos ++ skipn (S c) tos with [] => [] | tos' => [IEnqAny sys tos' sender m] end
  | ISupPause cx d rem done =>
      match nth_error rem c with
      | Some to => [IEnqDone; ISupPause cx d (firstn c rem ++ skipn (S c) rem) (done ++ [to])]
      | None => []
      end
  | _ => []
  end.

Lemma step_push s t c tgt e :
  push_of s t c = Some (tgt, e) ->
  exists i rest, pend_of s t = i :: rest /\
    step s (EvPush t c) =
    set_pend (push_mb (match push_ref i c with Some r => snd (resolve s r) | None => s end) tgt e) t (push_left i c ++ rest).
Proof.
  unfold push_of. cbn [step]. destruct (pend_of s t) as [|i rest]; [discriminate|]. intros H. exists i, rest. split; [reflexivity|].
  revert H. destruct i; try discriminate; cbn [push_ref push_left].
  - intros [= E]. rewrite deliver_eq, E. reflexivity.
  - intros [= <- <-]. reflexivity.
  - destruct (nth_error tos c) as [r|]; [|discriminate]. destruct (resolve s r) as [mb s1]. cbn [fst snd]. intros [= E].
    rewrite deliver_eq, E. cbn [fst snd app]. destruct (firstn c tos ++ skipn (S c) tos); reflexivity.
  - destruct (nth_error remaining c) as [r|]; [|discriminate]. destruct (resolve s r) as [mb s1]. cbn [fst snd]. intros [= E].
    rewrite deliver_eq, E. reflexivity.
Qed.

Lemma step_push_none s t c : push_of s t c = None -> step s (EvPush t c) = set_err s.
Proof.
  unfold push_of. cbn [step]. destruct (pend_of s t) as [|i rest]; [reflexivity|]. destruct i; try reflexivity; try discriminate.
  - destruct (nth_error tos c); [discriminate|reflexivity].
  - destruct (nth_error remaining c); [discriminate|reflexivity].
Qed.

(** An event performs at most one operation on the words of a mailbox (the two queues, the paused flag, the
    consumer's position): a move of the consumer, the entry into the handler, Pause or Resume's first word on
    the record of its own context ([own_word]), or one queue insertion.  Everything else it does - instruction
    lists, reference caches, HandleEnvelop's bookkeeping, the atomic phase - goes through the primitives that [Q]
    below is closed under. *)
Definition own_word (ev : event) (x : actor) : option actor :=
  match ev with
  | EvSysPop _ =>
      match a_cons x, a_sq x with
      | (C0 | C1), e :: r => Some (set_mb x r (a_uq x) (a_paused x) (CH e) (a_cur x))
      | (C0 | C1), [] => Some (set_mb x [] (a_uq x) (a_paused x) C2 (a_cur x))
      | _, _ => None
      end
  | EvLoadPaused _ =>
      match a_cons x with
      | C2 => Some (set_mb x (a_sq x) (a_uq x) (a_paused x) (if a_paused x then C0 else C3) (a_cur x))
      | _ => None
      end
  | EvUserPop _ =>
      match a_cons x, a_uq x with
      | C3, e :: r => Some (set_mb x (a_sq x) r (a_paused x) (CH e) (a_cur x))
      | C3, [] => Some (set_mb x (a_sq x) [] (a_paused x) C0 (a_cur x))
      | _, _ => None
      end
  | EvHandle _ => match a_cons x with CH _ => Some (busy x) | _ => None end
  | EvPauseSt _ => Some (set_mb x (a_sq x) (a_uq x) true (a_cons x) (a_cur x))
  | EvResume1 _ => if a_paused x then Some (set_mb x (a_sq x) (a_uq x) false (a_cons x) (a_cur x)) else None
  | _ => None
  end.

Definition wordless (s : state) (ev : event) : Prop :=
  match ev with
  | EvEnqDone _ | EvResume2 _ | EvStart _ => True
  | EvResume1 t => paused_at s (self_of t) = false
  | _ => False
  end.

Inductive ev_shape (s : state) (ev : event) : option (state * tid) -> state -> Prop :=
| ShFail : ev_shape s ev None (set_err s)
| ShMove a x sq uq co :
    ev = EvSysPop a \/ ev = EvLoadPaused a \/ ev = EvUserPop a -> get s a = Some x ->
    own_word ev x = Some (set_mb x sq uq (a_paused x) co (a_cur x)) ->
    ev_shape s ev None (set_actor s a (set_mb x sq uq (a_paused x) co (a_cur x)))
| ShHandle a x e s1 ins :
    ev = EvHandle a -> get s a = Some x -> a_cons x = CH e ->
    dispatch (set_actor s a (busy x)) a (busy x) e = (s1, ins) ->
    ev_shape s ev (Some (set_pend s1 (TA a) ins, TA a)) (run_atomic FUEL (set_pend s1 (TA a) ins) (TA a))
| ShPush t c tgt e i rest :
    ev = EvPush t c -> push_of s t c = Some (tgt, e) -> pend_of s t = i :: rest ->
    ev_shape s ev None
      (set_pend (push_mb (match push_ref i c with Some r => snd (resolve s r) | None => s end) tgt e) t (push_left i c ++ rest))
| ShYield t i rest :
    wordless s ev -> ev_thread ev = t -> pend_of s t = i :: rest -> In i [IEnqDone; IResume1; IResume2] ->
    ev_shape s ev (Some (set_pend s t rest, t)) (run_atomic FUEL (set_pend s t rest) t)
| ShPause t rest s1 :
    ev = EvPauseSt t -> pend_of s t = IPauseSt :: rest ->
    s1 = with_actor s (self_of t) (fun x => set_mb x (a_sq x) (a_uq x) true (a_cons x) (a_cur x)) ->
    ev_shape s ev (Some (set_pend s1 t rest, t)) (run_atomic FUEL (set_pend s1 t rest) t)
| ShResume t x rest :
    ev = EvResume1 t -> pend_of s t = IResume1 :: rest -> get s (self_of t) = Some x -> a_paused x = true ->
    ev_shape s ev None (set_pend (set_actor s (self_of t) (set_mb x (a_sq x) (a_uq x) false (a_cons x) (a_cur x))) t (IResume2 :: rest))
| ShStart i : ev = EvStart i -> ev_shape s ev (Some (s, TX i)) (run_atomic FUEL s (TX i)).

Lemma step_shape s ev : ev_shape s ev (pre_atomic s ev) (step s ev).
Proof.
  destruct ev; cbn [step pre_atomic].
  - destruct (get s a) as [x|] eqn:Hg; [|apply ShFail].
    destruct (a_cons x) eqn:Hc, (a_sq x) eqn:Hs; try apply ShFail;
      (eapply ShMove; [auto|exact Hg|cbn [own_word]; rewrite Hc, Hs; reflexivity]).
  - destruct (get s a) as [x|] eqn:Hg; [|apply ShFail]. destruct (a_cons x) eqn:Hc; try apply ShFail.
    eapply ShMove; [auto|exact Hg|cbn [own_word]; rewrite Hc; reflexivity].
  - destruct (get s a) as [x|] eqn:Hg; [|apply ShFail].
    destruct (a_cons x) eqn:Hc, (a_uq x) eqn:Hs; try apply ShFail;
      (eapply ShMove; [auto|exact Hg|cbn [own_word]; rewrite Hc, Hs; reflexivity]).
  - destruct (get s a) as [x|] eqn:Hg; [|apply ShFail]. destruct (a_cons x) eqn:Hc; try apply ShFail.
    fold (busy x). destruct (dispatch _ a (busy x) e) as [s1 ins] eqn:Hd. exact (ShHandle s _ a x e s1 ins eq_refl Hg Hc Hd).
  - destruct (push_of s t choice) as [[tgt e]|] eqn:Epo.
    + destruct (step_push _ _ _ _ _ Epo) as (i & rest & Hp & E). fold (step s (EvPush t choice)). rewrite E.
      exact (ShPush s _ t choice tgt e i rest eq_refl Epo Hp).
    + fold (step s (EvPush t choice)). rewrite (step_push_none _ _ _ Epo). apply ShFail.
  - destruct (pend_of s t) as [|i rest] eqn:Hp; [apply ShFail|]. destruct i; try apply ShFail.
    eapply ShYield; [exact I|reflexivity|exact Hp|cbn; auto].
  - destruct (pend_of s t) as [|i rest] eqn:Hp; [apply ShFail|]. destruct i; try apply ShFail.
    exact (ShPause s _ t rest _ eq_refl Hp eq_refl).
  - destruct (pend_of s t) as [|i rest] eqn:Hp; [apply ShFail|]. destruct i; try apply ShFail.
    destruct (get s (self_of t)) as [x|] eqn:Hg; [|apply ShFail]. destruct (a_paused x) eqn:Hpa.
    + exact (ShResume s _ t x rest eq_refl Hp Hg Hpa).
    + eapply ShYield; [cbn [wordless]; unfold paused_at; rewrite Hg; exact Hpa|reflexivity|exact Hp|cbn; auto].
  - destruct (pend_of s t) as [|i rest] eqn:Hp; [apply ShFail|]. destruct i; try apply ShFail.
    eapply ShYield; [exact I|reflexivity|exact Hp|cbn; auto].
  - apply ShStart. reflexivity.
Qed.

Lemma step_pre s ev :
  step s ev = match pre_atomic s ev with Some (s', t) => run_atomic FUEL s' t | None => step s ev end.
Proof. destruct (step_shape s ev); reflexivity. Qed.

Lemma pre_atomic_cases s ev s' t :
  pre_atomic s ev = Some (s', t) ->
  t = ev_thread ev /\
  ((exists a x e, ev = EvHandle a /\ get s a = Some x /\ a_cons x = CH e /\
      s' = set_pend (fst (dispatch (set_actor s a (busy x)) a (busy x) e)) t (snd (dispatch (set_actor s a (busy x)) a (busy x) e))) \/
   ((forall a, ev <> EvHandle a) /\
    (s' = s \/
     exists i rest, pend_of s t = i :: rest /\ In i [IEnqDone; IPauseSt; IResume1; IResume2] /\
       (s' = set_pend s t rest \/
        s' = set_pend (with_actor s (self_of t) (fun x => set_mb x (a_sq x) (a_uq x) true (a_cons x) (a_cur x))) t rest)))).
Proof.
  destruct (step_shape s ev) as [|? ? ? ? ? ?|a x e s1 ins -> Hg Hc Hd|? ? ? ? ? ?|t0 i rest Hw <- Hp Hi|t0 rest s1 -> Hp ->| |i ->];
    try discriminate; intros [= <- <-]; (split; [reflexivity|]).
  - left. exists a, x, e. rewrite Hd. auto.
  - right. split; [intros a ->; exact Hw|]. right. exists i, rest. split; [exact Hp|]. split; [cbn in *; tauto|left; reflexivity].
  - right. split; [discriminate|]. right. exists IPauseSt, rest. cbn. auto 7.
  - right. split; [discriminate|auto].
Qed.

Lemma pre_atomic_thread s ev s' t : pre_atomic s ev = Some (s', t) -> t = ev_thread ev.
Proof. intros H. apply (pre_atomic_cases s ev s' t H). Qed.

Lemma no_atomic_cases s ev :
  pre_atomic s ev = None -> err (step s ev) = false ->
  (exists a, ev = EvSysPop a \/ ev = EvLoadPaused a \/ ev = EvUserPop a) \/
  (exists t k, ev = EvPush t k) \/
  (exists t x rest, ev = EvResume1 t /\ pend_of s t = IResume1 :: rest /\ get s (self_of t) = Some x /\ a_paused x = true).
Proof. destruct (step_shape s ev); try discriminate; eauto 9. Qed.

Section StepRel.
  (** [R t]: what a step performed by thread [t] may do *)
  Variable R : tid -> state -> state -> Prop.
  Hypothesis Rrefl : forall t s, R t s s.
  Hypothesis Rtrans : forall t a b c, R t a b -> R t b c -> R t a c.
  Hypothesis Rerr : forall t s, R t s (set_err s).
  Hypothesis Rpend : forall t s l, R t s (set_pend s t l).
  (** the mailbox words of the thread's own context: the consumer's moves, Pause, Resume *)
  Hypothesis Rmb : forall t s x sq uq pa co cu,
    get s (self_of t) = Some x -> R t s (set_actor s (self_of t) (set_mb x sq uq pa co cu)).
  Hypothesis Rpush : forall t s a e, R t s (push_mb s a e).
  Hypothesis Rres : forall t s r, R t s (snd (resolve s r)).

  Lemma pause_rel t s l : R t s (set_pend (with_actor s (self_of t) (fun x => set_mb x (a_sq x) (a_uq x) true (a_cons x) (a_cur x))) t l).
  Proof.
    eapply Rtrans; [|apply Rpend]. unfold with_actor. destruct (get s (self_of t)) eqn:Hg; [apply Rmb; exact Hg|apply Rerr].
  Qed.

  Lemma pre_atomic_rel s ev s' t : (forall a, ev <> EvHandle a) -> pre_atomic s ev = Some (s', t) -> R t s s'.
  Proof.
    intros Hn H. destruct (pre_atomic_cases s ev s' t H) as [_ [(a & _ & _ & -> & _)|[_ [->|(i & l & _ & _ & [->| ->])]]]].
    - destruct (Hn a eq_refl).
    - apply Rrefl.
    - apply Rpend.
    - apply pause_rel.
  Qed.

  Lemma no_atomic_rel s ev : pre_atomic s ev = None -> R (ev_thread ev) s (step s ev).
  Proof.
    destruct (step_shape s ev) as [|a x sq uq co Hev Hg _| |t c tgt e i rest -> _ _| | |t x rest -> _ Hg _|]; try discriminate; intros _.
    - apply Rerr.
    - replace (ev_thread ev) with (TA a) by (destruct Hev as [->|[->| ->]]; reflexivity). apply (Rmb (TA a) s x), Hg.
    - assert (K : forall s0, R t s0 (set_pend (push_mb s0 tgt e) t (push_left i c ++ rest)))
        by (intros s0; eapply Rtrans; [apply Rpush|apply Rpend]).
      destruct (push_ref i c); [eapply Rtrans; [apply Rres|apply K]|apply K].
    - eapply Rtrans; [apply (Rmb t s x), Hg|apply Rpend].
  Qed.

  Hypothesis Rdisp : forall s a x e, get s a = Some x -> R (TA a) s (fst (dispatch s a x e)).

  Lemma pre_rel s ev s' t : pre_atomic s ev = Some (s', t) -> R t s s'.
  Proof.
    intros E. destruct (pre_atomic_cases s ev s' t E) as [Et [(a & x & e & -> & Hg & _ & ->)|[Hn _]]];
      [|eapply pre_atomic_rel; eassumption].
    cbn [ev_thread] in Et. subst t. eapply Rtrans; [|apply Rpend].
    eapply Rtrans; [apply (Rmb (TA a) s x); exact Hg|]. apply Rdisp. apply (get_set_same' s a _ x Hg).
  Qed.

  Hypothesis Rexec : forall t s h i, R t s (fst (exec1 s t h i)).

  Theorem step_rel s ev : R (ev_thread ev) s (step s ev).
  Proof.
    rewrite (step_pre s ev). destruct (pre_atomic s ev) as [[s' t]|] eqn:E; [|apply no_atomic_rel; exact E].
    rewrite <- (pre_atomic_thread _ _ _ _ E). eapply Rtrans; [exact (pre_rel s ev s' t E)|].
    apply run_atomic_rel; [apply Rrefl|apply Rtrans|apply Rerr|apply Rpend|apply Rres|apply Rexec].
  Qed.
End StepRel.

Section StepWord.
  Variable Q : state -> state -> Prop.
  Hypothesis Qrefl : forall s, Q s s.
  Hypothesis Qtrans : forall a b c, Q a b -> Q b c -> Q a c.
  Hypothesis Qerr : forall s, Q s (set_err s).
  Hypothesis Qpend : forall s t l, Q s (set_pend s t l).
  Hypothesis Qres : forall s r, Q s (snd (resolve s r)).
  Hypothesis Qdisp : forall s a x e, get s a = Some x -> Q s (fst (dispatch s a x e)).
  Hypothesis Qexec : forall s t h i, Q s (fst (exec1 s t h i)).

  (** [word s ev s']: the event [ev] takes [s] to [s'] by its mailbox word - one record is replaced (a fan-out
      resolves its target before the insertion) - followed by steps of [Q]; or it has no word; or it fails *)
  Inductive word (s : state) (ev : event) (s' : state) : Prop :=
  | WOwn x y :
      get s (event_actor ev) = Some x -> own_word ev x = Some y -> Q (set_actor s (event_actor ev) y) s' -> word s ev s'
  | WPush t c tgt e s0 x :
      ev = EvPush t c -> push_of s t c = Some (tgt, e) -> Q s s0 -> get s0 tgt = Some x ->
      Q (set_actor s0 tgt (enq x e)) s' -> word s ev s'
  | WNone : wordless s ev -> Q s s' -> word s ev s'
  | WErr : err s' = true -> Q s s' -> word s ev s'.

  Lemma Qatomic f s t l : Q s (run_atomic f (set_pend s t l) t).
  Proof. eapply Qtrans; [apply Qpend|]. apply run_atomic_rel; auto. Qed.

  Theorem step_word s ev : word s ev (step s ev).
  Proof.
    destruct (step_shape s ev) as [|a x sq uq co Hev Hg Hw|a x e s1 ins -> Hg Hc Hd|t c tgt e i rest -> Epo _|t i rest Hw _ _ _
                                  |t rest s1 -> _ ->|t x rest -> _ Hg Hpa|i ->].
    - apply WErr; [reflexivity|apply Qerr].
    - assert (Ea : event_actor ev = a) by (destruct Hev as [->|[->| ->]]; reflexivity). rewrite <- Ea in *.
      exact (WOwn s ev _ x _ Hg Hw (Qrefl _)).
    - apply (WOwn s (EvHandle a) _ x (busy x) Hg); [cbn [own_word]; rewrite Hc; reflexivity|].
      pose proof (Qdisp _ a (busy x) e (get_set_same' s a _ x Hg)) as K. rewrite Hd in K.
      eapply Qtrans; [exact K|apply Qatomic].
    - set (s0 := match push_ref i c with Some r => snd (resolve s r) | None => s end).
      assert (K0 : Q s s0) by (unfold s0; destruct (push_ref i c); [apply Qres|apply Qrefl]).
      destruct (get s0 tgt) as [x|] eqn:Hg.
      + rewrite push_mb_enq, (with_actor_some _ _ _ _ Hg). eapply WPush; [reflexivity|exact Epo|exact K0|exact Hg|apply Qpend].
      + rewrite (push_mb_none _ _ _ Hg). apply WErr; [apply set_pend_err_mono; reflexivity|].
        eapply Qtrans; [exact K0|]. eapply Qtrans; [apply Qerr|apply Qpend].
    - apply WNone; [exact Hw|apply Qatomic].
    - destruct (get s (self_of t)) as [x|] eqn:Hg.
      + rewrite (with_actor_some _ _ _ _ Hg). apply (WOwn s (EvPauseSt t) _ x _ Hg eq_refl), Qatomic.
      + rewrite (with_actor_none _ _ _ Hg). apply WErr; [|eapply Qtrans; [apply Qerr|apply Qatomic]].
        apply err_mono_run_atomic, set_pend_err_mono. reflexivity.
    - eapply (WOwn s (EvResume1 t) _ x _ Hg); [cbn [own_word]; rewrite Hpa; reflexivity|apply Qpend].
    - apply WNone; [exact I|]. apply run_atomic_rel; auto.
  Qed.
End StepWord.

Fixpoint atomic_trace (fuel : nat) (s : state) (t : tid) : list (state * instr) :=
  match fuel with
  | O => []
  | S f =>
      match pend_of s t with
      | [] => []
      | IEnq _ _ _ _ :: _ => []
      | i :: rest =>
          if yielding i then []
          else let s0 := set_pend s t rest in
               let (s1, front) := exec1 s0 t (held_of s0 t) i in
               (s0, i) :: atomic_trace f (set_pend s1 t (front ++ pend_of s1 t)) t
      end
  end.

Lemma atomic_trace_fold {A} (F : nat -> state -> tid -> A) (g : state -> tid -> instr -> A) (op : A -> A -> A) (e : A) :
  (forall s t, F 0 s t = e) ->
  (forall f s t, F (S f) s t =
     match pend_of s t with
     | [] => e
     | IEnq _ _ _ _ :: _ => e
     | i :: rest =>
         if yielding i then e
         else let s0 := set_pend s t rest in
              let (s1, front) := exec1 s0 t (held_of s0 t) i in
              op (g s0 t i) (F f (set_pend s1 t (front ++ pend_of s1 t)) t)
     end) ->
  forall f s t, F f s t = fold_right (fun p v => op (g (fst p) t (snd p)) v) e (atomic_trace f s t).
Proof.
  intros H0 HS. induction f as [|f IH]; intros s t; [apply H0|].
  rewrite HS. cbn [atomic_trace]. destruct (pend_of s t) as [|i rest]; [reflexivity|].
  (* the tell is singled out by the match, every other instruction goes by [yielding] *)
  assert (Hgen : (if yielding i then e
      else let s0 := set_pend s t rest in let (s1, front) := exec1 s0 t (held_of s0 t) i in
           op (g s0 t i) (F f (set_pend s1 t (front ++ pend_of s1 t)) t)) =
     fold_right (fun p v => op (g (fst p) t (snd p)) v) e
       (if yielding i then []
        else let s0 := set_pend s t rest in let (s1, front) := exec1 s0 t (held_of s0 t) i in
             (s0, i) :: atomic_trace f (set_pend s1 t (front ++ pend_of s1 t)) t)).
  { destruct (yielding i); [reflexivity|]. cbv zeta. destruct (exec1 _ t _ i) as [s1 front]. cbn [fold_right fst snd]. rewrite IH. reflexivity. }
  destruct i; try exact Hgen. reflexivity.
Qed.

Lemma run_atomic_trace_ind (P : state -> list (state * instr) -> state -> Prop) (t : tid) :
  (forall s, P s [] s) ->
  (forall s, P s [] (set_err s)) ->
  (forall s sys to sender m rest, pend_of s t = IEnq sys to sender m :: rest ->
     P s [] (set_pend (snd (resolve s to)) t (IEnqR sys (fst (resolve s to)) sender m :: rest))) ->
  (forall s i rest s1 front f,
     pend_of s t = i :: rest -> yielding i = false -> is_enq i = false ->
     exec1 (set_pend s t rest) t (held_of (set_pend s t rest) t) i = (s1, front) ->
     let s2 := set_pend s1 t (front ++ pend_of s1 t) in
     P s2 (atomic_trace f s2 t) (run_atomic f s2 t) ->
     P s ((set_pend s t rest, i) :: atomic_trace f s2 t) (run_atomic f s2 t)) ->
  forall f s, P s (atomic_trace f s t) (run_atomic f s t).
Proof.
  intros Hnil Herr Henq Hex. induction f as [|f IH]; intros s; [apply Herr|].
  rewrite run_atomic_S. cbn [atomic_trace]. destruct (pend_of s t) as [|i rest] eqn:Hp; [apply Hnil|].
  destruct (is_enq i) eqn:Hq.
  - destruct i; try discriminate Hq. pose proof (Henq s sys to sender m rest Hp) as K.
    destruct (resolve s to) as [mb s1]. exact K.
  - destruct (yielding i) eqn:Hy; [destruct i; try discriminate Hq; try discriminate Hy; apply Hnil|].
    assert (Hgen : P s (let s0 := set_pend s t rest in let (s1, front) := exec1 s0 t (held_of s0 t) i in
                        (s0, i) :: atomic_trace f (set_pend s1 t (front ++ pend_of s1 t)) t)
                       (let s0 := set_pend s t rest in let (s1, front) := exec1 s0 t (held_of s0 t) i in
                        run_atomic f (set_pend s1 t (front ++ pend_of s1 t)) t)).
    { cbv zeta. destruct (exec1 _ t _ i) as [s1 front] eqn:E. apply (Hex s i rest s1 front f Hp Hy Hq E), IH. }
    destruct i; try discriminate Hq; try exact Hgen; discriminate Hy.
Qed.
