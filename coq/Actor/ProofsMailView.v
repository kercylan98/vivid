(** Views of the micro-steps used by the cover invariant: what one micro-step does to the pending lists of all
    threads, to the system queues, to the envelope in hand and to the lifecycle fields of every context. *)
From Coq Require Import List NArith Bool Arith.
From Vivid Require Import Actor.Core Actor.CoreRun Actor.SpecMail Actor.ProofsMailBase Actor.ProofsMail Actor.ProofsMailInv
  Actor.ProofsMailWf Actor.ProofsMailAcct Actor.ProofsMailReg Actor.ProofsMailMicro Actor.ProofsMailLife Actor.ProofsMailStep
  Actor.ProofsMailTree Actor.ProofsMailMK Actor.ProofsMailKids Actor.ProofsMailCtx Actor.ProofsMailMicro2 Actor.ProofsMailCache.
Import ListNotations.

Definition sysq (e : envelope) : list envelope := if e_sys e then [e] else [].

Definition mail_rel (x y : actor) (esq : list envelope) (pa : bool) : Prop :=
  a_state y = a_state x /\ a_zombie y = a_zombie x /\ a_restarting y = a_restarting x /\ a_parent y = a_parent x /\
  a_cons y = a_cons x /\ a_children y = a_children x /\ a_sq y = a_sq x ++ esq /\ a_paused y = pa.

Definition calm (s s1 : state) (tgt : aid) (env : list envelope) (self : aid) (pa : bool -> bool) : Prop :=
  length (actors s1) = length (actors s) /\ exts s1 = exts s /\
  forall b xb, get s b = Some xb ->
    exists yb, get s1 b = Some yb /\ a_pend yb = a_pend xb /\
      mail_rel xb yb (if Nat.eqb b tgt then env else []) (if Nat.eqb b self then pa (a_paused xb) else a_paused xb).

Lemma mail_rel_refl x : mail_rel x x [] (a_paused x).
Proof. unfold mail_rel. rewrite app_nil_r. repeat split. Qed.

Lemma calm_refl s tgt self : calm s s tgt [] self (fun p => p).
Proof.
  split; [reflexivity|split; [reflexivity|]]. intros b xb Hg. exists xb. split; [exact Hg|split; [reflexivity|]].
  destruct (Nat.eqb b tgt), (Nat.eqb b self); apply mail_rel_refl.
Qed.

Lemma calm_same s s1 tgt self : actors s1 = actors s -> exts s1 = exts s -> calm s s1 tgt [] self (fun p => p).
Proof.
  intros Ha He. split; [rewrite Ha; reflexivity|split; [exact He|]]. intros b xb Hg. exists xb. split; [unfold get in *; rewrite Ha; exact Hg|split; [reflexivity|]].
  destruct (Nat.eqb b tgt), (Nat.eqb b self); apply mail_rel_refl.
Qed.

Lemma calm_resolve s r tgt self : calm s (snd (resolve s r)) tgt [] self (fun p => p).
Proof.
  destruct (resolve_shape s r) as [E|[E|(a & x & y & _ & Hg & _ & _ & E & _)]]; rewrite E; [apply calm_refl|apply calm_same; reflexivity|].
  split; [cbn; apply upd_length|split; [reflexivity|]]. intros b xb Hgb. destruct (Nat.eq_dec a b) as [<-|Hne].
  - rewrite (get_set_same' _ _ _ _ Hg). assert (xb = x) by congruence; subst. eexists. split; [reflexivity|split; [reflexivity|]].
    destruct (Nat.eqb a tgt), (Nat.eqb a self); unfold mail_rel; cbn [set_cache a_state a_zombie a_restarting a_parent a_cons a_children a_sq a_paused]; rewrite app_nil_r; repeat split.
  - rewrite get_set_other by exact Hne. exists xb. split; [exact Hgb|split; [reflexivity|]].
    destruct (Nat.eqb b tgt), (Nat.eqb b self); apply mail_rel_refl.
Qed.

Lemma calm_push s s1 tgt0 self tgt e :
  calm s s1 tgt0 [] self (fun p => p) -> calm s (push_mb s1 tgt e) tgt (sysq e) self (fun p => p).
Proof.
  intros (Hl & He & H). destruct (get s1 tgt) as [x1|] eqn:Hg1.
  - rewrite (push_mb_get _ _ _ _ Hg1). split; [cbn; rewrite upd_length; exact Hl|split; [exact He|]].
    intros b xb Hgb. destruct (H b xb Hgb) as (yb & Hyb & Hp & (R1 & R2 & R3 & R4 & R5 & R6 & R7 & R8)).
    assert (E0 : a_sq yb = a_sq xb) by (rewrite R7; destruct (Nat.eqb b tgt0); apply app_nil_r).
    assert (E1 : a_paused yb = a_paused xb) by (rewrite R8; destruct (Nat.eqb b self); reflexivity).
    destruct (Nat.eq_dec tgt b) as [<-|Hne].
    + rewrite (get_set_same' _ _ _ _ Hg1). assert (yb = x1) by congruence; subst yb. eexists. split; [reflexivity|split; [exact Hp|]].
      rewrite Nat.eqb_refl. unfold mail_rel, sysq. cbn [set_mb a_state a_zombie a_restarting a_parent a_cons a_children a_sq a_paused].
      repeat split; try assumption; try (destruct (Nat.eqb tgt self); exact E1).
      destruct (e_sys e); rewrite E0; [reflexivity|rewrite app_nil_r; reflexivity].
    + rewrite get_set_other by exact Hne. exists yb. split; [exact Hyb|split; [exact Hp|]].
      assert (Hb : Nat.eqb b tgt = false) by (apply Nat.eqb_neq; congruence). rewrite Hb.
      unfold mail_rel. rewrite E0, app_nil_r. repeat split; try assumption; try (destruct (Nat.eqb b self); exact E1).
  - rewrite (push_mb_none _ _ _ Hg1). split; [exact Hl|split; [exact He|]].
    intros b xb Hgb. destruct (H b xb Hgb) as (yb & Hyb & Hp & (R1 & R2 & R3 & R4 & R5 & R6 & R7 & R8)).
    exists yb. split; [exact Hyb|split; [exact Hp|]].
    assert (Hb : Nat.eqb b tgt = false) by (apply Nat.eqb_neq; intros ->; congruence). rewrite Hb.
    unfold mail_rel. repeat split; try assumption. rewrite R7. destruct (Nat.eqb b tgt0); reflexivity.
Qed.

Lemma calm_paused s self v tgt :
  calm s (with_actor s self (fun x => set_mb x (a_sq x) (a_uq x) v (a_cons x) (a_cur x))) tgt [] self (fun _ => v).
Proof.
  destruct (get s self) as [x|] eqn:Hg.
  - rewrite (with_actor_some _ _ _ _ Hg). split; [cbn; apply upd_length|split; [reflexivity|]].
    intros b xb Hgb. destruct (Nat.eq_dec self b) as [<-|Hne].
    + rewrite (get_set_same' _ _ _ _ Hg). assert (xb = x) by congruence; subst. eexists. split; [reflexivity|split; [reflexivity|]].
      rewrite Nat.eqb_refl. unfold mail_rel. cbn [set_mb a_state a_zombie a_restarting a_parent a_cons a_children a_sq a_paused].
      destruct (Nat.eqb self tgt); rewrite app_nil_r; repeat split.
    + rewrite get_set_other by exact Hne. exists xb. split; [exact Hgb|split; [reflexivity|]].
      assert (Hb : Nat.eqb b self = false) by (apply Nat.eqb_neq; congruence). rewrite Hb.
      destruct (Nat.eqb b tgt); apply mail_rel_refl.
  - rewrite (with_actor_none _ _ _ Hg). split; [reflexivity|split; [reflexivity|]]. intros b xb Hgb. exists xb. split; [exact Hgb|split; [reflexivity|]].
    assert (Hb : Nat.eqb b self = false) by (apply Nat.eqb_neq; intros ->; congruence). rewrite Hb.
    destruct (Nat.eqb b tgt); apply mail_rel_refl.
Qed.

Definition is_ta (t : tid) (b : aid) : bool := match t with TA a => Nat.eqb a b | TX _ => false end.

Record tstep (s s' : state) (t : tid) (i0 : instr) (rest pre : list instr) (tgt : aid) (env : list envelope) (pa : bool -> bool) : Prop := {
  ts_p : pend_of s t = i0 :: rest;
  ts_len : length (actors s') = length (actors s);
  ts_pt : pend_of s' t = pre ++ rest;
  ts_po : forall t', t' <> t -> pend_of s' t' = pend_of s t';
  ts_rec : forall b xb, get s b = Some xb ->
    exists yb, get s' b = Some yb /\ a_pend yb = (if is_ta t b then pre ++ rest else a_pend xb) /\
      mail_rel xb yb (if Nat.eqb b tgt then env else []) (if Nat.eqb b (self_of t) then pa (a_paused xb) else a_paused xb)
}.

Lemma mail_rel_upd_pend x y l esq pa : mail_rel x y esq pa -> mail_rel x (upd_pend y l) esq pa.
Proof. intros H. exact H. Qed.

Lemma tstep_intro s s1 t i0 rest pre tgt env pa :
  pend_of s t = i0 :: rest -> calm s s1 tgt env (self_of t) pa ->
  tstep s (set_pend s1 t (pre ++ rest)) t i0 rest pre tgt env pa.
Proof.
  intros Hp (Hl & He & H). destruct t as [a|j]; cbn [self_of] in *.
  - destruct (pend_of_TA_cons _ _ _ _ Hp) as (x & Hg & Hpx).
    destruct (H a x Hg) as (y & Hy & Hpy & Hr).
    rewrite (set_pend_TA _ _ _ _ Hy).
    constructor.
    + exact Hp.
    + cbn. rewrite upd_length. exact Hl.
    + cbn [pend_of]. rewrite (get_set_same' _ _ _ _ Hy). reflexivity.
    + intros t' Hne. destruct t' as [b|k]; cbn [pend_of].
      * assert (Hab : a <> b) by congruence. rewrite get_set_other by exact Hab.
        destruct (get s b) as [xb|] eqn:Hgb.
        -- destruct (H b xb Hgb) as (yb & Hyb & Hpb & _). rewrite Hyb. exact Hpb.
        -- assert (Hn : get s1 b = None) by (apply nth_error_None; rewrite Hl; apply nth_error_None; exact Hgb). rewrite Hn. reflexivity.
      * cbn [set_actor exts]. rewrite He. reflexivity.
    + intros b xb Hgb. cbn [is_ta self_of]. destruct (H b xb Hgb) as (yb & Hyb & Hpb & Hrb).
      destruct (Nat.eq_dec a b) as [<-|Hne].
      * rewrite Nat.eqb_refl. rewrite (get_set_same' _ _ _ _ Hy). assert (yb = y) by congruence; subst yb.
        eexists. split; [reflexivity|split; [reflexivity|]]. apply mail_rel_upd_pend. rewrite Nat.eqb_refl in Hrb. exact Hrb.
      * assert (Hb : Nat.eqb a b = false) by (apply Nat.eqb_neq; exact Hne). rewrite Hb. rewrite get_set_other by exact Hne.
        exists yb. split; [exact Hyb|split; [exact Hpb|exact Hrb]].
  - destruct (pend_of_TX_cons _ _ _ _ Hp) as (ex & Hn & Hpx).
    assert (Hn1 : nth_error (exts s1) j = Some ex) by (rewrite He; exact Hn).
    cbn [set_pend]. rewrite Hn1.
    constructor.
    + exact Hp.
    + exact Hl.
    + cbn [pend_of set_ext exts]. rewrite nth_upd_eq by (eapply nth_error_lt; exact Hn1). reflexivity.
    + intros t' Hne. destruct t' as [b|k]; cbn [pend_of set_ext exts actors].
      * change (get (set_ext s1 j {| x_pend := pre ++ rest; x_held := x_held ex |}) b) with (get s1 b).
        destruct (get s b) as [xb|] eqn:Hgb.
        -- destruct (H b xb Hgb) as (yb & Hyb & Hpb & _). rewrite Hyb. exact Hpb.
        -- assert (Hnn : get s1 b = None) by (apply nth_error_None; rewrite Hl; apply nth_error_None; exact Hgb). rewrite Hnn. reflexivity.
      * assert (Hjk : j <> k) by congruence. rewrite nth_upd_neq by exact Hjk. rewrite He. reflexivity.
    + intros b xb Hgb. cbn [is_ta]. destruct (H b xb Hgb) as (yb & Hyb & Hpb & Hrb).
      exists yb. split; [exact Hyb|split; [exact Hpb|exact Hrb]].
Qed.

Lemma view_resolve s t sys to sender m rest :
  pend_of s t = IEnq sys to sender m :: rest ->
  tstep s (mstep s (MAtomic t)) t (IEnq sys to sender m) rest [IEnqR sys (fst (resolve s to)) sender m] 0 [] (fun p => p).
Proof. intros Hp. cbn [mstep]. rewrite Hp. apply (tstep_intro s _ t _ rest [IEnqR sys (fst (resolve s to)) sender m] 0 [] _ Hp). apply calm_resolve. Qed.

Lemma view_push_enqr s t c sys mb sender m rest :
  pend_of s t = IEnqR sys mb sender m :: rest ->
  let le := landing mb {| e_sys := sys; e_sender := sender; e_msg := m |} in
  tstep s (mstep s (MPush t c)) t (IEnqR sys mb sender m) rest [] (fst le) (sysq (snd le)) (fun p => p).
Proof.
  intros Hp. cbv zeta. cbn [mstep step]. rewrite Hp, deliver_eq.
  apply (tstep_intro s _ t _ rest [] _ _ _ Hp). eapply calm_push. apply (calm_refl s 0).
Qed.

Lemma view_push_mb s t c b e rest :
  pend_of s t = IEnqMb b e :: rest -> tstep s (mstep s (MPush t c)) t (IEnqMb b e) rest [] b (sysq e) (fun p => p).
Proof.
  intros Hp. cbn [mstep step]. rewrite Hp.
  apply (tstep_intro s _ t _ rest [] _ _ _ Hp). eapply calm_push. apply (calm_refl s 0).
Qed.

Lemma view_push_any s t c sys tos sender m rest to :
  pend_of s t = IEnqAny sys tos sender m :: rest -> nth_error tos c = Some to ->
  let le := landing (fst (resolve s to)) {| e_sys := sys; e_sender := sender; e_msg := m |} in
  let tos' := firstn c tos ++ skipn (S c) tos in
  tstep s (mstep s (MPush t c)) t (IEnqAny sys tos sender m) rest
        (IEnqDone :: match tos' with [] => [] | _ => [IEnqAny sys tos' sender m] end) (fst le) (sysq (snd le)) (fun p => p).
Proof.
  intros Hp Hn. cbv zeta. cbn [mstep step]. rewrite Hp, Hn.
  pose proof (calm_resolve s to 0 (self_of t)) as Hc. destruct (resolve s to) as [mb s1]. cbn [fst snd] in *. rewrite deliver_eq.
  match goal with |- tstep _ (set_pend ?s2 t ?l) _ _ _ ?pre _ _ _ =>
    replace l with (pre ++ rest) by (destruct (firstn c tos ++ skipn (S c) tos); reflexivity) end.
  apply (tstep_intro s _ t _ rest _ _ _ _ Hp). eapply calm_push. exact Hc.
Qed.

Lemma view_push_sup s t ch c d rem done rest to :
  pend_of s t = ISupPause c d rem done :: rest -> nth_error rem ch = Some to ->
  let le := landing (fst (resolve s to)) {| e_sys := true; e_sender := RObj (self_of t); e_msg := MCmdPause |} in
  tstep s (mstep s (MPush t ch)) t (ISupPause c d rem done) rest
        [IEnqDone; ISupPause c d (firstn ch rem ++ skipn (S ch) rem) (done ++ [to])] (fst le) (sysq (snd le)) (fun p => p).
Proof.
  intros Hp Hn. cbv zeta. cbn [mstep step]. rewrite Hp, Hn.
  pose proof (calm_resolve s to 0 (self_of t)) as Hc. destruct (resolve s to) as [mb s1]. cbn [fst snd] in *. rewrite deliver_eq.
  apply (tstep_intro s _ t _ rest [IEnqDone; ISupPause c d (firstn ch rem ++ skipn (S ch) rem) (done ++ [to])] _ _ _ Hp). eapply calm_push. exact Hc.
Qed.
