(** Mail hygiene: user queues hold only non-system envelopes; a pause command is never stashed, replayed or told by
    anything but a supervisor's pause loop; the root is never paused. *)
From Coq Require Import List NArith Bool Arith.
From Vivid Require Import Actor.Core Actor.CoreRun Actor.SpecMail Actor.ProofsMailBase Actor.ProofsMail Actor.ProofsMailInv
  Actor.ProofsMailWf Actor.ProofsMailAcct Actor.ProofsMailReg Actor.ProofsMailMicro Actor.ProofsMailLife Actor.ProofsMailStep
  Actor.ProofsMailTree Actor.ProofsMailMK Actor.ProofsMailKids Actor.ProofsMailCtx Actor.ProofsMailMicro2 Actor.ProofsMailCache.
Import ListNotations.

Definition np_env (e : envelope) : Prop := e_msg e <> MCmdPause.
Definition np_instr (i : instr) : Prop :=
  match i with
  | IEnq _ _ _ m | IEnqR _ _ _ m | IEnqAny _ _ _ m => m <> MCmdPause
  | IEnqMb _ e => np_env e
  | _ => True
  end.
Definition ucode (i : instr) : bool :=
  match i with IAct _ | IBeh _ _ _ | IDoKill _ | IOnKilled _ | ICheckMark | IRestartFinish => true | _ => false end.
Definition cur_np (x : actor) : Prop := forall e, a_cur x = Some e -> np_env e.

Lemma exec1_hyg s t h i x :
  get s (self_of t) = Some x -> Forall np_env (a_stash x) -> (ucode i = true -> cur_np x) ->
  let r := exec1 s t h i in
  (forall y, get (fst r) (self_of t) = Some y -> Forall np_env (a_stash y) /\ (cur_np x -> cur_np y)) /\
  Forall np_instr (snd r) /\ (existsb ucode (snd r) = true -> ucode i = true) /\
  (In IPauseSt (snd r) -> i = IFailed \/ exists c d tg, i = ISupApply c d tg /\ d <> DStop).
Proof.
  intros Hg Hst Hcur. cbv zeta. split; [|split; [|split]].
  - intros y Hy. destruct (exec1_own s t h i x Hg) as (y' & Hy' & _ & _ & _ & Est & Ecur). assert (y' = y) by congruence; subst y'. split.
    + destruct Est as [-> |[(e & -> & Ec & ->)|[k ->]]]; [exact Hst| |apply Forall_skipn, Hst].
      apply Forall_app. split; [exact Hst|constructor; [apply (Hcur eq_refl e Ec)|constructor]].
    + intros Hc e He. destruct Ecur as [E|(e' & E & [Ho|Ho])]; [apply Hc; congruence| |]; assert (e = e') by congruence; subst e'; unfold np_env; rewrite Ho; discriminate.
  - apply Forall_forall. intros j Hj. rewrite Forall_forall in Hst.
    destruct (exec1_emits _ _ _ _ _ _ Hg Hj); cbn [np_instr]; try exact I; try discriminate. apply Hst, He.
  - intros Hu. apply existsb_exists in Hu. destruct Hu as (j & Hj & Hu). revert Hu. destruct (exec1_emits _ _ _ _ _ _ Hg Hj); cbn; auto; discriminate.
  - intros Hj. pose proof (exec1_emits _ _ _ _ _ _ Hg Hj) as He. inversion He; subst; [left; reflexivity|right]. do 3 eexists. split; [reflexivity|]. destruct Hd; subst; discriminate.
Qed.

Lemma dispatch_hyg s a x e :
  get s a = Some x ->
  let r := dispatch s a x e in
  (forall y, get (fst r) a = Some y ->
     a_stash y = a_stash x /\ (np_env e -> cur_np x -> cur_np y) /\ (existsb ucode (snd r) = true -> cur_np y)) /\
  Forall np_instr (snd r) /\ (In IPauseSt (snd r) -> e_msg e = MCmdPause).
Proof.
  intros Hg. cbv zeta.
  assert (Hl : a < length (actors s)) by (eapply nth_error_lt; exact Hg).
  assert (Hget : forall y0 y, get (set_actor s a y0) a = Some y -> y = y0).
  { intros y0 y Hy. rewrite (get_set_same _ _ _ Hl) in Hy. congruence. }
  assert (Hkc : Forall np_instr (kill_children a x) /\ existsb ucode (kill_children a x) = false /\ ~ In IPauseSt (kill_children a x)).
  { unfold kill_children. destruct (a_children x); cbn; repeat split; try constructor; try discriminate; try constructor; intuition discriminate. }
  destruct Hkc as (K1 & K2 & K3).
  destruct (dispatch_cases s a x e) as [| |r _ []]; cbn [fst snd]; unfold dead_report;
    try destruct poison; try match goal with Hs : a_state x <> Running |- _ => destruct (a_state x); [congruence| |] end; cbn [app].
  all: split; [intros y Hy; first [apply (Hget _ y) in Hy|assert (y = x) by (change (get s a = Some y) in Hy; congruence)]; subst y;
                cbn [a_stash a_cur with_cur set_mb set_state set_restarting set_decisions set_watchers upd_local]; split; [reflexivity|split]|split].
  all: try (intros Hn Hc e0 H0; first [exact (Hc e0 H0) | injection H0 as <-; first [exact Hn | unfold np_env; cbn; discriminate]]).
  all: try (rewrite ?existsb_app, ?K2; cbn [existsb ucode orb]; intros Hu e0 H0; first [discriminate Hu | injection H0 as <-; unfold np_env; first [rewrite Em; discriminate | cbn; discriminate]]).
  all: try (repeat first [apply Forall_cons; [first [exact I|unfold np_env; cbn; discriminate]|] | apply Forall_nil | apply Forall_app; split | exact K1]; fail).
  all: cbn [In]; rewrite ?in_app_iff; cbn [In]; intuition (try discriminate; try assumption).
Qed.

Definition uq_ok (e : envelope) : Prop := e_sys e = false /\ np_env e.
Definition pend_okx (a : aid) (x : actor) (l : list instr) : Prop :=
  Forall np_instr l /\ (existsb ucode l = true -> cur_np x) /\ (a = 0 -> ~ In IPauseSt l).
Definition root_okx (x : actor) : Prop :=
  Forall np_env (held x) /\ Forall np_env (a_sq x) /\ cur_np x /\ a_paused x = false.
Definition mh_rec (a : aid) (x : actor) : Prop :=
  Forall uq_ok (a_uq x) /\ Forall np_env (a_stash x) /\ pend_okx a x (a_pend x) /\ (a = 0 -> root_okx x).
Definition MH (s : state) : Prop :=
  (forall a x, get s a = Some x -> mh_rec a x) /\
  (forall j ex, nth_error (exts s) j = Some ex -> Forall np_instr (x_pend ex)).

Lemma MH_same s s' : actors s' = actors s -> exts s' = exts s -> MH s -> MH s'.
Proof. intros Ha He [H1 H2]. split; [intros a x Hg; apply H1; unfold get in *; rewrite <- Ha; exact Hg|intros j ex Hn; apply (H2 j); rewrite <- He; exact Hn]. Qed.

Lemma MH_set_actor s a y : MH s -> mh_rec a y -> MH (set_actor s a y).
Proof.
  intros [H1 H2] Hy. split; [|exact H2]. intros b x Hg.
  destruct (Nat.eq_dec a b) as [<-|Hne].
  - destruct (Nat.lt_ge_cases a (length (actors s))) as [Hl|Hl].
    + rewrite get_set_same in Hg by exact Hl. inversion Hg; subst. exact Hy.
    + unfold get in Hg. cbn [set_actor actors] in Hg. assert (E : nth_error (upd (actors s) a y) a = None) by (apply nth_error_None; rewrite upd_length; exact Hl). congruence.
  - rewrite get_set_other in Hg by exact Hne. apply H1. exact Hg.
Qed.

Lemma MH_push_mb s b e : MH s -> (e_sys e = false -> np_env e) -> (e_sys e = true -> b = 0 -> np_env e) -> MH (push_mb s b e).
Proof.
  intros H Hu Hs. destruct (get s b) as [x|] eqn:Hg.
  - rewrite (push_mb_get _ _ _ _ Hg). apply MH_set_actor; [exact H|].
    destruct (proj1 H _ _ Hg) as (A & B & (C1 & C2 & C3) & D).
    unfold mh_rec, pend_okx, root_okx, cur_np, held. cbn [set_mb a_uq a_stash a_pend a_cur a_sq a_cons a_paused].
    destruct (e_sys e) eqn:Es.
    + split; [exact A|split; [exact B|split; [split; [exact C1|split; [exact C2|exact C3]]|]]].
      intros Hb. destruct (D Hb) as (D1 & D2 & D3 & D4). split; [exact D1|split; [|split; [exact D3|exact D4]]].
      apply Forall_app. split; [exact D2|constructor; [apply Hs; [reflexivity|exact Hb]|constructor]].
    + split; [apply Forall_app; split; [exact A|constructor; [split; [exact Es|apply Hu; reflexivity]|constructor]]|].
      split; [exact B|split; [split; [exact C1|split; [exact C2|exact C3]]|exact D]].
  - rewrite (push_mb_none _ _ _ Hg). apply (MH_same s); auto.
Qed.

Lemma mh_rec_cache a x c : mh_rec a x -> mh_rec a (set_cache x c).
Proof. intros H. exact H. Qed.

Lemma MH_resolve s r : MH s -> MH (snd (resolve s r)).
Proof.
  intros H. destruct (resolve_shape s r) as [E|[E|(a & x & y & _ & Hg & _ & _ & E & _)]]; rewrite E; [exact H|apply (MH_same s); auto|].
  apply MH_set_actor; [exact H|]. apply mh_rec_cache. apply (proj1 H _ _ Hg).
Qed.

Definition pend_ok (s : state) (t : tid) (l : list instr) : Prop :=
  match t with
  | TA a => forall x, get s a = Some x -> pend_okx a x l
  | TX _ => Forall np_instr l
  end.

Lemma MH_set_pend s t l : MH s -> pend_ok s t l -> MH (set_pend s t l).
Proof.
  intros [H1 H2] Hl. destruct t as [a|j]; cbn [set_pend pend_ok] in *.
  - unfold with_actor. destruct (get s a) as [x|] eqn:Hg; [|apply (MH_same s); auto; split; assumption].
    apply MH_set_actor; [split; assumption|]. destruct (H1 _ _ Hg) as (A & B & _ & D).
    split; [exact A|split; [exact B|split; [exact (Hl x eq_refl)|exact D]]].
  - destruct (nth_error (exts s) j) as [ex|] eqn:Hn; [|apply (MH_same s); auto; split; assumption].
    split; [exact H1|]. intros k exk Hk. cbn [set_ext exts] in Hk. destruct (Nat.eq_dec j k) as [<-|Hne].
    + rewrite nth_upd_eq in Hk by (eapply nth_error_lt; exact Hn). inversion Hk; subst. exact Hl.
    + rewrite nth_upd_neq in Hk by exact Hne. apply (H2 k). exact Hk.
Qed.

Lemma pend_ok_tail s t i rest pre :
  MH s -> pend_of s t = i :: rest -> Forall np_instr pre -> existsb ucode pre = false -> ~ In IPauseSt pre ->
  forall s1, (forall x1, get s1 (self_of t) = Some x1 -> exists x, get s (self_of t) = Some x /\ a_cur x1 = a_cur x) ->
  pend_ok s1 t (pre ++ rest).
Proof.
  intros [H1 H2] Hp Hnp Hu Hps s1 Hs1. destruct t as [a|j]; cbn [pend_ok self_of] in *.
  - destruct (pend_of_TA_cons _ _ _ _ Hp) as (x & Hg & Hpx). intros x1 Hg1. destruct (Hs1 x1 Hg1) as (x' & Hx' & Ec).
    assert (x' = x) by congruence; subst x'. destruct (H1 _ _ Hg) as (_ & _ & (C1 & C2 & C3) & _). rewrite Hpx in *.
    inversion C1 as [|? ? Ci Cr]; subst. split; [apply Forall_app; split; assumption|]. split.
    + rewrite existsb_app, Hu. cbn [orb]. intros Hr. unfold cur_np. rewrite Ec. apply C2. cbn [existsb]. rewrite Hr. apply orb_true_r.
    + intros Ha Hin. apply in_app_or in Hin. destruct Hin as [Hin|Hin]; [exact (Hps Hin)|]. apply (C3 Ha). right. exact Hin.
  - destruct (pend_of_TX_cons _ _ _ _ Hp) as (ex & Hn & Hpx). pose proof (H2 _ _ Hn) as C1. rewrite Hpx in C1.
    inversion C1; subst. apply Forall_app. split; assumption.
Qed.

Definition curT (s s1 : state) : Prop := forall c x1, get s1 c = Some x1 -> exists x, get s c = Some x /\ a_cur x1 = a_cur x.
Lemma curT_refl s : curT s s. Proof. intros c x1 H. eauto. Qed.
Lemma curT_trans a b c : curT a b -> curT b c -> curT a c.
Proof. intros H1 H2 k x2 Hk. destruct (H2 k x2 Hk) as (x1 & Hx1 & E1). destruct (H1 k x1 Hx1) as (x & Hx & E). exists x. split; [exact Hx|congruence]. Qed.
Lemma curT_same s s1 : actors s1 = actors s -> curT s s1.
Proof. intros Ha c x1 H. exists x1. unfold get in *. rewrite <- Ha. auto. Qed.
Lemma curT_set_actor s a x y : get s a = Some x -> a_cur y = a_cur x -> curT s (set_actor s a y).
Proof.
  intros Hg Hc c x1 H. destruct (Nat.eq_dec a c) as [<-|Hne].
  - rewrite (get_set_same' _ _ _ _ Hg) in H. inversion H; subst. eauto.
  - rewrite get_set_other in H by exact Hne. eauto.
Qed.
Lemma curT_with_actor s a f : (forall x, a_cur (f x) = a_cur x) -> curT s (with_actor s a f).
Proof.
  intros Hf. destruct (get s a) as [x|] eqn:Hg.
  - rewrite (with_actor_some _ _ _ _ Hg). eapply curT_set_actor; [exact Hg|apply Hf].
  - rewrite (with_actor_none _ _ _ Hg). apply curT_same. reflexivity.
Qed.
Lemma curT_push_mb s b e : curT s (push_mb s b e).
Proof. unfold push_mb. apply curT_with_actor. reflexivity. Qed.
Lemma curT_resolve s r : curT s (snd (resolve s r)).
Proof.
  destruct (resolve_shape s r) as [E|[E|(a & x & y & _ & Hg & _ & _ & E & _)]]; rewrite E; [apply curT_refl|apply curT_same; reflexivity|].
  eapply curT_set_actor; [exact Hg|reflexivity].
Qed.

Lemma tmove_curT s t m i pre s1 : tmove s t m i pre s1 -> curT s s1.
Proof.
  intros []; try apply curT_refl; try (apply curT_with_actor; reflexivity); try apply curT_resolve; try apply curT_push_mb;
    (eapply curT_trans; [apply curT_resolve|apply curT_push_mb]).
Qed.

Lemma tmove_pre s t m i pre s1 : tmove s t m i pre s1 -> existsb ucode pre = false /\ ~ In IPauseSt pre.
Proof. intros []; try destruct (firstn c tos ++ skipn (S c) tos); split; try reflexivity; cbn; intuition discriminate. Qed.

Lemma mh_rec_set_mb a x sq uq pa co :
  mh_rec a x -> Forall uq_ok uq ->
  (a = 0 -> Forall np_env (match co with CH e => [e] | _ => [] end) /\ Forall np_env sq /\ pa = false) ->
  mh_rec a (set_mb x sq uq pa co (a_cur x)).
Proof.
  intros (A & B & C & D) Hu Hr. split; [exact Hu|split; [exact B|split; [exact C|]]].
  intros Ha. destruct (Hr Ha) as (R1 & R2 & R3). destruct (D Ha) as (_ & _ & D3 & _).
  split; [exact R1|split; [exact R2|split; [exact D3|exact R3]]].
Qed.

Lemma mh_rec_new a p g par sp : mh_rec a (new_actor p g par sp).
Proof.
  split; [constructor|split; [constructor|split; [split; [constructor|split; [cbn; intros; discriminate|intros _ []]]|]]].
  intros _. split; [constructor|split; [constructor|split; [intros e H; discriminate H|reflexivity]]].
Qed.

Lemma xi_pend s t i rest : XI s -> pend_of s t = i :: rest -> xi_ok s (self_of t) i.
Proof.
  intros [X1 X2] Hp. destruct t as [a|j]; cbn [self_of].
  - destruct (pend_of_TA_cons _ _ _ _ Hp) as (x & Hg & Hpx). destruct (X1 _ _ Hg) as [_ E]. rewrite Hpx in E. inversion E; assumption.
  - destruct (pend_of_TX_cons _ _ _ _ Hp) as (ex & Hn & Hpx). pose proof (X2 _ _ Hn) as E. rewrite Hpx in E. inversion E; assumption.
Qed.

Lemma mh_head s t i rest : MH s -> pend_of s t = i :: rest -> np_instr i /\ Forall np_instr rest.
Proof.
  intros [M1 M2] Hp. destruct t as [a|j].
  - destruct (pend_of_TA_cons _ _ _ _ Hp) as (x & Hg & Hpx). destruct (M1 _ _ Hg) as (_ & _ & (C1 & _) & _). rewrite Hpx in C1. inversion C1; auto.
  - destruct (pend_of_TX_cons _ _ _ _ Hp) as (ex & Hn & Hpx). pose proof (M2 _ _ Hn) as C1. rewrite Hpx in C1. inversion C1; auto.
Qed.

Theorem MH_mstep s m : wf s -> RInv s -> XI s -> CacheW s -> MH s -> MH (mstep s m).
Proof.
  intros W HR HX HW HM. pose proof HM as [M1 M2].
  destruct (mstep_mcase s m) as [[E|E]|a x sq' uq' co' _ Hg E [_ Hpop]|a x e -> Hg Hc|t i rest pre s1 Hp T E|t i rest -> Hp Hy Hq E].
  - rewrite E. exact HM.
  - rewrite E. apply (MH_same s); auto.
  - (* what enters the hand comes from the system queue, or is a user envelope *)
    rewrite E. apply MH_set_actor; [exact HM|]. pose proof (M1 _ _ Hg) as Hx. pose proof Hx as (A & B & C & D).
    destruct Hpop as [[E1 ->]|(e & E1 & Hh & -> & ->)].
    + apply mh_rec_set_mb; [exact Hx|exact A|]. intros Ha. destruct (D Ha) as (D1 & D2 & D3 & D4).
      assert (F : Forall np_env (match co' with CH e => [e] | _ => [] end ++ sq')) by (rewrite E1; apply Forall_app; split; assumption).
      apply Forall_app in F. split; [apply F|split; [apply F|exact D4]].
    + rewrite E1 in A. inversion A as [|? ? [_ Hn] A']; subst. apply mh_rec_set_mb; [exact Hx|exact A'|].
      intros Ha. destruct (D Ha) as (D1 & D2 & D3 & D4). split; [constructor; [exact Hn|constructor]|split; [exact D2|exact D4]].
  - destruct (mstep_handle s a x e Hg Hc) as (y & Hdf & Hy & Ha & Hex & _). cbv zeta in *.
    pose proof (M1 _ _ Hg) as (A & B & C & D).
    destruct (dispatch_hyg _ a (busy x) e (get_set_same' s a _ x Hg)) as (Hd1 & Hd2 & Hd3). cbv zeta in *.
    destruct (Hd1 y Hy) as (E1 & E2 & E3).
    split; [|rewrite Hex; exact M2]. intros b xb Hgb. rewrite (get_upd s _ a x _ b Hg Ha) in Hgb.
    destruct (Nat.eqb_spec a b) as [<-|Hne]; [|apply M1; exact Hgb]. inversion Hgb; subst xb.
    assert (Hhe : a = 0 -> np_env e).
    { intros Ha0. destruct (D Ha0) as (D1 & _). unfold held in D1. rewrite Hc in D1. inversion D1; assumption. }
    split; [cbn [upd_pend a_uq]; rewrite (df_uq _ _ Hdf); exact A|].
    split; [cbn [upd_pend a_stash]; rewrite E1; exact B|]. split.
    + split; [exact Hd2|split; [intros Hu e0 He0; apply (E3 Hu e0); exact He0|]].
      intros Ha0 Hin. apply (Hhe Ha0). apply Hd3. exact Hin.
    + intros Ha0. destruct (D Ha0) as (D1 & D2 & D3 & D4).
      unfold root_okx, held, cur_np. cbn [upd_pend a_cons a_sq a_cur a_paused].
      rewrite (df_cons _ _ Hdf), (df_sq _ _ Hdf), (df_paused _ _ Hdf). cbn [busy set_mb a_cons a_sq a_paused].
      split; [constructor|split; [exact D2|split; [|exact D4]]].
      apply E2; [apply Hhe; exact Ha0|exact D3].
  - (* the rest of the list stays acceptable since the current envelope stays *)
    rewrite E. destruct (mh_head s t i rest HM Hp) as [Hi Hrest]. destruct (tmove_pre _ _ _ _ _ _ T) as [Hu Hps].
    assert (Hfin : MH s1 -> Forall np_instr pre -> MH (set_pend s1 t (pre ++ rest))).
    { intros H1 Hnp. apply MH_set_pend; [exact H1|]. apply (pend_ok_tail s t i rest pre HM Hp Hnp Hu Hps). apply (tmove_curT _ _ _ _ _ _ T). }
    destruct T as [ | | |x0 Hgx Hpa|x0 Hgx Hpa|sys to sdr m0|c sys mb sdr m0|c b e|c sys tos sdr m0 to Hn|c cx d rem done to Hn]; apply Hfin; unfold set_paused;
      repeat (apply Forall_cons; [exact I|]); try apply Forall_nil; try exact HM.
    + (* the root never runs IPauseSt *)
      assert (Hself : self_of t <> 0).
      { destruct t as [a|j]; cbn [self_of]; [|discriminate (ext_head s j _ rest W Hp)].
        intros ->. destruct (pend_of_TA_cons _ _ _ _ Hp) as (x & Hg & Hpx). destruct (M1 _ _ Hg) as (_ & _ & (_ & _ & C3) & _).
        apply (C3 eq_refl). rewrite Hpx. left. reflexivity. }
      unfold with_actor. destruct (get s (self_of t)) as [x|] eqn:Hg; [|apply (MH_same s); auto].
      apply MH_set_actor; [exact HM|]. pose proof (M1 _ _ Hg) as Hx. apply mh_rec_set_mb; [exact Hx|apply Hx|]. intros H0. contradiction.
    + rewrite (with_actor_some _ _ _ _ Hgx). apply MH_set_actor; [exact HM|]. pose proof (M1 _ _ Hgx) as Hx. apply mh_rec_set_mb; [exact Hx|apply Hx|].
      intros H0. destruct Hx as (_ & _ & _ & D). destruct (D H0) as (D1 & D2 & _). split; [exact D1|split; [exact D2|reflexivity]].
    + apply MH_resolve. exact HM.
    + constructor; [exact Hi|constructor].
    + apply MH_push_mb; [exact HM| |]; intros; destruct mb; cbn; try exact Hi; discriminate.
    + apply MH_push_mb; [exact HM|intros _; exact Hi|intros _ _; exact Hi].
    + apply MH_push_mb; [apply MH_resolve; exact HM| |]; intros; destruct (fst (resolve s to)); cbn; try exact Hi; discriminate.
    + destruct (firstn c tos ++ skipn (S c) tos); [constructor|constructor; [exact Hi|constructor]].
    + (* the pause goes to a child of the supervisor, hence not to the root *)
      pose proof (xi_pend s t _ rest HX Hp) as Hxi. cbn [xi_ok] in Hxi. destruct Hxi as [Hsup _].
      assert (Hcr : is_child_ref s (self_of t) to).
      { unfold sup_ok in Hsup. destruct cx as [ch ts sub]. destruct Hsup as [(_ & Hts & _) _]. apply Hts. apply in_or_app. left. eapply nth_error_In; exact Hn. }
      destruct Hcr as (d0 & xd & -> & Hd0 & Hgd & _). rewrite (resolve_obj s d0 xd HW Hgd Hd0). cbn [landing fst snd].
      apply MH_push_mb; [apply MH_resolve; exact HM|intros H; discriminate H|intros _ H; contradiction].
  - rewrite E. clear E. destruct (mh_head s t i rest HM Hp) as [Hi Hrest].
        destruct (RInv_self s t HR i rest Hp) as (x & Hg).
        assert (Hl : self_of t < length (actors s)) by (eapply nth_error_lt; exact Hg).
        destruct (astep_table s t i rest x Hg Hp) as (Hg0 & y & news & Hy0 & Hnews & Ha1 & Ha & _ & Hl0 & _). cbv zeta in *.
        set (s0 := set_pend s t rest) in *.
        pose proof (M1 _ _ Hg) as (A & B & (C1 & C2 & C3) & D).
        pose proof (xi_pend s t i rest HX Hp) as Hxi.
        assert (Hst0 : Forall np_env (a_stash (popped t x rest))) by (destruct t; exact B).
        assert (Hcurx : ucode i = true -> cur_np x).
        { intros Hu. destruct t as [a|j]; cbn [self_of] in *.
          - destruct (pend_of_TA_cons _ _ _ _ Hp) as (x1 & Hg1 & Hpx). assert (x1 = x) by congruence; subst x1.
            apply C2. rewrite Hpx. cbn [existsb]. rewrite Hu. reflexivity.
          - apply (D eq_refl). }
        assert (Hcur0 : ucode i = true -> cur_np (popped t x rest)) by (intros Hu; destruct t; apply Hcurx; exact Hu).
        destruct (exec1_hyg s0 t (held_of s0 t) i _ Hg0 Hst0 Hcur0) as (Hrec & Hfnp & Hfuc & Hfps). cbv zeta in *.
        assert (Hy' : get (fst (exec1 s0 t (held_of s0 t) i)) (self_of t) = Some y).
        { unfold get. rewrite Ha1. rewrite nth_error_app1 by (rewrite upd_length, Hl0; exact Hl). apply nth_upd_eq. rewrite Hl0. exact Hl. }
        destruct (Hrec y Hy') as [Hsty Hcury].
        set (front := snd (exec1 s0 t (held_of s0 t) i)) in *.
        assert (Hcxy : cur_np x -> cur_np y) by (intros H; apply Hcury; destruct t; exact H).
        assert (Hnops : self_of t = 0 -> ~ In IPauseSt front).
        { intros H0 Hin. destruct (Hfps Hin) as [->|(c0 & d0 & tg & -> & Hd)].
          - cbn [xi_ok] in Hxi. contradiction.
          - cbn [xi_ok] in Hxi. destruct Hxi as [_ Hroot]. apply Hd. apply Hroot. exact H0. }
        assert (Hrooty : self_of t = 0 -> root_okx y).
        { intros H0. destruct (D H0) as (D1 & D2 & D3 & D4). unfold root_okx.
          rewrite (lu_sq _ _ _ Hy0), (lu_paused _ _ _ Hy0).
          split; [|split; [destruct t; exact D2|split; [apply Hcxy; exact D3|destruct t; exact D4]]].
          unfold held in *. destruct (lu_cons _ _ _ Hy0) as [E|[[_ E]|[_ E]]]; rewrite E; try constructor.
          destruct t; exact D1. }
        split.
        -- intros b xb Hgb. unfold get in Hgb. rewrite Ha in Hgb.
           destruct (Nat.lt_ge_cases b (length (actors s))) as [Hlt|Hge].
           ++ rewrite nth_error_app1 in Hgb by (rewrite upd_length; exact Hlt).
              destruct (Nat.eq_dec (self_of t) b) as [<-|Hne].
              ** rewrite nth_upd_eq in Hgb by exact Hl. inversion Hgb; subst xb.
                 destruct t as [a|j]; cbn [pushed self_of popped] in *.
                 --- destruct (pend_of_TA_cons _ _ _ _ Hp) as (x1 & Hg1 & Hpx). assert (x1 = x) by congruence; subst x1. rewrite Hpx in *.
                     inversion C1 as [|? ? Ci Cr]; subst.
                     split; [cbn [upd_pend a_uq]; rewrite (lu_uq _ _ _ Hy0); exact A|]. split; [exact Hsty|]. split.
                     +++ unfold pend_okx. cbn [upd_pend a_pend]. split; [apply Forall_app; split; assumption|]. split.
                         *** rewrite existsb_app. intros Hu. change (cur_np y). apply Hcxy. apply C2. cbn [existsb].
                             apply orb_true_iff in Hu. destruct Hu as [Hu|Hu]; [rewrite (Hfuc Hu); reflexivity|rewrite Hu; apply orb_true_r].
                         *** intros Ha0 Hin. apply in_app_or in Hin. destruct Hin as [Hin|Hin]; [exact (Hnops Ha0 Hin)|]. apply (C3 Ha0). right. exact Hin.
                     +++ exact Hrooty.
                 --- split; [rewrite (lu_uq _ _ _ Hy0); exact A|]. split; [exact Hsty|]. split.
                     +++ rewrite (lu_pend _ _ _ Hy0). split; [exact C1|split; [intros _; apply Hcxy; apply (D eq_refl)|exact C3]].
                     +++ intros _. apply Hrooty. reflexivity.
              ** rewrite nth_upd_neq in Hgb by exact Hne. apply M1. exact Hgb.
           ++ rewrite nth_error_app2 in Hgb by (rewrite upd_length; exact Hge). apply nth_error_In in Hgb.
              rewrite Forall_forall in Hnews. destruct (Hnews _ Hgb) as (p & g & par & sp & ->). apply mh_rec_new.
        -- intros k exk Hk. destruct (astep_exts s t i rest k exk Hk) as [[-> E]|(exo & Ho & E)].
           ++ rewrite E. fold s0. fold front. apply Forall_app. split; [exact Hfnp|].
              unfold s0. cbn [set_pend]. destruct (pend_of_TX_cons _ _ _ _ Hp) as (ex & Hn & Hpx). rewrite Hn. cbn [set_ext exts].
              rewrite nth_upd_eq by (eapply nth_error_lt; exact Hn). cbn [x_pend]. exact Hrest.
           ++ rewrite E. apply (M2 k). exact Ho.
Qed.

Lemma MH_init scs : MH (init_with scs).
Proof.
  split.
  - intros a x Hg. destruct (get_init scs a x Hg) as [_ ->]. apply mh_rec_new.
  - intros j ex Hn. pose proof (init_with_exts scs) as H. rewrite Forall_forall in H. destruct (H ex (nth_error_In _ _ Hn)) as (sc & ->).
    apply Forall_map_IAct. intros; exact I.
Qed.
