(** C19, history level, part 1: an event published while [x] is not in the table of its type is never addressed to
    [x].  Potential argument per publishing thread: the number of deliveries of type [ty] addressed to [x] that
    thread [t] performs along a run in which [x] has no entry under [ty] at any event boundary is bounded by the
    number of times [x] is named by the ranges pending in [t]'s instruction list at the start ([inflight]).
    Definitions: Actor/SpecStream.v. *)
From Coq Require Import List NArith Bool Lia PeanoNat.
From Vivid Require Import Actor.Core Actor.CoreRun Actor.SpecMail Actor.ProofsMailBase Actor.ProofsMail Actor.ProofsMailInv
  Actor.SpecStash Actor.ProofsStep Actor.SpecSup Actor.ProofsSup Actor.ProofsStream Actor.SpecStream.
Import ListNotations.

Lemma tid_eqb_eq t1 t2 : tid_eqb t1 t2 = true <-> t1 = t2.
Proof.
  destruct t1 as [a|i], t2 as [b|j]; cbn [tid_eqb]; try (split; [discriminate|intros H; discriminate H]).
  - rewrite Nat.eqb_eq. split; [intros ->; reflexivity|intros H; inversion H; reflexivity].
  - rewrite Nat.eqb_eq. split; [intros ->; reflexivity|intros H; inversion H; reflexivity].
Qed.
Lemma tid_eqb_refl t : tid_eqb t t = true. Proof. apply tid_eqb_eq. reflexivity. Qed.
Lemma tid_eqb_neq t1 t2 : t1 <> t2 -> tid_eqb t1 t2 = false.
Proof. intros N. destruct (tid_eqb t1 t2) eqn:E; [apply tid_eqb_eq in E; contradiction|reflexivity]. Qed.

(** generic form of [occ_instr] / [occ_list]: the targets satisfying [f] in the pending event ranges of the types
    satisfying [tyf] *)
Definition gocc_instr (tyf : N -> bool) (f : rref -> bool) (i : instr) : nat :=
  match i with
  | IEnqAny _ tos _ (MEvent ty' _) => if tyf ty' then length (filter f tos) else 0
  | _ => 0
  end.
Fixpoint gocc (tyf : N -> bool) (f : rref -> bool) (l : list instr) : nat :=
  match l with [] => 0 | i :: r => gocc_instr tyf f i + gocc tyf f r end.

Lemma occ_list_gocc ty x l : occ_list ty x l = gocc (fun ty' => N.eqb ty' ty) (is_obj x) l.
Proof. induction l as [|i l IH]; cbn [occ_list gocc]; [reflexivity|]. rewrite IH. reflexivity. Qed.

Lemma gocc_app tyf f l1 l2 : gocc tyf f (l1 ++ l2) = gocc tyf f l1 + gocc tyf f l2.
Proof. induction l1 as [|i l1 IH]; cbn [app gocc]; [reflexivity|]. rewrite IH. lia. Qed.

Definition no_ev (i : instr) : bool := match i with IEnqAny _ _ _ (MEvent _ _) => false | _ => true end.
Lemma no_ev_occ tyf f i : no_ev i = true -> gocc_instr tyf f i = 0.
Proof. destruct i; try reflexivity. destruct m; try reflexivity. discriminate. Qed.
Lemma no_ev_list tyf f l : forallb no_ev l = true -> gocc tyf f l = 0.
Proof.
  induction l as [|i l IH]; cbn [forallb gocc]; [reflexivity|]. intros H. apply andb_true_iff in H. destruct H as [H1 H2].
  rewrite (no_ev_occ _ _ _ H1), (IH H2). reflexivity.
Qed.
Lemma no_ev_map_IAct l : forallb no_ev (map IAct l) = true.
Proof. induction l; cbn; auto. Qed.

Definition is_pub (i : instr) : bool := match i with IPub _ _ => true | _ => false end.

Lemma exec1_front_no_ev s t h i : is_pub i = false -> forallb no_ev (snd (exec1 s t h i)) = true.
Proof. intros Hi. apply exec1_front_all. intros x j _ H. destruct H; try reflexivity; discriminate Hi. Qed.

Lemma dispatch_no_ev s a x e : forallb no_ev (snd (dispatch s a x e)) = true.
Proof.
  destruct (dispatch_cases s a x e) as [| |r _ []]; try reflexivity; cbn [snd]; unfold kill_children;
    try destruct poison; try destruct (a_state x); try destruct (a_children x); reflexivity.
Qed.

Lemma filter_remove_nth {A} (f : A -> bool) (l : list A) k x :
  nth_error l k = Some x -> length (filter f l) = b2n (f x) + length (filter f (remove_nth k l)).
Proof.
  revert k. induction l as [|y l IH]; intros [|k] H; cbn in H; try discriminate.
  - inversion H; subst. unfold remove_nth. cbn [firstn skipn app filter]. destruct (f x); reflexivity.
  - unfold remove_nth in *. change (skipn (S (S k)) (y :: l)) with (skipn (S k) l). cbn [firstn app filter].
    specialize (IH k H). unfold b2n in *. destruct (f x), (f y); cbn [length] in *; lia.
Qed.

Lemma filter_is_obj_nil x (l : list (path * aid)) :
  ~ In x (map snd l) -> filter (is_obj x) (map (fun p => RObj (snd p)) l) = [].
Proof.
  induction l as [|[p a] l IH]; cbn [map filter is_obj snd]; [reflexivity|]. intros H.
  destruct (Nat.eqb_spec a x) as [->|N]; [exfalso; apply H; left; reflexivity|]. apply IH. intros Hin. apply H. right. exact Hin.
Qed.

Section Bound.
  Variables (tyf : N -> bool) (f : rref -> bool) (G : state -> Prop).
  (** in a state satisfying [G] no snapshot of a counted type contains a counted target *)
  Hypothesis HG : forall s ty', G s -> tyf ty' = true -> filter f (map (fun p => RObj (snd p)) (subscribers s ty')) = [].

  Definition pot (t : tid) (s : state) : nat := gocc tyf f (pend_of s t).

  (** the atomic loop of thread [t]: when it stops in a state satisfying [G], it has not added a counted target
      (a Publish leaves its range at the head of the list, so the loop stops right after it, with the table it read) *)
  Lemma run_atomic_pot t fu s :
    err (run_atomic fu s t) = false -> G (run_atomic fu s t) -> pot t (run_atomic fu s t) <= pot t s.
  Proof.
    revert fu s. unfold pot.
    apply (run_atomic_trace_ind (fun s _ s' => err s' = false -> G s' -> gocc tyf f (pend_of s' t) <= gocc tyf f (pend_of s t))).
    - intros s _ _. lia.
    - intros s He. discriminate He.
    - intros s sys to sender m rest Hp He _. rewrite (pend_of_set_pend_ok _ _ _ He), Hp. cbn. lia.
    - intros s i rest s1 front fu Hp Hy Hq E s2 IH He Hs.
      pose proof (err_false_before_run_atomic _ _ _ He) as E2.
      destruct (atomic_next_pend s t i rest s1 front E E2) as [E0 Hp2]. fold s2 in Hp2.
      rewrite Hp. cbn [gocc]. destruct (is_pub i) eqn:Hpub.
      + destruct i as [| | | | | | | | | | | |ty' pl| | | | | | | | |]; try discriminate Hpub.
        destruct (get (set_pend s t rest) (self_of t)) as [x0|] eqn:Hg0;
          [|rewrite (exec1_none _ _ _ _ Hg0) in E; injection E as <- <-; unfold s2 in E2; rewrite set_pend_err_mono in E2 by reflexivity; discriminate E2].
        rewrite (exec1_IPub _ _ _ _ _ _ Hg0) in E. injection E as <- <-.
        destruct (subscribers (set_pend s t rest) ty') as [|p0 l0] eqn:Hsub.
        * specialize (IH He Hs). rewrite Hp2 in IH. cbn in *. lia.
        * (* the range is yielding: the loop stops here *)
          destruct fu as [|fu]; [discriminate He|].
          rewrite (run_atomic_yield fu s2 t _ _ Hp2 eq_refl) in *. rewrite Hp2. cbn [app gocc gocc_instr].
          destruct (tyf ty') eqn:Hty; [|lia].
          pose proof (HG _ ty' Hs Hty) as Hno. unfold subscribers in Hno. unfold s2 in Hno. rewrite set_pend_subs in Hno.
          fold (subscribers (set_pend s t rest) ty') in Hno. rewrite Hsub in Hno. rewrite Hno. cbn. lia.
      + pose proof (exec1_front_no_ev (set_pend s t rest) t (held_of (set_pend s t rest) t) i Hpub) as Hf.
        rewrite E in Hf. cbn [snd] in Hf. specialize (IH He Hs). rewrite Hp2, gocc_app, (no_ev_list tyf f _ Hf) in IH. cbn in IH. lia.
  Qed.

  (** counted deliveries: queue insertions of thread [t] out of an event range of a counted type to a counted target *)
  Definition gdelivers (t : tid) (s : state) (ev : event) : bool :=
    match stream_push s ev with
    | Some (t', ty', _, to) => tid_eqb t' t && tyf ty' && f to
    | None => false
    end.

  Lemma step_pot t s ev :
    err (step s ev) = false -> G (step s ev) -> b2n (gdelivers t s ev) + pot t (step s ev) <= pot t s.
  Proof.
    intros He Hs.
    destruct (ProofsSup.tid_eq_dec (ev_thread ev) t) as [Et|Nt].
    2:{ unfold pot. rewrite (step_pend_frame _ _ _ Nt).
        assert (E : gdelivers t s ev = false).
        { unfold gdelivers, stream_push. destruct ev; try reflexivity. cbn [ev_thread] in Nt.
          destruct (pend_of s t0) as [|i r]; [reflexivity|]. destruct i; try reflexivity. destruct m; try reflexivity.
          destruct (nth_error tos choice); [|reflexivity]. rewrite (tid_eqb_neq _ _ Nt). reflexivity. }
        rewrite E. cbn. lia. }
    subst t.
    assert (Hnp : (forall t' k, ev <> EvPush t' k) -> gdelivers (ev_thread ev) s ev = false)
      by (intros H; destruct ev; try reflexivity; destruct (H t choice eq_refl)).
    destruct (pre_atomic s ev) as [[s' t']|] eqn:Epre.
    - (* an atomic phase: its prefix removes a mailbox word, or installs what dispatch chooses, which contains no event range *)
      rewrite Hnp by (intros t0 k ->; discriminate Epre). cbn [b2n plus].
      rewrite (step_pre s ev), Epre in *. destruct (pre_atomic_cases _ _ _ _ Epre) as [-> Hc].
      pose proof (run_atomic_pot _ _ _ He Hs) as H. pose proof (err_false_before_run_atomic _ _ _ He) as Es'.
      enough (pot (ev_thread ev) s' <= pot (ev_thread ev) s) by lia. unfold pot.
      destruct Hc as [(a & x & e & -> & Hg & Hc & ->)|[_ [->|(i & rest & Hp & Hi & Hs')]]]; [|lia|].
      + rewrite (pend_of_set_pend_ok _ _ _ Es'), (no_ev_list _ _ _ (dispatch_no_ev _ _ _ _)). lia.
      + replace (pend_of s' (ev_thread ev)) with rest
          by (destruct Hs' as [E|E]; rewrite E in *; symmetry; apply pend_of_set_pend_ok, Es').
        rewrite Hp. cbn [gocc]. lia.
    - destruct (no_atomic_cases s ev Epre He) as [(a & [-> |[-> | ->]])|[(t' & k & ->)|(t' & x & rest & -> & Hp & Hg & Hpa)]];
        cbn [ev_thread] in *.
      + destruct (consumer_pend_frame s a (TA a)) as (E & _ & _). unfold pot. rewrite E. cbn. lia.
      + destruct (consumer_pend_frame s a (TA a)) as (_ & E & _). unfold pot. rewrite E. cbn. lia.
      + destruct (consumer_pend_frame s a (TA a)) as (_ & _ & E). unfold pot. rewrite E. cbn. lia.
      + destruct (push_of s t' k) as [[tgt e]|] eqn:Epo; [|rewrite (step_push_none _ _ _ Epo) in He; discriminate He].
        destruct (step_push _ _ _ _ _ Epo) as (i & rest & Hp & E). unfold pot, gdelivers, stream_push. rewrite E in *.
        rewrite (pend_of_set_pend_ok _ _ _ He), Hp, gocc_app. unfold push_of in Epo. rewrite Hp in Epo.
        destruct i; try discriminate Epo; cbn [push_left gocc gocc_instr app]; try (cbn; lia).
        * destruct (nth_error tos k) as [to|] eqn:Hk; [|discriminate Epo]. fold (remove_nth k tos).
          destruct m; try (destruct (remove_nth k tos); cbn; lia). rewrite tid_eqb_refl, (filter_remove_nth f tos k to Hk).
          destruct (remove_nth k tos); cbn [andb app gocc gocc_instr filter length]; destruct (tyf ty); cbn; lia.
        * destruct (nth_error remaining k); cbn; lia.
      + change (gdelivers t' s (EvResume1 t')) with false. cbn [step] in *. rewrite Hp, Hg, Hpa in *.
        unfold pot. rewrite (pend_of_set_pend_ok _ _ _ He), Hp. cbn. lia.
  Qed.

  Fixpoint gdeliveries (t : tid) (evs : list event) (s : state) : nat :=
    match evs with [] => 0 | ev :: r => b2n (gdelivers t s ev) + gdeliveries t r (step s ev) end.
  (** [G] at every event boundary after the first state *)
  Fixpoint G_along (evs : list event) (s : state) : Prop :=
    match evs with [] => True | ev :: r => G (step s ev) /\ G_along r (step s ev) end.

  Lemma run_pot t evs : forall s,
    err (run_events evs s) = false -> G_along evs s -> gdeliveries t evs s + pot t (run_events evs s) <= pot t s.
  Proof.
    induction evs as [|ev r IH]; intros s He HG'; [cbn; lia|].
    change (run_events (ev :: r) s) with (run_events r (step s ev)) in *. cbn [gdeliveries G_along] in *. destruct HG' as [H1 H2].
    pose proof (err_false_run_head r s ev He) as He1.
    specialize (IH _ He H2). pose proof (step_pot t s ev He1 H1). lia.
  Qed.
End Bound.

Definition addr_delivers (t : tid) (ty : N) (x : aid) (s : state) (ev : event) : bool :=
  gdelivers (fun ty' => N.eqb ty' ty) (is_obj x) t s ev.
Definition addr_deliveries (t : tid) (ty : N) (x : aid) (evs : list event) (s : state) : nat :=
  gdeliveries (fun ty' => N.eqb ty' ty) (is_obj x) t evs s.

Lemma unsub_along_G ty x evs : forall s, unsub_along ty x evs s -> G_along (fun s0 => ~ sub_at s0 ty x) evs s.
Proof.
  induction evs as [|ev r IH]; intros s H; cbn [G_along unsub_along] in *; [exact I|].
  destruct H as [_ H]. split; [|apply IH; exact H]. destruct r; cbn [unsub_along] in H; apply H.
Qed.

Lemma unsub_bound_addr t ty x evs s :
  err (run_events evs s) = false -> unsub_along ty x evs s ->
  addr_deliveries t ty x evs s + inflight t ty x (run_events evs s) <= inflight t ty x s.
Proof.
  intros He Hu. unfold inflight. rewrite !occ_list_gocc.
  apply (run_pot (fun ty' => N.eqb ty' ty) (is_obj x) (fun s0 => ~ sub_at s0 ty x)); [|exact He|apply unsub_along_G; exact Hu].
  intros s0 ty' Hs Hty. apply N.eqb_eq in Hty. subst ty'. apply filter_is_obj_nil. exact Hs.
Qed.

Definition is_objref (r : rref) : bool := match r with RObj _ => true | _ => false end.
Definition bad (t : tid) (s : state) : nat := pot (fun _ => true) (fun r => negb (is_objref r)) t s.

Lemma filter_objref_nil (l : list (path * aid)) : filter (fun r => negb (is_objref r)) (map (fun p => RObj (snd p)) l) = [].
Proof. induction l as [|p l IH]; cbn; auto. Qed.

Lemma bad_run t evs s : err (run_events evs s) = false -> bad t (run_events evs s) <= bad t s.
Proof.
  intros He. unfold bad.
  pose proof (run_pot (fun _ => true) (fun r => negb (is_objref r)) (fun _ => True) (fun s0 ty' _ _ => filter_objref_nil _) t evs s He) as H.
  assert (HG : G_along (fun _ => True) evs s) by (clear; revert s; induction evs; intros; cbn; auto). specialize (H HG). lia.
Qed.

Lemma init_no_ev scs t : forallb no_ev (pend_of (init_with scs) t) = true.
Proof. destruct (pend_of_init scs t) as [sc E]. change (pend_of (init_with scs) t = map IAct sc) in E. rewrite E. apply no_ev_map_IAct. Qed.

Lemma bad_reachable s t : reachable s -> bad t s = 0.
Proof.
  intros (scs & evs & -> & He). pose proof (bad_run t evs (init_with scs) He) as H.
  assert (E : bad t (init_with scs) = 0) by (unfold bad, pot; apply no_ev_list, init_no_ev). lia.
Qed.

Lemma stream_push_obj s ev t ty pl to : reachable s -> stream_push s ev = Some (t, ty, pl, to) -> exists y, to = RObj y.
Proof.
  intros Hr H. unfold stream_push in H. destruct ev; try discriminate H.
  destruct (pend_of s t0) as [|i rest] eqn:Hp; [discriminate H|]. destruct i; try discriminate H. destruct m; try discriminate H.
  destruct (nth_error tos choice) as [to'|] eqn:Hk; [|discriminate H]. inversion H; subst.
  pose proof (bad_reachable s t Hr) as Hb. unfold bad, pot in Hb. rewrite Hp in Hb. cbn [gocc gocc_instr] in Hb.
  assert (Hf : filter (fun r => negb (is_objref r)) tos = []) by (destruct (filter _ tos); [reflexivity|cbn in Hb; lia]).
  apply nth_error_In in Hk. destruct to as [y| |]; [eauto| |].
  - assert (Hin : In (RFresh p) (filter (fun r => negb (is_objref r)) tos)) by (apply filter_In; auto). rewrite Hf in Hin. destruct Hin.
  - assert (Hin : In RNone (filter (fun r => negb (is_objref r)) tos)) by (apply filter_In; auto). rewrite Hf in Hin. destruct Hin.
Qed.
