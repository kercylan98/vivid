(** Reference caches: outside the atomic loop, the reference object of every context except the root has its own
    mailbox cached (ActorOf tells OnLaunch through it right away), so a tell through a reference object always
    reaches the mailbox of the context that owns it. *)
From Coq Require Import List NArith ZArith Bool Lia Arith.
From Vivid Require Import Actor.Core Actor.CoreRun Actor.SpecMail Actor.ProofsMailBase Actor.ProofsMail Actor.ProofsMailInv
  Actor.ProofsMailWf Actor.ProofsMailAcct Actor.ProofsMailReg Actor.ProofsMailMicro Actor.ProofsMailLife Actor.ProofsMailStep
  Actor.ProofsMailTree Actor.ProofsMailMK Actor.ProofsMailKids Actor.ProofsMailCtx Actor.ProofsMailMicro2.
Import ListNotations.

Definition CacheI (s : state) : Prop := forall c xc, get s c = Some xc -> c <> 0 -> a_cache xc = Some c.
(** inside the atomic loop a context just created by ActorOf may not have been told OnLaunch yet *)
Definition CacheW (s : state) : Prop :=
  forall c xc, get s c = Some xc -> c <> 0 -> a_cache xc = Some c \/ (a_cache xc = None /\ regd s c xc).

Lemma CacheI_W s : CacheI s -> CacheW s.
Proof. intros H c xc Hg Hne. left. apply (H c xc Hg Hne). Qed.

Lemma resolve_obj s d xd : CacheW s -> get s d = Some xd -> d <> 0 -> fst (resolve s (RObj d)) = MbActor d.
Proof.
  intros HW Hg Hne. unfold resolve. rewrite Hg. destruct (HW d xd Hg Hne) as [Hc|[Hc Hr]]; rewrite Hc; [reflexivity|].
  unfold regd in Hr. rewrite Hr. reflexivity.
Qed.

Lemma cache_keep s m c xc xc' : get s c = Some xc -> get (mstep s m) c = Some xc' -> a_cache xc = Some c -> a_cache xc' = Some c.
Proof. intros Hg Hg' Hc. destruct (crel_mstep s m c xc xc' Hg Hg') as [E|[E _]]; congruence. Qed.

Lemma CacheW_mstep s m : RInv (mstep s m) -> CacheI s -> CacheW (mstep s m).
Proof.
  intros (_ & _ & _ & R1 & _) HC c xc' Hg' Hne. destruct (get s c) as [xc|] eqn:Hg.
  - left. apply (cache_keep s m c xc xc' Hg Hg'). apply (HC c xc Hg Hne).
  - right. destruct (mstep_new s m c xc' Hg Hg') as (p & g & par & sp & ->). split; [reflexivity|].
    apply (R1 c _ Hg' Hne). left. discriminate.
Qed.

Lemma CacheI_same_len s m : CacheI s -> length (actors (mstep s m)) = length (actors s) -> CacheI (mstep s m).
Proof.
  intros HC Hl c xc' Hg' Hne. destruct (get s c) as [xc|] eqn:Hg.
  - apply (cache_keep s m c xc xc' Hg Hg'). apply (HC c xc Hg Hne).
  - rewrite (same_len_no_new s _ c Hl Hg) in Hg'. discriminate Hg'.
Qed.

Lemma mstep_len s m :
  length (actors (mstep s m)) = length (actors s) \/
  (exists t i rest, m = MAtomic t /\ pend_of s t = i :: rest /\ yielding i = false /\ is_enq i = false /\ mstep s m = astep s t i rest).
Proof.
  destruct (mstep_cases s m) as [Hq|[(t & i & rest & pre & s1 & Hp & Hpl & Hf & Hu & Hq & _ & E)|[(a & xa & e & -> & Hga & Hca)|(t & i & rest & -> & Hp & Hyl & Hq & E)]]].
  - left. apply Hq.
  - left. rewrite E, len_set_pend. apply Hq.
  - left. destruct (mstep_handle s a xa e Hga Hca) as (y & _ & _ & Ha & _). rewrite Ha. apply upd_length.
  - right. exists t, i, rest. auto.
Qed.

Lemma astep_len s t i rest x :
  get s (self_of t) = Some x -> pend_of s t = i :: rest -> err (astep s t i rest) = false ->
  let s' := astep s t i rest in
  length (actors s') = length (actors s) \/
  (exists nc fr, length (actors s') = S (length (actors s)) /\ get s' (length (actors s)) = Some nc /\ a_cache nc = None /\
                 alookup (reg s') (a_path nc) = Some (length (actors s)) /\
                 pend_of s' t = IEnq true (RObj (length (actors s))) (RObj (self_of t)) MLaunch :: fr).
Proof.
  intros Hg Hp He. cbv zeta.
  destruct (astep_table s t i rest x Hg Hp) as (Hg0 & y & news & Hy & Hnews & Ha1 & Ha & Hr & Hl0 & Hr0). cbv zeta in *.
  set (s0 := set_pend s t rest) in *.
  assert (Hl : self_of t < length (actors s)) by (eapply nth_error_lt; exact Hg).
  assert (Hsame : length (actors (fst (exec1 s0 t (held_of s0 t) i))) = length (actors s0) -> length (actors (astep s t i rest)) = length (actors s)).
  { intros Hlen. unfold astep. fold s0. destruct (exec1 s0 t (held_of s0 t) i) as [s1 front]. cbn [fst] in Hlen. rewrite len_set_pend, Hlen. exact Hl0. }
  destruct (spawn_dec i) as [[sp ->]|Hns]; [|left; apply Hsame, (exec1_len s0 t _ i _ Hg0 Hns)].
  destruct (exec1_spawn s0 t (held_of s0 t) sp _ Hg0) as [[code E]|(_ & _ & Hlk & g & s1 & E & Hact & Hreg & _)]; cbv zeta in *;
    [left; apply Hsame; rewrite E; reflexivity|right].
  rewrite Hl0, Hr0 in *.
  assert (Hnews2 : news = [new_actor (a_path (popped t x rest) ++ [sp_name sp]) g (Some (self_of t)) sp]).
  { rewrite E in Ha1. cbn [fst] in Ha1. rewrite Hact in Ha1. symmetry in Ha1. apply upd_app_inj in Ha1; [apply Ha1|rewrite Hl0; exact Hl]. }
  subst news. eexists. eexists.
  split; [rewrite Ha, app_length, upd_length; cbn; lia|].
  split; [unfold get; rewrite Ha; rewrite nth_error_app2 by (rewrite upd_length; lia); rewrite upd_length, Nat.sub_diag; reflexivity|].
  split; [reflexivity|]. split.
  - rewrite Hr, E. cbn [fst]. rewrite Hreg. cbn [new_actor a_path]. rewrite (alookup_app_none _ _ _ Hlk), alookup_single, path_eqb_refl. reflexivity.
  - unfold astep in *. fold s0 in He |- *. rewrite E in *. rewrite (pend_of_set_pend_ok _ _ _ He). reflexivity.
Qed.

Lemma err_false_mstep s m : err (mstep s m) = false -> err s = false.
Proof. intros H. destruct (err s) eqn:E; [rewrite (err_mono_mstep s m E) in H; discriminate H|reflexivity]. Qed.

Theorem CacheI_mstep2 s m : RInv s -> CacheI s -> err (mstep2 s m) = false -> CacheI (mstep2 s m).
Proof.
  intros HR HC He.
  assert (Hplain : forall m0, (forall t, m0 <> MAtomic t) -> CacheI (mstep s m0)).
  { intros m0 Hn. destruct (mstep_len s m0) as [Hl|(t & i & rest & Em & _)]; [apply CacheI_same_len; assumption|]. exfalso. apply (Hn t Em). }
  destruct m; try (apply Hplain; intros t0 Ht0; discriminate Ht0).
  cbn [mstep2] in *. cbv zeta in *. set (s1 := mstep s (MAtomic t)) in *.
  assert (He1 : err s1 = false).
  { destruct (head_is_enq s1 t); [apply (err_false_mstep s1 (MAtomic t)); exact He|exact He]. }
  (* a second iteration that resolves a tell keeps the table length *)
  assert (Hsecond : CacheI s1 -> CacheI (if head_is_enq s1 t then mstep s1 (MAtomic t) else s1)).
  { intros HC1. destruct (head_is_enq s1 t) eqn:Hh; [|exact HC1].
    destruct (mstep_len s1 (MAtomic t)) as [Hl|(t' & i & rest & Em & Hp & _ & Hq & _)]; [apply CacheI_same_len; assumption|].
    inversion Em; subst t'. unfold head_is_enq in Hh. rewrite Hp in Hh. destruct i; discriminate. }
  destruct (mstep_len s (MAtomic t)) as [Hl|(t' & i & rest & Em & Hp & Hy & Hq & E)].
  - apply Hsecond. apply CacheI_same_len; assumption.
  - inversion Em; subst t'. fold s1 in E.
    assert (Hgs : exists x, get s (self_of t) = Some x).
    { destruct t as [a|j]; cbn [self_of].
      - destruct (pend_of_TA_cons _ _ _ _ Hp) as (x0 & Hx0 & _). eauto.
      - destruct HR as ((x0 & Hx0 & _) & _). eauto. }
    destruct Hgs as [x Hgs]. rewrite E in He1.
    destruct (astep_len s t i rest x Hgs Hp He1) as [Hl|(nc & fr & Hlen & Hgc & Hcn & Hreg & Hpd)]; cbv zeta in *; rewrite <- E in *.
    + apply Hsecond. apply CacheI_same_len; assumption.
    + assert (Hh : head_is_enq s1 t = true) by (unfold head_is_enq; rewrite Hpd; reflexivity).
      rewrite Hh in *. cbn [mstep]. rewrite Hpd.
      set (c := length (actors s)) in *.
      assert (Hres : snd (resolve s1 (RObj c)) =
                     set_actor s1 c {| a_path := a_path nc; a_gen := a_gen nc; a_parent := a_parent nc; a_spec := a_spec nc; a_state := a_state nc;
                                    a_zombie := a_zombie nc; a_restarting := a_restarting nc; a_children := a_children nc; a_watchers := a_watchers nc;
                                    a_stash := a_stash nc; a_modes := a_modes nc; a_inst := a_inst nc; a_decisions := a_decisions nc; a_hooks := a_hooks nc;
                                    a_cache := Some c; a_sq := a_sq nc; a_uq := a_uq nc; a_paused := a_paused nc; a_cons := a_cons nc; a_cur := a_cur nc;
                                    a_pend := a_pend nc |}).
      { unfold resolve. rewrite Hgc, Hcn, Hreg. reflexivity. }
      intros b xb' Hg' Hne. destruct (cache_set_pend _ _ _ _ _ Hg') as (y & Hyg & Ey). rewrite Ey. rewrite Hres in Hyg.
      destruct (Nat.eq_dec c b) as [<-|Hcb].
      * rewrite (get_set_same' _ _ _ _ Hgc) in Hyg. inversion Hyg; subst y. reflexivity.
      * rewrite get_set_other in Hyg by exact Hcb. destruct (get s b) as [xb|] eqn:Hgb.
        -- apply (cache_keep s (MAtomic t) b xb y Hgb Hyg). apply (HC b xb Hgb Hne).
        -- exfalso. apply nth_error_None in Hgb. fold c in Hgb.
           assert (Hb : get s1 b = None) by (apply nth_error_None; rewrite Hlen; lia). congruence.
Qed.

Lemma CacheI_init scs : CacheI (init_with scs).
Proof. intros c xc Hg Hne. destruct (get_init scs c xc Hg) as [-> _]. congruence. Qed.

Theorem ref_cache_reachable s c xc : reachable s -> get s c = Some xc -> c <> 0 -> a_cache xc = Some c.
Proof.
  intros Hr.
  destruct (micro2_invariant_err (fun s0 => wf s0 /\ LI s0 /\ RInv s0) CacheI) with (s := s) as [_ H]; [| | | |exact Hr|exact (H c xc)].
  - intros scs. split; [apply wf_init|split; [apply LI_init|apply RInv_init]].
  - intros s0 m (W & I & R). split; [apply wf_mstep; exact W|split; [apply LI_mstep|apply RInv_mstep]; assumption].
  - apply CacheI_init.
  - intros s0 m (_ & _ & R). apply CacheI_mstep2. exact R.
Qed.
