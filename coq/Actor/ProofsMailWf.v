(** Well-formedness of the pending instruction lists ([wf], Actor/SpecMail.v) is an invariant of every run, and
    under it an atomic run never touches an envelope the consumer holds. *)
From Coq Require Import List NArith Bool Arith.
From Vivid Require Import Actor.Core Actor.CoreRun Actor.SpecMail Actor.ProofsMailBase Actor.ProofsMail Actor.ProofsStep Actor.ProofsMailInv.
Import ListNotations.

Definition shape (l : list instr) : Prop := exists l', l = l' ++ [IEndHandler] /\ no_end l'.

Lemma no_end_nil : no_end []. Proof. reflexivity. Qed.
Lemma no_end_cons i l : no_end (i :: l) <-> is_end i = false /\ no_end l.
Proof. unfold no_end. cbn [forallb]. rewrite andb_true_iff, negb_true_iff. tauto. Qed.
Lemma no_end_app l1 l2 : no_end (l1 ++ l2) <-> no_end l1 /\ no_end l2.
Proof. unfold no_end. rewrite forallb_app, andb_true_iff. tauto. Qed.

Lemma shape_tail i rest : shape (i :: rest) -> is_end i = false -> shape rest.
Proof.
  intros (l' & E & Hn) Hi. destruct l' as [|j l'']; cbn [app] in E; inversion E; subst.
  - discriminate Hi.
  - apply no_end_cons in Hn. exists l''. tauto.
Qed.
Lemma shape_end i rest : shape (i :: rest) -> is_end i = true -> rest = [].
Proof.
  intros (l' & E & Hn) Hi. destruct l' as [|j l'']; cbn [app] in E; inversion E; subst; [reflexivity|].
  apply no_end_cons in Hn. destruct Hn as [Hn _]. congruence.
Qed.
Lemma shape_app front rest : no_end front -> shape rest -> shape (front ++ rest).
Proof. intros Hf (l' & -> & Hn). exists (front ++ l'). rewrite app_assoc. split; [reflexivity|]. apply no_end_app; tauto. Qed.
Lemma shape_cons j rest : is_end j = false -> shape rest -> shape (j :: rest).
Proof. intros Hj Hs. apply (shape_app [j] rest); [|exact Hs]. apply no_end_cons. split; [exact Hj|reflexivity]. Qed.
Lemma shape_nonnil l : shape l -> l <> [].
Proof. intros (l' & -> & _) H. destruct l'; discriminate. Qed.

Lemma pend_shape_iff x : pend_shape x <-> a_pend x = [] \/ (exists md, a_cons x = CBusy md) /\ shape (a_pend x).
Proof.
  unfold pend_shape, shape. split.
  - intros [H|(md & l & Hc & Hp & Hn)]; [left; exact H|right]. split; [eauto|]. exists l. auto.
  - intros [H|((md & Hc) & l & Hp & Hn)]; [left; exact H|right]. exists md, l. auto.
Qed.

Lemma forallb_map_IAct l : forallb ext_instr (map IAct l) = true.
Proof. induction l; cbn; auto. Qed.

Lemma exec1_front_no_end s t h i : no_end (snd (exec1 s t h i)).
Proof. apply exec1_front_all. intros x j _ []; reflexivity. Qed.

Lemma exec1_front_ext s t h i : ext_instr i = true -> forallb ext_instr (snd (exec1 s t h i)) = true.
Proof. intros Hi. apply exec1_front_all. intros x j _ Hj. revert Hi. destruct Hj; try reflexivity; discriminate. Qed.

Lemma exec1_end_front s t h : snd (exec1 s t h IEndHandler) = [].
Proof. unfold exec1. destruct (get s (self_of t)); reflexivity. Qed.

Lemma exec1_exts_pend s t h i : map x_pend (exts (fst (exec1 s t h i))) = map x_pend (exts s).
Proof.
  destruct (get s (self_of t)) as [x|] eqn:Hg; [|rewrite (exec1_none _ _ _ _ Hg); reflexivity].
  destruct (spawn_dec i) as [[sp ->]|Hns].
  - destruct (exec1_spawn s t h sp x Hg) as [[code ->]|(_ & _ & _ & g & s' & -> & _ & _ & Hx & _)]; [reflexivity|exact Hx].
  - destruct (exec1_local s t h i x Hg Hns) as (y & _ & _ & -> & _). reflexivity.
Qed.

Lemma no_end_kill_children a x : no_end (kill_children a x).
Proof. unfold kill_children. destruct (a_children x); reflexivity. Qed.

Lemma dispatch_shape s a x e : shape (snd (dispatch s a x e)).
Proof.
  assert (H1 : shape [IEndHandler]) by (exists []; split; reflexivity).
  destruct (dispatch_cases s a x e) as [| |r _ []]; cbn [snd dead_report];
    repeat (apply shape_cons; [reflexivity|]); try exact H1; (apply shape_app; [|exact H1]).
  - destruct poison; [reflexivity|apply no_end_kill_children].
  - destruct (a_state x); try reflexivity. apply no_end_kill_children.
Qed.

Definition extok (ex : ext) : Prop := forallb ext_instr (x_pend ex) = true.

Lemma wf_set_err s : wf s -> wf (set_err s).
Proof. intros H; exact H. Qed.

Lemma pend_shape_cache x c : pend_shape x -> pend_shape (set_cache x c).
Proof. intros H; exact H. Qed.

Lemma wf_resolve s r : wf s -> wf (snd (resolve s r)).
Proof.
  intros [HA HX]. destruct (resolve_shape s r) as [H|[H|(a & x & y & _ & Hg & _ & _ & H & _)]]; rewrite H; [split; auto|split; auto|].
  split; [|exact HX]. cbn [set_actor actors]. apply Forall_upd; [exact HA|]. apply pend_shape_cache. eapply Forall_nth; eauto.
Qed.

Lemma held_set_cache x c : held (set_cache x c) = held x. Proof. reflexivity. Qed.
Lemma held_upd_pend x p : held (upd_pend x p) = held x. Proof. reflexivity. Qed.

Lemma pend_of_TA_cons s a i rest : pend_of s (TA a) = i :: rest -> exists x, get s a = Some x /\ a_pend x = i :: rest.
Proof. cbn [pend_of]. destruct (get s a) as [x|]; [eauto|discriminate]. Qed.
Lemma pend_of_TX_cons s j i rest : pend_of s (TX j) = i :: rest -> exists ex, nth_error (exts s) j = Some ex /\ x_pend ex = i :: rest.
Proof. cbn [pend_of]. destruct (nth_error (exts s) j) as [ex|]; [eauto|discriminate]. Qed.

Lemma set_pend_TX s j l ex : nth_error (exts s) j = Some ex -> set_pend s (TX j) l = set_ext s j {| x_pend := l; x_held := x_held ex |}.
Proof. intros H. cbn [set_pend]. rewrite H. reflexivity. Qed.

Lemma wf_set_pend_TA s a x l :
  wf s -> get s a = Some x -> (l = [] \/ (exists md, a_cons x = CBusy md) /\ shape l) -> wf (set_pend s (TA a) l).
Proof.
  intros [HA HX] Hg Hl. rewrite (set_pend_TA _ _ _ _ Hg). split; [|exact HX].
  cbn [set_actor actors]. apply Forall_upd; [exact HA|]. apply pend_shape_iff. exact Hl.
Qed.

Lemma wf_set_pend_TX s j l : wf s -> forallb ext_instr l = true -> wf (set_pend s (TX j) l).
Proof.
  intros [HA HX] Hl. cbn [set_pend]. destruct (nth_error (exts s) j) as [ex|]; [|split; auto].
  split; [exact HA|]. cbn [set_ext exts]. apply Forall_upd; [exact HX|]. exact Hl.
Qed.

Lemma wfX_of_map s s' : map x_pend (exts s') = map x_pend (exts s) ->
  Forall (fun ex => forallb ext_instr (x_pend ex) = true) (exts s) -> Forall (fun ex => forallb ext_instr (x_pend ex) = true) (exts s').
Proof.
  intros Hm H.
  assert (E : forall l, Forall (fun ex => forallb ext_instr (x_pend ex) = true) l <-> Forall (fun p => forallb ext_instr p = true) (map x_pend l)).
  { intros l. rewrite Forall_map. reflexivity. }
  apply E. rewrite Hm. apply E. exact H.
Qed.

Lemma is_new_shape n : is_new n -> pend_shape n /\ held n = [].
Proof. intros (p & g & par & sp & ->). split; [left|]; reflexivity. Qed.

Lemma pend_shape_eq x y : a_pend y = a_pend x -> a_cons y = a_cons x -> pend_shape x -> pend_shape y.
Proof. unfold pend_shape. intros -> ->. auto. Qed.

Lemma held_cons_eq x y : a_cons y = a_cons x -> held y = held x.
Proof. unfold held. intros ->. reflexivity. Qed.

Lemma ext_instr_not_cons_changing i : ext_instr i = true -> i <> IEndHandler /\ i <> IRestartFinish.
Proof. destruct i; try discriminate; split; discriminate. Qed.

Lemma iter_TA s a x i rest h :
  wf s -> get s a = Some x -> a_pend x = i :: rest ->
  let s0 := set_pend s (TA a) rest in
  let s1 := fst (exec1 s0 (TA a) h i) in
  let front := snd (exec1 s0 (TA a) h i) in
  let s2 := set_pend s1 (TA a) (front ++ pend_of s1 (TA a)) in
  wf s2 /\ keeps held [] s s2.
Proof.
  intros [HA HX] Hg Hp. cbv zeta.
  assert (Hl : a < length (actors s)) by (eapply nth_error_lt; exact Hg).
  pose proof (Forall_nth _ _ _ _ HA Hg) as Hsh. apply pend_shape_iff in Hsh.
  destruct Hsh as [Hsh|[[md Hc] Hsh]]; [congruence|]. rewrite Hp in Hsh.
  rewrite (set_pend_TA _ _ _ _ Hg).
  set (x0 := upd_pend x rest). set (s0 := set_actor s a x0).
  assert (Hg0 : get s0 a = Some x0) by (apply get_set_same; exact Hl).
  destruct (exec1_actors s0 (TA a) h i x0 Hg0) as (y & news & Hy & Hnews & Ha). cbn [self_of] in Ha.
  pose proof (exec1_front_no_end s0 (TA a) h i) as Hfr.
  pose proof (exec1_exts_pend s0 (TA a) h i) as Hex.
  pose proof (exec1_end_front s0 (TA a) h) as Hend.
  set (s1 := fst (exec1 s0 (TA a) h i)) in *. set (front := snd (exec1 s0 (TA a) h i)) in *.
  assert (Ha' : actors s1 = upd (actors s) a y ++ news).
  { rewrite Ha. unfold s0. cbn [set_actor actors]. rewrite upd_upd. reflexivity. }
  assert (Hg1 : get s1 a = Some y).
  { unfold get. rewrite Ha'. rewrite nth_error_app1 by (rewrite upd_length; exact Hl). apply nth_upd_eq. exact Hl. }
  rewrite (pend_of_TA _ _ _ Hg1), (lu_pend _ _ _ Hy). cbn [x0 upd_pend a_pend].
  rewrite (set_pend_TA _ _ _ _ Hg1).
  set (y2 := upd_pend y (front ++ rest)).
  assert (Ha2 : actors (set_actor s1 a y2) = upd (actors s) a y2 ++ news).
  { cbn [set_actor actors]. rewrite Ha'. rewrite upd_app_l by (rewrite upd_length; exact Hl). rewrite upd_upd. reflexivity. }
  assert (Hcons : a_cons y2 = CBusy md \/ a_cons y2 = C1 \/ a_cons y2 = CBusy 0%N).
  { cbn [y2 upd_pend a_cons]. destruct (lu_cons _ _ _ Hy) as [E|[[_ E]|[_ E]]]; [left; rewrite E; exact Hc|auto|auto]. }
  assert (Hnew : Forall (fun n => pend_shape n /\ held n = []) news).
  { rewrite Forall_forall in *. intros n Hn. apply is_new_shape. auto. }
  split; [split|].
  - rewrite Ha2. apply Forall_app. split.
    + apply Forall_upd; [exact HA|]. apply pend_shape_iff. cbn [y2 upd_pend a_pend a_cons].
      destruct (is_end i) eqn:Hie.
      * left. destruct i; try discriminate Hie. rewrite (shape_end _ _ Hsh eq_refl). unfold front. rewrite Hend. reflexivity.
      * right. split.
        -- destruct (lu_cons _ _ _ Hy) as [E|[[E _]|[_ E]]]; [exists md; rewrite E; exact Hc|subst i; discriminate Hie|eauto].
        -- apply shape_app; [exact Hfr|]. eapply shape_tail; eauto.
    + eapply Forall_impl; [|exact Hnew]. intros n Hn; apply Hn.
  - cbn [set_actor exts]. eapply wfX_of_map; [exact Hex|]. exact HX.
  - eapply keeps_upd_app; [exact Hg|exact Ha2| |].
    + assert (Hx : held x = []) by (unfold held; rewrite Hc; reflexivity).
      rewrite Hx. unfold held. destruct Hcons as [E|[E|E]]; rewrite E; reflexivity.
    + eapply Forall_impl; [|exact Hnew]. intros n Hn; apply Hn.
Qed.

Lemma iter_TX s j ex i rest h :
  wf s -> nth_error (exts s) j = Some ex -> x_pend ex = i :: rest ->
  let s0 := set_pend s (TX j) rest in
  let s1 := fst (exec1 s0 (TX j) h i) in
  let front := snd (exec1 s0 (TX j) h i) in
  let s2 := set_pend s1 (TX j) (front ++ pend_of s1 (TX j)) in
  wf s2 /\ keeps held [] s s2.
Proof.
  intros [HA HX] Hn Hp. cbv zeta.
  pose proof (Forall_nth _ _ _ _ HX Hn) as Hok. cbv beta in Hok. rewrite Hp in Hok. cbn [forallb] in Hok.
  apply andb_true_iff in Hok. destruct Hok as [Hi Hrest].
  assert (W0 : wf (set_pend s (TX j) rest)) by (apply wf_set_pend_TX; [split; auto|exact Hrest]).
  set (s0 := set_pend s (TX j) rest) in *.
  assert (Hact0 : actors s0 = actors s) by apply set_pend_TX_actors.
  pose proof (exec1_front_ext s0 (TX j) h i Hi) as Hfr.
  pose proof (exec1_exts_pend s0 (TX j) h i) as Hex.
  assert (W1 : wf (fst (exec1 s0 (TX j) h i)) /\ keeps held [] s0 (fst (exec1 s0 (TX j) h i))).
  { destruct (get s0 (self_of (TX j))) as [x0|] eqn:Hg0.
    - destruct (exec1_actors s0 (TX j) h i x0 Hg0) as (y & news & Hy & Hnews & Ha).
      destruct (ext_instr_not_cons_changing i Hi) as [N1 N2].
      assert (Hc : a_cons y = a_cons x0).
      { destruct (lu_cons _ _ _ Hy) as [E|[[E _]|[E _]]]; [exact E|congruence|congruence]. }
      assert (Hnew : Forall (fun n => pend_shape n /\ held n = []) news).
      { rewrite Forall_forall in *. intros n Hin. apply is_new_shape. auto. }
      split; [split|].
      + rewrite Ha. apply Forall_app. split.
        * apply Forall_upd; [apply W0|]. eapply pend_shape_eq; [exact (lu_pend _ _ _ Hy)|exact Hc|].
          eapply Forall_nth; [apply W0|exact Hg0].
        * eapply Forall_impl; [|exact Hnew]. intros n Hn'; apply Hn'.
      + eapply wfX_of_map; [exact Hex|apply W0].
      + eapply keeps_upd_app; [exact Hg0|exact Ha|apply held_cons_eq; exact Hc|].
        eapply Forall_impl; [|exact Hnew]. intros n Hn'; apply Hn'.
    - rewrite (exec1_none _ _ _ _ Hg0). cbn [fst]. split; [exact W0|apply keeps_same_actors; reflexivity]. }
  destruct W1 as [W1 K1]. set (s1 := fst (exec1 s0 (TX j) h i)) in *. set (front := snd (exec1 s0 (TX j) h i)) in *.
  assert (Hpo : forallb ext_instr (pend_of s1 (TX j)) = true).
  { cbn [pend_of]. destruct (nth_error (exts s1) j) as [ex1|] eqn:E; [|reflexivity]. destruct W1 as [_ WX]. exact (Forall_nth _ _ _ _ WX E). }
  split.
  - apply wf_set_pend_TX; [exact W1|]. rewrite forallb_app, Hfr, Hpo. reflexivity.
  - eapply keeps_trans; [apply keeps_same_actors; exact Hact0|]. eapply keeps_trans; [exact K1|].
    apply keeps_same_actors. apply set_pend_TX_actors.
Qed.

Lemma held_of_TA s a : held_of s (TA a) = []. Proof. reflexivity. Qed.

Lemma run_atomic_wf f s t : wf s -> wf (run_atomic f s t) /\ keeps held [] s (run_atomic f s t).
Proof.
  revert s. induction f as [|f IH]; intros s W; [split; [exact W|apply keeps_same_actors; reflexivity]|].
  destruct (pend_of s t) as [|i rest] eqn:Hp; [rewrite (run_atomic_nil _ _ _ Hp); split; [exact W|apply keeps_refl]|].
  destruct (yielding i) eqn:Hy; [rewrite (run_atomic_yield _ _ _ _ _ Hp Hy); split; [exact W|apply keeps_refl]|].
  destruct (is_enq i) eqn:He.
  - destruct i; try discriminate He. rewrite (run_atomic_enq _ _ _ _ _ _ _ _ Hp).
    pose proof (wf_resolve s to W) as W1.
    assert (K1 : keeps held [] s (snd (resolve s to))) by (apply keeps_resolve; intros; reflexivity).
    split; [|eapply keeps_trans; [exact K1|apply keeps_set_pend; intros; reflexivity]].
    destruct t as [a|j].
    + destruct (pend_of_TA_cons _ _ _ _ Hp) as (x & Hg & Hpx).
      destruct W as [HA HX]. pose proof (Forall_nth _ _ _ _ HA Hg) as Hsh. apply pend_shape_iff in Hsh.
      destruct Hsh as [Hsh|[[md Hc] Hsh]]; [congruence|]. rewrite Hpx in Hsh.
      assert (Hg1 : exists x1, get (snd (resolve s to)) a = Some x1 /\ a_cons x1 = a_cons x).
      { destruct (resolve_shape s to) as [H|[H|(a' & x' & y & _ & Hg' & _ & _ & H & _)]]; rewrite H; [eauto|eauto|].
        destruct (Nat.eq_dec a' a) as [->|Hne].
        - rewrite (get_set_same' _ _ _ _ Hg'). eexists. split; [reflexivity|]. rewrite Hg in Hg'. inversion Hg'. reflexivity.
        - rewrite get_set_other by exact Hne. eauto. }
      destruct Hg1 as (x1 & Hg1 & Hc1).
      eapply wf_set_pend_TA; [exact W1|exact Hg1|]. right. split; [exists md; congruence|].
      apply shape_cons; [reflexivity|]. eapply shape_tail; [exact Hsh|reflexivity].
    + destruct (pend_of_TX_cons _ _ _ _ Hp) as (ex & Hn & Hpx).
      destruct W as [HA HX]. pose proof (Forall_nth _ _ _ _ HX Hn) as Hok. cbv beta in Hok. rewrite Hpx in Hok.
      apply wf_set_pend_TX; [exact W1|]. exact Hok.
  - rewrite (run_atomic_exec _ _ _ _ _ Hp Hy He). cbv zeta.
    destruct t as [a|j].
    + destruct (pend_of_TA_cons _ _ _ _ Hp) as (x & Hg & Hpx).
      destruct (iter_TA s a x i rest (held_of (set_pend s (TA a) rest) (TA a)) W Hg Hpx) as [W2 K2]. cbv zeta in W2, K2.
      destruct (exec1 (set_pend s (TA a) rest) (TA a) (held_of (set_pend s (TA a) rest) (TA a)) i) as [s1 front]. cbn [fst snd] in *.
      destruct (IH _ W2) as [W3 K3]. split; [exact W3|eapply keeps_trans; eauto].
    + destruct (pend_of_TX_cons _ _ _ _ Hp) as (ex & Hn & Hpx).
      destruct (iter_TX s j ex i rest (held_of (set_pend s (TX j) rest) (TX j)) W Hn Hpx) as [W2 K2]. cbv zeta in W2, K2.
      destruct (exec1 (set_pend s (TX j) rest) (TX j) (held_of (set_pend s (TX j) rest) (TX j)) i) as [s1 front]. cbn [fst snd] in *.
      destruct (IH _ W2) as [W3 K3]. split; [exact W3|eapply keeps_trans; eauto].
Qed.

(** a change of the actor table that leaves every pending list and consumer position alone *)
Definition same_pc (s s' : state) : Prop :=
  exts s' = exts s /\ trel (fun _ x y => a_pend y = a_pend x /\ a_cons y = a_cons x) (fun _ _ => False) s s'.

Lemma same_pc_refl s : same_pc s s.
Proof. split; [reflexivity|apply trel_refl; auto]. Qed.
Lemma same_pc_trans a b c : same_pc a b -> same_pc b c -> same_pc a c.
Proof.
  intros [E1 T1] [E2 T2]. split; [congruence|]. revert T1 T2. apply trel_trans; [|auto].
  intros i x y z [] []. split; congruence.
Qed.
Lemma same_pc_set_actor s a x y : get s a = Some x -> a_pend y = a_pend x -> a_cons y = a_cons x -> same_pc s (set_actor s a y).
Proof. intros Hg Hp Hc. split; [reflexivity|]. eapply trel_set_actor; eauto. Qed.
Lemma same_pc_with_actor s a f : (forall x, a_pend (f x) = a_pend x /\ a_cons (f x) = a_cons x) -> same_pc s (with_actor s a f).
Proof. intros H. split; [apply with_actor_fields|apply trel_with_actor; auto]. Qed.
Lemma same_pc_push_mb s a e : same_pc s (push_mb s a e).
Proof. apply same_pc_with_actor. auto. Qed.
Lemma same_pc_resolve s r : same_pc s (snd (resolve s r)).
Proof. split; [apply resolve_exts|apply trel_resolve; auto]. Qed.

Lemma wf_same_pc s s' : same_pc s s' -> wf s -> wf s'.
Proof.
  intros (E & F & Nw) [HA HX]. split; [|rewrite E; exact HX].
  apply Forall_forall. intros x' Hin. apply In_nth_error in Hin. destruct Hin as [i Hi].
  destruct (get s i) as [x|] eqn:Ex; [|destruct (Nw i x' Ex Hi)].
  destruct (F i x Ex) as (x'' & Hg & Hp & Hc). replace x' with x'' by (unfold get in Hg; congruence).
  eapply pend_shape_eq; [exact Hp|exact Hc|]. eapply Forall_nth; [exact HA|exact Ex].
Qed.

Lemma keeps_held_same_pc s s' : same_pc s s' -> keeps held [] s s'.
Proof.
  intros [_ T]. apply keeps_trel. revert T. apply trel_impl; [|intros b n []].
  intros b x y [_ Hc]. apply held_cons_eq. exact Hc.
Qed.

Lemma same_pc_thread_TA s s' a x l :
  same_pc s s' -> wf s -> get s a = Some x -> a_pend x <> [] ->
  (l = [] \/ shape l) -> wf (set_pend s' (TA a) l).
Proof.
  intros Hs W Hg Hne Hl. pose proof (wf_same_pc _ _ Hs W) as W'.
  destruct Hs as (_ & H & _). destruct (H a x Hg) as (x' & Hg' & Hp & Hc).
  destruct W as [HA _]. pose proof (Forall_nth _ _ _ _ HA Hg) as Hsh. apply pend_shape_iff in Hsh.
  destruct Hsh as [Hsh|[[md Hcb] _]]; [congruence|].
  eapply wf_set_pend_TA; [exact W'|exact Hg'|]. destruct Hl as [->|Hl]; [left; reflexivity|right]. split; [exists md; congruence|exact Hl].
Qed.

Lemma held_at_proj s b : held_at s b = proj_at held [] s b. Proof. reflexivity. Qed.

Lemma wf_run_after s t l f : wf (set_pend s t l) -> wf (run_atomic f (set_pend s t l) t) /\ keeps held [] (set_pend s t l) (run_atomic f (set_pend s t l) t).
Proof. apply run_atomic_wf. Qed.

Lemma pend_shape_idle x : pend_shape x -> (forall md, a_cons x <> CBusy md) -> a_pend x = [].
Proof. intros [H|(md & l & Hc & _)] Hn; [exact H|exfalso; exact (Hn md Hc)]. Qed.

Lemma wf_set_mb_idle s a x sq uq pa co cu :
  wf s -> get s a = Some x -> (forall md, a_cons x <> CBusy md) -> wf (set_actor s a (set_mb x sq uq pa co cu)).
Proof.
  intros [HA HX] Hg Hn. split; [|exact HX]. cbn [set_actor actors]. apply Forall_upd; [exact HA|].
  left. cbn. apply pend_shape_idle; [eapply Forall_nth; eauto|exact Hn].
Qed.

Lemma push_finish s s2 t head rest pre :
  wf s -> same_pc s s2 -> pend_of s t = head :: rest -> is_end head = false -> no_end pre ->
  (ext_instr head = true -> forallb ext_instr pre = true) ->
  wf (set_pend s2 t (pre ++ rest)) /\ keeps held [] s (set_pend s2 t (pre ++ rest)).
Proof.
  intros W Hs Hp Hh Hpre Hext. split.
  - destruct t as [a|j].
    + destruct (pend_of_TA_cons _ _ _ _ Hp) as (x & Hg & Hpx).
      eapply same_pc_thread_TA; [exact Hs|exact W|exact Hg|congruence|].
      destruct W as [HA _]. pose proof (Forall_nth _ _ _ _ HA Hg) as Hsh. apply pend_shape_iff in Hsh.
      destruct Hsh as [Hsh|[_ Hsh]]; [congruence|]. rewrite Hpx in Hsh.
      right. apply shape_app; [exact Hpre|]. eapply shape_tail; eauto.
    + destruct (pend_of_TX_cons _ _ _ _ Hp) as (ex & Hn & Hpx).
      apply wf_set_pend_TX; [eapply wf_same_pc; eauto|].
      destruct W as [_ HX]. pose proof (Forall_nth _ _ _ _ HX Hn) as Hok. cbv beta in Hok. rewrite Hpx in Hok.
      cbn [forallb] in Hok. apply andb_true_iff in Hok. destruct Hok as [H1 H2]. rewrite forallb_app, (Hext H1), H2. reflexivity.
  - eapply keeps_trans; [apply keeps_held_same_pc; exact Hs|]. apply keeps_set_pend. intros; reflexivity.
Qed.

Lemma push_left_no_end i c : no_end (push_left i c).
Proof.
  destruct i; try reflexivity; cbn [push_left];
    [destruct (firstn c tos ++ skipn (S c) tos)|destruct (nth_error remaining c)]; reflexivity.
Qed.
Lemma push_left_ext i c : ext_instr i = true -> forallb ext_instr (push_left i c) = true.
Proof. destruct i; try reflexivity; try discriminate. intros _. cbn [push_left]. destruct (firstn c tos ++ skipn (S c) tos); reflexivity. Qed.

Lemma held_eq_of_keeps s s' ev b :
  keeps held [] s s' -> handled_at s ev b = [] -> popped_from s ev b true = [] -> popped_from s ev b false = [] ->
  held_at s' b ++ handled_at s ev b = held_at s b ++ popped_from s ev b true ++ popped_from s ev b false.
Proof. intros K -> -> ->. rewrite !app_nil_r. apply K. Qed.

Ltac wf_err := match goal with H : err (set_err _) = false |- _ => discriminate H end.

Lemma step_wf_held s ev :
  wf s -> err (step s ev) = false ->
  wf (step s ev) /\
  forall b, held_at (step s ev) b ++ handled_at s ev b = held_at s b ++ popped_from s ev b true ++ popped_from s ev b false.
Proof.
  intros W He.
  (* an event that neither pops nor handles: [wf] and the envelopes in hand are kept, also by its atomic phase *)
  assert (Hkeep : (forall b, handled_at s ev b = [] /\ popped_from s ev b true = [] /\ popped_from s ev b false = []) ->
                  wf (step s ev) /\ keeps held [] s (step s ev) ->
                  wf (step s ev) /\ forall b, held_at (step s ev) b ++ handled_at s ev b = held_at s b ++ popped_from s ev b true ++ popped_from s ev b false).
  { intros Hnil [H1 H2]. split; [exact H1|]. intros b. destruct (Hnil b) as (E1 & E2 & E3). apply held_eq_of_keeps; auto. }
  assert (Hrun : forall s1 t, wf s1 /\ keeps held [] s s1 -> wf (run_atomic FUEL s1 t) /\ keeps held [] s (run_atomic FUEL s1 t)).
  { intros s1 t [W1 K1]. destruct (run_atomic_wf FUEL s1 t W1) as [W2 K2]. split; [exact W2|eapply keeps_trans; eauto]. }
  destruct ev.
  - cbn [step] in *. destruct (get s a) as [x|] eqn:Hg; [|wf_err].
    assert (Hidle : forall c sq', a_cons x = C0 \/ a_cons x = C1 ->
              wf (set_actor s a (set_mb x sq' (a_uq x) (a_paused x) c (a_cur x)))).
    { intros c sq' Hc. apply wf_set_mb_idle; [exact W|exact Hg|]. intros md E. destruct Hc; congruence. }
    destruct (a_cons x) eqn:Hc; try wf_err; destruct (a_sq x) eqn:Hs; (split; [apply Hidle; auto|]);
      intros b; unfold held_at, handled_at, popped_from; (destruct (Nat.eqb_spec a b) as [<-|Hne];
        [rewrite (get_set_same' _ _ _ _ Hg), Hg; unfold held; cbn [set_mb a_cons]; rewrite Hc, ?Hs; reflexivity
        |rewrite get_set_other by exact Hne; rewrite !app_nil_r; reflexivity]).
  - cbn [step] in *. destruct (get s a) as [x|] eqn:Hg; [|wf_err].
    destruct (a_cons x) eqn:Hc; try wf_err. split.
    + apply wf_set_mb_idle; [exact W|exact Hg|]. intros md E. congruence.
    + intros b; unfold held_at, handled_at, popped_from. rewrite !app_nil_r. destruct (Nat.eqb_spec a b) as [<-|Hne].
      * rewrite (get_set_same' _ _ _ _ Hg), Hg; unfold held; cbn [set_mb a_cons]; rewrite Hc. destruct (a_paused x); reflexivity.
      * rewrite get_set_other by exact Hne. reflexivity.
  - cbn [step] in *. destruct (get s a) as [x|] eqn:Hg; [|wf_err].
    assert (Hidle : forall c uq', a_cons x = C3 ->
              wf (set_actor s a (set_mb x (a_sq x) uq' (a_paused x) c (a_cur x)))).
    { intros c uq' Hc. apply wf_set_mb_idle; [exact W|exact Hg|]. intros md E. congruence. }
    destruct (a_cons x) eqn:Hc; try wf_err; destruct (a_uq x) eqn:Hs; (split; [apply Hidle; auto|]);
      intros b; unfold held_at, handled_at, popped_from; (destruct (Nat.eqb_spec a b) as [<-|Hne];
        [rewrite (get_set_same' _ _ _ _ Hg), Hg; unfold held; cbn [set_mb a_cons]; rewrite Hc, ?Hs; reflexivity
        |rewrite get_set_other by exact Hne; rewrite !app_nil_r; reflexivity]).
  - cbn [step] in *. destruct (get s a) as [x|] eqn:Hg; [|wf_err].
    destruct (a_cons x) eqn:Hc; try wf_err.
    assert (Hl : a < length (actors s)) by (eapply nth_error_lt; exact Hg).
    assert (Hpx : a_pend x = []).
    { destruct W as [HA _]. apply pend_shape_idle; [eapply Forall_nth; eauto|]. intros md E; congruence. }
    cbv zeta in *.
    match goal with |- context[dispatch ?s00 a ?x00 e] => set (s0 := s00) in *; set (x0 := x00) in * end.
    assert (Hg0 : get s0 a = Some x0) by (apply get_set_same; exact Hl).
    destruct (dispatch_effect s0 a x0 e Hg0) as (y & Hy & Ha & _ & _ & Hex & _).
    pose proof (dispatch_shape s0 a x0 e) as Hsh.
    destruct (dispatch s0 a x0 e) as [s1 ins]. cbn [fst snd] in *.
    assert (Ha' : actors s1 = upd (actors s) a y) by (rewrite Ha; unfold s0; cbn [set_actor actors]; apply upd_upd).
    assert (Hg1 : get s1 a = Some y) by (unfold get; rewrite Ha'; apply nth_upd_eq; exact Hl).
    assert (W1 : wf s1).
    { destruct W as [HA HX]. split; [|rewrite Hex; exact HX]. rewrite Ha'. apply Forall_upd; [exact HA|].
      left. rewrite (df_pend _ _ Hy). exact Hpx. }
    assert (W2 : wf (set_pend s1 (TA a) ins)).
    { eapply wf_set_pend_TA; [exact W1|exact Hg1|]. right. split; [|exact Hsh].
      exists (mode_top x). rewrite (df_cons _ _ Hy). reflexivity. }
    destruct (run_atomic_wf FUEL _ (TA a) W2) as [W3 K3]. split; [exact W3|].
    intros b. rewrite held_at_proj, K3. unfold proj_at. rewrite (set_pend_TA _ _ _ _ Hg1).
    unfold held_at, handled_at, handle_of, popped_from. rewrite !app_nil_r.
    destruct (Nat.eqb_spec a b) as [<-|Hne].
    + rewrite (get_set_same' _ _ _ _ Hg1), Hg, Hc. unfold held. cbn [upd_pend a_cons]. rewrite (df_cons _ _ Hy), Hc. reflexivity.
    + rewrite get_set_other by exact Hne. unfold get. rewrite Ha'. rewrite nth_upd_neq by exact Hne. rewrite app_nil_r. reflexivity.
  - apply Hkeep; [intros; repeat split; reflexivity|].
    destruct (push_of s t choice) as [[tgt e]|] eqn:Epo; [|rewrite (step_push_none _ _ _ Epo) in He; discriminate He].
    destruct (step_push _ _ _ _ _ Epo) as (i & rest & Hp & E). rewrite E.
    assert (Hs2 : same_pc s (push_mb (match push_ref i choice with Some r => snd (resolve s r) | None => s end) tgt e)).
    { eapply same_pc_trans; [|apply same_pc_push_mb]. destruct (push_ref i choice); [apply same_pc_resolve|apply same_pc_refl]. }
    apply (push_finish s _ t i rest (push_left i choice) W Hs2 Hp); [|apply push_left_no_end|apply push_left_ext].
    unfold push_of in Epo. rewrite Hp in Epo. destruct i; try discriminate Epo; reflexivity.
  - apply Hkeep; [intros; repeat split; reflexivity|].
    cbn [step] in *. destruct (pend_of s t) as [|i rest] eqn:Hp; [wf_err|]. destruct i; try wf_err.
    apply Hrun, (push_finish s s t _ rest [] W (same_pc_refl s) Hp); reflexivity.
  - apply Hkeep; [intros; repeat split; reflexivity|].
    cbn [step] in *. destruct (pend_of s t) as [|i rest] eqn:Hp; [wf_err|]. destruct i; try wf_err.
    apply Hrun. refine (push_finish s _ t _ rest [] W _ Hp eq_refl eq_refl (fun _ => eq_refl)).
    apply same_pc_with_actor. intros; split; reflexivity.
  - apply Hkeep; [intros; repeat split; reflexivity|].
    cbn [step] in *. destruct (pend_of s t) as [|i rest] eqn:Hp; [wf_err|]. destruct i; try wf_err.
    destruct (get s (self_of t)) as [x|] eqn:Hg; [|wf_err]. destruct (a_paused x).
    + refine (push_finish s _ t _ rest [IResume2] W _ Hp eq_refl eq_refl _); [|discriminate].
      eapply same_pc_set_actor; [exact Hg|reflexivity|reflexivity].
    + apply Hrun, (push_finish s s t _ rest [] W (same_pc_refl s) Hp); reflexivity.
  - apply Hkeep; [intros; repeat split; reflexivity|].
    cbn [step] in *. destruct (pend_of s t) as [|i rest] eqn:Hp; [wf_err|]. destruct i; try wf_err.
    apply Hrun, (push_finish s s t _ rest [] W (same_pc_refl s) Hp); reflexivity.
  - apply Hkeep; [intros; repeat split; reflexivity|]. apply Hrun. split; [exact W|apply keeps_refl].
Qed.
