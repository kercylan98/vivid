(** C09-d, second part: the cover invariant [CInv] is preserved by every micro-step.  [cover_reachable] delivers it
    for every reachable state together with all the invariants it rests on (Actor/ProofsMailLife.v ... ProofsMailHyg.v);
    the statements cited by Properties/C09.v about pausing, reference caches and pause commands are read off it. *)
From Coq Require Import List NArith ZArith Bool Lia Arith.
From Vivid Require Import Actor.Core Actor.CoreRun Actor.SpecMail Actor.ProofsMailBase Actor.ProofsMail Actor.ProofsMailInv
  Actor.ProofsMailWf Actor.ProofsMailAcct Actor.ProofsMailReg Actor.ProofsMailMicro Actor.ProofsMailLife Actor.ProofsMailStep
  Actor.ProofsMailTree Actor.ProofsMailMK Actor.ProofsMailKids Actor.ProofsMailCtx Actor.ProofsMailMicro2 Actor.ProofsMailCache
  Actor.ProofsMailHyg Actor.ProofsMailView Actor.ProofsMailCover Actor.ProofsMailQuiet.
Import ListNotations.

Lemma sysq_cases e : sysq e = [] \/ (sysq e = [e] /\ e_sys e = true).
Proof. unfold sysq. destruct (e_sys e); auto. Qed.

Lemma In_lf_tail i i0 rest : In i (lf rest) -> In i (lf (i0 :: rest)).
Proof. unfold lf. cbn [filter]. destruct (life i0); [right; assumption|auto]. Qed.

Lemma tid_dec (t1 t2 : tid) : {t1 = t2} + {t1 <> t2}.
Proof. decide equality; apply Nat.eq_dec. Qed.

Section TStep.
  Variables (s s' : state) (t : tid) (i0 : instr) (rest pre : list instr) (tgt : aid) (env : list envelope) (pa : bool -> bool).
  Hypothesis T : tstep s s' t i0 rest pre tgt env pa.
  Hypothesis Henv : env = [] \/ exists e, env = [e] /\ e_sys e = true.
  Hypothesis Hanc : forall q c, anc s q c -> anc s' q c.
  Hypothesis Hlfpre : lf pre = [].
  Hypothesis Oown : forall b xb, t = TA b -> get s b = Some xb ->
    need_after (map kinstr pre) (pa (a_paused xb) && is_running (a_state xb)) = true -> need_after [kinstr i0] (eflag xb) = true.
  Hypothesis Opause : forall e, env = [e] -> kenv e = KPause -> tgt <> 0 -> cov s' tgt.
  Hypothesis Ocons : forall a xa, get s a = Some xa -> a <> 0 -> inscope xa -> cinstr s a (self_of t) i0 ->
    cov s' a \/ (a = tgt /\ exists e, env = [e] /\ kenv e = KCover).

  Theorem CInv_tstep : CInv s -> CInv s'.
  Proof.
    intros HC a y Hgy Hne Hsc Hneed.
    destruct (get s a) as [x|] eqn:Hgx.
    2:{ exfalso. assert (E : get s' a = None) by (apply nth_error_None; rewrite (ts_len _ _ _ _ _ _ _ _ _ T); apply nth_error_None; exact Hgx). congruence. }
    destruct (ts_rec _ _ _ _ _ _ _ _ _ T a x Hgx) as (y' & Hy' & Hpend & (R1 & R2 & R3 & R4 & R5 & R6 & R7 & R8)).
    assert (y' = y) by congruence; subst y'.
    pose proof (ts_p _ _ _ _ _ _ _ _ _ T) as Hp.
    assert (Hown : is_ta t a = true -> t = TA a /\ a_pend x = i0 :: rest /\ self_of t = a).
    { destruct t as [b|j]; cbn [is_ta]; [|discriminate]. intros E. apply Nat.eqb_eq in E. subst b.
      split; [reflexivity|split; [|reflexivity]]. rewrite (pend_of_TA _ _ _ Hgx) in Hp. exact Hp. }
    assert (Hnself : is_ta t a = false -> Nat.eqb a (self_of t) = false).
    { destruct t as [b|j]; cbn [is_ta self_of]; intros E; apply Nat.eqb_neq; [apply Nat.eqb_neq in E; congruence|exact Hne]. }
    assert (Hscx : inscope x).
    { destruct Hsc as [Hz Hs]. split; [congruence|]. rewrite R1, R3 in Hs. destruct Hs as [E|[Hr [E|E]]]; [left; exact E|right; split; [exact Hr|left; exact E]|].
      right. split; [exact Hr|right]. rewrite Hpend in E. destruct (is_ta t a) eqn:Eta; [|exact E].
      destruct (Hown eq_refl) as (_ & Hpx & _). rewrite Hpx. rewrite lf_app, Hlfpre in E. cbn [app] in E. apply In_lf_tail. exact E. }
    set (E := if Nat.eqb a tgt then env else []) in *.
    set (M := map kenv (held x) ++ map kenv (a_sq x)).
    assert (Hpipe : need_after (pipeline y) (eflag y) = need_after (map kenv E) (need_after M (need_after (map kinstr (a_pend y)) (eflag y)))).
    { unfold pipeline. rewrite (held_cons_eq _ _ R5), R7, map_app, !need_app. unfold M. rewrite need_app. reflexivity. }
    rewrite Hpipe in Hneed.
    assert (Hnocover : ~ (a = tgt /\ exists e, env = [e] /\ kenv e = KCover)).
    { intros [-> (e & -> & Hk)]. unfold E in Hneed. rewrite Nat.eqb_refl in Hneed. cbn [map need_after fold_left] in Hneed. rewrite Hk in Hneed. discriminate Hneed. }
    assert (Hmain : need_after M (need_after (map kinstr (a_pend y)) (eflag y)) = true -> cov s' a).
    { intros HN.
      assert (Hnx : need_after (pipeline x) (eflag x) = true).
      { unfold pipeline. rewrite !need_app. fold M. rewrite <- need_app. fold M.
        destruct (is_ta t a) eqn:Eta.
        - destruct (Hown eq_refl) as (Et & Hpx & Hself).
          assert (Efy : eflag y = pa (a_paused x) && is_running (a_state x)).
          { unfold eflag. rewrite R8, R1, Hself, Nat.eqb_refl. reflexivity. }
          rewrite Hpend, Efy, map_app, need_app in HN. rewrite Hpx. cbn [map].
          change (need_after (kinstr i0 :: map kinstr rest) (eflag x)) with (need_after (map kinstr rest) (need_after [kinstr i0] (eflag x))).
          rewrite <- need_app. rewrite <- need_app in HN.
          eapply need_mono; [|exact HN]. apply (Oown a x Et Hgx).
        - assert (Efy : eflag y = eflag x).
          { unfold eflag. rewrite R8, R1, (Hnself eq_refl). reflexivity. }
          rewrite Hpend, Efy in HN. exact HN. }
      pose proof (HC a x Hgx Hne Hscx Hnx) as [(t1 & i & Hin & Hci)|(q & xq & e & Hqa & Hgq & Hine & Hes & Hcm)].
      - destruct (tid_dec t1 t) as [->|Hnt].
        + rewrite Hp in Hin. destruct Hin as [<-|Hin].
          * destruct (Ocons a x Hgx Hne Hscx Hci) as [H|H]; [exact H|exfalso; exact (Hnocover H)].
          * left. exists t, i. split; [rewrite (ts_pt _ _ _ _ _ _ _ _ _ T); apply in_or_app; right; exact Hin|eapply cinstr_mono; eauto].
        + left. exists t1, i. split; [rewrite (ts_po _ _ _ _ _ _ _ _ _ T t1 Hnt); exact Hin|eapply cinstr_mono; eauto].
      - right. destruct (ts_rec _ _ _ _ _ _ _ _ _ T q xq Hgq) as (yq & Hyq & _ & (Q1 & Q2 & Q3 & Q4 & Q5 & Q6 & Q7 & Q8)).
        exists q, yq, e. split; [exact Hqa|split; [exact Hyq|split; [|split; [exact Hes|eapply cmsg_mono; eauto]]]].
        rewrite (held_cons_eq _ _ Q5), Q7. apply in_app_or in Hine. apply in_or_app. destruct Hine as [H|H]; [left; exact H|right; apply in_or_app; left; exact H]. }
    destruct (Nat.eqb a tgt) eqn:Eat; [|apply Hmain; exact Hneed].
    apply Nat.eqb_eq in Eat. subst tgt. unfold E in Hneed. destruct Henv as [->|(e & -> & Hes)]; [apply Hmain; exact Hneed|].
    cbn [map need_after fold_left] in Hneed. destruct (kenv e) eqn:Hk; cbn [knext] in Hneed.
    - apply (Opause e eq_refl Hk Hne).
    - discriminate Hneed.
    - apply Hmain. exact Hneed.
  Qed.
End TStep.

Lemma In_remove_nth {A} (l : list A) c x y : nth_error l c = Some y -> In x l -> x = y \/ In x (firstn c l ++ skipn (S c) l).
Proof.
  revert c. induction l as [|z l IH]; intros [|c] Hn Hin; cbn in *; try discriminate.
  - inversion Hn; subst. destruct Hin as [->|Hin]; [left; reflexivity|right; exact Hin].
  - destruct Hin as [->|Hin]; [right; left; reflexivity|]. destruct (IH c Hn Hin) as [->|H]; [left; reflexivity|right; right; exact H].
Qed.

Lemma landing_target mb b e : mb_target mb = Some b -> landing mb e = (b, e).
Proof. destruct mb; cbn; intros H; inversion H; reflexivity. Qed.

Lemma resolve_target s r b :
  CacheW s -> RInv s -> RootC s -> ref_target r = Some b -> (exists xb, get s b = Some xb) -> mb_target (fst (resolve s r)) = Some b.
Proof.
  intros HW HR HC Hr [xb Hg]. destruct r as [d|p|]; cbn [ref_target] in Hr; inversion Hr; subst.
  - destruct (Nat.eq_dec b 0) as [->|Hne].
    + rewrite (proj1 (resolve_root s HR HC)). reflexivity.
    + rewrite (resolve_obj s b xb HW Hg Hne). reflexivity.
  - reflexivity.
Qed.

Lemma cmsg_target_exists s a xa b m :
  RInv s -> get s a = Some xa -> cmsg s a b m -> (forall c, m <> MSup c) -> exists xb, get s b = Some xb.
Proof.
  intros HR Hg Hc Hn. destruct m; cbn [cmsg] in Hc; try contradiction.
  - destruct poison; [contradiction|]. eapply anc_get; eauto.
  - exfalso. eapply Hn. reflexivity.
  - subst. eauto.
  - destruct poison; [contradiction|]. eapply anc_get; eauto.
Qed.

Lemma kenv_cover sender m : (m = MCmdResume \/ (exists k, m = MKill k false) \/ m = MRestart false) ->
  kenv {| e_sys := true; e_sender := sender; e_msg := m |} = KCover.
Proof. intros [->|[[k ->]| ->]]; reflexivity. Qed.

Lemma cmsg_cases s a b m : cmsg s a b m -> m = MCmdResume \/ (exists k, m = MKill k false) \/ m = MRestart false \/ exists c, m = MSup c.
Proof.
  destruct m; cbn [cmsg]; try contradiction; eauto.
  - destruct poison; [contradiction|]. eauto.
  - destruct poison; [contradiction|]. eauto.
Qed.

Lemma kenv_pause_msg e : kenv e = KPause -> e_msg e = MCmdPause.
Proof. unfold kenv. destruct (e_sys e); [|discriminate]. destruct (e_msg e); try discriminate; try reflexivity; destruct poison; discriminate. Qed.

Lemma msup_lands_elsewhere s self q c a xa :
  LI s -> RInv s -> KInv s -> own_report s self c -> is_child_ref s q (RObj self) ->
  get s a = Some xa -> a <> 0 -> regd s a xa -> covers_ctx a c -> q <> a /\ exists xq, get s q = Some xq.
Proof.
  intros HLI HR HK (Hs0 & Hc & Hsub) (d & xd & E & _ & Hgd & Hpd) Hga Hne Hreg Hcov. inversion E; subst d.
  destruct c as [ch ts sub]. destruct Hc as [-> ->]. cbn [covers_ctx chain_targets app] in Hcov.
  assert (Hsa : anc s self a).
  { destruct Hcov as [E1|Hin]; [inversion E1; apply anc_refl|]. destruct sub as [c1|]; [|destruct Hin].
    cbn [ctx_sub_ok] in Hsub. destruct Hsub as [(b & E2 & Hl) Hs1]. inversion E2; subst b.
    apply (chain_anc s a xa HLI HR HK Hga Hne Hreg c1 self Hl Hs1 Hin). }
  assert (Hsreg : regd s self xd).
  { destruct (Nat.eq_dec self a) as [->|Hsn]; [assert (xd = xa) by congruence; subst; exact Hreg|].
    destruct (anc_alive s self a xa HLI HR HK Hga Hne Hreg Hsa Hsn) as (xs & _ & _ & Hgs & _ & _ & Hr & _).
    assert (xs = xd) by congruence; subst. apply Hr. exact Hs0. }
  destruct Hpd as [Hp|(xc & Hxc & Hn)]; [|exfalso; assert (xc = xd) by congruence; subst; exact (Hn Hsreg)].
  destruct HR as (Ra & Rb & HR'). destruct (Rb self xd Hgd Hs0) as [(p & Hp' & Hlt) _]. assert (p = q) by congruence; subst p.
  pose proof (anc_le s self a (conj Ra (conj Rb HR')) Hsa). split; [lia|].
  assert (Hl : q < length (actors s)) by (pose proof (nth_error_lt _ _ _ Hgd); lia).
  destruct (get s q) as [xq|] eqn:Eq; [eauto|apply nth_error_None in Eq; lia].
Qed.

Definition Jall (s : state) : Prop := Base6 s /\ XI s /\ IRF s /\ CacheW s /\ MH s.

Lemma anc_mono_mstep s m : forall q c, anc s q c -> anc (mstep s m) q c.
Proof. intros q c. apply anc_mstep. Qed.

Lemma parent_exists s a x : RInv s -> get s a = Some x -> forall b, ref_target (rref_parent x) = Some b -> exists xb, get s b = Some xb.
Proof.
  intros (Ra & Rb & _) Hg b Hb. unfold rref_parent in Hb. destruct (a_parent x) as [p|] eqn:Hp; cbn in Hb; inversion Hb; subst b.
  - assert (Hne : a <> 0). { intros ->. destruct Ra as (x0 & Hg0 & Hp0 & _). assert (x = x0) by congruence; subst. congruence. }
    destruct (Rb a x Hg Hne) as [(q & Hq & Hlt) _]. assert (q = p) by congruence; subst q.
    assert (Hl : p < length (actors s)) by (pose proof (nth_error_lt _ _ _ Hg); lia).
    destruct (get s p) as [xp|] eqn:E; [eauto|apply nth_error_None in E; lia].
  - destruct Ra as (x0 & Hg0 & _). eauto.
Qed.

Lemma CInv_resolve s t sys to sender m rest :
  Jall s -> pend_of s t = IEnq sys to sender m :: rest -> CInv s -> CInv (mstep s (MAtomic t)).
Proof.
  intros (((W & HLI & HR & HMK) & HK & HRC & HRS) & HX & HIRF & HW & HM) Hp.
  apply (CInv_tstep s _ t _ rest [IEnqR sys (fst (resolve s to)) sender m] 0 [] (fun p => p) (view_resolve s t sys to sender m rest Hp));
    [left; reflexivity|apply anc_mono_mstep|reflexivity|intros b xb _ _ H; exact H|intros e H; discriminate H|].
  intros a xa Hga Hne Hsc Hci. left. cbn [cinstr] in Hci. destruct sys; [|contradiction]. destruct Hci as (b & Hrt & Hcm).
  assert (Hex : exists xb, get s b = Some xb).
  { destruct (cmsg_cases _ _ _ _ Hcm) as [E|[[k E]|[E|[c E]]]]; try (apply (cmsg_target_exists s a xa b m HR Hga Hcm); intros c0; subst; discriminate).
    pose proof (xi_pend s t _ rest HX Hp) as Hxi. cbn [xi_ok] in Hxi. destruct (Hxi c E) as [(x & Hgx & ->) _].
    apply (parent_exists s _ x HR Hgx b Hrt). }
  pose proof (resolve_target s to b HW HR HRC Hrt Hex) as Hmb.
  pose proof (view_resolve s t true to sender m rest Hp) as V.
  left. exists t, (IEnqR true (fst (resolve s to)) sender m). split; [rewrite (ts_pt _ _ _ _ _ _ _ _ _ V); left; reflexivity|].
  cbn [cinstr]. exists b. split; [exact Hmb|eapply cmsg_mono; [apply anc_mono_mstep|exact Hcm]].
Qed.

Lemma land_cover s s' t i0 rest pre b e0 pa a :
  tstep s s' t i0 rest pre b [e0] pa -> (forall q c, anc s q c -> anc s' q c) ->
  e_sys e0 = true -> (exists xb, get s b = Some xb) -> cmsg s a b (e_msg e0) -> (b = a -> kenv e0 = KCover) ->
  cov s' a \/ (a = b /\ exists e, [e0] = [e] /\ kenv e = KCover).
Proof.
  intros T Hanc Hes [xb Hgb] Hcm Hk. destruct (Nat.eq_dec b a) as [->|Hne].
  - right. split; [reflexivity|]. exists e0. split; [reflexivity|apply Hk; reflexivity].
  - left. right. destruct (ts_rec _ _ _ _ _ _ _ _ _ T b xb Hgb) as (yb & Hyb & _ & (_ & _ & _ & _ & Q5 & _ & Q7 & _)).
    rewrite Nat.eqb_refl in Q7. exists b, yb, e0. split; [exact Hne|split; [exact Hyb|split; [|split; [exact Hes|eapply cmsg_mono; eauto]]]].
    rewrite Q7. apply in_or_app. right. apply in_or_app. right. left. reflexivity.
Qed.

Lemma land_ok_target s self mb b : land_ok s self mb -> mb_target mb = Some b -> is_child_ref s b (RObj self).
Proof. destruct mb; cbn; intros H E; inversion E; subst; exact H. Qed.

Lemma CInv_push_enqr s t c sys mb sender m rest :
  Jall s -> pend_of s t = IEnqR sys mb sender m :: rest -> CInv s -> CInv (mstep s (MPush t c)).
Proof.
  intros (((W & HLI & HR & HMK) & HK & HRC & HRS) & HX & HIRF & HW & HM) Hp.
  pose proof (view_push_enqr s t c sys mb sender m rest Hp) as V. cbv zeta in V.
  set (e0 := {| e_sys := sys; e_sender := sender; e_msg := m |}) in *.
  destruct (mh_head s t _ rest HM Hp) as [Hnp _]. cbn [np_instr] in Hnp.
  apply (CInv_tstep s _ t _ rest [] _ _ (fun p => p) V);
    [|apply anc_mono_mstep|reflexivity|intros b xb _ _ H; exact H| |].
  - destruct (sysq_cases (snd (landing mb e0))) as [->|[-> H]]; [left; reflexivity|right; eexists; split; [reflexivity|exact H]].
  - intros e He Hk _. exfalso. apply kenv_pause_msg in Hk. unfold sysq in He. destruct mb; cbn [landing snd] in He.
    + destruct sys; cbn in He; inversion He; subst e. exact (Hnp Hk).
    + destruct sys; cbn in He; inversion He; subst e. exact (Hnp Hk).
    + cbn in He. discriminate He.
  - intros a xa Hga Hne Hsc Hci. cbn [cinstr] in Hci. destruct sys; [|contradiction]. destruct Hci as (b & Hmt & Hcm).
    rewrite (landing_target mb b e0 Hmt) in *. cbn [fst snd] in *. change (sysq e0) with [e0] in *.
    pose proof (inscope_regd s a xa HR Hga Hne Hsc) as Hreg.
    assert (Hsupx : forall c0, m = MSup c0 -> b <> a /\ exists xb, get s b = Some xb).
    { intros c0 ->. pose proof (xi_pend s t _ rest HX Hp) as Hxi. cbn [xi_ok] in Hxi. destruct (Hxi c0 eq_refl) as [Hown Hland].
      apply (msup_lands_elsewhere s (self_of t) b c0 a xa HLI HR HK Hown (land_ok_target _ _ _ _ Hland Hmt) Hga Hne Hreg Hcm). }
    apply (land_cover s _ t _ rest [] b e0 (fun p => p) a V (anc_mono_mstep s _) eq_refl).
    + destruct (cmsg_cases _ _ _ _ Hcm) as [E|[[k E]|[E|[c0 E]]]]; try (apply (cmsg_target_exists s a xa b m HR Hga Hcm); intros c1; subst; discriminate).
      apply (Hsupx c0 E).
    + exact Hcm.
    + intros Hba. destruct (cmsg_cases _ _ _ _ Hcm) as [E|[[k E]|[E|[c0 E]]]]; try (apply kenv_cover; eauto; fail).
      exfalso. apply (proj1 (Hsupx c0 E) Hba).
Qed.

Lemma CInv_push_mb s t c b e rest :
  Jall s -> pend_of s t = IEnqMb b e :: rest -> CInv s -> CInv (mstep s (MPush t c)).
Proof.
  intros (_ & _ & _ & _ & HM) Hp.
  destruct (mh_head s t _ rest HM Hp) as [Hnp _]. cbn [np_instr] in Hnp.
  apply (CInv_tstep s _ t _ rest [] _ _ (fun p => p) (view_push_mb s t c b e rest Hp));
    [|apply anc_mono_mstep|reflexivity|intros b0 xb _ _ H; exact H| |intros a xa _ _ _ []].
  - destruct (sysq_cases e) as [->|[-> H]]; [left; reflexivity|right; eexists; split; [reflexivity|exact H]].
  - intros e1 He Hk _. exfalso. apply kenv_pause_msg in Hk. unfold sysq in He. destruct (e_sys e); inversion He; subst. exact (Hnp Hk).
Qed.

Lemma CInv_push_any s t c sys tos sender m rest to :
  Jall s -> pend_of s t = IEnqAny sys tos sender m :: rest -> nth_error tos c = Some to -> CInv s -> CInv (mstep s (MPush t c)).
Proof.
  intros (((W & HLI & HR & HMK) & HK & HRC & HRS) & HX & HIRF & HW & HM) Hp Hn.
  pose proof (view_push_any s t c sys tos sender m rest to Hp Hn) as V. cbv zeta in V.
  set (e0 := {| e_sys := sys; e_sender := sender; e_msg := m |}) in *.
  set (tos' := firstn c tos ++ skipn (S c) tos) in *.
  destruct (mh_head s t _ rest HM Hp) as [Hnp _]. cbn [np_instr] in Hnp.
  pose proof (xi_pend s t _ rest HX Hp) as Hxi. cbn [xi_ok] in Hxi.
  apply (CInv_tstep s _ t _ rest _ _ _ (fun p => p) V);
    [|apply anc_mono_mstep|destruct tos'; reflexivity|intros b xb _ _ H; destruct tos'; exact H| |].
  - destruct (sysq_cases (snd (landing (fst (resolve s to)) e0))) as [->|[-> H]]; [left; reflexivity|right; eexists; split; [reflexivity|exact H]].
  - intros e He Hk _. exfalso. apply kenv_pause_msg in Hk. unfold sysq in He. destruct (fst (resolve s to)); cbn [landing snd] in He.
    + destruct sys; cbn in He; inversion He; subst e. exact (Hnp Hk).
    + destruct sys; cbn in He; inversion He; subst e. exact (Hnp Hk).
    + cbn in He. discriminate He.
  - intros a xa Hga Hne Hsc Hci. cbn [cinstr] in Hci. destruct sys; [|contradiction]. destruct Hci as (b & Hin & Hcm).
    assert (Hex : exists xb, get s b = Some xb) by (apply (cmsg_target_exists s a xa b m HR Hga Hcm); exact Hxi).
    destruct (In_remove_nth tos c (RObj b) to Hn Hin) as [<-|Hin'].
    + (* the chosen target is the covering one *)
      pose proof (resolve_target s (RObj b) b HW HR HRC eq_refl Hex) as Hmt.
      rewrite (landing_target _ b e0 Hmt) in *. cbn [fst snd] in *. change (sysq e0) with [e0] in *.
      apply (land_cover s _ t _ rest _ b e0 (fun p => p) a V (anc_mono_mstep s _) eq_refl Hex Hcm).
      intros _. destruct (cmsg_cases _ _ _ _ Hcm) as [E|[[k E]|[E|[c0 E]]]]; try (apply kenv_cover; eauto; fail).
      exfalso. exact (Hxi c0 E).
    + (* the covering target is still to be told *)
      left. left. exists t, (IEnqAny true tos' sender m). split.
      * rewrite (ts_pt _ _ _ _ _ _ _ _ _ V). fold tos' in Hin'. destruct tos' as [|r0 tl0]; [destruct Hin'|]. right. left. reflexivity.
      * cbn [cinstr]. exists b. split; [exact Hin'|eapply cmsg_mono; [apply anc_mono_mstep|exact Hcm]].
Qed.

Lemma In_move_done {A} (rem done : list A) ch to x :
  nth_error rem ch = Some to -> In x (rem ++ done) -> In x ((firstn ch rem ++ skipn (S ch) rem) ++ done ++ [to]).
Proof.
  intros Hn Hin. apply in_app_or in Hin. destruct Hin as [Hin|Hin].
  - destruct (In_remove_nth rem ch x to Hn Hin) as [->|H]; [apply in_or_app; right; apply in_or_app; right; left; reflexivity|apply in_or_app; left; exact H].
  - apply in_or_app. right. apply in_or_app. left. exact Hin.
Qed.

Lemma CInv_push_sup s t ch c d rem done rest to :
  Jall s -> pend_of s t = ISupPause c d rem done :: rest -> nth_error rem ch = Some to -> CInv s -> CInv (mstep s (MPush t ch)).
Proof.
  intros (((W & HLI & HR & HMK) & HK & HRC & HRS) & HX & HIRF & HW & HM) Hp Hn.
  pose proof (view_push_sup s t ch c d rem done rest to Hp Hn) as V. cbv zeta in V.
  set (e0 := {| e_sys := true; e_sender := RObj (self_of t); e_msg := MCmdPause |}) in *.
  pose proof (xi_pend s t _ rest HX Hp) as Hxi. cbn [xi_ok] in Hxi. destruct Hxi as [Hsup _].
  assert (Hcr : is_child_ref s (self_of t) to).
  { unfold sup_ok in Hsup. destruct c as [ch0 ts sub]. destruct Hsup as [(_ & Hts & _) _]. apply Hts. apply in_or_app. left. eapply nth_error_In; exact Hn. }
  destruct Hcr as (d0 & xd & -> & Hd0 & Hgd & _).
  pose proof (resolve_obj s d0 xd HW Hgd Hd0) as Hmb. rewrite Hmb in V. cbn [landing fst snd] in V. change (sysq e0) with [e0] in V.
  apply (CInv_tstep s _ t _ rest _ _ _ (fun p => p) V);
    [right; exists e0; split; reflexivity|apply anc_mono_mstep|reflexivity|intros b xb _ _ H; exact H| |].
  - intros e _ _ _. left. exists t, (ISupPause c d (firstn ch rem ++ skipn (S ch) rem) (done ++ [RObj d0])).
    split; [rewrite (ts_pt _ _ _ _ _ _ _ _ _ V); right; left; reflexivity|].
    cbn [cinstr]. left. apply in_or_app. right. apply in_or_app. right. left. reflexivity.
  - intros a xa Hga Hne Hsc Hci. left. left. exists t, (ISupPause c d (firstn ch rem ++ skipn (S ch) rem) (done ++ [RObj d0])).
    split; [rewrite (ts_pt _ _ _ _ _ _ _ _ _ V); right; left; reflexivity|].
    cbn [cinstr] in *. destruct Hci as [Hin|Hin]; [left; eapply In_move_done; eauto|right; exact Hin].
Qed.

Theorem CInv_thread s m t i rest pre s1 :
  Jall s -> pend_of s t = i :: rest -> tmove s t m i pre s1 -> mstep s m = set_pend s1 t (pre ++ rest) -> CInv s -> CInv (mstep s m).
Proof.
  intros HJ Hp T E.
  (* the steps that queue nothing and whose head covers nobody *)
  assert (Hq : forall pa, calm s s1 0 [] (self_of t) pa -> lf pre = [] -> (forall a, ~ cinstr s a (self_of t) i) ->
            (forall b xb, t = TA b -> get s b = Some xb ->
               need_after (map kinstr pre) (pa (a_paused xb) && is_running (a_state xb)) = true -> need_after [kinstr i] (eflag xb) = true) ->
            CInv s -> CInv (mstep s m)).
  { intros pa Hc Hlf Hnc Hown. rewrite E.
    apply (CInv_tstep s _ t i rest pre 0 [] pa (tstep_intro s s1 t i rest pre 0 [] pa Hp Hc));
      [left; reflexivity|rewrite <- E; apply anc_mono_mstep|exact Hlf|exact Hown|intros e H; discriminate H|intros a xa _ _ _ H; destruct (Hnc a H)]. }
  destruct T as [ | | |x Hg Hpa|x Hg Hpa|sys to sdr m0|c sys mb sdr m0|c b e|c sys tos sdr m0 to Hn|c cx d rem done to Hn].
  - apply (Hq (fun p => p) (calm_refl s 0 _) eq_refl); [intros a []|intros b xb _ _ H; exact H].
  - apply (Hq (fun p => p) (calm_refl s 0 _) eq_refl); [intros a []|intros b xb _ _ H; exact H].
  - apply (Hq (fun _ => true) (calm_paused s _ true 0) eq_refl); [intros a []|intros b xb _ _ _; reflexivity].
  - apply (Hq (fun _ => false) (calm_paused s _ false 0) eq_refl); [intros a []|intros b xb _ _ H; cbn in H; discriminate H].
  - apply (Hq (fun p => p) (calm_refl s 0 _) eq_refl); [intros a []|].
    intros b xb -> Hgb H. cbn [self_of] in Hg. assert (xb = x) by congruence; subst. cbn in H. rewrite Hpa in H. discriminate H.
  - apply (CInv_resolve s t sys to sdr m0 rest HJ Hp).
  - apply (CInv_push_enqr s t c sys mb sdr m0 rest HJ Hp).
  - apply (CInv_push_mb s t c b e rest HJ Hp).
  - apply (CInv_push_any s t c sys tos sdr m0 rest to HJ Hp Hn).
  - apply (CInv_push_sup s t c cx d rem done rest to HJ Hp Hn).
Qed.

Lemma CInv_set_mail s a0 x y :
  get s a0 = Some x -> a_pend y = a_pend x -> a_state y = a_state x -> a_zombie y = a_zombie x -> a_restarting y = a_restarting x ->
  a_paused y = a_paused x ->
  (forall f, need_after (map kenv (held y) ++ map kenv (a_sq y)) f = need_after (map kenv (held x) ++ map kenv (a_sq x)) f) ->
  (forall e, In e (held x ++ a_sq x) -> In e (held y ++ a_sq y)) ->
  (forall q c, anc s q c -> anc (set_actor s a0 y) q c) ->
  CInv s -> CInv (set_actor s a0 y).
Proof.
  intros Hg0 Hp Hst Hz Hr Hpa Hneed Hin Hanc HC a ya Hga Hne Hsc Hn.
  assert (Hx : exists xa, get s a = Some xa /\ inscope xa /\ need_after (pipeline xa) (eflag xa) = true).
  { destruct (Nat.eq_dec a0 a) as [<-|Hna].
    - rewrite (get_set_same' _ _ _ _ Hg0) in Hga. inversion Hga; subst ya. exists x. split; [exact Hg0|split].
      + destruct Hsc as [H1 H2]. split; [congruence|]. rewrite Hst, Hr, Hp in H2. exact H2.
      + unfold pipeline, eflag in *. rewrite Hp, Hpa, Hst in Hn. rewrite need_app in *. rewrite Hneed in Hn. exact Hn.
    - rewrite get_set_other in Hga by exact Hna. exists ya. auto. }
  destruct Hx as (xa & Hgx & Hscx & Hnx).
  destruct (HC a xa Hgx Hne Hscx Hnx) as [(t1 & i & Hi & Hci)|(q & xq & e & Hqa & Hgq & Hine & Hes & Hcm)].
  - left. exists t1, i. split; [rewrite (pend_of_set_actor_same s a0 x y t1 Hg0 Hp); exact Hi|eapply cinstr_mono; eauto].
  - right. destruct (Nat.eq_dec a0 q) as [<-|Hnq].
    + assert (xq = x) by congruence; subst xq. exists a0, y, e. split; [exact Hqa|split; [apply (get_set_same' _ _ _ _ Hg0)|split; [apply Hin; exact Hine|split; [exact Hes|eapply cmsg_mono; eauto]]]].
    + exists q, xq, e. split; [exact Hqa|split; [rewrite get_set_other by exact Hnq; exact Hgq|split; [exact Hine|split; [exact Hes|eapply cmsg_mono; eauto]]]].
Qed.

Lemma kenv_user e : e_sys e = false -> kenv e = KOther.
Proof. unfold kenv. intros ->. reflexivity. Qed.

Theorem CInv_pop s m a x sq' uq' co' :
  Jall s -> get s a = Some x -> mstep s m = set_actor s a (set_mb x sq' uq' (a_paused x) co' (a_cur x)) -> pop_rel x sq' uq' co' ->
  CInv s -> CInv (mstep s m).
Proof.
  intros (_ & _ & _ & _ & HM) Hg E [_ Hrel] HC. pose proof (anc_mono_mstep s m) as Hanc. rewrite E in *.
  apply (CInv_set_mail s a x _ Hg); try reflexivity; try assumption.
  - intros f. unfold held at 1. cbn [set_mb a_cons a_sq]. destruct Hrel as [[Hr _]|(e & Hine & Hh & -> & ->)].
    + rewrite <- !map_app, Hr. reflexivity.
    + rewrite Hh. cbn [map app need_after fold_left].
      destruct HM as [M1 _]. destruct (M1 _ _ Hg) as (A & _). rewrite Hine in A. inversion A as [|? ? [Hes _] _]; subst.
      rewrite (kenv_user e Hes). reflexivity.
  - intros e Hin. unfold held at 1. cbn [set_mb a_cons a_sq]. destruct Hrel as [[Hr _]|(e1 & Hine & Hh & -> & ->)].
    + rewrite Hr. exact Hin.
    + rewrite Hh in *. right. exact Hin.
Qed.

Definition scope0 (x : actor) : Prop := a_state x = Running \/ (a_restarting x <> None /\ a_state x = Killing).

Lemma dispatch_own s a x e :
  get s a = Some x -> a_zombie x = false -> (e_sys e = false -> e_msg e <> MCmdPause) ->
  forall y, get (fst (dispatch s a x e)) a = Some y ->
  scope0 y ->
  scope0 x /\ (need_after (map kinstr (snd (dispatch s a x e))) (eflag y) = true -> knext (eflag x) (kenv e) = true).
Proof.
  intros Hg Hz Hnp y Hy Hsc.
  assert (Hl : a < length (actors s)) by (eapply nth_error_lt; exact Hg).
  assert (Hget : forall y0, get (set_actor s a y0) a = Some y -> y = y0).
  { intros y0 H. rewrite (get_set_same _ _ _ Hl) in H. congruence. }
  assert (Hkc : forall f, need_after (map kinstr (kill_children a x)) f = f) by (intros f; unfold kill_children; destruct (a_children x); reflexivity).
  unfold kenv, scope0, eflag in *.
  destruct (dispatch_cases s a x e) as [| |r _ []]; cbn [fst snd] in *;
    first [apply Hget in Hy|assert (y = x) by (change (get s a = Some y) in Hy; congruence)]; subst y;
    cbn [a_state a_restarting a_paused with_cur set_mb set_state set_restarting set_decisions set_watchers upd_local] in *.
  all: try rewrite Em in *.
  all: destruct (e_sys e) eqn:Es; try (exfalso; apply (Hnp eq_refl); reflexivity).
  all: try destruct poison.
  all: destruct (a_state x) eqn:Est; try congruence.
  all: try (unfold is_dead in Hd; rewrite Est, ?Es in Hd; cbn in Hd; try discriminate Hd).
  all: unfold dead_report; cbn [map kinstr app need_after fold_left knext negb andb is_running] in *; rewrite ?map_app, ?need_app, ?Hkc in *; cbn [map kinstr app need_after fold_left knext negb andb is_running] in *.
  all: try (destruct Hsc as [Hsc|[_ Hsc]]; discriminate Hsc).
  all: try discriminate.
  all: (split; [first [left; reflexivity|right; split; [apply Hsc|reflexivity]|assumption|idtac]|intros Hn]).
  all: try discriminate Hn.
  all: try (rewrite andb_false_r in Hn; discriminate Hn).
  all: try first [reflexivity|assumption].
  all: exfalso; destruct Hsc as [Hsc|[Hsc _]]; [discriminate Hsc|apply Hsc; reflexivity].
Qed.

Lemma dispatch_kill_cover s s' q x e a :
  ((exists k, e_msg e = MKill k false) \/ e_msg e = MRestart false) -> e_sys e = true -> a_zombie x = false -> a_state x <> Killed ->
  anc s' q a -> q <> a -> (exists c, In (RObj c) (map (fun p => RObj (snd p)) (a_children x)) /\ anc s' c a) ->
  exists i, In i (snd (dispatch s q x e)) /\ cinstr s' a q i.
Proof.
  intros Hm Hs Hz Hst Hanc Hne (c & Hin & Hca).
  assert (Hch : a_children x <> []) by (intros E; rewrite E in Hin; destruct Hin).
  unfold dispatch. rewrite Hz, Hs. cbn [negb andb]. rewrite ?andb_false_r.
  destruct Hm as [[k Em]|Em]; rewrite Em; destruct (a_state x) eqn:Est; try congruence; cbn [fst snd].
  - exists (IDoKill false). split; [left; reflexivity|]. cbn [cinstr]. auto.
  - destruct (a_children x) as [|p l] eqn:Ec; [congruence|]. cbn [app].
    eexists. split; [left; reflexivity|]. cbn [cinstr]. exists c. split; [exact Hin|exact Hca].
  - exists (IDoKill false). split; [right; left; reflexivity|]. cbn [cinstr]. auto.
  - destruct (a_children x) as [|p l] eqn:Ec; [congruence|]. cbn [app].
    eexists. split; [right; left; reflexivity|]. cbn [cinstr]. exists c. split; [exact Hin|exact Hca].
Qed.

Lemma dispatch_sup_ins s q x e c :
  e_msg e = MSup c -> e_sys e = true -> (a_state x = Killed -> a_zombie x = true) ->
  exists d, snd (dispatch s q x e) =
    [ISupPause c d (match sp_strategy (a_spec x) with 2%N => map (fun p => RObj (snd p)) (a_children x) | _ => match c with SupCtx ch _ _ => [ch] end end) [];
     IEndHandler].
Proof.
  intros Em Hs Hk. unfold dispatch. rewrite Hs, Em. cbn [negb andb].
  assert (Hd : (match a_state x with Killed => true | Running => false | Killing => false end && negb (a_zombie x)) = false).
  { destruct (a_state x); try reflexivity. rewrite (Hk eq_refl). reflexivity. }
  rewrite Hd.
  destruct (sp_strategy (a_spec x)) as [|[p|p|]] eqn:Est; cbn [fst snd].
  all: try (destruct (a_decisions x); eexists; reflexivity).
  all: try (eexists; reflexivity).
  all: destruct p; try (destruct (a_decisions x); eexists; reflexivity).
Qed.

Lemma child_on_path s q a xa :
  LI s -> RInv s -> KInv s -> get s a = Some xa -> a <> 0 -> regd s a xa -> anc s q a -> q <> a ->
  exists xq, get s q = Some xq /\ a_state xq <> Killed /\ a_zombie xq = false /\
             exists c, In (RObj c) (map (fun p => RObj (snd p)) (a_children xq)) /\ anc s c a.
Proof.
  intros HLI HR HK Hg Hne Hreg Hanc Hqa.
  destruct (anc_alive s q a xa HLI HR HK Hg Hne Hreg Hanc Hqa) as (xq & c & xc & Hgq & Hst & Hz & _ & Hgc & Hpc & Hlk & _ & _ & Hca).
  exists xq. split; [exact Hgq|split; [exact Hst|split; [exact Hz|]]]. exists c. split; [|exact Hca].
  destruct (alookup_In _ _ _ Hlk) as (p & Hin & _). apply in_map_iff. exists (p, c). split; [reflexivity|exact Hin].
Qed.

(* the reporting child is registered, so its parent q is alive *)
Lemma msup_parent_alive s q xq a xa ch sub :
  LI s -> RInv s -> KInv s -> get s q = Some xq -> get s a = Some xa -> a <> 0 -> regd s a xa ->
  is_child_ref s q ch -> ctx_sub_ok s (SupCtx ch [] sub) -> covers_ctx a (SupCtx ch [] sub) ->
  a_state xq <> Killed /\ (ch = RObj a -> In (RObj a) (map (fun p => RObj (snd p)) (a_children xq))).
Proof.
  intros HLI HR HK Hgq Hga Hne Hreg (b & xb & -> & Hb0 & Hgb & Hpb) Hsub Hcm. cbn [covers_ctx chain_targets app] in Hcm.
  assert (Hrb : regd s b xb).
  { destruct Hcm as [E1|Hin]; [inversion E1; subst b; assert (xb = xa) by congruence; subst; exact Hreg|].
    destruct sub as [c1|]; [|destruct Hin]. cbn [ctx_sub_ok] in Hsub. destruct Hsub as [(b' & E2 & Hl1) Hs1]. inversion E2; subst b'.
    destruct (chain_anc s a xa HLI HR HK Hga Hne Hreg c1 b Hl1 Hs1 Hin) as [Hba Hbn].
    destruct (anc_alive s b a xa HLI HR HK Hga Hne Hreg Hba Hbn) as (xb' & _ & _ & Hgb' & _ & _ & Hr & _).
    assert (xb' = xb) by congruence; subst. apply Hr. exact Hb0. }
  assert (Hp : a_parent xb = Some q).
  { destruct Hpb as [Hp|(xc & Hxc & Hnr)]; [exact Hp|exfalso; assert (xc = xb) by congruence; subst; exact (Hnr Hrb)]. }
  destruct (parent_alive s b xb HLI HR HK Hgb Hb0 Hrb) as (q' & xq' & Hq & _ & Hgq' & Hlk & Hstq & _).
  assert (q' = q) by congruence; subst q'. assert (xq' = xq) by congruence; subst xq'. split; [exact Hstq|].
  intros E1. inversion E1; subst b. assert (xb = xa) by congruence; subst xb.
  destruct (alookup_In _ _ _ Hlk) as (p & Hin & _). apply in_map_iff. exists (p, a). split; [reflexivity|exact Hin].
Qed.

Definition nsp (e : envelope) : Prop := e_sys e = false -> e_msg e <> MCmdPause.
Definition NS2 (s : state) : Prop := forall a x, get s a = Some x -> Forall nsp (held x) /\ Forall nsp (a_sq x).

Theorem CInv_handle s a0 x e :
  Jall s -> NS2 s -> get s a0 = Some x -> a_cons x = CH e -> CInv s -> CInv (mstep s (MHandle a0)).
Proof.
  intros (((W & HLI & HR & HMK) & HK & HRC & HRS) & HX & HIRF & HW & HM) HNS Hg Hc HC.
  destruct (mstep_handle s a0 x e Hg Hc) as (y & Hdf & Hy & Ha & Hex & _). cbv zeta in *.
  assert (Hpx : a_pend x = []).
  { destruct W as [HA _]. apply pend_shape_idle; [eapply Forall_nth; eauto|]. intros md E; congruence. }
  set (s' := mstep s (MHandle a0)) in *.
  set (s0 := set_actor s a0 (busy x)) in *.
  set (ins := snd (dispatch s0 a0 (busy x) e)) in *.
  assert (Hl : a0 < length (actors s)) by (eapply nth_error_lt; exact Hg).
  assert (Hg0 : get s0 a0 = Some (busy x)) by (apply get_set_same; exact Hl).
  assert (Hg' : get s' a0 = Some (upd_pend y ins)) by (unfold get; rewrite Ha; apply nth_upd_eq; exact Hl).
  assert (Hgo : forall b, b <> a0 -> get s' b = get s b) by (intros b Hb; unfold get; rewrite Ha; apply nth_upd_neq; congruence).
  assert (Hpo : forall t, t <> TA a0 -> pend_of s' t = pend_of s t).
  { intros [b|j] Hne; cbn [pend_of]; [rewrite Hgo by congruence; reflexivity|rewrite Hex; reflexivity]. }
  assert (Hpa0 : pend_of s (TA a0) = []) by (rewrite (pend_of_TA _ _ _ Hg); exact Hpx).
  assert (Hpa0' : pend_of s' (TA a0) = ins) by (rewrite (pend_of_TA _ _ _ Hg'); reflexivity).
  pose proof (anc_mono_mstep s (MHandle a0)) as Hanc. fold s' in Hanc.
  assert (Hheld : held x = [e]) by (unfold held; rewrite Hc; reflexivity).
  assert (Hheldy : held y = []) by (unfold held; rewrite (df_cons _ _ Hdf); reflexivity).
  (* covers survive unless they are the handled envelope *)
  assert (Hpersist : forall a, a <> a0 -> cov s a ->
            (e_sys e = true -> cmsg s a a0 (e_msg e) -> cov s' a) -> cov s' a).
  { intros a Hna [(t1 & i & Hi & Hci)|(q & xq & e1 & Hqa & Hgq & Hine & Hes & Hcm)] Hcons.
    - destruct (tid_dec t1 (TA a0)) as [->|Hnt]; [rewrite Hpa0 in Hi; destruct Hi|].
      left. exists t1, i. split; [rewrite (Hpo t1 Hnt); exact Hi|eapply cinstr_mono; eauto].
    - destruct (Nat.eq_dec q a0) as [->|Hnq].
      + assert (xq = x) by congruence; subst xq. rewrite Hheld in Hine. destruct Hine as [<-|Hine].
        * apply (Hcons Hes Hcm).
        * right. exists a0, (upd_pend y ins), e1. split; [exact Hqa|split; [exact Hg'|split; [|split; [exact Hes|eapply cmsg_mono; eauto]]]].
          change (held (upd_pend y ins)) with (held y). rewrite Hheldy. cbn [app upd_pend a_sq]. rewrite (df_sq _ _ Hdf). exact Hine.
      + right. exists q, xq, e1. split; [exact Hqa|split; [rewrite Hgo by exact Hnq; exact Hgq|split; [exact Hine|split; [exact Hes|eapply cmsg_mono; eauto]]]]. }
  intros a ya Hga Hne Hsc Hn.
  destruct (Nat.eq_dec a a0) as [->|Hna].
  - assert (ya = upd_pend y ins) by congruence; subst ya.
    destruct Hsc as [Hz Hs]. cbn [upd_pend a_zombie a_state a_restarting a_pend] in Hz, Hs.
    assert (Hzx : a_zombie x = false) by (rewrite (df_zombie _ _ Hdf) in Hz; exact Hz).
    pose proof (HLI _ _ Hg) as (L1 & _).
    destruct (dispatch_life s0 a0 (busy x) e Hg0 L1) as (y2 & Hy2 & _ & _ & _ & _ & _ & Hlf). fold ins in Hlf.
    assert (Hsc0 : scope0 y).
    { destruct Hs as [E|[Hr [E|E]]]; [left; exact E|right; split; assumption|].
      exfalso. destruct Hlf as [E1|[[p E1]|[w E1]]]; rewrite E1 in E; cbn in E; intuition discriminate. }
    assert (Hnsp : e_sys e = false -> e_msg e <> MCmdPause).
    { destruct (HNS _ _ Hg) as [Hh _]. rewrite Hheld in Hh. inversion Hh; assumption. }
    destruct (dispatch_own s0 a0 (busy x) e Hg0 Hzx Hnsp y Hy Hsc0) as [Hscx Hneedrel]. fold ins in Hneedrel.
    assert (Hscx' : inscope x).
    { split; [exact Hzx|]. destruct Hscx as [E|[Hr E]]; [left; exact E|right; split; [exact Hr|left; exact E]]. }
    assert (Hnx : need_after (pipeline x) (eflag x) = true).
    { unfold pipeline in *. cbn [upd_pend a_pend a_sq] in Hn. change (held (upd_pend y ins)) with (held y) in Hn.
      rewrite Hheldy, (df_sq _ _ Hdf) in Hn. cbn [map app] in Hn. rewrite need_app in Hn.
      rewrite Hpx, Hheld. cbn [map app]. change (need_after (kenv e :: map kenv (a_sq x)) (eflag x)) with (need_after (map kenv (a_sq x)) (knext (eflag x) (kenv e))).
      eapply need_mono; [|exact Hn]. exact Hneedrel. }
    pose proof (HC a0 x Hg Hne Hscx' Hnx) as Hcov.
    (* a cover of a0 is never in a0's own hands *)
    destruct Hcov as [(t1 & i & Hi & Hci)|(q & xq & e1 & Hqa & Hgq & Hine & Hes & Hcm)].
    + destruct (tid_dec t1 (TA a0)) as [->|Hnt]; [rewrite Hpa0 in Hi; destruct Hi|].
      left. exists t1, i. split; [rewrite (Hpo t1 Hnt); exact Hi|eapply cinstr_mono; eauto].
    + right. exists q, xq, e1. split; [exact Hqa|split; [rewrite Hgo by exact Hqa; exact Hgq|split; [exact Hine|split; [exact Hes|eapply cmsg_mono; eauto]]]].
  - rewrite Hgo in Hga by exact Hna.
    pose proof (HC a ya Hga Hne Hsc Hn) as Hcov.
    apply (Hpersist a Hna Hcov).
    intros Hes Hcm.
    pose proof (inscope_regd s a ya HR Hga Hne Hsc) as Hreg.
    left. exists (TA a0). rewrite Hpa0'. cbn [self_of].
    destruct (cmsg_cases _ _ _ _ Hcm) as [E|[[k E]|[E|[c0 E]]]].
    + exfalso. rewrite E in Hcm. cbn in Hcm. congruence.
    + rewrite E in Hcm. cbn [cmsg] in Hcm.
      destruct (child_on_path s a0 a ya HLI HR HK Hga Hne Hreg Hcm ltac:(congruence)) as (xq & Hgq & Hst & Hz & c & Hin & Hca).
      assert (xq = x) by congruence; subst xq.
      refine (dispatch_kill_cover s0 s' a0 (busy x) e a (or_introl (ex_intro _ k E)) Hes Hz Hst (Hanc _ _ Hcm) _ _); [congruence|exists c; split; [exact Hin|apply Hanc; exact Hca]].
    + rewrite E in Hcm. cbn [cmsg] in Hcm.
      destruct (child_on_path s a0 a ya HLI HR HK Hga Hne Hreg Hcm ltac:(congruence)) as (xq & Hgq & Hst & Hz & c & Hin & Hca).
      assert (xq = x) by congruence; subst xq.
      refine (dispatch_kill_cover s0 s' a0 (busy x) e a (or_intror E) Hes Hz Hst (Hanc _ _ Hcm) _ _); [congruence|exists c; split; [exact Hin|apply Hanc; exact Hca]].
    + rewrite E in Hcm. cbn [cmsg] in Hcm.
      assert (Hxe : xe_ok s a0 e).
      { destruct HX as [X1 _]. destruct (X1 _ _ Hg) as [Hen _]. rewrite Forall_forall in Hen. apply Hen.
        unfold envs. rewrite Hheld. apply in_or_app. right. apply in_or_app. right. left. reflexivity. }
      destruct (Hxe c0 E) as [Hat Hsub]. destruct c0 as [ch ts sub]. destruct Hat as [-> Hch]. cbn [covers_ctx chain_targets app] in Hcm.
      destruct (msup_parent_alive s a0 x a ya ch sub HLI HR HK Hg Hga Hne Hreg Hch Hsub Hcm) as [Hstx Hkid].
      destruct (dispatch_sup_ins s0 a0 (busy x) e (SupCtx ch [] sub) E Hes ltac:(intros Hk; exfalso; exact (Hstx Hk))) as [d Hins].
      fold ins in Hins. rewrite Hins. eexists. split; [left; reflexivity|]. cbn [cinstr sub_targets]. rewrite app_nil_r.
      destruct Hcm as [E1|Hin]; [left|right; exact Hin].
      cbn [busy set_mb a_spec a_children]. destruct (sp_strategy (a_spec x)) as [|[p|p|]]; cbv beta iota; try (left; exact E1).
      destruct p; cbv beta iota; try (left; exact E1). apply Hkid. exact E1.
Qed.

Lemma need_new p g par sp : need_after (pipeline (new_actor p g par sp)) (eflag (new_actor p g par sp)) = false.
Proof. reflexivity. Qed.

Lemma self_of_TA t a : a = self_of t -> a <> 0 -> t = TA a.
Proof. destruct t; cbn; intros; subst; congruence. Qed.

Lemma astep_front s t i rest x :
  get s (self_of t) = Some x -> pend_of s t = i :: rest -> err (astep s t i rest) = false ->
  pend_of (astep s t i rest) t = snd (exec1 (set_pend s t rest) t (held_of (set_pend s t rest) t) i) ++ rest.
Proof.
  intros Hg Hp He.
  unfold astep in *. destruct (exec1 (set_pend s t rest) t (held_of (set_pend s t rest) t) i) as [s1 front] eqn:E.
  rewrite (pend_of_set_pend_ok _ _ _ He). cbn [snd]. f_equal.
  destruct t as [a|j]; cbn [self_of] in *.
  - assert (Hg0 : get (set_pend s (TA a) rest) a = Some (upd_pend x rest)).
    { rewrite (set_pend_TA _ _ _ _ Hg). apply (get_set_same' _ _ _ _ Hg). }
    destruct (exec1_actors (set_pend s (TA a) rest) (TA a) (held_of (set_pend s (TA a) rest) (TA a)) i _ Hg0) as (y & news & Hy & _ & Ha).
    rewrite E in Ha. cbn [fst self_of] in Ha. cbn [pend_of]. unfold get. rewrite Ha.
    assert (Hl : a < length (actors (set_pend s (TA a) rest))) by (eapply nth_error_lt; exact Hg0).
    rewrite nth_error_app1 by (rewrite upd_length; exact Hl). rewrite nth_upd_eq by exact Hl. rewrite (lu_pend _ _ _ Hy). reflexivity.
  - pose proof (exec1_exts_pend (set_pend s (TX j) rest) (TX j) (held_of (set_pend s (TX j) rest) (TX j)) i) as Hm. rewrite E in Hm. cbn [fst] in Hm.
    destruct (pend_of_TX_cons _ _ _ _ Hp) as (ex & Hn & Hpx).
    apply (f_equal (fun l => nth_error l j)) in Hm. rewrite !nth_error_map in Hm.
    cbn [set_pend] in Hm. rewrite Hn in Hm. cbn [set_ext exts] in Hm. rewrite nth_upd_eq in Hm by (eapply nth_error_lt; exact Hn). cbn in Hm.
    cbn [pend_of]. destruct (nth_error (exts s1) j) as [e1|]; [|discriminate Hm]. cbn in Hm. inversion Hm. reflexivity.
Qed.

Section AStep.
  Variables (s : state) (t : tid) (i : instr) (rest : list instr) (x : actor).
  Hypothesis W : wf s.
  Hypothesis Hg : get s (self_of t) = Some x.
  Hypothesis Hp : pend_of s t = i :: rest.
  Let s' := astep s t i rest.
  Hypothesis He : err s' = false.
  Hypothesis Hanc : forall q c, anc s q c -> anc s' q c.
  Hypothesis Oown : forall a ya, t = TA a -> a <> 0 -> get s' a = Some ya -> inscope ya -> need_after (pipeline ya) (eflag ya) = true ->
    (inscope x /\ need_after (pipeline x) (eflag x) = true) \/ cov s' a.
  Hypothesis Ocons : forall a xa, get s a = Some xa -> a <> 0 -> inscope xa -> cinstr s a (self_of t) i -> cov s' a.

  Lemma astep_pend_self : exists front, pend_of s' t = front ++ rest.
  Proof. eexists. apply (astep_front s t i rest x Hg Hp He). Qed.

  Lemma astep_pend_other t' : t' <> t -> pend_of s' t' = pend_of s t'.
  Proof.
    intros Hne. destruct t' as [b|k]; cbn [pend_of].
    - destruct (Nat.eq_dec b (self_of t)) as [->|Hb].
      + (* the root, when an external caller runs *)
        destruct t as [a|j]; cbn [self_of] in *; [congruence|].
        destruct (astep_table s (TX j) i rest x Hg Hp) as (_ & y & news & Hy & _ & _ & Ha & _). cbv zeta in Ha. cbn [self_of pushed] in Ha.
        fold s' in Ha. unfold get at 1. rewrite Ha. rewrite nth_error_app1 by (rewrite upd_length; eapply nth_error_lt; exact Hg).
        rewrite nth_upd_eq by (eapply nth_error_lt; exact Hg). rewrite Hg. rewrite (lu_pend _ _ _ Hy). reflexivity.
      + destruct (Nat.lt_ge_cases b (length (actors s))) as [Hlt|Hge].
        * unfold s'. rewrite (astep_other s t i rest x b Hg Hp Hb Hlt). reflexivity.
        * assert (E0 : get s b = None) by (apply nth_error_None; exact Hge). rewrite E0.
          destruct (get s' b) as [yb|] eqn:E1; [|reflexivity].
          destruct (astep_table s t i rest x Hg Hp) as (_ & y & news & _ & Hnews & _ & Ha & _). cbv zeta in Ha. fold s' in Ha.
          unfold get in E1. rewrite Ha in E1. rewrite nth_error_app2 in E1 by (rewrite upd_length; exact Hge). apply nth_error_In in E1.
          rewrite Forall_forall in Hnews. destruct (Hnews _ E1) as (p & g & par & sp & ->). reflexivity.
    - destruct (nth_error (exts s') k) as [exk|] eqn:Ek.
      + destruct (astep_exts s t i rest k exk Ek) as [[-> _]|(exo & Ho & E)]; [congruence|]. rewrite Ho. exact E.
      + (* the table of external callers keeps its length *)
        destruct (nth_error (exts s) k) as [exo|] eqn:Eo; [|reflexivity]. exfalso.
        pose proof (exec1_exts_pend (set_pend s t rest) t (held_of (set_pend s t rest) t) i) as Hm.
        unfold s', astep in Ek. destruct (exec1 (set_pend s t rest) t (held_of (set_pend s t rest) t) i) as [s1 front]. cbn [fst] in Hm.
        assert (L1 : length (exts s1) = length (exts (set_pend s t rest))) by (apply (f_equal (@length _)) in Hm; rewrite !map_length in Hm; exact Hm).
        assert (L0 : length (exts (set_pend s t rest)) = length (exts s)).
        { destruct t as [a|j]; cbn [set_pend].
          - destruct (with_actor_fields s a (fun x0 => upd_pend x0 rest)) as (_ & _ & _ & _ & E & _). rewrite E. reflexivity.
          - destruct (nth_error (exts s) j); [cbn; apply upd_length|reflexivity]. }
        assert (L2 : length (exts (set_pend s1 t (front ++ pend_of s1 t))) = length (exts s1)).
        { destruct t as [a|j]; cbn [set_pend].
          - destruct (with_actor_fields s1 a (fun x0 => upd_pend x0 (front ++ pend_of s1 (TA a)))) as (_ & _ & _ & _ & E & _). rewrite E. reflexivity.
          - destruct (nth_error (exts s1) j); [cbn; apply upd_length|reflexivity]. }
        apply nth_error_None in Ek. assert (k < length (exts s)) by (eapply nth_error_lt; exact Eo). lia.
  Qed.

  Lemma astep_self_mail : exists ys, get s' (self_of t) = Some ys /\ (forall e, In e (held x ++ a_sq x) -> In e (held ys ++ a_sq ys)).
  Proof.
    destruct (astep_table s t i rest x Hg Hp) as (_ & y & news & Hy & _ & _ & Ha & _). cbv zeta in Ha. fold s' in Ha.
    assert (Hl : self_of t < length (actors s)) by (eapply nth_error_lt; exact Hg).
    exists (pushed t y (snd (exec1 (set_pend s t rest) t (held_of (set_pend s t rest) t) i) ++ rest)).
    split; [unfold get; rewrite Ha; rewrite nth_error_app1 by (rewrite upd_length; exact Hl); apply nth_upd_eq; exact Hl|].
    intros e Hin. apply in_app_or in Hin. apply in_or_app.
    assert (Hsq : a_sq (pushed t y (snd (exec1 (set_pend s t rest) t (held_of (set_pend s t rest) t) i) ++ rest)) = a_sq x).
    { destruct t; cbn [pushed popped upd_pend a_sq] in *; rewrite (lu_sq _ _ _ Hy); reflexivity. }
    rewrite Hsq. destruct Hin as [Hin|Hin]; [|right; exact Hin]. left.
    destruct t as [a|j]; cbn [self_of pushed popped] in *.
    - (* an actor's handler runs with nothing in hand *)
      exfalso. destruct (pend_of_TA_cons _ _ _ _ Hp) as (x1 & Hg1 & Hpx). assert (x1 = x) by congruence; subst x1.
      destruct W as [HA _]. pose proof (Forall_nth _ _ _ _ HA Hg) as [E|(md & l & Hc & _)]; [congruence|].
      unfold held in Hin. rewrite Hc in Hin. destruct Hin.
    - destruct (pend_of_TX_cons _ _ _ _ Hp) as (ex & Hn & Hpx). destruct W as [_ HXw].
      pose proof (Forall_nth _ _ _ _ HXw Hn) as Hok. cbv beta in Hok. rewrite Hpx in Hok. cbn [forallb] in Hok. apply andb_true_iff in Hok. destruct Hok as [Hi _].
      unfold held in *. destruct (lu_cons _ _ _ Hy) as [E|[[E _]|[E _]]]; [rewrite E; exact Hin|subst i; discriminate Hi|subst i; discriminate Hi].
  Qed.

  Lemma astep_persist a xa : get s a = Some xa -> a <> 0 -> inscope xa -> cov s a -> cov s' a.
  Proof.
    intros Hga Hne Hsc [(t1 & i1 & Hi & Hci)|(q & xq & e & Hqa & Hgq & Hine & Hes & Hcm)].
    - destruct (tid_dec t1 t) as [->|Hnt].
      + rewrite Hp in Hi. destruct Hi as [<-|Hi]; [apply (Ocons a xa Hga Hne Hsc Hci)|].
        destruct astep_pend_self as [front Hf]. left. exists t, i1. split; [rewrite Hf; apply in_or_app; right; exact Hi|eapply cinstr_mono; eauto].
      + left. exists t1, i1. split; [rewrite (astep_pend_other t1 Hnt); exact Hi|eapply cinstr_mono; eauto].
    - right. destruct (Nat.eq_dec q (self_of t)) as [->|Hnq].
      + destruct astep_self_mail as (ys & Hys & Hin). assert (xq = x) by congruence; subst xq.
        exists (self_of t), ys, e. split; [exact Hqa|split; [exact Hys|split; [apply Hin; exact Hine|split; [exact Hes|eapply cmsg_mono; eauto]]]].
      + exists q, xq, e. split; [exact Hqa|split; [|split; [exact Hine|split; [exact Hes|eapply cmsg_mono; eauto]]]].
        unfold s'. rewrite (astep_other s t i rest x q Hg Hp Hnq (nth_error_lt _ _ _ Hgq)). exact Hgq.
  Qed.

  Theorem CInv_astep_gen : CInv s -> CInv s'.
  Proof.
    intros HC a ya Hga Hne Hsc Hn.
    destruct (Nat.lt_ge_cases a (length (actors s))) as [Hlt|Hge].
    - destruct (Nat.eq_dec a (self_of t)) as [Eas|Hns].
      + pose proof (self_of_TA t a Eas Hne) as Et.
        destruct (Oown a ya Et Hne Hga Hsc Hn) as [[Hscx Hnx]|Hc]; [|exact Hc].
        pose proof Hg as Hg2. rewrite <- Eas in Hg2. apply (astep_persist a x Hg2 Hne Hscx). apply (HC a x Hg2 Hne Hscx Hnx).
      + unfold s' in Hga. rewrite (astep_other s t i rest x a Hg Hp Hns Hlt) in Hga.
        apply (astep_persist a ya Hga Hne Hsc). apply (HC a ya Hga Hne Hsc Hn).
    - exfalso. destruct (astep_table s t i rest x Hg Hp) as (_ & y & news & _ & Hnews & _ & Ha & _). cbv zeta in Ha. fold s' in Ha.
      unfold get in Hga. rewrite Ha in Hga. rewrite nth_error_app2 in Hga by (rewrite upd_length; exact Hge). apply nth_error_In in Hga.
      rewrite Forall_forall in Hnews. destruct (Hnews _ Hga) as (p & g & par & sp & ->). rewrite need_new in Hn. discriminate Hn.
  Qed.
End AStep.

Lemma astep_self_get s t i rest x : get s (self_of t) = Some x -> pend_of s t = i :: rest -> get (set_pend s t rest) (self_of t) = Some (popped t x rest).
Proof. intros Hg Hp. apply (astep_table s t i rest x Hg Hp). Qed.

Lemma ref_target_parent x : exists p, ref_target (rref_parent x) = Some p.
Proof. unfold rref_parent. destruct (a_parent x); cbn; eauto. Qed.

Lemma astep_cons s t i rest x :
  Jall s -> get s (self_of t) = Some x -> pend_of s t = i :: rest -> yielding i = false -> is_enq i = false ->
  err (astep s t i rest) = false ->
  forall a xa, get s a = Some xa -> a <> 0 -> inscope xa -> cinstr s a (self_of t) i -> cov (astep s t i rest) a.
Proof.
  intros (((W & HLI & HR & HMK) & HK & HRC & HRS) & HX & HIRF & HW & HM) Hg Hp Hy Hq He a xa Hga Hne Hsc Hci.
  pose proof (astep_front s t i rest x Hg Hp He) as Hf. pose proof (astep_self_get s t i rest x Hg Hp) as Hg0.
  pose proof (anc_mstep s (MAtomic t)) as Hanc. rewrite (mstep_atomic_exec s t i rest Hp Hy Hq) in Hanc.
  set (s' := astep s t i rest) in *. set (s0 := set_pend s t rest) in *.
  pose proof (inscope_regd s a xa HR Hga Hne Hsc) as Hreg.
  assert (Hwit : forall i1, In i1 (snd (exec1 s0 t (held_of s0 t) i)) -> cinstr s' a (self_of t) i1 -> cov s' a).
  { intros i1 Hin Hc. left. exists t, i1. split; [rewrite Hf; apply in_or_app; left; exact Hin|exact Hc]. }
  pose proof (xi_pend s t i rest HX Hp) as Hxi.
  destruct i; cbn [cinstr] in Hci; try contradiction; try discriminate Hy; try discriminate Hq.
  - (* the pause loop has finished *)
    destruct remaining; [|discriminate Hy].
    apply (Hwit (ISupApply c d done)); [unfold exec1; rewrite Hg0; left; reflexivity|]. cbn [cinstr]. exact Hci.
  - (* stop / restart of an ancestor: its children are told next *)
    destruct poison; [contradiction|]. destruct Hci as [Hsa Hsn].
    destruct (child_on_path s (self_of t) a xa HLI HR HK Hga Hne Hreg Hsa Hsn) as (xq & Hgq & _ & _ & c & Hin & Hca).
    assert (xq = x) by congruence; subst xq.
    assert (Hch : a_children (popped t x rest) = a_children x) by (destruct t; reflexivity).
    destruct (a_children x) as [|p l] eqn:Ec; [destruct Hin|].
    apply (Hwit (IEnqAny true (map (fun p0 => RObj (snd p0)) (p :: l)) (RObj (self_of t)) (MKill (RObj (self_of t)) false))).
    + unfold exec1. rewrite Hg0, Hch. left. reflexivity.
    + cbn [cinstr]. exists c. split; [exact Hin|cbn [cmsg]; apply Hanc; exact Hca].
  - cbn [xi_ok] in Hxi. destruct Hxi as [Hsup Hroot]. destruct c as [ch ts sub]. destruct Hsup as [(Hch & Hts & Hchin) Hsub]. cbn [sub_targets] in Hci.
    set (c1 := SupCtx ch targets sub).
    assert (Htop : (exists b, In (RObj b) targets /\ anc s b a) /\ In (RObj a) (chain_targets c1)).
    { destruct Hci as [Hin|Hin].
      - split; [exists a; split; [exact Hin|apply anc_refl]|cbn [c1 chain_targets]; apply in_or_app; left; exact Hin].
      - destruct sub as [c2|]; [|destruct Hin]. cbn [ctx_sub_ok] in Hsub. destruct Hsub as [(b & -> & Hl2) Hs2].
        destruct (chain_anc s a xa HLI HR HK Hga Hne Hreg c2 b Hl2 Hs2 Hin) as [Hba Hbn].
        split; [|cbn [c1 chain_targets]; apply in_or_app; right; exact Hin].
        exists b. split; [|exact Hba]. destruct Hchin as [H|(d0 & E & Hd0 & (xd & Hxd & Hnr))]; [exact H|]. inversion E; subst d0.
        exfalso. destruct (anc_alive s b a xa HLI HR HK Hga Hne Hreg Hba Hbn) as (xb & _ & _ & Hgb & _ & _ & Hr & _).
        assert (xd = xb) by congruence; subst. exact (Hnr (Hr Hd0)). }
    destruct Htop as [(b & Hbin & Hba) Hchain].
    assert (Hflat : forall (f : rref -> list instr) l r i1, In r l -> In i1 (f r) -> In i1 (flat_map f l)).
    { intros f l r i1 H1 H2. apply in_flat_map. exists r. auto. }
    destruct d.
    + apply (Hwit (IEnq true (RObj b) (RObj (self_of t)) (MRestart false))).
      * unfold exec1. rewrite Hg0. cbn [snd is_graceful negb]. apply in_or_app. left. eapply Hflat; [exact Hbin|left; reflexivity].
      * cbn [cinstr]. exists b. split; [reflexivity|cbn [cmsg]; apply Hanc; exact Hba].
    + apply (Hwit (IEnq true (RObj a) (RObj (self_of t)) MCmdResume)).
      * unfold exec1. rewrite Hg0. cbn [snd is_graceful negb]. apply in_or_app. right. eapply Hflat; [exact Hchain|left; reflexivity].
      * cbn [cinstr]. exists a. split; reflexivity.
    + apply (Hwit (IEnq true (RObj b) (RObj (self_of t)) (MKill (RObj (self_of t)) false))).
      * unfold exec1. rewrite Hg0. cbn [snd is_graceful negb]. apply in_or_app. left. eapply Hflat; [exact Hbin|left; reflexivity].
      * cbn [cinstr]. exists b. split; [reflexivity|cbn [cmsg]; apply Hanc; exact Hba].
    + apply (Hwit (IEnq true (RObj a) (RObj (self_of t)) MCmdResume)).
      * unfold exec1. rewrite Hg0. cbn [snd is_graceful negb]. apply in_or_app. right. eapply Hflat; [exact Hchain|left; reflexivity].
      * cbn [cinstr]. exists a. split; reflexivity.
    + apply (Hwit (IEnq true (RObj a) (RObj (self_of t)) MCmdResume)).
      * unfold exec1. rewrite Hg0. cbn [snd]. eapply Hflat; [exact Hchain|left; reflexivity].
      * cbn [cinstr]. exists a. split; reflexivity.
    + destruct (ref_target_parent (popped t x rest)) as [p Hp0].
      apply (Hwit (IEnq true (rref_parent (popped t x rest)) (RObj (self_of t)) (MSup (SupCtx (RObj (self_of t)) [] (Some c1))))).
      * unfold exec1. rewrite Hg0. cbn [snd]. right. left. reflexivity.
      * cbn [cinstr]. exists p. split; [exact Hp0|]. cbn [cmsg covers_ctx chain_targets app]. right. exact Hchain.
    + destruct (ref_target_parent (popped t x rest)) as [p Hp0].
      apply (Hwit (IEnq true (rref_parent (popped t x rest)) (RObj (self_of t)) (MSup (SupCtx (RObj (self_of t)) [] (Some c1))))).
      * unfold exec1. rewrite Hg0. cbn [snd]. right. left. reflexivity.
      * cbn [cinstr]. exists p. split; [exact Hp0|]. cbn [cmsg covers_ctx chain_targets app]. right. exact Hchain.
Qed.

Lemma exec1_kinds s t h i x :
  get s (self_of t) = Some x -> plain i = true ->
  Forall (fun i1 => kinstr i1 = KOther) (snd (exec1 s t h i)) \/ i = IFailed \/
  (exists c d tg, i = ISupApply c d tg /\ (d = DEscalate \/ d = DInvalid)).
Proof.
  intros Hg Hpl.
  assert (Hno : (forall j, emits s (self_of t) h x i j -> kinstr j = KOther) -> Forall (fun i1 => kinstr i1 = KOther) (snd (exec1 s t h i))).
  { intros H. apply Forall_forall. intros j Hj. apply H, (exec1_emits _ _ _ _ _ _ Hg Hj). }
  destruct i; try discriminate Hpl; try (left; apply Hno; intros j He; inversion He; reflexivity).
  - right; left. reflexivity.
  - destruct d; try (right; right; do 3 eexists; split; [reflexivity|auto]; fail);
      left; apply Hno; intros j He; inversion He; subst; try reflexivity; destruct Hd; discriminate.
Qed.

Lemma own_left x x' F rest i :
  a_pend x = i :: rest -> kinstr i = KOther -> held x = [] -> held x' = [] ->
  a_zombie x' = a_zombie x -> a_state x' = a_state x -> a_restarting x' = a_restarting x -> a_paused x' = a_paused x -> a_sq x' = a_sq x ->
  Forall (fun i1 => kinstr i1 = KOther) F -> ~ In IRestartFinish (lf F) ->
  inscope (upd_pend x' (F ++ rest)) -> need_after (pipeline (upd_pend x' (F ++ rest))) (eflag (upd_pend x' (F ++ rest))) = true ->
  inscope x /\ need_after (pipeline x) (eflag x) = true.
Proof.
  intros Hpx Hki Hh Hh' Hz Hst Hr Hpa Hsq HF Hirf [Sz Ss] Hn.
  cbn [upd_pend a_zombie a_state a_restarting a_pend] in Sz, Ss. split.
  - split; [congruence|]. rewrite Hst, Hr in Ss. destruct Ss as [E|[E1 [E|E]]]; [left; exact E|right; split; [exact E1|left; exact E]|].
    right. split; [exact E1|right]. rewrite lf_app in E. apply in_app_or in E. destruct E as [E|E]; [contradiction|]. rewrite Hpx. apply In_lf_tail. exact E.
  - unfold pipeline, eflag in *. cbn [upd_pend a_pend a_sq a_paused a_state] in Hn. change (held (upd_pend x' (F ++ rest))) with (held x') in Hn.
    rewrite Hh', Hsq, Hpa, Hst, map_app, <- app_assoc, need_app in Hn. rewrite Hpx, Hh. cbn [map]. rewrite Hki.
    rewrite (need_others (map kinstr F)) in Hn by (apply Forall_forall; intros k Hk; apply in_map_iff in Hk; destruct Hk as (i1 & <- & Hi1); rewrite Forall_forall in HF; apply HF; exact Hi1).
    exact Hn.
Qed.

Lemma own_cover x x' F rest i :
  a_pend x = i :: rest -> kinstr i = KOther -> held x = [] -> held x' = [] -> a_sq x' = a_sq x -> eflag x = false ->
  Forall (fun i1 => kinstr i1 = KOther) F ->
  need_after (pipeline (upd_pend x' ((IResume1 :: F) ++ rest))) (eflag (upd_pend x' ((IResume1 :: F) ++ rest))) = true ->
  need_after (pipeline x) (eflag x) = true.
Proof.
  intros Hpx Hki Hh Hh' Hsq Hef HF Hn. unfold pipeline in *. cbn [upd_pend a_pend a_sq] in Hn.
  change (held (upd_pend x' ((IResume1 :: F) ++ rest))) with (held x') in Hn. rewrite Hh', Hsq in Hn.
  rewrite Hpx, Hh, Hef. cbn [app map kinstr] in *. rewrite Hki. rewrite map_app, <- app_assoc in Hn.
  change (need_after (KCover :: map kinstr F ++ map kinstr rest ++ map kenv (a_sq x)) (eflag (upd_pend x' (IResume1 :: F ++ rest))))
    with (need_after (map kinstr F ++ map kinstr rest ++ map kenv (a_sq x)) false) in Hn.
  rewrite need_app, (need_others (map kinstr F)) in Hn
    by (apply Forall_forall; intros k Hk; apply in_map_iff in Hk; destruct Hk as (i1 & <- & Hi1); rewrite Forall_forall in HF; apply HF; exact Hi1).
  exact Hn.
Qed.

Lemma kinstr_atomic i : yielding i = false -> kinstr i = KOther.
Proof. destruct i; cbn; intros H; try reflexivity; discriminate H. Qed.

Lemma astep_own s a i rest x :
  Jall s -> get s a = Some x -> pend_of s (TA a) = i :: rest -> yielding i = false -> is_enq i = false ->
  err (astep s (TA a) i rest) = false -> a <> 0 ->
  forall ya, get (astep s (TA a) i rest) a = Some ya -> inscope ya -> need_after (pipeline ya) (eflag ya) = true ->
  (inscope x /\ need_after (pipeline x) (eflag x) = true) \/ cov (astep s (TA a) i rest) a.
Proof.
  intros (((W & HLI & HR & HMK) & HK & HRC & HRS) & HX & HIRF & HW & HM) Hg Hp Hy Hq He Hne ya Hgy Hsc Hn.
  assert (Hpx : a_pend x = i :: rest) by (rewrite (pend_of_TA _ _ _ Hg) in Hp; exact Hp).
  assert (Hki : kinstr i = KOther) by (apply kinstr_atomic; exact Hy).
  assert (Hhx : held x = []).
  { destruct W as [HA _]. pose proof (Forall_nth _ _ _ _ HA Hg) as [E|(md & l & Hc & _)]; [congruence|]. unfold held. rewrite Hc. reflexivity. }
  pose proof (HLI _ _ Hg) as Hlinv. pose proof (HIRF _ _ Hg) as Hirf. unfold irf_ok in Hirf. rewrite Hpx in Hirf.
  assert (Hl : a < length (actors s)) by (eapply nth_error_lt; exact Hg).
  destruct (life_plain_cases i) as [Hpl|Hli].
  - pose proof (astep_front s (TA a) i rest x Hg Hp He) as Hf. cbn [self_of] in Hf.
    destruct (astep_table s (TA a) i rest x Hg Hp) as (Hg0 & y & news & Hyl & _ & Ha1 & Ha & _). cbv zeta in *. cbn [self_of popped pushed] in *.
    set (s0 := set_pend s (TA a) rest) in *. set (front := snd (exec1 s0 (TA a) (held_of s0 (TA a)) i)) in *.
    assert (Hya : ya = upd_pend y (front ++ rest)).
    { unfold get in Hgy. rewrite Ha in Hgy. rewrite nth_error_app1 in Hgy by (rewrite upd_length; exact Hl). rewrite nth_upd_eq in Hgy by exact Hl. congruence. }
    subst ya.
    destruct (exec1_plain_lc s0 (TA a) (held_of s0 (TA a)) i _ Hg0 Hpl) as (y' & Hy' & Hst & Hzz & _).
    assert (y' = y).
    { unfold get in Hy'. rewrite Ha1 in Hy'. assert (Hl0 : a < length (actors s0)) by (eapply nth_error_lt; exact Hg0).
      rewrite nth_error_app1 in Hy' by (rewrite upd_length; exact Hl0). rewrite nth_upd_eq in Hy' by exact Hl0. congruence. }
    subst y'. cbn [upd_pend a_state a_zombie] in Hst, Hzz.
    destruct (exec1_front_plain s0 (TA a) (held_of s0 (TA a)) i Hpl) as [Hlf _]. fold front in Hlf.
    assert (Hrs : a_restarting y = a_restarting x).
    { destruct (lu_restarting _ _ _ Hyl) as [E|E]; [exact E|subst i; discriminate Hpl]. }
    assert (Hhy : held y = []).
    { unfold held in *. destruct (lu_cons _ _ _ Hyl) as [E|[[_ E]|[_ E]]]; rewrite E; try reflexivity. cbn [upd_pend a_cons]. exact Hhx. }
    destruct (exec1_kinds s0 (TA a) (held_of s0 (TA a)) i _ Hg0 Hpl) as [Hoth|Hps]; [fold front in Hoth|].
    + left. apply (own_left x y front rest i Hpx Hki Hhx Hhy Hzz Hst Hrs (lu_paused _ _ _ Hyl) (lu_sq _ _ _ Hyl) Hoth); [rewrite Hlf; intros []|exact Hsc|exact Hn].
    + (* the handler has failed, or escalates: its report to the parent is the cover *)
      right. left. exists (TA a). rewrite Hf. fold s0. fold front.
      assert (Hfr : exists c0 fr, front = IPauseSt :: IEnq true (rref_parent (upd_pend x rest)) (RObj a) (MSup c0) :: fr /\ covers_ctx a c0).
      { unfold front, exec1. cbn [self_of]. rewrite Hg0. destruct Hps as [->|(c & d & tg & -> & [->| ->])].
        - eexists. eexists. split; [reflexivity|]. left. reflexivity.
        - destruct c. eexists. eexists. split; [reflexivity|]. left. reflexivity.
        - destruct c. eexists. eexists. split; [reflexivity|]. left. reflexivity. }
      destruct Hfr as (c0 & fr & -> & Hcv). eexists. split; [right; left; reflexivity|].
      cbn [cinstr self_of]. destruct (ref_target_parent (upd_pend x rest)) as [p Hp0]. exists p. split; [exact Hp0|exact Hcv].
  - destruct (astep_ltrans s a x rest i Hg Hli) as (y & front & L & E). rewrite E in Hgy. inversion Hgy; subst ya. clear Hgy E.
    destruct Hlinv as (L1 & L2 & L3 & L4 & L5). unfold life_ok in L5. rewrite Hpx in L3, L4, L5. rewrite lf_cons in L5. rewrite uzc_cons in L3, L4, L5.
    destruct L as [p|w Hz|w Hz Hr|w Hz Hr|Hidle|Hc Hs| |Hok|Hok| ]; cbn [life is_unzombie plus] in L3, L4, L5;
      try (destruct (lf rest) eqn:Hlr; [|contradiction]).
    + left. refine (own_left x x _ rest _ Hpx Hki Hhx Hhx eq_refl eq_refl eq_refl eq_refl eq_refl _ _ Hsc Hn).
      * destruct (a_children x); repeat constructor.
      * destruct (a_children x); cbn; intuition discriminate.
    + exfalso. destruct Hsc as [Hz' _]. cbn [upd_pend a_zombie] in Hz'. congruence.
    + left. refine (own_left x x [ICheckMark] rest _ Hpx Hki Hhx Hhx eq_refl eq_refl eq_refl eq_refl eq_refl _ _ Hsc Hn); [repeat constructor|cbn; intuition discriminate].
    + left. refine (own_left x _ [IBeh (MKilled w) (sp_killed (a_spec x)) (RecKilled w); ICheckMark] rest _ Hpx Hki Hhx _ _ _ _ _ _ _ _ Hsc Hn);
        try reflexivity; [exact Hhx|repeat constructor|cbn; intuition discriminate].
    + left. apply (own_left x x [] rest _ Hpx Hki Hhx Hhx eq_refl eq_refl eq_refl eq_refl eq_refl); [constructor|intros []|exact Hsc|exact Hn].
    + left. destruct Hsc as [Sz Ss]. cbn [upd_pend marked set_mb set_state upd_local a_zombie a_state a_restarting a_pend] in Sz, Ss.
      destruct Ss as [E|[Hr _]]; [discriminate E|]. split; [split; [exact Sz|right; split; [exact Hr|left; exact Hs]]|].
      unfold pipeline, eflag in *. rewrite Hpx, Hhx, Hs. cbn [map]. rewrite Hki.
      cbn [upd_pend marked set_mb set_state upd_local a_pend a_sq a_paused a_state is_running] in Hn.
      match type of Hn with context[held ?r] => change (held r) with (held x) in Hn end. rewrite Hhx in Hn.
      rewrite andb_false_r in *. destruct (a_restarting x); cbn [app map need_after fold_left knext kinstr] in *; exact Hn.
    + exfalso. destruct L5 as [Hk _]. destruct Hsc as [_ Ss]. cbn [upd_pend a_state a_restarting a_pend] in Ss.
      destruct Ss as [E|[_ [E|E]]]; try congruence. destruct (lf_cleanup_sends a x) as [Hcf _]. rewrite lf_app, Hcf, Hlr in E. destruct E.
    + destruct L5 as (Hk & Hzf & _). left. split.
      * split; [exact Hzf|right]. split; [apply Hirf; left; reflexivity|right; rewrite Hpx, (lf_cons_life IRestartFinish rest eq_refl); left; reflexivity].
      * assert (Esq : a_sq (restarted x) = a_sq x) by (unfold restarted; destruct (sp_provider (a_spec x)); reflexivity).
        assert (Ehd : held (restarted x) = []) by (unfold restarted; destruct (sp_provider (a_spec x)); reflexivity).
        assert (Eef : eflag x = false) by (unfold eflag; rewrite Hk; apply andb_false_r).
        refine (own_cover x (restarted x) [IPub evRestarted (actor_key x); IPub evResumed (actor_key x); IBeh MLaunch (sp_launch (a_spec x)) RecFail; IPub evLaunched (actor_key x)] rest _ Hpx Hki Hhx Ehd Esq Eef _ Hn). repeat constructor.
    + exfalso. destruct Hsc as [Sz _]. unfold zombied in Sz. cbn [upd_pend set_zombie upd_local a_zombie] in Sz. discriminate Sz.
    + exfalso. assert (Hu1 : uzc rest = 0) by lia. pose proof (L1 (L4 ltac:(lia))) as Hk.
      destruct Hsc as [_ Ss]. cbn [upd_pend set_zombie upd_local a_state a_restarting a_pend app] in Ss.
      destruct Ss as [E|[_ [E|E]]]; try congruence.
      destruct (lf rest) as [|i1 [|i2 l]] eqn:El; [destruct E| |destruct i1; contradiction].
      destruct E as [->|[]]. destruct L5 as (_ & _ & Hu0). lia.
Qed.

Theorem CInv_mstep s m : Jall s -> NS2 s -> err (mstep s m) = false -> CInv s -> CInv (mstep s m).
Proof.
  intros HJ HN He HC.
  destruct (mstep_mcase s m) as [[E|E]|a x sq' uq' co' _ Hg E Hpop|a x e -> Hg Hc|t i rest pre s1 Hp T E|t i rest -> Hp Hy Hq E].
  - rewrite E. exact HC.
  - rewrite E in He. discriminate He.
  - apply (CInv_pop s m a x sq' uq' co' HJ Hg E Hpop HC).
  - apply (CInv_handle s a x e HJ HN Hg Hc HC).
  - apply (CInv_thread s m t i rest pre s1 HJ Hp T E HC).
  - pose proof (anc_mstep s (MAtomic t)) as Hanc. rewrite E in *.
    pose proof HJ as (((W & HLI & HR & HMK) & _) & _).
    destruct (RInv_self s t HR i rest Hp) as (x & Hg).
    apply (CInv_astep_gen s t i rest x W Hg Hp He Hanc); [|apply (astep_cons s t i rest x HJ Hg Hp Hy Hq He)|exact HC].
    intros a ya -> Hne Hgy Hsc Hn. cbn [self_of] in Hg. apply (astep_own s a i rest x HJ Hg Hp Hy Hq He Hne ya Hgy Hsc Hn).
Qed.

Lemma NS2_set_actor s a x y :
  get s a = Some x -> (Forall nsp (held x) /\ Forall nsp (a_sq x) -> Forall nsp (held y) /\ Forall nsp (a_sq y)) -> NS2 s -> NS2 (set_actor s a y).
Proof.
  intros Hg H HN b yb Hgb. rewrite (get_set_actor_dec _ _ _ _ _ Hg) in Hgb.
  destruct (Nat.eqb a b); [inversion Hgb; subst; apply H, (HN _ _ Hg)|apply (HN _ _ Hgb)].
Qed.
Lemma NS2_with_actor s a f :
  (forall x, Forall nsp (held x) /\ Forall nsp (a_sq x) -> Forall nsp (held (f x)) /\ Forall nsp (a_sq (f x))) -> NS2 s -> NS2 (with_actor s a f).
Proof. intros H HN. unfold with_actor. destruct (get s a) as [x|] eqn:Hg; [apply (NS2_set_actor s a x _ Hg (H x) HN)|exact HN]. Qed.
Lemma NS2_push_mb s a e : NS2 s -> NS2 (push_mb s a e).
Proof.
  apply NS2_with_actor. intros x [H1 H2]. split; [exact H1|]. cbn [a_sq]. destruct (e_sys e) eqn:Es; [|exact H2].
  apply Forall_app. split; [exact H2|constructor; [intros H; congruence|constructor]].
Qed.
Lemma NS2_resolve s r : NS2 s -> NS2 (snd (resolve s r)).
Proof.
  intros HN. destruct (resolve_shape s r) as [E|[E|(a & x & y & _ & Hg & _ & _ & E & _)]]; rewrite E; [exact HN|exact HN|].
  apply (NS2_set_actor s a x _ Hg); [intros H; exact H|exact HN].
Qed.
Lemma NS2_set_pend s t l : NS2 s -> NS2 (set_pend s t l).
Proof.
  destruct t as [a|j]; [apply NS2_with_actor; intros x H; exact H|].
  intros HN b y Hg. apply (HN b y). unfold get in *. rewrite set_pend_TX_actors in Hg. exact Hg.
Qed.

Theorem NS2_mstep s m : wf s -> RInv s -> MH s -> NS2 s -> NS2 (mstep s m).
Proof.
  intros W HR HM HN.
  destruct (mstep_mcase s m) as [[E|E]|a x sq' uq' co' _ Hg E [_ Hpop]|a x e -> Hg Hc|t i rest pre s1 Hp T E|t i rest -> Hp Hy Hq E].
  - rewrite E. exact HN.
  - rewrite E. exact HN.
  - rewrite E. apply (NS2_set_actor s a x _ Hg); [|exact HN]. intros [H1 H2]. unfold held at 1. cbn [set_mb a_cons a_sq].
    apply Forall_app. destruct Hpop as [[Hr _]|(e & Hu & Hh & -> & ->)].
    + rewrite Hr. apply Forall_app. split; assumption.
    + apply Forall_app. split; [|exact H2]. constructor; [|constructor]. intros _.
      destruct HM as [M1 _]. destruct (M1 _ _ Hg) as (A & _). rewrite Hu in A. inversion A as [|? ? [_ Hn] _]. exact Hn.
  - destruct (mstep_handle s a x e Hg Hc) as (y & Hdf & _ & Ha & _). intros b yb Hgb. rewrite (get_upd s _ a x _ b Hg Ha) in Hgb.
    destruct (Nat.eqb a b); [|apply (HN b yb Hgb)]. inversion Hgb; subst yb. change (held (upd_pend y _)) with (held y). cbn [upd_pend a_sq].
    unfold held. rewrite (df_cons _ _ Hdf), (df_sq _ _ Hdf). cbn [busy set_mb a_cons a_sq]. split; [constructor|apply (HN a x Hg)].
  - rewrite E. apply NS2_set_pend.
    assert (Hpa : forall v, NS2 (set_paused s (self_of t) v)) by (intros v; apply NS2_with_actor; [intros y H; exact H|exact HN]).
    destruct T; try exact HN; try apply Hpa; try (apply NS2_resolve; exact HN); try (apply NS2_push_mb; exact HN); apply NS2_push_mb, NS2_resolve, HN.
  - rewrite E. destruct (RInv_self s t HR i rest Hp) as (x & Hg).
    destruct (astep_table s t i rest x Hg Hp) as (_ & y & news & Hyl & Hnews & _ & Ha & _). cbv zeta in Ha.
    assert (Hl : self_of t < length (actors s)) by (eapply nth_error_lt; exact Hg).
    intros b yb Hgb. unfold get in Hgb. rewrite Ha in Hgb.
    destruct (Nat.lt_ge_cases b (length (actors s))) as [Hlt|Hge].
    + rewrite nth_error_app1 in Hgb by (rewrite upd_length; exact Hlt). destruct (Nat.eq_dec (self_of t) b) as [<-|Hne].
      * rewrite nth_upd_eq in Hgb by exact Hl. inversion Hgb; subst yb. destruct (HN _ x Hg) as [H1 H2].
        assert (Hsq : a_sq (pushed t y (snd (exec1 (set_pend s t rest) t (held_of (set_pend s t rest) t) i) ++ rest)) = a_sq x)
          by (destruct t; cbn [pushed popped upd_pend a_sq] in *; rewrite (lu_sq _ _ _ Hyl); reflexivity).
        rewrite Hsq. split; [|exact H2].
        assert (Hc : a_cons (pushed t y (snd (exec1 (set_pend s t rest) t (held_of (set_pend s t rest) t) i) ++ rest)) = a_cons y) by (destruct t; reflexivity).
        unfold held in *. rewrite Hc. destruct (lu_cons _ _ _ Hyl) as [E0|[[_ E0]|[_ E0]]]; rewrite E0; try constructor.
        destruct t; exact H1.
      * rewrite nth_upd_neq in Hgb by exact Hne. apply (HN b yb Hgb).
    + rewrite nth_error_app2 in Hgb by (rewrite upd_length; exact Hge). apply nth_error_In in Hgb.
      rewrite Forall_forall in Hnews. destruct (Hnews _ Hgb) as (p & g & par & sp & ->). split; constructor.
Qed.

Definition Jm (s : state) : Prop := Base6 s /\ XI s /\ IRF s.
Definition I2 (s : state) : Prop := CacheI s /\ MH s /\ NS2 s /\ CInv s.

Lemma Jm_init scs : Jm (init_with scs).
Proof. split; [apply Base6_init|split; [apply XI_init|apply IRF_init]]. Qed.
Lemma Jm_mstep s m : Jm s -> Jm (mstep s m).
Proof.
  intros (B & X & F). pose proof B as ((W & I & R & M) & K & C & S).
  split; [apply Base6_mstep; exact B|split; [apply XI_mstep; assumption|apply IRF_mstep; assumption]].
Qed.

Lemma single_step s m :
  Jm s -> CacheW s -> MH s -> NS2 s -> CInv s -> err (mstep s m) = false ->
  MH (mstep s m) /\ NS2 (mstep s m) /\ CInv (mstep s m).
Proof.
  intros (B & X & F) HW HM HN HC He. pose proof B as ((W & I & R & M) & K & C & S).
  pose proof (err_false_mstep s m He) as He0.
  split; [apply MH_mstep; assumption|split; [apply NS2_mstep; assumption|]].
  apply CInv_mstep; try assumption. split; [exact B|split; [exact X|split; [exact F|split; assumption]]].
Qed.

Lemma I2_mstep2 s m : Jm s -> I2 s -> err (mstep2 s m) = false -> I2 (mstep2 s m).
Proof.
  intros HJ (HCI & HM & HN & HC) He.
  pose proof HJ as (((W & I & R & M) & K & C & S) & X & F).
  split; [apply CacheI_mstep2; assumption|].
  assert (Hone : forall m0, mstep2 s m = mstep s m0 -> MH (mstep2 s m) /\ NS2 (mstep2 s m) /\ CInv (mstep2 s m)).
  { intros m0 E. rewrite E in *. apply single_step; try assumption. apply CacheI_W. exact HCI. }
  destruct m; try (apply (Hone _ eq_refl)).
  cbn [mstep2] in *. cbv zeta in *. set (s1 := mstep s (MAtomic t)) in *.
  destruct (head_is_enq s1 t) eqn:Hh; [|apply (Hone (MAtomic t)); reflexivity].
  assert (He1 : err s1 = false) by (apply (err_false_mstep s1 (MAtomic t)); exact He).
  destruct (single_step s (MAtomic t) HJ (CacheI_W s HCI) HM HN HC He1) as (HM1 & HN1 & HC1). fold s1 in HM1, HN1, HC1.
  pose proof (Jm_mstep s (MAtomic t) HJ) as HJ1. fold s1 in HJ1.
  assert (HW1 : CacheW s1).
  { apply CacheW_mstep; [|exact HCI]. destruct HJ1 as (((_ & _ & R1 & _) & _) & _). exact R1. }
  apply single_step; assumption.
Qed.

Lemma I2_init scs : I2 (init_with scs).
Proof.
  split; [apply CacheI_init|split; [apply MH_init|split]].
  - intros a x Hg. destruct (get_init scs a x Hg) as [-> ->]. split; constructor.
  - intros a x Hg Hne. destruct (get_init scs a x Hg) as [-> _]. congruence.
Qed.

Theorem cover_reachable s : reachable s -> Jm s /\ I2 s.
Proof.
  revert s. apply (micro2_invariant_err Jm I2); [apply Jm_init|apply Jm_mstep|apply I2_init|apply I2_mstep2].
Qed.

Theorem quiescent_unpaused s a x :
  reachable s -> quiescent s = true -> get s a = Some x -> a_state x = Running -> a_zombie x = false -> a_paused x = false.
Proof.
  intros Hr Hq Hg Hst Hz. destruct (cover_reachable s Hr) as [_ (_ & HM & _ & HC)].
  destruct (Nat.eq_dec a 0) as [->|Hne].
  - destruct HM as [M1 _]. destruct (M1 _ _ Hg) as (_ & _ & _ & D). apply (D eq_refl).
  - destruct (a_paused x) eqn:Hp; [exfalso|reflexivity].
    destruct (quiescent_actor _ _ _ Hq Hg) as (Hpx & _ & Hsq & Hh & _).
    assert (Hn : need_after (pipeline x) (eflag x) = true).
    { unfold pipeline, eflag. rewrite Hpx, Hh, Hsq, Hp, Hst. reflexivity. }
    destruct (HC a x Hg Hne (conj Hz (or_introl Hst)) Hn) as [(t & i & Hi & _)|(q & xq & e & _ & Hgq & Hine & _)].
    + destruct t as [b|j]; cbn [pend_of] in Hi.
      * destruct (get s b) as [xb|] eqn:Hgb; [|destruct Hi]. destruct (quiescent_actor _ _ _ Hq Hgb) as (Hpb & _). rewrite Hpb in Hi. destruct Hi.
      * destruct (nth_error (exts s) j) as [ex|] eqn:Hn2; [|destruct Hi].
        unfold quiescent in Hq. apply andb_true_iff in Hq. destruct Hq as [_ Hq]. rewrite forallb_forall in Hq.
        specialize (Hq ex (nth_error_In _ _ Hn2)). destruct (x_pend ex); [destruct Hi|discriminate Hq].
    + destruct (quiescent_actor _ _ _ Hq Hgq) as (_ & _ & Hsq' & Hh' & _). rewrite Hh', Hsq' in Hine. destruct Hine.
Qed.

Theorem quiescent_survivor_inbox_empty s a x :
  reachable s -> quiescent s = true -> get s a = Some x -> a_state x = Running -> a_zombie x = false -> inbox x = [].
Proof.
  intros Hr Hq Hg Hst Hz. pose proof (quiescent_unpaused s a x Hr Hq Hg Hst Hz) as Hp.
  destruct (quiescent_actor _ _ _ Hq Hg) as (_ & _ & Hsq & Hh & Hu). unfold inbox. rewrite Hsq, Hh, (Hu Hp). reflexivity.
Qed.

Theorem root_never_paused s x : reachable s -> get s 0 = Some x -> a_paused x = false.
Proof. intros Hr Hg. destruct (cover_reachable s Hr) as [_ (_ & [M1 _] & _)]. destruct (M1 _ _ Hg) as (_ & _ & _ & D). apply (D eq_refl). Qed.

Theorem no_pause_command_in_user_mail s a x e :
  reachable s -> get s a = Some x -> In e (a_uq x ++ a_stash x) -> e_msg e <> MCmdPause.
Proof.
  intros Hr Hg Hin. destruct (cover_reachable s Hr) as [_ (_ & [M1 _] & _)]. destruct (M1 _ _ Hg) as (A & B & _).
  apply in_app_or in Hin. destruct Hin as [Hin|Hin]; [rewrite Forall_forall in A; apply (A e Hin)|rewrite Forall_forall in B; apply (B e Hin)].
Qed.
