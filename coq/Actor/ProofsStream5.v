(** C19, history level, part 4: every entry of the subscription table (other than the guard's) names a registered
    context - the stream holds no entry for a terminated subscriber - as an invariant of all histories; and its
    consequence: nothing published after a subscriber's termination is delivered to it.
    Definitions: Actor/SpecStream.v. *)
From Coq Require Import List NArith Bool Permutation Lia PeanoNat.
From Vivid Require Import Actor.Core Actor.CoreRun Actor.SpecSup Actor.ProofsSup Actor.ProofsStream.
From Vivid Require Import Actor.SpecMail Actor.ProofsMailBase Actor.ProofsMailInv Actor.ProofsMailWf Actor.ProofsMailMicro Actor.ProofsMailLife Actor.ProofsMailTree Actor.ProofsMailMK.
From Vivid Require Import Actor.SpecStream Actor.ProofsStream2 Actor.ProofsStream3 Actor.ProofsStream4.
Import ListNotations.

Lemma mstep_keeps s m a x : get s a = Some x -> exists x', get (mstep s m) a = Some x' /\ a_path x' = a_path x.
Proof. intros Hg. destruct (idT_mstep s m a x Hg ltac:(tauto)) as (x' & Hg' & Hp & _). eauto. Qed.

Lemma exec1_reg_mono s t h i p a :
  i <> ICleanup -> alookup (reg s) p = Some a -> alookup (reg (fst (exec1 s t h i))) p = Some a.
Proof.
  intros Hi Hl. destruct (get s (self_of t)) as [x|] eqn:Hg; [|rewrite (exec1_none _ _ _ _ Hg); exact Hl].
  destruct (spawn_dec i) as [[sp ->]|Hns].
  - destruct (exec1_spawn s t h sp x Hg) as [[code ->]|(_ & _ & _ & g & s' & -> & _ & Hr & _)]; cbn [fst]; [exact Hl|].
    rewrite Hr. apply alookup_app_some. exact Hl.
  - destruct (exec1_local s t h i x Hg Hns) as (y & _ & _ & _ & _ & Hr & _). cbv zeta in Hr. rewrite Hr.
    destruct i; try exact Hl. congruence.
Qed.

Lemma resolve_subs s r : subs (snd (resolve s r)) = subs s.
Proof. destruct (resolve_shape s r) as [H|[H|(a & x & y & _ & _ & _ & _ & H & _)]]; rewrite H; reflexivity. Qed.
Lemma push_mb_subs s a e : subs (push_mb s a e) = subs s.
Proof. unfold push_mb. apply with_actor_fields. Qed.

Lemma tmove_subs s t m i pre s1 : tmove s t m i pre s1 -> subs s1 = subs s.
Proof.
  intros []; try reflexivity; try (unfold set_paused; apply with_actor_fields); try apply resolve_subs; try apply push_mb_subs;
    (rewrite push_mb_subs; apply resolve_subs).
Qed.

Definition reg_mono (s s' : state) : Prop := forall p a, alookup (reg s) p = Some a -> alookup (reg s') p = Some a.

Lemma mstep_tables s m :
  (subs (mstep s m) = subs s /\ reg_mono s (mstep s m)) \/
  (exists t i rest, m = MAtomic t /\ pend_of s t = i :: rest /\ stream_instr i = true /\ mstep s m = astep s t i rest).
Proof.
  assert (Hsame : forall s', subs s' = subs s -> reg s' = reg s -> subs s' = subs s /\ reg_mono s s').
  { intros s' H1 H2. split; [exact H1|]. intros p a. rewrite H2. auto. }
  destruct (mstep_mcase s m) as [[E|E]|a x sq' uq' co' _ Hg E _|a x e -> Hg Hc|t i rest pre s1 Hp T E|t i rest -> Hp Hy Hq E].
  - left. rewrite E. apply Hsame; reflexivity.
  - left. rewrite E. apply Hsame; reflexivity.
  - left. rewrite E. apply Hsame; reflexivity.
  - left. cbn [mstep]. rewrite Hg, Hc.
    destruct (dispatch_effect (set_actor s a (busy x)) a (busy x) e (get_set_same' s a _ x Hg)) as (y & _ & _ & _ & _ & _ & Hr & Hs & _).
    destruct (dispatch (set_actor s a (busy x)) a (busy x) e) as [s1 ins]. cbn [fst] in *.
    apply Hsame; [rewrite set_pend_subs; exact Hs|rewrite set_pend_reg; exact Hr].
  - left. rewrite E. apply Hsame; [rewrite set_pend_subs; apply (tmove_subs _ _ _ _ _ _ T)|rewrite set_pend_reg; apply (tmove_quiet _ _ _ _ _ _ T)].
  - destruct (stream_instr i) eqn:Hsi; [right; exists t, i, rest; auto|left]. rewrite E. unfold astep.
    pose proof (exec1_subs (set_pend s t rest) t (held_of (set_pend s t rest) t) i Hsi) as H1.
    assert (Hi : i <> ICleanup) by (intros ->; discriminate Hsi).
    pose proof (fun p a => exec1_reg_mono (set_pend s t rest) t (held_of (set_pend s t rest) t) i p a Hi) as H2.
    destruct (exec1 (set_pend s t rest) t (held_of (set_pend s t rest) t) i) as [s1 front]. cbn [fst] in *.
    split; [rewrite set_pend_subs, H1; apply set_pend_subs|]. intros p a Hl. rewrite set_pend_reg. apply H2. rewrite set_pend_reg. exact Hl.
Qed.

Lemma entries_transfer s s' :
  (forall ty m p a, In (ty, m) (subs s') -> In (p, a) m -> a <> 0 ->
     exists ty0 m0, In (ty0, m0) (subs s) /\ In (p, a) m0 /\ (alookup (reg s) p = Some a -> alookup (reg s') p = Some a)) ->
  (forall a x, get s a = Some x -> exists x', get s' a = Some x' /\ a_path x' = a_path x) ->
  entries_live s -> entries_live s'.
Proof.
  intros H1 H2 E ty m p a Hin1 Hin2 Hne. destruct (H1 ty m p a Hin1 Hin2 Hne) as (ty0 & m0 & Hi1 & Hi2 & Hr).
  destruct (E ty0 m0 p a Hi1 Hi2 Hne) as (x & Hg & Hp & Hl). destruct (H2 a x Hg) as (x' & Hg' & Hp').
  exists x'. split; [exact Hg'|]. split; [congruence|apply Hr; exact Hl].
Qed.

Lemma set_pend_keeps s t l a x : get s a = Some x -> exists x', get (set_pend s t l) a = Some x' /\ a_path x' = a_path x.
Proof. intros Hg. destruct (idT_set_pend s t l a x Hg ltac:(tauto)) as (x' & H1 & H2 & _). eauto. Qed.

Lemma entries_set_pend s t l : entries_live s -> entries_live (set_pend s t l).
Proof.
  apply entries_transfer; [|apply set_pend_keeps].
  intros ty m p a H1 H2 _. rewrite set_pend_subs in H1. exists ty, m. split; [exact H1|]. split; [exact H2|]. rewrite set_pend_reg. auto.
Qed.

Lemma In_alookup_ne {A} (m : list (path * A)) p q v : In (p, v) m -> alookup m q = None -> p <> q.
Proof. intros Hin Hn ->. apply alookup_none in Hn. apply Hn. apply in_map_iff. exists (q, v). auto. Qed.

Lemma entries_exec1_stream s t h i x :
  get s (self_of t) = Some x -> stream_instr i = true ->
  (self_of t <> 0 -> (exists ty, i = IAct (ASub ty)) -> alookup (reg s) (a_path x) = Some (self_of t)) ->
  entries_live s -> entries_live (fst (exec1 s t h i)).
Proof.
  intros Hg Hsi Hreg E.
  assert (Hkeep : forall s', actors s' = actors s -> forall a y, get s a = Some y -> exists y', get s' a = Some y' /\ a_path y' = a_path y).
  { intros s' Ha a y Hy. exists y. unfold get in *. rewrite Ha. auto. }
  destruct i; try discriminate Hsi.
  - destruct a; try discriminate Hsi.
    + destruct (alookup (subscribers s ty) (a_path x)) as [v|] eqn:El.
      * rewrite (exec1_ASub_again s t h x ty v Hg El). exact E.
      * unfold exec1. rewrite Hg, El. cbn [fst].
        intros ty' m p a Hin1 Hin2 Hne. cbn [subs set_subs] in Hin1. change (get (set_subs s _) a) with (get s a). change (reg (set_subs s _)) with (reg s).
        apply nset_in in Hin1. destruct Hin1 as [[Hin1 _]|[-> ->]]; [apply (E ty' m p a Hin1 Hin2 Hne)|].
        apply in_app_or in Hin2. destruct Hin2 as [Hin2|[Hin2|[]]].
        -- unfold subscribers in Hin2. destruct (nlookup (subs s) ty) as [l|] eqn:En; [|destruct Hin2].
           apply (E ty l p a (nlookup_in _ _ _ En) Hin2 Hne).
        -- inversion Hin2; subst p a. exists x. split; [exact Hg|]. split; [reflexivity|]. apply Hreg; [exact Hne|eauto].
    + unfold exec1. rewrite Hg. destruct (nlookup (subs s) ty) as [l|] eqn:En; [|exact E]. cbn [fst].
      apply (entries_transfer s); [|apply Hkeep; reflexivity|exact E].
      intros ty' m p a Hin1 Hin2 _. cbn [subs set_subs] in Hin1. apply nset_in in Hin1. destruct Hin1 as [[Hin1 _]|[-> ->]].
      * exists ty', m. auto.
      * apply aremove_in in Hin2. destruct Hin2 as [Hin2 _]. exists ty, l. split; [apply nlookup_in; exact En|auto].
    + rewrite (exec1_AUnsubAll s t h x Hg). cbn [fst].
      apply (entries_transfer s); [|apply Hkeep; reflexivity|exact E].
      intros ty' m p a Hin1 Hin2 _. cbn [subs set_subs] in Hin1.
      destruct (unsub_all_in _ _ _ _ Hin1) as (m0 & [(Ha & Hb & _)|(Ha & _)]).
      * subst m. apply aremove_in in Hin2. destruct Hin2 as [Hin2 _]. exists ty', m0. auto.
      * exists ty', m. auto.
  - (* the end of a stop: UnsubscribeAll and the registry entry go together *)
    rewrite (ProofsMail.exec1_cleanup s t h x Hg). cbn [fst].
    apply (entries_transfer s); [|apply Hkeep; reflexivity|exact E].
    intros ty' m p a Hin1 Hin2 _. cbn [subs set_subs set_reg reg] in *.
    pose proof (In_alookup_ne m p (a_path x) a Hin2 (unsub_all_no_entry _ _ _ _ Hin1)) as Hpne.
    assert (Hr : alookup (reg s) p = Some a -> alookup (aremove (reg s) (a_path x)) p = Some a)
      by (intros Hl; rewrite ProofsStream.alookup_aremove_other by exact Hpne; exact Hl).
    destruct (unsub_all_in _ _ _ _ Hin1) as (m0 & [(Ha & Hb & _)|(Ha & _)]).
    + subst m. apply aremove_in in Hin2. destruct Hin2 as [Hin2 _]. exists ty', m0. auto.
    + exists ty', m. auto.
Qed.

Theorem entries_mstep s m : Base s -> entries_live s -> entries_live (mstep s m).
Proof.
  intros HB E. destruct (mstep_tables s m) as [[Hs Hr]|(t & i & rest & -> & Hp & Hsi & Em)].
  - apply (entries_transfer s); [|apply mstep_keeps|exact E].
    intros ty mm p a H1 H2 _. rewrite Hs in H1. exists ty, mm. split; [exact H1|]. split; [exact H2|apply Hr].
  - rewrite Em. unfold astep.
    assert (Hyq : exists x, get s (self_of t) = Some x).
    { destruct t as [a|j]; cbn [self_of].
      - destruct (pend_of_TA_cons _ _ _ _ Hp) as (x & Hg & _). eauto.
      - destruct HB as (_ & _ & ((x0 & Hg0 & _) & _) & _). eauto. }
    destruct Hyq as [x Hg].
    pose proof (entries_set_pend s t rest E) as E0.
    destruct (set_pend_keeps s t rest _ x Hg) as (x0 & Hg0 & Hp0).
    assert (E1 : entries_live (fst (exec1 (set_pend s t rest) t (held_of (set_pend s t rest) t) i))).
    { apply (entries_exec1_stream _ t _ i x0 Hg0 Hsi); [|exact E0].
      intros Hne [ty ->]. rewrite set_pend_reg, Hp0.
      destruct t as [a|j]; cbn [self_of] in *; [|congruence].
      destruct (pend_of_TA_cons _ _ _ _ Hp) as (x1 & Hg1 & Hpx). assert (x1 = x) by congruence; subst x1.
      apply (user_action_registered s a x (ASub ty) rest HB Hg Hne Hpx). }
    destruct (exec1 (set_pend s t rest) t (held_of (set_pend s t rest) t) i) as [s1 front]. cbn [fst] in E1.
    apply entries_set_pend. exact E1.
Qed.

Lemma entries_init scs : entries_live (init_with scs).
Proof. intros ty m p a H. rewrite init_with_subs in H. destruct H. Qed.

Theorem entries_live_reachable s : reachable s -> entries_live s.
Proof.
  revert s. apply (micro_invariant_with Base entries_live); [apply Base_init|apply Base_mstep|apply entries_init|apply entries_mstep].
Qed.

Theorem Base_reachable s : reachable s -> Base s.
Proof. revert s. apply micro_invariant; [apply Base_init|intros s m; apply Base_mstep]. Qed.

Lemma unreg_step s ev c : unreg s c -> err (step s ev) = false -> unreg (step s ev) c.
Proof.
  intros H He. destruct (step_micro s ev He) as [ms ->]. clear He. revert s H.
  induction ms as [|m ms IH]; intros s H; [exact H|]. apply IH, unreg_mono, H.
Qed.

Lemma dead_unsub_along ty x evs : forall s xx,
  reachable s -> x <> 0 -> get s x = Some xx -> alookup (reg s) (a_path xx) <> Some x ->
  err (run_events evs s) = false -> unsub_along ty x evs s.
Proof.
  assert (Hnow : forall s xx0, reachable s -> x <> 0 -> get s x = Some xx0 -> alookup (reg s) (a_path xx0) <> Some x -> ~ sub_at s ty x).
  { intros s xx0 Hr Hne Hg Hn Hsub. unfold sub_at in Hsub. apply in_map_iff in Hsub. destruct Hsub as ([p a] & Ea & Hin). cbn [snd] in Ea. subst a.
    unfold subscribers in Hin. destruct (nlookup (subs s) ty) as [m|] eqn:En; [|destruct Hin].
    destruct (entries_live_reachable s Hr ty m p x (nlookup_in _ _ _ En) Hin Hne) as (x1 & Hg1 & Hp1 & Hl1).
    assert (x1 = xx0) by congruence; subst x1. apply Hn. rewrite Hp1. exact Hl1. }
  induction evs as [|ev r IH]; intros s xx Hr Hne Hg Hn He; cbn [unsub_along].
  - split; [apply (Hnow s xx Hr Hne Hg Hn)|exact I].
  - split; [apply (Hnow s xx Hr Hne Hg Hn)|].
    change (run_events (ev :: r) s) with (run_events r (step s ev)) in He.
    pose proof (err_false_run_head r s ev He) as He1.
    destruct (unreg_step s ev x (ex_intro _ xx (conj Hg Hn)) He1) as (xx' & Hg' & Hn').
    exact (IH (step s ev) xx' (ProofsSup.reachable_step s ev Hr He1) Hne Hg' Hn' He).
Qed.

Lemma dead_no_entry s x xx ty :
  reachable s -> x <> 0 -> get s x = Some xx -> alookup (reg s) (a_path xx) <> Some x -> ~ sub_at s ty x.
Proof.
  intros Hr Hne Hg Hn. assert (He : err s = false) by (destruct Hr as (scs & evs & _ & H); exact H).
  apply (dead_unsub_along ty x [] s xx Hr Hne Hg Hn He).
Qed.

Lemma dead_bound t ty x xx evs s :
  reachable s -> x <> 0 -> get s x = Some xx -> alookup (reg s) (a_path xx) <> Some x ->
  err (run_events evs s) = false ->
  deliveries t ty x evs s + inflight t ty x (run_events evs s) <= inflight t ty x s.
Proof. intros Hr Hne Hg Hn He. apply unsub_bound; [exact Hr|exact He|]. apply (dead_unsub_along ty x evs s xx); assumption. Qed.

Lemma delivered_nil ty x evs : forall s, (forall t, deliveries t ty x evs s = 0) -> delivered ty x evs s = [].
Proof.
  induction evs as [|ev r IH]; intros s H; [reflexivity|]. cbn [delivered].
  assert (H1 : delivered1 ty x s ev = []).
  { unfold delivered1. destruct (stream_push s ev) as [[[[t ty'] pl] to]|] eqn:Es; [|reflexivity].
    destruct (N.eqb ty' ty && match lands s to with Some y => Nat.eqb y x | None => false end) eqn:Eb; [|reflexivity].
    exfalso. specialize (H t). cbn [deliveries] in H. unfold delivers in H. rewrite Es, tid_eqb_refl in H. cbn [andb] in H.
    apply andb_true_iff in Eb. destruct Eb as [E1 E2]. rewrite E1, E2 in H. cbn in H. lia. }
  rewrite H1. cbn [app]. apply IH. intros t. specialize (H t). cbn [deliveries] in H. lia.
Qed.

Lemma delivered_exactly s t ty pl rest evs :
  reachable s -> just_published s t ty pl rest -> err (run_events evs s) = false ->
  length (subscribers s ty) <= npush t evs ->
  exists evs1 evs2 order,
    evs = evs1 ++ evs2 /\ Permutation (map snd (subscribers s ty)) order /\ NoDup order /\
    npush t evs1 = length (subscribers s ty) /\
    tpushes t evs1 s = map (fun a => (a, event_env ty pl)) order /\
    firstn (length (subscribers s ty)) (tpushes t evs s) = map (fun a => (a, event_env ty pl)) order /\
    pend_of (run_events evs1 s) t = IEnqDone :: rest.
Proof.
  intros Hr [Hne Hp] He Hlen. rewrite <- (map_map snd RObj) in Hp.
  assert (Hne' : map snd (subscribers s ty) <> []) by (destruct (subscribers s ty); [congruence|discriminate]).
  rewrite <- (map_length snd) in Hlen.
  destruct (fanout_completes t false root_ref (MEvent ty pl) rest (map snd (subscribers s ty)) evs s Hr Hp Hne' He Hlen)
    as (evs1 & evs2 & order & E & Hperm & Hn & Htp & Hfn & Hpd).
  rewrite map_length in Hn, Hfn. exists evs1, evs2, order. repeat split; try assumption.
  eapply Permutation_NoDup; [exact Hperm|].
  destruct (fanout_targets s ty Hr) as (_ & _ & Hnd). rewrite <- (map_map snd RObj) in Hnd. eapply NoDup_map_inv. exact Hnd.
Qed.

Lemma publisher_order s t ty pl rest a evs :
  reachable s -> just_published s t ty pl rest -> sub_at s ty a -> err (run_events evs s) = false ->
  length (subscribers s ty) <= npush t evs ->
  exists l1 l2,
    upushed a evs s = l1 ++ (t, event_env ty pl) :: l2 /\ (forall e, ~ In (t, e) l1) /\
    popped_run a false evs s ++ uq_at (run_events evs s) a = uq_at s a ++ map snd l1 ++ event_env ty pl :: map snd l2.
Proof.
  intros Hr [Hne Hp] Hsub He Hlen. rewrite <- (map_map snd RObj) in Hp. rewrite <- (map_length snd) in Hlen.
  assert (Hnd : NoDup (map snd (subscribers s ty))).
  { destruct (fanout_targets s ty Hr) as (_ & _ & Hnd). rewrite <- (map_map snd RObj) in Hnd. eapply NoDup_map_inv. exact Hnd. }
  destruct (publisher_first t root_ref (MEvent ty pl) rest (map snd (subscribers s ty)) a evs s Hr Hp Hnd Hsub He Hlen) as (l1 & l2 & E & Hl1).
  exists l1, l2. split; [exact E|]. split; [exact Hl1|].
  rewrite (user_fifo a evs s He), E, map_app. reflexivity.
Qed.

Fixpoint pops_run (b : aid) (evs : list event) (s : state) : list envelope :=
  match evs with [] => [] | ev :: r => (popped_from s ev b true ++ popped_from s ev b false) ++ pops_run b r (step s ev) end.
Fixpoint handled_run (b : aid) (evs : list event) (s : state) : list envelope :=
  match evs with [] => [] | ev :: r => handled_at s ev b ++ handled_run b r (step s ev) end.

Lemma handled_in_pop_order b evs : forall s,
  wf s -> err (run_events evs s) = false ->
  handled_run b evs s ++ held_at (run_events evs s) b = held_at s b ++ pops_run b evs s.
Proof.
  induction evs as [|ev r IH]; intros s W He; [cbn; rewrite app_nil_r; reflexivity|].
  change (run_events (ev :: r) s) with (run_events r (step s ev)) in *.
  pose proof (err_false_run_head r s ev He) as He1.
  destruct (step_wf_held s ev W He1) as [W1 Hh]. specialize (Hh b).
  cbn [handled_run pops_run].
  (* the hand holds at most one envelope, and an event either fills it or empties it *)
  assert (Hcases : (handled_at s ev b = [] /\ held_at (step s ev) b = held_at s b ++ popped_from s ev b true ++ popped_from s ev b false) \/
                   (popped_from s ev b true ++ popped_from s ev b false = [] /\ held_at s b = handled_at s ev b ++ held_at (step s ev) b)).
  { destruct ev; cbn [handled_at popped_from] in *; try (left; split; [reflexivity|rewrite app_nil_r in Hh; exact Hh]).
    right. split; [reflexivity|]. rewrite app_nil_r in Hh.
    destruct (Nat.eqb a b) eqn:Eab; [|cbn [app] in *; rewrite ?app_nil_r in Hh; symmetry; exact Hh].
    apply Nat.eqb_eq in Eab. subst a. unfold handle_of, held_at, held in *. cbn [step] in He1.
    destruct (get s b) as [x|] eqn:Hg; [|discriminate He1]. destruct (a_cons x) eqn:Hc; try discriminate He1.
    cbn [app] in *. destruct (match get (step s (EvHandle b)) b with Some x0 => match a_cons x0 with CH e0 => [e0] | _ => [] end | None => [] end) as [|e1 l1];
      [reflexivity|exfalso; cbn in Hh; inversion Hh as [[E1 E2]]; destruct l1; discriminate E2]. }
  destruct Hcases as [[H1 H2]|[H1 H2]].
  - rewrite H1. cbn [app]. rewrite (IH _ W1 He), H2, <- !app_assoc. reflexivity.
  - rewrite H1. cbn [app]. rewrite <- app_assoc, (IH _ W1 He), H2, <- app_assoc. reflexivity.
Qed.

Lemma unsub_none ty x evs s :
  reachable s -> err (run_events evs s) = false -> unsub_along ty x evs s ->
  (forall t, inflight t ty x s = 0) -> delivered ty x evs s = [].
Proof.
  intros Hr He Hu H0. apply delivered_nil. intros t. pose proof (unsub_bound t ty x evs s Hr He Hu) as H. rewrite (H0 t) in H. lia.
Qed.

Lemma delivery_lands s ev t ty pl to :
  reachable s -> stream_push s ev = Some (t, ty, pl, to) ->
  exists y, to = RObj y /\ forall x, lands s to = Some x -> x = y.
Proof.
  intros Hr Hs. destruct (stream_push_obj s ev t ty pl to Hr Hs) as [y ->]. exists y. split; [reflexivity|].
  intros x Hl. symmetry. apply (lands_obj_inv s y x Hr Hl).
Qed.
