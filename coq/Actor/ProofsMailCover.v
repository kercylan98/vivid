(** C09-d: in every reachable state, a paused actor that is (or will again be) running has a "cover" in flight - a
    resume / restart / kill directive for it or for an ancestor, or a supervision report / decision concerning it -
    positioned after its last pause.  Hence in a quiescent state no running, non-zombie actor is paused. *)
From Coq Require Import List NArith ZArith Bool Lia Arith.
From Vivid Require Import Actor.Core Actor.CoreRun Actor.SpecMail Actor.ProofsMailBase Actor.ProofsMail Actor.ProofsMailInv
  Actor.ProofsMailWf Actor.ProofsMailAcct Actor.ProofsMailReg Actor.ProofsMailMicro Actor.ProofsMailLife Actor.ProofsMailStep
  Actor.ProofsMailTree Actor.ProofsMailMK Actor.ProofsMailKids Actor.ProofsMailCtx Actor.ProofsMailMicro2 Actor.ProofsMailCache
  Actor.ProofsMailHyg Actor.ProofsMailView.
Import ListNotations.

Definition irf_ok (x : actor) : Prop := In IRestartFinish (lf (a_pend x)) -> a_restarting x <> None.
Definition IRF (s : state) : Prop := forall a x, get s a = Some x -> irf_ok x.

Lemma irf_astep_TA s a x i rest x' :
  get s a = Some x -> a_pend x = i :: rest -> linv x -> irf_ok x -> get (astep s (TA a) i rest) a = Some x' -> irf_ok x'.
Proof.
  intros Hg Hp Hinv Hirf Hg'. unfold irf_ok in Hirf. rewrite Hp in Hirf.
  destruct (life_plain_cases i) as [Hpl|Hli].
  - assert (Hpt : pend_of s (TA a) = i :: rest) by (rewrite (pend_of_TA _ _ _ Hg); exact Hp).
    destruct (astep_table s (TA a) i rest x Hg Hpt) as (_ & y & news & Hy & _ & _ & Ha & _). cbv zeta in *. cbn [self_of] in *.
    rewrite (get_upd_app s _ a x _ _ Hg Ha) in Hg'. inversion Hg'; subst x'.
    unfold irf_ok. cbn [pushed upd_pend a_pend a_restarting].
    match goal with |- context[exec1 ?s0 ?t0 ?h0 i] => destruct (exec1_front_plain s0 t0 h0 i Hpl) as [Hf _] end.
    rewrite lf_app, Hf. cbn [app]. intros Hin.
    apply andb_true_iff in Hpl. destruct Hpl as [Hlf _]. apply negb_true_iff in Hlf. rewrite (lf_cons_plain _ _ Hlf) in Hirf.
    destruct (lu_restarting _ _ _ Hy) as [Er|Er]; [rewrite Er; apply Hirf; exact Hin|subst i; discriminate Hlf].
  - destruct (astep_ltrans s a x rest i Hg Hli) as (y & front & L & E). rewrite E in Hg'. inversion Hg'; subst x'. clear Hg' E.
    destruct Hinv as (_ & _ & _ & _ & L5). unfold life_ok in L5. rewrite Hp in L5. rewrite lf_cons in L5, Hirf.
    unfold irf_ok. cbn [upd_pend a_pend a_restarting]. rewrite lf_app.
    destruct L as [p|w Hz|w Hz Hr|w Hz Hr|Hidle|Hc Hs| |Hok|Hok| ]; cbn [life] in L5, Hirf;
      try (destruct (lf rest) eqn:Hlr; [|contradiction]);
      rewrite ?lf_app, ?lf_cons; cbn [life app lf filter].
    + destruct (a_children x); cbn; intuition discriminate.
    + cbn; intuition discriminate.
    + cbn; intuition discriminate.
    + cbn; intuition discriminate.
    + intros [].
    + unfold marked. cbn [a_restarting set_mb set_state upd_local]. destruct (a_restarting x); cbn; intuition discriminate.
    + destruct (lf_cleanup a x) as [-> _]. intros [].
    + intros [].
    + intros [].
    + exact Hirf.
Qed.

Lemma IRF_mstep s m : wf s -> LI s -> IRF s -> IRF (mstep s m).
Proof.
  intros W HLI HI b x' Hg'.
  destruct (get s b) as [x|] eqn:Hg.
  2:{ destruct (mstep_new s m b x' Hg Hg') as (p & g & par & sp & ->). intros []. }
  assert (Hsoft : forall y, soft x y -> irf_ok y).
  { intros y (_ & _ & _ & Hp & _ & _ & Hr & _). unfold irf_ok. rewrite Hp, Hr. apply (HI _ _ Hg). }
  destruct (mstep_cases s m) as [Hq|[(t & i & rest & pre & s1 & Hp & Hpl & Hf & Hu & Hq & _ & E)|[(a & xa & e & -> & Hga & Hc)|(t & i & rest & -> & Hp & Hyl & Hq & E)]]].
  - destruct Hq as (_ & _ & _ & Hs & _). destruct (softT_get _ _ _ _ Hs Hg) as (y & Hy & Hsy). assert (y = x') by congruence; subst. auto.
  - rewrite E in Hg'. destruct Hq as (_ & _ & _ & Hs & _). destruct (softT_get _ _ _ _ Hs Hg) as (y & Hy & Hsy).
    assert (Hoth : get s1 b = Some x' -> irf_ok x') by (intros H; assert (y = x') by congruence; subst; auto).
    destruct t as [a|j]; [|apply Hoth; unfold get in *; rewrite set_pend_TX_actors in Hg'; exact Hg'].
    destruct (Nat.eq_dec a b) as [->|Hne].
    2:{ apply Hoth. cbn [set_pend] in Hg'. unfold with_actor in Hg'. destruct (get s1 a); [rewrite get_set_other in Hg' by exact Hne|]; exact Hg'. }
    rewrite (set_pend_TA _ _ _ _ Hy), (get_set_same' _ _ _ _ Hy) in Hg'. inversion Hg'; subst x'. rewrite (pend_of_TA _ _ _ Hg) in Hp.
    unfold irf_ok. cbn [upd_pend a_pend a_restarting]. rewrite lf_app, Hf. cbn [app]. intros Hin.
    destruct Hsy as (_ & _ & _ & _ & _ & _ & Hr & _). rewrite Hr. apply (HI _ _ Hg). rewrite Hp.
    apply andb_true_iff in Hpl. destruct Hpl as [Hl _]. apply negb_true_iff in Hl. rewrite (lf_cons_plain _ _ Hl). exact Hin.
  - destruct (mstep_handle s a xa e Hga Hc) as (y & _ & Hy & Ha & _). cbv zeta in *. rewrite (get_upd s _ a xa _ b Hga Ha) in Hg'.
    destruct (Nat.eqb_spec a b) as [->|Hne]; [|assert (x' = x) by congruence; subst; apply (HI _ _ Hg)].
    inversion Hg'; subst x'. pose proof (HLI _ _ Hga) as (L1 & _).
    destruct (dispatch_life _ b (busy xa) e (get_set_same' s b _ xa Hga) L1) as (y' & _ & _ & _ & _ & _ & _ & Hlf).
    unfold irf_ok. cbn [upd_pend a_pend]. intros Hin.
    destruct Hlf as [E|[[p E]|[w E]]]; rewrite E in Hin; cbn in Hin; intuition discriminate.
  - rewrite E in Hg'. destruct (Nat.eq_dec b (self_of t)) as [->|Hne].
    + destruct t as [a|j]; cbn [self_of] in *.
      * apply (irf_astep_TA s a x i rest x' Hg); [rewrite (pend_of_TA _ _ _ Hg) in Hp; exact Hp|apply (HLI _ _ Hg)|apply (HI _ _ Hg)|exact Hg'].
      * (* external caller: the root's pending list and restart flag are untouched *)
        pose proof (ext_head s j i rest W Hp) as Hi.
        destruct (astep_table s (TX j) i rest x Hg Hp) as (_ & y & news & Hy & _ & _ & Ha & _). cbv zeta in *. cbn [self_of] in *.
        rewrite (get_upd_app s _ 0 x _ _ Hg Ha) in Hg'. inversion Hg'; subst x'.
        unfold irf_ok. cbn [pushed]. rewrite (lu_pend _ _ _ Hy). cbn [popped].
        destruct (lu_restarting _ _ _ Hy) as [Er|Er]; [rewrite Er; apply (HI _ _ Hg)|subst i; discriminate Hi].
    + destruct (foreign_astep s t i rest b x Hg Hne) as (y & Hy & Hls). assert (y = x') by congruence; subst. apply Hsoft. apply soft_lsame. exact Hls.
Qed.

Lemma IRF_init scs : IRF (init_with scs).
Proof. intros a x Hg. destruct (get_init scs a x Hg) as [_ ->]. intros []. Qed.

Inductive kind := KPause | KCover | KOther.

Definition kenv (e : envelope) : kind :=
  if e_sys e then
    match e_msg e with
    | MCmdPause => KPause
    | MCmdResume => KCover
    | MKill _ false => KCover
    | MRestart false => KCover
    | _ => KOther
    end
  else KOther.
Definition kinstr (i : instr) : kind := match i with IPauseSt => KPause | IResume1 => KCover | _ => KOther end.

(** the actor's own pipeline, in processing order: its handler's pending list, the envelope in hand, the system queue *)
Definition pipeline (x : actor) : list kind := map kinstr (a_pend x) ++ map kenv (held x) ++ map kenv (a_sq x).
Definition knext (n : bool) (k : kind) : bool := match k with KPause => true | KCover => false | KOther => n end.
Definition need_after (l : list kind) (flag : bool) : bool := fold_left knext l flag.
Definition is_running (st : astate) : bool := match st with Running => true | _ => false end.
Definition eflag (x : actor) : bool := a_paused x && is_running (a_state x).

Definition inscope (x : actor) : Prop :=
  a_zombie x = false /\
  (a_state x = Running \/ (a_restarting x <> None /\ (a_state x = Killing \/ In IRestartFinish (lf (a_pend x))))).

Inductive anc (s : state) (q : aid) : aid -> Prop :=
| anc_refl : anc s q q
| anc_step a x p : get s a = Some x -> a_parent x = Some p -> anc s q p -> anc s q a.

Definition sub_targets (c : supctx) : list rref :=
  match c with SupCtx _ _ sub => match sub with Some c1 => chain_targets c1 | None => [] end end.
Definition covers_ctx (a : aid) (c : supctx) : Prop :=
  match c with SupCtx ch ts _ => ch = RObj a \/ In (RObj a) (chain_targets c) end.

(** message [m], addressed to actor [tgt], will lead to a resume of [a] or to its termination *)
Definition cmsg (s : state) (a tgt : aid) (m : msg) : Prop :=
  match m with
  | MCmdResume => tgt = a
  | MKill _ false | MRestart false => anc s tgt a
  | MSup c => covers_ctx a c
  | _ => False
  end.
Definition ref_target (r : rref) : option aid := match r with RObj b => Some b | RNone => Some 0 | RFresh _ => None end.
Definition mb_target (mb : mbox) : option aid := match mb with MbActor b => Some b | MbRoot => Some 0 | MbDead => None end.

Definition cinstr (s : state) (a self : aid) (i : instr) : Prop :=
  match i with
  | IEnq true r _ m => exists b, ref_target r = Some b /\ cmsg s a b m
  | IEnqR true mb _ m => exists b, mb_target mb = Some b /\ cmsg s a b m
  | IEnqAny true tos _ m => exists b, In (RObj b) tos /\ cmsg s a b m
  | ISupPause c d rem done => In (RObj a) (rem ++ done) \/ In (RObj a) (sub_targets c)
  | ISupApply c d targets => In (RObj a) targets \/ In (RObj a) (sub_targets c)
  | IDoKill false => anc s self a /\ self <> a
  | _ => False
  end.

Definition cov (s : state) (a : aid) : Prop :=
  (exists t i, In i (pend_of s t) /\ cinstr s a (self_of t) i) \/
  (exists q xq e, q <> a /\ get s q = Some xq /\ In e (held xq ++ a_sq xq) /\ e_sys e = true /\ cmsg s a q (e_msg e)).

Definition CInv (s : state) : Prop :=
  forall a x, get s a = Some x -> a <> 0 -> inscope x -> need_after (pipeline x) (eflag x) = true -> cov s a.

Lemma anc_le s q a : RInv s -> anc s q a -> q <= a.
Proof.
  intros (Ra & Rb & _) H. induction H as [|a x p Hg Hp _ IH]; [lia|].
  destruct (Nat.eq_dec a 0) as [->|Hne].
  - exfalso. destruct Ra as (x0 & Hg0 & Hp0 & _). assert (x = x0) by congruence; subst. congruence.
  - destruct (Rb a x Hg Hne) as [(p' & Hp' & Hlt) _]. assert (p' = p) by congruence; subst. lia.
Qed.

Lemma anc_mstep s m q a : anc s q a -> anc (mstep s m) q a.
Proof.
  intros H. induction H as [|a x p Hg Hp _ IH]; [apply anc_refl|].
  destruct (idT_mstep s m a x Hg ltac:(tauto)) as (x' & Hg' & _ & Hp' & _). eapply anc_step; [exact Hg'|rewrite Hp'; exact Hp|exact IH].
Qed.

Lemma anc_trans s q p a : anc s q p -> anc s p a -> anc s q a.
Proof. intros H1 H2. induction H2 as [|a x p' Hg Hp _ IH]; [exact H1|]. eapply anc_step; eauto. Qed.

Lemma anc_child s q a x : get s a = Some x -> a_parent x = Some q -> anc s q a.
Proof. intros Hg Hp. eapply anc_step; [exact Hg|exact Hp|apply anc_refl]. Qed.

Lemma anc_alive s q a x :
  LI s -> RInv s -> KInv s -> get s a = Some x -> a <> 0 -> regd s a x -> anc s q a -> q <> a ->
  exists xq c xc, get s q = Some xq /\ a_state xq <> Killed /\ a_zombie xq = false /\ (q <> 0 -> regd s q xq) /\
                  get s c = Some xc /\ a_parent xc = Some q /\ alookup (a_children xq) (a_path xc) = Some c /\ c <> 0 /\ regd s c xc /\ anc s c a.
Proof.
  intros HLI HR HK Hg Hne Hreg Hanc. revert x Hg Hne Hreg.
  induction Hanc as [|a x0 p Hg0 Hp0 Hanc IH]; intros x Hg Hne Hreg Hqa; [congruence|].
  assert (x0 = x) by congruence; subst x0.
  destruct (parent_alive s a x HLI HR HK Hg Hne Hreg) as (p' & xp & Hp' & Hlt & Hxp & Hlk & Hst & Hz & Hrp).
  assert (p' = p) by congruence; subst p'.
  destruct (Nat.eq_dec q p) as [->|Hqp].
  - exists xp, a, x. repeat split; auto. apply anc_refl.
  - assert (Hp0' : p <> 0).
    { intros ->. apply Hqp. pose proof (anc_le s q 0 HR Hanc). lia. }
    destruct (IH xp Hxp Hp0' (Hrp Hp0') Hqp) as (xq & c & xc & H1 & H2 & H3 & H4 & H5 & H6 & H7 & H8 & H9 & H10).
    exists xq, c, xc. repeat split; auto. eapply anc_step; [exact Hg|exact Hp0|exact H10].
Qed.

Lemma resolve_registered s b xb :
  RInv s -> get s b = Some xb -> b <> 0 -> regd s b xb -> fst (resolve s (RObj b)) = MbActor b.
Proof.
  intros (_ & _ & _ & _ & R8) Hg Hne Hreg. unfold resolve. rewrite Hg. destruct (a_cache xb) as [y|] eqn:Hc.
  - destruct (R8 b xb y Hg Hc) as [->|Hn]; [reflexivity|contradiction].
  - unfold regd in Hreg. rewrite Hreg. reflexivity.
Qed.
Lemma resolve_root s : RInv s -> RootC s -> fst (resolve s (RObj 0)) = MbRoot /\ fst (resolve s RNone) = MbRoot.
Proof.
  intros (Ra & _ & Rc & _) HC. destruct Ra as (x0 & Hg0 & _ & Hp0). split; [|reflexivity].
  unfold resolve. rewrite Hg0, (HC _ Hg0), Hp0, Rc. reflexivity.
Qed.

Lemma need_app l1 l2 f : need_after (l1 ++ l2) f = need_after l2 (need_after l1 f).
Proof. apply fold_left_app. Qed.
Lemma need_mono l : forall f g, (f = true -> g = true) -> need_after l f = true -> need_after l g = true.
Proof.
  induction l as [|k l IH]; intros f g H; cbn [need_after fold_left]; [exact H|].
  apply IH. destruct k; cbn [knext]; auto.
Qed.
Lemma need_others l f : Forall (fun k => k = KOther) l -> need_after l f = f.
Proof. intros H. revert f. induction H as [|k l -> _ IH]; intros f; cbn [need_after fold_left knext]; [reflexivity|apply IH]. Qed.
Lemma need_false_true l : need_after l false = true -> forall f, need_after l f = true.
Proof. intros H f. apply (need_mono l false f); [discriminate|exact H]. Qed.

Lemma cmsg_mono s s' a b m : (forall q c, anc s q c -> anc s' q c) -> cmsg s a b m -> cmsg s' a b m.
Proof. intros H. destruct m; cbn [cmsg]; auto. destruct poison; auto. destruct poison; auto. Qed.
Lemma cinstr_mono s s' a self i : (forall q c, anc s q c -> anc s' q c) -> cinstr s a self i -> cinstr s' a self i.
Proof.
  intros H. destruct i; cbn [cinstr]; auto.
  - destruct sys; [|auto]. intros (b & H1 & H2). exists b. split; [exact H1|eapply cmsg_mono; eauto].
  - destruct sys; [|auto]. intros (b & H1 & H2). exists b. split; [exact H1|eapply cmsg_mono; eauto].
  - destruct sys; [|auto]. intros (b & H1 & H2). exists b. split; [exact H1|eapply cmsg_mono; eauto].
  - destruct poison; [auto|]. intros [H1 H2]. split; [apply H; exact H1|exact H2].
Qed.

Lemma inscope_regd s a x : RInv s -> get s a = Some x -> a <> 0 -> inscope x -> regd s a x.
Proof.
  intros (_ & _ & _ & R1 & _) Hg Hne [_ Hs]. apply (R1 a x Hg Hne). unfold must_reg.
  destruct Hs as [E|[_ [E|E]]]; [left; congruence|left; congruence|right; right; left; exact E].
Qed.

Lemma anc_get s q a x : RInv s -> get s a = Some x -> anc s q a -> exists xq, get s q = Some xq.
Proof.
  intros HR Hg Hanc. revert x Hg. induction Hanc as [|a x0 p Hg0 Hp0 Hanc IH]; intros x Hg; [eauto|].
  destruct HR as (Ra & Rb & HR'). destruct (Nat.eq_dec a 0) as [->|Hne].
  - destruct Ra as (xr & Hgr & Hpr & _). assert (x0 = xr) by congruence; subst. congruence.
  - destruct (Rb a x0 Hg0 Hne) as [(p' & Hp' & Hlt) _]. assert (p' = p) by congruence; subst p'.
    assert (Hl : p < length (actors s)) by (pose proof (nth_error_lt _ _ _ Hg0); lia).
    destruct (get s p) as [xp|] eqn:Hgp; [|apply nth_error_None in Hgp; lia].
    apply (IH xp eq_refl).
Qed.

Lemma chain_anc s a xa :
  LI s -> RInv s -> KInv s -> get s a = Some xa -> a <> 0 -> regd s a xa ->
  forall c1 b, lvl_ok s b c1 -> ctx_sub_ok s c1 -> In (RObj a) (chain_targets c1) -> anc s b a /\ b <> a.
Proof.
  intros HLI HR HK Hga Hne Hreg. fix IH 1. intros [ch1 ts1 [c2|]] b; cbn [lvl_ok ctx_sub_ok chain_targets].
  - intros [Hts Hch] [(b1 & -> & Hl2) Hs2] Hin. apply in_app_or in Hin.
    assert (Hdirect : In (RObj a) ts1 -> anc s b a /\ b <> a).
    { intros Hi. destruct (Hts _ Hi) as (d & xd & E & Hd0 & Hgd & Hpd). inversion E; subst d. assert (xd = xa) by congruence; subst xd.
      destruct Hpd as [Hp|(xc & Hxc & Hn)]; [|exfalso; assert (xc = xa) by congruence; subst; exact (Hn Hreg)].
      split; [eapply anc_child; eauto|]. destruct HR as (_ & Rb & _). destruct (Rb a xa Hga Hne) as [(q & Hq & Hlt) _]. assert (q = b) by congruence. lia. }
    destruct Hin as [Hi|Hi]; [exact (Hdirect Hi)|].
    destruct (IH c2 b1 Hl2 Hs2 Hi) as [Ha1 Hn1].
    (* b1 is a proper ancestor of a registered context, hence registered, hence still a child of b *)
    destruct (anc_alive s b1 a xa HLI HR HK Hga Hne Hreg Ha1 Hn1) as (xb1 & c & xc & Hgb1 & _ & _ & Hrb1 & _).
    assert (Hb1 : anc s b b1 /\ b1 <> 0).
    { destruct Hch as [Hi1|(d & E & Hd0 & (xd & Hxd & Hn))].
      - destruct (Hts _ Hi1) as (d & xd & E & Hd0 & Hgd & Hpd). inversion E; subst d. assert (xd = xb1) by congruence; subst xd.
        split; [|exact Hd0]. destruct Hpd as [Hp|(xc' & Hxc' & Hn)]; [eapply anc_child; eauto|].
        exfalso. assert (xc' = xb1) by congruence; subst. exact (Hn (Hrb1 Hd0)).
      - inversion E; subst d. exfalso. assert (xd = xb1) by congruence; subst. exact (Hn (Hrb1 Hd0)). }
    destruct Hb1 as [Hbb1 _]. split; [eapply anc_trans; eauto|].
    pose proof (anc_le s b b1 HR Hbb1). pose proof (anc_le s b1 a HR Ha1). lia.
  - intros [Hts Hch] _ Hin. rewrite app_nil_r in Hin.
    destruct (Hts _ Hin) as (d & xd & E & Hd0 & Hgd & Hpd). inversion E; subst d. assert (xd = xa) by congruence; subst xd.
    destruct Hpd as [Hp|(xc & Hxc & Hn)]; [|exfalso; assert (xc = xa) by congruence; subst; exact (Hn Hreg)].
    split; [eapply anc_child; eauto|]. destruct HR as (_ & Rb & _). destruct (Rb a xa Hga Hne) as [(q & Hq & Hlt) _]. assert (q = b) by congruence. lia.
Qed.
