(** The ghost log along a run: apart from the guard's own [OGuardClosed] marks it consists exactly of what the
    handler calls record - one [ODeadLetter] per dead-letter report handled by the running guard, one [ODropped]
    per envelope handled by the stopped guard. *)
From Coq Require Import List Bool.
From Vivid Require Import Actor.Core Actor.CoreRun Actor.SpecMail Actor.SpecStash Actor.ProofsMailBase Actor.ProofsMail Actor.ProofsMailInv
  Actor.ProofsStep.
Import ListNotations.

Definition closes (l : list obs) : Prop := filter not_guard_closed l = [].

Definition ghost_rel (s s' : state) : Prop := exists l, ghost s' = ghost s ++ l /\ closes l.
Lemma ghost_rel_refl s : ghost_rel s s.
Proof. exists []. rewrite app_nil_r. split; reflexivity. Qed.
Lemma ghost_rel_trans a b c : ghost_rel a b -> ghost_rel b c -> ghost_rel a c.
Proof.
  intros (l1 & H1 & C1) (l2 & H2 & C2). exists (l1 ++ l2). rewrite H2, H1, app_assoc. split; [reflexivity|].
  unfold closes in *. rewrite filter_app, C1, C2. reflexivity.
Qed.
Lemma ghost_rel_eq s s' : ghost s' = ghost s -> ghost_rel s s'.
Proof. intros H. exists []. rewrite app_nil_r. split; [exact H|reflexivity]. Qed.

Lemma ghost_rel_run_atomic f s t : ghost_rel s (run_atomic f s t).
Proof.
  apply run_atomic_rel.
  - apply ghost_rel_refl.
  - apply ghost_rel_trans.
  - intros; apply ghost_rel_eq; reflexivity.
  - intros; apply ghost_rel_eq, set_pend_ghost.
  - intros; apply ghost_rel_eq, resolve_ghost.
  - intros s0 h i. destruct (exec1_state s0 t h i) as (_ & [H|[H _]] & _); [apply ghost_rel_eq; exact H|].
    exists [OGuardClosed]. split; [exact H|reflexivity].
Qed.

Lemma dispatch_ghost_spec s a x e : ghost (fst (dispatch s a x e)) = ghost s ++ dispatch_ghost x e.
Proof.
  unfold dispatch_ghost.
  destruct (dispatch_cases s a x e) as [Hd Hz Hp|p Hd Hz Hp|r -> []]; rewrite ?Hd, ?Hz, ?Em, ?Hp; cbn [fst andb negb];
    try (symmetry; apply app_nil_r); reflexivity.
Qed.

Lemma ghost_step s ev : exists l, ghost (step s ev) = ghost s ++ event_ghost s ev ++ l /\ closes l.
Proof.
  (* only HandleEnvelop writes the log outside the atomic phase: every other prefix keeps it *)
  assert (Hpre : forall s' t, (forall a, ev <> EvHandle a) -> pre_atomic s ev = Some (s', t) -> ghost_rel s s').
  { apply (pre_atomic_rel (fun _ => ghost_rel)); intros; try (apply ghost_rel_eq; first [reflexivity|apply set_pend_ghost]).
    eapply ghost_rel_trans; eassumption. }
  assert (Hno : pre_atomic s ev = None -> ghost_rel s (step s ev)).
  { apply (no_atomic_rel (fun _ => ghost_rel));
      intros; try (apply ghost_rel_eq; first [reflexivity|apply set_pend_ghost|apply push_mb_fields|apply resolve_ghost]).
    eapply ghost_rel_trans; eassumption. }
  assert (Hrel : event_ghost s ev = [] -> ghost_rel s (step s ev) -> exists l, ghost (step s ev) = ghost s ++ event_ghost s ev ++ l /\ closes l).
  { intros -> (l & H & C). exists l. auto. }
  rewrite (step_pre s ev) in *. destruct (pre_atomic s ev) as [[s' t]|] eqn:E.
  - destruct (pre_atomic_cases s ev s' t E) as [_ [(a & x & e & -> & Hg & Hc & ->)|[Hn _]]].
    + cbn [event_ghost]. rewrite Hg, Hc.
      destruct (ghost_rel_run_atomic FUEL (set_pend (fst (dispatch (set_actor s a (busy x)) a (busy x) e)) t
                  (snd (dispatch (set_actor s a (busy x)) a (busy x) e))) t) as (l & Hl & Cl).
      exists l. split; [|exact Cl]. rewrite Hl, set_pend_ghost, dispatch_ghost_spec. cbn [set_actor ghost].
      rewrite <- app_assoc. reflexivity.
    + apply Hrel; [destruct ev; try reflexivity; destruct (Hn a eq_refl)|].
      eapply ghost_rel_trans; [exact (Hpre s' t Hn eq_refl)|apply ghost_rel_run_atomic].
  - apply Hrel; [|exact (Hno eq_refl)]. destruct ev; try reflexivity. cbn [pre_atomic event_ghost] in *.
    destruct (get s a) as [x|]; [|reflexivity]. destruct (a_cons x); try reflexivity. destruct (dispatch _ a _ e). discriminate E.
Qed.

Lemma filter_closes l : closes l -> filter not_guard_closed l = []. Proof. auto. Qed.

Theorem ghost_run evs : forall s,
  filter not_guard_closed (ghost (run_events evs s)) =
  filter not_guard_closed (ghost s) ++ filter not_guard_closed (run_ghost evs s).
Proof.
  induction evs as [|ev r IH]; intros s; [cbn; rewrite app_nil_r; reflexivity|].
  change (run_events (ev :: r) s) with (run_events r (step s ev)). cbn [run_ghost].
  rewrite IH. destruct (ghost_step s ev) as (l & Hl & Cl). rewrite Hl, !filter_app, Cl, app_nil_r, <- app_assoc. reflexivity.
Qed.

Lemma ghost_init scs : ghost (init_with scs) = [].
Proof. unfold init_with. destruct (set_exts_fields scs (init_state (length scs)) 0) as (_ & _ & _ & _ & ->). reflexivity. Qed.

Theorem ghost_run_init scs evs :
  filter not_guard_closed (ghost (run_events evs (init_with scs))) = filter not_guard_closed (run_ghost evs (init_with scs)).
Proof. rewrite ghost_run, ghost_init. reflexivity. Qed.

Lemma dispatch_stash_frame s a x e : get s a = Some x -> keeps a_stash [] s (fst (dispatch s a x e)).
Proof.
  intros Hg. apply keeps_dispatch; [exact Hg|]. intros y Hy. exact (df_stash _ _ Hy).
Qed.
