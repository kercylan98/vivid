(** C06 invariants: Killed => no children; released is final (at most one cleanup per context);
    registry / children-map / generation bookkeeping. *)
From Coq Require Import List NArith Arith Bool Lia.
From Vivid Require Import Actor.Core Actor.ProofsMailBase Actor.ProofsMail Actor.ProofsMailInv Actor.ProofsMailWf Actor.SpecStash Actor.ProofsStep Actor.SpecLife Actor.ProofsLife Actor.ProofsLifeInv Actor.ProofsLifeSum Actor.ProofsLifePhase Actor.ProofsLifeGen.
Import ListNotations.
Local Open Scope N_scope.

Definition knc (a : aid) (x : actor) : Prop := a_state x = Killed -> a_children x = [].

Lemma get_functional s a x y : get s a = Some x -> get s a = Some y -> x = y.
Proof. congruence. Qed.

Lemma knc_exec s t h i s1 front x0 x1 :
  exec1 s t h i = (s1, front) -> get s (self_of t) = Some x0 -> get s1 (self_of t) = Some x1 ->
  knc (self_of t) x0 -> knc (self_of t) x1.
Proof.
  intros He Hg Hg1 HP Hk. unfold knc in HP.
  destruct (exec1_self _ _ _ _ _ _ _ He Hg) as (x' & Hg' & Hl). rewrite Hg1 in Hg'. injection Hg' as <-.
  destruct (lu_state _ _ _ Hl) as [Es|[(-> & Hs0 & _)|(-> & Hr)]]; [| |congruence].
  - rewrite Es in Hk. specialize (HP Hk).
    destruct (lu_children _ _ _ Hl) as [Ec|[(sp & ->)|(w & ->)]]; [congruence| |].
    + (* ActorOf by a Killed context is refused *)
      rewrite (exec1_spawn_parent_dead s t h sp x0 Hg Hk) in He. injection He as <- _.
      change (get (add_obs s (OSpawn (self_of t) (sp_name sp) 1)) (self_of t)) with (get s (self_of t)) in Hg1. congruence.
    + (* OnKilled only ever removes an entry *)
      destruct (a_zombie x0) eqn:Hz.
      { rewrite (exec1_onkilled_zombie _ _ _ _ w Hg Hz) in He. injection He as <- _. congruence. }
      destruct (ref_eq s w (RObj (self_of t))) eqn:Hre.
      { rewrite (exec1_IOnKilled_own _ _ _ _ w Hg Hz Hre) in He. injection He as <- _. congruence. }
      destruct (exec1_IOnKilled_other _ _ h _ w Hg Hz Hre) as (x' & He' & Hch & _).
      rewrite He' in He. injection He as <- _. rewrite (get_set_same' _ _ _ _ Hg) in Hg1. injection Hg1 as <-.
      destruct Hch as [->|(c & p & _ & _ & _ & ->)]; [exact HP|rewrite HP; reflexivity].
  - (* the mark is only set when no child is left *)
    destruct (lu_children _ _ _ Hl) as [->|[(sp & E)|(w & E)]]; try discriminate E.
    destruct (a_children x0) eqn:Hc; [reflexivity|].
    rewrite (exec1_ICheckMark_noop _ _ h _ Hg) in He by (left; congruence). injection He as <- _. congruence.
Qed.

Lemma dispatch_state_children s a x e s1 ins y :
  get s a = Some x -> dispatch s a x e = (s1, ins) -> get s1 a = Some y ->
  a_children y = a_children x /\ a_zombie y = a_zombie x /\
  (a_state y = a_state x \/ (a_state x = Running /\ a_state y = Killing)).
Proof.
  intros Hg.
  destruct (dispatch_cases s a x e) as [| |r _ []]; intros He Hy; injection He as <- <-.
  all: rewrite ?get_add_ghost, ?(get_set_same' _ _ _ _ Hg), ?Hg in Hy; injection Hy as <-.
  all: cbn; auto.
Qed.

Theorem killed_no_children s a x : reachable s -> get s a = Some x -> a_state x = Killed -> a_children x = [].
Proof.
  intros Hr. revert a x. apply (LQ_reachable knc); try exact Hr.
  - intros a x y Hv HP. unfold knc. destruct Hv as (_ & _ & _ & _ & -> & _ & _ & -> & _). exact HP.
  - intros a p n g pa sp _. unfold knc. reflexivity.
  - unfold knc. reflexivity.
  - intros s0 a x i rest h s1 front x1 _ _ _ HP Hg He Hg1.
    apply (knc_exec s0 (TA a) h i s1 front (upd_pend x rest) x1 He Hg Hg1). exact HP.
  - intros s0 k x i h s1 front x1 _ HP Hg He Hg1. apply (knc_exec s0 (TX k) h i s1 front x x1 He Hg Hg1 HP).
  - intros s0 a x e s1 ins y _ HP Hg Hd Hy. unfold knc in *.
    destruct (dispatch_state_children _ _ _ _ _ _ _ Hg Hd Hy) as (-> & _ & [->|[_ ->]]); [exact HP|discriminate].
Qed.

Lemma dispatch_dead s a x e :
  a_state x = Killed -> a_zombie x = false ->
  dispatch s a x e =
    match a_parent x with
    | None => (add_ghost s (ODropped (e_msg e)), [IEndHandler])
    | Some _ => (s, [IEnqMb 0 {| e_sys := false; e_sender := root_ref; e_msg := MDeadLetter (e_sys e) (e_msg e) |}; IEnqDone; IEndHandler])
    end.
Proof. intros Hs Hz. unfold dispatch. rewrite Hs, Hz. reflexivity. Qed.

Definition rel (a : aid) (s : state) : Prop := exists x, get s a = Some x /\ released x.

Lemma released_lsame x y : lsame x y -> released x -> released y.
Proof.
  intros Hl (H1 & H2 & H3). destruct Hl as (_ & _ & _ & _ & Hs & Hz & _ & _ & _ & _ & _ & _ & _ & _ & _ & _ & Hp).
  unfold released. rewrite Hs, Hz, Hp. auto.
Qed.

Lemma nonsig_life i : sig i = false -> life_src i = false /\ is_unzombie i = false.
Proof. unfold sig. intros H. repeat (apply orb_false_elim in H as [H ?]). auto. Qed.

Lemma released_pop x i rest front y :
  released x -> a_pend x = i :: rest -> life_src i = false -> is_unzombie i = false ->
  (forall j, In j front -> life_src j = false) ->
  a_state y = a_state x -> a_zombie y = a_zombie x -> a_pend y = front ++ rest -> released y.
Proof.
  intros (H1 & H2 & H3) Hp Hl Hu Hf E1 E2 E3. unfold released. rewrite E1, E2, E3. rewrite Hp in H2, H3.
  cbn [forallb existsb] in H2, H3. rewrite Hl in H2. rewrite Hu in H3. cbn in H2, H3.
  split; [exact H1|]. split.
  - rewrite forallb_app. rewrite H2, andb_true_r. apply forallb_forall. intros j Hj.
    rewrite (Hf j Hj). reflexivity.
  - intros Hz. rewrite existsb_app. rewrite (H3 Hz). apply orb_true_r.
Qed.

Lemma rel_mb a s s' : mb_equiv s s' -> rel a s -> rel a s'.
Proof.
  intros (Hm & _) (x & Hg & Hr). specialize (Hm a). rewrite Hg in Hm. unfold rel.
  destruct (get s' a) as [y|]; [|contradiction]. exists y. split; [reflexivity|apply (released_lsame x y Hm Hr)].
Qed.

Lemma rel_pop a s t i rest front :
  rel a s -> pend_of s t = i :: rest -> sig i = false -> (forall j, In j front -> sig j = false) ->
  rel a (set_pend s t (front ++ rest)).
Proof.
  intros (x & Hg & Hr) Hp Hs Hf. destruct t as [b|k].
  - destruct (Nat.eq_dec b a) as [->|Hba].
    + exists (upd_pend x (front ++ rest)). split; [apply (get_set_pend_TA_same _ _ _ _ Hg)|].
      cbn [pend_of] in Hp. rewrite Hg in Hp.
      destruct (nonsig_life _ Hs) as [Hl Hu].
      apply (released_pop x i rest front _ Hr Hp Hl Hu); try reflexivity. intros j Hj. apply (nonsig_life _ (Hf j Hj)).
    + exists x. split; [rewrite get_set_pend_TA_other by exact Hba; exact Hg|exact Hr].
  - exists x. split; [rewrite get_set_pend_TX; exact Hg|exact Hr].
Qed.

Lemma rel_cons a s b x sq uq pa co cu :
  rel a s -> get s b = Some x -> a_pend x = [] -> rel a (set_actor s b (set_mb x sq uq pa co cu)).
Proof.
  intros (y & Hg & Hr) Hgb _. destruct (Nat.eq_dec b a) as [->|Hba].
  - rewrite Hg in Hgb. inversion Hgb; subst y. eexists. split; [apply (get_set_same' _ _ _ _ Hg)|]. exact Hr.
  - exists y. split; [rewrite get_set_other by exact Hba; exact Hg|exact Hr].
Qed.

Lemma released_exec_self a s0 x i rest h s1 front x1 :
  INV a x -> a_pend x = i :: rest -> yielding i = false ->
  get s0 a = Some (upd_pend x rest) -> exec1 s0 (TA a) h i = (s1, front) -> get s1 a = Some x1 ->
  (released x -> i <> ICleanup /\ released (upd_pend x1 (front ++ rest))) /\
  (i = ICleanup -> released (upd_pend x1 (front ++ rest))).
Proof.
  intros HI Hpx Hy Hg0 He Hg1. change a with (self_of (TA a)) in Hg0, Hg1.
  destruct (exec1_self _ _ _ _ _ _ _ He Hg0) as (y & Hy1 & Hl). rewrite Hg1 in Hy1. injection Hy1 as <-.
  unfold released. cbn [upd_pend a_state a_zombie a_pend]. split.
  - (* nothing that changes the state or leads to a cleanup is pending; only IUnzombie clears the flag *)
    intros (R1 & R2 & R3). rewrite Hpx in R2, R3. cbn [forallb existsb] in R2, R3.
    apply andb_prop in R2 as [R2 R2']. apply negb_true_iff in R2.
    assert (Hgs : gen_sig i = false) by (destruct i; try reflexivity; discriminate R2).
    assert (C1 : chg_state i = false) by (destruct i; try reflexivity; discriminate R2).
    split; [intros ->; discriminate R2|]. rewrite (lu_state_keep _ _ _ Hl C1). split; [exact R1|]. split.
    + rewrite forallb_app, R2', andb_true_r. apply forallb_forall. intros j Hj.
      destruct (nonsig_life _ (exec1_front_plain _ _ _ _ _ _ Hgs He j Hj)) as [-> _]. reflexivity.
    + intros Hz1. rewrite existsb_app. apply orb_true_intro. right.
      destruct (is_unzombie i) eqn:Hu.
      { destruct i; try discriminate Hu. rewrite (exec1_unzombie _ _ _ _ Hg0) in He. injection He as <- _.
        rewrite (get_set_same' _ _ _ _ Hg0) in Hg1. injection Hg1 as <-. discriminate Hz1. }
      assert (C2 : chg_zombie i = false) by (destruct i; try reflexivity; first [discriminate R2|discriminate Hu]).
      rewrite (lu_zombie_keep _ _ _ Hl C2) in Hz1. apply (R3 Hz1).
  - (* the cleanup of a Killed context: only IEndHandler, after IUnzombie for a zombie, is still to come *)
    intros ->. destruct (INV_head _ _ _ _ HI Hpx) as (_ & _ & _ & Hph).
    rewrite (lu_state_keep _ _ _ Hl eq_refl), (lu_zombie_keep _ _ _ Hl eq_refl). cbn [upd_pend a_state a_zombie].
    assert (Hfront : forallb (fun j => negb (life_src j)) front = true).
    { apply forallb_forall. intros j Hj. destruct (nonsig_life _ (exec1_front_plain _ _ _ ICleanup _ _ eq_refl He j Hj)) as [-> _]. reflexivity. }
    assert (Hrest : forall L, L = filter sig rest -> forallb (fun j => negb (life_src j)) L = true ->
                    forallb (fun j => negb (life_src j)) rest = true).
    { intros L -> HL. apply forallb_forall. intros j Hj. destruct (life_src j) eqn:Hlj; [|reflexivity].
      rewrite forallb_forall in HL. specialize (HL j). rewrite Hlj in HL. apply HL, filter_In. split; [exact Hj|].
      unfold sig. rewrite Hlj. reflexivity. }
    rewrite forallb_app, Hfront. inversion Hph; subst; (split; [assumption|]);
      (split; [eapply Hrest; [eassumption|reflexivity]|]); intros Hzz; try congruence.
    rewrite existsb_app. apply orb_true_intro. right. apply existsb_exists. exists IUnzombie. split; [|reflexivity].
    apply (proj1 (filter_In sig IUnzombie rest)). match goal with H : _ = filter sig rest |- _ => rewrite <- H end. left. reflexivity.
Qed.

Lemma exec1_keeps s t h i s' front b y :
  exec1 s t h i = (s', front) -> b <> self_of t -> get s b = Some y -> get s' b = Some y.
Proof.
  intros He Hb Hy.
  destruct (get s (self_of t)) as [x|] eqn:Hg; [|rewrite (exec1_none _ _ _ _ Hg) in He; injection He as <- _; exact Hy].
  destruct (exec1_actors s t h i x Hg) as (y0 & news & _ & _ & Ha). rewrite He in Ha. cbn [fst] in Ha.
  unfold get in *. rewrite Ha, nth_error_app1 by (rewrite upd_length; eapply nth_error_lt; exact Hy).
  rewrite nth_upd_neq by congruence. exact Hy.
Qed.

Lemma rel_astep a s t i rest :
  SInv s -> rel a s -> pend_of s t = i :: rest -> yielding i = false -> err (astep s t i rest) = false -> rel a (astep s t i rest).
Proof.
  intros [HA HX] (xa & Hga & Hra) Hp Hy _. destruct t as [b|k].
  - destruct (pend_of_TA_cons _ _ _ _ Hp) as (x & Hg & Hpx).
    destruct (astep_TA s b i rest x Hg) as (s1 & front & x1 & He & Hg1 & Hp1 & ->).
    assert (Hg0 : get (set_actor s b (upd_pend x rest)) b = Some (upd_pend x rest)) by apply (get_set_same' _ _ _ _ Hg).
    destruct (Nat.eq_dec b a) as [->|Hba].
    + rewrite Hga in Hg. inversion Hg; subst xa.
      exists (upd_pend x1 (front ++ rest)). split; [apply (get_set_same' _ _ _ _ Hg1)|].
      apply (proj1 (released_exec_self a _ x i rest [] s1 front x1 (HA a x Hga) Hpx Hy Hg0 He Hg1) Hra).
    + exists xa. split; [|exact Hra]. rewrite get_set_other by exact Hba.
      apply (exec1_keeps _ _ _ _ _ _ a xa He); [cbn; congruence|]. rewrite get_set_other by exact Hba. exact Hga.
  - destruct (pend_of_TX_cons _ _ _ _ Hp) as (ex & Hn & Hpx).
    assert (Hs : sig i = false) by (apply (HX k ex Hn); rewrite Hpx; left; reflexivity).
    destruct (nonsig_chg _ Hs) as (Hgs & C1 & C2 & _).
    destruct (astep_TX s k i rest ex Hn) as (s1 & front & ex1 & He & Hn1 & Hp1 & Hoth & ->).
    unfold rel. change (get (set_ext s1 k {| x_pend := front ++ rest; x_held := x_held ex1 |}) a) with (get s1 a).
    destruct (Nat.eq_dec a 0) as [->|Ha0].
    + assert (Hg0 : get (set_ext s k {| x_pend := rest; x_held := x_held ex |}) (self_of (TX k)) = Some xa) by exact Hga.
      destruct (exec1_self _ _ _ _ _ _ _ He Hg0) as (x1 & Hg1 & Hl).
      exists x1. split; [exact Hg1|]. destruct Hra as (R1 & R2 & R3). unfold released.
      rewrite (lu_state_keep _ _ _ Hl C1), (lu_zombie_keep _ _ _ Hl C2), (lu_pend _ _ _ Hl). auto.
    + exists xa. split; [|exact Hra]. apply (exec1_keeps _ _ _ _ _ _ a xa He); [cbn; exact Ha0|exact Hga].
Qed.

Lemma rel_after_cleanup a s rest :
  SInv s -> pend_of s (TA a) = ICleanup :: rest -> rel a (astep s (TA a) ICleanup rest).
Proof.
  intros HI Hp. destruct (pend_of_TA_cons _ _ _ _ Hp) as (x & Hg & Hpx).
  destruct (astep_TA s a ICleanup rest x Hg) as (s1 & front & x1 & Hex & Hg1 & Hp1 & ->).
  assert (Hg0 : get (set_actor s a (upd_pend x rest)) a = Some (upd_pend x rest)) by apply (get_set_same' _ _ _ _ Hg).
  exists (upd_pend x1 (front ++ rest)). split; [apply (get_set_same' _ _ _ _ Hg1)|].
  apply (proj2 (released_exec_self a _ x ICleanup rest [] s1 front x1 (proj1 HI a x Hg) Hpx eq_refl Hg0 Hex Hg1) eq_refl).
Qed.

Lemma rel_handle a s b x e s1 ins :
  SInv s -> rel a s -> get s b = Some x -> a_cons x = CH e -> a_pend x = [] ->
  let x0 := set_mb x (a_sq x) (a_uq x) (a_paused x) (CBusy (mode_top x)) (a_cur x) in
  dispatch (set_actor s b x0) b x0 e = (s1, ins) ->
  rel a (set_pend s1 (TA b) ins).
Proof.
  intros _ (xa & Hga & Hra) Hg Hc Hpx x0 Hd.
  assert (Hg0 : get (set_actor s b x0) b = Some x0) by apply (get_set_same' _ _ _ _ Hg).
  destruct (Nat.eq_dec b a) as [->|Hba].
  - rewrite Hga in Hg. inversion Hg; subst xa. destruct Hra as (R1 & R2 & R3).
    assert (Hz : a_zombie x = false).
    { destruct (a_zombie x); [|reflexivity]. specialize (R3 eq_refl). rewrite Hpx in R3. discriminate R3. }
    rewrite (dispatch_dead _ a x0 e R1 Hz) in Hd.
    destruct (a_parent x0); inversion Hd; subst s1 ins; clear Hd.
    + exists (upd_pend x0 [IEnqMb 0 {| e_sys := false; e_sender := root_ref; e_msg := MDeadLetter (e_sys e) (e_msg e) |}; IEnqDone; IEndHandler]).
      split; [apply (get_set_pend_TA_same _ _ _ _ Hg0)|]. split; [exact R1|]. split; [reflexivity|]. cbn. rewrite Hz. discriminate.
    + exists (upd_pend x0 [IEndHandler]).
      split; [apply (get_set_pend_TA_same (add_ghost (set_actor s a x0) (ODropped (e_msg e))) _ _ _ Hg0)|].
      split; [exact R1|]. split; [reflexivity|]. cbn. rewrite Hz. discriminate.
  - destruct (handle_pre s b x e s1 ins Hg Hd) as (y & _ & _ & _ & Hoth & _).
    exists xa. split; [rewrite (Hoth a Hba); exact Hga|exact Hra].
Qed.

Theorem released_stable a s ev : SInv s -> rel a s -> err (step s ev) = false -> rel a (step s ev).
Proof. apply (Q_step (rel a) (rel_mb a) (rel_pop a) (rel_astep a) (rel_cons a) (rel_handle a)). Qed.

Definition cnt (a : aid) (l : list (tid * instr)) : nat := length (filter (is_cleanup_of a) l).

Lemma run_atomic_tr_astep f s t i rest :
  pend_of s t = i :: rest -> yielding i = false -> is_enq i = false ->
  run_atomic_tr (S f) s t = (t, i) :: run_atomic_tr f (astep s t i rest) t.
Proof.
  intros Hp Hy Hq. cbn [run_atomic_tr]. rewrite Hp. destruct i; try discriminate; try reflexivity.
  destruct remaining; [reflexivity|discriminate].
Qed.

Lemma run_atomic_tr_stop f s t :
  (forall i rest, pend_of s t = i :: rest -> yielding i = true \/ is_enq i = true) -> run_atomic_tr (S f) s t = [].
Proof.
  intros H. cbn [run_atomic_tr]. destruct (pend_of s t) as [|i rest]; [reflexivity|].
  destruct (H i rest eq_refl) as [Hy|Hq]; [rewrite Hy|]; destruct i; try discriminate; reflexivity.
Qed.

Lemma step_tr_pre s ev :
  step_tr s ev = match pre_atomic s ev with Some (s', t) => run_atomic_tr FUEL s' t | None => [] end.
Proof.
  destruct ev; cbn [step_tr pre_atomic]; try reflexivity.
  - destruct (get s a) as [x|]; [|reflexivity]. destruct (a_cons x); try reflexivity. destruct (dispatch _ a _ e). reflexivity.
  - destruct (pend_of s t) as [|i rest]; [reflexivity|]. destruct i; reflexivity.
  - destruct (pend_of s t) as [|i rest]; [reflexivity|]. destruct i; reflexivity.
  - destruct (pend_of s t) as [|i rest]; [reflexivity|]. destruct i; try reflexivity.
    destruct (get s (self_of t)) as [x|]; [|reflexivity]. destruct (a_paused x); reflexivity.
  - destruct (pend_of s t) as [|i rest]; [reflexivity|]. destruct i; reflexivity.
Qed.

Lemma cnt_run_atomic a f s t :
  SInv s -> err (run_atomic f s t) = false ->
  (rel a s -> cnt a (run_atomic_tr f s t) = 0%nat) /\ (cnt a (run_atomic_tr f s t) <= 1)%nat /\
  (cnt a (run_atomic_tr f s t) = 1%nat -> rel a (run_atomic f s t)).
Proof.
  revert s. induction f as [|f IH]; intros s HI Herr; [discriminate Herr|].
  assert (Htriv : forall s', (rel a s -> cnt a [] = 0%nat) /\ (cnt a [] <= 1)%nat /\ (cnt a [] = 1%nat -> rel a s'))
    by (intros; cbn; repeat split; [lia|discriminate]).
  destruct (pend_of s t) as [|i rest] eqn:Hp.
  { rewrite run_atomic_tr_stop by (intros i rest; rewrite Hp; discriminate). apply Htriv. }
  destruct (yielding i) eqn:Hy.
  { rewrite run_atomic_tr_stop by (intros i0 rest0 E; rewrite Hp in E; injection E as <- _; auto). apply Htriv. }
  destruct (is_enq i) eqn:Hq.
  { rewrite run_atomic_tr_stop by (intros i0 rest0 E; rewrite Hp in E; injection E as <- _; auto). apply Htriv. }
  rewrite (run_atomic_tr_astep _ _ _ _ _ Hp Hy Hq). rewrite (run_atomic_astep _ _ _ _ _ Hp Hy Hq) in *.
  pose proof (err_false_run_atomic _ _ _ Herr) as He1.
  pose proof (SInv_astep s t i rest HI Hp Hy) as HI1.
  destruct (IH _ HI1 Herr) as (IH1 & IH2 & IH3).
  unfold cnt in *. cbn [filter]. destruct (is_cleanup_of a (t, i)) eqn:Hc.
  - destruct t as [b|k]; [|discriminate Hc]. destruct i; try discriminate Hc. apply Nat.eqb_eq in Hc. subst b.
    destruct (pend_of_TA_cons _ _ _ _ Hp) as (x & Hg & Hpx).
    assert (Hnr : ~ rel a s).
    { intros (x' & Hg' & _ & R2 & _). rewrite Hg in Hg'. inversion Hg'; subst x'. rewrite Hpx in R2. discriminate R2. }
    pose proof (rel_after_cleanup a s rest HI Hp) as Hr1. specialize (IH1 Hr1). cbn [length]. rewrite IH1. split; [intros Hr; contradiction|]. split; [lia|].
    intros _. apply (Q_run_atomic (rel a) (rel_mb a) (rel_pop a) (rel_astep a)); assumption.
  - split; [intros Hr; apply IH1; apply rel_astep; assumption|]. split; assumption.
Qed.

Lemma cnt_step a s ev :
  SInv s -> err (step s ev) = false ->
  (rel a s -> cnt a (step_tr s ev) = 0%nat) /\ (cnt a (step_tr s ev) <= 1)%nat /\
  (cnt a (step_tr s ev) = 1%nat -> rel a (step s ev)).
Proof.
  intros HI Herr. rewrite step_tr_pre. rewrite (step_pre s ev) in *.
  destruct (pre_atomic s ev) as [[s' t]|] eqn:E; [|cbn; repeat split; [lia|discriminate]].
  destruct (cnt_run_atomic a FUEL s' t (SInv_pre s ev s' t E HI) Herr) as (H1 & H2 & H3). repeat split; auto.
  intros Hr. apply H1. apply (Q_pre (rel a) (rel_mb a) (rel_pop a) (rel_handle a) s ev s' t E HI Hr).
Qed.

Lemma err_false_run_events evs s : err (run_events evs s) = false -> err s = false.
Proof.
  revert s. induction evs as [|ev evs IH]; intros s H; [exact H|].
  cbn [run_events fold_left] in H. apply IH in H. apply (err_false_step _ _ H).
Qed.

Lemma cnt_app a l1 l2 : cnt a (l1 ++ l2) = (cnt a l1 + cnt a l2)%nat.
Proof. unfold cnt. rewrite filter_app, app_length. reflexivity. Qed.

Lemma cnt_run a evs s :
  SInv s -> err (run_events evs s) = false ->
  (cnt a (run_tr evs s) <= 1)%nat /\ (rel a s -> cnt a (run_tr evs s) = 0%nat).
Proof.
  revert s. induction evs as [|ev evs IH]; intros s HI Herr; [cbn; split; [lia|reflexivity]|].
  cbn [run_tr]. change (run_events (ev :: evs) s) with (run_events evs (step s ev)) in Herr.
  pose proof (err_false_run_events _ _ Herr) as He1.
  destruct (cnt_step a s ev HI He1) as (E1 & E2 & E3).
  destruct (IH (step s ev) (SInv_step _ _ HI He1) Herr) as (I1 & I2).
  rewrite cnt_app. split.
  - destruct (Nat.eq_dec (cnt a (step_tr s ev)) 1) as [H1|H1]; [rewrite (I2 (E3 H1)); lia|lia].
  - intros Hr. rewrite (E1 Hr). rewrite I2; [reflexivity|]. apply released_stable; assumption.
Qed.

(** in every run, every context executes its cleanup (UnsubscribeAll, registry delete, OnKilled to watchers and
    parent, ActorKilledEvent) at most once *)
Theorem cleanup_at_most_once scs evs a :
  err (run_events evs (init_with scs)) = false ->
  (length (filter (is_cleanup_of a) (run_tr evs (init_with scs))) <= 1)%nat.
Proof. intros H. apply (proj1 (cnt_run a evs _ (SInv_init scs) H)). Qed.

Lemma exec1_state_changes s t h i s' front x :
  exec1 s t h i = (s', front) -> get s (self_of t) = Some x ->
  exists x', get s' (self_of t) = Some x' /\
    (i <> ICheckMark -> i <> IRestartFinish -> a_state x' = a_state x) /\
    (i <> IUnzombie -> i <> IRestartFinish -> a_zombie x' = a_zombie x).
Proof.
  intros He Hg. destruct (exec1_self _ _ _ _ _ _ _ He Hg) as (x' & Hg' & Hl).
  exists x'. split; [exact Hg'|]. split; intros N1 N2.
  - destruct (lu_state _ _ _ Hl) as [E|[(E & _)|(E & _)]]; [exact E|contradiction..].
  - destruct (lu_zombie _ _ _ Hl) as [E|[(E & _)|(E & _)]]; [exact E|contradiction..].
Qed.
