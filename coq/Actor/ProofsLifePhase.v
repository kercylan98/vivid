(** The lifecycle-phase invariant: per context, the significant instructions still pending determine, with
    the state and the zombie flag, where in its lifecycle the actor is.  Basis of C05-b and C06-a/b. *)
From Coq Require Import List NArith Arith Bool.
From Vivid Require Import Actor.Core Actor.CoreRun Actor.ProofsMailBase Actor.ProofsMail Actor.ProofsMailInv Actor.ProofsMailWf Actor.SpecStash Actor.ProofsStep Actor.SpecLife Actor.ProofsLife Actor.ProofsLifeInv Actor.ProofsLifeSum.
Import ListNotations.
Local Open Scope N_scope.

Definition alive (st : astate) : bool := match st with Killed => false | _ => true end.
Definition is_killing (st : astate) : bool := match st with Killing => true | _ => false end.
Definition is_killed (st : astate) : bool := match st with Killed => true | _ => false end.
Definition msg_own (a : aid) (m : msg) : bool := match m with MKilled (RObj b) => Nat.eqb a b | _ => false end.
Definition cur_not_own (a : aid) (x : actor) : bool :=
  match a_cur x with Some e => negb (msg_own a (e_msg e)) | None => true end.

(** the possible lists of significant pending instructions (in order), given state, zombie flag and
    "the current envelope is not the own OnKilled" *)
Inductive phase (a : aid) (st : astate) (z cno : bool) : list instr -> Prop :=
| PhEnd : phase a st z cno [IEndHandler]
| PhBeh m ac r : alive st || z = true -> msg_own a m = false -> phase a st z cno [IBeh m ac r; IEndHandler]
| PhDoKill p : is_killing st || z = true -> cno = true -> phase a st z cno [IDoKill p; IEndHandler]
| PhBehOnKilled m ac r w : is_killing st || z = true -> msg_own a m = false ->
    phase a st z cno [IBeh m ac r; IOnKilled w; IEndHandler]
| PhOnKilled w : alive st || z = true -> phase a st z cno [IOnKilled w; IEndHandler]
| PhBehMark m ac r : alive st = true -> z = false -> msg_own a m = false ->
    phase a st z cno [IBeh m ac r; ICheckMark; IEndHandler]
| PhMark : alive st = true -> z = false -> phase a st z cno [ICheckMark; IEndHandler]
| PhBehCleanup m ac r : st = Killed -> z = false -> phase a st z cno [IBeh m ac r; ICleanup; IEndHandler]
| PhCleanup : st = Killed -> z = false -> phase a st z cno [ICleanup; IEndHandler]
| PhBehRestart m ac r : st = Killed -> z = false -> phase a st z cno [IBeh m ac r; IRestartFinish; IEndHandler]
| PhRestart : st = Killed -> z = false -> phase a st z cno [IRestartFinish; IEndHandler]
| PhCleanupUnz : st = Killed -> z = true -> phase a st z cno [ICleanup; IUnzombie; IEndHandler]
| PhUnz : st = Killed -> z = true -> phase a st z cno [IUnzombie; IEndHandler].

Definition INV (a : aid) (x : actor) : Prop :=
  (a_zombie x = true -> a_state x = Killed) /\
  (a_pend x = [] \/
   (is_busy (a_cons x) = true /\ end_last (a_pend x) = true /\
    phase a (a_state x) (a_zombie x) (cur_not_own a x) (filter sig (a_pend x)))).

Definition ext_plain (s : state) : Prop :=
  forall i ex, nth_error (exts s) i = Some ex -> forall j, In j (x_pend ex) -> sig j = false.

Definition SInv (s : state) : Prop := (forall a x, get s a = Some x -> INV a x) /\ ext_plain s.

Lemma end_last_cons i rest : rest <> [] -> end_last (i :: rest) = negb (is_end i) && end_last rest.
Proof. destruct rest; [congruence|reflexivity]. Qed.

Lemma end_last_nonend i rest : end_last (i :: rest) = true -> is_end i = false -> rest <> [] /\ end_last rest = true.
Proof.
  destruct rest as [|j r]; cbn [end_last]; [intros H1 H2; congruence|].
  intros H _. apply andb_prop in H as [_ H]. split; [discriminate|exact H].
Qed.

Lemma end_last_end i rest : end_last (i :: rest) = true -> is_end i = true -> rest = [].
Proof.
  destruct rest as [|j r]; [reflexivity|]. cbn [end_last]. intros H1 H2. rewrite H2 in H1. discriminate.
Qed.

Lemma end_last_app front rest :
  (forall j, In j front -> is_end j = false) -> end_last rest = true -> end_last (front ++ rest) = true.
Proof.
  intros Hf Hr. induction front as [|j front IH]; [exact Hr|].
  cbn [app]. rewrite end_last_cons.
  - rewrite (Hf j (or_introl eq_refl)). cbn [negb andb]. apply IH. intros k Hk. apply Hf. right; exact Hk.
  - destruct front; cbn [app]; [|discriminate]. destruct rest; [discriminate|discriminate].
Qed.

Lemma filter_app_none {A} (f : A -> bool) front rest :
  (forall j, In j front -> f j = false) -> filter f (front ++ rest) = filter f rest.
Proof.
  intros Hf. induction front as [|j front IH]; [reflexivity|].
  cbn [app filter]. rewrite (Hf j (or_introl eq_refl)). apply IH. intros k Hk. apply Hf. right; exact Hk.
Qed.

Lemma sig_end j : sig j = false -> is_end j = false.
Proof. destruct j; cbn; try reflexivity; discriminate. Qed.

Lemma nonsig_chg i :
  sig i = false ->
  gen_sig i = false /\ chg_state i = false /\ chg_zombie i = false /\ chg_cons i = false /\ chg_cur i = false /\
  is_end i = false.
Proof. destruct i; cbn; intros H; try discriminate H; repeat split. Qed.

Lemma yielding_nonsig i : yielding i = true -> sig i = false.
Proof. destruct i; cbn; try discriminate; reflexivity. Qed.

Lemma INV_ext a x y :
  a_state y = a_state x -> a_zombie y = a_zombie x -> a_cur y = a_cur x -> a_cons y = a_cons x -> a_pend y = a_pend x ->
  INV a x -> INV a y.
Proof.
  intros H1 H2 H3 H4 H5 (Hz & Hp). unfold INV, cur_not_own. rewrite H1, H2, H3, H4, H5. split; assumption.
Qed.

Lemma INV_lsame a x y : lsame x y -> INV a x -> INV a y.
Proof. intros Hl. apply INV_ext; apply Hl. Qed.

Lemma INV_plain_head a x y i rest front :
  INV a x -> a_pend x = i :: rest -> sig i = false -> (forall j, In j front -> sig j = false) ->
  a_state y = a_state x -> a_zombie y = a_zombie x -> a_cur y = a_cur x -> a_cons y = a_cons x ->
  a_pend y = front ++ rest -> INV a y.
Proof.
  intros (Hz & Hp) Hpx Hi Hf H1 H2 H3 H4 H5. unfold INV, cur_not_own. rewrite H1, H2, H3, H4, H5.
  split; [exact Hz|]. right. destruct Hp as [Hp|(Hb & He & Hph)]; [congruence|].
  rewrite Hpx in He, Hph. cbn [filter] in Hph. rewrite Hi in Hph.
  destruct (end_last_nonend _ _ He (sig_end _ Hi)) as [Hne Her].
  split; [exact Hb|]. split.
  - apply end_last_app; [|exact Her]. intros j Hj. apply sig_end, Hf, Hj.
  - rewrite filter_app_none by exact Hf. exact Hph.
Qed.

Lemma INV_head a x i rest :
  INV a x -> a_pend x = i :: rest ->
  (a_zombie x = true -> a_state x = Killed) /\ is_busy (a_cons x) = true /\ end_last (i :: rest) = true /\
  phase a (a_state x) (a_zombie x) (cur_not_own a x) (if sig i then i :: filter sig rest else filter sig rest).
Proof.
  intros (Hz & Hp) Hpx. split; [exact Hz|]. destruct Hp as [Hp|(Hb & He & Hph)]; [congruence|].
  rewrite Hpx in He, Hph. cbn [filter] in Hph. auto.
Qed.

Lemma phase_inv a st z cno i L :
  phase a st z cno (i :: L) ->
  match i with
  | IEndHandler => L = []
  | IBeh m ac r =>
      (L = [IEndHandler] /\ alive st || z = true /\ msg_own a m = false) \/
      (exists w, L = [IOnKilled w; IEndHandler] /\ is_killing st || z = true /\ msg_own a m = false) \/
      (L = [ICheckMark; IEndHandler] /\ alive st = true /\ z = false /\ msg_own a m = false) \/
      ((L = [ICleanup; IEndHandler] \/ L = [IRestartFinish; IEndHandler]) /\ st = Killed /\ z = false)
  | IDoKill p => L = [IEndHandler] /\ is_killing st || z = true /\ cno = true
  | IOnKilled w => L = [IEndHandler] /\ alive st || z = true
  | ICheckMark => L = [IEndHandler] /\ alive st = true /\ z = false
  | ICleanup => st = Killed /\ ((L = [IEndHandler] /\ z = false) \/ (L = [IUnzombie; IEndHandler] /\ z = true))
  | IRestartFinish => L = [IEndHandler] /\ st = Killed /\ z = false
  | IUnzombie => L = [IEndHandler] /\ st = Killed /\ z = true
  | _ => False
  end.
Proof. intros H. inversion H; subst; eauto 8. Qed.

Lemma INV_no_seen a x i rest : INV a x -> a_pend x = i :: rest -> is_obs_seen i = false.
Proof.
  intros HI Hpx. destruct (INV_head _ _ _ _ HI Hpx) as (_ & _ & _ & Hph).
  destruct i as [| | | | | | | | | | | | | | | | | | | |o|]; try reflexivity. destruct o; try reflexivity. inversion Hph.
Qed.

Lemma mk_INV a y :
  (a_zombie y = true -> a_state y = Killed) -> is_busy (a_cons y) = true -> end_last (a_pend y) = true ->
  phase a (a_state y) (a_zombie y) (cur_not_own a y) (filter sig (a_pend y)) -> INV a y.
Proof. intros H1 H2 H3 H4. split; [exact H1|]. right. auto. Qed.

Lemma zk_of_phase st z : (z = true -> st = Killed) -> is_killing st || z = true -> z = false -> st = Killing.
Proof. intros H1 H2 H3. subst z. rewrite orb_false_r in H2. destruct st; try discriminate; reflexivity. Qed.

Lemma filter_none {A} (f : A -> bool) l : (forall j, In j l -> f j = false) -> filter f l = [].
Proof. intros H. rewrite <- (app_nil_r l), filter_app_none by exact H. reflexivity. Qed.

Definition life_same (x y : actor) : Prop :=
  a_state y = a_state x /\ a_zombie y = a_zombie x /\ a_cons y = a_cons x /\ a_cur y = a_cur x /\ a_inst y = a_inst x.

(** The own micro-step of context [a] (record [x], in state [s0]) with the significant instruction [i] at the head,
    as far as the lifecycle goes: the record [y] afterwards and the significant instructions put in front. *)
Inductive lstep (s0 : state) (a : aid) (x : actor) : instr -> actor -> list instr -> Prop :=
| LsBeh m ac r y : life_same x y -> lstep s0 a x (IBeh m ac r) y []
| LsDoKill p y : life_same x y ->
    lstep s0 a x (IDoKill p) y
      [IBeh (match a_cur x with Some e => e_msg e | None => MKill RNone p end) (sp_kill (a_spec x)) RecLog; IOnKilled (RObj a)]
| LsOnKilledZombie w y : a_zombie x = true -> life_same x y -> lstep s0 a x (IOnKilled w) y [ICleanup; IUnzombie]
| LsOnKilledOwn w y : a_zombie x = false -> life_same x y -> lstep s0 a x (IOnKilled w) y [ICheckMark]
| LsOnKilled w y : a_zombie x = false -> w <> RObj a -> life_same x y ->
    lstep s0 a x (IOnKilled w) y [IBeh (MKilled w) (sp_killed (a_spec x)) (RecKilled w); ICheckMark]
| LsMark y : a_state x = Killing -> a_state y = Killed -> a_zombie y = a_zombie x -> a_cons y = a_cons x -> a_inst y = a_inst x ->
    lstep s0 a x ICheckMark y
      [IBeh (MKilled (RObj a)) (sp_killed (a_spec x)) RecLog; match a_restarting x with None => ICleanup | Some _ => IRestartFinish end]
| LsMarkWait y : life_same x y -> lstep s0 a x ICheckMark y []
| LsCleanup y : life_same x y -> lstep s0 a x ICleanup y []
| LsRestart y : a_state y = Running -> a_zombie y = a_zombie x -> a_cons y = CBusy 0 -> a_cur y = Some (launch_env x) ->
    a_inst y = (if sp_provider (a_spec x) then a_inst x + 1 else a_inst x) ->
    lstep s0 a x IRestartFinish y [IBeh MLaunch (sp_launch (a_spec x)) RecFail]
| LsRestartFailed y : a_state y = a_state x -> a_zombie y = true -> a_cons y = a_cons x -> lstep s0 a x IRestartFinish y []
| LsUnzombie y : a_state y = a_state x -> a_zombie y = false -> a_cons y = a_cons x -> a_cur y = a_cur x -> a_inst y = a_inst x ->
    lstep s0 a x IUnzombie y []
| LsEnd y : a_state y = a_state x -> a_zombie y = a_zombie x -> a_inst y = a_inst x -> lstep s0 a x IEndHandler y [].

Lemma exec1_lstep s0 a x i h s1 front x1 :
  get s0 a = Some x -> exec1 s0 (TA a) h i = (s1, front) -> get s1 a = Some x1 ->
  sig i = true -> yielding i = false -> is_obs_seen i = false ->
  lstep s0 a x i x1 (filter sig front).
Proof.
  intros Hg He Hg1 Hs Hy Ho. change a with (self_of (TA a)) in Hg, Hg1.
  destruct (exec1_self _ _ _ _ _ _ _ He Hg) as (y & Hy1 & Hl). rewrite Hg1 in Hy1. injection Hy1 as <-.
  assert (Hsame : chg_state i = false -> chg_zombie i = false -> chg_cons i = false -> chg_cur i = false -> i <> IRestartFinish ->
                  life_same x x1).
  { intros C1 C2 C3 C4 Hrf. repeat split; [apply (lu_state_keep _ _ _ Hl C1)|apply (lu_zombie_keep _ _ _ Hl C2)
      |apply (lu_cons_keep _ _ _ Hl C3)|apply (lu_cur_keep _ _ _ Hl C4)|]. destruct (lu_inst _ _ _ Hl); [assumption|contradiction]. }
  destruct i; try discriminate Hs; try discriminate Hy; try discriminate Ho.
  - rewrite (filter_none sig front (exec1_front_plain _ _ _ _ _ _ (eq_refl : gen_sig (IBeh m acts r) = false) He)).
    apply LsBeh, Hsame; try reflexivity; discriminate.
  - rewrite (exec1_dokill _ _ _ _ _ Hg) in He. injection He as _ <-.
    destruct (a_children x); apply LsDoKill, Hsame; try reflexivity; discriminate.
  - assert (Hsm : life_same x x1) by (apply Hsame; try reflexivity; discriminate).
    destruct (a_zombie x) eqn:Hz.
    { rewrite (exec1_onkilled_zombie _ _ _ _ who Hg Hz) in He. injection He as _ <-. apply LsOnKilledZombie; assumption. }
    destruct (ref_eq s0 who (RObj (self_of (TA a)))) eqn:Hre.
    { rewrite (exec1_IOnKilled_own _ _ _ _ who Hg Hz Hre) in He. injection He as _ <-. apply LsOnKilledOwn; assumption. }
    destruct (exec1_IOnKilled_other _ _ h _ who Hg Hz Hre) as (x' & He' & _). rewrite He' in He. injection He as _ <-.
    apply LsOnKilled; try assumption. apply (other_killed_not_own s0 a x who Hg Hre).
  - assert (Hin : a_inst x1 = a_inst x) by (destruct (lu_inst _ _ _ Hl); [assumption|discriminate]).
    destruct (exec1_ICheckMark_cases _ _ h _ Hg) as [(Hc & Hk & _)|(_ & He')].
    + destruct (exec1_ICheckMark_marks _ _ h _ Hg Hc Hk) as (x' & He' & Hst & _ & Hzz & _ & _ & _ & Hcc & _).
      rewrite He' in He. injection He as <- <-. rewrite (get_set_same' _ _ _ _ Hg) in Hg1. injection Hg1 as ->.
      pose proof (LsMark s0 a x x1 Hk Hst Hzz Hcc Hin) as H. destruct (a_restarting x); exact H.
    + rewrite He' in He. injection He as <- <-. rewrite Hg in Hg1. injection Hg1 as <-. apply LsMarkWait. repeat split.
  - rewrite (filter_none sig front (exec1_front_plain _ _ _ _ _ _ (eq_refl : gen_sig ICleanup = false) He)).
    apply LsCleanup, Hsame; try reflexivity; discriminate.
  - destruct (hooks_ok x) eqn:Hok.
    + destruct (exec1_restart_finish_ok _ _ h _ Hg Hok) as (x' & He' & Hst & _ & Hzz & _ & Hin & _ & Hcc & Hcu & _).
      rewrite He' in He. injection He as <- <-. rewrite (get_set_same' _ _ _ _ Hg) in Hg1. injection Hg1 as <-.
      apply LsRestart; assumption.
    + destruct (exec1_restart_finish_fail _ _ h _ Hg Hok) as (x' & He' & Hzz & Hst & _ & _ & _ & Hcc & _).
      rewrite He' in He. injection He as <- <-. rewrite (get_set_same' _ _ _ _ Hg) in Hg1. injection Hg1 as <-.
      apply LsRestartFailed; assumption.
  - rewrite (exec1_unzombie _ _ _ _ Hg) in He. injection He as <- <-. rewrite (get_set_same' _ _ _ _ Hg) in Hg1. injection Hg1 as <-.
    apply LsUnzombie; reflexivity.
  - destruct o; discriminate.
  - rewrite (filter_none sig front (exec1_front_plain _ _ _ _ _ _ (eq_refl : gen_sig IEndHandler = false) He)).
    apply LsEnd; [apply (lu_state_keep _ _ _ Hl eq_refl)|apply (lu_zombie_keep _ _ _ Hl eq_refl)|].
    destruct (lu_inst _ _ _ Hl); [assumption|discriminate].
Qed.

Lemma INV_exec_self a s0 x i rest h s1 front x1 :
  INV a x -> a_pend x = i :: rest -> yielding i = false ->
  get s0 a = Some (upd_pend x rest) ->
  exec1 s0 (TA a) h i = (s1, front) -> get s1 a = Some x1 ->
  INV a (upd_pend x1 (front ++ rest)).
Proof.
  intros HI Hpx Hy Hg0 He Hg1.
  destruct (INV_head _ _ _ _ HI Hpx) as (Hz & Hb & Hel & Hph).
  assert (Hne : forall j, In j front -> is_end j = false).
  { intros j Hj. pose proof (exec1_front_no_end s0 (TA a) h i) as Hn. rewrite He in Hn. unfold SpecMail.no_end in Hn.
    rewrite forallb_forall in Hn. apply negb_true_iff, (Hn j Hj). }
  destruct (sig i) eqn:Hs.
  2:{ 
    destruct (nonsig_chg _ Hs) as (Hgs & C1 & C2 & C4 & C5 & _).
    change a with (self_of (TA a)) in Hg0, Hg1.
    destruct (exec1_self _ _ _ _ _ _ _ He Hg0) as (x1' & Hg1' & Hl).
    rewrite Hg1 in Hg1'. inversion Hg1'; subst x1'.
    apply (INV_plain_head a x _ i rest front HI Hpx Hs (exec1_front_plain _ _ _ _ _ _ Hgs He)); cbn [upd_pend a_state a_zombie a_cur a_cons a_pend].
    - apply (lu_state_keep _ _ _ Hl C1).
    - apply (lu_zombie_keep _ _ _ Hl C2).
    - apply (lu_cur_keep _ _ _ Hl C5).
    - apply (lu_cons_keep _ _ _ Hl C4).
    - reflexivity. }
  pose proof (INV_no_seen _ _ _ _ HI Hpx) as Ho.
  pose proof (exec1_lstep s0 a _ i h s1 front x1 Hg0 He Hg1 Hs Hy Ho) as Hst.
  destruct (is_end i) eqn:Hie.
  { 
    destruct i; try discriminate Hie. rewrite (end_last_end _ _ Hel eq_refl).
    pose proof (exec1_end_front s0 (TA a) h) as Hf. rewrite He in Hf. cbn [snd] in Hf. subst front.
    change a with (self_of (TA a)) in Hg0, Hg1.
    destruct (exec1_self _ _ _ _ _ _ _ He Hg0) as (y & Hy1 & Hl). rewrite Hg1 in Hy1. injection Hy1 as <-.
    split; [|left; reflexivity]. cbn [upd_pend a_zombie a_state].
    rewrite (lu_state_keep _ _ _ Hl eq_refl), (lu_zombie_keep _ _ _ Hl eq_refl). exact Hz. }
  destruct (end_last_nonend _ _ Hel Hie) as [Hrne Her].
  fold (cur_not_own a x) in Hph. remember (filter sig front) as F eqn:EF.
  (* in every case: the record and the significant instructions afterwards fit one of the phases *)
  assert (Hmk : forall y, a_pend y = front ++ rest -> (a_zombie y = true -> a_state y = Killed) -> is_busy (a_cons y) = true ->
                phase a (a_state y) (a_zombie y) (cur_not_own a y) (F ++ filter sig rest) -> INV a y).
  { intros y Hp H1 H2 H3. apply mk_INV; try assumption; rewrite Hp; [apply end_last_app; assumption|].
    rewrite filter_app, <- EF. exact H3. }
  apply Hmk; [reflexivity|..]; clear Hmk; unfold cur_not_own; cbn [upd_pend a_state a_zombie a_cons a_cur app];
    remember (filter sig rest) as L eqn:EL; clear EL.
  all: destruct Hst as [m ac r y Hsm|p y Hsm|w y Hzx Hsm|w y Hzx Hsm|w y Hzx Hw Hsm|y Hk Hk' Hz' Hc' Hi'|y Hsm|y Hsm
                  |y Hr Hz' Hc' Hcu Hi'|y Hs' Hz' Hc'|y Hs' Hz' Hc' Hcu Hi'|y _ _ _];
    try destruct Hsm as (E1 & E2 & E3 & E4 & _); cbn [upd_pend a_state a_zombie a_cons a_cur app] in *;
    rewrite ?E1, ?E2, ?E3, ?E4; try exact Hz; try exact Hb; try discriminate Hie; fold (cur_not_own a x).
  all: apply phase_inv in Hph; cbn beta iota in Hph; decompose [and or ex] Hph; subst; try clear Hph.
  all: try (intros Hzy; congruence); try (rewrite Hc'; first [exact Hb|reflexivity]).
  all: rewrite ?Hk', ?Hr, ?Hs', ?Hz'; try match goal with |- context [match a_restarting ?z with _ => _ end] => destruct (a_restarting z) end.
  all: try (constructor; first [assumption|reflexivity]; fail).
  - (* the OnKill behaviour has run *)
    apply PhOnKilled. destruct (a_state x); try discriminate; destruct (a_zombie x); try reflexivity; discriminate.
  - (* OnKill runs on the message being handled, which is not the own OnKilled *)
    apply PhBehOnKilled; [assumption|]. match goal with H : cur_not_own a x = true |- _ => unfold cur_not_own in H; destruct (a_cur x); [apply negb_true_iff; exact H|reflexivity] end.
  - apply PhCleanupUnz; [apply Hz; exact Hzx|exact Hzx].
  - apply PhMark; [|exact Hzx]. rewrite Hzx, orb_false_r in *. assumption.
  - apply PhBehMark; [rewrite Hzx, orb_false_r in *; assumption|exact Hzx|].
    destruct w as [c| |]; try reflexivity. cbn [msg_own]. destruct (Nat.eqb a c) eqn:E; [|reflexivity].
    apply Nat.eqb_eq in E. subst c. contradiction Hw. reflexivity.
Qed.

Lemma INV_idle a x : a_zombie x = false -> a_pend x = [] -> INV a x.
Proof. intros Hz Hp. split; [rewrite Hz; discriminate|left; exact Hp]. Qed.

Lemma ext_plain_of_pend s s' :
  (forall k, option_map x_pend (nth_error (exts s') k) = option_map x_pend (nth_error (exts s) k)) ->
  ext_plain s -> ext_plain s'.
Proof.
  intros H Hp k ex Hn j Hj. specialize (H k). rewrite Hn in H. cbn [option_map] in H.
  destruct (nth_error (exts s) k) as [ex0|] eqn:Hn0; [|discriminate H]. cbn [option_map] in H.
  apply (Hp k ex0 Hn0 j). congruence.
Qed.

Lemma SInv_astep s t i rest :
  SInv s -> pend_of s t = i :: rest -> yielding i = false -> SInv (astep s t i rest).
Proof.
  intros [HA HX] Hp Hy. destruct t as [a|k].
  - destruct (pend_of_TA_cons _ _ _ _ Hp) as (x & Hg & Hpx).
    destruct (astep_TA s a i rest x Hg) as (s1 & front & x1 & He & Hg1 & Hp1 & ->).
    assert (Hg0 : get (set_actor s a (upd_pend x rest)) a = Some (upd_pend x rest)) by apply (get_set_same' _ _ _ _ Hg).
    split.
    + intros b y Hb. destruct (Nat.eq_dec a b) as [<-|Hab].
      * rewrite (get_set_same' _ _ _ _ Hg1) in Hb. inversion Hb; subst y.
        apply (INV_exec_self a _ x i rest [] s1 front x1 (HA a x Hg) Hpx Hy Hg0 He Hg1).
      * rewrite get_set_other in Hb by exact Hab.
        destruct (exec1_other _ _ _ _ _ _ b y He (fun E => Hab (eq_sym E)) Hb) as [Hb0|(_ & _ & sp & x0 & _ & _ & _ & _ & _ & ->)].
        -- rewrite get_set_other in Hb0 by exact Hab. apply (HA b y Hb0).
        -- apply INV_idle; reflexivity.
    + apply (ext_plain_of_pend s); [|exact HX]. intros k.
      change (exts (set_actor s1 a (upd_pend x1 (front ++ rest)))) with (exts s1).
      rewrite (exec1_exts_pend_nth _ _ _ _ _ _ He k). reflexivity.
  - destruct (pend_of_TX_cons _ _ _ _ Hp) as (ex & Hn & Hpx).
    assert (Hs : sig i = false) by (apply (HX k ex Hn); rewrite Hpx; left; reflexivity).
    destruct (nonsig_chg _ Hs) as (Hgs & C1 & C2 & C4 & C5 & _).
    destruct (astep_TX s k i rest ex Hn) as (s1 & front & ex1 & He & Hn1 & Hp1 & Hoth & ->).
    split.
    + intros b y Hb. change (get (set_ext s1 k {| x_pend := front ++ rest; x_held := x_held ex1 |}) b) with (get s1 b) in Hb.
      destruct (Nat.eq_dec b 0) as [->|Hb0].
      * destruct (get s 0) as [x|] eqn:Hg.
        2:{ rewrite (exec1_none (set_ext s k _) (TX k) _ i Hg) in He. injection He as <- _. change (get s 0%nat = Some y) in Hb. congruence. }
        assert (Hg0 : get (set_ext s k {| x_pend := rest; x_held := x_held ex |}) (self_of (TX k)) = Some x) by exact Hg.
        destruct (exec1_self _ _ _ _ _ _ _ He Hg0) as (x1 & Hg1 & Hl).
        cbn [self_of] in Hg1. rewrite Hg1 in Hb. inversion Hb; subst y.
        apply (INV_ext 0 x x1); [apply (lu_state_keep _ _ _ Hl C1)|apply (lu_zombie_keep _ _ _ Hl C2)|apply (lu_cur_keep _ _ _ Hl C5)
                                |apply (lu_cons_keep _ _ _ Hl C4)|apply Hl|apply (HA _ _ Hg)].
      * destruct (exec1_other _ _ _ _ _ _ b y He Hb0 Hb) as [Hb1|(_ & _ & sp & x0 & _ & _ & _ & _ & _ & ->)].
        -- apply (HA b y Hb1).
        -- apply INV_idle; reflexivity.
    + intros j exj Hj q Hq. unfold set_ext in Hj; cbn [exts] in Hj.
      destruct (Nat.eq_dec k j) as [<-|Hkj].
      * rewrite (nth_error_upd_same _ _ _ _ Hn1) in Hj. inversion Hj; subst exj. cbn [x_pend] in Hq.
        apply in_app_iff in Hq as [Hq|Hq].
        -- apply (exec1_front_plain _ _ _ _ _ _ Hgs He q Hq).
        -- apply (HX k ex Hn q). rewrite Hpx. right; exact Hq.
      * rewrite nth_upd_neq in Hj by exact Hkj.
        pose proof (Hoth j (fun E => Hkj (eq_sym E))) as Ho. rewrite Hj in Ho. cbn [option_map] in Ho.
        destruct (nth_error (exts s) j) as [ex0|] eqn:Hn0; [|discriminate Ho]. cbn [option_map] in Ho.
        apply (HX j ex0 Hn0 q). congruence.
Qed.

Lemma SInv_no_seen s t i rest : SInv s -> pend_of s t = i :: rest -> is_obs_seen i = false.
Proof.
  intros [HA HX] Hp. destruct t as [a|k].
  - destruct (pend_of_TA_cons _ _ _ _ Hp) as (x & Hg & Hpx). apply (INV_no_seen a x i rest (HA a x Hg) Hpx).
  - destruct (pend_of_TX_cons _ _ _ _ Hp) as (ex & Hn & Hpx).
    assert (Hs : sig i = false) by (apply (HX k ex Hn); rewrite Hpx; left; reflexivity).
    unfold sig in Hs. apply orb_false_elim in Hs as [_ Hs]. exact Hs.
Qed.

Lemma SInv_mb s s' : mb_equiv s s' -> SInv s -> SInv s'.
Proof.
  intros (Hm & He & _) [HA HX]. split.
  - intros a y Hy. specialize (Hm a). rewrite Hy in Hm. destruct (get s a) as [x|] eqn:Hg; [|contradiction].
    apply (INV_lsame a x y Hm). apply HA. exact Hg.
  - unfold ext_plain. rewrite He. exact HX.
Qed.

Lemma pend_of_mb s s' t : mb_equiv s s' -> pend_of s' t = pend_of s t.
Proof.
  intros (Hm & He & _). destruct t as [a|k]; cbn [pend_of].
  - specialize (Hm a). destruct (get s a), (get s' a); try contradiction; [apply Hm|reflexivity].
  - rewrite He. reflexivity.
Qed.

Lemma SInv_pop_head s t i rest front :
  SInv s -> pend_of s t = i :: rest -> sig i = false -> (forall j, In j front -> sig j = false) ->
  SInv (set_pend s t (front ++ rest)).
Proof.
  intros [HA HX] Hp Hs Hf. destruct t as [a|k].
  - destruct (pend_of_TA_cons _ _ _ _ Hp) as (x & Hg & Hpx). split.
    + intros b y Hb. destruct (Nat.eq_dec a b) as [<-|Hab].
      * rewrite (get_set_pend_TA_same _ _ _ _ Hg) in Hb. inversion Hb; subst y.
        apply (INV_plain_head a x _ i rest front (HA a x Hg) Hpx Hs Hf); reflexivity.
      * rewrite get_set_pend_TA_other in Hb by exact Hab. apply (HA b y Hb).
    + cbn [set_pend]. unfold with_actor. rewrite Hg. exact HX.
  - destruct (pend_of_TX_cons _ _ _ _ Hp) as (ex & Hn & Hpx). split.
    + intros b y Hb. rewrite get_set_pend_TX in Hb. apply (HA b y Hb).
    + cbn [set_pend]. rewrite Hn. intros j exj Hj q Hq. unfold set_ext in Hj; cbn [exts] in Hj.
      destruct (Nat.eq_dec k j) as [<-|Hkj].
      * rewrite (nth_error_upd_same _ _ _ _ Hn) in Hj. inversion Hj; subst exj. cbn [x_pend] in Hq.
        apply in_app_iff in Hq as [Hq|Hq]; [apply Hf; exact Hq|].
        apply (HX k ex Hn q). rewrite Hpx. right; exact Hq.
      * rewrite nth_upd_neq in Hj by exact Hkj. apply (HX j exj Hj q Hq).
Qed.

Lemma SInv_pop s t i rest : SInv s -> pend_of s t = i :: rest -> sig i = false -> SInv (set_pend s t rest).
Proof. intros HI Hp Hs. apply (SInv_pop_head s t i rest [] HI Hp Hs). intros j []. Qed.

Lemma SInv_mb_pop s s' t i rest front :
  mb_equiv s s' -> SInv s -> pend_of s t = i :: rest -> sig i = false -> (forall j, In j front -> sig j = false) ->
  SInv (set_pend s' t (front ++ rest)).
Proof.
  intros Hm HI Hp. apply (SInv_pop_head s' t i rest front (SInv_mb _ _ Hm HI)). rewrite (pend_of_mb _ _ t Hm). exact Hp.
Qed.

Lemma dispatch_phase a s x e s1 ins y :
  get s a = Some x -> (a_zombie x = true -> a_state x = Killed) -> dispatch s a x e = (s1, ins) -> get s1 a = Some y ->
  (a_zombie y = true -> a_state y = Killed) /\ end_last ins = true /\
  phase a (a_state y) (a_zombie y) (cur_not_own a y) (filter sig ins).
Proof.
  intros Hg Hz.
  destruct (dispatch_cases s a x e) as [Hd Hzx Hp|p Hd Hzx Hp|r Hd []]; intros He Hy; injection He as <- <-.
  all: rewrite ?get_add_ghost, ?(get_set_same' _ _ _ _ Hg), ?Hg in Hy; injection Hy as <-.
  all: unfold SpecMail.is_dead, kill_children, cur_not_own in *; cbn; try rewrite Em; cbn.
  (* Killed and not a zombie is the dead branch; a zombie is Killed *)
  all: destruct (a_state x) eqn:Hst; destruct (a_zombie x) eqn:Hzx'; try (specialize (Hz eq_refl); discriminate Hz); try discriminate; cbn in *.
  all: try destruct (a_children x); try destruct poison; cbn.
  all: (split; [intros; first [reflexivity|discriminate|congruence]|]); (split; [reflexivity|]).
  all: constructor; cbn; first [reflexivity|congruence].
Qed.

Lemma SInv_set_actor s a x y : SInv s -> get s a = Some x -> INV a y -> SInv (set_actor s a y).
Proof.
  intros [HA HX] Hg Hy. split; [|exact HX].
  intros b z Hb. destruct (Nat.eq_dec a b) as [<-|Hab].
  - rewrite (get_set_same' _ _ _ _ Hg) in Hb. inversion Hb; subst. exact Hy.
  - rewrite get_set_other in Hb by exact Hab. apply (HA b z Hb).
Qed.

Lemma INV_not_busy a x : INV a x -> is_busy (a_cons x) = false -> a_pend x = [].
Proof. intros (_ & [H|(H & _)]) Hb; [exact H|congruence]. Qed.

Lemma SInv_handle_pre s a x e s1 ins :
  SInv s -> get s a = Some x ->
  let x0 := set_mb x (a_sq x) (a_uq x) (a_paused x) (CBusy (mode_top x)) (a_cur x) in
  dispatch (set_actor s a x0) a x0 e = (s1, ins) -> SInv (set_pend s1 (TA a) ins).
Proof.
  intros HI Hg x0 Hd. pose proof (proj1 HI a x Hg) as HIx.
  destruct (handle_pre s a x e s1 ins Hg Hd) as (y & Hg1 & Hy & Hga & Hoth & _ & Hex & _).
  destruct (dispatch_phase a _ x0 e s1 ins y (get_set_same' _ _ _ _ Hg) (proj1 HIx) Hd Hg1) as (Hzy & Hel & Hph).
  split.
  - intros b z Hb. destruct (Nat.eq_dec a b) as [<-|Hab]; [|rewrite (Hoth b Hab) in Hb; apply (proj1 HI b z Hb)].
    rewrite Hga in Hb. injection Hb as <-.
    apply mk_INV; unfold cur_not_own; cbn [upd_pend a_state a_zombie a_cur a_cons a_pend]; try assumption.
    rewrite (df_cons _ _ Hy). reflexivity.
  - unfold ext_plain. rewrite Hex. exact (proj2 HI).
Qed.

Lemma SInv_cons s a x sq uq pa co cu :
  SInv s -> get s a = Some x -> is_busy (a_cons x) = false -> SInv (set_actor s a (set_mb x sq uq pa co cu)).
Proof.
  intros HI Hg Hb. pose proof (proj1 HI a x Hg) as HIx. apply (SInv_set_actor _ _ x _ HI Hg).
  split; [apply HIx|]. left. apply (INV_not_busy _ _ HIx Hb).
Qed.

Lemma set_exts_actors s i scs : actors (set_exts s i scs) = actors s.
Proof.
  revert s i. induction scs as [|sc scs IH]; intros s i; cbn [set_exts]; [reflexivity|].
  rewrite IH. cbn [set_pend]. destruct (nth_error (exts s) i); reflexivity.
Qed.

Lemma set_exts_plain s i scs : ext_plain s -> ext_plain (set_exts s i scs).
Proof.
  revert s i. induction scs as [|sc scs IH]; intros s i HX; cbn [set_exts]; [exact HX|].
  apply IH. cbn [set_pend]. destruct (nth_error (exts s) i) as [ex|] eqn:Hn; [|exact HX].
  intros j exj Hj q Hq. unfold set_ext in Hj; cbn [exts] in Hj.
  destruct (Nat.eq_dec i j) as [<-|Hij].
  - rewrite (nth_error_upd_same _ _ _ _ Hn) in Hj. inversion Hj; subst exj. cbn [x_pend] in Hq.
    apply in_map_iff in Hq as (ac & <- & _). reflexivity.
  - rewrite nth_upd_neq in Hj by exact Hij. apply (HX j exj Hj q Hq).
Qed.

Lemma SInv_init scs : SInv (init_with scs).
Proof.
  unfold init_with. split.
  - intros a x Hg. unfold get in Hg. rewrite set_exts_actors in Hg. cbn [actors init_state] in Hg.
    destruct a as [|[|a]]; cbn [nth_error] in Hg; try discriminate. inversion Hg; subst x. apply INV_idle; reflexivity.
  - apply set_exts_plain. intros i ex Hn j Hj. cbn [exts init_state] in Hn.
    apply nth_error_In, repeat_spec in Hn. subst ex. destruct Hj.
Qed.

(** A state predicate [Q] that is preserved - given the phase invariant - by the micro-step, by the reference resolution of
    a tell, by the queue insertion, by the removal of the instruction a thread waited at, by Pause / Resume's first CAS, by
    the consumer's moves and by HandleEnvelop is preserved, with the phase invariant, by every step. *)
Section Step.
  Variable Q : state -> Prop.

  Hypothesis Q_astep : forall s t i rest,
    SInv s -> Q s -> pend_of s t = i :: rest -> yielding i = false -> err (astep s t i rest) = false -> Q (astep s t i rest).
  Hypothesis Q_resolve : forall s t sys to sender m rest,
    SInv s -> Q s -> pend_of s t = IEnq sys to sender m :: rest ->
    Q (set_pend (snd (resolve s to)) t (IEnqR sys (fst (resolve s to)) sender m :: rest)).
  Hypothesis Q_push : forall s t choice, SInv s -> Q s -> err (step s (EvPush t choice)) = false -> Q (step s (EvPush t choice)).
  Hypothesis Q_pophead : forall s t i rest,
    SInv s -> Q s -> pend_of s t = i :: rest -> (i = IEnqDone \/ i = IResume1 \/ i = IResume2) -> Q (set_pend s t rest).
  Hypothesis Q_pause : forall s t rest,
    SInv s -> Q s -> pend_of s t = IPauseSt :: rest ->
    Q (set_pend (with_actor s (self_of t) (fun x => set_mb x (a_sq x) (a_uq x) true (a_cons x) (a_cur x))) t rest).
  Hypothesis Q_resume1p : forall s t rest x,
    SInv s -> Q s -> pend_of s t = IResume1 :: rest -> get s (self_of t) = Some x ->
    Q (set_pend (set_actor s (self_of t) (set_mb x (a_sq x) (a_uq x) false (a_cons x) (a_cur x))) t (IResume2 :: rest)).
  Hypothesis Q_consumer : forall s ev,
    (match ev with EvSysPop _ | EvLoadPaused _ | EvUserPop _ => True | _ => False end) ->
    SInv s -> Q s -> err (step s ev) = false -> Q (step s ev).
  Hypothesis Q_handle : forall s a x e s1 ins,
    SInv s -> Q s -> get s a = Some x -> a_cons x = CH e -> a_pend x = [] ->
    let x0 := set_mb x (a_sq x) (a_uq x) (a_paused x) (CBusy (mode_top x)) (a_cur x) in
    dispatch (set_actor s a x0) a x0 e = (s1, ins) ->
    Q (set_pend s1 (TA a) ins).

  Definition SQ (s : state) : Prop := SInv s /\ Q s.

  Lemma SQ_run_atomic f s t : SQ s -> err (run_atomic f s t) = false -> SQ (run_atomic f s t).
  Proof.
    apply (run_atomic_ind SQ t).
    - intros s0 i rest [HI HQ] Hp Hy He1. split; [apply SInv_astep; assumption|apply Q_astep; assumption].
    - intros s0 sys to sender m rest [HI HQ] Hp. split; [|apply Q_resolve; assumption].
      apply (SInv_mb_pop s0 _ t _ rest [_] (mb_equiv_resolve s0 to) HI Hp eq_refl). intros j [<-|[]]. reflexivity.
  Qed.

  Lemma SQ_pre s ev s' t : pre_atomic s ev = Some (s', t) -> SQ s -> SQ s'.
  Proof.
    intros E [HI HQ]. destruct ev; cbn [pre_atomic] in E; try discriminate E.
    - destruct (get s a) as [x|] eqn:Hg; [|discriminate E]. destruct (a_cons x) eqn:Hc; try discriminate E.
      destruct (dispatch _ a _ e) as [s1 ins] eqn:Hd. injection E as <- <-.
      split; [apply (SInv_handle_pre s a x e s1 ins HI Hg Hd)|apply (Q_handle s a x e s1 ins HI HQ Hg Hc)]; [|exact Hd].
      apply (INV_not_busy _ _ (proj1 HI a x Hg)). rewrite Hc. reflexivity.
    - destruct (pend_of s t0) as [|i rest] eqn:Hp; [discriminate E|]. destruct i; try discriminate E. injection E as <- <-.
      split; [apply (SInv_pop s t0 IEnqDone rest HI Hp eq_refl)|apply (Q_pophead s t0 IEnqDone rest HI HQ Hp); auto].
    - destruct (pend_of s t0) as [|i rest] eqn:Hp; [discriminate E|]. destruct i; try discriminate E. injection E as <- <-.
      split; [|apply Q_pause; assumption].
      refine (SInv_mb_pop s _ t0 IPauseSt rest [] (mb_equiv_with_actor s (self_of t0) (fun x => set_mb x (a_sq x) (a_uq x) true (a_cons x) (a_cur x)) _) HI Hp eq_refl _);
        [intros x; repeat split|intros j []].
    - destruct (pend_of s t0) as [|i rest] eqn:Hp; [discriminate E|]. destruct i; try discriminate E.
      destruct (get s (self_of t0)) as [x|]; [|discriminate E]. destruct (a_paused x); [discriminate E|]. injection E as <- <-.
      split; [apply (SInv_pop s t0 IResume1 rest HI Hp eq_refl)|apply (Q_pophead s t0 IResume1 rest HI HQ Hp); auto].
    - destruct (pend_of s t0) as [|i rest] eqn:Hp; [discriminate E|]. destruct i; try discriminate E. injection E as <- <-.
      split; [apply (SInv_pop s t0 IResume2 rest HI Hp eq_refl)|apply (Q_pophead s t0 IResume2 rest HI HQ Hp); auto].
    - injection E as <- <-. split; assumption.
  Qed.

  Lemma SQ_no_atomic s ev : pre_atomic s ev = None -> SQ s -> err (step s ev) = false -> SQ (step s ev).
  Proof.
    intros E [HI HQ] Herr. pose proof (no_atomic_cases s ev E Herr) as Hc.
    destruct ev; try contradiction.
    1-3: split; [|apply Q_consumer; auto]; destruct (consumer_move s _ Herr I) as (b & x & sq & uq & co & Hg & _ & Hb & ->);
      apply (SInv_cons s b x); assumption.
    - split; [|apply Q_push; assumption].
      destruct (step_push s t choice Herr) as (i & rest & s1 & mb & e & front & Hp & Hpu & ->).
      destruct (pushes_plain _ _ _ _ _ _ _ _ Hpu) as (Hm & Hs & Hf). apply (SInv_mb_pop s _ t i rest front Hm HI Hp Hs Hf).
    - destruct Hc as (rest & x & Hp & Hg & ->). split; [|apply Q_resume1p; assumption].
      refine (SInv_mb_pop s _ t IResume1 rest [IResume2] (mb_equiv_set_actor s _ x (set_mb x (a_sq x) (a_uq x) false (a_cons x) (a_cur x)) Hg _) HI Hp eq_refl _);
        [repeat split|intros j [<-|[]]; reflexivity].
  Qed.

  Lemma SQ_step s ev : SQ s -> err (step s ev) = false -> SQ (step s ev).
  Proof.
    intros HS Herr. rewrite (step_pre s ev) in *. destruct (pre_atomic s ev) as [[s' t]|] eqn:E.
    - apply SQ_run_atomic; [apply (SQ_pre s ev s' t E HS)|exact Herr].
    - apply (SQ_no_atomic s ev E HS Herr).
  Qed.

  Lemma SQ_reachable : (forall scs, Q (init_with scs)) -> forall s, reachable s -> Q s.
  Proof.
    intros Hinit s Hr. apply (reachable_ind SQ); [|intros; apply SQ_step; assumption|exact Hr].
    intros scs. split; [apply SInv_init|apply Hinit].
  Qed.
End Step.

Lemma SInv_step s ev : SInv s -> err (step s ev) = false -> SInv (step s ev).
Proof. intros HI He. apply (SQ_step (fun _ => True)); try exact He; try (split; [exact HI|exact I]); intros; exact I. Qed.

Lemma SInv_pre s ev s' t : pre_atomic s ev = Some (s', t) -> SInv s -> SInv s'.
Proof. intros E HI. refine (proj1 (SQ_pre (fun _ => True) _ _ _ s ev s' t E (conj HI I))); intros; exact I. Qed.

Theorem SInv_reachable s : reachable s -> SInv s.
Proof. apply reachable_ind; [apply SInv_init|]. intros s0 ev HI _ He. apply SInv_step; assumption. Qed.

Theorem pending_implies_busy s a x : reachable s -> get s a = Some x -> a_pend x <> [] -> is_busy (a_cons x) = true.
Proof.
  intros Hr Hg Hp. destruct (proj1 (SInv_reachable s Hr) a x Hg) as (_ & [H|(H & _)]); [contradiction|exact H].
Qed.
