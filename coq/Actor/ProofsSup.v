(** Proofs for C08 (supervision) over Actor/Core.v: every machine step as a composition of the primitive
    updates [prim] of Actor/SpecSup.v (the alphabet over which the invariants of reachable states here and in
    ProofsStream.v are proved), and the characterising lemmas of [dispatch] / [exec1] for the supervision
    messages and instructions. *)
From Coq Require Import List NArith Bool Permutation Lia PeanoNat.
From Vivid Require Import Actor.Core Actor.CoreRun Actor.SpecMail Actor.ProofsMailBase Actor.ProofsMail Actor.ProofsMailInv
  Actor.ProofsMailWf Actor.ProofsStep Actor.SpecSup.
Import ListNotations.

Lemma upd_length {A} (l : list A) i x : length (upd l i x) = length l.
Proof. apply ProofsMailBase.upd_length. Qed.

Lemma path_eqb_eq p q : path_eqb p q = true <-> p = q.
Proof.
  revert q; induction p as [|x p IH]; intros [|y q]; cbn; split; intros H; try discriminate; auto.
  - apply andb_prop in H as [H1 H2]. apply N.eqb_eq in H1. apply IH in H2. congruence.
  - inversion H; subst. rewrite N.eqb_refl. cbn. apply IH. reflexivity.
Qed.

Lemma path_eqb_refl p : path_eqb p p = true.
Proof. apply path_eqb_eq. reflexivity. Qed.

Lemma path_eqb_neq p q : path_eqb p q = false <-> p <> q.
Proof. split; intros H. - intros E. apply path_eqb_eq in E. congruence. - destruct (path_eqb p q) eqn:E; auto. apply path_eqb_eq in E. contradiction. Qed.

Lemma prims_trans t s1 s2 s3 : prims t s1 s2 -> prims t s2 s3 -> prims t s1 s3.
Proof. intros H1 H2. induction H2; eauto using prims. Qed.

Lemma prims_one t s s' : prim t s s' -> prims t s s'.
Proof. intros H. eapply ps_step; [apply ps_refl|exact H]. Qed.

Lemma stable_refl x : stable x x.
Proof. repeat split. Qed.

Lemma with_actor_prims t s a f : (forall x, stable x (f x)) -> prims t s (with_actor s a f).
Proof.
  intros Hf. unfold with_actor. destruct (get s a) eqn:E.
  - apply prims_one. eapply p_actor; eauto.
  - apply prims_one, p_err.
Qed.

Lemma push_mb_prims t s a e : prims t s (push_mb s a e).
Proof. unfold push_mb. apply with_actor_prims. intros x. repeat split. Qed.

Lemma resolve_prims t s r : prims t s (snd (resolve s r)).
Proof.
  destruct (resolve_shape s r) as [H|[H|(a & x & y & _ & Hg & _ & _ & H & _)]]; rewrite H;
    [apply ps_refl|apply prims_one, p_err|apply prims_one; eapply p_actor; [exact Hg|repeat split]].
Qed.

(* a state written by one branch of [exec1] / [dispatch] is the old state or one primitive update of it: try each
   constructor of [prim]; for [p_actor] the record fields it must not touch are compared after the remaining matches
   of the branch are split (used only in [exec1_prims] and [dispatch_prims]) *)
Ltac prim_solve :=
  first
    [ apply ps_refl
    | apply prims_one; first
        [ apply p_err | apply p_obs | apply p_ghost | apply p_sub_all
        | eapply p_actor; [eassumption|]; repeat match goal with |- context[match ?e with _ => _ end] => destruct e end; solve [repeat split]
        | eapply p_sub_rm; eassumption
        | eapply p_sub_add; eassumption ] ].

Lemma exec1_prims s t held i : prims t s (fst (exec1 s t held i)).
Proof.
  unfold exec1. destruct (get s (self_of t)) as [x|] eqn:Hx; [|cbn; prim_solve].
  destruct i as [sys to sender m|sys to sender m|to e| |sys tos sender m|c d rem done| | | |a|m acts r| |ty payload|poison|who| | | | |c d targets|o| ];
    cbn [fst]; try prim_solve.
  - destruct rem; cbn [fst]; prim_solve.
  - destruct a as [r tag acts|tag acts|sp|r poison| |n| |r|r|ty|ty| |ty payload|mode discard|discard]; cbn [fst]; try prim_solve.
    + (* ASpawn: the new record, its registration and generation, then the parent's child entry *)
      destruct (a_state x); cbn [fst]; try prim_solve.
      all: destruct (negb (sp_prelaunch sp)); cbn [fst]; [prim_solve|].
      all: destruct (alookup (reg s) (a_path x ++ [sp_name sp])); cbn [fst]; [prim_solve|].
      all: eapply prims_trans; [|apply with_actor_prims; intros y; repeat split].
      all: apply prims_one, p_spawn.
      all: destruct t as [a|i]; [reflexivity|]; destruct (nth_error (exts s) i) eqn:E; [|reflexivity].
      all: rewrite map_upd; apply upd_same; rewrite nth_error_map, E; reflexivity.
    + destruct (a_cur x); cbn [fst]; prim_solve.
    + destruct n; [|destruct (a_stash x); cbn [fst]; prim_solve].
      destruct (Nat.eqb (length (a_stash x)) 0); cbn [fst]; prim_solve.
    + destruct (alookup (subscribers s ty) (a_path x)) eqn:E; cbn [fst]; prim_solve.
    + destruct (nlookup (subs s) ty) eqn:E; cbn [fst]; prim_solve.
  - destruct (a_zombie x); cbn [fst]; [prim_solve|].
    destruct (a_parent x).
    + destruct (take_until_panic acts). cbn [fst]. prim_solve.
    + destruct m; cbn [fst]; try prim_solve. destruct (ref_eq s who (RObj (self_of t))); cbn [fst]; prim_solve.
  - destruct (subscribers s ty); cbn [fst]; prim_solve.
  - destruct (a_zombie x); cbn [fst]; [prim_solve|].
    destruct (ref_eq s who (RObj (self_of t))); cbn [fst]; [prim_solve|].
    prim_solve.
  - destruct (a_children x); [|cbn [fst]; prim_solve]. destruct (a_state x); cbn [fst]; prim_solve.
  - eapply ps_step; [apply prims_one, (p_sub_all t s (a_path x))|]. apply p_reg.
  - destruct (a_hooks x) as [|[[h1 h2] h3] rest]; [cbn [fst]; prim_solve|].
    destruct (h2 && h3); cbn [fst]; prim_solve.
  - destruct d; cbn [fst]; prim_solve.
Qed.

Lemma dispatch_prims s a x e : get s a = Some x -> prims (TA a) s (fst (dispatch s a x e)).
Proof.
  intros Hx. destruct (dispatch_cases s a x e) as [| |r _ []]; cbn [fst]; try prim_solve.
  eapply ps_step; [|apply p_ghost]. prim_solve.
Qed.

Theorem step_prims s ev : prims (ev_thread ev) s (step s ev).
Proof.
  apply (step_rel prims).
  - apply ps_refl.
  - apply prims_trans.
  - intros. apply prims_one, p_err.
  - intros. apply prims_one, p_pend.
  - intros t s0 x sq uq pa co cu Hg. apply prims_one. eapply p_actor; [exact Hg|repeat split].
  - intros. apply push_mb_prims.
  - intros. apply resolve_prims.
  - intros s0 a x e. apply dispatch_prims.
  - intros. apply exec1_prims.
Qed.

Lemma reachable_inv (I : state -> Prop) :
  (forall scs, I (init_with scs)) -> (forall t s s', prim t s s' -> I s -> I s') -> forall s, reachable s -> I s.
Proof.
  intros H0 H s (scs & evs & -> & _). generalize (H0 scs). generalize (init_with scs). unfold run_events.
  induction evs as [|ev evs IH]; intros s0 Hs; cbn [fold_left]; [exact Hs|]. apply IH.
  induction (step_prims s0 ev); eauto.
Qed.

Lemma init_with_subs scs : subs (init_with scs) = [].
Proof. unfold init_with. destruct (set_exts_fields scs (init_state (length scs)) 0) as (_ & _ & -> & _). reflexivity. Qed.

Definition keeps_actors (s s' : state) : Prop :=
  forall a x, get s a = Some x -> exists x', get s' a = Some x' /\
    a_path x' = a_path x /\ a_gen x' = a_gen x /\ a_parent x' = a_parent x /\ a_spec x' = a_spec x.

Lemma get_set_pend s t p a x : get s a = Some x -> exists x', get (set_pend s t p) a = Some x' /\
    a_path x' = a_path x /\ a_gen x' = a_gen x /\ a_parent x' = a_parent x /\ a_spec x' = a_spec x.
Proof.
  intros H. destruct t as [b|i]; cbn [set_pend].
  - unfold with_actor. destruct (get s b) as [y|] eqn:E; [|exists x; cbn; auto].
    destruct (Nat.eq_dec b a) as [->|N].
    + rewrite (get_set_same' _ _ _ _ E). rewrite H in E; inversion E; subst. eexists; split; [reflexivity|]. cbn; auto.
    + rewrite get_set_other by exact N. exists x; auto.
  - destruct (nth_error (exts s) i); exists x; cbn; auto.
Qed.

Lemma prim_keeps_actors t s s' : prim t s s' -> keeps_actors s s'.
Proof.
  intros Hp a x H. destruct Hp; try (exists x; cbn; auto; fail).
  - destruct (Nat.eq_dec a0 a) as [->|N].
    + rewrite (get_set_same' _ _ _ _ H0). rewrite H in H0; inversion H0; subst.
      destruct H1 as (? & ? & ? & ? & ?). eexists; split; [reflexivity|]. auto.
    + rewrite get_set_other by exact N. exists x; auto.
  - apply get_set_pend. exact H.
  - exists x. split; [|auto]. unfold get in *; cbn. rewrite nth_error_app1; [exact H|]. apply nth_error_Some. congruence.
Qed.

Lemma root_inv s : reachable s -> exists x, get s 0 = Some x /\ a_spec x = root_spec /\ a_parent x = None /\ a_path x = [].
Proof.
  revert s. apply reachable_inv.
  - intros scs. eexists. split; [unfold get; rewrite init_with_actors; reflexivity|]. cbn. auto.
  - intros t s s' Hp (x & Hg & Hs & Hpa & Hpt). destruct (prim_keeps_actors t s s' Hp 0 x Hg) as (x' & Hg' & E1 & _ & E3 & E4).
    exists x'. repeat split; congruence.
Qed.

Lemma run_events_err evs : forall s, err s = true -> err (run_events evs s) = true.
Proof. intros s. apply err_mono_run. Qed.

Lemma reachable_step s ev : reachable s -> err (step s ev) = false -> reachable (step s ev).
Proof.
  intros (scs & evs & -> & _) H. exists scs, (evs ++ [ev]). split; [|exact H].
  unfold run_events. rewrite fold_left_app. reflexivity.
Qed.

(** [dead_for], [set_cur], [sup_decide], [sup_targets] are the dead-letter test, the record and the choices of
    ProofsMail.dispatch_cases *)
Lemma dead_for_eq x e : dead_for x e = is_dead x e && negb (a_zombie x).
Proof. reflexivity. Qed.

Lemma dead_for_running x e : a_state x = Running -> dead_for x e = false.
Proof. intros H. unfold dead_for. rewrite H. reflexivity. Qed.

Lemma sup_decision_eq x : sup_decision x = sup_decide x.
Proof. unfold sup_decision, sup_decide. destruct (sp_strategy (a_spec x)); reflexivity. Qed.

Lemma sup_targets_eq x c : ProofsMail.sup_targets x c = sup_targets x c.
Proof. unfold ProofsMail.sup_targets, sup_targets. destruct c, (sp_strategy (a_spec x)) as [|[p|[p|p|]|]]; reflexivity. Qed.

Lemma dispatch_MSup s a x e c :
  e_msg e = MSup c -> dead_for x e = false ->
  dispatch s a x e = (set_actor s a (set_decisions (set_cur x e) (snd (sup_decide x))),
                      [ISupPause c (fst (sup_decide x)) (sup_targets x c) []; IEndHandler]).
Proof.
  intros Hm Hd. destruct (dispatch_alive s a x e Hd); try congruence.
  rewrite sup_decision_eq, sup_targets_eq. unfold set_cur, with_cur. congruence.
Qed.

Lemma consulted_once s a x e c :
  e_msg e = MSup c -> dead_for x e = false ->
  exists d ds targets,
    dispatch s a x e = (set_actor s a (set_decisions (set_cur x e) ds), [ISupPause c d targets []; IEndHandler]) /\
    (sp_strategy (a_spec x) = 0%N -> d = DStop /\ ds = a_decisions x) /\
    (sp_strategy (a_spec x) <> 0%N -> a_decisions x = d :: ds \/ (a_decisions x = [] /\ d = DStop /\ ds = [])) /\
    (sp_strategy (a_spec x) = 2%N -> targets = map (fun p => RObj (snd p)) (a_children x)) /\
    (sp_strategy (a_spec x) <> 2%N -> targets = [sc_child c]).
Proof.
  intros Hm Hd. exists (fst (sup_decide x)), (snd (sup_decide x)), (sup_targets x c).
  split; [apply dispatch_MSup; assumption|].
  unfold sup_decide, sup_targets. split; [|split; [|split]].
  - intros ->. split; reflexivity.
  - intros H. destruct (N.eqb_spec (sp_strategy (a_spec x)) 0); [contradiction|].
    destruct (a_decisions x); [right|left]; auto.
  - intros ->. reflexivity.
  - intros H. destruct (N.eqb_spec (sp_strategy (a_spec x)) 2); [contradiction|reflexivity].
Qed.

Lemma dead_supervisor s a x e p :
  dead_for x e = true -> a_parent x = Some p ->
  dispatch s a x e = (s, [IEnqMb 0 {| e_sys := false; e_sender := root_ref; e_msg := MDeadLetter (e_sys e) (e_msg e) |}; IEnqDone; IEndHandler]).
Proof.
  intros Hd Hp. rewrite dead_for_eq in Hd. destruct (dispatch_cases s a x e) as [| |r Hd' _]; [congruence|reflexivity|congruence].
Qed.

Lemma sup_targets_spec x c :
  (sp_strategy (a_spec x) = 2%N -> sup_targets x c = map (fun p => RObj (snd p)) (a_children x)) /\
  (sp_strategy (a_spec x) <> 2%N -> sup_targets x c = [sc_child c]).
Proof.
  unfold sup_targets. split.
  - intros ->. reflexivity.
  - intros H. destruct (N.eqb_spec (sp_strategy (a_spec x)) 2); [contradiction|reflexivity].
Qed.

Lemma remove_nth_perm {A} (l : list A) k x : nth_error l k = Some x -> Permutation l (x :: remove_nth k l).
Proof.
  revert k; induction l as [|h t IH]; intros [|k] H; cbn in *; try discriminate.
  - inversion H; subst. unfold remove_nth. cbn. apply Permutation_refl.
  - unfold remove_nth in *. cbn. eapply perm_trans; [apply perm_skip, IH, H|apply perm_swap].
Qed.

Lemma pick_order_perm {A} (rem order : list A) : pick_order rem order -> Permutation rem order.
Proof.
  induction 1 as [|rem k to order Hk _ IH]; [apply perm_nil|].
  eapply perm_trans; [apply remove_nth_perm, Hk|apply perm_skip, IH].
Qed.

Lemma pick_order_id {A} (l : list A) : pick_order l l.
Proof. induction l as [|h t IH]; [constructor|]. apply (pick_cons (h :: t) 0 h t); [reflexivity|exact IH]. Qed.

Lemma instr_sends_app l1 l2 : instr_sends (l1 ++ l2) = instr_sends l1 ++ instr_sends l2.
Proof. induction l1 as [|i r IH]; [reflexivity|]. destruct i; cbn; rewrite ?IH; reflexivity. Qed.

Lemma instr_sends_tells sys sender (m : rref -> msg) l :
  instr_sends (flat_map (fun r => [IEnq sys r sender (m r); IEnqDone]) l) = map (fun r => (r, sys, m r)) l.
Proof. induction l as [|r l IH]; [reflexivity|]. cbn. rewrite IH. reflexivity. Qed.

Lemma sup_sends_shape self x c d order to sys m :
  In (to, sys, m) (sup_sends self x c d order) ->
  (In to order /\ m = MCmdPause /\ sys = true) \/
  (In to order /\ match d with
                  | DRestart => m = MRestart false /\ sys = true
                  | DGRestart => m = MRestart true /\ sys = false
                  | DStop => m = MKill (RObj self) false /\ sys = true
                  | DGStop => m = MKill (RObj self) true /\ sys = false
                  | _ => False
                  end) \/
  (In to (chain_targets (sc_set_targets c order)) /\ m = MCmdResume /\ sys = true /\
   match d with DGRestart | DGStop | DResume => True | _ => False end) \/
  (to = rref_parent x /\ m = MSup (SupCtx (RObj self) [] (Some (sc_set_targets c order))) /\ sys = true /\ is_escalation d = true).
Proof.
  unfold sup_sends, apply_sends, resume_sends. intros H. apply in_app_or in H as [H|H].
  - apply in_map_iff in H as (r & E & Hr). inversion E; subst. auto.
  - right. destruct d; rewrite ?in_app_iff in H;
      repeat match goal with H : _ \/ _ |- _ => destruct H end;
      try (apply in_map_iff in H as (r & E & Hr); inversion E; subst; auto 8; fail).
    all: cbn in H; destruct H as [E|[]]; inversion E; subst; right; right; auto.
Qed.

Lemma sup_sends_targets self x c d order to sys m :
  In (to, sys, m) (sup_sends self x c d order) -> In to (chain_targets (sc_set_targets c order) ++ [rref_parent x]).
Proof.
  intros H. apply in_or_app.
  destruct (sup_sends_shape _ _ _ _ _ _ _ _ H) as [(Ho & _)|[(Ho & _)|[(Hc & _)|(-> & _)]]]; [left|left|left; exact Hc|right; left; reflexivity].
  all: destruct c as [ch ts sub]; cbn; apply in_or_app; left; exact Ho.
Qed.

Lemma step_ISupPause s t k c d rem done rest :
  pend_of s t = ISupPause c d rem done :: rest -> err (step s (EvPush t k)) = false ->
  exists to, nth_error rem k = Some to /\
    step s (EvPush t k) =
      set_pend (fst (deliver (snd (resolve s to)) (fst (resolve s to)) {| e_sys := true; e_sender := RObj (self_of t); e_msg := MCmdPause |}))
               t (IEnqDone :: ISupPause c d (remove_nth k rem) (done ++ [to]) :: rest) /\
    pend_of (step s (EvPush t k)) t = IEnqDone :: ISupPause c d (remove_nth k rem) (done ++ [to]) :: rest.
Proof.
  intros Hp. cbn [step]. rewrite Hp. destruct (nth_error rem k) as [to|]; [|cbn; discriminate].
  intros He. exists to. split; [reflexivity|].
  destruct (resolve s to) as [mb s1]. cbn [fst snd]. destruct (deliver s1 mb _) as [s2 b] eqn:E2. cbn [fst].
  split; [reflexivity|]. apply pend_of_set_pend_ok. exact He.
Qed.

Lemma step_IEnqAny s t k sys tos sender m rest :
  pend_of s t = IEnqAny sys tos sender m :: rest -> err (step s (EvPush t k)) = false ->
  exists to, nth_error tos k = Some to /\
    step s (EvPush t k) =
      set_pend (fst (deliver (snd (resolve s to)) (fst (resolve s to)) {| e_sys := sys; e_sender := sender; e_msg := m |}))
               t (IEnqDone :: match remove_nth k tos with [] => rest | _ :: _ => IEnqAny sys (remove_nth k tos) sender m :: rest end) /\
    pend_of (step s (EvPush t k)) t = IEnqDone :: match remove_nth k tos with [] => rest | _ :: _ => IEnqAny sys (remove_nth k tos) sender m :: rest end.
Proof.
  intros Hp. cbn [step]. rewrite Hp. destruct (nth_error tos k) as [to|]; [|cbn; discriminate].
  intros He. exists to. split; [reflexivity|].
  destruct (resolve s to) as [mb s1]. cbn [fst snd]. destruct (deliver s1 mb _) as [s2 b] eqn:E2. cbn [fst].
  split; [reflexivity|]. apply pend_of_set_pend_ok. exact He.
Qed.

Lemma step_IEnqR s t k sys mb sender m rest :
  pend_of s t = IEnqR sys mb sender m :: rest -> err (step s (EvPush t k)) = false ->
  step s (EvPush t k) = set_pend (fst (deliver s mb {| e_sys := sys; e_sender := sender; e_msg := m |})) t rest /\
  pend_of (step s (EvPush t k)) t = rest.
Proof.
  intros Hp. cbn [step]. rewrite Hp. destruct (deliver s mb _) as [s2 b]. cbn [fst]. intros He.
  split; [reflexivity|]. apply pend_of_set_pend_ok. exact He.
Qed.

Lemma run_atomic_IEnq f s t sys to sender m rest :
  pend_of s t = IEnq sys to sender m :: rest ->
  run_atomic (S f) s t = set_pend (snd (resolve s to)) t (IEnqR sys (fst (resolve s to)) sender m :: rest).
Proof. exact (run_atomic_enq f s t sys to sender m rest). Qed.

Lemma dispatch_MRestart_running s a x e poison :
  e_msg e = MRestart poison -> a_state x = Running ->
  exists x', dispatch s a x e = (set_actor s a x', [IPub evRestarting (actor_key x); IDoKill poison; IEndHandler]) /\
    stable x x' /\ a_state x' = Killing /\ a_restarting x' = Some poison /\
    a_cur x' = Some {| e_sys := true; e_sender := e_sender e; e_msg := MKill (RObj a) poison |} /\
    a_zombie x' = a_zombie x /\ a_children x' = a_children x /\ a_watchers x' = a_watchers x /\ a_stash x' = a_stash x /\
    a_modes x' = a_modes x /\ a_inst x' = a_inst x /\ a_decisions x' = a_decisions x /\ a_hooks x' = a_hooks x /\
    same_queues x x'.
Proof.
  intros Hm Hs. destruct (dispatch_alive s a x e (dead_for_running x e Hs)); try congruence.
  eexists. split; [apply f_equal2; [reflexivity|congruence]|cbn; repeat split; congruence].
Qed.

Lemma dispatch_MRestart_not_running s a x e poison :
  e_msg e = MRestart poison -> a_state x <> Running -> dead_for x e = false ->
  dispatch s a x e =
    (set_actor s a (set_cur x e),
     [IResume1]
     ++ (match a_state x, a_children x with
         | Killing, _ :: _ => [IEnqAny true (map (fun p => RObj (snd p)) (a_children x)) (RObj a) (MKill (RObj a) false)]
         | _, _ => []
         end)
     ++ [IEndHandler]).
Proof.
  intros Hm Hs Hd. destruct (dispatch_alive s a x e Hd); try congruence.
  unfold kill_children. destruct (a_state x); [contradiction| |]; destruct (a_children x); reflexivity.
Qed.

Lemma exec1_ICheckMark s t held x :
  get s (self_of t) = Some x -> a_children x = [] -> a_state x = Killing ->
  exists x', exec1 s t held ICheckMark =
    (set_actor s (self_of t) x',
     [IBeh (MKilled (RObj (self_of t))) (sp_killed (a_spec x)) RecLog; match a_restarting x with None => ICleanup | Some _ => IRestartFinish end]) /\
    stable x x' /\ a_state x' = Killed /\ a_restarting x' = a_restarting x /\ a_modes x' = a_modes x /\ a_inst x' = a_inst x /\
    a_stash x' = a_stash x /\ same_queues x x'.
Proof.
  intros H Hc Hs. unfold exec1. rewrite H, Hc, Hs. eexists; split; [destruct (a_restarting x); reflexivity|].
  cbn. repeat split.
Qed.

Lemma exec1_ICheckMark_waits s t held x :
  get s (self_of t) = Some x -> a_children x <> [] \/ a_state x <> Killing -> exec1 s t held ICheckMark = (s, []).
Proof.
  intros H Hc. unfold exec1. rewrite H. destruct (a_children x); [|reflexivity].
  destruct (a_state x); try reflexivity. destruct Hc; contradiction.
Qed.

Lemma exec1_IRestartFinish s t held x :
  get s (self_of t) = Some x ->
  exists x' ins, exec1 s t held IRestartFinish = (set_actor s (self_of t) x', ins) /\
    stable x x' /\ a_modes x' = [0%N] /\
    a_inst x' = (if sp_provider (a_spec x) then (a_inst x + 1)%N else a_inst x) /\
    a_hooks x' = tl (a_hooks x) /\ a_stash x' = a_stash x /\ a_children x' = a_children x /\ a_watchers x' = a_watchers x /\
    a_decisions x' = a_decisions x /\ a_sq x' = a_sq x /\ a_uq x' = a_uq x /\ a_paused x' = a_paused x /\
    (restart_hooks_ok x = true ->
       a_state x' = Running /\ a_restarting x' = None /\ a_zombie x' = a_zombie x /\
       ins = [IResume1; IPub evRestarted (actor_key x); IPub evResumed (actor_key x);
              IBeh MLaunch (sp_launch (a_spec x)) RecFail; IPub evLaunched (actor_key x)]) /\
    (restart_hooks_ok x = false ->
       a_state x' = a_state x /\ a_restarting x' = a_restarting x /\ a_zombie x' = true /\ ins = [IResume1]).
Proof.
  intros H. unfold exec1. rewrite H. unfold restart_hooks_ok.
  destruct (a_hooks x) as [|[[h1 h2] h3] rest].
  - eexists; eexists; split; [reflexivity|]. destruct (sp_provider (a_spec x)); cbn; repeat split; try discriminate.
  - destruct (h2 && h3); eexists; eexists; (split; [reflexivity|]);
      destruct (sp_provider (a_spec x)); cbn; repeat split; try discriminate.
Qed.

Lemma dispatch_MKill_running s a x e k poison :
  e_msg e = MKill k poison -> a_state x = Running -> a_zombie x = false ->
  dispatch s a x e = (set_actor s a (set_state (set_cur x e) Killing), [IDoKill poison; IEndHandler]).
Proof.
  intros Hm Hs Hz. destruct (dispatch_alive s a x e (dead_for_running x e Hs)); try congruence.
  unfold set_cur, with_cur. congruence.
Qed.

Lemma ref_eq_self s a x : get s a = Some x -> ref_eq s (RObj a) (RObj a) = true.
Proof. intros H. unfold ref_eq, ref_path. rewrite H. apply path_eqb_refl. Qed.

Lemma exec1_IOnKilled_self s t held x :
  get s (self_of t) = Some x -> a_zombie x = false ->
  exec1 s t held (IOnKilled (RObj (self_of t))) = (s, [ICheckMark]).
Proof. intros H Hz. unfold exec1. rewrite H, Hz, (ref_eq_self _ _ _ H). reflexivity. Qed.

Lemma dispatch_MCmdPause s a x e :
  e_msg e = MCmdPause -> dead_for x e = false ->
  dispatch s a x e = (set_actor s a (set_cur x e), [IPauseSt; IPub evPaused (actor_key x); IEndHandler]).
Proof. intros Hm Hd. destruct (dispatch_alive s a x e Hd); try congruence. reflexivity. Qed.

Lemma set_cur_same x e : stable x (set_cur x e) /\ same_user_state x (set_cur x e) /\ same_queues x (set_cur x e) /\ a_cons (set_cur x e) = a_cons x.
Proof. unfold stable, same_user_state, same_queues. cbn. repeat split. Qed.

Lemma step_EvResume1 s t x rest :
  pend_of s t = IResume1 :: rest -> get s (self_of t) = Some x -> a_paused x = true ->
  step s (EvResume1 t) = set_pend (set_actor s (self_of t) (set_mb x (a_sq x) (a_uq x) false (a_cons x) (a_cur x))) t (IResume2 :: rest).
Proof. exact (step_resume1_paused s t x rest). Qed.

Lemma keeps_mail_upd_app st s s' a x y news :
  get s a = Some x -> actors s' = upd (actors s) a y ++ news ->
  a_sq y = a_sq x -> a_uq y = a_uq x -> a_paused y = a_paused x -> (st = true -> a_stash y = a_stash x) ->
  keeps_mail st s s'.
Proof.
  intros Hg Ha E1 E2 E3 E4 b z Hb. unfold get in *. rewrite Ha.
  rewrite nth_error_app1 by (rewrite upd_length; eapply nth_error_lt; exact Hb).
  destruct (Nat.eq_dec a b) as [<-|N].
  - rewrite nth_upd_eq by (eapply nth_error_lt; exact Hg). exists y. replace z with x by congruence. auto.
  - rewrite nth_upd_neq by exact N. exists z. auto.
Qed.

Lemma exec1_keeps_mail s t held i : keeps_mail (negb (touches_stash i)) s (fst (exec1 s t held i)).
Proof.
  destruct (get s (self_of t)) as [x|] eqn:Hx.
  - destruct (exec1_actors s t held i x Hx) as (y & news & Hy & _ & Ha).
    apply (keeps_mail_upd_app _ _ _ _ x y news Hx Ha); try apply Hy.
    intros Hs. destruct (lu_stash _ _ _ Hy) as [E|[->|[n ->]]]; [exact E|discriminate Hs|discriminate Hs].
  - rewrite (exec1_none _ _ _ _ Hx). intros b z Hb. exists z. auto.
Qed.

Lemma in_instr_direct l b e : In (b, e) (instr_direct l) -> In (IEnqMb b e) l.
Proof.
  induction l as [|i l IH]; [intros []|]. destruct i; cbn; try (intros H; right; exact (IH H)).
  intros [E|H]; [left; congruence|right; exact (IH H)].
Qed.

Lemma exec1_direct s t held i x b e :
  get s (self_of t) = Some x -> In (b, e) (instr_direct (snd (exec1 s t held i))) ->
  b = self_of t /\
  ((exists tag acts, i = IAct (ATellSelf tag acts) /\ e = {| e_sys := false; e_sender := RObj (self_of t); e_msg := MUser tag acts |}) \/
   (exists n, i = IAct (AUnstash n) /\ In e (a_stash x))).
Proof.
  intros Hx Hin. apply in_instr_direct, (exec1_emits _ _ _ _ _ _ Hx) in Hin. inversion Hin; subst; eauto 8.
Qed.

Lemma count_failed_acts l : count_failed (map IAct l) = 0.
Proof. induction l; [reflexivity|exact IHl]. Qed.

Lemma count_failed_app l1 l2 : count_failed (l1 ++ l2) = count_failed l1 + count_failed l2.
Proof. induction l1 as [|i r IH]; [reflexivity|]. destruct i; cbn; rewrite ?IH; reflexivity. Qed.

Lemma count_failed_none l : ~ In IFailed l -> count_failed l = 0.
Proof. induction l as [|i l IH]; [reflexivity|]. intros H. destruct i; cbn [count_failed]; try (apply IH; intros Hin; apply H; right; exact Hin). destruct H. left. reflexivity. Qed.

Lemma no_report_RecLog s t held m acts : count_failed (snd (exec1 s t held (IBeh m acts RecLog))) = 0.
Proof.
  apply count_failed_none. intros Hin.
  destruct (get s (self_of t)) as [x|] eqn:H; [|rewrite (exec1_none _ _ _ _ H) in Hin; destruct Hin].
  apply (exec1_emits _ _ _ _ _ _ H) in Hin. inversion Hin. congruence.
Qed.

Lemma no_report_RecKilled s t held x m acts who :
  get s (self_of t) = Some x -> a_state x <> Running \/ ref_eq s who (RObj (self_of t)) = true ->
  count_failed (snd (exec1 s t held (IBeh m acts (RecKilled who)))) = 0.
Proof.
  intros H Hc. apply count_failed_none. intros Hin. apply (exec1_emits _ _ _ _ _ _ H) in Hin. inversion Hin; subst.
  destruct (Hk who eq_refl) as [Hs Hw]. destruct Hc; congruence.
Qed.

Lemma stop_sequence_recoveries s t held x poison :
  get s (self_of t) = Some x ->
  (forall m acts r, In (IBeh m acts r) (snd (exec1 s t held (IDoKill poison))) -> r = RecLog) /\
  (forall m acts r, In (IBeh m acts r) (snd (exec1 s t held ICheckMark)) -> r = RecLog).
Proof.
  intros H. split; intros m acts r Hin; apply (exec1_emits _ _ _ _ _ _ H) in Hin; inversion Hin; reflexivity.
Qed.

Lemma targets_order x c order :
  pick_order (sup_targets x c) order ->
  (sp_strategy (a_spec x) <> 2%N -> order = [sc_child c]) /\
  (sp_strategy (a_spec x) = 2%N -> Permutation (map (fun p => RObj (snd p)) (a_children x)) order).
Proof.
  intros H. apply pick_order_perm in H. destruct (sup_targets_spec x c) as [H2 H1]. split.
  - intros N. rewrite (H1 N) in H. apply Permutation_length_1_inv, H.
  - intros E. rewrite (H2 E) in H. exact H.
Qed.

Lemma pause_then_directive s t held x c d order :
  get s (self_of t) = Some x ->
  exec1 s t held (ISupPause c d [] order) = (s, [ISupApply c d order]) /\
  exists ins, exec1 s t held (ISupApply c d order) = (s, ins) /\
    map (fun r => (r, true, MCmdPause)) order ++ instr_sends ins = sup_sends (self_of t) x c d order /\
    (forall i, In i ins -> i = IEnqDone \/ i = IPauseSt \/ exists sys to m, i = IEnq sys to (RObj (self_of t)) m) /\
    (In IPauseSt ins <-> is_escalation d = true).
Proof.
  intros H. split; [apply (exec1_sup_pause_done _ _ _ _ _ _ _ H)|].
  assert (E : exists ins, exec1 s t held (ISupApply c d order) = (s, ins) /\
                instr_sends ins = apply_sends (self_of t) x c d order /\ (is_escalation d = true -> In IPauseSt ins)).
  { unfold exec1. rewrite H. unfold apply_sends, resume_sends, sc_set_targets.
    destruct d; cbn [is_graceful negb is_escalation]; eexists; (split; [reflexivity|]);
      rewrite ?instr_sends_app, ?instr_sends_tells, ?app_nil_r; (split; [reflexivity|]); try discriminate; intros _; left; reflexivity. }
  destruct E as (ins & E & Hs & Hesc). exists ins. split; [exact E|]. split; [unfold sup_sends; rewrite Hs; reflexivity|].
  (* what the list may contain is read off [emits] *)
  assert (Hem : forall i, In i ins -> emits s (self_of t) held x (ISupApply c d order) i)
    by (intros i Hi; apply (exec1_emits _ _ _ _ _ _ H); rewrite E; exact Hi).
  split.
  - intros i Hi. specialize (Hem i Hi). inversion Hem; subst; eauto 6.
  - split; [|exact Hesc]. intros Hi. specialize (Hem _ Hi). inversion Hem; subst. destruct Hd as [-> | ->]; reflexivity.
Qed.

Lemma failure_sites s a x e :
  dead_for x e = false ->
  (e_msg e = MLaunch ->
     dispatch s a x e = (set_actor s a (set_cur x e), [IBeh MLaunch (sp_launch (a_spec x)) RecFail; IPub evLaunched (actor_key x); IEndHandler])) /\
  (forall tag acts, e_msg e = MUser tag acts ->
     dispatch s a x e = (set_actor s a (set_cur x e), [IBeh (MUser tag acts) acts RecFail; IEndHandler])) /\
  (forall ty payload, e_msg e = MEvent ty payload ->
     dispatch s a x e = (set_actor s a (set_cur x e), [IBeh (MEvent ty payload) [] RecFail; IEndHandler])) /\
  (forall who, e_msg e = MKilled who ->
     dispatch s a x e = (set_actor s a (set_cur x e), [IOnKilled who; IEndHandler])).
Proof.
  intros Hd. repeat split; intros; destruct (dispatch_alive s a x e Hd); unfold set_cur, with_cur; congruence.
Qed.

Lemma exec1_IOnKilled_other s t held x who :
  get s (self_of t) = Some x -> a_zombie x = false -> ref_eq s who (RObj (self_of t)) = false ->
  snd (exec1 s t held (IOnKilled who)) = [IBeh (MKilled who) (sp_killed (a_spec x)) (RecKilled who); ICheckMark].
Proof. intros H Hz Hr. unfold exec1. rewrite H, Hz, Hr. reflexivity. Qed.

Lemma failed_reports_to_parent s t held x :
  get s (self_of t) = Some x ->
  exists ins, exec1 s t held IFailed = (s, IPauseSt :: ins) /\
    instr_sends ins = [(rref_parent x, true, MSup (SupCtx (RObj (self_of t)) [] None))] /\
    count_sup (instr_sends ins) = 1 /\ count_failed ins = 0.
Proof. intros H. rewrite (exec1_failed _ _ _ _ H). eexists; split; [reflexivity|]. repeat split. Qed.

Lemma root_decides_stop s x e c :
  reachable s -> get s 0 = Some x -> e_msg e = MSup c -> dead_for x e = false ->
  dispatch s 0 x e = (set_actor s 0 (set_decisions (set_cur x e) (a_decisions x)), [ISupPause c DStop [sc_child c] []; IEndHandler]).
Proof.
  intros Hr H Hm Hd. rewrite (dispatch_MSup _ _ _ _ _ Hm Hd).
  destruct (root_inv s Hr) as (x0 & H0 & Hs & _). assert (x0 = x) by congruence. subst x0.
  unfold sup_decide, sup_targets. rewrite Hs. reflexivity.
Qed.

Lemma dispatch_keeps_mail s a x e : get s a = Some x -> keeps_mail true s (fst (dispatch s a x e)).
Proof.
  intros Hx. destruct (dispatch_effect s a x e Hx) as (y & Hy & Ha & _).
  apply (keeps_mail_upd_app _ _ _ _ x y [] Hx); [rewrite app_nil_r; exact Ha|apply Hy..|intros _; apply Hy].
Qed.

Lemma dispatch_direct s a x e b e' :
  In (b, e') (instr_direct (snd (dispatch s a x e))) ->
  dead_for x e = true /\ b = 0 /\ e' = {| e_sys := false; e_sender := root_ref; e_msg := MDeadLetter (e_sys e) (e_msg e) |}.
Proof.
  intros Hin. apply in_instr_direct in Hin. rewrite dead_for_eq.
  destruct (dispatch_cases s a x e) as [Hd Hz _|p Hd Hz _|r _ Hr]; cbn [snd] in Hin.
  - destruct Hin as [|[]]; discriminate.
  - destruct Hin as [E|[E|[E|[]]]]; try discriminate. injection E as <- <-. rewrite Hd, Hz. auto.
  - exfalso. assert (Hf : forallb (fun j => match j with IEnqMb _ _ => false | _ => true end) (snd r) = true).
    { destruct Hr; cbn [snd]; unfold kill_children; try destruct poison; try destruct (a_state x); try destruct (a_children x);
        reflexivity. }
    rewrite forallb_forall in Hf. discriminate (Hf _ Hin).
Qed.

Lemma stop_notifies_parent s t held x p :
  get s (self_of t) = Some x -> a_parent x = Some p ->
  exec1 s t held ICleanup =
    (set_reg (set_subs s (unsub_all (subs s) (a_path x))) (aremove (reg s) (a_path x)),
     (match a_watchers x with
      | [] => []
      | l => [IEnqAny true (map snd l) (RObj (self_of t)) (MKilled (RObj (self_of t)))]
      end)
     ++ [IEnq true (RObj p) (RObj (self_of t)) (MKilled (RObj (self_of t))); IEnqDone]
     ++ [IPub evKilled (actor_key x); IResume1]) /\
  instr_sends (snd (exec1 s t held ICleanup)) = [(RObj p, true, MKilled (RObj (self_of t)))].
Proof.
  intros H Hp. rewrite (exec1_cleanup _ _ _ _ H). unfold cleanup_sends. rewrite Hp, <- app_assoc. split; [reflexivity|].
  cbn [snd]. rewrite !instr_sends_app. destruct (a_watchers x); reflexivity.
Qed.

Lemma resume_only_resumes s a x e :
  e_msg e = MCmdResume -> dead_for x e = false ->
  dispatch s a x e = (set_actor s a (set_cur x e), [IResume1; IPub evResumed (actor_key x); IEndHandler]) /\
  stable x (set_cur x e) /\ same_user_state x (set_cur x e) /\ same_queues x (set_cur x e) /\ a_cons (set_cur x e) = a_cons x.
Proof. intros Hm Hd. split; [exact (dispatch_cmd_resume s a x e Hm Hd)|apply set_cur_same]. Qed.

Lemma failure_reports_once_full s t held x p m acts :
  get s (self_of t) = Some x -> a_zombie x = false -> a_parent x = Some p ->
  exec1 s t held (IBeh m acts RecFail) =
    (add_obs s (OSeen (self_of t) (a_inst x) (match a_cons x with CBusy md => md | _ => mode_top x end) m),
     map IAct (fst (take_until_panic acts)) ++ if snd (take_until_panic acts) then [IFailed] else []) /\
  count_failed (snd (exec1 s t held (IBeh m acts RecFail))) = if snd (take_until_panic acts) then 1 else 0.
Proof.
  intros H Hz Hp. rewrite (exec1_beh _ _ _ _ p _ _ _ H Hz Hp). cbn [reports snd]. rewrite andb_true_r. split; [reflexivity|].
  rewrite count_failed_app, count_failed_acts. destruct (snd (take_until_panic acts)); reflexivity.
Qed.

Lemma pend_of_set_pend_other s t0 p t : t <> t0 -> pend_of (set_pend s t0 p) t = pend_of s t.
Proof.
  intros N. destruct t0 as [a|i]; cbn [set_pend]; unfold with_actor.
  - destruct (get s a) as [x|] eqn:E; [|reflexivity]. destruct t as [b|j]; [|reflexivity].
    cbn [pend_of]. rewrite get_set_other; [reflexivity|congruence].
  - destruct (nth_error (exts s) i) as [x|] eqn:E; [|reflexivity]. destruct t as [b|j]; [reflexivity|].
    cbn [pend_of exts set_ext]. rewrite nth_upd_neq; [reflexivity|congruence].
Qed.

Lemma pend_of_keeps s s' : keeps a_pend [] s s' -> map x_pend (exts s') = map x_pend (exts s) -> forall t, pend_of s' t = pend_of s t.
Proof.
  intros K E [b|j]; [exact (K b)|]. cbn [pend_of]. apply (f_equal (fun l => nth_error l j)) in E. rewrite !nth_error_map in E.
  destruct (nth_error (exts s') j), (nth_error (exts s) j); cbn in E; congruence.
Qed.

Lemma exec1_pend s t h i t' : pend_of (fst (exec1 s t h i)) t' = pend_of s t'.
Proof. apply pend_of_keeps; [|apply exec1_exts_pend]. apply keeps_exec1; [|reflexivity]. intros x y Hl. apply (lu_pend _ _ _ Hl). Qed.

Lemma err_false_before_run_atomic f s t : err (run_atomic f s t) = false -> err s = false.
Proof. intros H. destruct (err s) eqn:E; [|reflexivity]. rewrite (err_mono_run_atomic f s t E) in H. discriminate. Qed.

Lemma err_false_before_set_pend s t l : err (set_pend s t l) = false -> err s = false.
Proof. intros H. destruct (err s) eqn:E; [|reflexivity]. rewrite (set_pend_err_mono s t l E) in H. discriminate. Qed.

Lemma atomic_next_pend s t i rest s1 front :
  exec1 (set_pend s t rest) t (held_of (set_pend s t rest) t) i = (s1, front) ->
  err (set_pend s1 t (front ++ pend_of s1 t)) = false ->
  err (set_pend s t rest) = false /\ pend_of (set_pend s1 t (front ++ pend_of s1 t)) t = front ++ rest.
Proof.
  intros E E2.
  pose proof (exec1_pend (set_pend s t rest) t (held_of (set_pend s t rest) t) i t) as Hpe.
  pose proof (proj2 (proj2 (exec1_state (set_pend s t rest) t (held_of (set_pend s t rest) t) i))) as Hm.
  rewrite E in Hpe, Hm. cbn [fst] in Hpe, Hm.
  assert (E0 : err (set_pend s t rest) = false).
  { destruct (err (set_pend s t rest)); [|reflexivity]. rewrite (err_false_before_set_pend _ _ _ E2) in Hm. symmetry. apply Hm. reflexivity. }
  split; [exact E0|]. rewrite (pend_of_set_pend_ok _ _ _ E2), Hpe, (pend_of_set_pend_ok _ _ _ E0). reflexivity.
Qed.

Lemma step_pend_frame s ev t : ev_thread ev <> t -> pend_of (step s ev) t = pend_of s t.
Proof.
  intros N. apply (step_rel (fun t0 s0 s1 => t0 <> t -> pend_of s1 t = pend_of s0 t)); [..|exact N]; try (intros; reflexivity).
  - intros t0 a b c H1 H2 Ht. rewrite (H2 Ht). exact (H1 Ht).
  - intros t0 s0 l Ht. apply pend_of_set_pend_other. congruence.
  - intros t0 s0 x sq uq pa co cu Hg _. apply pend_of_keeps; [|reflexivity]. eapply keeps_set_actor; [exact Hg|reflexivity].
  - intros t0 s0 a e _. apply pend_of_keeps; [apply keeps_with_actor; reflexivity|]. f_equal. apply push_mb_fields.
  - intros t0 s0 r _. apply pend_of_keeps; [apply keeps_resolve; reflexivity|]. rewrite resolve_exts. reflexivity.
  - intros s0 a x e Hg _. apply pend_of_keeps; [apply keeps_dispatch; [exact Hg|apply df_pend]|].
    destruct (dispatch_effect s0 a x e Hg) as (y & _ & _ & _ & _ & -> & _). reflexivity.
  - intros t0 s0 h i _. apply exec1_pend.
Qed.

Lemma consumer_pend_frame s a t :
  pend_of (step s (EvSysPop a)) t = pend_of s t /\
  pend_of (step s (EvLoadPaused a)) t = pend_of s t /\
  pend_of (step s (EvUserPop a)) t = pend_of s t.
Proof.
  cbn [step]. destruct (get s a) as [x|] eqn:H; [|auto].
  repeat split.
  - destruct (a_cons x), (a_sq x); try reflexivity; apply (pend_of_set_actor_same _ _ _ _ _ H); reflexivity.
  - destruct (a_cons x); try reflexivity; apply (pend_of_set_actor_same _ _ _ _ _ H); reflexivity.
  - destruct (a_cons x), (a_uq x); try reflexivity; apply (pend_of_set_actor_same _ _ _ _ _ H); reflexivity.
Qed.

Lemma tid_eq_dec (t1 t2 : tid) : {t1 = t2} + {t1 <> t2}.
Proof. decide equality; apply Nat.eq_dec. Qed.

(** the event an instruction at the head of thread [t]'s list waits for *)
Definition awaits (t : tid) (i : instr) (ev : event) : Prop :=
  match i with
  | IEnqR _ _ _ _ | IEnqMb _ _ | IEnqAny _ _ _ _ | ISupPause _ _ _ _ => exists k, ev = EvPush t k
  | IEnqDone => ev = EvEnqDone t
  | IPauseSt => ev = EvPauseSt t
  | IResume1 => ev = EvResume1 t
  | IResume2 => ev = EvResume2 t
  | _ => False
  end.

(** a thread waiting at a yielding instruction, under ANY interleaving: a step leaves its instruction list as it
    is or is the event it waits for.  (An actor's handler is entered by EvHandle only when no handler is
    running: hypothesis on [ev].) *)
Lemma waiting_step s t i rest ev :
  (forall a, t = TA a -> ev <> EvHandle a) -> err (step s ev) = false ->
  pend_of s t = i :: rest -> yielding i = true ->
  pend_of (step s ev) t = i :: rest \/ awaits t i ev.
Proof.
  intros Hh He Hp Hy.
  destruct (tid_eq_dec (ev_thread ev) t) as [Et|Nt]; [|left; rewrite (step_pend_frame _ _ _ Nt); exact Hp].
  destruct ev as [a|a|a|a|t' k|t'|t'|t'|t'|j]; cbn [ev_thread] in Et; subst t.
  - left. destruct (consumer_pend_frame s a (TA a)) as (E & _ & _). rewrite E. exact Hp.
  - left. destruct (consumer_pend_frame s a (TA a)) as (_ & E & _). rewrite E. exact Hp.
  - left. destruct (consumer_pend_frame s a (TA a)) as (_ & _ & E). rewrite E. exact Hp.
  - destruct (Hh a eq_refl eq_refl).
  - right. cbn [step] in He. rewrite Hp in He. destruct i; try discriminate He; cbn; eauto.
  - right. cbn [step] in He. rewrite Hp in He. destruct i; try discriminate He. reflexivity.
  - right. cbn [step] in He. rewrite Hp in He. destruct i; try discriminate He. reflexivity.
  - right. cbn [step] in He. rewrite Hp in He. destruct i; try discriminate He. reflexivity.
  - right. cbn [step] in He. rewrite Hp in He. destruct i; try discriminate He. reflexivity.
  - left. cbn [step]. rewrite FUEL_eq, (run_atomic_yield _ _ _ _ _ Hp Hy). exact Hp.
Qed.

Lemma step_EvEnqDone_yield s t i rest :
  pend_of s t = IEnqDone :: i :: rest -> yielding i = true -> err (step s (EvEnqDone t)) = false ->
  pend_of (step s (EvEnqDone t)) t = i :: rest.
Proof.
  intros Hp Hy He. cbn [step] in *. rewrite Hp in *.
  destruct (err (set_pend s t (i :: rest))) eqn:E1; [rewrite (err_mono_run_atomic _ _ _ E1) in He; discriminate|].
  pose proof (pend_of_set_pend_ok _ _ _ E1) as E2. rewrite FUEL_eq, (run_atomic_yield _ _ _ _ _ E2 Hy). exact E2.
Qed.

Lemma sup_pause_phase_step s t c d rem done rest ev :
  (forall a, t = TA a -> ev <> EvHandle a) -> err (step s ev) = false ->
  (pend_of s t = ISupPause c d rem done :: rest -> rem <> [] ->
     pend_of (step s ev) t = ISupPause c d rem done :: rest \/
     exists k to, ev = EvPush t k /\ nth_error rem k = Some to /\
        pend_of (step s ev) t = IEnqDone :: ISupPause c d (remove_nth k rem) (done ++ [to]) :: rest) /\
  (pend_of s t = IEnqDone :: ISupPause c d rem done :: rest ->
     pend_of (step s ev) t = IEnqDone :: ISupPause c d rem done :: rest \/
     (ev = EvEnqDone t /\ step s ev = run_atomic FUEL (set_pend s t (ISupPause c d rem done :: rest)) t /\
      (rem <> [] -> pend_of (step s ev) t = ISupPause c d rem done :: rest))).
Proof.
  intros Hh He. split; intros Hp.
  - intros Hr. assert (Hy : yielding (ISupPause c d rem done) = true) by (destruct rem; [contradiction|reflexivity]).
    destruct (waiting_step s t _ rest ev Hh He Hp Hy) as [E|[k ->]]; [left; exact E|right].
    destruct (step_ISupPause s t k c d rem done rest Hp He) as (to & Hk & _ & E). eauto.
  - destruct (waiting_step s t _ _ ev Hh He Hp eq_refl) as [E| ->]; [left; exact E|right].
    split; [reflexivity|]. split; [cbn [step]; rewrite Hp; reflexivity|].
    intros Hr. apply (step_EvEnqDone_yield s t _ rest Hp); [destruct rem; [contradiction|reflexivity]|exact He].
Qed.

Lemma enq_any_phase_step s t sys tos sender m rest ev :
  (forall a, t = TA a -> ev <> EvHandle a) -> err (step s ev) = false ->
  pend_of s t = IEnqAny sys tos sender m :: rest ->
  pend_of (step s ev) t = IEnqAny sys tos sender m :: rest \/
  exists k to, ev = EvPush t k /\ nth_error tos k = Some to /\
    pend_of (step s ev) t = IEnqDone :: match remove_nth k tos with [] => rest | _ :: _ => IEnqAny sys (remove_nth k tos) sender m :: rest end.
Proof.
  intros Hh He Hp. destruct (waiting_step s t _ rest ev Hh He Hp eq_refl) as [E|[k ->]]; [left; exact E|right].
  destruct (step_IEnqAny s t k sys tos sender m rest Hp He) as (to & Hk & _ & E). eauto.
Qed.

Lemma stopping_recfail_sites s a x e m acts :
  a_state x <> Running -> a_zombie x = false -> In (IBeh m acts RecFail) (snd (dispatch s a x e)) ->
  a_state x = Killing /\ e_sys e = true /\
  (e_msg e = MLaunch \/ (exists tag acts', e_msg e = MUser tag acts') \/ (exists ty pl, e_msg e = MEvent ty pl) \/
   exists sy inner, e_msg e = MDeadLetter sy inner).
Proof.
  intros Hs Hz Hin. destruct (dispatch_cases s a x e) as [_ _ _|p _ _ _|r Hd Hr]; cbn [snd] in Hin.
  - destruct Hin as [Hin|[]]. discriminate Hin.
  - destruct Hin as [Hin|[Hin|[Hin|[]]]]; discriminate Hin.
  - rewrite Hz, andb_true_r in Hd. unfold is_dead in Hd. destruct (a_state x) eqn:Est; [contradiction| |discriminate Hd].
    (* state killing, the envelope passed the dead-letter test: a message other than OnKill is system-flagged *)
    assert (Hsys : is_kill_msg (e_msg e) = false -> e_sys e = true)
      by (intros K; rewrite K in Hd; destruct (e_sys e); [reflexivity|discriminate Hd]).
    destruct Hr; cbn [snd] in Hin; unfold kill_children in Hin; rewrite ?Est in Hin; try destruct poison; try destruct (a_children x);
      cbn [app In] in Hin; repeat (destruct Hin as [Hin|Hin]; try discriminate Hin); try contradiction;
      (split; [reflexivity|split; [apply Hsys; rewrite Em; reflexivity|eauto 8]]).
Qed.

Lemma stopping_failure_witness :
  exists s a x rest, reachable s /\ get s a = Some x /\ a_state x = Killing /\ a_zombie x = false /\
    a_pend x = IPauseSt :: IEnq true (rref_parent x) (RObj a) (MSup (SupCtx (RObj a) [] None)) :: rest.
Proof.
  exists wit_state, 1. eexists; eexists. split; [exists wit_scripts, wit_events; split; [reflexivity|vm_compute; reflexivity]|].
  vm_compute. repeat split.
Qed.
