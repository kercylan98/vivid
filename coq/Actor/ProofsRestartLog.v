(** C05, restart clause over whole histories: in the log of behaviour invocations, whatever directly follows the
    invocation for an actor's own OnKilled - by C05-b that is the OnLaunch of a supervised restart - was handled by the
    behaviour the stack is reset to (mode 0, the actor's OnReceive) of the instance the restart put in charge (a fresh
    one with a provider, the same one without).  Read off the log invariant of Actor/ProofsLifeLog.v. *)
From Coq Require Import List NArith.
From Vivid Require Import Actor.Core Actor.ProofsMailBase Actor.SpecLife Actor.SpecRestartLog Actor.ProofsLifeSum Actor.ProofsLifeLog.
Import ListNotations.
Local Open Scope N_scope.

(** C05, restart clause, every reachable state: in the log of actor [a]'s behaviour invocations, whatever directly
    follows the invocation for its own OnKilled is the OnLaunch of the new incarnation, handled in mode 0 (the actor's
    OnReceive) by the instance the restart put in charge *)
Theorem restart_opens_with_launch s a x pre i1 md1 i2 md2 m post :
  reachable s -> a <> 0%nat -> get s a = Some x ->
  seen_full a (olog s) = pre ++ (i1, md1, MKilled (RObj a)) :: (i2, md2, m) :: post ->
  m = MLaunch /\ md2 = 0 /\ i2 = next_inst x i1.
Proof.
  intros Hr Ha Hg E. pose proof (LK_reachable a s Ha Hr) as H. unfold LK in H. rewrite Hg in H.
  apply (proj1 H pre i1 md1 i2 md2 m post E).
Qed.

Theorem instance_changes_only_at_restart s t h i s1 front x x1 :
  exec1 s t h i = (s1, front) -> get s (self_of t) = Some x -> get s1 (self_of t) = Some x1 -> i <> IRestartFinish ->
  a_inst x1 = a_inst x.
Proof.
  intros He Hg Hg1 Hrf. destruct (exec1_self _ _ _ _ _ _ _ He Hg) as (y & Hy & Hl).
  rewrite Hg1 in Hy. injection Hy as <-. destruct (lu_inst _ _ _ Hl) as [E|E]; [exact E|contradiction].
Qed.
