(** A deterministic scheduler (used only to build concrete runs) and the concrete runs used as
    witnesses / examples in Properties/C05.v and Properties/C06.v. *)
From Coq Require Import List ZArith.
From Vivid Require Import Actor.Core Actor.SpecLife.
Import ListNotations.
Local Open Scope N_scope.

Definition thread_event (s : state) (t : tid) : option event :=
  match pend_of s t with
  | IEnqR _ _ _ _ :: _ | IEnqMb _ _ :: _ | IEnqAny _ _ _ _ :: _ | ISupPause _ _ (_ :: _) _ :: _ => Some (EvPush t 0)
  | IEnqDone :: _ => Some (EvEnqDone t)
  | IPauseSt :: _ => Some (EvPauseSt t)
  | IResume1 :: _ => Some (EvResume1 t)
  | IResume2 :: _ => Some (EvResume2 t)
  | _ => None
  end.

Definition actor_event (s : state) (a : aid) : option event :=
  match get s a with
  | None => None
  | Some x =>
    match a_cons x with
    | C0 => match a_sq x with
            | _ :: _ => Some (EvSysPop a)
            | [] => if a_paused x then None else match a_uq x with _ :: _ => Some (EvSysPop a) | [] => None end
            end
    | C1 => Some (EvSysPop a) | C2 => Some (EvLoadPaused a) | C3 => Some (EvUserPop a)
    | CH _ => Some (EvHandle a)
    | CBusy _ => thread_event s (TA a)
    end
  end.

Fixpoint first_some {A} (f : nat -> option A) (n : nat) (k : nat) : option A :=
  match n with O => None | S n' => match f k with Some e => Some e | None => first_some f n' (S k) end end.

(** external callers first (in index order), then the actors in index order *)
Definition next_event (s : state) : option event :=
  match first_some (fun i => thread_event s (TX i)) (length (exts s)) 0 with
  | Some e => Some e
  | None => first_some (actor_event s) (length (actors s)) 0
  end.

Fixpoint sched (n : nat) (s : state) : list event :=
  match n with
  | O => []
  | S n' => match next_event s with Some e => e :: sched n' (step s e) | None => [] end
  end.

Definition leaf (n : N) : spec := Spec n [] [] [] 0 [] true [] false.

(* ---------------- the spawn race (known finding C05-spawn-race-first-message) ---------------- *)

Definition race_scripts : list (list action) := [[ASpawn (leaf 1)]; [ATell (XPath [1]) 7 []]].
Definition race_events : list event :=
  [EvStart 0; EvStart 1; EvPush (TX 1) 0; EvEnqDone (TX 1); EvSysPop 1; EvLoadPaused 1; EvUserPop 1; EvHandle 1]%nat.

(* ---------------- a parent with two children is killed ---------------- *)

Definition tree_parent : spec := Spec 1 [ASpawn (leaf 1); ASpawn (leaf 2)] [] [] 0 [] true [] false.
Definition tree_scripts : list (list action) := [[ASpawn tree_parent; AKill (XHeld 0) false]].
Definition tree_events : list event := EvStart 0 :: sched 400 (step (init_with tree_scripts) (EvStart 0)).
Definition tree_final : state := run_events tree_events (init_with tree_scripts).

(* ---------------- a supervised restart ---------------- *)

Definition rs_child : spec := Spec 1 [] [] [] 0 [] true [(true, true, true)] true.
Definition rs_parent : spec := Spec 1 [ASpawn rs_child; ATell (XChild 1) 5 [ABecome 9 true; APanic]] [] [] 1 [DRestart] true [] false.
Definition rs_scripts : list (list action) := [[ASpawn rs_parent]].
Definition rs_events : list event := EvStart 0 :: sched 400 (step (init_with rs_scripts) (EvStart 0)).
Definition rs_final : state := run_events rs_events (init_with rs_scripts).

(** the same with a failing OnRestarted hook: the child becomes a zombie *)
Definition rz_child : spec := Spec 1 [] [] [] 0 [] true [(true, false, true)] true.
Definition rz_parent : spec := Spec 1 [ASpawn rz_child; ATell (XChild 1) 5 [APanic]] [] [] 1 [DRestart] true [] false.
Definition rz_scripts : list (list action) := [[ASpawn rz_parent]].
Definition rz_events : list event := EvStart 0 :: sched 400 (step (init_with rz_scripts) (EvStart 0)).
Definition rz_final : state := run_events rz_events (init_with rz_scripts).

Lemma first_is_launch_refuted :
  exists scs evs a m rest,
    let s := run_events evs (init_with scs) in
    err s = false /\ seen_of a (olog s) = m :: rest /\ m <> MLaunch.
Proof.
  exists race_scripts, race_events, 1%nat, (MUser 7 []), []. cbv zeta.
  split; [vm_compute; reflexivity|]. split; [vm_compute; reflexivity|discriminate].
Qed.
