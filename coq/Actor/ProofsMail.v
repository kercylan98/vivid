(** One-step theorems for C03 / C09: routing (findMailbox), HandleEnvelop's outcomes for user messages and
    dead letters, stash, cleanup / resume, the failure report and the supervision directives. *)
From Coq Require Import List NArith ZArith Bool.
From Vivid Require Import Actor.Core Actor.CoreRun Actor.SpecMail Actor.ProofsMailBase.
Import ListNotations.

Lemma routing_actor s r y :
  fst (resolve s r) = MbActor y ->
  (exists p, ref_path s r = Some p /\ alookup (reg s) p = Some y) \/
  (exists a x, r = RObj a /\ get s a = Some x /\ a_cache x = Some y).
Proof.
  unfold resolve, ref_path. destruct r as [a|p|]; cbn [fst].
  - destruct (get s a) as [x|] eqn:E; [|discriminate].
    destruct (a_cache x) as [c|] eqn:Ec.
    + cbn. intros H; inversion H; subst. right. exists a, x. auto.
    + destruct (alookup (reg s) (a_path x)) as [z|] eqn:Er.
      * cbn. intros H; inversion H; subst. left. exists (a_path x). auto.
      * destruct (path_eqb (a_path x) []); discriminate.
  - destruct (alookup (reg s) p) as [z|] eqn:Er.
    + cbn. intros H; inversion H; subst. left. exists p. auto.
    + destruct (path_eqb p []); discriminate.
  - discriminate.
Qed.

(** a reference without a filled cache: a parsed / cloned one, or a context's ref object that was never resolved *)
Definition uncached (s : state) (r : rref) (p : path) : Prop :=
  r = RFresh p \/ exists a x, r = RObj a /\ get s a = Some x /\ a_cache x = None /\ a_path x = p.

Lemma routing_uncached s r p :
  uncached s r p ->
  fst (resolve s r) = match alookup (reg s) p with
                      | Some y => MbActor y
                      | None => if path_eqb p [] then MbRoot else MbDead
                      end.
Proof.
  intros [->|(a & x & -> & Hg & Hc & <-)]; unfold resolve.
  - destruct (alookup (reg s) p); [reflexivity|]. destruct (path_eqb p []); reflexivity.
  - rewrite Hg, Hc. destruct (alookup (reg s) (a_path x)); [reflexivity|]. destruct (path_eqb (a_path x) []); reflexivity.
Qed.

Lemma routing_cached s a x y : get s a = Some x -> a_cache x = Some y -> resolve s (RObj a) = (MbActor y, s).
Proof. intros Hg Hc. unfold resolve. rewrite Hg, Hc. reflexivity. Qed.

Lemma routing_nil s : resolve s RNone = (MbRoot, s).
Proof. reflexivity. Qed.

Lemma push_mb_user s a x e :
  get s a = Some x -> e_sys e = false ->
  push_mb s a e = set_actor s a (set_mb x (a_sq x) (a_uq x ++ [e]) (a_paused x) (a_cons x) (a_cur x)).
Proof.
  intros Hg He. unfold push_mb. rewrite (with_actor_some _ _ _ _ Hg). rewrite He. reflexivity.
Qed.
Lemma push_mb_sys s a x e :
  get s a = Some x -> e_sys e = true ->
  push_mb s a e = set_actor s a (set_mb x (a_sq x ++ [e]) (a_uq x) (a_paused x) (a_cons x) (a_cur x)).
Proof.
  intros Hg He. unfold push_mb. rewrite (with_actor_some _ _ _ _ Hg). rewrite He. reflexivity.
Qed.

Lemma deliver_dead s e x0 :
  get s 0 = Some x0 ->
  deliver s MbDead e = (set_actor s 0 (set_mb x0 (a_sq x0) (a_uq x0 ++ [dead_env e]) (a_paused x0) (a_cons x0) (a_cur x0)), 0).
Proof. intros Hg. unfold deliver. fold (dead_env e). rewrite (push_mb_user s 0 x0 (dead_env e) Hg eq_refl). reflexivity. Qed.

Lemma is_dead_dispatch x e :
  (match a_state x with
   | Killed => true | Running => false
   | Killing => negb (e_sys e) && negb (match e_msg e with MKill _ _ => true | _ => false end)
   end) = is_dead x e.
Proof. unfold is_dead, is_kill_msg. reflexivity. Qed.

(** the payload of the DeathLetterEvent the guard publishes for a dead-letter report of [inner] *)
Definition dl_payload (inner : msg) : list N :=
  match inner with MUser tag _ => [1%N; tag] | MEvent ty _ => [2%N; ty] | _ => [0%N] end.

(** the decision and the targets HandleEnvelop computes for a supervision report *)
Definition sup_decision (x : actor) : decision * list decision :=
  match sp_strategy (a_spec x) with
  | 0%N => (DStop, a_decisions x)
  | _ => match a_decisions x with d :: r => (d, r) | [] => (DStop, []) end
  end.
Definition sup_targets (x : actor) (c : supctx) : list rref :=
  match sp_strategy (a_spec x) with
  | 2%N => map (fun p => RObj (snd p)) (a_children x)
  | _ => match c with SupCtx ch _ _ => [ch] end
  end.

(** [dispatch] by cases: an envelope for a stopped (or, for a user-level envelope, stopping) actor that is not a
    zombie is reported or dropped; otherwise it becomes the context's current envelope and each kind of message
    installs its own program *)
Definition with_cur (x : actor) (e : envelope) : actor := set_mb x (a_sq x) (a_uq x) (a_paused x) (a_cons x) (Some e).

Definition kill_children (a : aid) (x : actor) : list instr :=
  match a_children x with
  | [] => []
  | l => [IEnqAny true (map (fun p => RObj (snd p)) l) (RObj a) (MKill (RObj a) false)]
  end.

Inductive disp_alive (s : state) (a : aid) (x : actor) (e : envelope) : state * list instr -> Prop :=
| DLaunch (Em : e_msg e = MLaunch) :
    disp_alive s a x e (set_actor s a (with_cur x e),
                        [IBeh MLaunch (sp_launch (a_spec x)) RecFail; IPub evLaunched (actor_key x); IEndHandler])
| DKillZombie k poison (Em : e_msg e = MKill k poison) (Hz : a_zombie x = true) :
    disp_alive s a x e (set_actor s a (with_cur x e), [IDoKill poison; IEndHandler])
| DKillRunning k poison (Em : e_msg e = MKill k poison) (Hz : a_zombie x = false) (Hs : a_state x = Running) :
    disp_alive s a x e (set_actor s a (set_state (with_cur x e) Killing), [IDoKill poison; IEndHandler])
| DKillKilling k poison (Em : e_msg e = MKill k poison) (Hz : a_zombie x = false) (Hs : a_state x = Killing) :
    disp_alive s a x e (set_actor s a (set_restarting (with_cur x e) None),
                        (if poison then [] else kill_children a x) ++ [IEndHandler])
| DKilled who (Em : e_msg e = MKilled who) :
    disp_alive s a x e (set_actor s a (with_cur x e), [IOnKilled who; IEndHandler])
| DSup c (Em : e_msg e = MSup c) :
    disp_alive s a x e (set_actor s a (set_decisions (with_cur x e) (snd (sup_decision x))),
                        [ISupPause c (fst (sup_decision x)) (sup_targets x c) []; IEndHandler])
| DCmdPause (Em : e_msg e = MCmdPause) :
    disp_alive s a x e (set_actor s a (with_cur x e), [IPauseSt; IPub evPaused (actor_key x); IEndHandler])
| DCmdResume (Em : e_msg e = MCmdResume) :
    disp_alive s a x e (set_actor s a (with_cur x e), [IResume1; IPub evResumed (actor_key x); IEndHandler])
| DRestartRunning poison (Em : e_msg e = MRestart poison) (Hs : a_state x = Running) :
    disp_alive s a x e
      (set_actor s a (with_cur (set_restarting (set_state (with_cur x e) Killing) (Some poison))
                               {| e_sys := true; e_sender := e_sender e; e_msg := MKill (RObj a) poison |}),
       [IPub evRestarting (actor_key x); IDoKill poison; IEndHandler])
| DRestartDropped poison (Em : e_msg e = MRestart poison) (Hs : a_state x <> Running) :
    disp_alive s a x e (set_actor s a (with_cur x e),
                        IResume1 :: match a_state x with Killing => kill_children a x | _ => [] end ++ [IEndHandler])
| DWatchNone (Em : e_msg e = MWatch) : disp_alive s a x e (set_actor s a (with_cur x e), [IEndHandler])
| DWatch p (Em : e_msg e = MWatch) (Hp : ref_path s (e_sender e) = Some p) (Hw : alookup (a_watchers x) p = None) :
    disp_alive s a x e (set_actor s a (set_watchers (with_cur x e) (a_watchers x ++ [(p, e_sender e)])),
                        [IPub evWatched (actor_key x); IEndHandler])
| DUnwatchNone (Em : e_msg e = MUnwatch) : disp_alive s a x e (set_actor s a (with_cur x e), [IEndHandler])
| DUnwatch p (Em : e_msg e = MUnwatch) (Hp : ref_path s (e_sender e) = Some p) :
    disp_alive s a x e (set_actor s a (set_watchers (with_cur x e) (aremove (a_watchers x) p)),
                        [IPub evUnwatched (actor_key x); IEndHandler])
| DUser tag acts (Em : e_msg e = MUser tag acts) :
    disp_alive s a x e (set_actor s a (with_cur x e), [IBeh (MUser tag acts) acts RecFail; IEndHandler])
| DEvent ty payload (Em : e_msg e = MEvent ty payload) :
    disp_alive s a x e (set_actor s a (with_cur x e), [IBeh (MEvent ty payload) [] RecFail; IEndHandler])
| DDeadLetterGuard sys inner (Em : e_msg e = MDeadLetter sys inner) (Hp : a_parent x = None) :
    disp_alive s a x e (add_ghost (set_actor s a (with_cur x e)) (ODeadLetter sys inner),
                        [IPub evDeathLetter (dl_payload inner); IEndHandler])
| DDeadLetter sys inner p (Em : e_msg e = MDeadLetter sys inner) (Hp : a_parent x = Some p) :
    disp_alive s a x e (set_actor s a (with_cur x e), [IBeh (MDeadLetter sys inner) [] RecFail; IEndHandler]).

Inductive disp_case (s : state) (a : aid) (x : actor) (e : envelope) : state * list instr -> Prop :=
| DDropped (Hd : is_dead x e = true) (Hz : a_zombie x = false) (Hp : a_parent x = None) :
    disp_case s a x e (add_ghost s (ODropped (e_msg e)), [IEndHandler])
| DDead p (Hd : is_dead x e = true) (Hz : a_zombie x = false) (Hp : a_parent x = Some p) :
    disp_case s a x e (s, dead_report e)
| DAlive r (Hd : is_dead x e && negb (a_zombie x) = false) (Hr : disp_alive s a x e r) : disp_case s a x e r.

Lemma dispatch_cases s a x e : disp_case s a x e (dispatch s a x e).
Proof.
  unfold dispatch. rewrite is_dead_dispatch. fold (with_cur x e).
  destruct (is_dead x e && negb (a_zombie x)) eqn:D.
  - apply andb_true_iff in D. destruct D as [Hd Hz]. apply negb_true_iff in Hz.
    destruct (a_parent x) eqn:Hp; [eapply DDead|apply DDropped]; eassumption.
  - apply DAlive; [exact D|]. destruct (e_msg e) eqn:Em.
    + apply DLaunch. exact Em.
    + destruct (a_zombie x) eqn:Hz; [eapply DKillZombie; eassumption|].
      destruct (a_state x) eqn:Hs.
      * eapply DKillRunning; eassumption.
      * destruct poison; exact (DKillKilling s a x e _ _ Em Hz Hs).
      * unfold is_dead in D. rewrite Hs in D. discriminate D.
    + apply DKilled. exact Em.
    + replace (let '(d, ds) := _ in _) with (set_actor s a (set_decisions (with_cur x e) (snd (sup_decision x))),
        [ISupPause c (fst (sup_decision x)) (sup_targets x c) []; IEndHandler]); [apply DSup; exact Em|].
      unfold sup_decision, sup_targets. destruct (sp_strategy (a_spec x)) as [|[q|q|]]; try reflexivity; destruct (a_decisions x); reflexivity.
    + apply DCmdPause. exact Em.
    + apply DCmdResume. exact Em.
    + destruct (a_state x) eqn:Hs.
      * destruct (a_hooks _) as [|[[h1 h2] h3] rest]; apply DRestartRunning; assumption.
      * pose proof (DRestartDropped s a x e poison Em) as H. rewrite Hs in H. apply H. discriminate.
      * pose proof (DRestartDropped s a x e poison Em) as H. rewrite Hs in H. apply H. discriminate.
    + destruct (ref_eq s (e_sender e) (rref_parent x)); [apply DWatchNone; exact Em|].
      destruct (ref_path s (e_sender e)) as [p|] eqn:Hp; [|apply DWatchNone; exact Em].
      destruct (alookup (a_watchers x) p) eqn:Hw; [apply DWatchNone; exact Em|exact (DWatch s a x e p Em Hp Hw)].
    + destruct (ref_path s (e_sender e)) as [p|] eqn:Hp; [|apply DUnwatchNone; exact Em].
      destruct (alookup (a_watchers x) p) eqn:Hw; [exact (DUnwatch s a x e p Em Hp)|apply DUnwatchNone; exact Em].
    + apply DUser. exact Em.
    + apply DEvent. exact Em.
    + destruct (a_parent x) eqn:Hp; [eapply DDeadLetter; eassumption|apply DDeadLetterGuard; assumption].
Qed.

Lemma dispatch_alive s a x e : is_dead x e && negb (a_zombie x) = false -> disp_alive s a x e (dispatch s a x e).
Proof.
  intros Hd. destruct (dispatch_cases s a x e) as [Hx Hz _|p Hx Hz _|r _ H]; [| |exact H]; rewrite Hx, Hz in Hd; discriminate Hd.
Qed.

Lemma exec1_stash s t h x e :
  get s (self_of t) = Some x -> a_cur x = Some e ->
  exec1 s t h (IAct AStash) = (set_actor s (self_of t) (set_stash x (a_stash x ++ [e])), []).
Proof. intros Hg Hc. unfold exec1. rewrite Hg, Hc. reflexivity. Qed.

(** how many stashed envelopes Unstash re-enqueues, as the code computes it *)
Definition unstash_count (n : option Z) (len : nat) : nat :=
  match n with None => 1 | Some n => Z.to_nat (Z.max (Z.min n (Z.of_nat len)) 0) end.

Lemma exec1_unstash s t h x n :
  get s (self_of t) = Some x -> a_stash x <> [] ->
  let k := unstash_count n (length (a_stash x)) in
  exec1 s t h (IAct (AUnstash n)) =
  (set_actor s (self_of t) (set_stash x (skipn k (a_stash x))),
   flat_map (fun e => [IEnqMb (self_of t) e; IEnqDone]) (firstn k (a_stash x))).
Proof.
  intros Hg Hne. cbv zeta. unfold exec1. rewrite Hg. destruct n as [n|]; cbn [unstash_count].
  - destruct (a_stash x) as [|e0 r] eqn:Es; [congruence|]. reflexivity.
  - destruct (a_stash x) as [|e0 r] eqn:Es; [congruence|]. reflexivity.
Qed.

Lemma exec1_unstash_empty s t h x n :
  get s (self_of t) = Some x -> a_stash x = [] -> exec1 s t h (IAct (AUnstash n)) = (s, []).
Proof. intros Hg He. unfold exec1. rewrite Hg, He. destruct n; reflexivity. Qed.

Lemma exec1_stash_frame s t h i :
  i <> IAct AStash -> (forall n, i <> IAct (AUnstash n)) -> keeps a_stash [] s (fst (exec1 s t h i)).
Proof.
  intros H1 H2. apply keeps_exec1; [|reflexivity].
  intros x y Hl. destruct (lu_stash _ _ _ Hl) as [E|[E|[n E]]]; [exact E|congruence|exfalso; exact (H2 n E)].
Qed.

Definition cleanup_sends (self : aid) (x : actor) : list instr :=
  (match a_watchers x with
   | [] => []
   | l => [IEnqAny true (map snd l) (RObj self) (MKilled (RObj self))]
   end)
  ++ (match a_parent x with
      | Some p => [IEnq true (RObj p) (RObj self) (MKilled (RObj self)); IEnqDone]
      | None => []
      end).

Lemma exec1_cleanup s t h x :
  get s (self_of t) = Some x ->
  exec1 s t h ICleanup =
  (set_reg (set_subs s (unsub_all (subs s) (a_path x))) (aremove (reg s) (a_path x)),
   cleanup_sends (self_of t) x ++ [IPub evKilled (actor_key x); IResume1]).
Proof. intros Hg. unfold exec1. rewrite Hg. unfold cleanup_sends. cbn [set_subs reg]. rewrite <- app_assoc. reflexivity. Qed.

Lemma step_resume1_paused s t x rest :
  pend_of s t = IResume1 :: rest -> get s (self_of t) = Some x -> a_paused x = true ->
  step s (EvResume1 t) =
  set_pend (set_actor s (self_of t) (set_mb x (a_sq x) (a_uq x) false (a_cons x) (a_cur x))) t (IResume2 :: rest).
Proof. intros Hp Hg Hpa. cbn [step]. rewrite Hp, Hg, Hpa. reflexivity. Qed.

Lemma step_resume1_unpauses s t x rest :
  pend_of s t = IResume1 :: rest -> get s (self_of t) = Some x -> a_paused x = true ->
  exists x', get (step s (EvResume1 t)) (self_of t) = Some x' /\ a_paused x' = false /\ a_uq x' = a_uq x /\ a_sq x' = a_sq x.
Proof.
  intros Hp Hg Hpa. rewrite (step_resume1_paused _ _ _ _ Hp Hg Hpa).
  assert (Hl : self_of t < length (actors s)) by (eapply nth_error_lt; exact Hg).
  destruct t as [a|i].
  - erewrite set_pend_TA by (apply get_set_same; exact Hl). rewrite set_actor_twice.
    eexists. split; [apply get_set_same; exact Hl|]. cbn. auto.
  - unfold set_pend. cbn [exts set_actor].
    destruct (nth_error (exts s) i); (eexists; split; [apply (get_set_same s _ _ Hl)|cbn; auto]).
Qed.

Lemma exec1_failed s t h x :
  get s (self_of t) = Some x ->
  exec1 s t h IFailed =
  (s, [IPauseSt; IEnq true (rref_parent x) (RObj (self_of t)) (MSup (SupCtx (RObj (self_of t)) [] None)); IEnqDone;
       IPub evFailed (actor_key x); IPub evPaused (actor_key x)]).
Proof. intros Hg. unfold exec1. rewrite Hg. reflexivity. Qed.

(** does the recovery policy of this invocation report a panic to the supervisor *)
Definition reports (s : state) (self : aid) (x : actor) (r : recov) : bool :=
  match r with
  | RecFail => true
  | RecLog => false
  | RecKilled who => match a_state x with Running => negb (ref_eq s who (RObj self)) | _ => false end
  end.

Lemma exec1_beh s t h x p m acts r :
  get s (self_of t) = Some x -> a_zombie x = false -> a_parent x = Some p ->
  exec1 s t h (IBeh m acts r) =
  (add_obs s (OSeen (self_of t) (a_inst x) (match a_cons x with CBusy md => md | _ => mode_top x end) m),
   map IAct (fst (take_until_panic acts)) ++
   (if snd (take_until_panic acts) && reports s (self_of t) x r then [IFailed] else [])).
Proof.
  intros Hg Hz Hp. unfold exec1. rewrite Hg, Hz, Hp. destruct (take_until_panic acts) as [pre pan]. cbn [fst snd].
  f_equal. f_equal. destruct pan; [|reflexivity]. cbn [andb]. destruct r; cbn [reports]; try reflexivity.
  destruct (a_state x); try reflexivity. destruct (ref_eq s who (RObj (self_of t))); reflexivity.
Qed.

Lemma exec1_beh_zombie s t h x m acts r :
  get s (self_of t) = Some x -> a_zombie x = true -> exec1 s t h (IBeh m acts r) = (s, []).
Proof. intros Hg Hz. unfold exec1. rewrite Hg, Hz. reflexivity. Qed.

Lemma in_map_IAct_IFailed l : ~ In IFailed (map IAct l).
Proof. induction l; cbn; [tauto|]. intros [H|H]; [discriminate|auto]. Qed.

Lemma exec1_beh_failed_iff s t h x p m acts r :
  get s (self_of t) = Some x -> a_zombie x = false -> a_parent x = Some p ->
  (In IFailed (snd (exec1 s t h (IBeh m acts r))) <-> snd (take_until_panic acts) = true /\ reports s (self_of t) x r = true).
Proof.
  intros Hg Hz Hp. rewrite (exec1_beh _ _ _ _ _ _ _ _ Hg Hz Hp). cbn [snd]. rewrite in_app_iff. split.
  - intros [H|H]; [exfalso; exact (in_map_IAct_IFailed _ H)|].
    destruct (snd (take_until_panic acts)), (reports s (self_of t) x r); cbn in H; tauto.
  - intros [-> ->]. right. cbn. auto.
Qed.

Lemma exec1_dokill s t h x poison :
  get s (self_of t) = Some x ->
  exec1 s t h (IDoKill poison) =
  (s, (match a_children x with
       | [] => []
       | l => [IEnqAny (negb poison) (map (fun p => RObj (snd p)) l) (RObj (self_of t)) (MKill (RObj (self_of t)) poison)]
       end)
      ++ [IBeh (match a_cur x with Some e => e_msg e | None => MKill RNone poison end) (sp_kill (a_spec x)) RecLog;
          IOnKilled (RObj (self_of t))]).
Proof. intros Hg. unfold exec1. rewrite Hg. destruct (a_restarting x); reflexivity. Qed.

Lemma exec1_checkmark s t h x :
  get s (self_of t) = Some x -> a_children x = [] -> a_state x = Killing ->
  exists y, fst (exec1 s t h ICheckMark) = set_actor s (self_of t) y /\ a_state y = Killed /\
            a_uq y = a_uq x /\ a_sq y = a_sq x /\ a_paused y = a_paused x /\ a_stash y = a_stash x /\
  snd (exec1 s t h ICheckMark) =
    [IBeh (MKilled (RObj (self_of t))) (sp_killed (a_spec x)) RecLog;
     match a_restarting x with None => ICleanup | Some _ => IRestartFinish end].
Proof.
  intros Hg Hc Hs. unfold exec1. rewrite Hg, Hc, Hs. eexists. split; [reflexivity|]. cbn. repeat split; auto.
  destruct (a_restarting x); reflexivity.
Qed.

Definition with_targets (c : supctx) (targets : list rref) : supctx :=
  match c with SupCtx ch _ sub => SupCtx ch targets sub end.
Definition resume_all (self : aid) (c : supctx) : list instr :=
  flat_map (fun r => [IEnq true r (RObj self) MCmdResume; IEnqDone]) (chain_targets c).

Lemma exec1_sup_resume s t h x c targets :
  get s (self_of t) = Some x ->
  exec1 s t h (ISupApply c DResume targets) = (s, resume_all (self_of t) (with_targets c targets)).
Proof. intros Hg. unfold exec1. rewrite Hg. reflexivity. Qed.

Lemma exec1_sup_restart s t h x c targets d :
  get s (self_of t) = Some x -> d = DRestart \/ d = DGRestart ->
  exec1 s t h (ISupApply c d targets) =
  (s, flat_map (fun r => [IEnq (negb (is_graceful d)) r (RObj (self_of t)) (MRestart (is_graceful d)); IEnqDone]) targets
      ++ if is_graceful d then resume_all (self_of t) (with_targets c targets) else []).
Proof. intros Hg [-> | ->]; unfold exec1; rewrite Hg; reflexivity. Qed.

Lemma exec1_sup_stop s t h x c targets d :
  get s (self_of t) = Some x -> d = DStop \/ d = DGStop ->
  exec1 s t h (ISupApply c d targets) =
  (s, flat_map (fun r => [IEnq (negb (is_graceful d)) r (RObj (self_of t)) (MKill (RObj (self_of t)) (is_graceful d)); IEnqDone]) targets
      ++ if is_graceful d then resume_all (self_of t) (with_targets c targets) else []).
Proof. intros Hg [-> | ->]; unfold exec1; rewrite Hg; reflexivity. Qed.

Lemma exec1_sup_escalate s t h x c targets d :
  get s (self_of t) = Some x -> d = DEscalate \/ d = DInvalid ->
  exec1 s t h (ISupApply c d targets) =
  (s, [IPauseSt; IEnq true (rref_parent x) (RObj (self_of t)) (MSup (SupCtx (RObj (self_of t)) [] (Some (with_targets c targets)))); IEnqDone]).
Proof. intros Hg [-> | ->]; unfold exec1; rewrite Hg; reflexivity. Qed.

Lemma exec1_sup_pause_done s t h x c d done :
  get s (self_of t) = Some x -> exec1 s t h (ISupPause c d [] done) = (s, [ISupApply c d done]).
Proof. intros Hg. unfold exec1. rewrite Hg. reflexivity. Qed.

Lemma dispatch_sup s a x e c :
  e_msg e = MSup c -> (is_dead x e && negb (a_zombie x)) = false ->
  dispatch s a x e =
  (set_actor s a (set_decisions (with_cur x e) (snd (sup_decision x))),
   [ISupPause c (fst (sup_decision x)) (sup_targets x c) []; IEndHandler]).
Proof. intros Hm Hd. destruct (dispatch_alive s a x e Hd); congruence. Qed.

Lemma step_push_sup_pause s t c d rem done rest choice to :
  pend_of s t = ISupPause c d rem done :: rest -> nth_error rem choice = Some to ->
  step s (EvPush t choice) =
  set_pend (fst (deliver (snd (resolve s to)) (fst (resolve s to)) {| e_sys := true; e_sender := RObj (self_of t); e_msg := MCmdPause |}))
           t (IEnqDone :: ISupPause c d (firstn choice rem ++ skipn (S choice) rem) (done ++ [to]) :: rest).
Proof.
  intros Hp Hn. cbn [step]. rewrite Hp, Hn. destruct (resolve s to) as [mb s1]. cbn [fst snd].
  destruct (deliver s1 mb _). reflexivity.
Qed.

(** restart: the hooks decide between a fresh running instance and a zombie; both resume the mailbox *)
Definition restart_ok (x : actor) : bool :=
  match a_hooks x with (_, r_ok, p_ok) :: _ => r_ok && p_ok | [] => true end.

Lemma exec1_restart_finish_ok s t h x :
  get s (self_of t) = Some x -> restart_ok x = true ->
  exists y, exec1 s t h IRestartFinish =
    (set_actor s (self_of t) y,
     [IResume1; IPub evRestarted (actor_key x); IPub evResumed (actor_key x);
      IBeh MLaunch (sp_launch (a_spec x)) RecFail; IPub evLaunched (actor_key x)]) /\
    a_state y = Running /\ a_restarting y = None /\ a_zombie y = a_zombie x /\ a_modes y = [0%N] /\
    a_inst y = (if sp_provider (a_spec x) then (a_inst x + 1)%N else a_inst x) /\
    a_uq y = a_uq x /\ a_sq y = a_sq x /\ a_stash y = a_stash x /\ a_paused y = a_paused x /\
    a_cur y = Some {| e_sys := true; e_sender := rref_parent x; e_msg := MLaunch |}.
Proof.
  intros Hg Hok. unfold exec1. rewrite Hg. unfold restart_ok in Hok.
  destruct (a_hooks x) as [|[[h1 h2] h3] rest].
  - eexists. split; [reflexivity|]. destruct (sp_provider (a_spec x)); cbn; repeat split; auto.
  - rewrite Hok. eexists. split; [reflexivity|]. destruct (sp_provider (a_spec x)); cbn; repeat split; auto.
Qed.

Lemma exec1_restart_finish_fail s t h x :
  get s (self_of t) = Some x -> restart_ok x = false ->
  exists y, exec1 s t h IRestartFinish = (set_actor s (self_of t) y, [IResume1]) /\
    a_zombie y = true /\ a_state y = a_state x /\ a_uq y = a_uq x /\ a_sq y = a_sq x /\ a_stash y = a_stash x /\
    a_paused y = a_paused x.
Proof.
  intros Hg Hok. unfold exec1. rewrite Hg. unfold restart_ok in Hok.
  destruct (a_hooks x) as [|[[h1 h2] h3] rest]; [discriminate|].
  rewrite Hok. eexists. split; [reflexivity|]. destruct (sp_provider (a_spec x)); cbn; repeat split; auto.
Qed.

Lemma exec1_onkilled_zombie s t h x who :
  get s (self_of t) = Some x -> a_zombie x = true -> exec1 s t h (IOnKilled who) = (s, [ICleanup; IUnzombie]).
Proof. intros Hg Hz. unfold exec1. rewrite Hg, Hz. reflexivity. Qed.

Lemma exec1_unzombie s t h x :
  get s (self_of t) = Some x -> exec1 s t h IUnzombie = (set_actor s (self_of t) (set_zombie x false), []).
Proof. intros Hg. unfold exec1. rewrite Hg. reflexivity. Qed.

Lemma dispatch_zombie_kill s a x e k poison :
  a_zombie x = true -> e_msg e = MKill k poison ->
  dispatch s a x e = (set_actor s a (with_cur x e), [IDoKill poison; IEndHandler]).
Proof.
  intros Hz Hm. destruct (dispatch_alive s a x e); try congruence. rewrite Hz. apply andb_false_r.
Qed.

Lemma dispatch_zombie_killed s a x e who :
  a_zombie x = true -> e_msg e = MKilled who ->
  dispatch s a x e = (set_actor s a (with_cur x e), [IOnKilled who; IEndHandler]).
Proof.
  intros Hz Hm. destruct (dispatch_alive s a x e); try congruence. rewrite Hz. apply andb_false_r.
Qed.

Lemma dispatch_cmd_resume s a x e :
  e_msg e = MCmdResume -> (is_dead x e && negb (a_zombie x)) = false ->
  dispatch s a x e = (set_actor s a (with_cur x e), [IResume1; IPub evResumed (actor_key x); IEndHandler]).
Proof. intros Hm Hd. destruct (dispatch_alive s a x e Hd); congruence. Qed.

Lemma dispatch_restart_running s a x e poison :
  e_msg e = MRestart poison -> a_state x = Running ->
  exists y, dispatch s a x e = (set_actor s a y, [IPub evRestarting (actor_key x); IDoKill poison; IEndHandler]) /\
            a_state y = Killing /\ a_restarting y = Some poison /\ a_uq y = a_uq x /\ a_sq y = a_sq x /\
            a_stash y = a_stash x /\ a_paused y = a_paused x.
Proof.
  intros Hm Hs.
  assert (Hd : is_dead x e && negb (a_zombie x) = false) by (unfold is_dead; rewrite Hs; reflexivity).
  destruct (dispatch_alive s a x e Hd); try congruence.
  eexists. split; [apply f_equal2; [reflexivity|congruence]|cbn; repeat split; congruence].
Qed.

Lemma exec1_beh_ignored s t h x m acts r :
  get s (self_of t) = Some x -> a_zombie x = true \/ (a_parent x = None /\ forall who, m <> MKilled who) ->
  exec1 s t h (IBeh m acts r) = (s, []).
Proof.
  intros Hg [Hz|[Hp Hm]]; unfold exec1; rewrite Hg; [rewrite Hz; reflexivity|].
  destruct (a_zombie x); [reflexivity|]. rewrite Hp. destruct m; try reflexivity. destruct (Hm who eq_refl).
Qed.

Lemma step_handle_run s a x e :
  get s a = Some x -> a_cons x = CH e ->
  step s (EvHandle a) =
  run_atomic FUEL (set_pend (fst (dispatch (set_actor s a (busy x)) a (busy x) e)) (TA a)
                            (snd (dispatch (set_actor s a (busy x)) a (busy x) e))) (TA a).
Proof. intros Hg Hc. rewrite (step_handle _ _ _ _ Hg Hc). cbv zeta. fold (busy x). destruct (dispatch _ a (busy x) e). reflexivity. Qed.

Lemma handle_dead s a x e :
  get s a = Some x -> a_cons x = CH e -> a_zombie x = false -> is_dead x e = true ->
  step s (EvHandle a) =
  match a_parent x with
  | Some _ => set_actor s a (upd_pend (busy x) (dead_report e))
  | None => add_ghost (set_actor s a (handled x (a_cur x))) (ODropped (e_msg e))
  end.
Proof.
  intros Hg Hc Hz Hd. rewrite (step_handle_run _ _ _ _ Hg Hc). pose proof (nth_error_lt _ _ _ Hg) as Hl.
  destruct (dispatch_cases (set_actor s a (busy x)) a (busy x) e) as [_ _ Hp|p _ _ Hp|r Hal _]; cbn [fst snd].
  - change (a_parent (busy x)) with (a_parent x) in Hp. rewrite Hp.
    change (add_ghost (set_actor s a (busy x)) (ODropped (e_msg e))) with (set_actor (add_ghost s (ODropped (e_msg e))) a (busy x)).
    assert (Hl' : a < length (actors (add_ghost s (ODropped (e_msg e))))) by exact Hl.
    rewrite (set_pend_TA _ _ _ _ (get_set_same _ _ _ Hl')), set_actor_twice, FUEL_eq, ra_end by exact Hl'. reflexivity.
  - change (a_parent (busy x)) with (a_parent x) in Hp. rewrite Hp.
    unfold dead_report. rewrite (set_pend_TA _ _ _ _ (get_set_same _ _ _ Hl)), set_actor_twice, FUEL_eq, ra_wait by (exact Hl || reflexivity). reflexivity.
  - change (is_dead (busy x) e) with (is_dead x e) in Hal. change (a_zombie (busy x)) with (a_zombie x) in Hal.
    rewrite Hd, Hz in Hal. discriminate Hal.
Qed.

(** a zombie, and the running guard (guard.Actor.OnReceive has no case for it), consume a user message without running
    user code and without sending anything *)
Lemma handle_user_ignored s a x e tag acts :
  get s a = Some x -> a_cons x = CH e -> e_msg e = MUser tag acts ->
  a_zombie x = true \/ (is_dead x e = false /\ a_parent x = None) ->
  step s (EvHandle a) = set_actor s a (handled x (Some e)).
Proof.
  intros Hg Hc Hm Hig. rewrite (step_handle_run _ _ _ _ Hg Hc). pose proof (nth_error_lt _ _ _ Hg) as Hl.
  assert (Hal : is_dead (busy x) e && negb (a_zombie (busy x)) = false).
  { change (is_dead x e && negb (a_zombie x) = false). destruct Hig as [-> |[-> _]]; [apply andb_false_r|reflexivity]. }
  destruct (dispatch_alive (set_actor s a (busy x)) a (busy x) e Hal); try congruence. cbn [fst snd].
  rewrite set_actor_twice, (set_pend_TA _ _ _ _ (get_set_same _ _ _ Hl)), set_actor_twice, FUEL_eq.
  rewrite (ra_front _ _ _ Hl _ _ _ []); [rewrite ra_end by exact Hl; reflexivity|reflexivity|reflexivity|].
  eapply exec1_beh_ignored; [apply (get_set_same _ _ _ Hl)|].
  destruct Hig as [Hz|[_ Hp]]; [left; exact Hz|right; split; [exact Hp|discriminate]].
Qed.

Lemma handle_guard_dead_letter s a x e sys m :
  get s a = Some x -> a_cons x = CH e -> e_msg e = MDeadLetter sys m -> a_parent x = None ->
  a_zombie x = false -> is_dead x e = false ->
  step s (EvHandle a) =
  add_ghost (set_actor s a
      match subscribers s evDeathLetter with
      | [] => handled x (Some e)
      | l => upd_pend (set_mb x (a_sq x) (a_uq x) (a_paused x) (CBusy (mode_top x)) (Some e))
                      [IEnqAny false (map (fun p => RObj (snd p)) l) root_ref (MEvent evDeathLetter (dl_payload m)); IEndHandler]
      end) (ODeadLetter sys m).
Proof.
  intros Hg Hc Hm Hp Hz Hd. rewrite (step_handle_run _ _ _ _ Hg Hc). pose proof (nth_error_lt _ _ _ Hg) as Hl.
  assert (Hal : is_dead (busy x) e && negb (a_zombie (busy x)) = false) by (change (is_dead x e && negb (a_zombie x) = false); rewrite Hd; reflexivity).
  destruct (dispatch_alive (set_actor s a (busy x)) a (busy x) e Hal); try congruence; [|change (a_parent x = Some p) in Hp0; congruence].
  replace inner with m in * by congruence. replace sys0 with sys in * by congruence. cbn [fst snd]. rewrite set_actor_twice.
  change (add_ghost (set_actor s a ?y) ?o) with (set_actor (add_ghost s o) a y).
  set (sg := add_ghost s (ODeadLetter sys m)). assert (Hl' : a < length (actors sg)) by exact Hl.
  rewrite (set_pend_TA _ _ _ _ (get_set_same _ _ _ Hl')), set_actor_twice, FUEL_eq.
  assert (Hpub : forall rest, exec1 (set_actor sg a (upd_pend (with_cur (busy x) e) rest)) (TA a) [] (IPub evDeathLetter (dl_payload m)) =
     (set_actor sg a (upd_pend (with_cur (busy x) e) rest),
      match subscribers s evDeathLetter with [] => [] | l => [IEnqAny false (map (fun p => RObj (snd p)) l) root_ref (MEvent evDeathLetter (dl_payload m))] end)).
  { intros rest. unfold exec1. cbn [self_of]. rewrite (get_set_same _ _ _ Hl'). change (subscribers _ evDeathLetter) with (subscribers s evDeathLetter).
    destruct (subscribers s evDeathLetter); reflexivity. }
  rewrite (ra_front _ _ _ Hl' _ (IPub evDeathLetter (dl_payload m)) _ _ eq_refl eq_refl (Hpub _)).
  destruct (subscribers s evDeathLetter) as [|q l]; cbn [app].
  - rewrite ra_end by exact Hl'. reflexivity.
  - rewrite ra_wait by (exact Hl' || reflexivity). reflexivity.
Qed.

Lemma handle_processed_user s a x e tag acts p :
  get s a = Some x -> a_cons x = CH e -> e_msg e = MUser tag acts -> a_zombie x = false -> is_dead x e = false ->
  a_parent x = Some p ->
  (exists l, olog (step s (EvHandle a)) = olog s ++ OSeen a (a_inst x) (mode_top x) (MUser tag acts) :: l) /\
  ghost (step s (EvHandle a)) = ghost s.
Proof.
  intros Hg Hc Hm Hz Hd Hp. rewrite (step_handle_run _ _ _ _ Hg Hc). pose proof (nth_error_lt _ _ _ Hg) as Hl.
  assert (Hal : is_dead (busy x) e && negb (a_zombie (busy x)) = false) by (change (is_dead x e && negb (a_zombie x) = false); rewrite Hd; reflexivity).
  destruct (dispatch_alive (set_actor s a (busy x)) a (busy x) e Hal); try congruence.
  replace tag0 with tag in * by congruence. replace acts0 with acts in * by congruence. cbn [fst snd].
  rewrite set_actor_twice, (set_pend_TA _ _ _ _ (get_set_same _ _ _ Hl)), set_actor_twice, FUEL_eq.
  rewrite (ra_step _ _ _ Hl _ (IBeh (MUser tag acts) acts RecFail) _ eq_refl eq_refl).
  rewrite (exec1_beh _ (TA a) _ (upd_pend (with_cur (busy x) e) [IEndHandler]) p _ _ _ (get_set_same _ _ _ Hl) Hz Hp).
  match goal with |- context[run_atomic ?f ?s0 ?t] => set (s1 := s0); set (fu := f) end.
  assert (Ho : olog s1 = olog s ++ [OSeen a (a_inst x) (mode_top x) (MUser tag acts)]) by (unfold s1; rewrite set_pend_olog; reflexivity).
  assert (Hgh : ghost s1 = ghost s) by (unfold s1; rewrite set_pend_ghost; reflexivity).
  split.
  - destruct (grows_olog_run_atomic fu s1 (TA a)) as [l Hgl]. exists l. rewrite Hgl, Ho, <- app_assoc. reflexivity.
  - rewrite <- Hgh.
    assert (Hga : forall Y o, get (add_obs (set_actor s a Y) o) a = Some Y) by (intros; apply (get_set_same s a _ Hl)).
    unfold s1. rewrite (set_pend_TA _ _ _ _ (Hga _ _)).
    eapply (ghost_run_atomic_nonroot fu _ (TA a)); [eapply get_set_same'; apply Hga|exact Hp].
Qed.

Lemma handle_zombie_user s a x e tag acts :
  get s a = Some x -> a_cons x = CH e -> e_msg e = MUser tag acts -> a_zombie x = true ->
  step s (EvHandle a) = set_actor s a (handled x (Some e)).
Proof. intros Hg Hc Hm Hz. apply (handle_user_ignored s a x e tag acts Hg Hc Hm). left. exact Hz. Qed.

Lemma handle_user s a x e tag acts o par :
  get s a = Some x -> a_cons x = CH e -> e_msg e = MUser tag acts -> user_outcome x e = o -> a_parent x = par ->
  match o with
  | OutProcessed =>
      match par with
      | Some _ =>
          (exists l, olog (step s (EvHandle a)) = olog s ++ OSeen a (a_inst x) (mode_top x) (MUser tag acts) :: l) /\
          ghost (step s (EvHandle a)) = ghost s
      | None => step s (EvHandle a) = set_actor s a (handled x (Some e))
      end
  | OutZombie => step s (EvHandle a) = set_actor s a (handled x (Some e))
  | OutDeadLetter =>
      step s (EvHandle a) =
      set_actor s a (upd_pend (busy x)
        [IEnqMb 0 {| e_sys := false; e_sender := root_ref; e_msg := MDeadLetter (e_sys e) (MUser tag acts) |}; IEnqDone; IEndHandler])
  | OutDropped => step s (EvHandle a) = add_ghost (set_actor s a (handled x (a_cur x))) (ODropped (MUser tag acts))
  end.
Proof.
  intros Hg Hc Hm <- <-. unfold user_outcome.
  destruct (a_zombie x) eqn:Hz; [apply (handle_zombie_user s a x e tag acts Hg Hc Hm Hz)|].
  destruct (is_dead x e) eqn:Hd.
  - pose proof (handle_dead s a x e Hg Hc Hz Hd) as H. unfold dead_report, dead_env in H. rewrite Hm in H.
    destruct (a_parent x); exact H.
  - destruct (a_parent x) as [p|] eqn:Hp; [exact (handle_processed_user s a x e tag acts p Hg Hc Hm Hz Hd Hp)|].
    apply (handle_user_ignored s a x e tag acts Hg Hc Hm). auto.
Qed.

Lemma cleanup_ends_with_resume s t h x :
  get s (self_of t) = Some x ->
  exists sends, snd (exec1 s t h ICleanup) = sends ++ [IPub evKilled (actor_key x); IResume1].
Proof. intros Hg. rewrite (exec1_cleanup s t h x Hg). eexists. reflexivity. Qed.

Lemma exec1_beh_not_failed_stopping s t h x p m acts r :
  get s (self_of t) = Some x -> a_zombie x = false -> a_parent x = Some p ->
  a_state x <> Running -> r <> RecFail ->
  ~ In IFailed (snd (exec1 s t h (IBeh m acts r))).
Proof.
  intros Hg Hz Hp Hs Hr Hin. apply (exec1_beh_failed_iff s t h x p m acts r Hg Hz Hp) in Hin. destruct Hin as [_ Hrep].
  destruct r; cbn [reports] in Hrep; try congruence. destruct (a_state x); congruence.
Qed.

Lemma sup_decision_root x : sp_strategy (a_spec x) = 0%N -> sup_decision x = (DStop, a_decisions x).
Proof. intros H. unfold sup_decision. rewrite H. reflexivity. Qed.

Lemma exec1_own_mail s t h i x y :
  get s (self_of t) = Some x -> get (fst (exec1 s t h i)) (self_of t) = Some y ->
  (a_stash y = a_stash x \/ (exists e, i = IAct AStash /\ a_cur x = Some e /\ a_stash y = a_stash x ++ [e]) \/
   (exists n, i = IAct (AUnstash n) /\ a_stash y = skipn (unstash_count n (length (a_stash x))) (a_stash x))) /\
  (a_cur y = a_cur x \/
   (i = ICheckMark /\ a_cur y = Some {| e_sys := true; e_sender := match a_cur x with Some e0 => e_sender e0 | None => RNone end;
                                        e_msg := MKilled (RObj (self_of t)) |}) \/
   (i = IRestartFinish /\ a_cur y = Some {| e_sys := true; e_sender := rref_parent x; e_msg := MLaunch |})).
Proof.
  intros Hg Hy. destruct (exec1_get_self s t h i x Hg) as (y0 & Hy0 & Hl). assert (y0 = y) by congruence. subst y0.
  pose proof (nth_error_lt _ _ _ Hg) as Hlt. split.
  - destruct (lu_stash _ _ _ Hl) as [E|[->|[n ->]]]; [auto| |].
    + destruct (a_cur x) as [e|] eqn:Hc; [|left; unfold exec1 in Hy; rewrite Hg, Hc in Hy; change (get s (self_of t) = Some y) in Hy; congruence].
      rewrite (exec1_stash s t h x e Hg Hc) in Hy. cbn [fst] in Hy. rewrite (get_set_same _ _ _ Hlt) in Hy.
      right; left. exists e. inversion Hy. auto.
    + destruct (a_stash x) as [|e0 r] eqn:Hs.
      * rewrite (exec1_unstash_empty s t h x n Hg Hs) in Hy. cbn [fst] in Hy. left. congruence.
      * assert (Hne : a_stash x <> []) by congruence. rewrite (exec1_unstash s t h x n Hg Hne) in Hy. cbn [fst] in Hy.
        rewrite (get_set_same _ _ _ Hlt) in Hy. right; right. exists n. inversion Hy. rewrite Hs. auto.
  - destruct (lu_cur _ _ _ Hl) as [E|[-> | ->]]; [auto| |]; revert Hy; unfold exec1; rewrite Hg.
    + destruct (a_children x); [|cbn [fst]; left; congruence]. destruct (a_state x); cbn [fst]; try (left; congruence).
      rewrite (get_set_same _ _ _ Hlt). intros [= <-]. right; left. auto.
    + destruct (a_hooks x) as [|[[h1 h2] h3] rest]; [|destruct (h2 && h3)]; cbn [fst]; rewrite (get_set_same _ _ _ Hlt); intros [= <-];
        [right; right; auto|right; right; auto|left; destruct (sp_provider (a_spec x)); reflexivity].
Qed.
