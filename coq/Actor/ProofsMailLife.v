(** Micro-steps (Actor/ProofsMailMicro.v) by kind - a pop, HandleEnvelop, a thread step, one atomic instruction
    ([mstep_mcase]) - and what is proved over them: the foreign-frame lemma (a micro-step of one thread changes
    another actor's record only in its queues and cache) and the local lifecycle invariant [linv] (at most one
    lifecycle instruction pending, consistent with state / zombie flag). *)
From Coq Require Import List NArith ZArith Bool Lia Arith.
From Vivid Require Import Actor.Core Actor.CoreRun Actor.SpecMail Actor.ProofsMailBase Actor.ProofsMail Actor.ProofsMailInv
  Actor.ProofsMailWf Actor.ProofsMailAcct Actor.ProofsMailMicro Actor.ProofsMailStep.
Import ListNotations.

Definition mself (m : micro) : aid :=
  match m with
  | MSysPop a | MLoadPaused a | MUserPop a | MHandle a => a
  | MPush t _ | MEnqDone t | MPauseSt t | MResume1 t | MResume2 t | MAtomic t => self_of t
  end.

(** records equal up to the fields another thread may write: the two queues and the reference cache *)
Definition fw (x : actor) (sq uq : list envelope) (c : option aid) : actor :=
  {| a_path := a_path x; a_gen := a_gen x; a_parent := a_parent x; a_spec := a_spec x; a_state := a_state x;
     a_zombie := a_zombie x; a_restarting := a_restarting x; a_children := a_children x; a_watchers := a_watchers x;
     a_stash := a_stash x; a_modes := a_modes x; a_inst := a_inst x; a_decisions := a_decisions x; a_hooks := a_hooks x;
     a_cache := c; a_sq := sq; a_uq := uq; a_paused := a_paused x; a_cons := a_cons x; a_cur := a_cur x;
     a_pend := a_pend x |}.
Definition lsame (x y : actor) : Prop := y = fw x (a_sq y) (a_uq y) (a_cache y).

Lemma lsame_refl x : lsame x x. Proof. destruct x; reflexivity. Qed.
Lemma lsame_trans x y z : lsame x y -> lsame y z -> lsame x z.
Proof. unfold lsame. intros H1 H2. rewrite H2. rewrite H1 at 1. reflexivity. Qed.
Lemma lsame_fw x sq uq c : lsame x (fw x sq uq c). Proof. reflexivity. Qed.

Definition table_rel (R : actor -> actor -> Prop) (skip : aid -> Prop) (s s' : state) : Prop :=
  forall b x, get s b = Some x -> ~ skip b -> exists x', get s' b = Some x' /\ R x x'.

Lemma table_rel_refl (R : actor -> actor -> Prop) (skip : aid -> Prop) s : (forall x, R x x) -> table_rel R skip s s.
Proof. intros HR b x Hg _. eauto. Qed.
Lemma table_rel_trans (R : actor -> actor -> Prop) (skip : aid -> Prop) a b c : (forall x y z, R x y -> R y z -> R x z) ->
  table_rel R skip a b -> table_rel R skip b c -> table_rel R skip a c.
Proof.
  intros HR H1 H2 i x Hg Hs. destruct (H1 i x Hg Hs) as (y & Hy & Rxy). destruct (H2 i y Hy Hs) as (z & Hz & Ryz). eauto.
Qed.
Lemma table_rel_same_actors (R : actor -> actor -> Prop) (skip : aid -> Prop) s s' : (forall x, R x x) -> actors s' = actors s -> table_rel R skip s s'.
Proof. intros HR Ha b x Hg _. exists x. unfold get in *. rewrite Ha. auto. Qed.

Lemma table_rel_set_actor_skip (R : actor -> actor -> Prop) (skip : aid -> Prop) s a y : (forall x, R x x) -> skip a -> table_rel R skip s (set_actor s a y).
Proof.
  intros HR Hs b x Hg Hb. destruct (Nat.eq_dec a b) as [<-|Hne]; [contradiction|]. rewrite get_set_other by exact Hne. eauto.
Qed.
Lemma table_rel_set_actor (R : actor -> actor -> Prop) (skip : aid -> Prop) s a x y : (forall x, R x x) -> get s a = Some x -> R x y -> table_rel R skip s (set_actor s a y).
Proof.
  intros HR Hg Hxy b xb Hb _. destruct (Nat.eq_dec a b) as [<-|Hne].
  - rewrite (get_set_same' _ _ _ _ Hg). rewrite Hg in Hb. inversion Hb; subst. eauto.
  - rewrite get_set_other by exact Hne. eauto.
Qed.
Lemma table_rel_with_actor (R : actor -> actor -> Prop) (skip : aid -> Prop) s a f : (forall x, R x x) -> (skip a \/ forall x, R x (f x)) -> table_rel R skip s (with_actor s a f).
Proof.
  intros HR H. unfold with_actor. destruct (get s a) as [x|] eqn:E; [|apply table_rel_same_actors; auto].
  destruct H as [H|H]; [apply table_rel_set_actor_skip; auto|eapply table_rel_set_actor; eauto].
Qed.

Definition foreign (self : aid) (s s' : state) : Prop := table_rel lsame (fun b => b = self) s s'.

Lemma foreign_refl self s : foreign self s s. Proof. apply table_rel_refl, lsame_refl. Qed.
Lemma foreign_trans self a b c : foreign self a b -> foreign self b c -> foreign self a c.
Proof. apply table_rel_trans. exact lsame_trans. Qed.
Lemma foreign_same self s s' : actors s' = actors s -> foreign self s s'.
Proof. apply table_rel_same_actors, lsame_refl. Qed.
Lemma foreign_set_self self s y : foreign self s (set_actor s self y).
Proof. apply table_rel_set_actor_skip; [exact lsame_refl|reflexivity]. Qed.

Lemma foreign_set_pend t s l : foreign (self_of t) s (set_pend s t l).
Proof.
  destruct t as [a|i]; [|apply foreign_same, set_pend_TX_actors].
  unfold set_pend. apply table_rel_with_actor; [exact lsame_refl|left; reflexivity].
Qed.
Lemma foreign_push_mb self s a e : foreign self s (push_mb s a e).
Proof. unfold push_mb. apply table_rel_with_actor; [exact lsame_refl|right; intros x; reflexivity]. Qed.
Lemma foreign_resolve self s r : foreign self s (snd (resolve s r)).
Proof.
  destruct (resolve_shape s r) as [H|[H|(a & x & y & _ & Hg & _ & _ & H & _)]]; rewrite H;
    [apply foreign_refl|apply foreign_same; reflexivity|].
  eapply table_rel_set_actor; [exact lsame_refl|exact Hg|reflexivity].
Qed.

Lemma foreign_exec1 s t h i : foreign (self_of t) s (fst (exec1 s t h i)).
Proof.
  destruct (get s (self_of t)) as [x|] eqn:E; [|rewrite (exec1_none _ _ _ _ E); apply foreign_same; reflexivity].
  destruct (exec1_actors s t h i x E) as (y & news & _ & _ & Ha).
  intros b xb Hb Hne. exists xb. split; [|apply lsame_refl]. unfold get in *. rewrite Ha.
  rewrite nth_error_app1 by (rewrite upd_length; eapply nth_error_lt; exact Hb). rewrite nth_upd_neq by congruence. exact Hb.
Qed.

Lemma foreign_astep s t i rest : foreign (self_of t) s (astep s t i rest).
Proof.
  unfold astep. eapply foreign_trans; [apply foreign_set_pend|].
  destruct (exec1 (set_pend s t rest) t (held_of (set_pend s t rest) t) i) as [s1 front] eqn:E.
  eapply foreign_trans; [|apply foreign_set_pend].
  replace s1 with (fst (exec1 (set_pend s t rest) t (held_of (set_pend s t rest) t) i)) by (rewrite E; reflexivity).
  apply foreign_exec1.
Qed.

Lemma same_len_no_new s s' b : length (actors s') = length (actors s) -> get s b = None -> get s' b = None.
Proof. intros Hl Hn. unfold get in *. apply nth_error_None. rewrite Hl. apply nth_error_None. exact Hn. Qed.

Lemma len_set_pend s t l : length (actors (set_pend s t l)) = length (actors s).
Proof.
  destruct t as [a|i]; [|rewrite set_pend_TX_actors; reflexivity].
  unfold set_pend, with_actor. destruct (get s a); cbn; [apply upd_length|reflexivity].
Qed.

Definition life (i : instr) : bool :=
  match i with IDoKill _ | IOnKilled _ | ICheckMark | ICleanup | IRestartFinish => true | _ => false end.
Definition is_unzombie (i : instr) : bool := match i with IUnzombie => true | _ => false end.
Definition lf (l : list instr) : list instr := filter life l.
Definition uzc (l : list instr) : nat := length (filter is_unzombie l).

Definition life_ok (x : actor) (l : list instr) : Prop :=
  match lf l with
  | [] => True
  | [ICleanup] => a_state x = Killed /\ (a_zombie x = true -> uzc l = 1)
  | [IRestartFinish] => a_state x = Killed /\ a_zombie x = false /\ uzc l = 0
  | [IDoKill _] | [IOnKilled _] | [ICheckMark] => uzc l = 0
  | _ => False
  end.

Definition linv (x : actor) : Prop :=
  (a_zombie x = true -> a_state x = Killed) /\
  (a_state x = Killed -> a_children x = []) /\
  (uzc (a_pend x) <= 1) /\
  (uzc (a_pend x) = 1 -> a_zombie x = true) /\
  life_ok x (a_pend x).

Lemma lf_app l1 l2 : lf (l1 ++ l2) = lf l1 ++ lf l2. Proof. apply filter_app. Qed.
Lemma uzc_app l1 l2 : uzc (l1 ++ l2) = uzc l1 + uzc l2. Proof. unfold uzc. rewrite filter_app, app_length. reflexivity. Qed.
Lemma lf_cons_plain i l : life i = false -> lf (i :: l) = lf l. Proof. intros H. unfold lf. cbn [filter]. rewrite H. reflexivity. Qed.
Lemma lf_cons_life i l : life i = true -> lf (i :: l) = i :: lf l. Proof. intros H. unfold lf. cbn [filter]. rewrite H. reflexivity. Qed.
Lemma uzc_cons_plain i l : is_unzombie i = false -> uzc (i :: l) = uzc l. Proof. intros H. unfold uzc. cbn [filter]. rewrite H. reflexivity. Qed.
Lemma lf_cons i l : lf (i :: l) = if life i then i :: lf l else lf l. Proof. reflexivity. Qed.
Lemma uzc_cons i l : uzc (i :: l) = (if is_unzombie i then 1 else 0) + uzc l.
Proof. unfold uzc. cbn [filter]. destruct (is_unzombie i); reflexivity. Qed.
Lemma lf_cleanup a x : lf (cleanup_sends a x) = [] /\ uzc (cleanup_sends a x) = 0.
Proof. unfold cleanup_sends. destruct (a_watchers x), (a_parent x); split; reflexivity. Qed.
Lemma lf_cleanup_sends a x : lf (cleanup_sends a x ++ [IPub evKilled (actor_key x); IResume1]) = [] /\
                             uzc (cleanup_sends a x ++ [IPub evKilled (actor_key x); IResume1]) = 0.
Proof. rewrite lf_app, uzc_app. destruct (lf_cleanup a x) as [-> ->]. split; reflexivity. Qed.

Lemma linv_lsame x y : lsame x y -> linv x -> linv y.
Proof. intros ->. unfold linv, life_ok. cbn. auto. Qed.

Lemma linv_new x : is_new x -> linv x.
Proof. intros (p & g & par & sp & ->). unfold linv, life_ok. cbn. repeat split; auto; try discriminate; lia. Qed.

Lemma linv_fields x y :
  a_state y = a_state x -> a_zombie y = a_zombie x -> a_children y = a_children x -> a_pend y = a_pend x -> linv x -> linv y.
Proof. unfold linv, life_ok. intros -> -> -> ->. auto. Qed.

Lemma linv_plain_head x y i front rest :
  a_pend x = i :: rest -> life i = false -> is_unzombie i = false -> lf front = [] -> uzc front = 0 ->
  a_state y = a_state x -> a_zombie y = a_zombie x -> a_children y = a_children x -> a_pend y = front ++ rest ->
  linv x -> linv y.
Proof.
  unfold linv, life_ok. intros Hp Hl Hu Hf Hz -> -> -> ->. rewrite Hp.
  rewrite (lf_cons_plain _ _ Hl), (uzc_cons_plain _ _ Hu), lf_app, uzc_app, Hf, Hz. cbn [app plus]. auto.
Qed.

Definition plain (i : instr) : bool := negb (life i) && negb (is_unzombie i).

Definition soft (x y : actor) : Prop :=
  a_state y = a_state x /\ a_zombie y = a_zombie x /\ a_children y = a_children x /\ a_pend y = a_pend x /\
  a_path y = a_path x /\ a_parent y = a_parent x /\ a_restarting y = a_restarting x /\ a_spec y = a_spec x.
Lemma soft_refl x : soft x x. Proof. repeat split. Qed.
Lemma soft_trans x y z : soft x y -> soft y z -> soft x z.
Proof. unfold soft. intros (A1 & A2 & A3 & A4 & A5 & A6 & A7 & A8) (B1 & B2 & B3 & B4 & B5 & B6 & B7 & B8). repeat split; congruence. Qed.
Lemma soft_lsame x y : lsame x y -> soft x y. Proof. intros ->. repeat split. Qed.
Definition softT (s s' : state) : Prop := table_rel soft (fun _ => False) s s'.
Lemma softT_refl s : softT s s. Proof. apply table_rel_refl, soft_refl. Qed.
Lemma softT_trans a b c : softT a b -> softT b c -> softT a c. Proof. apply table_rel_trans, soft_trans. Qed.
Lemma softT_same s s' : actors s' = actors s -> softT s s'. Proof. apply table_rel_same_actors, soft_refl. Qed.
Lemma softT_set_actor s a x y : get s a = Some x -> soft x y -> softT s (set_actor s a y).
Proof. intros Hg H. eapply table_rel_set_actor; [exact soft_refl|exact Hg|exact H]. Qed.
Lemma softT_with_actor s a f : (forall x, soft x (f x)) -> softT s (with_actor s a f).
Proof. intros H. apply table_rel_with_actor; [exact soft_refl|right; exact H]. Qed.
Lemma softT_get s s' b x : softT s s' -> get s b = Some x -> exists y, get s' b = Some y /\ soft x y.
Proof. intros H Hg. apply (H b x Hg). tauto. Qed.

Definition crel (s : state) (x y : actor) : Prop :=
  a_cache y = a_cache x \/ (a_cache x = None /\ exists z, a_cache y = Some z /\ alookup (reg s) (a_path x) = Some z).
Definition quiet (s s' : state) : Prop :=
  reg s' = reg s /\ exts s' = exts s /\ length (actors s') = length (actors s) /\ softT s s' /\
  (forall b x x', get s b = Some x -> get s' b = Some x' -> crel s x x').
Lemma quiet_refl s : quiet s s.
Proof. split; [reflexivity|split; [reflexivity|split; [reflexivity|split; [apply softT_refl|]]]]. intros b x x' H1 H2. left. congruence. Qed.
Lemma quiet_same s s' : actors s' = actors s -> reg s' = reg s -> exts s' = exts s -> quiet s s'.
Proof.
  intros Ha Hr He. split; [exact Hr|split; [exact He|split; [rewrite Ha; reflexivity|split; [apply softT_same; exact Ha|]]]].
  intros b x x' H1 H2. left. unfold get in *. rewrite Ha in H2. congruence.
Qed.
Lemma quiet_trans a b c : quiet a b -> quiet b c -> quiet a c.
Proof.
  intros (R1 & E1 & L1 & S1 & C1) (R2 & E2 & L2 & S2 & C2).
  split; [congruence|split; [congruence|split; [congruence|split; [eapply softT_trans; eauto|]]]].
  intros i x z Hx Hz. destruct (softT_get _ _ _ _ S1 Hx) as (y & Hy & Hxy).
  specialize (C1 i x y Hx Hy). specialize (C2 i y z Hy Hz). destruct Hxy as (_ & _ & _ & _ & Hp & _).
  destruct C1 as [E|(N & w & Ew & Lw)].
  - destruct C2 as [E'|(N' & w & Ew & Lw)]; [left; congruence|right]. split; [congruence|]. exists w. split; [exact Ew|]. rewrite <- R1, <- Hp. exact Lw.
  - destruct C2 as [E'|(N' & _)]; [right; split; [exact N|exists w; split; [congruence|exact Lw]]|congruence].
Qed.
Lemma quiet_set_actor s a x y : get s a = Some x -> soft x y -> a_cache y = a_cache x -> quiet s (set_actor s a y).
Proof.
  intros Hg Hs Hc. split; [reflexivity|split; [reflexivity|split; [cbn; apply upd_length|split; [eapply softT_set_actor; eauto|]]]].
  intros b xb xb' H1 H2. left. destruct (Nat.eq_dec a b) as [<-|Hne].
  - rewrite (get_set_same' _ _ _ _ Hg) in H2. congruence.
  - rewrite get_set_other in H2 by exact Hne. congruence.
Qed.
Lemma quiet_set_mb s a x sq uq pa co cu : get s a = Some x -> quiet s (set_actor s a (set_mb x sq uq pa co cu)).
Proof. intros Hg. eapply quiet_set_actor; [exact Hg|repeat split|reflexivity]. Qed.
Lemma quiet_with_actor s a f : (forall x, soft x (f x) /\ a_cache (f x) = a_cache x) -> quiet s (with_actor s a f).
Proof.
  intros H. unfold with_actor. destruct (get s a) as [x|] eqn:E; [|apply quiet_same; reflexivity].
  eapply quiet_set_actor; [exact E|apply H|apply H].
Qed.
Lemma quiet_push_mb s a e : quiet s (push_mb s a e).
Proof. unfold push_mb. apply quiet_with_actor. intros x. split; [repeat split|reflexivity]. Qed.
Lemma quiet_resolve s r : quiet s (snd (resolve s r)).
Proof.
  destruct (resolve_shape s r) as [H|[H|(a & x & y & _ & Hg & Hn & Hlk & H & _)]]; rewrite H;
    [apply quiet_refl|apply quiet_same; reflexivity|].
  split; [reflexivity|split; [reflexivity|split; [cbn; apply upd_length|split; [eapply softT_set_actor; [exact Hg|repeat split]|]]]].
  intros b xb xb' H1 H2. destruct (Nat.eq_dec a b) as [<-|Hne].
  - rewrite (get_set_same' _ _ _ _ Hg) in H2. inversion H2; subst. rewrite Hg in H1. inversion H1; subst.
    right. split; [exact Hn|]. exists y. split; [reflexivity|exact Hlk].
  - rewrite get_set_other in H2 by exact Hne. left. congruence.
Qed.

Definition set_paused (s : state) (a : aid) (v : bool) : state :=
  with_actor s a (fun x => set_mb x (a_sq x) (a_uq x) v (a_cons x) (a_cur x)).

Lemma quiet_set_paused s a v : quiet s (set_paused s a v).
Proof. apply quiet_with_actor. intros x. split; [repeat split|reflexivity]. Qed.

Inductive tmove (s : state) (t : tid) : micro -> instr -> list instr -> state -> Prop :=
| tm_enqdone : tmove s t (MEnqDone t) IEnqDone [] s
| tm_resume2 : tmove s t (MResume2 t) IResume2 [] s
| tm_pausest : tmove s t (MPauseSt t) IPauseSt [] (set_paused s (self_of t) true)
| tm_resume1 x : get s (self_of t) = Some x -> a_paused x = true ->
    tmove s t (MResume1 t) IResume1 [IResume2] (set_paused s (self_of t) false)
| tm_resume1_idle x : get s (self_of t) = Some x -> a_paused x = false -> tmove s t (MResume1 t) IResume1 [] s
| tm_resolve sys to sdr m :
    tmove s t (MAtomic t) (IEnq sys to sdr m) [IEnqR sys (fst (resolve s to)) sdr m] (snd (resolve s to))
| tm_push_r c sys mb sdr m :
    tmove s t (MPush t c) (IEnqR sys mb sdr m) []
          (push_mb s (fst (landing mb {| e_sys := sys; e_sender := sdr; e_msg := m |}))
                     (snd (landing mb {| e_sys := sys; e_sender := sdr; e_msg := m |})))
| tm_push_mb c b e : tmove s t (MPush t c) (IEnqMb b e) [] (push_mb s b e)
| tm_push_any c sys tos sdr m to : nth_error tos c = Some to ->
    tmove s t (MPush t c) (IEnqAny sys tos sdr m)
          (IEnqDone :: match firstn c tos ++ skipn (S c) tos with [] => [] | tos' => [IEnqAny sys tos' sdr m] end)
          (push_mb (snd (resolve s to))
                   (fst (landing (fst (resolve s to)) {| e_sys := sys; e_sender := sdr; e_msg := m |}))
                   (snd (landing (fst (resolve s to)) {| e_sys := sys; e_sender := sdr; e_msg := m |})))
| tm_push_sup c cx d rem done to : nth_error rem c = Some to ->
    tmove s t (MPush t c) (ISupPause cx d rem done)
          [IEnqDone; ISupPause cx d (firstn c rem ++ skipn (S c) rem) (done ++ [to])]
          (push_mb (snd (resolve s to))
                   (fst (landing (fst (resolve s to)) {| e_sys := true; e_sender := RObj (self_of t); e_msg := MCmdPause |}))
                   (snd (landing (fst (resolve s to)) {| e_sys := true; e_sender := RObj (self_of t); e_msg := MCmdPause |}))).

Lemma tmove_quiet s t m i pre s1 : tmove s t m i pre s1 -> quiet s s1.
Proof.
  intros []; try apply quiet_refl; try apply quiet_set_paused; try apply quiet_resolve; try apply quiet_push_mb;
    (eapply quiet_trans; [apply quiet_resolve|apply quiet_push_mb]).
Qed.

Lemma tmove_same_pc s t m i pre s1 : tmove s t m i pre s1 -> same_pc s s1.
Proof.
  intros []; try apply same_pc_refl; try apply same_pc_resolve; try apply same_pc_push_mb;
    try (apply same_pc_with_actor; intros; split; reflexivity);
    (eapply same_pc_trans; [apply same_pc_resolve|apply same_pc_push_mb]).
Qed.

Lemma foreign_set_paused s a v : foreign a s (set_paused s a v).
Proof. apply table_rel_with_actor; [exact lsame_refl|left; reflexivity]. Qed.

Lemma tmove_foreign s t m i pre s1 : tmove s t m i pre s1 -> foreign (self_of t) s s1.
Proof.
  intros []; try apply foreign_refl; try apply foreign_set_paused; try apply foreign_resolve; try apply foreign_push_mb;
    (eapply foreign_trans; [apply foreign_resolve|apply foreign_push_mb]).
Qed.

Lemma tmove_plain s t m i pre s1 : tmove s t m i pre s1 -> plain i = true /\ lf pre = [] /\ uzc pre = 0.
Proof. intros []; repeat split; try reflexivity; destruct (firstn c tos ++ skipn (S c) tos); reflexivity. Qed.

Lemma tmove_self s t m i pre s1 : tmove s t m i pre s1 -> mself m = self_of t.
Proof. intros []; reflexivity. Qed.

(** what [push_finish] asks of the new head *)
Lemma tmove_shape s t m i pre s1 :
  tmove s t m i pre s1 -> is_end i = false /\ no_end pre /\ (ext_instr i = true -> forallb ext_instr pre = true).
Proof.
  intros []; repeat split; try reflexivity; try discriminate;
    destruct (firstn c tos ++ skipn (S c) tos); reflexivity.
Qed.

Definition is_pop (m : micro) (a : aid) : Prop := m = MSysPop a \/ m = MLoadPaused a \/ m = MUserPop a.
Definition pop_rel (x : actor) (sq' uq' : list envelope) (co' : cons) : Prop :=
  (forall md, a_cons x <> CBusy md) /\
  ((match co' with CH e => [e] | _ => [] end ++ sq' = held x ++ a_sq x /\ uq' = a_uq x) \/
   (exists e, a_uq x = e :: uq' /\ held x = [] /\ co' = CH e /\ sq' = a_sq x)).

Inductive mcase (s : state) (m : micro) : Prop :=
| mc_idle : mstep s m = s \/ mstep s m = set_err s -> mcase s m
| mc_pop a x sq' uq' co' : is_pop m a -> get s a = Some x ->
    mstep s m = set_actor s a (set_mb x sq' uq' (a_paused x) co' (a_cur x)) -> pop_rel x sq' uq' co' -> mcase s m
| mc_handle a x e : m = MHandle a -> get s a = Some x -> a_cons x = CH e -> mcase s m
| mc_thread t i rest pre s1 : pend_of s t = i :: rest -> tmove s t m i pre s1 ->
    mstep s m = set_pend s1 t (pre ++ rest) -> mcase s m
| mc_astep t i rest : m = MAtomic t -> pend_of s t = i :: rest -> yielding i = false -> is_enq i = false ->
    mstep s m = astep s t i rest -> mcase s m.

Lemma mstep_mcase s m : mcase s m.
Proof.
  destruct m.
  - destruct (get s a) as [x|] eqn:Hg; [|apply mc_idle; right; cbn [mstep step]; rewrite Hg; reflexivity].
    destruct (a_cons x) eqn:Hc, (a_sq x) eqn:Hs; try (apply mc_idle; right; cbn [mstep step]; rewrite Hg, Hc, ?Hs; reflexivity);
      (eapply mc_pop; [left; reflexivity|exact Hg|cbn [mstep step]; rewrite Hg, Hc, Hs; reflexivity|]);
      (split; [intros md; congruence|left; unfold held; rewrite Hc, Hs; split; reflexivity]).
  - destruct (get s a) as [x|] eqn:Hg; [|apply mc_idle; right; cbn [mstep step]; rewrite Hg; reflexivity].
    destruct (a_cons x) eqn:Hc; try (apply mc_idle; right; cbn [mstep step]; rewrite Hg, Hc; reflexivity).
    eapply mc_pop; [right; left; reflexivity|exact Hg|cbn [mstep step]; rewrite Hg, Hc; reflexivity|].
    split; [intros md; congruence|left; unfold held; rewrite Hc; destruct (a_paused x); split; reflexivity].
  - destruct (get s a) as [x|] eqn:Hg; [|apply mc_idle; right; cbn [mstep step]; rewrite Hg; reflexivity].
    destruct (a_cons x) eqn:Hc, (a_uq x) eqn:Hs; try (apply mc_idle; right; cbn [mstep step]; rewrite Hg, Hc, ?Hs; reflexivity);
      (eapply mc_pop; [right; right; reflexivity|exact Hg|cbn [mstep step]; rewrite Hg, Hc, Hs; reflexivity|]);
      (split; [intros md; congruence|]).
    + left. unfold held. rewrite Hc, Hs. split; reflexivity.
    + right. exists e. unfold held. rewrite Hc, Hs. auto.
  - destruct (get s a) as [x|] eqn:Hg; [|apply mc_idle; right; cbn [mstep]; rewrite Hg; reflexivity].
    destruct (a_cons x) eqn:Hc; try (apply mc_idle; right; cbn [mstep]; rewrite Hg, Hc; reflexivity).
    apply (mc_handle s _ a x e eq_refl Hg Hc).
  - destruct (pend_of s t) as [|i rest] eqn:Hp; [apply mc_idle; right; cbn [mstep step]; rewrite Hp; reflexivity|].
    destruct i; try (apply mc_idle; right; cbn [mstep step]; rewrite Hp; reflexivity).
    + eapply mc_thread; [exact Hp|apply tm_push_r|cbn [mstep step]; rewrite Hp, deliver_eq; reflexivity].
    + eapply mc_thread; [exact Hp|apply tm_push_mb|cbn [mstep step]; rewrite Hp; reflexivity].
    + destruct (nth_error tos c) as [r|] eqn:Hn; [|apply mc_idle; right; cbn [mstep step]; rewrite Hp, Hn; reflexivity].
      eapply mc_thread; [exact Hp|apply tm_push_any; exact Hn|]. cbn [mstep step]. rewrite Hp, Hn.
      destruct (resolve s r) as [mb s1]. rewrite deliver_eq. cbn [fst snd].
      destruct (firstn c tos ++ skipn (S c) tos); reflexivity.
    + destruct (nth_error remaining c) as [r|] eqn:Hn; [|apply mc_idle; right; cbn [mstep step]; rewrite Hp, Hn; reflexivity].
      eapply mc_thread; [exact Hp|apply tm_push_sup; exact Hn|]. cbn [mstep step]. rewrite Hp, Hn.
      destruct (resolve s r) as [mb s1]. rewrite deliver_eq. reflexivity.
  - destruct (pend_of s t) as [|i rest] eqn:Hp; [apply mc_idle; right; cbn [mstep]; rewrite Hp; reflexivity|].
    destruct i; try (apply mc_idle; right; cbn [mstep]; rewrite Hp; reflexivity).
    eapply mc_thread; [exact Hp|apply tm_enqdone|cbn [mstep]; rewrite Hp; reflexivity].
  - destruct (pend_of s t) as [|i rest] eqn:Hp; [apply mc_idle; right; cbn [mstep]; rewrite Hp; reflexivity|].
    destruct i; try (apply mc_idle; right; cbn [mstep]; rewrite Hp; reflexivity).
    eapply mc_thread; [exact Hp|apply tm_pausest|cbn [mstep]; rewrite Hp; reflexivity].
  - destruct (pend_of s t) as [|i rest] eqn:Hp; [apply mc_idle; right; cbn [mstep]; rewrite Hp; reflexivity|].
    destruct i; try (apply mc_idle; right; cbn [mstep]; rewrite Hp; reflexivity).
    destruct (get s (self_of t)) as [x|] eqn:Hg; [|apply mc_idle; right; cbn [mstep]; rewrite Hp, Hg; reflexivity].
    destruct (a_paused x) eqn:Hpa.
    + eapply mc_thread; [exact Hp|eapply tm_resume1; eassumption|]. cbn [mstep]. rewrite Hp, Hg, Hpa.
      unfold set_paused. rewrite (with_actor_some _ _ _ _ Hg). reflexivity.
    + eapply mc_thread; [exact Hp|eapply tm_resume1_idle; eassumption|cbn [mstep]; rewrite Hp, Hg, Hpa; reflexivity].
  - destruct (pend_of s t) as [|i rest] eqn:Hp; [apply mc_idle; right; cbn [mstep]; rewrite Hp; reflexivity|].
    destruct i; try (apply mc_idle; right; cbn [mstep]; rewrite Hp; reflexivity).
    eapply mc_thread; [exact Hp|apply tm_resume2|cbn [mstep]; rewrite Hp; reflexivity].
  - destruct (pend_of s t) as [|i rest] eqn:Hp; [apply mc_idle; left; cbn [mstep]; rewrite Hp; reflexivity|].
    destruct (is_enq i) eqn:Hq.
    + destruct i; try discriminate Hq.
      eapply mc_thread; [exact Hp|apply tm_resolve|cbn [mstep]; rewrite Hp; reflexivity].
    + destruct (yielding i) eqn:Hy.
      * apply mc_idle. left. cbn [mstep]. rewrite Hp.
        destruct i; try discriminate Hy; try discriminate Hq; try reflexivity. destruct remaining; [discriminate Hy|reflexivity].
      * apply (mc_astep s _ t i rest eq_refl Hp Hy Hq). apply mstep_atomic_exec; assumption.
Qed.

Lemma is_pop_self m a : is_pop m a -> mself m = a.
Proof. intros [->|[->| ->]]; reflexivity. Qed.

Lemma mstep_handle s a x e :
  get s a = Some x -> a_cons x = CH e ->
  let r := dispatch (set_actor s a (busy x)) a (busy x) e in
  exists y, disp_frame (busy x) y /\ get (fst r) a = Some y /\
    actors (mstep s (MHandle a)) = upd (actors s) a (upd_pend y (snd r)) /\
    exts (mstep s (MHandle a)) = exts s /\ reg (mstep s (MHandle a)) = reg s.
Proof.
  intros Hg Hc. cbn [mstep]. rewrite Hg, Hc.
  assert (Hl : a < length (actors s)) by (eapply nth_error_lt; exact Hg).
  set (s0 := set_actor s a (busy x)).
  assert (Hg0 : get s0 a = Some (busy x)) by (apply get_set_same; exact Hl).
  destruct (dispatch_effect s0 a (busy x) e Hg0) as (y & Hdf & Ha & _ & _ & Hex & Hr & _).
  exists y. cbv zeta. destruct (dispatch s0 a (busy x) e) as [s1 ins]. cbn [fst snd] in *.
  assert (Hy : get s1 a = Some y).
  { unfold get. rewrite Ha. apply nth_upd_eq. unfold s0. cbn [set_actor actors]. rewrite upd_length. exact Hl. }
  split; [exact Hdf|split; [exact Hy|]]. rewrite (set_pend_TA _ _ _ _ Hy). cbn [set_actor actors exts reg].
  split; [rewrite Ha; unfold s0; cbn [set_actor actors]; rewrite !upd_upd; reflexivity|split; [exact Hex|exact Hr]].
Qed.

Lemma get_upd s s' a x y b : get s a = Some x -> actors s' = upd (actors s) a y -> get s' b = if Nat.eqb a b then Some y else get s b.
Proof.
  intros Hg Ha. unfold get. rewrite Ha. destruct (Nat.eqb_spec a b) as [<-|Hne].
  - apply nth_upd_eq. eapply nth_error_lt; exact Hg.
  - apply nth_upd_neq. exact Hne.
Qed.

Lemma get_upd_app s s' a x y news : get s a = Some x -> actors s' = upd (actors s) a y ++ news -> get s' a = Some y.
Proof.
  intros Hg Ha. assert (Hl : a < length (actors s)) by (eapply nth_error_lt; exact Hg).
  unfold get. rewrite Ha, nth_error_app1 by (rewrite upd_length; exact Hl). apply nth_upd_eq. exact Hl.
Qed.

Lemma mstep_cases s m :
  quiet s (mstep s m) \/
  (exists t i rest pre s1, pend_of s t = i :: rest /\ plain i = true /\ lf pre = [] /\ uzc pre = 0 /\ quiet s s1 /\
                            mself m = self_of t /\ mstep s m = set_pend s1 t (pre ++ rest)) \/
  (exists a x e, m = MHandle a /\ get s a = Some x /\ a_cons x = CH e) \/
  (exists t i rest, m = MAtomic t /\ pend_of s t = i :: rest /\ yielding i = false /\ is_enq i = false /\
                    mstep s m = astep s t i rest).
Proof.
  destruct (mstep_mcase s m) as [[E|E]|a x sq' uq' co' _ Hg E _|a x e -> Hg Hc|t i rest pre s1 Hp T E|t i rest -> Hp Hy Hq E].
  - left. rewrite E. apply quiet_refl.
  - left. rewrite E. apply quiet_same; reflexivity.
  - left. rewrite E. apply quiet_set_mb. exact Hg.
  - right; right; left. exists a, x, e. auto.
  - right; left. destruct (tmove_plain _ _ _ _ _ _ T) as (A & B & C). exists t, i, rest, pre, s1.
    split; [exact Hp|split; [exact A|split; [exact B|split; [exact C|split; [eapply tmove_quiet; exact T|split; [eapply tmove_self; exact T|exact E]]]]]].
  - right; right; right. exists t, i, rest. auto.
Qed.

Definition popped (t : tid) (x : actor) (rest : list instr) : actor := match t with TA _ => upd_pend x rest | TX _ => x end.
Definition pushed (t : tid) (y : actor) (l : list instr) : actor := match t with TA _ => upd_pend y l | TX _ => y end.

Lemma astep_table s t i rest x :
  get s (self_of t) = Some x -> pend_of s t = i :: rest ->
  let s0 := set_pend s t rest in
  let r := exec1 s0 t (held_of s0 t) i in
  get s0 (self_of t) = Some (popped t x rest) /\
  exists y news, local_upd i (popped t x rest) y /\ Forall is_new news /\
    actors (fst r) = upd (actors s0) (self_of t) y ++ news /\
    actors (astep s t i rest) = upd (actors s) (self_of t) (pushed t y (snd r ++ rest)) ++ news /\
    reg (astep s t i rest) = reg (fst r) /\ length (actors s0) = length (actors s) /\ reg s0 = reg s.
Proof.
  intros Hg Hp. cbv zeta.
  assert (Hl : self_of t < length (actors s)) by (eapply nth_error_lt; exact Hg).
  assert (Hg0 : get (set_pend s t rest) (self_of t) = Some (popped t x rest)).
  { destruct t as [a|j]; cbn [self_of popped] in *.
    - destruct (pend_of_TA_cons _ _ _ _ Hp) as (x0 & Hg0 & _). rewrite (set_pend_TA _ _ _ _ Hg). apply get_set_same. exact Hl.
    - unfold get. rewrite set_pend_TX_actors. exact Hg. }
  split; [exact Hg0|].
  set (s0 := set_pend s t rest) in *.
  assert (Hl0 : length (actors s0) = length (actors s)) by apply len_set_pend.
  assert (Ha0 : forall y, upd (actors s0) (self_of t) y = upd (actors s) (self_of t) y).
  { intros y. unfold s0. destruct t as [a|j]; cbn [self_of] in *.
    - rewrite (set_pend_TA _ _ _ _ Hg). cbn [set_actor actors]. apply upd_upd.
    - rewrite set_pend_TX_actors. reflexivity. }
  destruct (exec1_actors s0 t (held_of s0 t) i _ Hg0) as (y & news & Hy & Hnews & Ha).
  exists y, news. split; [exact Hy|]. split; [exact Hnews|]. split; [exact Ha|].
  unfold astep. fold s0. destruct (exec1 s0 t (held_of s0 t) i) as [s1 front] eqn:E. cbn [fst snd] in *.
  assert (Hg1 : get s1 (self_of t) = Some y).
  { unfold get. rewrite Ha. rewrite nth_error_app1 by (rewrite upd_length, Hl0; exact Hl). apply nth_upd_eq. rewrite Hl0. exact Hl. }
  split; [|split; [apply set_pend_reg|split; [exact Hl0|apply set_pend_reg]]].
  destruct t as [a|j]; cbn [self_of pushed] in *.
  - rewrite (pend_of_TA _ _ _ Hg1), (lu_pend _ _ _ Hy). cbn [popped upd_pend a_pend].
    rewrite (set_pend_TA _ _ _ _ Hg1). cbn [set_actor actors]. rewrite Ha, Ha0.
    rewrite upd_app_l by (rewrite upd_length; exact Hl). rewrite upd_upd. reflexivity.
  - rewrite set_pend_TX_actors, Ha, Ha0. reflexivity.
Qed.

Lemma astep_other s t i rest x b :
  get s (self_of t) = Some x -> pend_of s t = i :: rest -> b <> self_of t -> b < length (actors s) ->
  get (astep s t i rest) b = get s b.
Proof.
  intros Hg Hp Hne Hlt. destruct (astep_table s t i rest x Hg Hp) as (_ & y & news & _ & _ & _ & Ha & _).
  unfold get. rewrite Ha. rewrite nth_error_app1 by (rewrite upd_length; exact Hlt). apply nth_upd_neq. congruence.
Qed.

Lemma astep_no_self s t i rest : get s (self_of t) = None -> actors (astep s t i rest) = actors s.
Proof.
  intros Hg. assert (Hn : forall s', actors s' = actors s -> get s' (self_of t) = None) by (intros s' E; unfold get; rewrite E; exact Hg).
  assert (Ha : forall s' l, actors s' = actors s -> actors (set_pend s' t l) = actors s).
  { intros s' l E. destruct t as [a|j]; [|rewrite set_pend_TX_actors; exact E]. rewrite (set_pend_TA_none _ _ _ (Hn s' E)). exact E. }
  unfold astep. rewrite (exec1_none _ _ _ _ (Hn _ (Ha s rest eq_refl))). apply Ha. apply (Ha s rest eq_refl).
Qed.

Lemma foreign_mstep s m : foreign (mself m) s (mstep s m).
Proof.
  destruct (mstep_mcase s m) as [[E|E]|a x sq' uq' co' Hpop Hg E _|a x e -> Hg Hc|t i rest pre s1 Hp T E|t i rest -> Hp Hy Hq E].
  - rewrite E. apply foreign_refl.
  - rewrite E. apply foreign_same; reflexivity.
  - rewrite E, (is_pop_self m a Hpop). apply foreign_set_self.
  - destruct (mstep_handle s a x e Hg Hc) as (y & _ & _ & Ha & _).
    intros b xb Hb Hne. exists xb. split; [|apply lsame_refl]. rewrite (get_upd s _ a x _ b Hg Ha).
    destruct (Nat.eqb_spec a b); [cbn [mself] in Hne; congruence|exact Hb].
  - rewrite E, (tmove_self _ _ _ _ _ _ T). eapply foreign_trans; [eapply tmove_foreign; exact T|apply foreign_set_pend].
  - rewrite E. apply foreign_astep.
Qed.

Lemma mstep_new s m b x' : get s b = None -> get (mstep s m) b = Some x' -> is_new x'.
Proof.
  intros Hn Hg'.
  assert (Hsame : length (actors (mstep s m)) = length (actors s) -> is_new x').
  { intros Hl. rewrite (same_len_no_new s _ b Hl Hn) in Hg'. discriminate. }
  destruct (mstep_mcase s m) as [[E|E]|a x sq' uq' co' _ Hg E _|a x e -> Hg Hc|t i rest pre s1 Hp T E|t i rest -> Hp Hy Hq E].
  - apply Hsame. rewrite E. reflexivity.
  - apply Hsame. rewrite E. reflexivity.
  - apply Hsame. rewrite E. cbn. apply upd_length.
  - apply Hsame. destruct (mstep_handle s a x e Hg Hc) as (y & _ & _ & Ha & _). rewrite Ha. apply upd_length.
  - apply Hsame. rewrite E, len_set_pend. apply (tmove_quiet _ _ _ _ _ _ T).
  - destruct (get s (self_of t)) as [x|] eqn:Hg; [|apply Hsame; rewrite E, (astep_no_self _ _ _ _ Hg); reflexivity].
    destruct (astep_table s t i rest x Hg Hp) as (_ & y & news & _ & Hnews & _ & Ha & _). cbv zeta in Ha.
    rewrite E in Hg'. unfold get in Hg', Hn. rewrite Ha in Hg'. apply nth_error_None in Hn.
    rewrite nth_error_app2 in Hg' by (rewrite upd_length; exact Hn). apply nth_error_In in Hg'.
    rewrite Forall_forall in Hnews. auto.
Qed.

Lemma wf_mstep s m : wf s -> wf (mstep s m).
Proof.
  intros W.
  destruct (mstep_mcase s m) as [[E|E]|a x sq' uq' co' _ Hg E [Hnb _]|a x e -> Hg Hc|t i rest pre s1 Hp T E|t i rest -> Hp Hy Hq E].
  - rewrite E. exact W.
  - rewrite E. exact W.
  - rewrite E. apply wf_set_mb_idle; assumption.
  - destruct (mstep_handle s a x e Hg Hc) as (y & Hdf & _ & Ha & Hex & _). cbv zeta in Ha.
    split; [rewrite Ha|rewrite Hex; apply W]. apply Forall_upd; [apply W|]. apply pend_shape_iff. right.
    split; [exists (mode_top x); exact (df_cons _ _ Hdf)|apply dispatch_shape].
  - rewrite E. destruct (tmove_shape _ _ _ _ _ _ T) as (A & B & C).
    apply (push_finish s s1 t i rest pre W (tmove_same_pc _ _ _ _ _ _ T) Hp A B C).
  - rewrite E. unfold astep. destruct t as [a|j].
    + destruct (pend_of_TA_cons _ _ _ _ Hp) as (x & Hg & Hpx).
      destruct (iter_TA s a x i rest (held_of (set_pend s (TA a) rest) (TA a)) W Hg Hpx) as [W2 _]. cbv zeta in W2.
      destruct (exec1 _ _ _ _). exact W2.
    + destruct (pend_of_TX_cons _ _ _ _ Hp) as (ex & Hn & Hpx).
      destruct (iter_TX s j ex i rest (held_of (set_pend s (TX j) rest) (TX j)) W Hn Hpx) as [W2 _]. cbv zeta in W2.
      destruct (exec1 _ _ _ _). exact W2.
Qed.

Lemma wf_init' scs : wf (init_with scs). Proof. apply wf_init. Qed.

Lemma astep_TA_get s a x i rest :
  get s a = Some x -> a_pend x = i :: rest ->
  let r := exec1 (set_actor s a (upd_pend x rest)) (TA a) [] i in
  exists y, get (fst r) a = Some y /\ a_pend y = rest /\
            astep s (TA a) i rest = set_actor (fst r) a (upd_pend y (snd r ++ rest)).
Proof.
  intros Hg Hp. cbv zeta.
  assert (Hl : a < length (actors s)) by (eapply nth_error_lt; exact Hg).
  unfold astep. rewrite (set_pend_TA _ _ _ _ Hg). change (held_of _ (TA a)) with (@nil aid).
  set (s0 := set_actor s a (upd_pend x rest)).
  assert (Hg0 : get s0 a = Some (upd_pend x rest)) by (apply get_set_same; exact Hl).
  destruct (exec1_actors s0 (TA a) [] i _ Hg0) as (y & news & Hy & _ & Ha). cbn [self_of] in Ha.
  destruct (exec1 s0 (TA a) [] i) as [s1 front]. cbn [fst snd] in *.
  assert (Hg1 : get s1 a = Some y).
  { unfold get. rewrite Ha. rewrite nth_error_app1 by (rewrite upd_length; unfold s0; cbn; rewrite upd_length; exact Hl).
    apply nth_upd_eq. unfold s0; cbn; rewrite upd_length; exact Hl. }
  exists y. split; [exact Hg1|]. split; [exact (lu_pend _ _ _ Hy)|].
  rewrite (pend_of_TA _ _ _ Hg1), (lu_pend _ _ _ Hy). cbn [upd_pend a_pend].
  apply (set_pend_TA _ _ _ _ Hg1).
Qed.

Lemma lf_kill_children a x : lf (kill_children a x) = [] /\ uzc (kill_children a x) = 0.
Proof. unfold kill_children. destruct (a_children x); split; reflexivity. Qed.

Lemma dispatch_life s a x e :
  get s a = Some x -> (a_zombie x = true -> a_state x = Killed) ->
  exists y, get (fst (dispatch s a x e)) a = Some y /\
    a_zombie y = a_zombie x /\ a_children y = a_children x /\ a_pend y = a_pend x /\
    (a_state y = a_state x \/ (a_state x = Running /\ a_state y = Killing)) /\
    uzc (snd (dispatch s a x e)) = 0 /\
    (lf (snd (dispatch s a x e)) = [] \/ (exists p, lf (snd (dispatch s a x e)) = [IDoKill p]) \/
     (exists w, lf (snd (dispatch s a x e)) = [IOnKilled w])).
Proof.
  intros Hg Hz.
  assert (Hl : a < length (actors s)) by (eapply nth_error_lt; exact Hg).
  destruct (lf_kill_children a x) as [Hk1 Hk2].
  destruct (dispatch_cases s a x e) as [| |r _ []]; cbn [fst snd];
    (eexists; split; [first [exact Hg | apply (get_set_same s a _ Hl)]|]);
    cbn [a_zombie a_children a_pend a_state with_cur set_mb set_state set_restarting set_decisions set_watchers upd_local];
    (* the two programs that depend on [poison] / on the state of a context that is not Running *)
    try destruct poison; try match goal with Hs : a_state x <> Running |- _ => destruct (a_state x); [congruence| |] end;
    rewrite ?lf_app, ?uzc_app, ?(lf_cons_plain IResume1), ?(uzc_cons_plain IResume1), ?lf_app, ?uzc_app, ?Hk1, ?Hk2 by reflexivity;
    cbn; repeat split; auto; eauto 6.
Qed.

Lemma plain_front l : forallb plain l = true -> lf l = [] /\ uzc l = 0.
Proof.
  induction l as [|i l IH]; [split; reflexivity|]. cbn [forallb]. intros H. apply andb_true_iff in H. destruct H as [Hi Hl].
  apply andb_true_iff in Hi. destruct Hi as [H1 H2]. apply negb_true_iff in H1, H2. destruct (IH Hl) as [E1 E2].
  rewrite (lf_cons_plain _ _ H1), (uzc_cons_plain _ _ H2). auto.
Qed.

Lemma exec1_front_plain s t h i : plain i = true -> lf (snd (exec1 s t h i)) = [] /\ uzc (snd (exec1 s t h i)) = 0.
Proof. intros Hi. apply plain_front, exec1_front_all. intros x j _ Hj. revert Hi. destruct Hj; try reflexivity; discriminate. Qed.

Lemma exec1_plain_lc s t h i x :
  get s (self_of t) = Some x -> plain i = true ->
  exists y, get (fst (exec1 s t h i)) (self_of t) = Some y /\ a_state y = a_state x /\ a_zombie y = a_zombie x /\
            (a_state x = Killed -> a_children y = a_children x).
Proof.
  intros Hg Hi. destruct (spawn_dec i) as [[sp ->]|Hns].
  - destruct (exec1_spawn s t h sp x Hg) as [[code ->]|(Hst & _ & _ & g & s' & -> & Ha & _)]; cbn [fst].
    + exists x. auto.
    + eexists. split; [apply (get_upd_app s s' _ x _ _ Hg Ha)|]. cbn. repeat split; auto. intros Hk. contradiction.
  - destruct (exec1_local s t h i x Hg Hns) as (y & Hy & Ha & _). exists y. split; [rewrite (get_upd s _ _ x y _ Hg Ha), Nat.eqb_refl; reflexivity|].
    destruct (lu_state _ _ _ Hy) as [E1|[[-> _]|[-> _]]]; try discriminate Hi.
    destruct (lu_zombie _ _ _ Hy) as [E2|[[-> _]|[-> _]]]; try discriminate Hi.
    destruct (lu_children _ _ _ Hy) as [E3|[[sp ->]|[w ->]]]; [auto|exfalso; exact (Hns sp eq_refl)|discriminate Hi].
Qed.

Lemma linv_plain_step x y i front rest :
  a_pend x = i :: rest -> plain i = true -> lf front = [] -> uzc front = 0 ->
  a_state y = a_state x -> a_zombie y = a_zombie x -> (a_state x = Killed -> a_children y = a_children x) ->
  a_pend y = front ++ rest -> linv x -> linv y.
Proof.
  unfold linv, life_ok, plain. intros Hp Hpl Hf Hz Hs Hzo Hc Hpy (L1 & L2 & L3 & L4 & L5).
  apply andb_true_iff in Hpl. destruct Hpl as [Hl Hu]. apply negb_true_iff in Hl, Hu.
  rewrite Hp in *. rewrite (lf_cons_plain _ _ Hl), (uzc_cons_plain _ _ Hu) in *.
  rewrite Hpy, Hs, Hzo, lf_app, uzc_app, Hf, Hz. cbn [app plus].
  repeat split; auto. intros Hk. rewrite (Hc Hk). auto.
Qed.

Lemma life_plain_cases i : plain i = true \/ life i = true \/ i = IUnzombie.
Proof. destruct i; cbn; auto. Qed.

Lemma astep_ltrans s a x rest i :
  get s a = Some x -> life i = true \/ i = IUnzombie ->
  exists y front, ltrans s a x rest i y front /\ get (astep s (TA a) i rest) a = Some (upd_pend y (front ++ rest)).
Proof. intros Hg Hli. apply (astep_life s a x rest Hg). destruct Hli as [Hli| ->]; [destruct i; try discriminate Hli|]; exact I. Qed.

Lemma linv_astep_TA s a x i rest :
  get s a = Some x -> a_pend x = i :: rest -> linv x ->
  exists x', get (astep s (TA a) i rest) a = Some x' /\ linv x'.
Proof.
  intros Hg Hp Hinv.
  assert (Hl : a < length (actors s)) by (eapply nth_error_lt; exact Hg).
  destruct (life_plain_cases i) as [Hpl|Hli].
  - destruct (astep_TA_get s a x i rest Hg Hp) as (y & Hy & Hpy & ->). cbv zeta in *.
    assert (Hg0 : get (set_actor s a (upd_pend x rest)) a = Some (upd_pend x rest)) by (apply get_set_same; exact Hl).
    eexists. split; [apply get_set_same; eapply nth_error_lt; exact Hy|].
    destruct (exec1_plain_lc _ (TA a) [] i _ Hg0 Hpl) as (y' & Hy' & Hs & Hz & Hc). cbn [self_of] in Hy'.
    rewrite Hy in Hy'. inversion Hy'; subst y'. destruct (exec1_front_plain (set_actor s a (upd_pend x rest)) (TA a) [] i Hpl) as [Hf Hu].
    eapply (linv_plain_step x _ i _ rest Hp Hpl Hf Hu); [exact Hs|exact Hz|exact Hc|reflexivity|exact Hinv].
  - destruct (astep_ltrans s a x rest i Hg Hli) as (y & front & L & E).
    eexists. split; [exact E|]. destruct Hinv as (L1 & L2 & L3 & L4 & L5). unfold life_ok in L5. rewrite Hp in L3, L4, L5.
    rewrite lf_cons in L5. rewrite uzc_cons in L3, L4, L5.
    (* projected through [upd_pend] while [y] is a variable: on the concrete nested updates of the cases the kernel would
       compare the arguments of the projections first, which is exponential *)
    unfold linv, life_ok. cbn [upd_pend a_pend a_state a_zombie a_children]. rewrite lf_app, uzc_app.
    destruct L as [p|w Hz|w Hz Hr|w Hz Hr|Hidle|Hc Hs| |Hok|Hok| ]; cbn [life is_unzombie plus] in L3, L4, L5;
      cbn [a_state a_zombie a_children set_children set_zombie upd_local marked set_mb set_state];
      try (destruct (lf rest) eqn:Hlr; [|contradiction]);
      rewrite ?lf_app, ?lf_cons, ?uzc_app, ?uzc_cons; cbn [life is_unzombie plus app lf uzc filter length].
    + assert (Hk : forall l : list instr, l = [] \/ (exists j, l = [j] /\ life j = false /\ is_unzombie j = false) -> lf l = [] /\ uzc l = 0)
        by (intros l [-> |(j & -> & H1 & H2)]; [split; reflexivity|rewrite lf_cons, uzc_cons, H1, H2; split; reflexivity]).
      match goal with |- context[lf ?l] => destruct (Hk l) as [-> ->]; [destruct (a_children x); [left; reflexivity|right; eexists; repeat split]|] end.
      cbn [app plus]. repeat split; auto.
    + rewrite Hz. repeat split; auto; lia.
    + repeat split; auto.
    + repeat split; auto. intros Hk. specialize (L2 Hk). unfold drop_child. rewrite L2.
      destruct w; try reflexivity. destruct (ref_path _ _); reflexivity.
    + repeat split; auto.
    + rewrite Hc. assert (Hzf : a_zombie x = false) by (destruct (a_zombie x); [specialize (L1 eq_refl); congruence|reflexivity]).
      destruct (a_restarting x); cbn [lf uzc filter life is_unzombie length plus]; rewrite Hzf, L5; repeat split; auto; discriminate.
    + destruct (lf_cleanup a x) as [-> ->]. cbn [app plus]. repeat split; auto.
    + destruct L5 as (Hk & Hzf & Hu). assert (Hzr : a_zombie (restarted x) = false) by (unfold restarted; destruct (sp_provider (a_spec x)); exact Hzf).
      assert (Hsr : a_state (restarted x) = Running) by (unfold restarted; destruct (sp_provider (a_spec x)); reflexivity).
      rewrite Hzr, Hsr, Hu. repeat split; auto; try discriminate; lia.
    + destruct L5 as (Hk & Hzf & Hu).
      assert (Hf : a_zombie (zombied x) = true /\ a_state (zombied x) = Killed /\ a_children (zombied x) = a_children x)
        by (unfold zombied; destruct (sp_provider (a_spec x)); repeat split; exact Hk).
      destruct Hf as (-> & -> & ->). rewrite Hu. repeat split; auto; lia.
    + assert (Hur : uzc rest = 0) by lia. rewrite Hur. repeat split; auto; try discriminate; try lia.
      destruct (lf rest) as [|j [|j2 l2]]; auto. destruct j; auto; try (destruct L5; discriminate); try discriminate;
        try (destruct L5 as [Hk _]; split; [exact Hk|discriminate]); try (destruct L5 as (_ & _ & E0); discriminate).
Qed.

Lemma linv_lc x y :
  a_state y = a_state x -> a_zombie y = a_zombie x -> (a_state x = Killed -> a_children y = a_children x) ->
  a_pend y = a_pend x -> linv x -> linv y.
Proof.
  unfold linv, life_ok. intros Hs Hz Hc Hp (L1 & L2 & L3 & L4 & L5). rewrite Hs, Hz, Hp.
  repeat split; auto. intros Hk. rewrite (Hc Hk). auto.
Qed.

Lemma ext_instr_plain i : ext_instr i = true -> plain i = true.
Proof. destruct i; try discriminate; reflexivity. Qed.

Lemma linv_set_pend_TA s1 a x y1 i rest pre :
  get s1 a = Some y1 -> a_pend x = i :: rest -> plain i = true -> lf pre = [] -> uzc pre = 0 ->
  a_state y1 = a_state x -> a_zombie y1 = a_zombie x -> a_children y1 = a_children x ->
  linv x -> exists x', get (set_pend s1 (TA a) (pre ++ rest)) a = Some x' /\ linv x'.
Proof.
  intros Hg1 Hp Hpl Hf Hu Hs Hz Hc Hinv. rewrite (set_pend_TA _ _ _ _ Hg1).
  eexists. split; [apply (get_set_same' _ _ _ _ Hg1)|].
  eapply (linv_plain_step x _ i pre rest Hp Hpl Hf Hu); [exact Hs|exact Hz|intros _; exact Hc|reflexivity|exact Hinv].
Qed.

Definition LI (s : state) : Prop := forall a x, get s a = Some x -> linv x.

Lemma lsame_get_fields x y : lsame x y -> a_state y = a_state x /\ a_zombie y = a_zombie x /\ a_children y = a_children x /\ a_pend y = a_pend x.
Proof. intros ->. cbn. auto. Qed.

Lemma linv_soft x y : soft x y -> linv x -> linv y.
Proof. intros (A & B & C & D & _). apply linv_lc; auto. Qed.

Lemma linv_thread_plain s s1 t b x x' i rest pre :
  LI s -> softT s s1 -> pend_of s t = i :: rest -> plain i = true -> lf pre = [] -> uzc pre = 0 ->
  get s b = Some x -> get (set_pend s1 t (pre ++ rest)) b = Some x' -> linv x'.
Proof.
  intros I Hs Hp Hpl Hf Hu Hg Hg'. destruct (softT_get _ _ _ _ Hs Hg) as (y1 & Hg1 & Hsoft).
  destruct t as [a|j].
  - destruct (Nat.eq_dec a b) as [->|Hne].
    + destruct (pend_of_TA_cons _ _ _ _ Hp) as (x0 & Hg0 & Hpx). rewrite Hg in Hg0. inversion Hg0; subst x0.
      destruct Hsoft as (A & B & C & D & _).
      destruct (linv_set_pend_TA s1 b x y1 i rest pre Hg1 Hpx Hpl Hf Hu A B C (I _ _ Hg)) as (x'' & Hx'' & Hl). congruence.
    + assert (E : get (set_pend s1 (TA a) (pre ++ rest)) b = get s1 b).
      { cbn [set_pend]. unfold with_actor. destruct (get s1 a); [apply get_set_other; exact Hne|reflexivity]. }
      rewrite E in Hg'. assert (x' = y1) by congruence; subst. eapply linv_soft; [exact Hsoft|apply (I _ _ Hg)].
  - assert (E : get (set_pend s1 (TX j) (pre ++ rest)) b = get s1 b) by (unfold get; rewrite set_pend_TX_actors; reflexivity).
    rewrite E in Hg'. assert (x' = y1) by congruence; subst. eapply linv_soft; [exact Hsoft|apply (I _ _ Hg)].
Qed.

Lemma LI_softT s s' b x x' : LI s -> softT s s' -> get s b = Some x -> get s' b = Some x' -> linv x'.
Proof.
  intros I Hs Hg Hg'. destruct (softT_get _ _ _ _ Hs Hg) as (y & Hy & Hsoft). assert (x' = y) by congruence; subst.
  eapply linv_soft; [exact Hsoft|apply (I _ _ Hg)].
Qed.

Lemma ext_head s j i rest : wf s -> pend_of s (TX j) = i :: rest -> ext_instr i = true.
Proof.
  intros [_ HX] Hp. destruct (pend_of_TX_cons _ _ _ _ Hp) as (ex & Hn & Hpx).
  pose proof (Forall_nth _ _ _ _ HX Hn) as Hok. cbv beta in Hok. rewrite Hpx in Hok. cbn [forallb] in Hok.
  apply andb_true_iff in Hok. apply Hok.
Qed.
Lemma ext_head_plain s j i rest : wf s -> pend_of s (TX j) = i :: rest -> plain i = true.
Proof. intros W Hp. apply ext_instr_plain. apply (ext_head s j i rest W Hp). Qed.

Theorem LI_mstep s m : wf s -> LI s -> LI (mstep s m).
Proof.
  intros W I b x' Hg'.
  destruct (get s b) as [x|] eqn:Hg; [|apply linv_new; eapply mstep_new; eauto].
  destruct (mstep_cases s m) as [Hq|[(t & i & rest & pre & s1 & Hp & Hpl & Hf & Hu & Hq & _ & E)|[(a & xa & e & -> & Hga & Hc)|(t & i & rest & -> & Hp & Hy & Hq & E)]]].
  - eapply LI_softT; [exact I|apply Hq|exact Hg|exact Hg'].
  - rewrite E in Hg'. eapply (linv_thread_plain s s1 t b x x' i rest pre I); eauto. apply Hq.
  - destruct (mstep_handle s a xa e Hga Hc) as (y & _ & Hy & Ha & _). cbv zeta in *.
    pose proof (I _ _ Hga) as (L1 & L2 & L3 & L4 & L5).
    assert (Hg0 : get (set_actor s a (busy xa)) a = Some (busy xa)) by apply (get_set_same' _ _ _ _ Hga).
    destruct (dispatch_life _ a (busy xa) e Hg0 L1) as (y' & Hy' & Hz & Hch & Hpd & Hst & Hu & Hlf).
    rewrite Hy in Hy'. inversion Hy'; subst y'. rewrite (get_upd s _ a xa _ b Hga Ha) in Hg'.
    destruct (Nat.eqb_spec a b) as [<-|Hne]; [|assert (x' = x) by congruence; subst; apply (I _ _ Hg)].
    inversion Hg'; subst x'. assert (xa = x) by congruence; subst xa.
    unfold linv, life_ok. cbn [upd_pend a_state a_zombie a_children a_pend busy set_mb] in *. rewrite Hu, Hz, Hch.
    assert (Hk : a_state y = Killed -> a_state x = Killed) by (destruct Hst as [->|[_ ->]]; [auto|discriminate]).
    repeat split; auto; try lia; try discriminate.
    + intros Hzo. specialize (L1 Hzo). destruct Hst as [->|[E _]]; [exact L1|congruence].
    + destruct Hlf as [->|[[p ->]|[w ->]]]; auto.
  - rewrite E in Hg'. destruct (Nat.eq_dec b (self_of t)) as [->|Hne].
    + destruct t as [a|j]; cbn [self_of] in *.
      * destruct (pend_of_TA_cons _ _ _ _ Hp) as (x0 & Hg0 & Hpx). rewrite Hg in Hg0. inversion Hg0; subst x0.
        destruct (linv_astep_TA s a x i rest Hg Hpx (I _ _ Hg)) as (x'' & Hx'' & Hl). congruence.
      * pose proof (ext_head_plain s j i rest W Hp) as Hi.
        destruct (astep_table s (TX j) i rest x Hg Hp) as (Hg0 & y & news & Hyl & _ & Ha1 & Ha & _). cbv zeta in *. cbn [self_of popped pushed] in *.
        destruct (exec1_plain_lc _ (TX j) (held_of (set_pend s (TX j) rest) (TX j)) i x Hg0 Hi) as (y' & Hy' & Hs & Hz & Hc). cbn [self_of] in Hy'.
        assert (Hl0 : 0 < length (actors (set_pend s (TX j) rest))) by (eapply nth_error_lt; exact Hg0).
        unfold get in Hy', Hg'. rewrite Ha1, nth_error_app1, nth_upd_eq in Hy' by (rewrite ?upd_length; exact Hl0). inversion Hy'; subst y'.
        assert (Hl : 0 < length (actors s)) by (eapply nth_error_lt; exact Hg).
        rewrite Ha, nth_error_app1, nth_upd_eq in Hg' by (rewrite ?upd_length; exact Hl). inversion Hg'; subst x'.
        eapply linv_lc; [exact Hs|exact Hz|exact Hc|exact (lu_pend _ _ _ Hyl)|apply (I _ _ Hg)].
    + destruct (foreign_astep s t i rest b x Hg Hne) as (y & Hy' & Hls). assert (x' = y) by congruence; subst.
      eapply linv_lsame; [exact Hls|apply (I _ _ Hg)].
Qed.

Lemma LI_init scs : LI (init_with scs).
Proof. intros a x Hg. destruct (get_init scs a x Hg) as [_ ->]. apply linv_new. do 4 eexists. reflexivity. Qed.

Theorem linv_reachable s a x : reachable s -> get s a = Some x -> linv x.
Proof.
  intros Hr. revert a x. change (LI s). revert s Hr.
  apply (micro_invariant_with wf LI); [apply wf_init|intros; apply wf_mstep; assumption|apply LI_init|intros; apply LI_mstep; assumption].
Qed.
