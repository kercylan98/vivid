(** C09: where a Pause comes from.  Together with [paused_step] (the flag is written only by the mailbox's own
    Pause / Resume words) this says: an actor's mailbox is paused only by Context.failed, by an escalating
    applyDecision, or by a CommandPauseMailbox it handles - and each of the first two is followed, in the same
    instruction list, by exactly one supervision report to the parent. *)
From Coq Require Import List Bool Arith.
From Vivid Require Import Actor.Core Actor.CoreRun Actor.SpecMail Actor.ProofsMailBase Actor.ProofsMail Actor.ProofsMailInv.
Import ListNotations.

Definition is_pause (i : instr) : bool := match i with IPauseSt => true | _ => false end.
Definition no_pause (l : list instr) : Prop := forallb (fun i => negb (is_pause i)) l = true.

Lemma no_pause_not_in l : no_pause l -> ~ In IPauseSt l.
Proof.
  unfold no_pause. intros H Hin. rewrite forallb_forall in H. specialize (H _ Hin). discriminate H.
Qed.

Lemma dispatch_pause_sites s a x e : In IPauseSt (snd (dispatch s a x e)) -> e_msg e = MCmdPause.
Proof.
  intros Hin. destruct (dispatch_cases s a x e) as [| |r _ []]; try assumption;
    exfalso; revert Hin; apply no_pause_not_in; try reflexivity; unfold kill_children.
  - destruct poison, (a_children x); reflexivity.
  - destruct (a_state x), (a_children x); reflexivity.
Qed.

Lemma paused_step_explicit s ev b :
  err (step s ev) = false ->
  paused_at (step s ev) b =
  match ev with
  | EvPauseSt t => if Nat.eqb (self_of t) b then true else paused_at s b
  | EvResume1 t => if Nat.eqb (self_of t) b then false else paused_at s b
  | _ => paused_at s b
  end.
Proof.
  intros He. rewrite (paused_step s ev b He). unfold own_pause_word.
  destruct ev; try reflexivity; destruct (Nat.eqb (self_of t) b); reflexivity.
Qed.

Lemma exec1_pause_sites_explicit s t h i :
  In IPauseSt (snd (exec1 s t h i)) ->
  i = IFailed \/ exists c d targets, i = ISupApply c d targets /\ (d = DEscalate \/ d = DInvalid).
Proof.
  intros H. destruct (get s (self_of t)) as [x|] eqn:Hg; [|rewrite (exec1_none _ _ _ _ Hg) in H; destruct H].
  apply (exec1_emits _ _ _ _ _ _ Hg) in H. remember IPauseSt as j eqn:Ej in H. destruct H; try discriminate Ej; eauto 6.
Qed.
