(** Termination notices are only ever in flight for contexts that have released their path: every
    [MKilled (RObj c)] anywhere in the state (queues, hands, stash, current envelope, pending sends, pending
    IOnKilled) names a context c that is no longer registered - except a context's own notice kept locally. *)
From Coq Require Import List NArith ZArith Bool Lia Arith.
From Vivid Require Import Actor.Core Actor.CoreRun Actor.SpecMail Actor.ProofsMailBase Actor.ProofsMail Actor.ProofsMailInv
  Actor.ProofsMailWf Actor.ProofsMailAcct Actor.ProofsMailReg Actor.ProofsMailMicro Actor.ProofsMailLife Actor.ProofsMailStep
  Actor.ProofsMailTree.
Import ListNotations.

Definition idrel (x y : actor) : Prop := a_path y = a_path x /\ a_parent y = a_parent x /\ a_spec y = a_spec x.
Definition idT (s s' : state) : Prop := table_rel idrel (fun _ => False) s s'.

Lemma idT_of_softT s s' : softT s s' -> idT s s'.
Proof. intros H b x Hg Hs. destruct (H b x Hg Hs) as (y & Hy & (_ & _ & _ & _ & P1 & P2 & _ & P3)). exists y. repeat split; assumption. Qed.

Lemma idT_set_pend s t l : idT s (set_pend s t l).
Proof.
  destruct t as [a|j]; [|apply table_rel_same_actors; [intros; repeat split|apply set_pend_TX_actors]].
  unfold set_pend. apply table_rel_with_actor; [intros; repeat split|right; intros; repeat split].
Qed.
Lemma idT_trans a b c : idT a b -> idT b c -> idT a c.
Proof. apply table_rel_trans. intros x y z (A & B & C) (D & E & F). repeat split; congruence. Qed.

Lemma idT_astep s t i rest : pend_of s t = i :: rest -> idT s (astep s t i rest).
Proof.
  intros Hp b xb Hb _. destruct (get s (self_of t)) as [x|] eqn:Hg.
  - destruct (astep_table s t i rest x Hg Hp) as (_ & y & news & Hy & _ & _ & Ha & _). cbv zeta in Ha.
    unfold get. rewrite Ha, nth_error_app1 by (rewrite upd_length; eapply nth_error_lt; exact Hb).
    destruct (Nat.eq_dec (self_of t) b) as [<-|Hne].
    + rewrite nth_upd_eq by (eapply nth_error_lt; exact Hg). eexists. split; [reflexivity|]. assert (xb = x) by congruence; subst.
      unfold idrel. destruct t; cbn [pushed popped upd_pend a_path a_parent a_spec] in *; rewrite (lu_path _ _ _ Hy), (lu_parent _ _ _ Hy), (lu_spec _ _ _ Hy); repeat split.
    + rewrite nth_upd_neq by exact Hne. exists xb. split; [exact Hb|repeat split].
  - exists xb. unfold get. rewrite (astep_no_self _ _ _ _ Hg). split; [exact Hb|repeat split].
Qed.

Lemma idT_mstep s m : idT s (mstep s m).
Proof.
  destruct (mstep_cases s m) as [Hq|[(t & i & rest & pre & s1 & Hp & Hpl & Hf & Hu & Hq & _ & E)|[(a & x & e & -> & Hg & Hc)|(t & i & rest & -> & Hp & Hy & Hq & E)]]].
  - apply idT_of_softT. apply Hq.
  - rewrite E. eapply idT_trans; [apply idT_of_softT; apply Hq|apply idT_set_pend].
  - destruct (mstep_handle s a x e Hg Hc) as (y & Hdf & _ & Ha & _). intros b xb Hb _. rewrite (get_upd s _ a x _ b Hg Ha).
    destruct (Nat.eqb_spec a b) as [<-|Hne]; [|exists xb; split; [exact Hb|repeat split]].
    eexists. split; [reflexivity|]. assert (xb = x) by congruence; subst.
    unfold idrel. cbn [upd_pend a_path a_parent a_spec]. rewrite (df_path _ _ Hdf), (df_parent _ _ Hdf), (df_spec _ _ Hdf). repeat split.
  - rewrite E. apply idT_astep. exact Hp.
Qed.

Lemma cache_set_pend s t l c y' : get (set_pend s t l) c = Some y' -> exists y, get s c = Some y /\ a_cache y' = a_cache y.
Proof.
  destruct t as [a|j]; intros H.
  - destruct (get s a) as [x|] eqn:E.
    + rewrite (set_pend_TA _ _ _ _ E) in H. destruct (Nat.eq_dec a c) as [->|Hne].
      * rewrite (get_set_same' _ _ _ _ E) in H. inversion H; subst. exists x. split; [exact E|reflexivity].
      * rewrite get_set_other in H by exact Hne. exists y'. split; [exact H|reflexivity].
    + rewrite (set_pend_TA_none _ _ _ E) in H. exists y'. split; [exact H|reflexivity].
  - unfold get in H. rewrite set_pend_TX_actors in H. exists y'. split; [exact H|reflexivity].
Qed.

Lemma crel_mstep s m c xc xc' : get s c = Some xc -> get (mstep s m) c = Some xc' -> crel s xc xc'.
Proof.
  intros Hg Hg'.
  destruct (mstep_cases s m) as [Hq|[(t & i & rest & pre & s1 & Hp & Hpl & Hf & Hu & Hq & _ & E)|[(a & xa & e & -> & Hga & Hca)|(t & i & rest & -> & Hp & Hyl & Hq & E)]]].
  - apply (proj2 (proj2 (proj2 (proj2 Hq))) c xc xc' Hg Hg').
  - rewrite E in Hg'. destruct (cache_set_pend _ _ _ _ _ Hg') as (y & Hy & Ey). unfold crel. rewrite Ey.
    apply (proj2 (proj2 (proj2 (proj2 Hq))) c xc y Hg Hy).
  - left. destruct (mstep_handle s a xa e Hga Hca) as (y & Hdf & _ & Ha & _). rewrite (get_upd s _ a xa _ c Hga Ha) in Hg'.
    destruct (Nat.eqb_spec a c) as [->|Hne]; [|congruence]. inversion Hg'; subst xc'. cbn [upd_pend a_cache]. rewrite (df_cache _ _ Hdf). cbn [busy set_mb a_cache]. congruence.
  - left. rewrite E in Hg'. destruct (get s (self_of t)) as [x|] eqn:Hgs.
    + destruct (Nat.eq_dec c (self_of t)) as [->|Hne].
      * destruct (astep_table s t i rest x Hgs Hp) as (_ & y & news & Hy & _ & _ & Ha & _). cbv zeta in *.
        unfold get in Hg'. rewrite Ha in Hg'. rewrite nth_error_app1 in Hg' by (rewrite upd_length; eapply nth_error_lt; exact Hgs).
        rewrite nth_upd_eq in Hg' by (eapply nth_error_lt; exact Hgs). inversion Hg'; subst xc'.
        assert (x = xc) by congruence; subst x. destruct t; cbn [pushed popped upd_pend a_cache] in *; apply (lu_cache _ _ _ Hy).
      * rewrite (astep_other s t i rest x c Hgs Hp Hne) in Hg' by (eapply nth_error_lt; exact Hg). congruence.
    + unfold get in Hg'. rewrite (astep_no_self _ _ _ _ Hgs) in Hg'. unfold get in Hg. congruence.
Qed.

Lemma reg_mstep s m :
  reg (mstep s m) = reg s \/ (exists p, reg (mstep s m) = aremove (reg s) p) \/
  (exists p, reg (mstep s m) = reg s ++ [(p, length (actors s))]).
Proof.
  destruct (mstep_cases s m) as [Hq|[(t & i & rest & pre & s1 & Hp & Hpl & Hf & Hu & Hq & _ & E)|[(a & x & e & -> & Hg & Hc)|(t & i & rest & -> & Hp & Hy & Hq & E)]]].
  - left. apply Hq.
  - left. rewrite E, set_pend_reg. apply Hq.
  - left. destruct (mstep_handle s a x e Hg Hc) as (y & _ & _ & _ & _ & Hr). exact Hr.
  - rewrite E. destruct (get s (self_of t)) as [x|] eqn:Hg.
    + destruct (astep_table s t i rest x Hg Hp) as (Hg0 & y & news & _ & _ & _ & _ & Hr & Hl0 & Hr0). cbv zeta in *.
      rewrite Hr. destruct (spawn_dec i) as [[sp ->]|Hns].
      * destruct (exec1_spawn _ t (held_of (set_pend s t rest) t) sp _ Hg0) as [[code ->]|(_ & _ & _ & g & s' & -> & _ & Hrs & _)]; cbn [fst];
          [left; exact Hr0|right; right; rewrite Hrs, Hr0, Hl0; eexists; reflexivity].
      * destruct (exec1_local _ t (held_of (set_pend s t rest) t) i _ Hg0 Hns) as (y2 & _ & _ & _ & _ & -> & _). rewrite Hr0.
        destruct i; auto. right; left. eexists. reflexivity.
    + left. unfold astep.
      assert (Hg0 : get (set_pend s t rest) (self_of t) = None).
      { unfold get in *. apply nth_error_None. rewrite len_set_pend. apply nth_error_None. exact Hg. }
      rewrite (exec1_none _ _ _ _ Hg0). rewrite set_pend_reg. cbn [set_err reg]. apply set_pend_reg.
Qed.

Definition unreg (s : state) (c : aid) : Prop := exists xc, get s c = Some xc /\ ~ regd s c xc.

Lemma unreg_mono s m c : unreg s c -> unreg (mstep s m) c.
Proof.
  intros (xc & Hg & Hn). destruct (idT_mstep s m c xc Hg ltac:(tauto)) as (xc' & Hg' & Hp & _).
  exists xc'. split; [exact Hg'|]. intros Hreg. apply Hn. unfold regd in *. rewrite Hp in Hreg.
  destruct (reg_mstep s m) as [E|[(p & E)|(p & E)]]; rewrite E in Hreg.
  - exact Hreg.
  - apply alookup_aremove in Hreg. exact Hreg.
  - apply alookup_app_one in Hreg. destruct Hreg as [H|[_ H]]; [exact H|]. apply nth_error_lt in Hg. lia.
Qed.

Definition envs (x : actor) : list envelope :=
  a_sq x ++ a_uq x ++ held x ++ a_stash x ++ match a_cur x with Some e => [e] | None => [] end.

Lemma Forall_map_IAct (P : instr -> Prop) l : (forall a, P (IAct a)) -> Forall P (map IAct l).
Proof. intros H. induction l; cbn; constructor; auto. Qed.
Lemma Forall_skipn {A} (P : A -> Prop) n l : Forall P l -> Forall P (skipn n l).
Proof. intros H. revert n. induction H; intros [|n]; cbn [skipn]; auto; constructor; auto. Qed.

Lemma envs_ok_iff (P : envelope -> Prop) x :
  Forall P (envs x) <-> Forall P (a_sq x) /\ Forall P (a_uq x) /\ Forall P (held x) /\ Forall P (a_stash x) /\
                        (forall e, a_cur x = Some e -> P e).
Proof.
  unfold envs. rewrite !Forall_app. split.
  - intros (A & B & C & D & E). repeat split; auto. intros e He. rewrite He in E. inversion E; auto.
  - intros (A & B & C & D & E). repeat split; auto. destruct (a_cur x); [constructor; [auto|constructor]|constructor].
Qed.

Lemma envs_upd_pend x l : envs (upd_pend x l) = envs x. Proof. reflexivity. Qed.
Lemma envs_popped t x rest : envs (popped t x rest) = envs x. Proof. destruct t; reflexivity. Qed.

Lemma push_mb_get s a x e : get s a = Some x ->
  push_mb s a e = set_actor s a (set_mb x (if e_sys e then a_sq x ++ [e] else a_sq x) (if e_sys e then a_uq x else a_uq x ++ [e]) (a_paused x) (a_cons x) (a_cur x)).
Proof. intros Hg. unfold push_mb. rewrite (with_actor_some _ _ _ _ Hg). reflexivity. Qed.

(** the envelopes a context makes for itself: its own termination notice, the launch of a completed restart *)
Definition own_env (self : aid) (e : envelope) : Prop := e_msg e = MKilled (RObj self) \/ e_msg e = MLaunch.

Lemma exec1_own s t h i x :
  get s (self_of t) = Some x ->
  exists y, get (fst (exec1 s t h i)) (self_of t) = Some y /\
    a_sq y = a_sq x /\ a_uq y = a_uq x /\ (held y = held x \/ held y = []) /\
    (a_stash y = a_stash x \/ (exists e, i = IAct AStash /\ a_cur x = Some e /\ a_stash y = a_stash x ++ [e]) \/
     exists k, a_stash y = skipn k (a_stash x)) /\
    (a_cur y = a_cur x \/ exists e, a_cur y = Some e /\ own_env (self_of t) e).
Proof.
  intros Hg. destruct (exec1_get_self s t h i x Hg) as (y & Hy & Hl). exists y. split; [exact Hy|].
  destruct (exec1_own_mail s t h i x y Hg Hy) as [Hst Hcur].
  split; [apply (lu_sq _ _ _ Hl)|split; [apply (lu_uq _ _ _ Hl)|split; [|split]]].
  - unfold held. destruct (lu_cons _ _ _ Hl) as [-> |[[_ ->]|[_ ->]]]; auto.
  - destruct Hst as [E|[E|(n & _ & E)]]; eauto.
  - destruct Hcur as [E|[[_ E]|[_ E]]]; [auto| |]; right; eexists; (split; [exact E|]); [left|right]; reflexivity.
Qed.

Lemma exec1_envs (P : envelope -> Prop) s t h i x :
  (forall e, own_env (self_of t) e -> P e) -> get s (self_of t) = Some x -> Forall P (envs x) ->
  exists y, get (fst (exec1 s t h i)) (self_of t) = Some y /\ Forall P (envs y).
Proof.
  intros Hown Hg Hok. destruct (exec1_own s t h i x Hg) as (y & Hy & Esq & Euq & Eh & Est & Ecur). exists y. split; [exact Hy|].
  apply envs_ok_iff in Hok. destruct Hok as (A & B & C & D & F). apply envs_ok_iff. rewrite Esq, Euq.
  split; [exact A|split; [exact B|split; [destruct Eh as [-> | ->]; [exact C|constructor]|split]]].
  - destruct Est as [-> |[(e & _ & Ec & ->)|[k ->]]]; [exact D|apply Forall_app; split; [exact D|constructor; [apply F, Ec|constructor]]|apply Forall_skipn, D].
  - intros e He. destruct Ecur as [E|(e' & E & Ho)]; [apply F; congruence|apply Hown; congruence].
Qed.

Lemma dispatch_envs (P : envelope -> Prop) s a x e :
  get s a = Some x -> Forall P (envs x) -> P e ->
  (forall k p, P {| e_sys := true; e_sender := e_sender e; e_msg := MKill k p |}) ->
  exists y, get (fst (dispatch s a x e)) a = Some y /\ Forall P (envs y).
Proof.
  intros Hg Hok He Hkill.
  assert (Hl : a < length (actors s)) by (eapply nth_error_lt; exact Hg).
  pose proof (proj1 (envs_ok_iff _ x) Hok) as (Osq & Ouq & Oh & Ost & Ocur).
  destruct (dispatch_cases s a x e) as [| |r _ []]; cbn [fst];
    first [ exists x; split; [exact Hg|exact Hok]
          | eexists; split; [apply (get_set_same s a _ Hl)|];
            apply envs_ok_iff; repeat split; auto; intros e0 He0; injection He0 as <-; first [exact He|apply Hkill] ].
Qed.

Lemma Forall_kill_children (P : instr -> Prop) a x :
  (forall l, P (IEnqAny true l (RObj a) (MKill (RObj a) false))) -> Forall P (kill_children a x).
Proof. intros H. unfold kill_children. destruct (a_children x); repeat constructor. apply H. Qed.

Lemma astep_exts s t i rest k exk :
  nth_error (exts (astep s t i rest)) k = Some exk ->
  (t = TX k /\ x_pend exk = snd (exec1 (set_pend s t rest) t (held_of (set_pend s t rest) t) i) ++ match nth_error (exts (set_pend s t rest)) k with Some e0 => x_pend e0 | None => [] end) \/
  (exists exo, nth_error (exts s) k = Some exo /\ x_pend exk = x_pend exo).
Proof.
  unfold astep. set (s0 := set_pend s t rest).
  pose proof (exec1_exts_pend s0 t (held_of s0 t) i) as Hm.
  destruct (exec1 s0 t (held_of s0 t) i) as [s1 front]. cbn [fst snd] in *.
  intros Hn.
  assert (Hk1 : forall ex1, nth_error (exts s1) k = Some ex1 -> exists ex0, nth_error (exts s0) k = Some ex0 /\ x_pend ex1 = x_pend ex0).
  { intros ex1 H1. apply (f_equal (fun l => nth_error l k)) in Hm. rewrite !nth_error_map, H1 in Hm.
    destruct (nth_error (exts s0) k) as [ex0|]; [|discriminate Hm]. cbn in Hm. inversion Hm. eauto. }
  assert (Hk0 : forall ex0, nth_error (exts s0) k = Some ex0 -> t <> TX k -> exists exo, nth_error (exts s) k = Some exo /\ x_pend ex0 = x_pend exo).
  { intros ex0 H0 Hne. unfold s0 in H0. destruct t as [a|j]; cbn [set_pend] in H0.
    - destruct (with_actor_fields s a (fun x => upd_pend x rest)) as (_ & _ & _ & _ & E & _). rewrite E in H0. eauto.
    - destruct (nth_error (exts s) j) as [exj|] eqn:Ej; [|eauto]. cbn [set_ext exts] in H0.
      rewrite nth_upd_neq in H0 by congruence. eauto. }
  destruct t as [a|j].
  - right. cbn [set_pend] in Hn. destruct (with_actor_fields s1 a (fun x => upd_pend x (front ++ pend_of s1 (TA a)))) as (_ & _ & _ & _ & E & _).
    rewrite E in Hn. destruct (Hk1 _ Hn) as (ex0 & H0 & P0). destruct (Hk0 _ H0 ltac:(discriminate)) as (exo & Ho & Po). exists exo. split; [exact Ho|congruence].
  - destruct (Nat.eq_dec j k) as [<-|Hne].
    + left. split; [reflexivity|]. cbn [set_pend pend_of] in Hn. destruct (nth_error (exts s1) j) as [ex1|] eqn:E1.
      * cbn [set_ext exts] in Hn. rewrite nth_upd_eq in Hn by (eapply nth_error_lt; exact E1). inversion Hn; subst exk. cbn [x_pend].
        destruct (Hk1 _ eq_refl) as (ex0 & H0 & P0). fold s0. rewrite H0, P0. reflexivity.
      * cbn [set_err exts] in Hn. congruence.
    + right. cbn [set_pend] in Hn. destruct (nth_error (exts s1) j) as [ex1|] eqn:E1.
      * cbn [set_ext exts] in Hn. rewrite nth_upd_neq in Hn by exact Hne.
        destruct (Hk1 _ Hn) as (ex0 & H0 & P0). destruct (Hk0 _ H0 ltac:(congruence)) as (exo & Ho & Po). exists exo. split; [exact Ho|congruence].
      * cbn [set_err exts] in Hn. destruct (Hk1 _ Hn) as (ex0 & H0 & P0). destruct (Hk0 _ H0 ltac:(congruence)) as (exo & Ho & Po). exists exo. split; [exact Ho|congruence].
Qed.

(** Every envelope a record holds (queues, hand, stash, current envelope) satisfies [eok], every pending instruction
    of every thread satisfies [iok]; both may speak about the state.  The closure lemmas and the preservation theorem
    are proved once, for the hypotheses listed below; the notice invariant [MK] here and the context invariant [XI]
    (Actor/ProofsMailCtx.v) are instances. *)
Section RecInv.
  Variables (eok : state -> aid -> envelope -> Prop) (iok : state -> aid -> instr -> Prop).

  Definition rok (s : state) (a : aid) (x : actor) : Prop := Forall (eok s a) (envs x) /\ Forall (iok s a) (a_pend x).
  Definition AllOk (s s' : state) : Prop :=
    (forall a x, get s' a = Some x -> rok s a x) /\
    (forall j ex, nth_error (exts s') j = Some ex -> Forall (iok s 0) (x_pend ex)).

  Lemma rok_new s a x : is_new x -> rok s a x.
  Proof. intros (p & g & par & sp & ->). split; constructor. Qed.

  Lemma AllOk_same s s1 s' : actors s' = actors s1 -> exts s' = exts s1 -> AllOk s s1 -> AllOk s s'.
  Proof.
    intros Ha He [H1 H2]. split; [intros a x Hg; apply H1; unfold get in *; rewrite <- Ha; exact Hg|intros j ex Hn; apply (H2 j); rewrite <- He; exact Hn].
  Qed.

  Lemma AllOk_set_actor s s1 a y : AllOk s s1 -> rok s a y -> AllOk s (set_actor s1 a y).
  Proof.
    intros [H1 H2] Hy. split; [|exact H2]. intros b x Hg.
    destruct (Nat.eq_dec a b) as [<-|Hne]; [|rewrite get_set_other in Hg by exact Hne; apply H1; exact Hg].
    destruct (Nat.lt_ge_cases a (length (actors s1))) as [Hl|Hl].
    - rewrite get_set_same in Hg by exact Hl. inversion Hg; subst. exact Hy.
    - unfold get in Hg. cbn [set_actor actors] in Hg. assert (E : nth_error (upd (actors s1) a y) a = None) by (apply nth_error_None; rewrite upd_length; exact Hl). congruence.
  Qed.

  Lemma AllOk_with_actor s s1 a f : (forall x, envs (f x) = envs x /\ a_pend (f x) = a_pend x) -> AllOk s s1 -> AllOk s (with_actor s1 a f).
  Proof.
    intros Hf H. unfold with_actor. destruct (get s1 a) as [x|] eqn:Hg; [|exact (AllOk_same s s1 _ eq_refl eq_refl H)].
    apply AllOk_set_actor; [exact H|]. destruct (Hf x) as [E1 E2]. unfold rok. rewrite E1, E2. apply (proj1 H _ _ Hg).
  Qed.

  Lemma AllOk_push_mb s s1 a e : AllOk s s1 -> eok s a e -> AllOk s (push_mb s1 a e).
  Proof.
    intros H He. destruct (get s1 a) as [x|] eqn:Hg; [|rewrite (push_mb_none _ _ _ Hg); exact H].
    rewrite (push_mb_get _ _ _ _ Hg). apply AllOk_set_actor; [exact H|]. destruct (proj1 H _ _ Hg) as [H1 H2]. split; [|exact H2].
    apply envs_ok_iff. apply envs_ok_iff in H1. destruct H1 as (A & B & C & D & E).
    cbn [set_mb a_sq a_uq a_stash a_cur held a_cons]. destruct (e_sys e); repeat split; auto; apply Forall_app; split; auto.
  Qed.

  Lemma AllOk_resolve s s1 r : AllOk s s1 -> AllOk s (snd (resolve s1 r)).
  Proof.
    intros H. destruct (resolve_shape s1 r) as [E|[E|(a & x & y & _ & Hg & _ & _ & E & _)]]; rewrite E; [exact H|exact H|].
    apply AllOk_set_actor; [exact H|]. apply (proj1 H _ _ Hg).
  Qed.

  Lemma AllOk_set_pend s s1 t l : AllOk s s1 -> Forall (iok s (self_of t)) l -> AllOk s (set_pend s1 t l).
  Proof.
    intros [H1 H2] Hl. destruct t as [a|j]; cbn [set_pend self_of] in *.
    - unfold with_actor. destruct (get s1 a) as [x|] eqn:Hg; [|split; assumption].
      apply AllOk_set_actor; [split; assumption|]. destruct (H1 _ _ Hg) as [E _]. split; [exact E|exact Hl].
    - destruct (nth_error (exts s1) j) as [ex|] eqn:Hn; [|split; assumption].
      split; [exact H1|]. intros k exk Hk. cbn [set_ext exts] in Hk. destruct (Nat.eq_dec j k) as [<-|Hne].
      + rewrite nth_upd_eq in Hk by (eapply nth_error_lt; exact Hn). inversion Hk; subst. exact Hl.
      + rewrite nth_upd_neq in Hk by exact Hne. apply (H2 k). exact Hk.
  Qed.

  Lemma AllOk_pend s s1 t i rest : AllOk s s1 -> pend_of s1 t = i :: rest -> iok s (self_of t) i /\ Forall (iok s (self_of t)) rest.
  Proof.
    intros [H1 H2] Hp. destruct t as [a|j]; cbn [self_of].
    - destruct (pend_of_TA_cons _ _ _ _ Hp) as (x & Hg & Hpx). destruct (H1 _ _ Hg) as [_ E]. rewrite Hpx in E. inversion E; auto.
    - destruct (pend_of_TX_cons _ _ _ _ Hp) as (ex & Hn & Hpx). pose proof (H2 _ _ Hn) as E. rewrite Hpx in E. inversion E; auto.
  Qed.

  Lemma rok_pop s a x sq' uq' co' pa : rok s a x -> pop_rel x sq' uq' co' -> rok s a (set_mb x sq' uq' pa co' (a_cur x)).
  Proof.
    intros [H1 H2] [_ Hr]. split; [|exact H2]. apply envs_ok_iff. apply envs_ok_iff in H1. destruct H1 as (A & B & C & D & E).
    assert (Hsh : Forall (eok s a) (match co' with CH e => [e] | _ => [] end ++ sq') /\ Forall (eok s a) uq').
    { destruct Hr as [[E1 ->]|(e & E1 & _ & -> & ->)].
      - rewrite E1. split; [apply Forall_app; split; assumption|exact B].
      - rewrite E1 in B. inversion B; subst. split; [constructor; assumption|assumption]. }
    destruct Hsh as [Hhs Hu]. apply Forall_app in Hhs. cbn [set_mb a_sq a_uq a_stash a_cur held a_cons]. repeat split; auto; apply Hhs.
  Qed.

  Variable J : state -> Prop.
  Hypothesis J_RInv : forall s, J s -> RInv s.
  Hypothesis eok_mono : forall s m a e, eok s a e -> eok (mstep s m) a e.
  Hypothesis iok_mono : forall s m a i, iok s a i -> iok (mstep s m) a i.
  Hypothesis iok_done : forall s a, iok s a IEnqDone /\ iok s a IResume2.
  Hypothesis eok_own : forall s a e, own_env a e -> eok s a e.
  Hypothesis iok_resolve : forall s t sys r sdr m rest, J s -> AllOk s s -> pend_of s t = IEnq sys r sdr m :: rest ->
    iok s (self_of t) (IEnqR sys (fst (resolve s r)) sdr m).
  Hypothesis eok_land : forall s a sys mb sdr m, iok s a (IEnqR sys mb sdr m) ->
    eok s (fst (landing mb {| e_sys := sys; e_sender := sdr; e_msg := m |})) (snd (landing mb {| e_sys := sys; e_sender := sdr; e_msg := m |})).
  Hypothesis eok_mb : forall s a b e, iok s a (IEnqMb b e) -> eok s b e.
  Hypothesis ok_any : forall s a sys tos sdr m, iok s a (IEnqAny sys tos sdr m) ->
    (forall tos', iok s a (IEnqAny sys tos' sdr m)) /\
    forall mb, eok s (fst (landing mb {| e_sys := sys; e_sender := sdr; e_msg := m |})) (snd (landing mb {| e_sys := sys; e_sender := sdr; e_msg := m |})).
  Hypothesis ok_sup : forall s t cx d rem done c to rest, J s -> AllOk s s -> pend_of s t = ISupPause cx d rem done :: rest ->
    nth_error rem c = Some to ->
    iok s (self_of t) (ISupPause cx d (firstn c rem ++ skipn (S c) rem) (done ++ [to])) /\
    eok s (fst (landing (fst (resolve s to)) {| e_sys := true; e_sender := RObj (self_of t); e_msg := MCmdPause |}))
          (snd (landing (fst (resolve s to)) {| e_sys := true; e_sender := RObj (self_of t); e_msg := MCmdPause |})).
  Hypothesis ok_handle : forall s a x e, J s -> get s a = Some x -> Forall (eok s a) (envs (busy x)) -> eok s a e ->
    (exists y, get (fst (dispatch (set_actor s a (busy x)) a (busy x) e)) a = Some y /\ Forall (eok s a) (envs y)) /\
    Forall (iok s a) (snd (dispatch (set_actor s a (busy x)) a (busy x) e)).
  (** what an atomic instruction puts in front, judged in the state it leads to *)
  Hypothesis ok_front : forall s t i rest x, J s -> AllOk s s -> get s (self_of t) = Some x -> pend_of s t = i :: rest ->
    yielding i = false -> is_enq i = false ->
    Forall (iok (astep s t i rest) (self_of t)) (snd (exec1 (set_pend s t rest) t (held_of (set_pend s t rest) t) i)).

  Lemma AllOk_mono s m s' : AllOk s s' -> AllOk (mstep s m) s'.
  Proof.
    intros [H1 H2]. split.
    - intros a x Hg. destruct (H1 a x Hg) as [E1 E2]. split; eapply Forall_impl; try eassumption; intros; [apply eok_mono|apply iok_mono]; assumption.
    - intros j ex Hn. eapply Forall_impl; [|apply (H2 j ex Hn)]. intros i Hi. apply iok_mono. exact Hi.
  Qed.

  Theorem AllOk_mstep s m : J s -> AllOk s s -> AllOk (mstep s m) (mstep s m).
  Proof.
    intros HJ HM. pose proof HM as [M1 M2].
    destruct (mstep_mcase s m) as [[E|E]|a x sq' uq' co' _ Hg E Hpop|a x e -> Hg Hc|t i rest pre s1 Hp T E|t i rest -> Hp Hy Hq E].
    - apply AllOk_mono. rewrite E. exact HM.
    - apply AllOk_mono. rewrite E. exact HM.
    - apply AllOk_mono. rewrite E. apply AllOk_set_actor; [exact HM|]. apply rok_pop; [apply (M1 _ _ Hg)|exact Hpop].
    - apply AllOk_mono. destruct (mstep_handle s a x e Hg Hc) as (y & _ & Hy & Ha & Hex & _). cbv zeta in *.
      pose proof (proj1 (envs_ok_iff _ x) (proj1 (M1 _ _ Hg))) as (A & B & C & D & F).
      assert (He : eok s a e) by (unfold held in C; rewrite Hc in C; inversion C; assumption).
      assert (Hb : Forall (eok s a) (envs (busy x))).
      { apply envs_ok_iff. cbn [busy set_mb a_sq a_uq a_stash a_cur held a_cons]. repeat split; auto; constructor. }
      destruct (ok_handle s a x e HJ Hg Hb He) as [(y' & Hy' & Hyok) Hins]. rewrite Hy in Hy'. inversion Hy'; subst y'.
      split; [|rewrite Hex; exact M2]. intros b xb Hgb. rewrite (get_upd s _ a x _ b Hg Ha) in Hgb.
      destruct (Nat.eqb_spec a b) as [<-|Hne]; [inversion Hgb; subst xb; split; [exact Hyok|exact Hins]|apply M1; exact Hgb].
    - apply AllOk_mono. rewrite E. destruct (AllOk_pend s s t i rest HM Hp) as [Hi Hrest].
      destruct T as [ | | |x0 Hgx Hpa|x0 Hgx Hpa|sys to sdr m0|c sys mb sdr m0|c b e|c sys tos sdr m0 to Hn|c cx d rem done to Hn]; unfold set_paused.
      + apply AllOk_set_pend; [exact HM|exact Hrest].
      + apply AllOk_set_pend; [exact HM|exact Hrest].
      + apply AllOk_set_pend; [apply AllOk_with_actor; [intros; split; reflexivity|exact HM]|exact Hrest].
      + apply AllOk_set_pend; [apply AllOk_with_actor; [intros; split; reflexivity|exact HM]|constructor; [apply iok_done|exact Hrest]].
      + apply AllOk_set_pend; [exact HM|exact Hrest].
      + apply AllOk_set_pend; [apply AllOk_resolve; exact HM|constructor; [eapply iok_resolve; eassumption|exact Hrest]].
      + apply AllOk_set_pend; [apply AllOk_push_mb; [exact HM|eapply eok_land; exact Hi]|exact Hrest].
      + apply AllOk_set_pend; [apply AllOk_push_mb; [exact HM|eapply eok_mb; exact Hi]|exact Hrest].
      + destruct (ok_any _ _ _ _ _ _ Hi) as [Hany Hland].
        apply AllOk_set_pend; [apply AllOk_push_mb; [apply AllOk_resolve; exact HM|apply Hland]|].
        cbn [app]. constructor; [apply iok_done|]. destruct (firstn c tos ++ skipn (S c) tos); [exact Hrest|constructor; [apply Hany|exact Hrest]].
      + destruct (ok_sup s t cx d rem done c to rest HJ HM Hp Hn) as [Hi' Hland].
        apply AllOk_set_pend; [apply AllOk_push_mb; [apply AllOk_resolve; exact HM|exact Hland]|].
        constructor; [apply iok_done|constructor; [exact Hi'|exact Hrest]].
    - (* one atomic instruction: its own record keeps its envelopes up to the two it makes itself *)
      destruct (RInv_self s t (J_RInv s HJ) i rest Hp) as (x & Hg).
      assert (Hl : self_of t < length (actors s)) by (eapply nth_error_lt; exact Hg).
      destruct (astep_table s t i rest x Hg Hp) as (Hg0 & y & news & Hyl & Hnews & Ha1 & Ha & _ & Hl0 & _). cbv zeta in *.
      pose proof (ok_front s t i rest x HJ HM Hg Hp Hy Hq) as Hfr. rewrite <- E in Hfr.
      set (s0 := set_pend s t rest) in *. set (front := snd (exec1 s0 t (held_of s0 t) i)) in *.
      destruct (AllOk_pend s s t i rest HM Hp) as [Hi Hrest].
      assert (Hx0 : Forall (eok s (self_of t)) (envs (popped t x rest))) by (rewrite envs_popped; apply (M1 _ _ Hg)).
      destruct (exec1_envs (eok s (self_of t)) s0 t (held_of s0 t) i _ (eok_own s _) Hg0 Hx0) as (y' & Hy' & Hyok).
      assert (Hyy : y' = y).
      { unfold get in Hy'. rewrite Ha1 in Hy'. rewrite nth_error_app1 in Hy' by (rewrite upd_length, Hl0; exact Hl).
        rewrite nth_upd_eq in Hy' by (rewrite Hl0; exact Hl). congruence. }
      subst y'.
      assert (Hmono : forall a l, Forall (iok s a) l -> Forall (iok (mstep s (MAtomic t)) a) l)
        by (intros a l H; eapply Forall_impl; [|exact H]; intros; apply iok_mono; assumption).
      assert (Hemono : forall a l, Forall (eok s a) l -> Forall (eok (mstep s (MAtomic t)) a) l)
        by (intros a l H; eapply Forall_impl; [|exact H]; intros; apply eok_mono; assumption).
      split.
      + intros b xb Hgb. rewrite E in Hgb. unfold get in Hgb. rewrite Ha in Hgb.
        destruct (Nat.lt_ge_cases b (length (actors s))) as [Hlt|Hge].
        * rewrite nth_error_app1 in Hgb by (rewrite upd_length; exact Hlt).
          destruct (Nat.eq_dec (self_of t) b) as [<-|Hne].
          -- rewrite nth_upd_eq in Hgb by exact Hl. inversion Hgb; subst xb.
             destruct t as [a|j]; cbn [pushed self_of] in *.
             ++ split; [rewrite envs_upd_pend; apply Hemono; exact Hyok|]. cbn [upd_pend a_pend]. apply Forall_app. split; [exact Hfr|apply Hmono; exact Hrest].
             ++ split; [apply Hemono; exact Hyok|]. rewrite (lu_pend _ _ _ Hyl). cbn [popped]. apply Hmono. apply (M1 _ _ Hg).
          -- rewrite nth_upd_neq in Hgb by exact Hne. destruct (M1 _ _ Hgb) as [E1 E2]. split; [apply Hemono; exact E1|apply Hmono; exact E2].
        * rewrite nth_error_app2 in Hgb by (rewrite upd_length; exact Hge). apply nth_error_In in Hgb.
          rewrite Forall_forall in Hnews. apply rok_new. auto.
      + intros k exk Hk. rewrite E in Hk. destruct (astep_exts s t i rest k exk Hk) as [[-> Ex]|(exo & Ho & Ex)]; rewrite Ex.
        * fold s0. fold front. apply Forall_app. split; [exact Hfr|]. apply Hmono.
          unfold s0. cbn [set_pend]. destruct (pend_of_TX_cons _ _ _ _ Hp) as (ex & Hn & Hpx). rewrite Hn. cbn [set_ext exts].
          rewrite nth_upd_eq by (eapply nth_error_lt; exact Hn). cbn [x_pend]. exact Hrest.
        * apply Hmono. apply (M2 k). exact Ho.
  Qed.

  Hypothesis iok_act : forall s a act, iok s a (IAct act).

  Lemma AllOk_init scs : AllOk (init_with scs) (init_with scs).
  Proof.
    split.
    - intros a x Hg. destruct (get_init scs a x Hg) as [_ ->]. split; constructor.
    - intros j ex Hn. pose proof (init_with_exts scs) as H. rewrite Forall_forall in H. destruct (H ex (nth_error_In _ _ Hn)) as (sc & ->).
      apply Forall_map_IAct. intros; apply iok_act.
  Qed.

End RecInv.

Definition mk_of (m : msg) : option aid := match m with MKilled (RObj c) => Some c | _ => None end.
Definition msg_ok (s : state) (own : option aid) (m : msg) : Prop :=
  match mk_of m with Some c => own = Some c \/ unreg s c | None => True end.
Definition env_ok (s : state) (a : aid) (e : envelope) : Prop := msg_ok s (Some a) (e_msg e).
Definition instr_ok (s : state) (a : aid) (i : instr) : Prop :=
  match i with
  | IEnq _ _ _ m | IEnqR _ _ _ m | IEnqAny _ _ _ m => msg_ok s None m
  | IEnqMb b e => msg_ok s (Some b) (e_msg e)
  | IOnKilled w => msg_ok s (Some a) (MKilled w)
  | _ => True
  end.
Definition MK (s : state) : Prop := AllOk env_ok instr_ok s s.

Lemma msg_ok_mono s m own msg : msg_ok s own msg -> msg_ok (mstep s m) own msg.
Proof. unfold msg_ok. destruct (mk_of msg); [|auto]. intros [H|H]; [left; exact H|right; apply unreg_mono; exact H]. Qed.
Lemma env_ok_mono s m a e : env_ok s a e -> env_ok (mstep s m) a e.
Proof. apply msg_ok_mono. Qed.
Lemma instr_ok_mono s m a i : instr_ok s a i -> instr_ok (mstep s m) a i.
Proof. destruct i; cbn [instr_ok]; auto; apply msg_ok_mono. Qed.
Lemma msg_ok_weaken s own m : msg_ok s None m -> msg_ok s own m.
Proof. unfold msg_ok. destruct (mk_of m); [|auto]. intros [H|H]; [discriminate|right; exact H]. Qed.

Lemma landing_ok s mb e : msg_ok s None (e_msg e) -> env_ok s (fst (landing mb e)) (snd (landing mb e)).
Proof. intros H. destruct mb; cbn [landing fst snd]; try (apply msg_ok_weaken; exact H). exact I. Qed.

Lemma In_stash_envs e x : In e (a_stash x) -> In e (envs x).
Proof. intros H. unfold envs. rewrite !in_app_iff. auto. Qed.

(** termination notices are only produced by the cleanup *)
Lemma exec1_front_mk S s t h i x :
  get s (self_of t) = Some x -> Forall (env_ok S (self_of t)) (envs x) -> i <> ICleanup ->
  Forall (instr_ok S (self_of t)) (snd (exec1 s t h i)).
Proof.
  intros Hg Hok Hnc. apply Forall_forall. intros j Hj. rewrite Forall_forall in Hok.
  destruct (exec1_emits _ _ _ _ _ _ Hg Hj); try exact I; try congruence.
  - apply Hok, In_stash_envs, He.
  - left. reflexivity.
Qed.

Lemma exec1_front_mk_cleanup s t h x S :
  get s (self_of t) = Some x -> unreg S (self_of t) -> Forall (instr_ok S (self_of t)) (snd (exec1 s t h ICleanup)).
Proof.
  intros Hg Hun. rewrite (exec1_cleanup s t h x Hg). cbn [snd]. unfold cleanup_sends.
  assert (Hm : msg_ok S None (MKilled (RObj (self_of t)))) by (unfold msg_ok; cbn; right; exact Hun).
  destruct (a_watchers x), (a_parent x); cbn [app]; repeat (apply Forall_cons; [first [exact Hm | exact I]|]); apply Forall_nil.
Qed.

Lemma dispatch_mk S s a x e :
  get s a = Some x -> Forall (env_ok S a) (envs x) -> env_ok S a e ->
  (exists y, get (fst (dispatch s a x e)) a = Some y /\ Forall (env_ok S a) (envs y)) /\
  Forall (instr_ok S a) (snd (dispatch s a x e)).
Proof.
  intros Hg Hok He. split; [apply (dispatch_envs _ s a x e Hg Hok He); intros; exact I|].
  assert (Hkc : Forall (instr_ok S a) (kill_children a x)) by (apply Forall_kill_children; intros; exact I).
  destruct (dispatch_cases s a x e) as [| |r _ []]; cbn [snd]; unfold dead_report;
    try destruct poison; try match goal with Hs : a_state x <> Running |- _ => destruct (a_state x); [congruence| |] end; cbn [app];
    repeat first [apply Forall_cons; [exact I|] | apply Forall_nil | apply Forall_app; split | exact Hkc].
  constructor; [|repeat constructor]. unfold env_ok in He. rewrite Em in He. exact He.
Qed.

Lemma unreg_after_cleanup s a x y :
  get s a = Some x ->
  unreg (set_actor (set_reg (set_subs s (unsub_all (subs s) (a_path x))) (aremove (reg s) (a_path x))) a y) a \/ a_path y <> a_path x.
Proof.
  intros Hg. destruct (path_eqb (a_path y) (a_path x)) eqn:E; [left|right; intros H; rewrite H, path_eqb_refl in E; discriminate].
  apply path_eqb_eq in E. assert (Hl : a < length (actors s)) by (eapply nth_error_lt; exact Hg).
  exists y. split; [apply (get_set_same _ a y Hl)|]. unfold regd. cbn [set_actor reg set_reg]. rewrite E, alookup_aremove_same. discriminate.
Qed.

Definition Base3 (s : state) : Prop := wf s /\ LI s /\ RInv s.

Theorem MK_mstep s m : wf s -> LI s -> RInv s -> MK s -> MK (mstep s m).
Proof.
  intros W HLI HR. apply (AllOk_mstep env_ok instr_ok Base3); [| | | | | | | | | | | |exact (conj W (conj HLI HR))].
  - intros s0 H. apply H.
  - apply env_ok_mono.
  - apply instr_ok_mono.
  - intros. split; exact I.
  - intros s0 a e [E|E]; unfold env_ok; rewrite E; [left; reflexivity|exact I].
  - intros s0 t sys r sdr m0 rest _ HM Hp. apply (AllOk_pend _ _ s0 s0 t _ rest HM Hp).
  - intros s0 a sys mb sdr m0 H. apply landing_ok. exact H.
  - intros s0 a b e H. exact H.
  - intros s0 a sys tos sdr m0 H. split; [intros; exact H|intros mb; apply landing_ok; exact H].
  - intros. split; [exact I|apply landing_ok; exact I].
  - intros s0 a x e _ Hg Hb He. apply (dispatch_mk s0 _ a (busy x) e (get_set_same' s0 a _ x Hg) Hb He).
  - (* the notices of the cleanup name the context that has just released its path *)
    intros s0 t i rest x (W0 & _ & _) HM Hg Hp Hy Hq. pose proof (mstep_atomic_exec s0 t i rest Hp Hy Hq) as E.
    destruct (astep_table s0 t i rest x Hg Hp) as (Hg0 & _). cbv zeta in Hg0.
    assert (Hx0 : Forall (env_ok s0 (self_of t)) (envs (popped t x rest))) by (rewrite envs_popped; apply (proj1 HM _ _ Hg)).
    destruct (instr_eq_cleanup i) as [-> |Hnc].
    + destruct t as [a|j]; [|discriminate (ext_head_plain s0 j _ rest W0 Hp)]. cbn [self_of] in *.
      apply (exec1_front_mk_cleanup _ (TA a) _ _ _ Hg0). rewrite (astep_cleanup s0 a x rest Hg).
      destruct (unreg_after_cleanup s0 a x (upd_pend x ((cleanup_sends a x ++ [IPub evKilled (actor_key x); IResume1]) ++ rest)) Hg) as [H|H]; [exact H|].
      exfalso. apply H. reflexivity.
    + rewrite <- E. eapply Forall_impl; [|apply (exec1_front_mk s0 _ t _ i _ Hg0 Hx0 Hnc)]. intros i0. apply instr_ok_mono.
Qed.

Lemma MK_init scs : MK (init_with scs).
Proof. apply AllOk_init. intros; exact I. Qed.

Theorem MK_reachable s : reachable s -> MK s.
Proof.
  revert s. apply (micro_invariant_with (fun s => wf s /\ LI s /\ RInv s) MK).
  - intros scs. split; [apply wf_init|split; [apply LI_init|apply RInv_init]].
  - intros s m (W & I & HR). split; [apply wf_mstep; exact W|split; [apply LI_mstep; assumption|apply RInv_mstep; assumption]].
  - apply MK_init.
  - intros s m (W & I & HR) HM. apply MK_mstep; assumption.
Qed.
