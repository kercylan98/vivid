(** The step skeleton of Actor/ProofsLifePhase.v for a state predicate that is insensitive to the mailbox part: it
    is enough that it is preserved by the micro-step, by replacing a plain head instruction by plain instructions, by
    the consumer moves and by HandleEnvelop.  Then: predicates that hold of every context's record separately. *)
From Coq Require Import List NArith Arith Lia.
From Vivid Require Import Actor.Core Actor.ProofsMailBase Actor.ProofsMailWf Actor.SpecStash Actor.SpecLife Actor.ProofsLifeInv Actor.ProofsLifeSum Actor.ProofsLifePhase.
Import ListNotations.
Local Open Scope N_scope.

Section Gen.
  Variable Q : state -> Prop.

  Hypothesis Q_mb : forall s s', mb_equiv s s' -> Q s -> Q s'.
  Hypothesis Q_pop : forall s t i rest front,
    Q s -> pend_of s t = i :: rest -> sig i = false -> (forall j, In j front -> sig j = false) ->
    Q (set_pend s t (front ++ rest)).
  Hypothesis Q_astep : forall s t i rest,
    SInv s -> Q s -> pend_of s t = i :: rest -> yielding i = false -> err (astep s t i rest) = false -> Q (astep s t i rest).
  Hypothesis Q_cons : forall s a x sq uq pa co cu,
    Q s -> get s a = Some x -> a_pend x = [] -> Q (set_actor s a (set_mb x sq uq pa co cu)).
  Hypothesis Q_handle : forall s a x e s1 ins,
    SInv s -> Q s -> get s a = Some x -> a_cons x = CH e -> a_pend x = [] ->
    let x0 := set_mb x (a_sq x) (a_uq x) (a_paused x) (CBusy (mode_top x)) (a_cur x) in
    dispatch (set_actor s a x0) a x0 e = (s1, ins) ->
    Q (set_pend s1 (TA a) ins).

  Lemma Q_mb_pop s s' t i rest front :
    mb_equiv s s' -> Q s -> pend_of s t = i :: rest -> sig i = false -> (forall j, In j front -> sig j = false) ->
    Q (set_pend s' t (front ++ rest)).
  Proof. intros Hm HQ Hp. apply (Q_pop s' t i rest front (Q_mb _ _ Hm HQ)). rewrite (pend_of_mb _ _ t Hm). exact Hp. Qed.

  Lemma Q_consumer s ev :
    (match ev with EvSysPop _ | EvLoadPaused _ | EvUserPop _ => True | _ => False end) ->
    SInv s -> Q s -> err (step s ev) = false -> Q (step s ev).
  Proof.
    intros Hev HI HQ Herr. destruct (consumer_move s ev Herr Hev) as (a & x & sq & uq & co & Hg & _ & Hb & ->).
    apply Q_cons; [exact HQ|exact Hg|apply (INV_not_busy _ _ (proj1 HI a x Hg) Hb)].
  Qed.

  Lemma Q_resolve s t sys to sender m rest :
    SInv s -> Q s -> pend_of s t = IEnq sys to sender m :: rest ->
    Q (set_pend (snd (resolve s to)) t (IEnqR sys (fst (resolve s to)) sender m :: rest)).
  Proof.
    intros _ HQ Hp. apply (Q_mb_pop s _ t _ rest [_] (mb_equiv_resolve s to) HQ Hp eq_refl). intros j [<-|[]]. reflexivity.
  Qed.

  Lemma Q_pophead s t i rest :
    SInv s -> Q s -> pend_of s t = i :: rest -> (i = IEnqDone \/ i = IResume1 \/ i = IResume2) -> Q (set_pend s t rest).
  Proof. intros _ HQ Hp Hi. apply (Q_pop s t i rest [] HQ Hp); [destruct Hi as [->|[->| ->]]; reflexivity|intros j []]. Qed.

  Lemma Q_pause s t rest :
    SInv s -> Q s -> pend_of s t = IPauseSt :: rest ->
    Q (set_pend (with_actor s (self_of t) (fun x => set_mb x (a_sq x) (a_uq x) true (a_cons x) (a_cur x))) t rest).
  Proof.
    intros _ HQ Hp.
    refine (Q_mb_pop s _ t IPauseSt rest [] (mb_equiv_with_actor s (self_of t) (fun x => set_mb x (a_sq x) (a_uq x) true (a_cons x) (a_cur x)) _) HQ Hp eq_refl _);
      [intros x; repeat split|intros j []].
  Qed.

  Lemma Q_run_atomic f s t : SInv s -> Q s -> err (run_atomic f s t) = false -> Q (run_atomic f s t).
  Proof. intros HI HQ He. exact (proj2 (SQ_run_atomic Q Q_astep Q_resolve f s t (conj HI HQ) He)). Qed.

  Lemma Q_pre s ev s' t : pre_atomic s ev = Some (s', t) -> SInv s -> Q s -> Q s'.
  Proof. intros E HI HQ. exact (proj2 (SQ_pre Q Q_pophead Q_pause Q_handle s ev s' t E (conj HI HQ))). Qed.

  Lemma Q_step s ev : SInv s -> Q s -> err (step s ev) = false -> Q (step s ev).
  Proof.
    intros HI HQ He. refine (proj2 (SQ_step Q Q_astep Q_resolve _ Q_pophead Q_pause _ Q_consumer Q_handle s ev (conj HI HQ) He)).
    - intros s0 t choice _ HQ0 Herr. destruct (step_push s0 t choice Herr) as (i & rest & s1 & mb & e & front & Hp & Hpu & ->).
      destruct (pushes_plain _ _ _ _ _ _ _ _ Hpu) as (Hm & Hs & Hf). apply (Q_mb_pop s0 _ t i rest front Hm HQ0 Hp Hs Hf).
    - intros s0 t rest x _ HQ0 Hp Hg.
      refine (Q_mb_pop s0 _ t IResume1 rest [IResume2] (mb_equiv_set_actor s0 _ x (set_mb x (a_sq x) (a_uq x) false (a_cons x) (a_cur x)) Hg _) HQ0 Hp eq_refl _);
        [repeat split|intros j [<-|[]]; reflexivity].
  Qed.

  Lemma Q_reachable : (forall scs, Q (init_with scs)) -> forall s, reachable s -> Q s.
  Proof.
    intros Hinit s Hr. apply (reachable_ind (fun s => SInv s /\ Q s)); [| |exact Hr].
    - intros scs. split; [apply SInv_init|apply Hinit].
    - intros s0 ev [HI HQ] _ He. split; [apply SInv_step|apply Q_step]; assumption.
  Qed.
End Gen.

(** everything but mailbox part, consumer position, current envelope and pending list *)
Definition vsame (x y : actor) : Prop :=
  a_path y = a_path x /\ a_gen y = a_gen x /\ a_parent y = a_parent x /\ a_spec y = a_spec x /\
  a_state y = a_state x /\ a_zombie y = a_zombie x /\ a_restarting y = a_restarting x /\
  a_children y = a_children x /\ a_watchers y = a_watchers x /\ a_stash y = a_stash x /\ a_modes y = a_modes x /\
  a_inst y = a_inst x /\ a_decisions y = a_decisions x /\ a_hooks y = a_hooks x.

Lemma lsame_vsame x y : lsame x y -> vsame x y.
Proof. unfold lsame, vsame. intuition. Qed.

Section Local.
  Variable P : aid -> actor -> Prop.
  Hypothesis P_vsame : forall a x y, vsame x y -> P a x -> P a y.
  Hypothesis P_new : forall a p n g pa sp, a <> 0%nat -> P a (new_actor (p ++ [n]) g (Some pa) sp).
  Hypothesis P_root : P 0%nat (new_actor [] 0 None root_spec).
  Hypothesis P_exec_TA : forall s a x i rest h s1 front x1,
    INV a x -> a_pend x = i :: rest -> yielding i = false -> P a x ->
    get s a = Some (upd_pend x rest) -> exec1 s (TA a) h i = (s1, front) -> get s1 a = Some x1 -> P a x1.
  Hypothesis P_exec_TX : forall s k x i h s1 front x1,
    sig i = false -> P 0%nat x -> get s 0%nat = Some x -> exec1 s (TX k) h i = (s1, front) -> get s1 0%nat = Some x1 -> P 0%nat x1.
  Hypothesis P_dispatch : forall s a x e s1 ins y,
    (a_zombie x = true -> a_state x = Killed) ->
    P a x -> get s a = Some x -> dispatch s a x e = (s1, ins) -> get s1 a = Some y -> P a y.

  Definition LQ (s : state) : Prop := forall a x, get s a = Some x -> P a x.

  Lemma LQ_mb s s' : mb_equiv s s' -> LQ s -> LQ s'.
  Proof.
    intros (Hm & _) HQ a y Hy. specialize (Hm a). rewrite Hy in Hm. destruct (get s a) as [x|] eqn:Hg; [|contradiction].
    apply (P_vsame a x y (lsame_vsame _ _ Hm)). apply HQ. exact Hg.
  Qed.

  Lemma vsame_upd_pend x p : vsame x (upd_pend x p). Proof. repeat split. Qed.
  Lemma vsame_set_mb x sq uq pa co cu : vsame x (set_mb x sq uq pa co cu). Proof. repeat split. Qed.
  Lemma vsame_sym x y : vsame x y -> vsame y x. Proof. unfold vsame. intuition. Qed.

  Lemma LQ_set_pend s t p : LQ s -> LQ (set_pend s t p).
  Proof.
    intros HQ b y Hb. destruct t as [a|k].
    - destruct (Nat.eq_dec a b) as [<-|Hab].
      + cbn [set_pend] in Hb. unfold with_actor in Hb. destruct (get s a) as [x|] eqn:Hg; [|apply (HQ a y Hb)].
        rewrite (get_set_same' _ _ _ _ Hg) in Hb. inversion Hb; subst y.
        apply (P_vsame a x _ (vsame_upd_pend x p)). apply HQ. exact Hg.
      + rewrite get_set_pend_TA_other in Hb by exact Hab. apply (HQ b y Hb).
    - rewrite get_set_pend_TX in Hb. apply (HQ b y Hb).
  Qed.

  Lemma LQ_cons s a x sq uq pa co cu : LQ s -> get s a = Some x -> LQ (set_actor s a (set_mb x sq uq pa co cu)).
  Proof.
    intros HQ Hg b y Hb. destruct (Nat.eq_dec a b) as [<-|Hab].
    - rewrite (get_set_same' _ _ _ _ Hg) in Hb. inversion Hb; subst y.
      apply (P_vsame a x _ (vsame_set_mb x sq uq pa co cu)). apply HQ. exact Hg.
    - rewrite get_set_other in Hb by exact Hab. apply (HQ b y Hb).
  Qed.

  Lemma LQ_astep s t i rest :
    SInv s -> LQ s -> pend_of s t = i :: rest -> yielding i = false -> err (astep s t i rest) = false -> LQ (astep s t i rest).
  Proof.
    intros [HA HX] HQ Hp Hy He1. destruct t as [a|k].
    - destruct (pend_of_TA_cons _ _ _ _ Hp) as (x & Hg & Hpx).
      destruct (astep_TA s a i rest x Hg) as (s1 & front & x1 & He & Hg1 & Hp1 & Heq). rewrite Heq in *. clear Heq.
      assert (Hg0 : get (set_actor s a (upd_pend x rest)) a = Some (upd_pend x rest)) by apply (get_set_same' _ _ _ _ Hg).
      intros b y Hb. destruct (Nat.eq_dec a b) as [<-|Hab].
      + rewrite (get_set_same' _ _ _ _ Hg1) in Hb. inversion Hb; subst y.
        apply (P_vsame a x1 _ (vsame_upd_pend x1 _)).
        apply (P_exec_TA _ a x i rest [] s1 front x1 (HA a x Hg) Hpx Hy (HQ a x Hg) Hg0 He Hg1).
      + rewrite get_set_other in Hb by exact Hab.
        destruct (exec1_other _ _ _ _ _ _ b y He (fun E => Hab (eq_sym E)) Hb) as [Hb0|(Hnone & _ & sp & x0 & _ & _ & _ & _ & _ & ->)].
        * rewrite get_set_other in Hb0 by exact Hab. apply (HQ b y Hb0).
        * apply P_new. intros ->. rewrite get_set_other in Hnone by exact Hab.
          destruct a as [|a']; [congruence|]. pose proof (nth_error_lt _ _ _ Hg). unfold get in Hnone. apply nth_error_None in Hnone. lia.
    - destruct (pend_of_TX_cons _ _ _ _ Hp) as (ex & Hn & Hpx).
      assert (Hs : sig i = false) by (apply (HX k ex Hn); rewrite Hpx; left; reflexivity).
      destruct (astep_TX s k i rest ex Hn) as (s1 & front & ex1 & He & Hn1 & Hp1 & Hoth & Heq). rewrite Heq in *. clear Heq.
      intros b y Hb. change (get (set_ext s1 k {| x_pend := front ++ rest; x_held := x_held ex1 |}) b) with (get s1 b) in Hb.
      destruct (Nat.eq_dec b 0) as [->|Hb0].
      + destruct (get s 0) as [x|] eqn:Hg.
        2:{ rewrite (exec1_none (set_ext s k _) (TX k) _ i Hg) in He. injection He as <- _. discriminate He1. }
        apply (P_exec_TX (set_ext s k {| x_pend := rest; x_held := x_held ex |}) k x i (x_held ex) s1 front y Hs (HQ _ _ Hg) Hg He Hb).
      + destruct (exec1_other _ _ _ _ _ _ b y He Hb0 Hb) as [Hb1|(_ & _ & sp & x0 & _ & _ & _ & _ & _ & ->)].
        * apply (HQ b y Hb1).
        * apply P_new. exact Hb0.
  Qed.

  Lemma LQ_handle s a x e s1 ins :
    SInv s -> LQ s -> get s a = Some x ->
    let x0 := set_mb x (a_sq x) (a_uq x) (a_paused x) (CBusy (mode_top x)) (a_cur x) in
    dispatch (set_actor s a x0) a x0 e = (s1, ins) ->
    LQ (set_pend s1 (TA a) ins).
  Proof.
    intros [HA HX] HQ Hg x0 Hd. destruct (handle_pre s a x e s1 ins Hg Hd) as (y & Hg1 & _ & Hga & Hoth & _).
    intros b z Hb. destruct (Nat.eq_dec a b) as [<-|Hab]; [|rewrite (Hoth b Hab) in Hb; apply (HQ b z Hb)].
    rewrite Hga in Hb. injection Hb as <-. apply (P_vsame a y _ (vsame_upd_pend y ins)).
    apply (P_dispatch (set_actor s a x0) a x0 e s1 ins y); try assumption.
    - apply (HA a x Hg).
    - apply (P_vsame a x x0 (vsame_set_mb _ _ _ _ _ _)). apply HQ. exact Hg.
    - apply (get_set_same' _ _ _ _ Hg).
  Qed.

  Lemma LQ_init scs : LQ (init_with scs).
  Proof.
    intros a x Hg. unfold init_with, get in Hg. rewrite set_exts_actors in Hg. cbn [actors init_state] in Hg.
    destruct a as [|[|a]]; cbn [nth_error] in Hg; try discriminate. inversion Hg; subst x. apply P_root.
  Qed.

  Lemma LQ_step s ev : SInv s -> LQ s -> err (step s ev) = false -> LQ (step s ev).
  Proof.
    apply (Q_step LQ LQ_mb (fun s t i rest front HQ _ _ _ => LQ_set_pend s t _ HQ) LQ_astep).
    - intros s0 a x sq uq pa co cu HQ Hg _. apply LQ_cons; assumption.
    - intros s0 a x e s1 ins HI HQ Hg _ _. apply LQ_handle; assumption.
  Qed.

  Theorem LQ_reachable s : reachable s -> LQ s.
  Proof.
    apply (reachable_ind (fun s => SInv s /\ LQ s)); [intros scs; split; [apply SInv_init|apply LQ_init]|].
    intros s0 ev [HI HQ] _ He. split; [apply SInv_step|apply LQ_step]; assumption.
  Qed.
End Local.
