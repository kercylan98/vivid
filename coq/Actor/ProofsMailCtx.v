(** Supervision contexts in flight are well formed: a report names a child of the supervisor it is addressed to (or a
    context that has released its path), the targets of a pause loop / decision are children of the deciding
    supervisor, and every level of an escalation chain lists children of the context that escalated it. *)
From Coq Require Import List NArith ZArith Bool Lia Arith.
From Vivid Require Import Actor.Core Actor.CoreRun Actor.SpecMail Actor.ProofsMailBase Actor.ProofsMail Actor.ProofsMailInv
  Actor.ProofsMailWf Actor.ProofsMailAcct Actor.ProofsMailReg Actor.ProofsMailMicro Actor.ProofsMailLife Actor.ProofsMailStep
  Actor.ProofsMailTree Actor.ProofsMailMK Actor.ProofsMailKids.
Import ListNotations.

Definition RootC (s : state) : Prop := forall x0, get s 0 = Some x0 -> a_cache x0 = None.

Lemma RootC_mstep s m : RInv s -> RootC s -> RootC (mstep s m).
Proof.
  intros (Ra & _ & Rc & _) HC x0' Hg'. destruct Ra as (x0 & Hg0 & _ & Hp0).
  destruct (crel_mstep s m 0 x0 x0' Hg0 Hg') as [E|(_ & z & _ & Hl)]; [rewrite E; apply (HC _ Hg0)|].
  rewrite Hp0, Rc in Hl. discriminate.
Qed.

Lemma RootC_init scs : RootC (init_with scs).
Proof. intros x0 Hg. destruct (get_init scs 0 x0 Hg) as [_ ->]. reflexivity. Qed.

Definition RootS (s : state) : Prop := forall x0, get s 0 = Some x0 -> sp_strategy (a_spec x0) = 0%N.

Lemma RootS_mstep s m : RInv s -> RootS s -> RootS (mstep s m).
Proof.
  intros ((x0 & Hg0 & _) & _) HS x0' Hg'. destruct (idT_mstep s m 0 x0 Hg0 ltac:(tauto)) as (y & Hy & _ & _ & E).
  assert (x0' = y) by congruence; subst. rewrite E. apply (HS _ Hg0).
Qed.

Lemma RootS_init scs : RootS (init_with scs).
Proof. intros x0 Hg. destruct (get_init scs 0 x0 Hg) as [_ ->]. reflexivity. Qed.

Definition is_child_ref (s : state) (q : aid) (r : rref) : Prop :=
  exists d xd, r = RObj d /\ d <> 0 /\ get s d = Some xd /\ (a_parent xd = Some q \/ unreg s d).
Definition lvl_ok (s : state) (b : aid) (c1 : supctx) : Prop :=
  match c1 with SupCtx ch1 ts1 _ =>
    (forall r, In r ts1 -> is_child_ref s b r) /\ (In ch1 ts1 \/ exists d, ch1 = RObj d /\ d <> 0 /\ unreg s d)
  end.
Fixpoint ctx_sub_ok (s : state) (c : supctx) : Prop :=
  match c with SupCtx ch ts sub =>
    match sub with
    | None => True
    | Some c1 => (exists b, ch = RObj b /\ lvl_ok s b c1) /\ ctx_sub_ok s c1
    end
  end.
Definition own_report (s : state) (self : aid) (c : supctx) : Prop :=
  self <> 0 /\ match c with SupCtx ch ts _ => ch = RObj self /\ ts = [] end /\ ctx_sub_ok s c.
Definition msup_at (s : state) (q : aid) (c : supctx) : Prop :=
  match c with SupCtx ch ts _ => ts = [] /\ is_child_ref s q ch end /\ ctx_sub_ok s c.
Definition sup_ok (s : state) (q : aid) (c : supctx) (targets : list rref) : Prop :=
  match c with SupCtx ch _ _ =>
    is_child_ref s q ch /\ (forall r, In r targets -> is_child_ref s q r) /\ (In ch targets \/ exists d, ch = RObj d /\ d <> 0 /\ unreg s d)
  end /\ ctx_sub_ok s c.
Definition land_ok (s : state) (self : aid) (mb : mbox) : Prop :=
  match mb with
  | MbActor q => is_child_ref s q (RObj self)
  | MbRoot => is_child_ref s 0 (RObj self)
  | MbDead => True
  end.

Definition xe_ok (s : state) (q : aid) (e : envelope) : Prop := forall c, e_msg e = MSup c -> msup_at s q c.
Definition xi_ok (s : state) (self : aid) (i : instr) : Prop :=
  match i with
  | IEnq sys r snd m => forall c, m = MSup c -> (exists x, get s self = Some x /\ r = rref_parent x) /\ own_report s self c
  | IEnqR sys mb snd m => forall c, m = MSup c -> own_report s self c /\ land_ok s self mb
  | IEnqAny _ _ _ m => forall c, m <> MSup c
  | IEnqMb b e => xe_ok s b e
  | ISupPause c d rem done => sup_ok s self c (rem ++ done) /\ (self = 0 -> d = DStop)
  | ISupApply c d targets => sup_ok s self c targets /\ (self = 0 -> d = DStop)
  | IFailed => self <> 0
  | _ => True
  end.
Definition xrec_ok (s : state) (a : aid) (x : actor) : Prop :=
  Forall (xe_ok s a) (envs x) /\ Forall (xi_ok s a) (a_pend x).
Definition XI (s : state) : Prop :=
  (forall a x, get s a = Some x -> xrec_ok s a x) /\
  (forall j ex, nth_error (exts s) j = Some ex -> Forall (xi_ok s 0) (x_pend ex)).

Lemma is_child_ref_mono s m q r : is_child_ref s q r -> is_child_ref (mstep s m) q r.
Proof.
  intros (d & xd & -> & Hd0 & Hg & H). destruct (idT_mstep s m d xd Hg ltac:(tauto)) as (xd' & Hg' & _ & Hp & _).
  exists d, xd'. split; [reflexivity|split; [exact Hd0|split; [exact Hg'|]]]. destruct H as [H|H]; [left; congruence|right; apply unreg_mono; exact H].
Qed.
Lemma lvl_ok_mono s m b c1 : lvl_ok s b c1 -> lvl_ok (mstep s m) b c1.
Proof.
  destruct c1 as [ch ts sub]. intros [H1 H2]. split.
  - intros r Hr. apply is_child_ref_mono. auto.
  - destruct H2 as [H|(d & -> & Hd & H)]; [left; exact H|right; exists d; split; [reflexivity|split; [exact Hd|apply unreg_mono; exact H]]].
Qed.
Lemma ctx_sub_ok_mono s m c : ctx_sub_ok s c -> ctx_sub_ok (mstep s m) c.
Proof.
  revert c. fix IH 1. intros [ch ts [c1|]]; cbn [ctx_sub_ok]; [|auto].
  intros [(b & -> & Hl) Hs]. split; [exists b; split; [reflexivity|apply lvl_ok_mono; exact Hl]|apply IH; exact Hs].
Qed.
Lemma own_report_mono s m self c : own_report s self c -> own_report (mstep s m) self c.
Proof. intros (H0 & H1 & H2). split; [exact H0|split; [exact H1|apply ctx_sub_ok_mono; exact H2]]. Qed.
Lemma msup_at_mono s m q c : msup_at s q c -> msup_at (mstep s m) q c.
Proof. destruct c as [ch ts sub]. intros [[H1 H2] H3]. split; [split; [exact H1|apply is_child_ref_mono; exact H2]|apply ctx_sub_ok_mono; exact H3]. Qed.
Lemma sup_ok_mono s m q c ts : sup_ok s q c ts -> sup_ok (mstep s m) q c ts.
Proof.
  destruct c as [ch ts0 sub]. intros [(H1 & H2 & H3) H4]. split; [split; [apply is_child_ref_mono; exact H1|split]|apply ctx_sub_ok_mono; exact H4].
  - intros r Hr. apply is_child_ref_mono. auto.
  - destruct H3 as [H|(d & -> & Hd & H)]; [left; exact H|right; exists d; split; [reflexivity|split; [exact Hd|apply unreg_mono; exact H]]].
Qed.
Lemma land_ok_mono s m self mb : land_ok s self mb -> land_ok (mstep s m) self mb.
Proof. destruct mb; cbn [land_ok]; auto; apply is_child_ref_mono. Qed.
Lemma xe_ok_mono s m a e : xe_ok s a e -> xe_ok (mstep s m) a e.
Proof. intros H c Hc. apply msup_at_mono. auto. Qed.
Lemma xi_ok_mono s m a i : xi_ok s a i -> xi_ok (mstep s m) a i.
Proof.
  destruct i; cbn [xi_ok]; auto.
  - intros H c Hc. destruct (H c Hc) as [(x & Hg & Hr) Ho]. split; [|apply own_report_mono; exact Ho].
    destruct (idT_mstep s m a x Hg ltac:(tauto)) as (x' & Hg' & _ & Hp & _). exists x'. split; [exact Hg'|]. unfold rref_parent. rewrite Hp. exact Hr.
  - intros H c Hc. destruct (H c Hc) as [Ho Hl]. split; [apply own_report_mono; exact Ho|apply land_ok_mono; exact Hl].
  - apply xe_ok_mono.
  - intros [H1 H2]. split; [apply sup_ok_mono; exact H1|exact H2].
  - intros [H1 H2]. split; [apply sup_ok_mono; exact H1|exact H2].
Qed.

Lemma in_map_snd_alookup (l : list (path * aid)) p c : alookup l p = Some c -> In (RObj c) (map (fun q => RObj (snd q)) l).
Proof.
  induction l as [|[q v] l IH]; cbn [alookup map]; [discriminate|]. destruct (path_eqb p q).
  - intros H. inversion H. left. reflexivity.
  - intros H. right. apply IH. exact H.
Qed.

(** only [IFailed] and an escalating [ISupApply] create a report, the pause loop hands its context on *)
Lemma xexec1_front S s t h i x :
  RInv S -> get s (self_of t) = Some x -> (exists xS, get S (self_of t) = Some xS /\ a_parent xS = a_parent x) ->
  Forall (xe_ok S (self_of t)) (envs x) -> xi_ok S (self_of t) i ->
  Forall (xi_ok S (self_of t)) (snd (exec1 s t h i)).
Proof.
  intros HRS Hg (xS & HgS & HpS) Hok Hi. apply Forall_forall. intros j Hj. rewrite Forall_forall in Hok.
  assert (Hpar : exists x0, get S (self_of t) = Some x0 /\ rref_parent x = rref_parent x0)
    by (exists xS; split; [exact HgS|unfold rref_parent; rewrite HpS; reflexivity]).
  destruct (exec1_emits _ _ _ _ _ _ Hg Hj); try exact I; try (intros c0 Hc0; discriminate Hc0).
  - apply Hok, In_stash_envs, He.
  - (* only a context with a parent fails *)
    intros E0. destruct HRS as ((x0 & Hg0 & Hp0 & _) & _). rewrite E0 in HgS. assert (xS = x0) by congruence; subst. congruence.
  - intros c0 Hc0. inversion Hc0; subst c0. split; [exact Hpar|]. split; [exact Hi|split; [split; reflexivity|exact I]].
  - (* escalation: the decided level goes below the new report *)
    destruct Hi as [Hsup Hroot]. destruct c as [ch ts0 sub]. destruct Hsup as [(Hc1 & Hc2 & Hc3) Hc4].
    intros c0 Hc0. inversion Hc0; subst c0. split; [exact Hpar|].
    split; [intros E0; specialize (Hroot E0); destruct Hd; congruence|]. split; [split; reflexivity|].
    split; [|exact Hc4]. exists (self_of t). split; [reflexivity|split; assumption].
  - exact Hi.
Qed.

Lemma regd_dec s b xb : {regd s b xb} + {~ regd s b xb}.
Proof. unfold regd. destruct (alookup (reg s) (a_path xb)) as [y|]; [destruct (Nat.eq_dec y b); [left; congruence|right; congruence]|right; discriminate]. Qed.

Lemma sup_ok_single S a c : msup_at S a c -> sup_ok S a c ((match c with SupCtx ch _ _ => [ch] end) ++ []).
Proof.
  destruct c as [ch ts sub]. intros [[Hts Hch] Hsub]. split; [|exact Hsub]. rewrite app_nil_r.
  split; [exact Hch|split; [intros r [<-|[]]; exact Hch|left; left; reflexivity]].
Qed.

Lemma sup_ok_children S a xS x c :
  RInv S -> KInv S -> get S a = Some xS -> a_children xS = a_children x -> msup_at S a c ->
  sup_ok S a c (map (fun p => RObj (snd p)) (a_children x) ++ []).
Proof.
  intros (Ra & Rb & _) [K10 K9] Hg Hch Hm. destruct c as [ch ts sub]. destruct Hm as [[Hts Hcr] Hsub]. split; [|exact Hsub]. rewrite app_nil_r.
  split; [exact Hcr|split].
  - intros r Hr. apply in_map_iff in Hr. destruct Hr as ([p c0] & <- & Hin). cbn [snd]. rewrite <- Hch in Hin.
    destruct (K10 a xS p c0 Hg Hin) as (xc & Hxc & Hp & _). exists c0, xc. split; [reflexivity|]. split; [|split; [exact Hxc|left; exact Hp]].
    intros ->. destruct Ra as (x0 & Hg0 & Hp0 & _). assert (xc = x0) by congruence; subst. congruence.
  - destruct Hcr as (d & xd & -> & Hne & Hgd & [Hp|Hu]); [|right; exists d; split; [reflexivity|split; [exact Hne|exact Hu]]].
    destruct (regd_dec S d xd) as [Hr|Hn]; [|right; exists d; split; [reflexivity|split; [exact Hne|exists xd; split; assumption]]].
    left. destruct (K9 d xd Hgd Hne Hr) as (q & xq & Hq & Hxq & Hlk). assert (q = a) by congruence; subst q. assert (xq = xS) by congruence; subst xq.
    rewrite Hch in Hlk. apply (in_map_snd_alookup _ _ _ Hlk).
Qed.

Lemma xdispatch S s a x e xS :
  RInv S -> KInv S -> get s a = Some x -> get S a = Some xS -> a_children xS = a_children x ->
  (a = 0 -> sp_strategy (a_spec x) = 0%N) ->
  Forall (xe_ok S a) (envs x) -> xe_ok S a e ->
  (exists y, get (fst (dispatch s a x e)) a = Some y /\ Forall (xe_ok S a) (envs y)) /\
  Forall (xi_ok S a) (snd (dispatch s a x e)).
Proof.
  intros HR HK Hg HgS Hch Hstrat Hok He. split; [apply (dispatch_envs _ s a x e Hg Hok He); intros k p c0 Hc0; discriminate Hc0|].
  assert (Hkc : Forall (xi_ok S a) (kill_children a x)) by (apply Forall_kill_children; intros l c0 Hc0; discriminate Hc0).
  destruct (dispatch_cases s a x e) as [| |r _ []]; cbn [snd]; unfold dead_report;
    try destruct poison; try match goal with Hs : a_state x <> Running |- _ => destruct (a_state x); [congruence| |] end; cbn [app];
    repeat first [apply Forall_cons; [exact I|] | apply Forall_nil | apply Forall_app; split | exact Hkc].
  - constructor; [intros c0 Hc0; discriminate Hc0|repeat constructor].
  - (* a report: the decision is taken for the reporting child or for all children *)
    constructor; [|repeat constructor]. split.
    + unfold sup_targets. destruct (sp_strategy (a_spec x)) as [|[p|[]|]]; try apply (sup_ok_single S a c (He c Em)).
      apply (sup_ok_children S a xS x c HR HK HgS Hch (He c Em)).
    + intros E0. unfold sup_decision. rewrite (Hstrat E0). reflexivity.
Qed.

Lemma xland_R S self sys mb sdr m :
  xi_ok S self (IEnqR sys mb sdr m) ->
  xe_ok S (fst (landing mb {| e_sys := sys; e_sender := sdr; e_msg := m |})) (snd (landing mb {| e_sys := sys; e_sender := sdr; e_msg := m |})).
Proof.
  intros H. destruct mb; cbn [landing fst snd xi_ok land_ok] in *.
  - intros c Hc. cbn in Hc. destruct (H c Hc) as [(Hn0 & Ho & Hs) Hl]. destruct c as [ch ts sub]. destruct Ho as [-> ->]. split; [split; [reflexivity|exact Hl]|exact Hs].
  - intros c Hc. cbn in Hc. destruct (H c Hc) as [(Hn0 & Ho & Hs) Hl]. destruct c as [ch ts sub]. destruct Ho as [-> ->]. split; [split; [reflexivity|exact Hl]|exact Hs].
  - intros c Hc. discriminate Hc.
Qed.

Lemma xland_plain S mb sys sdr m : (forall c, m <> MSup c) ->
  xe_ok S (fst (landing mb {| e_sys := sys; e_sender := sdr; e_msg := m |})) (snd (landing mb {| e_sys := sys; e_sender := sdr; e_msg := m |})).
Proof. intros H. destruct mb; cbn [landing fst snd]; intros c Hc; cbn in Hc; try (exfalso; exact (H c Hc)); discriminate Hc. Qed.

Lemma xresolve s self sys r sdr m x :
  LI s -> RInv s -> KInv s -> RootC s -> get s self = Some x ->
  xi_ok s self (IEnq sys r sdr m) -> xi_ok s self (IEnqR sys (fst (resolve s r)) sdr m).
Proof.
  intros HLI HR HK HC Hg H c Hc. destruct (H c Hc) as [(x' & Hg' & Hr) Ho]. split; [exact Ho|].
  assert (x' = x) by congruence; subst x'. pose proof HR as (Ra & Rb & Rc & R1 & R8).
  assert (Hunreg : ~ regd s self x -> unreg s self) by (intros Hn; exists x; split; assumption).
  assert (Hself0 : self <> 0) by (apply Ho).
  assert (Hchild : forall y, (a_parent x = Some y \/ unreg s self) -> is_child_ref s y (RObj self)) by (intros y Hy; exists self, x; auto).
  subst r. unfold rref_parent. destruct (a_parent x) as [q|] eqn:Hpar.
  - destruct (Rb self x Hg Hself0) as [(q' & Hq' & Hlt) _]. assert (q' = q) by congruence; subst q'.
    assert (Hex : exists xq, get s q = Some xq).
    { destruct (get s q) as [xq|] eqn:E; [eauto|]. apply nth_error_None in E. apply nth_error_lt in Hg. lia. }
    destruct Hex as (xq & Hgq).
    assert (Hpreg : regd s self x -> q <> 0 -> regd s q xq).
    { intros Hrs Hq0. destruct (parent_alive s self x HLI HR HK Hg Hself0 Hrs) as (q2 & xq2 & Hq2 & _ & Hxq2 & _ & _ & _ & Hrq).
      assert (q2 = q) by congruence; subst q2. assert (xq2 = xq) by congruence; subst xq2. apply Hrq. exact Hq0. }
    unfold resolve. rewrite Hgq. destruct (a_cache xq) as [y|] eqn:Hcq; cbn [fst land_ok].
    + destruct (Nat.eq_dec q 0) as [->|Hq0]; [rewrite (HC _ Hgq) in Hcq; discriminate|].
      destruct (R8 q xq y Hgq Hcq) as [->|Hnq]; [apply Hchild; left; reflexivity|].
      apply Hchild. right. apply Hunreg. intros Hrs. apply Hnq. apply Hpreg; assumption.
    + destruct (alookup (reg s) (a_path xq)) as [y|] eqn:Hlk; cbn [fst land_ok].
      * destruct (regd_dec s self x) as [Hrs|Hn]; [|apply Hchild; right; apply Hunreg; exact Hn].
        destruct (Nat.eq_dec q 0) as [->|Hq0].
        -- destruct Ra as (x0 & Hg0 & _ & Hp0). assert (xq = x0) by congruence; subst. rewrite Hp0, Rc in Hlk. discriminate.
        -- pose proof (Hpreg Hrs Hq0) as Hrq. unfold regd in Hrq. assert (y = q) by congruence; subst. apply Hchild. left. reflexivity.
      * destruct (path_eqb (a_path xq) []) eqn:Ep; cbn [fst land_ok]; [|exact I].
        apply path_eqb_eq in Ep. apply Hchild. left. f_equal.
        destruct (Nat.eq_dec q 0) as [->|Hq0]; [reflexivity|]. destruct (Rb q xq Hgq Hq0) as [_ Hpn]. congruence.
  - exfalso. destruct (Rb self x Hg Hself0) as [(q & Hq & _) _]. congruence.
Qed.

Lemma nth_error_split_In {A} (l : list A) k x : nth_error l k = Some x ->
  forall y, In y l <-> In y (firstn k l ++ skipn (S k) l) \/ y = x.
Proof.
  revert k. induction l as [|h t IH]; intros [|k] H y; cbn [nth_error firstn skipn app] in *; try discriminate.
  - inversion H; subst. cbn. intuition (subst; auto).
  - specialize (IH k H y). change (In y (h :: t) <-> In y (h :: (firstn k t ++ skipn (S k) t)) \/ y = x). cbn [In]. tauto.
Qed.

Lemma sup_ok_same_members s q c l1 l2 : (forall r, In r l1 <-> In r l2) -> sup_ok s q c l1 -> sup_ok s q c l2.
Proof.
  intros Heq. destruct c as [ch ts sub]. intros [(H1 & H2 & H3) H4]. split; [|exact H4]. split; [exact H1|split].
  - intros r Hr. apply H2. apply Heq. exact Hr.
  - destruct H3 as [H|H]; [left; apply Heq; exact H|right; exact H].
Qed.

Definition Base6 (s : state) : Prop := Base4 s /\ KInv s /\ RootC s /\ RootS s.

Theorem XI_mstep s m : wf s -> LI s -> RInv s -> KInv s -> RootC s -> RootS s -> XI s -> XI (mstep s m).
Proof.
  intros W HLI HR HK HC HS.
  apply (AllOk_mstep xe_ok xi_ok (fun s => wf s /\ LI s /\ RInv s /\ KInv s /\ RootC s /\ RootS s)); [| | | | | | | | | | | |exact (conj W (conj HLI (conj HR (conj HK (conj HC HS)))))].
  - intros s0 H. apply H.
  - apply xe_ok_mono.
  - apply xi_ok_mono.
  - intros. split; exact I.
  - intros s0 a e [E|E] c Hc; rewrite E in Hc; discriminate Hc.
  - intros s0 t sys r sdr m0 rest (_ & I0 & R0 & K0 & C0 & _) HM Hp. destruct (RInv_self s0 t R0 _ _ Hp) as (x & Hg).
    apply (xresolve s0 (self_of t) sys r sdr m0 x I0 R0 K0 C0 Hg). apply (AllOk_pend _ _ s0 s0 t _ rest HM Hp).
  - intros s0 a sys mb sdr m0 H. apply (xland_R s0 a). exact H.
  - intros s0 a b e H. exact H.
  - intros s0 a sys tos sdr m0 H. split; [intros; exact H|intros mb; apply xland_plain; exact H].
  - intros s0 t cx d rem done c to rest _ HM Hp Hn. destruct (AllOk_pend _ _ s0 s0 t _ rest HM Hp) as [[Hi Hroot] _].
    split; [|apply xland_plain; intros c1 Hc1; discriminate Hc1]. split; [|exact Hroot].
    eapply sup_ok_same_members; [|exact Hi]. intros r0. pose proof (nth_error_split_In _ _ _ Hn r0) as E.
    rewrite !in_app_iff in *. cbn [In]. intuition (subst; auto).
  - intros s0 a x e (_ & _ & R0 & K0 & _ & S0) Hg Hb He.
    apply (xdispatch s0 _ a (busy x) e x R0 K0 (get_set_same' s0 a _ x Hg) Hg eq_refl); [intros ->; apply (S0 _ Hg)|exact Hb|exact He].
  - intros s0 t i rest x (_ & _ & R0 & _) HM Hg Hp Hy Hq. rewrite <- (mstep_atomic_exec s0 t i rest Hp Hy Hq).
    destruct (astep_table s0 t i rest x Hg Hp) as (Hg0 & _). cbv zeta in Hg0.
    eapply Forall_impl; [intros i0; apply xi_ok_mono|]. apply (xexec1_front s0 _ t _ i _ R0 Hg0).
    + exists x. split; [exact Hg|destruct t; reflexivity].
    + rewrite envs_popped. apply (proj1 HM _ _ Hg).
    + apply (AllOk_pend _ _ s0 s0 t i rest HM Hp).
Qed.

Lemma XI_init scs : XI (init_with scs).
Proof. apply AllOk_init. intros; exact I. Qed.

Lemma Base6_init scs : Base6 (init_with scs).
Proof. split; [apply Base4_init|split; [apply KInv_init|split; [apply RootC_init|apply RootS_init]]]. Qed.
Lemma Base6_mstep s m : Base6 s -> Base6 (mstep s m).
Proof.
  intros (B & K & C & S). pose proof B as (W & I & R & M).
  split; [apply Base4_mstep; exact B|split; [apply KInv_mstep; assumption|split; [apply RootC_mstep; assumption|apply RootS_mstep; assumption]]].
Qed.

Theorem XI_reachable s : reachable s -> XI s.
Proof.
  revert s. apply (micro_invariant_with Base6 XI); [apply Base6_init|apply Base6_mstep|apply XI_init|].
  intros s m ((W & I & R & M) & K & C & S) HX. apply XI_mstep; assumption.
Qed.
