(** Association lists, and what [exec1] does for the single instructions of C05-a/c/d and C06-b (one equation per
    instruction and case). *)
From Coq Require Import List NArith Arith Lia.
From Vivid Require Import Actor.Core Actor.ProofsMailBase.
Import ListNotations.
Local Open Scope N_scope.

Lemma path_eqb_refl p : path_eqb p p = true.
Proof. induction p; cbn [path_eqb]; [reflexivity|]. rewrite N.eqb_refl, IHp. reflexivity. Qed.

Lemma path_eqb_eq p q : path_eqb p q = true <-> p = q.
Proof.
  split; [|intros ->; apply path_eqb_refl].
  revert q; induction p as [|x p IH]; intros [|y q]; cbn [path_eqb]; try discriminate; [reflexivity|].
  intros H. apply andb_prop in H as [H1 H2]. apply N.eqb_eq in H1. apply IH in H2. congruence.
Qed.

Lemma path_eqb_sym p q : path_eqb p q = path_eqb q p.
Proof.
  destruct (path_eqb p q) eqn:E.
  - apply path_eqb_eq in E. subst. symmetry. apply path_eqb_refl.
  - destruct (path_eqb q p) eqn:E'; [|reflexivity]. apply path_eqb_eq in E'. subst. rewrite path_eqb_refl in E. discriminate.
Qed.

Lemma alookup_aremove_same {A} (l : list (path * A)) p : alookup (aremove l p) p = None.
Proof.
  induction l as [|[q v] l IH]; cbn [aremove alookup]; [reflexivity|].
  destruct (path_eqb p q) eqn:E; [exact IH|]. cbn [alookup]. rewrite E. exact IH.
Qed.

Lemma alookup_aremove_other {A} (l : list (path * A)) p q : path_eqb q p = false -> alookup (aremove l p) q = alookup l q.
Proof.
  intros Hne. induction l as [|[r v] l IH]; cbn [aremove alookup]; [reflexivity|].
  destruct (path_eqb p r) eqn:E.
  - apply path_eqb_eq in E. subst r. rewrite Hne. exact IH.
  - cbn [alookup]. rewrite IH. reflexivity.
Qed.

Lemma alookup_app {A} (l1 l2 : list (path * A)) p :
  alookup (l1 ++ l2) p = match alookup l1 p with Some v => Some v | None => alookup l2 p end.
Proof.
  induction l1 as [|[q v] l1 IH]; cbn [app alookup]; [reflexivity|].
  destruct (path_eqb p q); [reflexivity|exact IH].
Qed.

Lemma alookup_aset_same {A} (l : list (path * A)) p v : alookup (aset l p v) p = Some v.
Proof. unfold aset. rewrite alookup_app, alookup_aremove_same. cbn [alookup]. rewrite path_eqb_refl. reflexivity. Qed.

Lemma alookup_aset_other {A} (l : list (path * A)) p q v : path_eqb q p = false -> alookup (aset l p v) q = alookup l q.
Proof.
  intros H. unfold aset. rewrite alookup_app, alookup_aremove_other by exact H.
  destruct (alookup l q); [reflexivity|]. cbn [alookup]. rewrite H. reflexivity.
Qed.

Lemma aremove_nil_of_nil {A} p : @aremove A [] p = [].
Proof. reflexivity. Qed.

Lemma aremove_In {A} (l : list (path * A)) p q v : In (q, v) (aremove l p) -> In (q, v) l /\ path_eqb p q = false.
Proof.
  induction l as [|[r w] l IH]; cbn [aremove]; [intros []|].
  destruct (path_eqb p r) eqn:E.
  - intros H. apply IH in H as [H1 H2]. split; [right; exact H1|exact H2].
  - intros [H|H]; [inversion H; subst; split; [left; reflexivity|exact E]|]. apply IH in H as [H1 H2]. split; [right; exact H1|exact H2].
Qed.

Lemma unsub_all_spec l p ty m : In (ty, m) (unsub_all l p) -> alookup m p = None.
Proof.
  induction l as [|[ty' m'] l IH]; cbn [unsub_all]; [intros []|].
  destruct (alookup m' p) eqn:E.
  - destruct (aremove m' p) eqn:E2; [exact IH|].
    intros [H|H]; [|exact (IH H)]. inversion H; subst. rewrite <- E2. apply alookup_aremove_same.
  - intros [H|H]; [|exact (IH H)]. inversion H; subst. exact E.
Qed.

Lemma nlookup_In {A} (l : list (N * A)) k v : nlookup l k = Some v -> In (k, v) l.
Proof.
  induction l as [|[q w] l IH]; cbn [nlookup]; [discriminate|].
  destruct (N.eqb k q) eqn:E; [|intros H; right; exact (IH H)].
  intros H; inversion H; subst. apply N.eqb_eq in E. subst. left; reflexivity.
Qed.

Lemma nth_error_upd_same {A} (l : list A) i x y : nth_error l i = Some y -> nth_error (upd l i x) i = Some x.
Proof. intros H. apply nth_upd_eq. eapply nth_error_lt; exact H. Qed.

Lemma exec1_spawn_prelaunch_fail s t held sp x :
  get s (self_of t) = Some x -> a_state x <> Killed -> sp_prelaunch sp = false ->
  exec1 s t held (IAct (ASpawn sp)) = (add_obs s (OSpawn (self_of t) (sp_name sp) 2), []).
Proof.
  intros Hg Hst Hp. unfold exec1. rewrite Hg, Hp. cbn [negb].
  destruct (a_state x); try reflexivity. congruence.
Qed.

Lemma exec1_spawn_parent_dead s t held sp x :
  get s (self_of t) = Some x -> a_state x = Killed ->
  exec1 s t held (IAct (ASpawn sp)) = (add_obs s (OSpawn (self_of t) (sp_name sp) 1), []).
Proof. intros Hg Hst. unfold exec1. rewrite Hg, Hst. reflexivity. Qed.

Lemma exec1_spawn_exists s t held sp x c :
  get s (self_of t) = Some x -> a_state x <> Killed -> sp_prelaunch sp = true ->
  alookup (reg s) (a_path x ++ [sp_name sp]) = Some c ->
  exec1 s t held (IAct (ASpawn sp)) = (add_obs s (OSpawn (self_of t) (sp_name sp) 3), []).
Proof.
  intros Hg Hst Hp Hr. unfold exec1. rewrite Hg, Hp, Hr. cbn [negb].
  destruct (a_state x); try reflexivity. congruence.
Qed.

Lemma exec1_spawn_ok s t held sp x s' front :
  get s (self_of t) = Some x -> a_state x <> Killed -> sp_prelaunch sp = true ->
  alookup (reg s) (a_path x ++ [sp_name sp]) = None ->
  exec1 s t held (IAct (ASpawn sp)) = (s', front) ->
  let self := self_of t in
  let p := a_path x ++ [sp_name sp] in
  let c := length (actors s) in
  let g := match alookup (gens s) p with Some g => g | None => 0 end in
  length (actors s') = S c /\
  get s' c = Some (new_actor p g (Some self) sp) /\
  (forall b, b <> self -> b <> c -> get s' b = get s b) /\
  get s' self = Some (set_children x (aset (a_children x) p c)) /\
  reg s' = reg s ++ [(p, c)] /\ alookup (reg s') p = Some c /\
  gens s' = aset (gens s) p (g + 1) /\
  olog s' = olog s /\ subs s' = subs s /\ err s' = err s /\
  front = [IEnq true (RObj c) (RObj self) MLaunch; IEnqDone; IPub evSpawned (p ++ [g])]
          ++ (if match a_state x with Killing => true | _ => false end
              then [IEnq true (RObj c) (RObj self) (MKill (RObj self) false); IEnqDone] else [])
          ++ [IObs (OSpawn self (sp_name sp) 0)].
Proof.
  intros Hg Hst Hp Hr He. cbv zeta. pose proof (nth_error_lt _ _ _ Hg) as Hlt.
  destruct (exec1_spawn s t held sp x Hg) as [[code E]|(_ & _ & _ & g & s1 & E & Ha & Hrg & _ & _ & Hsb & Hol & _ & Her & -> & Hgn)].
  { unfold exec1 in E. rewrite Hg, Hp, Hr in E. destruct (a_state x); try congruence; discriminate E. }
  rewrite E in He. injection He as <- <-. unfold get. rewrite Ha.
  split; [rewrite app_length, upd_length; cbn [length]; lia|].
  split; [rewrite nth_error_app2, upd_length, Nat.sub_diag by (rewrite upd_length; lia); reflexivity|].
  split.
  { intros b Hb1 Hb2. destruct (Nat.lt_ge_cases b (length (actors s))) as [Hb|Hb].
    - rewrite nth_error_app1, nth_upd_neq by (rewrite ?upd_length; congruence). reflexivity.
    - rewrite (proj2 (nth_error_None (actors s) b)) by exact Hb. apply nth_error_None. rewrite app_length, upd_length. cbn [length]. lia. }
  split; [rewrite nth_error_app1 by (rewrite upd_length; exact Hlt); apply nth_upd_eq, Hlt|].
  split; [exact Hrg|]. split; [rewrite Hrg, alookup_app, Hr; cbn [alookup]; rewrite path_eqb_refl; reflexivity|].
  repeat split; try assumption. destruct (a_state x); reflexivity.
Qed.

Definition hooks_ok (x : actor) : bool := match a_hooks x with (_, r_ok, p_ok) :: _ => r_ok && p_ok | [] => true end.

Definition launch_env (x : actor) : envelope := {| e_sys := true; e_sender := rref_parent x; e_msg := MLaunch |}.

Lemma exec1_restart_finish_ok s t held x :
  get s (self_of t) = Some x -> hooks_ok x = true ->
  exists x',
    exec1 s t held IRestartFinish =
      (set_actor s (self_of t) x',
       [IResume1; IPub evRestarted (actor_key x); IPub evResumed (actor_key x);
        IBeh MLaunch (sp_launch (a_spec x)) RecFail; IPub evLaunched (actor_key x)]) /\
    a_state x' = Running /\ a_restarting x' = None /\ a_zombie x' = a_zombie x /\
    a_modes x' = [0] /\ a_inst x' = (if sp_provider (a_spec x) then a_inst x + 1 else a_inst x) /\
    a_hooks x' = tl (a_hooks x) /\ a_cons x' = CBusy 0 /\ a_cur x' = Some (launch_env x) /\
    a_path x' = a_path x /\ a_gen x' = a_gen x /\ a_parent x' = a_parent x /\ a_spec x' = a_spec x /\
    a_children x' = a_children x /\ a_watchers x' = a_watchers x /\ a_stash x' = a_stash x /\
    a_decisions x' = a_decisions x /\ a_sq x' = a_sq x /\ a_uq x' = a_uq x /\ a_paused x' = a_paused x /\ a_pend x' = a_pend x.
Proof.
  intros Hg Hok. unfold exec1. rewrite Hg. unfold hooks_ok in Hok.
  destruct (a_hooks x) as [|[[h1 h2] h3] hs] eqn:Hh.
  - eexists. split; [reflexivity|]. destruct (sp_provider (a_spec x)); cbn; repeat split; reflexivity.
  - rewrite Hok. eexists. split; [reflexivity|]. destruct (sp_provider (a_spec x)); cbn; repeat split; reflexivity.
Qed.

Lemma exec1_restart_finish_fail s t held x :
  get s (self_of t) = Some x -> hooks_ok x = false ->
  exists x',
    exec1 s t held IRestartFinish = (set_actor s (self_of t) x', [IResume1]) /\
    a_zombie x' = true /\ a_state x' = a_state x /\ a_restarting x' = a_restarting x /\
    a_modes x' = [0] /\ a_hooks x' = tl (a_hooks x) /\ a_cons x' = a_cons x /\ a_children x' = a_children x /\
    a_path x' = a_path x /\ a_pend x' = a_pend x.
Proof.
  intros Hg Hok. unfold exec1. rewrite Hg. unfold hooks_ok in Hok.
  destruct (a_hooks x) as [|[[h1 h2] h3] hs] eqn:Hh; [discriminate|].
  rewrite Hok. eexists. split; [reflexivity|]. destruct (sp_provider (a_spec x)); cbn; repeat split; reflexivity.
Qed.

Lemma exec1_IBeh_logs s t held x m acts r pa :
  get s (self_of t) = Some x -> a_zombie x = false -> a_parent x = Some pa ->
  fst (exec1 s t held (IBeh m acts r)) =
    add_obs s (OSeen (self_of t) (a_inst x) (match a_cons x with CBusy md => md | _ => mode_top x end) m).
Proof.
  intros Hg Hz Hp. unfold exec1. rewrite Hg, Hz, Hp. destruct (take_until_panic acts). reflexivity.
Qed.

Lemma exec1_IPub s t held x ty pl :
  get s (self_of t) = Some x ->
  exec1 s t held (IPub ty pl) =
    (s, match subscribers s ty with
        | [] => []
        | l => [IEnqAny false (map (fun p => RObj (snd p)) l) root_ref (MEvent ty pl)]
        end).
Proof. intros Hg. unfold exec1. rewrite Hg. destruct (subscribers s ty); reflexivity. Qed.

Lemma ref_eq_self s a x : get s a = Some x -> ref_eq s (RObj a) (RObj a) = true.
Proof. intros Hg. unfold ref_eq, ref_path. rewrite Hg. apply path_eqb_refl. Qed.

Lemma exec1_IOnKilled_own s t held x who :
  get s (self_of t) = Some x -> a_zombie x = false -> ref_eq s who (RObj (self_of t)) = true ->
  exec1 s t held (IOnKilled who) = (s, [ICheckMark]).
Proof. intros Hg Hz Hre. unfold exec1. rewrite Hg, Hz, Hre. reflexivity. Qed.

Lemma exec1_IOnKilled_other s t held x who :
  get s (self_of t) = Some x -> a_zombie x = false -> ref_eq s who (RObj (self_of t)) = false ->
  exists x',
    exec1 s t held (IOnKilled who) =
      (set_actor s (self_of t) x', [IBeh (MKilled who) (sp_killed (a_spec x)) (RecKilled who); ICheckMark]) /\
    (a_children x' = a_children x \/
     exists c p, who = RObj c /\ ref_path s who = Some p /\ alookup (a_children x) p = Some c /\
                 a_children x' = aremove (a_children x) p) /\
    a_state x' = a_state x /\ a_zombie x' = false /\ a_restarting x' = a_restarting x /\ a_pend x' = a_pend x /\
    a_cons x' = a_cons x /\ a_path x' = a_path x /\ a_parent x' = a_parent x.
Proof.
  intros Hg Hz Hne. unfold exec1. rewrite Hg, Hz, Hne.
  eexists. split; [reflexivity|].
  destruct who as [c| |]; try (repeat split; try assumption; try reflexivity; left; reflexivity).
  destruct (ref_path s (RObj c)) as [p|] eqn:Hp; [|repeat split; try assumption; try reflexivity; left; reflexivity].
  destruct (alookup (a_children x) p) as [c'|] eqn:Hl; [|repeat split; try assumption; try reflexivity; left; reflexivity].
  destruct (Nat.eqb c c') eqn:Hc; [|repeat split; try assumption; try reflexivity; left; reflexivity].
  apply Nat.eqb_eq in Hc. subst c'.
  cbn. repeat split; try assumption. right. exists c, p. repeat split; assumption.
Qed.

Lemma exec1_ICheckMark_marks s t held x :
  get s (self_of t) = Some x -> a_children x = [] -> a_state x = Killing ->
  exists x',
    exec1 s t held ICheckMark =
      (set_actor s (self_of t) x',
       [IBeh (MKilled (RObj (self_of t))) (sp_killed (a_spec x)) RecLog]
       ++ match a_restarting x with None => [ICleanup] | Some _ => [IRestartFinish] end) /\
    a_state x' = Killed /\ a_children x' = [] /\ a_zombie x' = a_zombie x /\ a_restarting x' = a_restarting x /\
    a_cur x' = Some {| e_sys := true; e_sender := match a_cur x with Some e0 => e_sender e0 | None => RNone end;
                       e_msg := MKilled (RObj (self_of t)) |} /\
    a_pend x' = a_pend x /\ a_cons x' = a_cons x /\ a_path x' = a_path x /\ a_parent x' = a_parent x.
Proof.
  intros Hg Hc Hs. unfold exec1. rewrite Hg, Hc, Hs. eexists. split; [reflexivity|]. cbn. repeat split; assumption.
Qed.

Lemma exec1_ICheckMark_noop s t held x :
  get s (self_of t) = Some x -> (a_children x <> [] \/ a_state x <> Killing) ->
  exec1 s t held ICheckMark = (s, []).
Proof.
  intros Hg H. unfold exec1. rewrite Hg.
  destruct (a_children x); destruct (a_state x); try reflexivity. destruct H; congruence.
Qed.

Lemma exec1_ICheckMark_cases s t h x :
  get s (self_of t) = Some x ->
  (a_children x = [] /\ a_state x = Killing /\
   exists x', fst (exec1 s t h ICheckMark) = set_actor s (self_of t) x' /\ a_state x' = Killed /\ a_children x' = []) \/
  ((a_children x <> [] \/ a_state x <> Killing) /\ exec1 s t h ICheckMark = (s, [])).
Proof.
  intros Hg. destruct (a_children x) eqn:Hc.
  - destruct (a_state x) eqn:Hs.
    + right. split; [right; discriminate|]. apply (exec1_ICheckMark_noop _ _ h _ Hg). right. congruence.
    + left. split; [reflexivity|]. split; [reflexivity|].
      destruct (exec1_ICheckMark_marks _ _ h _ Hg Hc Hs) as (x' & He & H1 & H2 & _). exists x'. rewrite He. auto.
    + right. split; [right; discriminate|]. apply (exec1_ICheckMark_noop _ _ h _ Hg). right. congruence.
  - right. split; [left; discriminate|]. apply (exec1_ICheckMark_noop _ _ h _ Hg). left. congruence.
Qed.

Lemma exec1_ICleanup s t held x :
  get s (self_of t) = Some x ->
  exec1 s t held ICleanup =
    (set_reg (set_subs s (unsub_all (subs s) (a_path x))) (aremove (reg s) (a_path x)),
     (match a_watchers x with
      | [] => []
      | l => [IEnqAny true (map snd l) (RObj (self_of t)) (MKilled (RObj (self_of t)))]
      end)
     ++ (match a_parent x with
         | Some p => [IEnq true (RObj p) (RObj (self_of t)) (MKilled (RObj (self_of t))); IEnqDone]
         | None => []
         end)
     ++ [IPub evKilled (actor_key x); IResume1]).
Proof. intros Hg. unfold exec1. rewrite Hg. reflexivity. Qed.

Lemma other_killed_not_own s a x who :
  get s a = Some x -> ref_eq s who (RObj a) = false -> who <> RObj a.
Proof. intros Hg Hne ->. rewrite (ref_eq_self _ _ _ Hg) in Hne. discriminate. Qed.
