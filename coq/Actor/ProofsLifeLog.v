(** C05-b and the restart clause of C05 over whole histories: in the log of an actor's behaviour invocations, its own
    OnKilled is followed by nothing but the OnLaunch of a restart, and that is handled by the behaviour the stack is
    reset to (mode 0) of the instance the restart put in charge.  One invariant over [seen_full]. *)
From Coq Require Import List NArith Arith Bool.
From Vivid Require Import Actor.Core Actor.CoreRun Actor.ProofsMailBase Actor.ProofsMail Actor.ProofsMailInv Actor.ProofsMailWf Actor.SpecLife Actor.SpecRestartLog Actor.ProofsLife Actor.ProofsLifeSum Actor.ProofsLifePhase Actor.ProofsLifeGen Actor.ProofsLifeTree.
Import ListNotations.
Local Open Scope N_scope.

Definition par (a : aid) (x : actor) : Prop := (a = 0%nat -> a_parent x = None) /\ (a <> 0%nat -> a_parent x <> None).

Lemma par_vsame a x y : vsame x y -> par a x -> par a y.
Proof. intros Hv HP. unfold par. destruct Hv as (_ & _ & -> & _). exact HP. Qed.
Lemma par_new a p n g pa sp : a <> 0%nat -> par a (new_actor (p ++ [n]) g (Some pa) sp).
Proof. intros Ha. split; [congruence|discriminate]. Qed.
Lemma par_root : par 0%nat (new_actor [] 0 None root_spec).
Proof. split; [reflexivity|congruence]. Qed.
Lemma par_exec_TA s a x i rest h s1 front x1 :
  INV a x -> a_pend x = i :: rest -> yielding i = false -> par a x ->
  get s a = Some (upd_pend x rest) -> exec1 s (TA a) h i = (s1, front) -> get s1 a = Some x1 -> par a x1.
Proof.
  intros _ _ _ HP Hg He Hg1.
  destruct (exec1_self _ _ _ _ _ _ _ He Hg) as (x' & Hg' & Hl). cbn [self_of] in Hg'. rewrite Hg1 in Hg'. inversion Hg'; subst x'.
  unfold par. rewrite (lu_parent _ _ _ Hl). exact HP.
Qed.
Lemma par_exec_TX s k x i h s1 front x1 :
  sig i = false -> par 0%nat x -> get s 0%nat = Some x -> exec1 s (TX k) h i = (s1, front) -> get s1 0%nat = Some x1 -> par 0%nat x1.
Proof.
  intros _ HP Hg He Hg1.
  destruct (exec1_self _ _ _ _ _ _ _ He Hg) as (x' & Hg' & Hl). cbn [self_of] in Hg'. rewrite Hg1 in Hg'. inversion Hg'; subst x'.
  unfold par. rewrite (lu_parent _ _ _ Hl). exact HP.
Qed.
Lemma par_dispatch s a x e s1 ins y :
  (a_zombie x = true -> a_state x = Killed) ->
  par a x -> get s a = Some x -> dispatch s a x e = (s1, ins) -> get s1 a = Some y -> par a y.
Proof.
  intros _ HP Hg Hd Hy.
  destruct (dispatch_effect s a x e Hg) as (y' & Hy' & Ha & _). rewrite Hd in Ha. cbn [fst] in Ha.
  unfold get in Hy. rewrite Ha, (nth_error_upd_same _ _ _ _ Hg) in Hy. injection Hy as <-.
  unfold par. rewrite (df_parent _ _ Hy'). exact HP.
Qed.

Theorem parent_inv s a x : reachable s -> get s a = Some x -> par a x.
Proof.
  intros Hr. revert a x.
  apply (LQ_reachable par par_vsame par_new par_root par_exec_TA par_exec_TX par_dispatch s Hr).
Qed.

Lemma seen_full_app a l1 l2 : seen_full a (l1 ++ l2) = seen_full a l1 ++ seen_full a l2.
Proof.
  induction l1 as [|o l1 IH]; [reflexivity|]. cbn [app seen_full].
  destruct o; try exact IH. destruct (Nat.eqb who a); [cbn [app]; rewrite IH; reflexivity|exact IH].
Qed.

Lemma seen_of_full a l : seen_of a l = map (fun t => snd t) (seen_full a l).
Proof.
  induction l as [|o l IH]; [reflexivity|]. cbn [seen_of seen_full]. destruct o; try exact IH.
  destruct (Nat.eqb who a); [cbn [map snd]; rewrite IH; reflexivity|exact IH].
Qed.

Lemma seen_of_app a l1 l2 : seen_of a (l1 ++ l2) = seen_of a l1 ++ seen_of a l2.
Proof. rewrite !seen_of_full, seen_full_app, map_app. reflexivity. Qed.

(** what the instruction [i], executed by context [b] with record [x], adds to the invocations of [a]'s behaviour *)
Definition seen_by (a b : aid) (x : actor) (i : instr) : list (N * N * msg) :=
  match i, a_parent x with
  | IBeh m _ _, Some _ =>
      if Nat.eqb b a && negb (a_zombie x) then [(a_inst x, match a_cons x with CBusy md => md | _ => mode_top x end, m)] else []
  | _, _ => []
  end.

Lemma exec1_seen s t h i s' front x a :
  exec1 s t h i = (s', front) -> get s (self_of t) = Some x -> is_obs_seen i = false ->
  seen_full a (olog s') = seen_full a (olog s) ++ seen_by a (self_of t) x i.
Proof.
  intros He Hg Ho. destruct (spawn_dec i) as [[sp ->]|Hns].
  - cbn [seen_by]. rewrite app_nil_r.
    destruct (exec1_spawn s t h sp x Hg) as [[code E]|(_ & _ & _ & g & s1 & E & _ & _ & _ & _ & _ & Hol & _)];
      rewrite E in He; injection He as <- _; [|rewrite Hol; reflexivity].
    cbn [olog add_obs]. rewrite seen_full_app. apply app_nil_r.
  - destruct (exec1_local s t h i x Hg Hns) as (y & _ & _ & _ & _ & _ & Hol & _). rewrite He in Hol. cbn [fst] in Hol.
    destruct i; try (destruct Hol as [->|(o & _ & [(m0 & ac0 & r0 & E)|E])]; [cbn [seen_by]; rewrite app_nil_r; reflexivity|discriminate E..]).
    + (* a behaviour call is logged unless the context is a zombie or the guard *)
      clear Hol. unfold exec1 in He. rewrite Hg in He. unfold seen_by. destruct (a_zombie x).
      { injection He as <- _. rewrite andb_false_r. destruct (a_parent x); rewrite app_nil_r; reflexivity. }
      destruct (a_parent x).
      * destruct (take_until_panic acts). injection He as <- _. cbn [olog add_obs negb]. rewrite andb_true_r, seen_full_app. reflexivity.
      * rewrite app_nil_r. destruct m; try (injection He as <- _; reflexivity).
        destruct (ref_eq s who (RObj (self_of t))); injection He as <- _; reflexivity.
    + unfold exec1 in He. rewrite Hg in He. injection He as <- _. cbn [olog add_obs seen_by]. rewrite seen_full_app.
      destruct o; try reflexivity. discriminate Ho.
Qed.

(** whatever follows the own OnKilled is the OnLaunch of a restart, handled in mode 0 by the instance the restart put in charge *)
Definition log_ok (a : aid) (x : actor) (l : list (N * N * msg)) : Prop :=
  forall pre i1 md1 i2 md2 m post, l = pre ++ (i1, md1, MKilled (RObj a)) :: (i2, md2, m) :: post ->
    m = MLaunch /\ md2 = 0 /\ i2 = next_inst x i1.

Definition no_beh (l : list instr) : bool := forallb (fun i => negb (is_beh i)) l.

(** where the actor is after its own OnKilled was shown to the behaviour: Killed and (zombie, or no behaviour
    call pending), or - after a successful restart - the next significant instruction is the OnLaunch call *)
Definition after_own (x : actor) : Prop :=
  (a_state x = Killed /\ (a_zombie x = true \/ no_beh (a_pend x) = true)) \/
  (a_zombie x = false /\ exists ac r, filter sig (a_pend x) = [IBeh MLaunch ac r; IEndHandler]).

(** how the record is linked to the instance [i] that saw the own OnKilled, while that is the last invocation:
    as long as the restart's completion is still pending the instance has not changed; once it has completed (the
    OnLaunch call of the new incarnation is the next significant instruction) HandleEnvelop's peeked behaviour is
    mode 0 and the instance is the one the restart put in charge *)
Definition link (x : actor) (i : N) : Prop :=
  (existsb is_rf (a_pend x) = true -> a_inst x = i) /\
  (a_zombie x = false -> forall ac r, filter sig (a_pend x) = [IBeh MLaunch ac r; IEndHandler] ->
     a_cons x = CBusy 0 /\ a_inst x = next_inst x i).

(** both depend on the pending list only through its significant part [L] *)
Definition own_at (st : astate) (z : bool) (co : cons) (ins : N) (x : actor) (i : N) (L : list instr) : Prop :=
  ((st = Killed /\ (z = true \/ no_beh L = true)) \/ (z = false /\ exists ac r, L = [IBeh MLaunch ac r; IEndHandler])) /\
  (existsb is_rf L = true -> ins = i) /\
  (z = false -> forall ac r, L = [IBeh MLaunch ac r; IEndHandler] -> co = CBusy 0 /\ ins = next_inst x i).

Lemma own_sig x i :
  after_own x /\ link x i <-> own_at (a_state x) (a_zombie x) (a_cons x) (a_inst x) x i (filter sig (a_pend x)).
Proof.
  unfold after_own, link, own_at.
  assert (E1 : no_beh (filter sig (a_pend x)) = no_beh (a_pend x)).
  { unfold no_beh. induction (a_pend x) as [|j l IH]; [reflexivity|]. cbn [filter forallb]. destruct (sig j) eqn:Hs.
    - cbn [forallb]. rewrite IH. reflexivity.
    - rewrite IH. unfold sig in Hs. destruct (is_beh j); [|reflexivity]. rewrite !orb_true_r in Hs. discriminate Hs. }
  rewrite E1, (existsb_filter_sig is_rf) by (intros j Hj; destruct j; try discriminate Hj; reflexivity). tauto.
Qed.

Definition LK (a : aid) (s : state) : Prop :=
  match get s a with
  | None => seen_full a (olog s) = []
  | Some x => log_ok a x (seen_full a (olog s)) /\
              forall pre i md, seen_full a (olog s) = pre ++ [(i, md, MKilled (RObj a))] -> after_own x /\ link x i
  end.

Lemma next_inst_spec x y i : a_spec y = a_spec x -> next_inst y i = next_inst x i.
Proof. intros H. unfold next_inst. rewrite H. reflexivity. Qed.

Lemma log_ok_spec a x y l : a_spec y = a_spec x -> log_ok a x l -> log_ok a y l.
Proof. intros H R pre i1 md1 i2 md2 m post E. rewrite (next_inst_spec x y _ H). apply (R pre i1 md1 i2 md2 m post E). Qed.

Lemma own_keep x y i :
  a_state y = a_state x -> a_zombie y = a_zombie x -> a_cons y = a_cons x -> a_inst y = a_inst x -> a_spec y = a_spec x ->
  filter sig (a_pend y) = filter sig (a_pend x) -> after_own x /\ link x i -> after_own y /\ link y i.
Proof.
  intros H1 H2 H3 H4 H5 H6 H. apply own_sig. apply own_sig in H. unfold own_at in *.
  rewrite H1, H2, H3, H4, H6, (next_inst_spec x y _ H5). exact H.
Qed.

Lemma LK_keep a s s' :
  seen_full a (olog s') = seen_full a (olog s) ->
  (forall x, get s a = Some x -> exists y, get s' a = Some y /\ a_spec y = a_spec x /\ forall i, after_own x /\ link x i -> after_own y /\ link y i) ->
  (get s a = None -> get s' a = None \/ exists p g pa sp, get s' a = Some (new_actor p g pa sp)) ->
  LK a s -> LK a s'.
Proof.
  intros Hs H1 H2 H. unfold LK in *. rewrite Hs. destruct (get s a) as [x|].
  - destruct (H1 x eq_refl) as (y & -> & Hsp & Hy). destruct H as [R1 R2].
    split; [apply (log_ok_spec a x y _ Hsp R1)|]. intros pre i md E. apply Hy, (R2 pre i md E).
  - destruct (H2 eq_refl) as [->|(p & g & pa & sp & ->)]; [exact H|]. rewrite H. split.
    + intros pre i1 md1 i2 md2 m post E. destruct pre; discriminate E.
    + intros pre i md E. destruct pre; discriminate E.
Qed.

Lemma LK_mb a s s' : mb_equiv s s' -> LK a s -> LK a s'.
Proof.
  intros (Hm & _ & _ & _ & _ & Hol). apply LK_keep; [rewrite Hol; reflexivity| |].
  - intros x Hx. specialize (Hm a). rewrite Hx in Hm. destruct (get s' a) as [y|]; [|contradiction]. exists y.
    destruct Hm as (_ & _ & _ & Hsp & Hst & Hz & _ & _ & _ & _ & _ & Hin & _ & _ & Hco & _ & Hpe).
    split; [reflexivity|]. split; [exact Hsp|]. intros i. apply own_keep; try assumption. rewrite Hpe. reflexivity.
  - intros Hn. specialize (Hm a). rewrite Hn in Hm. destruct (get s' a); [contradiction|auto].
Qed.

Lemma LK_pop a s t i rest front :
  LK a s -> pend_of s t = i :: rest -> sig i = false -> (forall j, In j front -> sig j = false) ->
  LK a (set_pend s t (front ++ rest)).
Proof.
  intros H Hp Hs Hf. revert H. apply LK_keep; [rewrite set_pend_olog; reflexivity| |].
  - intros x Hx. destruct t as [b|k]; [|exists x; rewrite get_set_pend_TX; auto].
    destruct (Nat.eq_dec b a) as [->|Hba]; [|exists x; rewrite get_set_pend_TA_other by exact Hba; auto].
    exists (upd_pend x (front ++ rest)). split; [apply (get_set_pend_TA_same _ _ _ _ Hx)|]. split; [reflexivity|].
    intros i0. apply own_keep; try reflexivity. cbn [pend_of] in Hp. rewrite Hx in Hp.
    cbn [upd_pend a_pend]. rewrite (filter_app_none sig front rest Hf), Hp. cbn [filter]. rewrite Hs. reflexivity.
  - intros Hn. left. destruct t as [b|k]; [|rewrite get_set_pend_TX; exact Hn].
    destruct (Nat.eq_dec b a) as [->|Hba]; [|rewrite get_set_pend_TA_other by exact Hba; exact Hn].
    cbn [set_pend]. unfold with_actor. rewrite Hn. exact Hn.
Qed.

Lemma LK_cons a s b x sq uq pa co cu :
  LK a s -> get s b = Some x -> a_pend x = [] -> LK a (set_actor s b (set_mb x sq uq pa co cu)).
Proof.
  intros H Hgb Hpx. revert H. apply LK_keep; [reflexivity| |].
  - intros xa Hxa. destruct (Nat.eq_dec b a) as [->|Hba]; [|exists xa; rewrite get_set_other by exact Hba; auto].
    rewrite Hgb in Hxa. injection Hxa as <-. eexists. split; [apply (get_set_same' _ _ _ _ Hgb)|]. split; [reflexivity|].
    intros i H. apply own_sig. apply own_sig in H. cbn [set_mb a_state a_zombie a_cons a_inst a_pend]. rewrite Hpx in *.
    destruct H as (H1 & H2 & _). split; [exact H1|]. split; [exact H2|]. intros _ ac r E. discriminate E.
  - intros Hn. left. rewrite get_set_other; [exact Hn|]. intros ->. congruence.
Qed.

Lemma dispatch_no_rf s a x e : existsb is_rf (snd (dispatch s a x e)) = false.
Proof.
  destruct (dispatch_cases s a x e) as [| |r _ []]; cbn [snd]; unfold kill_children; try reflexivity.
  - destruct poison, (a_children x); reflexivity.
  - destruct (a_state x), (a_children x); reflexivity.
Qed.

Lemma LK_handle a s b x e s1 ins :
  LK a s -> get s b = Some x -> a_pend x = [] ->
  let x0 := set_mb x (a_sq x) (a_uq x) (a_paused x) (CBusy (mode_top x)) (a_cur x) in
  dispatch (set_actor s b x0) b x0 e = (s1, ins) ->
  LK a (set_pend s1 (TA b) ins).
Proof.
  intros H Hg Hpx x0 Hd.
  assert (Hg0 : get (set_actor s b x0) b = Some x0) by apply (get_set_same' _ _ _ _ Hg).
  destruct (handle_pre s b x e s1 ins Hg Hd) as (y & Hg1 & Hy & Hgb & Hoth & _ & _ & Hol & _).
  revert H. apply LK_keep; [rewrite Hol; reflexivity| |].
  - intros xa Hxa. destruct (Nat.eq_dec b a) as [->|Hba]; [|exists xa; rewrite (Hoth a Hba); auto].
    rewrite Hg in Hxa. injection Hxa as <-. exists (upd_pend y ins). split; [exact Hgb|].
    split; [apply (df_spec _ _ Hy)|]. intros i [[(K1 & _)|(_ & ac0 & r0 & Kf)] _]; [|rewrite Hpx in Kf; discriminate Kf].
    (* a Killed context: HandleEnvelop starts no behaviour call unless it is a zombie *)
    destruct (dispatch_state_children _ _ _ _ _ _ _ Hg0 Hd Hg1) as (_ & Hzy & Hsy).
    assert (Hky : a_state y = Killed) by (destruct Hsy as [->|[Hr _]]; [exact K1|cbn in Hr; congruence]).
    pose proof (dispatch_no_rf (set_actor s a x0) a x0 e) as Hrf. rewrite Hd in Hrf. cbn [snd] in Hrf.
    apply own_sig. unfold own_at. cbn [upd_pend a_state a_zombie a_cons a_inst a_pend].
    rewrite (existsb_filter_sig is_rf) by (intros j Hj; destruct j; try discriminate Hj; reflexivity). rewrite Hrf, Hky, Hzy.
    cbn [x0 set_mb a_zombie]. destruct (a_zombie x) eqn:Hz; (split; [|split; [discriminate|]]); try (intros Hzz; discriminate Hzz).
    + left. auto.
    + rewrite (dispatch_dead _ a x0 e K1 Hz) in Hd. left. split; [reflexivity|]. right.
      destruct (a_parent x0); injection Hd as _ <-; reflexivity.
    + intros _ ac r Hf. rewrite (dispatch_dead _ a x0 e K1 Hz) in Hd. destruct (a_parent x0); injection Hd as _ <-; discriminate Hf.
  - intros Hn. left. destruct (Nat.eq_dec b a) as [->|Hba]; [congruence|]. rewrite (Hoth a Hba). exact Hn.
Qed.

Lemma snoc_cases {A} (l : list A) : l = [] \/ exists l' z, l = l' ++ [z].
Proof. destruct l using rev_ind; [left; reflexivity|right; eauto]. Qed.

Lemma LK_snoc a x y l ent :
  a_spec y = a_spec x -> log_ok a x l ->
  (forall pre i md, l = pre ++ [(i, md, MKilled (RObj a))] -> snd ent = MLaunch /\ snd (fst ent) = 0 /\ fst (fst ent) = next_inst x i) ->
  (forall i md, ent = (i, md, MKilled (RObj a)) -> after_own y /\ link y i) ->
  log_ok a y (l ++ [ent]) /\ forall pre i md, l ++ [ent] = pre ++ [(i, md, MKilled (RObj a))] -> after_own y /\ link y i.
Proof.
  intros Hsp R1 Hnew Hlast. split.
  - intros pre i1 md1 i2 md2 m post E. rewrite (next_inst_spec x y _ Hsp). destruct (snoc_cases post) as [->|(post' & z & ->)].
    + change (pre ++ [(i1, md1, MKilled (RObj a)); (i2, md2, m)]) with (pre ++ [(i1, md1, MKilled (RObj a))] ++ [(i2, md2, m)]) in E.
      rewrite app_assoc in E. apply app_inj_tail in E as [E ->]. apply (Hnew pre i1 md1 E).
    + change (pre ++ (i1, md1, MKilled (RObj a)) :: (i2, md2, m) :: post' ++ [z])
        with (pre ++ ((i1, md1, MKilled (RObj a)) :: (i2, md2, m) :: post') ++ [z]) in E.
      rewrite app_assoc in E. apply app_inj_tail in E as [E _]. apply (R1 pre i1 md1 i2 md2 m post' E).
  - intros pre i md E. apply app_inj_tail in E as [_ ->]. apply (Hlast i md eq_refl).
Qed.

(** the lifecycle step of a significant instruction that logs nothing (every one but the behaviour call of a
    context that is no zombie) keeps the record in line with the last invocation *)
Lemma own_lstep s0 a x i y F L i0 :
  lstep s0 a x i y F -> phase a (a_state x) (a_zombie x) (cur_not_own a x) (i :: L) -> is_beh i && negb (a_zombie x) = false ->
  own_at (a_state x) (a_zombie x) (a_cons x) (a_inst x) x i0 (i :: L) ->
  own_at (a_state y) (a_zombie y) (a_cons y) (a_inst y) x i0 (F ++ L).
Proof.
  intros Hst Hph Hlog Hown.
  destruct Hst as [m ac r y Hsm|p y Hsm|w y Hzx Hsm|w y Hzx Hsm|w y Hzx Hw Hsm|y Hk Hk' Hz' Hc' Hi'|y Hsm|y Hsm
                  |y Hr Hz' Hc' Hcu Hi'|y Hs' Hz' Hc'|y Hs' Hz' Hc' Hcu Hi'|y Hs' Hz' Hi'];
    try destruct Hsm as (E1 & E2 & E3 & _ & E5); rewrite ?E1, ?E2, ?E3, ?E5, ?Hk', ?Hr, ?Hs', ?Hz', ?Hc', ?Hi';
    apply phase_inv in Hph; cbn beta iota in Hph; decompose [and or ex] Hph; subst; try clear Hph.
  all: unfold own_at in *; cbn [no_beh forallb existsb is_beh is_rf negb andb orb app] in *.
  all: destruct Hown as ([(K1 & K1')|(K1 & ac' & r' & K1')] & K2 & K3); try discriminate K1'.
  all: try (split; [left; split; [assumption|tauto]|split; [intros E; first [discriminate E|exact (K2 E)]|intros _ ? ? E; discriminate E]]; fail).
  all: try (exfalso; apply negb_false_iff in Hlog; congruence).
  - (* OnKill of a Killed context: a zombie *)
    assert (Hzx : a_zombie x = true) by (match goal with H : is_killing _ || _ = true |- _ => rewrite K1 in H; exact H end).
    split; [left; auto|split; [discriminate|intros Hz0; congruence]].
  - exfalso. match goal with H : alive _ || _ = true |- _ => rewrite K1, Hzx in H; discriminate H end.
  - congruence.
  - (* the restart has completed: the OnLaunch call is next, in mode 0, by the instance the restart put in charge *)
    split; [right; split; [assumption|eauto]|split; [discriminate|]]. intros _ ac r _. split; [reflexivity|].
    unfold next_inst. rewrite (K2 eq_refl). reflexivity.
Qed.

Lemma LK_exec_self a s x i rest :
  SInv s -> LK a s -> get s a = Some x -> a_pend x = i :: rest -> a_parent x <> None -> yielding i = false ->
  LK a (astep s (TA a) i rest).
Proof.
  intros HSI H Hg Hpx Hpar Hy. pose proof (proj1 HSI a x Hg) as HI.
  destruct (astep_TA s a i rest x Hg) as (s1 & front & x1 & He & Hg1 & _ & ->).
  assert (Hg0 : get (set_actor s a (upd_pend x rest)) (self_of (TA a)) = Some (upd_pend x rest)) by apply (get_set_same' _ _ _ _ Hg).
  pose proof (INV_no_seen _ _ _ _ HI Hpx) as Ho.
  pose proof (exec1_seen _ _ _ _ _ _ _ a He Hg0 Ho) as Hseen. change (olog (set_actor s a (upd_pend x rest))) with (olog s) in Hseen.
  destruct (exec1_self _ _ _ _ _ _ _ He Hg0) as (y & Hy1 & Hl). cbn [self_of] in Hy1. rewrite Hg1 in Hy1. injection Hy1 as <-.
  pose proof (lu_spec _ _ _ Hl) as Hsp. cbn [upd_pend a_spec] in Hsp.
  destruct (INV_head _ _ _ _ HI Hpx) as (_ & _ & _ & Hph).
  unfold LK in *. rewrite Hg in H. destruct H as [R1 R2]. rewrite (get_set_same' _ _ _ _ Hg1).
  change (olog (set_actor s1 a (upd_pend x1 (front ++ rest)))) with (olog s1). rewrite Hseen. clear Hseen. cbn [self_of].
  set (xf := upd_pend x1 (front ++ rest)).
  (* nothing is logged for [a]: the record must still fit the last invocation *)
  assert (Hquiet : seen_by a a (upd_pend x rest) i = [] ->
                   (forall i0, after_own x /\ link x i0 -> after_own xf /\ link xf i0) ->
                   log_ok a xf (seen_full a (olog s) ++ seen_by a a (upd_pend x rest) i) /\
                   forall pre i0 md, seen_full a (olog s) ++ seen_by a a (upd_pend x rest) i = pre ++ [(i0, md, MKilled (RObj a))] ->
                                     after_own xf /\ link xf i0).
  { intros -> Hk. rewrite app_nil_r. split; [apply (log_ok_spec a x xf _ Hsp R1)|].
    intros pre i0 md E. apply Hk, (R2 pre i0 md E). }
  destruct (sig i) eqn:Hs.
  2:{ destruct (nonsig_chg _ Hs) as (Hgs & C1 & C2 & C4 & _).
      apply Hquiet; [destruct i; try reflexivity; discriminate Hs|]. intros i0. apply own_keep; cbn [xf upd_pend a_state a_zombie a_cons a_inst a_spec a_pend].
      - apply (lu_state_keep _ _ _ Hl C1).
      - apply (lu_zombie_keep _ _ _ Hl C2).
      - apply (lu_cons_keep _ _ _ Hl C4).
      - destruct (lu_inst _ _ _ Hl) as [E| ->]; [exact E|discriminate Hs].
      - exact Hsp.
      - rewrite (filter_app_none sig front rest (exec1_front_plain _ _ _ _ _ _ Hgs He)), Hpx. cbn [filter]. rewrite Hs. reflexivity. }
  (* a significant instruction: by cases on the lifecycle step *)
  pose proof (exec1_lstep _ a _ i [] s1 front x1 Hg0 He Hg1 Hs Hy Ho) as Hst.
  assert (Hown : forall i0, after_own x /\ link x i0 -> own_at (a_state x) (a_zombie x) (a_cons x) (a_inst x) x i0 (i :: filter sig rest)).
  { intros i0 H. apply own_sig in H. rewrite Hpx in H. cbn [filter] in H. rewrite Hs in H. exact H. }
  assert (Hgoal : forall i0, own_at (a_state x1) (a_zombie x1) (a_cons x1) (a_inst x1) x i0 (filter sig front ++ filter sig rest) ->
                  after_own xf /\ link xf i0).
  { intros i0 H. apply own_sig. unfold own_at, next_inst in *. cbn [xf upd_pend a_state a_zombie a_cons a_inst a_pend a_spec].
    rewrite filter_app, Hsp. exact H. }
  fold (cur_not_own a x) in Hph.
  destruct (is_beh i && negb (a_zombie x)) eqn:Hlog; [|apply Hquiet].
  - (* the behaviour call is logged *)
    destruct i; try discriminate Hlog. cbn [is_beh andb] in Hlog. apply negb_true_iff in Hlog.
    cbn [seen_by upd_pend a_parent a_zombie a_inst a_cons]. destruct (a_parent x); [|congruence]. rewrite Nat.eqb_refl, Hlog. cbn [negb andb].
    remember (filter sig front) as F eqn:EF. clear EF.
    inversion Hst as [m0 ac0 r0 y0 (E1 & E2 & E3 & _ & E5) Ei Ey EF| | | | | | | | | | |]. subst. cbn [upd_pend a_state a_zombie a_cons a_inst] in *.
    apply (LK_snoc a x xf _ _ Hsp R1).
    + intros pre i1 md1 E. destruct (Hown i1 (R2 pre i1 md1 E)) as ([(_ & [K2|K2])|(_ & ac' & r' & K2)] & _ & K3); [congruence|discriminate K2|].
      destruct (K3 Hlog _ _ K2) as [Kc Ki]. injection K2 as -> _ _ _. cbn [fst snd]. rewrite Kc. auto.
    + intros i0 md E. injection E as <- _ ->. apply Hgoal. unfold own_at. rewrite E1, E2, E3, E5, Hlog. cbn [app].
      inversion Hph; subst; try (match goal with H : msg_own a (MKilled (RObj a)) = false |- _ => cbn in H; rewrite Nat.eqb_refl in H; discriminate H end).
      all: (split; [left; split; [assumption|right; reflexivity]|split; [reflexivity|intros _ ac' r' E; discriminate E]]).
  - destruct i; try reflexivity. cbn [is_beh andb] in Hlog. apply negb_false_iff in Hlog.
    cbn [seen_by upd_pend a_parent a_zombie]. rewrite Hlog, andb_false_r. destruct (a_parent x); reflexivity.
  - intros i0 H. apply Hgoal. apply (own_lstep _ a (upd_pend x rest) i x1 _ _ i0 Hst Hph Hlog (Hown i0 H)).
Qed.

Lemma LK_astep a s t i rest :
  a <> 0%nat -> SInv s -> LQ par s -> LK a s -> pend_of s t = i :: rest -> yielding i = false ->
  LK a (astep s t i rest).
Proof.
  intros Ha0 HI HP HK Hp Hy. destruct (Nat.eq_dec (self_of t) a) as [E|E].
  - destruct t as [b|k]; cbn [self_of] in E; [subst b|congruence].
    destruct (pend_of_TA_cons _ _ _ _ Hp) as (x & Hg & Hpx).
    apply (LK_exec_self a s x i rest HI HK Hg Hpx); [apply (proj2 (HP a x Hg) Ha0)|exact Hy].
  - (* another context's step logs nothing for [a] and leaves its record alone, or creates it *)
    assert (Ht : t <> TA a) by (intros ->; apply E; reflexivity).
    unfold astep. set (s0 := set_pend s t rest).
    destruct (exec1 s0 t (held_of s0 t) i) as [s1 front] eqn:He.
    assert (Hol : seen_full a (olog s1) = seen_full a (olog s)).
    { destruct (get s0 (self_of t)) as [x0|] eqn:Hg0.
      - rewrite (exec1_seen _ _ _ _ _ _ _ a He Hg0 (SInv_no_seen s t i rest HI Hp)). unfold s0. rewrite set_pend_olog.
        replace (seen_by a (self_of t) x0 i) with (@nil (N * N * msg)); [apply app_nil_r|].
        unfold seen_by. destruct i; try reflexivity. destruct (a_parent x0); [|reflexivity].
        apply Nat.eqb_neq in E. rewrite E. reflexivity.
      - rewrite (exec1_none _ _ _ _ Hg0) in He. injection He as <- _. unfold s0. cbn [olog set_err]. rewrite set_pend_olog. reflexivity. }
    revert HK. apply LK_keep.
    + rewrite set_pend_olog. exact Hol.
    + intros xa Hxa. exists xa. split; [|auto]. rewrite get_set_pend_other by exact Ht.
      apply (exec1_keeps _ _ _ _ _ _ a xa He); [congruence|]. unfold s0. rewrite get_set_pend_other by exact Ht. exact Hxa.
    + intros Hn. rewrite get_set_pend_other by exact Ht. destruct (get s1 a) as [y|] eqn:Hy1; [|left; reflexivity].
      destruct (exec1_other _ _ _ _ _ _ a y He (fun E' => E (eq_sym E')) Hy1) as [Hb0|(_ & _ & sp & x0 & _ & _ & _ & _ & _ & ->)].
      * unfold s0 in Hb0. rewrite get_set_pend_other in Hb0 by exact Ht. congruence.
      * right. do 4 eexists. reflexivity.
Qed.

Lemma set_exts_olog scs : forall i s, olog (set_exts s i scs) = olog s.
Proof. induction scs as [|sc scs IH]; intros i s; [reflexivity|]. cbn [set_exts]. rewrite IH. apply set_pend_olog. Qed.

Theorem LK_reachable a s : a <> 0%nat -> reachable s -> LK a s.
Proof.
  intros Ha0 Hr. refine (proj2 (Q_reachable (fun s => LQ par s /\ LK a s) _ _ _ _ _ _ s Hr)).
  - intros s0 s' Hm [H1 H2]. split; [apply (LQ_mb par par_vsame _ _ Hm H1)|apply (LK_mb a _ _ Hm H2)].
  - intros s0 t i rest front [H1 H2] Hp Hs Hf. split; [apply (LQ_set_pend par par_vsame), H1|apply (LK_pop a s0 t i rest front H2 Hp Hs Hf)].
  - intros s0 t i rest HI [H1 H2] Hp Hy He1.
    split; [apply (LQ_astep par par_vsame par_new par_exec_TA par_exec_TX s0 t i rest HI H1 Hp Hy He1)|apply LK_astep; assumption].
  - intros s0 b x sq uq pa co cu [H1 H2] Hg Hpx. split; [apply (LQ_cons par par_vsame); assumption|apply LK_cons; assumption].
  - intros s0 b x e s1 ins HI [H1 H2] Hg Hc Hpx x0 Hd.
    split; [apply (LQ_handle par par_vsame par_dispatch s0 b x e s1 ins HI H1 Hg Hd)|apply (LK_handle a s0 b x e s1 ins H2 Hg Hpx Hd)].
  - intros scs. split; [apply (LQ_init par par_root)|]. unfold LK, init_with. rewrite set_exts_olog. cbn [olog init_state seen_full].
    destruct (get _ a); [|reflexivity]. split.
    + intros pre i1 md1 i2 md2 m post E. destruct pre; discriminate E.
    + intros pre i md E. destruct pre; discriminate E.
Qed.

Theorem nothing_after_own_killed s a pre m post :
  reachable s -> a <> 0%nat -> seen_of a (olog s) = pre ++ MKilled (RObj a) :: m :: post -> m = MLaunch.
Proof.
  intros Hr Ha E. pose proof (LK_reachable a s Ha Hr) as H. unfold LK in H. rewrite seen_of_full in E.
  destruct (get s a) as [x|]; [|rewrite H in E; destruct pre; discriminate E].
  apply map_eq_app in E as (pre' & l & E & _ & El). apply map_eq_cons in El as ([[i1 md1] m1] & l' & -> & Em1 & El).
  apply map_eq_cons in El as ([[i2 md2] m2] & post' & -> & Em2 & _). cbn [snd] in Em1, Em2. subst m1 m2.
  apply (proj1 H pre' i1 md1 i2 md2 m post' E).
Qed.

(** C05-b: while the actor is Killed and not restarting nothing follows at all: if the own OnKilled is the last
    thing the behaviour saw, the actor is Killed (zombie, or no behaviour call pending) or about to see the OnLaunch
    of its restart *)
Theorem after_own_killed_state s a pre :
  reachable s -> a <> 0%nat -> seen_of a (olog s) = pre ++ [MKilled (RObj a)] ->
  exists x, get s a = Some x /\ after_own x.
Proof.
  intros Hr Ha E. pose proof (LK_reachable a s Ha Hr) as H. unfold LK in H. rewrite seen_of_full in E.
  destruct (get s a) as [x|]; [|rewrite H in E; destruct pre; discriminate E].
  apply map_eq_app in E as (pre' & l & E & _ & El). apply map_eq_cons in El as ([[i1 md1] m1] & l' & -> & Em1 & El).
  apply map_eq_nil in El. subst l'. cbn [snd] in Em1. subst m1. exists x. split; [reflexivity|]. apply (proj2 H pre' i1 md1 E).
Qed.
