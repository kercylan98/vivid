(** Induction over the atomic phase of a step and over runs, for the invariants of C05 / C06. *)
From Coq Require Import List.
From Vivid Require Import Actor.Core Actor.ProofsMailBase Actor.ProofsMailInv Actor.SpecLife.
Import ListNotations.
Local Open Scope N_scope.

Lemma err_set_actor s a x : err (set_actor s a x) = err s. Proof. reflexivity. Qed.

Ltac destr_match :=
  match goal with
  | |- context [match ?x with _ => _ end] => destruct x eqn:?
  end.

Lemma run_atomic_astep f s t i rest :
  pend_of s t = i :: rest -> yielding i = false -> is_enq i = false ->
  run_atomic (S f) s t = run_atomic f (astep s t i rest) t.
Proof.
  intros Hp Hy Hq. rewrite (run_atomic_exec f s t i rest Hp Hy Hq). unfold astep.
  destruct (exec1 (set_pend s t rest) t (held_of (set_pend s t rest) t) i). reflexivity.
Qed.

Lemma run_events_snoc evs ev s : run_events (evs ++ [ev]) s = step (run_events evs s) ev.
Proof. unfold run_events. rewrite fold_left_app. reflexivity. Qed.

Lemma reachable_ind (I : state -> Prop) :
  (forall scs, I (init_with scs)) ->
  (forall s ev, I s -> err s = false -> err (step s ev) = false -> I (step s ev)) ->
  forall s, reachable s -> I s.
Proof.
  intros Hinit Hstep s (scs & evs & -> & Herr).
  revert Herr. induction evs as [|ev evs IH] using rev_ind; intros Herr; [apply Hinit|].
  rewrite run_events_snoc in *. pose proof (err_false_step _ _ Herr) as H0.
  apply Hstep; [apply IH; exact H0|exact H0|exact Herr].
Qed.

Lemma reachable_step s ev : reachable s -> err (step s ev) = false -> reachable (step s ev).
Proof.
  intros (scs & evs & -> & H) He. exists scs, (evs ++ [ev]). rewrite run_events_snoc. split; [reflexivity|exact He].
Qed.

Lemma err_false_run_atomic f s t : err (run_atomic f s t) = false -> err s = false.
Proof. intros H. destruct (err s) eqn:E; [|reflexivity]. rewrite (err_mono_run_atomic f s t E) in H. discriminate. Qed.

Lemma run_atomic_ind (I : state -> Prop) t :
  (forall s i rest, I s -> pend_of s t = i :: rest -> yielding i = false -> err (astep s t i rest) = false -> I (astep s t i rest)) ->
  (forall s sys to sender m rest, I s -> pend_of s t = IEnq sys to sender m :: rest ->
        I (set_pend (snd (resolve s to)) t (IEnqR sys (fst (resolve s to)) sender m :: rest))) ->
  forall f s, I s -> err (run_atomic f s t) = false -> I (run_atomic f s t).
Proof.
  intros Hstep Hres. induction f as [|f IH]; intros s HI Herr; [discriminate|].
  destruct (pend_of s t) as [|i rest] eqn:Hp; [rewrite (run_atomic_nil _ _ _ Hp); exact HI|].
  destruct (yielding i) eqn:Hy; [rewrite (run_atomic_yield _ _ _ _ _ Hp Hy); exact HI|].
  destruct (is_enq i) eqn:Hq.
  - destruct i; try discriminate Hq. rewrite (run_atomic_enq _ _ _ _ _ _ _ _ Hp). apply Hres; assumption.
  - rewrite (run_atomic_astep _ _ _ _ _ Hp Hy Hq) in *. pose proof (err_false_run_atomic _ _ _ Herr) as He1.
    apply IH; [|exact Herr]. apply Hstep; assumption.
Qed.
