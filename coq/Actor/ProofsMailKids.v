(** The supervision tree: every entry of a children map names a context created by that parent under that
    path, and every registered context (other than the root) is entered in its parent's children map. *)
From Coq Require Import List NArith ZArith Bool Lia Arith.
From Vivid Require Import Actor.Core Actor.CoreRun Actor.SpecMail Actor.ProofsMailBase Actor.ProofsMail Actor.ProofsMailInv
  Actor.ProofsMailWf Actor.ProofsMailAcct Actor.ProofsMailReg Actor.ProofsMailMicro Actor.ProofsMailLife Actor.ProofsMailStep
  Actor.ProofsMailTree Actor.ProofsMailMK.
Import ListNotations.

Definition KInv (s : state) : Prop :=
  (forall a x p c, get s a = Some x -> In (p, c) (a_children x) ->
     exists xc, get s c = Some xc /\ a_parent xc = Some a /\ a_path xc = p) /\
  (forall a x, get s a = Some x -> a <> 0 -> regd s a x ->
     exists q xq, a_parent x = Some q /\ get s q = Some xq /\ alookup (a_children xq) (a_path x) = Some a).

Lemma alookup_In {A} (l : list (path * A)) p v : alookup l p = Some v -> exists q, In (q, v) l /\ path_eqb p q = true.
Proof.
  induction l as [|[q w] l IH]; cbn [alookup]; [discriminate|]. destruct (path_eqb p q) eqn:E.
  - intros H. inversion H; subst. exists q. split; [left; reflexivity|exact E].
  - intros H. destruct (IH H) as (q' & Hin & Hq). exists q'. split; [right; exact Hin|exact Hq].
Qed.
Lemma In_aremove {A} (l : list (path * A)) p x : In x (aremove l p) -> In x l.
Proof. induction l as [|[q w] l IH]; cbn [aremove]; [auto|]. destruct (path_eqb p q); [intros H; right; auto|intros [H|H]; [left; exact H|right; auto]]. Qed.
Lemma In_aset {A} (l : list (path * A)) p v x : In x (aset l p v) -> In x l \/ x = (p, v).
Proof. unfold aset. intros H. apply in_app_or in H. destruct H as [H|[H|[]]]; [left; eapply In_aremove; exact H|right; symmetry; exact H]. Qed.

Lemma alookup_aset_same {A} (l : list (path * A)) p v : alookup (aset l p v) p = Some v.
Proof. unfold aset. rewrite (alookup_app_none _ _ _ (alookup_aremove_same l p)). cbn. rewrite path_eqb_refl. reflexivity. Qed.
Lemma alookup_aset_other {A} (l : list (path * A)) p q v : path_eqb q p = false -> alookup (aset l p v) q = alookup l q.
Proof.
  intros Hne. unfold aset. destruct (alookup l q) as [w|] eqn:E.
  - apply alookup_app_some. rewrite alookup_aremove_other by exact Hne. exact E.
  - rewrite alookup_app_none by (rewrite alookup_aremove_other by exact Hne; exact E). cbn. rewrite Hne. reflexivity.
Qed.

Lemma KInv_transfer s s' :
  reg s' = reg s -> length (actors s') = length (actors s) ->
  (forall b x', get s' b = Some x' -> exists x, get s b = Some x /\ a_path x' = a_path x /\ a_parent x' = a_parent x /\ a_children x' = a_children x) ->
  KInv s -> KInv s'.
Proof.
  intros Hr Hl H [K10 K9].
  assert (Hfw : forall b x, get s b = Some x -> exists x', get s' b = Some x' /\ a_path x' = a_path x /\ a_parent x' = a_parent x /\ a_children x' = a_children x).
  { intros b x Hg. assert (Hlt : b < length (actors s')) by (rewrite Hl; eapply nth_error_lt; exact Hg).
    destruct (get s' b) as [x'|] eqn:E; [|apply nth_error_None in E; lia].
    destruct (H b x' E) as (x0 & Hx0 & P). assert (x0 = x) by congruence; subst. eauto. }
  split.
  - intros a x' p c Hg' Hlk. destruct (H a x' Hg') as (x & Hx & _ & _ & Hc). rewrite Hc in Hlk.
    destruct (K10 a x p c Hx Hlk) as (xc & Hxc & P1 & P2). destruct (Hfw c xc Hxc) as (xc' & Hxc' & Q1 & Q2 & _).
    exists xc'. split; [exact Hxc'|split; congruence].
  - intros a x' Hg' Hne Hreg. destruct (H a x' Hg') as (x & Hx & P1 & P2 & _). unfold regd in Hreg. rewrite Hr, P1 in Hreg.
    destruct (K9 a x Hx Hne Hreg) as (q & xq & Hq & Hxq & Hlk). destruct (Hfw q xq Hxq) as (xq' & Hxq' & _ & _ & Hc).
    exists q, xq'. split; [congruence|split; [exact Hxq'|rewrite Hc, P1; exact Hlk]].
Qed.

Lemma KInv_quiet s s' : quiet s s' -> KInv s -> KInv s'.
Proof.
  intros (Hr & _ & Hl & Hs & _). apply KInv_transfer; [exact Hr|exact Hl|].
  intros b x' Hg'. assert (Hlt : b < length (actors s)) by (rewrite <- Hl; eapply nth_error_lt; exact Hg').
  destruct (get s b) as [x|] eqn:Hg; [|apply nth_error_None in Hg; lia].
  destruct (softT_get _ _ _ _ Hs Hg) as (y & Hy & (_ & _ & C & _ & P1 & P2 & _)). assert (y = x') by congruence; subst. eauto.
Qed.

Lemma KInv_set_pend s t l : KInv s -> KInv (set_pend s t l).
Proof.
  apply KInv_transfer; [apply set_pend_reg|apply len_set_pend|].
  intros b x' Hg'. destruct t as [a|j].
  - cbn [set_pend] in Hg'. unfold with_actor in Hg'. destruct (get s a) as [xa|] eqn:Ha; [|eauto].
    destruct (Nat.eq_dec a b) as [<-|Hne].
    + rewrite (get_set_same' _ _ _ _ Ha) in Hg'. inversion Hg'; subst. exists xa. auto.
    + rewrite get_set_other in Hg' by exact Hne. eauto.
  - unfold get in Hg'. rewrite set_pend_TX_actors in Hg'. eauto.
Qed.

Lemma exec1_len s t h i x :
  get s (self_of t) = Some x -> (forall sp, i <> IAct (ASpawn sp)) -> length (actors (fst (exec1 s t h i))) = length (actors s).
Proof. intros Hg Hns. destruct (exec1_local s t h i x Hg Hns) as (y & _ & -> & _). apply upd_length. Qed.

Lemma KInv_handle s a x e : KInv s -> get s a = Some x -> a_cons x = CH e -> KInv (mstep s (MHandle a)).
Proof.
  intros HK Hg Hc. cbn [mstep]. rewrite Hg, Hc.
  assert (Hl : a < length (actors s)) by (eapply nth_error_lt; exact Hg).
  set (s0 := set_actor s a (busy x)).
  assert (Hg0 : get s0 a = Some (busy x)) by (apply get_set_same; exact Hl).
  destruct (dispatch_effect s0 a (busy x) e Hg0) as (y & Hdf & Ha & _ & _ & _ & Hr & _).
  destruct (dispatch s0 a (busy x) e) as [s1 ins]. cbn [fst snd] in *.
  apply KInv_set_pend. revert HK. apply KInv_transfer; [exact Hr|rewrite Ha; unfold s0; cbn; rewrite !upd_length; reflexivity|].
  intros b xb Hgb. unfold get in Hgb. rewrite Ha in Hgb. unfold s0 in Hgb. cbn [set_actor actors] in Hgb. rewrite upd_upd in Hgb.
  destruct (Nat.eq_dec a b) as [<-|Hne].
  - rewrite nth_upd_eq in Hgb by exact Hl. inversion Hgb; subst xb. exists x. split; [exact Hg|].
    rewrite (df_path _ _ Hdf), (df_parent _ _ Hdf), (df_children _ _ Hdf). auto.
  - rewrite nth_upd_neq in Hgb by exact Hne. eauto.
Qed.

Lemma KInv_shrink s s' a x y :
  get s a = Some x -> actors s' = upd (actors s) a y -> a_path y = a_path x -> a_parent y = a_parent x ->
  (forall q c, In (q, c) (a_children y) -> In (q, c) (a_children x)) ->
  (forall p b, alookup (reg s') p = Some b -> alookup (reg s) p = Some b) ->
  (forall b xb, get s b = Some xb -> b <> 0 -> alookup (reg s') (a_path xb) = Some b ->
     alookup (a_children x) (a_path xb) = Some b -> alookup (a_children y) (a_path xb) = Some b) ->
  KInv s -> KInv s'.
Proof.
  intros Hg Ha P1 P2 Hsub Hreg Hkeep [K10 K9].
  assert (Hget : forall b, get s' b = if Nat.eqb a b then Some y else get s b) by (intros b; apply (get_upd s s' a x y b Hg Ha)).
  assert (Hfw : forall b xb, get s b = Some xb -> exists xb', get s' b = Some xb' /\ a_path xb' = a_path xb /\ a_parent xb' = a_parent xb).
  { intros b xb Hb. rewrite Hget. destruct (Nat.eqb_spec a b) as [<-|Hne]; [|eauto]. assert (xb = x) by congruence; subst. eauto. }
  assert (Hbw : forall b xb', get s' b = Some xb' -> exists xb, get s b = Some xb /\ a_path xb' = a_path xb /\ a_parent xb' = a_parent xb /\
            (forall q c, In (q, c) (a_children xb') -> In (q, c) (a_children xb))).
  { intros b xb' Hb. rewrite Hget in Hb. destruct (Nat.eqb_spec a b) as [<-|Hne]; [inversion Hb; subst; eauto|eauto 6]. }
  split.
  - intros b xb' q c Hgb Hin. destruct (Hbw b xb' Hgb) as (xb & Hxb & _ & _ & Hs). destruct (K10 b xb q c Hxb (Hs _ _ Hin)) as (xc & Hxc & Q1 & Q2).
    destruct (Hfw c xc Hxc) as (xc' & Hxc' & R1 & R2). exists xc'. split; [exact Hxc'|split; congruence].
  - intros b xb' Hgb Hne Hr. destruct (Hbw b xb' Hgb) as (xb & Hxb & Q1 & Q2 & _). unfold regd in Hr. rewrite Q1 in Hr.
    destruct (K9 b xb Hxb Hne (Hreg _ _ Hr)) as (q & xq & Hq & Hxq & Hlk). exists q. rewrite Q1, Q2. rewrite Hget.
    destruct (Nat.eqb_spec a q) as [<-|Hnq]; [|exists xq; auto]. assert (xq = x) by congruence; subst xq.
    exists y. split; [exact Hq|split; [reflexivity|apply (Hkeep b xb Hxb Hne Hr Hlk)]].
Qed.

Lemma KInv_astep s t i rest :
  wf s -> LI s -> RInv s -> MK s -> KInv s -> pend_of s t = i :: rest -> KInv (astep s t i rest).
Proof.
  intros W HLI HR HM HK Hp. pose proof HK as [K10 K9].
  destruct (RInv_self s t HR i rest Hp) as (x & Hg).
  assert (Hl : self_of t < length (actors s)) by (eapply nth_error_lt; exact Hg).
  destruct (instr_eq_cleanup i) as [-> |Hnc].
  - destruct t as [a|j]; [|discriminate (ext_head s j _ rest W Hp)]. cbn [self_of] in *. rewrite (astep_cleanup s a x rest Hg).
    eapply (KInv_shrink s _ a x _ Hg); [cbn [set_actor actors set_reg set_subs]; reflexivity|reflexivity|reflexivity|auto| |auto|exact HK].
    intros p b Hr. cbn [set_actor reg set_reg] in Hr. apply alookup_aremove in Hr. exact Hr.
  - destruct (astep_shape s t i rest x Hg Hp Hnc) as (ys & Hself & Y1 & Y2 & _ & [(Ha & Hr & Hch)|(sp & g & -> & Hlk & _ & Hchy & Ha & Hr)]).
    + apply (KInv_shrink s _ _ x ys Hg Ha Y1 Y2); [| rewrite Hr; auto| |exact HK].
      * destruct Hch as [-> |[who ->]]; [auto|].
        destruct t as [a|j]; [|discriminate (ext_head s j _ rest W Hp)]. cbn [self_of] in *.
        destruct (astep_ltrans s a x rest (IOnKilled who) Hg (or_introl eq_refl)) as (y & front & L & E). rewrite E in Hself. inversion Hself; subst ys.
        inversion L; subst; cbn [upd_pend a_children set_children upd_local]; auto.
        intros q c0. unfold drop_child. destruct who as [c| |]; auto. destruct (ref_path _ _); auto.
        destruct (alookup (a_children x) l) as [c'|]; auto. destruct (Nat.eqb c c'); auto. apply In_aremove.
      * intros b xb Hxb Hne Hreg Hlkq. rewrite Hr in Hreg. destruct Hch as [-> |[who ->]]; [exact Hlkq|].
        destruct t as [a|j]; [|discriminate (ext_head s j _ rest W Hp)]. cbn [self_of] in *.
        destruct (pend_of_TA_cons _ _ _ _ Hp) as (x1 & Hg1 & Hpx). assert (x1 = x) by congruence; subst x1.
        destruct (astep_ltrans s a x rest (IOnKilled who) Hg (or_introl eq_refl)) as (y & front & L & E). rewrite E in Hself. inversion Hself; subst ys.
        inversion L as [|? Hz|? Hz Hre|? Hz Hre| | | | | | ]; subst; cbn [upd_pend a_children set_children upd_local]; try exact Hlkq.
        unfold drop_child.
        destruct who as [c| |]; try exact Hlkq. destruct (ref_path (set_actor s a (upd_pend x rest)) (RObj c)) as [pc|] eqn:Erp; [|exact Hlkq].
        destruct (alookup (a_children x) pc) as [c'|] eqn:Ec'; [|exact Hlkq]. destruct (Nat.eqb_spec c c') as [<-|Hcc]; [|exact Hlkq].
        destruct (path_eqb (a_path xb) pc) eqn:Epb; [|rewrite alookup_aremove_other by exact Epb; exact Hlkq].
        exfalso. apply path_eqb_eq in Epb. rewrite Epb in Hlkq. assert (c = b) by congruence; subst c.
        (* the notice names b: b has released its path *)
        destruct HM as [M1 _]. destruct (M1 _ _ Hg) as [_ Hpend]. rewrite Hpx in Hpend. inversion Hpend as [|? ? Hik _]. cbn [instr_ok] in Hik.
        unfold msg_ok in Hik. cbn [mk_of] in Hik. destruct Hik as [E0|(xb0 & Hxb0 & Hnr)].
        -- inversion E0; subst b. unfold ref_eq in Hre. rewrite Erp in Hre. rewrite path_eqb_refl in Hre. discriminate Hre.
        -- apply Hnr. assert (xb0 = xb) by congruence; subst. exact Hreg.
    + set (p := a_path x ++ [sp_name sp]) in *. set (c := length (actors s)) in *.
      assert (Hget : forall b, get (astep s t (IAct (ASpawn sp)) rest) b =
                if Nat.eqb b c then Some (new_actor p g (Some (self_of t)) sp)
                else if Nat.eqb b (self_of t) then Some ys else get s b).
      { intros b. unfold get. rewrite Ha. destruct (Nat.eqb_spec b c) as [->|Hbc].
        - rewrite nth_error_app2 by (rewrite upd_length; unfold c; lia). rewrite upd_length. unfold c. rewrite Nat.sub_diag. reflexivity.
        - destruct (Nat.lt_ge_cases b c) as [Hlt|Hge].
          + rewrite nth_error_app1 by (rewrite upd_length; exact Hlt). destruct (Nat.eqb_spec b (self_of t)) as [->|Hbs].
            * apply nth_upd_eq. exact Hl.
            * apply nth_upd_neq. congruence.
          + rewrite nth_error_app2 by (rewrite upd_length; exact Hge). rewrite upd_length.
            destruct (b - length (actors s)) as [|k] eqn:E; [unfold c in *; lia|]. cbn. destruct k; cbn.
            * destruct (Nat.eqb_spec b (self_of t)); [lia|]. symmetry. apply nth_error_None. unfold c in *. lia.
            * destruct (Nat.eqb_spec b (self_of t)); [lia|]. symmetry. apply nth_error_None. unfold c in *. lia. }
      assert (Hold : forall b xb, get s b = Some xb -> exists xb', get (astep s t (IAct (ASpawn sp)) rest) b = Some xb' /\ a_parent xb' = a_parent xb /\ a_path xb' = a_path xb).
      { intros b xb Hb. rewrite Hget. assert (b < c) by (eapply nth_error_lt; exact Hb). destruct (Nat.eqb_spec b c); [lia|].
        destruct (Nat.eqb_spec b (self_of t)) as [->|Hbs]; [|eauto].
        eexists. split; [reflexivity|]. assert (xb = x) by congruence; subst. auto. }
      split.
      * intros a xa q c0 Hga Hlk0. rewrite Hget in Hga. destruct (Nat.eqb_spec a c) as [->|Hac].
        -- inversion Hga; subst xa. destruct Hlk0.
        -- destruct (Nat.eqb_spec a (self_of t)) as [->|Has].
           ++ inversion Hga; subst xa. rewrite Hchy in Hlk0. apply In_aset in Hlk0. destruct Hlk0 as [Hin|Heq].
              ** destruct (K10 _ _ _ _ Hg Hin) as (xc & Hxc & P1 & P2).
                 destruct (Hold c0 xc Hxc) as (xc' & Hxc' & Q1 & Q2). exists xc'. split; [exact Hxc'|split; congruence].
              ** inversion Heq; subst q c0. eexists. split; [rewrite Hget, Nat.eqb_refl; reflexivity|]. cbn. auto.
           ++ destruct (K10 _ _ _ _ Hga Hlk0) as (xc & Hxc & P1 & P2).
              destruct (Hold c0 xc Hxc) as (xc' & Hxc' & Q1 & Q2). exists xc'. split; [exact Hxc'|split; congruence].
      * intros b xb Hgb Hne Hreg. unfold regd in Hreg. rewrite Hr in Hreg. rewrite Hget in Hgb.
        destruct (Nat.eqb_spec b c) as [->|Hbc].
        -- inversion Hgb; subst xb. cbn [a_parent a_path new_actor]. exists (self_of t). eexists. split; [reflexivity|].
           split; [rewrite Hget; assert (self_of t < c) by exact Hl; destruct (Nat.eqb_spec (self_of t) c); [lia|]; rewrite Nat.eqb_refl; reflexivity|].
           rewrite Hchy. apply alookup_aset_same.
        -- assert (Hxo : exists xo, get s b = Some xo /\ a_path xb = a_path xo /\ a_parent xb = a_parent xo).
           { destruct (Nat.eqb_spec b (self_of t)) as [->|Hbs]; [inversion Hgb; subst xb; exists x; auto|eauto]. }
           destruct Hxo as (xo & Hxo & P1 & P2). rewrite P1 in Hreg. apply alookup_app_one in Hreg.
           destruct Hreg as [Hreg|[_ E]]; [|apply nth_error_lt in Hxo; unfold c in *; lia].
           destruct (K9 b xo Hxo Hne Hreg) as (q & xq & Hq & Hxq & Hlkq).
           exists q. rewrite P1, P2. destruct (Nat.eq_dec q (self_of t)) as [->|Hqs].
           ++ eexists. split; [exact Hq|]. split; [rewrite Hget; assert (self_of t < c) by exact Hl; destruct (Nat.eqb_spec (self_of t) c); [lia|]; rewrite Nat.eqb_refl; reflexivity|].
              rewrite Hchy. assert (xq = x) by congruence; subst xq. rewrite alookup_aset_other; [exact Hlkq|].
              apply path_eqb_neq. intros E. rewrite E in Hreg. congruence.
           ++ exists xq. split; [exact Hq|]. split; [|exact Hlkq]. rewrite Hget.
              assert (q < c) by (eapply nth_error_lt; exact Hxq). destruct (Nat.eqb_spec q c); [lia|]. destruct (Nat.eqb_spec q (self_of t)); [congruence|exact Hxq].
Qed.

Theorem KInv_mstep s m : wf s -> LI s -> RInv s -> MK s -> KInv s -> KInv (mstep s m).
Proof.
  intros W HLI HR HM HK.
  destruct (mstep_cases s m) as [Hq|[(t & i & rest & pre & s1 & Hp & Hpl & Hf & Hu & Hq & _ & E)|[(a & x & e & -> & Hg & Hc)|(t & i & rest & -> & Hp & Hy & Hq & E)]]].
  - apply (KInv_quiet s); assumption.
  - rewrite E. apply KInv_set_pend. apply (KInv_quiet s); assumption.
  - apply (KInv_handle s a x e); assumption.
  - rewrite E. apply KInv_astep; assumption.
Qed.

Lemma KInv_init scs : KInv (init_with scs).
Proof.
  split.
  - intros a x p c Hg Hlk. destruct (get_init scs a x Hg) as [_ ->]. destruct Hlk.
  - intros a x Hg Hne. destruct (get_init scs a x Hg) as [-> _]. congruence.
Qed.

Definition Base4 (s : state) : Prop := wf s /\ LI s /\ RInv s /\ MK s.
Lemma Base4_init scs : Base4 (init_with scs).
Proof. split; [apply wf_init|split; [apply LI_init|split; [apply RInv_init|apply MK_init]]]. Qed.
Lemma Base4_mstep s m : Base4 s -> Base4 (mstep s m).
Proof.
  intros (W & I & R & M). split; [apply wf_mstep; exact W|split; [apply LI_mstep; assumption|split; [apply RInv_mstep; assumption|apply MK_mstep; assumption]]].
Qed.

Theorem KInv_reachable s : reachable s -> KInv s.
Proof.
  revert s. apply (micro_invariant_with Base4 KInv); [apply Base4_init|apply Base4_mstep|apply KInv_init|].
  intros s m (W & I & R & M) HK. apply KInv_mstep; assumption.
Qed.

(** the parent of a registered context has a non-empty children map, hence is not Killed, hence is registered itself *)
Lemma parent_alive s a x :
  LI s -> RInv s -> KInv s -> get s a = Some x -> a <> 0 -> regd s a x ->
  exists q xq, a_parent x = Some q /\ q < a /\ get s q = Some xq /\ alookup (a_children xq) (a_path x) = Some a /\
               a_state xq <> Killed /\ a_zombie xq = false /\ (q <> 0 -> regd s q xq).
Proof.
  intros HLI (Ra & Rb & Rc & R1 & R8) [K10 K9] Hg Hne Hreg.
  destruct (K9 a x Hg Hne Hreg) as (q & xq & Hq & Hxq & Hlk).
  destruct (Rb a x Hg Hne) as [(q' & Hq' & Hlt) _]. assert (q' = q) by congruence; subst q'.
  pose proof (HLI _ _ Hxq) as (L1 & L2 & _).
  assert (Hnk : a_state xq <> Killed) by (intros Hk; rewrite (L2 Hk) in Hlk; discriminate Hlk).
  assert (Hz : a_zombie xq = false) by (destruct (a_zombie xq); [exfalso; apply Hnk; apply L1; reflexivity|reflexivity]).
  exists q, xq. repeat split; auto. intros Hq0. apply (R1 q xq Hxq Hq0). left. exact Hnk.
Qed.

Theorem running_is_registered s a x :
  reachable s -> get s a = Some x -> a <> 0 -> a_state x <> Killed -> alookup (reg s) (a_path x) = Some a.
Proof. intros Hr Hg Hne Hs. destruct (RInv_reachable s Hr) as (_ & _ & _ & R1 & _). apply (R1 a x Hg Hne). left. exact Hs. Qed.

Theorem zombie_registered_until_released s a x :
  reachable s -> get s a = Some x -> a <> 0 -> a_zombie x = true -> ~ In IUnzombie (a_pend x) -> alookup (reg s) (a_path x) = Some a.
Proof.
  intros Hr Hg Hne Hz Hnu. destruct (RInv_reachable s Hr) as (_ & _ & _ & R1 & _). apply (R1 a x Hg Hne). right; right; right. split; [exact Hz|].
  unfold uzc. destruct (filter is_unzombie (a_pend x)) as [|i l] eqn:E; [reflexivity|]. exfalso. apply Hnu.
  assert (Hin : In i (filter is_unzombie (a_pend x))) by (rewrite E; left; reflexivity). apply filter_In in Hin. destruct Hin as [Hin Hi]. destruct i; try discriminate Hi. exact Hin.
Qed.

Theorem zombie_is_terminated s a x :
  reachable s -> get s a = Some x -> a_zombie x = true -> a_state x = Killed /\ a_children x = [].
Proof. intros Hr Hg Hz. destruct (linv_reachable s a x Hr Hg) as (L1 & L2 & _). split; [auto|auto]. Qed.

Theorem killed_has_no_children s a x : reachable s -> get s a = Some x -> a_state x = Killed -> a_children x = [].
Proof. intros Hr Hg Hk. destruct (linv_reachable s a x Hr Hg) as (_ & L2 & _). auto. Qed.

Theorem registered_child_has_live_parent s a x :
  reachable s -> get s a = Some x -> a <> 0 -> alookup (reg s) (a_path x) = Some a ->
  exists q xq, a_parent x = Some q /\ q < a /\ get s q = Some xq /\ alookup (a_children xq) (a_path x) = Some a /\
               a_state xq <> Killed /\ a_zombie xq = false /\ (q <> 0 -> alookup (reg s) (a_path xq) = Some q).
Proof.
  intros Hr Hg Hne Hreg.
  apply (parent_alive s a x (fun b y => linv_reachable s b y Hr) (RInv_reachable s Hr) (KInv_reachable s Hr) Hg Hne Hreg).
Qed.

Theorem children_entries_are_children s a x p c :
  reachable s -> get s a = Some x -> alookup (a_children x) p = Some c ->
  exists xc, get s c = Some xc /\ a_parent xc = Some a /\ a_path xc = p.
Proof.
  intros Hr Hg Hlk. destruct (alookup_In _ _ _ Hlk) as (q & Hin & Hq). apply path_eqb_eq in Hq. subst q.
  apply (proj1 (KInv_reachable s Hr) a x p c Hg Hin).
Qed.

Theorem notice_means_released s a x e c :
  reachable s -> get s a = Some x -> In e (a_sq x ++ a_uq x ++ held x) -> e_msg e = MKilled (RObj c) -> c <> a ->
  exists xc, get s c = Some xc /\ alookup (reg s) (a_path xc) <> Some c.
Proof.
  intros Hr Hg Hin Hm Hne. destruct (MK_reachable s Hr) as [M1 _]. destruct (M1 a x Hg) as [He _].
  rewrite Forall_forall in He. specialize (He e). unfold envs in He. rewrite !app_assoc in He.
  assert (Hin' : In e ((((a_sq x ++ a_uq x) ++ held x) ++ a_stash x) ++ match a_cur x with Some e0 => [e0] | None => [] end)).
  { apply in_or_app. left. apply in_or_app. left. rewrite <- app_assoc. exact Hin. }
  specialize (He Hin'). unfold env_ok, msg_ok in He. rewrite Hm in He. cbn [mk_of] in He.
  destruct He as [E|(xc & Hxc & Hn)]; [inversion E; congruence|]. exists xc. split; [exact Hxc|exact Hn].
Qed.
