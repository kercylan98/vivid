(** Registration invariant: an actor that is not terminated (or is about to run its cleanup / finish its restart, or
    is a zombie not yet released) is registered under its path; a reference cache names its owner or the owner has
    been released; the root is never registered. *)
From Coq Require Import List NArith ZArith Bool Lia Arith.
From Vivid Require Import Actor.Core Actor.CoreRun Actor.SpecMail Actor.ProofsMailBase Actor.ProofsMail Actor.ProofsMailInv
  Actor.ProofsMailWf Actor.ProofsMailAcct Actor.ProofsMailReg Actor.ProofsMailMicro Actor.ProofsMailLife Actor.ProofsMailStep.
Import ListNotations.

Lemma path_eqb_refl p : path_eqb p p = true.
Proof. induction p; cbn; [reflexivity|]. rewrite N.eqb_refl, IHp. reflexivity. Qed.
Lemma path_eqb_neq p q : p <> q -> path_eqb p q = false.
Proof. intros H. destruct (path_eqb p q) eqn:E; [|reflexivity]. exfalso. apply H, path_eqb_eq, E. Qed.

Lemma alookup_app_some {A} (l : list (path * A)) r p v : alookup l p = Some v -> alookup (l ++ r) p = Some v.
Proof. induction l as [|[q w] l IH]; cbn [alookup app]; [discriminate|]. destruct (path_eqb p q); auto. Qed.
Lemma alookup_app_none {A} (l : list (path * A)) r p : alookup l p = None -> alookup (l ++ r) p = alookup r p.
Proof. induction l as [|[q w] l IH]; cbn [alookup app]; [reflexivity|]. destruct (path_eqb p q); [discriminate|auto]. Qed.
Lemma alookup_aremove_same {A} (l : list (path * A)) p : alookup (aremove l p) p = None.
Proof.
  induction l as [|[q w] l IH]; cbn [aremove alookup]; [reflexivity|].
  destruct (path_eqb p q) eqn:E; [exact IH|]. cbn [alookup]. rewrite E. exact IH.
Qed.
Lemma alookup_aremove_other {A} (l : list (path * A)) p q : path_eqb q p = false -> alookup (aremove l p) q = alookup l q.
Proof.
  intros Hne. induction l as [|[r w] l IH]; cbn [aremove alookup]; [reflexivity|].
  destruct (path_eqb p r) eqn:E.
  - apply path_eqb_eq in E. subst r. rewrite Hne. exact IH.
  - cbn [alookup]. destruct (path_eqb q r); [reflexivity|exact IH].
Qed.

Definition regd (s : state) (a : aid) (x : actor) : Prop := alookup (reg s) (a_path x) = Some a.

Definition must_reg (x : actor) : Prop :=
  a_state x <> Killed \/ In ICleanup (lf (a_pend x)) \/ In IRestartFinish (lf (a_pend x)) \/
  (a_zombie x = true /\ uzc (a_pend x) = 0).

Definition RInv (s : state) : Prop :=
  (exists x0, get s 0 = Some x0 /\ a_parent x0 = None /\ a_path x0 = []) /\
  (forall a x, get s a = Some x -> a <> 0 -> (exists q, a_parent x = Some q /\ q < a) /\ a_path x <> []) /\
  alookup (reg s) [] = None /\
  (forall a x, get s a = Some x -> a <> 0 -> must_reg x -> regd s a x) /\
  (forall a x y, get s a = Some x -> a_cache x = Some y -> y = a \/ ~ regd s a x).

Lemma RInv_transfer s s' :
  reg s' = reg s -> length (actors s') = length (actors s) ->
  (forall b x', get s' b = Some x' -> exists x, get s b = Some x /\ a_path x' = a_path x /\ a_parent x' = a_parent x /\
      crel s x x' /\ (must_reg x' -> must_reg x)) ->
  RInv s -> RInv s'.
Proof.
  intros Hr Hl H (Ra & Rb & Rc & R1 & R8).
  split; [|split; [|split; [|split]]].
  - destruct Ra as (x0 & Hg0 & Hp0 & Hpa0).
    assert (Hlt : 0 < length (actors s')) by (rewrite Hl; eapply nth_error_lt; exact Hg0).
    destruct (get s' 0) as [x0'|] eqn:E; [|apply nth_error_None in E; lia].
    destruct (H 0 x0' E) as (x & Hx & P1 & P2 & _). assert (x = x0) by congruence; subst. exists x0'. split; [reflexivity|split; congruence].
  - intros a x' Hg' Hne. destruct (H a x' Hg') as (x & Hx & P1 & P2 & _). destruct (Rb a x Hx Hne) as [(q & Hq & Hlt) Hpn].
    split; [exists q; split; [congruence|exact Hlt]|congruence].
  - rewrite Hr. exact Rc.
  - intros a x' Hg' Hne Hm. destruct (H a x' Hg') as (x & Hx & P1 & P2 & _ & Hmm). unfold regd. rewrite Hr, P1. apply (R1 a x Hx Hne (Hmm Hm)).
  - intros a x' y Hg' Hc. destruct (H a x' Hg') as (x & Hx & P1 & P2 & Hcr & _). unfold regd. rewrite Hr, P1.
    destruct Hcr as [E|(N & z & Ez & Lz)].
    + apply (R8 a x y Hx). congruence.
    + assert (z = y) by congruence; subst z. destruct (Nat.eq_dec y a) as [->|Hne]; [left; reflexivity|right]. intros Hreg. congruence.
Qed.

Lemma must_reg_soft x y : soft x y -> (must_reg y <-> must_reg x).
Proof. intros (A & B & C & D & _). unfold must_reg. rewrite A, B, D. tauto. Qed.

Lemma RInv_quiet s s' : quiet s s' -> RInv s -> RInv s'.
Proof.
  intros (Hr & _ & Hl & Hs & Hc). apply RInv_transfer; [exact Hr|exact Hl|].
  intros b x' Hg'. assert (Hlt : b < length (actors s)) by (rewrite <- Hl; eapply nth_error_lt; exact Hg').
  destruct (get s b) as [x|] eqn:Hg; [|apply nth_error_None in Hg; lia].
  destruct (softT_get _ _ _ _ Hs Hg) as (y & Hy & Hsoft). assert (y = x') by congruence; subst y.
  exists x. split; [reflexivity|]. pose proof Hsoft as (_ & _ & _ & _ & P1 & P2 & _).
  split; [exact P1|split; [exact P2|split; [apply (Hc b x x' Hg Hg')|apply (proj1 (must_reg_soft _ _ Hsoft))]]].
Qed.

Lemma crel_refl s x : crel s x x. Proof. left. reflexivity. Qed.

Lemma must_reg_plain_head x y i rest pre :
  a_pend x = i :: rest -> plain i = true -> lf pre = [] -> uzc pre = 0 ->
  a_state y = a_state x -> a_zombie y = a_zombie x -> a_pend y = pre ++ rest -> (must_reg y <-> must_reg x).
Proof.
  intros Hp Hpl Hf Hu Hs Hz Hpy. unfold must_reg, plain in *. apply andb_true_iff in Hpl. destruct Hpl as [H1 H2].
  apply negb_true_iff in H1, H2. rewrite Hs, Hz, Hpy, Hp, lf_app, uzc_app, Hf, Hu, (lf_cons_plain _ _ H1), (uzc_cons_plain _ _ H2). cbn [app plus]. tauto.
Qed.

Lemma RInv_plain s s1 t i rest pre :
  quiet s s1 -> pend_of s t = i :: rest -> plain i = true -> lf pre = [] -> uzc pre = 0 ->
  RInv s -> RInv (set_pend s1 t (pre ++ rest)).
Proof.
  intros Hq Hp Hpl Hf Hu HR. pose proof Hq as (Hr & _ & Hl & Hs & Hc).
  apply (RInv_transfer s); [rewrite set_pend_reg; exact Hr|rewrite len_set_pend; exact Hl| |exact HR].
  intros b x' Hg'.
  assert (Hlt : b < length (actors s)) by (rewrite <- Hl, <- (len_set_pend s1 t (pre ++ rest)); eapply nth_error_lt; exact Hg').
  destruct (get s b) as [x|] eqn:Hg; [|apply nth_error_None in Hg; lia].
  destruct (softT_get _ _ _ _ Hs Hg) as (y & Hy & Hsoft). pose proof (Hc b x y Hg Hy) as Hcr.
  pose proof Hsoft as (A & B & C & D & P1 & P2 & _).
  exists x. split; [reflexivity|].
  destruct t as [a|j].
  - destruct (Nat.eq_dec a b) as [->|Hne].
    + rewrite (set_pend_TA _ _ _ _ Hy), (get_set_same' _ _ _ _ Hy) in Hg'. inversion Hg'; subst x'.
      destruct (pend_of_TA_cons _ _ _ _ Hp) as (x0 & Hg0 & Hpx). assert (x0 = x) by congruence; subst x0.
      cbn [upd_pend a_path a_parent]. split; [exact P1|split; [exact P2|split]].
      * destruct Hcr as [E|E]; [left; exact E|right; exact E].
      * apply (proj1 (must_reg_plain_head x (upd_pend y (pre ++ rest)) i rest pre Hpx Hpl Hf Hu A B eq_refl)).
    + assert (E : get (set_pend s1 (TA a) (pre ++ rest)) b = get s1 b).
      { cbn [set_pend]. unfold with_actor. destruct (get s1 a); [apply get_set_other; exact Hne|reflexivity]. }
      rewrite E in Hg'. assert (x' = y) by congruence; subst.
      split; [exact P1|split; [exact P2|split; [exact Hcr|apply (proj1 (must_reg_soft _ _ Hsoft))]]].
  - assert (E : get (set_pend s1 (TX j) (pre ++ rest)) b = get s1 b) by (unfold get; rewrite set_pend_TX_actors; reflexivity).
    rewrite E in Hg'. assert (x' = y) by congruence; subst.
    split; [exact P1|split; [exact P2|split; [exact Hcr|apply (proj1 (must_reg_soft _ _ Hsoft))]]].
Qed.

Lemma must_reg_astep_TA s a x i rest x' :
  get s a = Some x -> a_pend x = i :: rest -> linv x -> i <> ICleanup ->
  get (astep s (TA a) i rest) a = Some x' -> must_reg x' -> must_reg x.
Proof.
  intros Hg Hp Hinv Hnc Hg' Hm.
  assert (Hl : a < length (actors s)) by (eapply nth_error_lt; exact Hg).
  destruct (life_plain_cases i) as [Hpl|Hli].
  - destruct (astep_TA_get s a x i rest Hg Hp) as (y & Hy & Hpy & E). cbv zeta in *.
    set (s0 := set_actor s a (upd_pend x rest)) in *.
    assert (Hg0 : get s0 (self_of (TA a)) = Some (upd_pend x rest)) by (apply get_set_same; exact Hl).
    destruct (exec1_plain_lc s0 (TA a) [] i _ Hg0 Hpl) as (y' & Hy' & Hs & Hz & _). cbn [self_of] in Hy'.
    assert (y' = y) by congruence; subst y'. destruct (exec1_front_plain s0 (TA a) [] i Hpl) as [Hf Hu].
    rewrite E in Hg'. rewrite get_set_same in Hg' by (eapply nth_error_lt; exact Hy). inversion Hg'; subst x'.
    apply (proj1 (must_reg_plain_head x (upd_pend y (snd (exec1 s0 (TA a) [] i) ++ rest)) i rest _ Hp Hpl Hf Hu Hs Hz eq_refl)). exact Hm.
  - destruct (astep_ltrans s a x rest i Hg Hli) as (y & front & L & E).
    rewrite E in Hg'. inversion Hg'; subst x'. clear Hg' E.
    destruct Hinv as (L1 & L2 & L3 & L4 & L5). unfold life_ok in L5. rewrite Hp in L3, L4, L5.
    rewrite lf_cons in L5. rewrite uzc_cons in L3, L4, L5.
    unfold must_reg in *. rewrite Hp, lf_cons, uzc_cons. cbn [upd_pend a_pend a_state a_zombie] in Hm. rewrite lf_app, uzc_app in Hm.
    destruct L as [p|w Hz|w Hz Hr|w Hz Hr|Hidle|Hc Hs| |Hok|Hok| ]; try congruence; cbn [life is_unzombie plus] in L3, L4, L5 |- *;
      cbn [a_state a_zombie set_children set_zombie upd_local marked set_mb set_state] in Hm;
      try (destruct (lf rest) eqn:Hlr; [|contradiction]);
      rewrite ?lf_app, ?lf_cons, ?uzc_app, ?uzc_cons in Hm; cbn [life is_unzombie plus app lf uzc filter length] in Hm.
    + destruct (a_children x); cbn [lf uzc filter life is_unzombie length app plus In] in Hm; intuition discriminate.
    + right; right; right. auto.
    + cbn [In] in Hm. intuition (try discriminate; congruence).
    + cbn [In] in Hm. intuition (try discriminate; congruence).
    + cbn [In] in Hm. intuition.
    + left. congruence.
    + right; right; left. left. reflexivity.
    + right; right; left. left. reflexivity.
    + cbn [In] in Hm. intuition discriminate.
Qed.

Lemma alookup_single p (c : aid) q : alookup [(p, c)] q = if path_eqb q p then Some c else None.
Proof. reflexivity. Qed.

Lemma RInv_spawn s s' self x p c g sp y :
  RInv s -> get s self = Some x -> c = length (actors s) -> p = a_path x ++ [sp_name sp] -> alookup (reg s) p = None ->
  reg s' = reg s ++ [(p, c)] ->
  actors s' = upd (actors s) self y ++ [new_actor p g (Some self) sp] ->
  a_path y = a_path x -> a_parent y = a_parent x -> a_cache y = a_cache x -> (must_reg y -> must_reg x) ->
  RInv s'.
Proof.
  intros (Ra & Rb & Rc & R1 & R8) Hg Hc Hp Hlk Hr Ha P1 P2 P3 Hm.
  assert (Hl : self < length (actors s)) by (eapply nth_error_lt; exact Hg).
  assert (Hold : forall b x', b < length (actors s) -> get s' b = Some x' ->
            exists xb, get s b = Some xb /\ a_path x' = a_path xb /\ a_parent x' = a_parent xb /\ a_cache x' = a_cache xb /\ (must_reg x' -> must_reg xb)).
  { intros b x' Hlt Hg'. unfold get in Hg'. rewrite Ha in Hg'. rewrite nth_error_app1 in Hg' by (rewrite upd_length; exact Hlt).
    destruct (Nat.eq_dec self b) as [<-|Hne].
    - rewrite nth_upd_eq in Hg' by exact Hl. inversion Hg'; subst. exists x. auto.
    - rewrite nth_upd_neq in Hg' by exact Hne. exists x'. auto. }
  assert (Hnew : get s' c = Some (new_actor p g (Some self) sp)).
  { unfold get. rewrite Ha. rewrite nth_error_app2 by (rewrite upd_length; lia). rewrite upd_length, Hc, Nat.sub_diag. reflexivity. }
  assert (Hcases : forall b x', get s' b = Some x' -> b < length (actors s) \/ (b = c /\ x' = new_actor p g (Some self) sp)).
  { intros b x' Hg'. destruct (Nat.lt_ge_cases b (length (actors s))) as [H|H]; [left; exact H|right].
    unfold get in Hg'. rewrite Ha in Hg'. rewrite nth_error_app2 in Hg' by (rewrite upd_length; exact H). rewrite upd_length in Hg'.
    destruct (b - length (actors s)) as [|k] eqn:E; cbn in Hg'; [|destruct k; discriminate Hg'].
    split; [lia|congruence]. }
  assert (Hpne : p <> []) by (rewrite Hp; destruct (a_path x); discriminate).
  split; [|split; [|split; [|split]]].
  - destruct Ra as (x0 & Hg0 & A & B). assert (H0 : 0 < length (actors s)) by (eapply nth_error_lt; exact Hg0).
    assert (exists x0', get s' 0 = Some x0') as [x0' Hx0'].
    { unfold get. rewrite Ha. rewrite nth_error_app1 by (rewrite upd_length; exact H0).
      destruct (nth_error (upd (actors s) self y) 0) eqn:E; [eauto|]. apply nth_error_None in E. rewrite upd_length in E. lia. }
    destruct (Hold 0 x0' H0 Hx0') as (xb & Hxb & Q1 & Q2 & _). assert (xb = x0) by congruence; subst. exists x0'. split; [exact Hx0'|split; congruence].
  - intros b x' Hg' Hne. destruct (Hcases b x' Hg') as [Hlt|[-> ->]].
    + destruct (Hold b x' Hlt Hg') as (xb & Hxb & Q1 & Q2 & _). destruct (Rb b xb Hxb Hne) as [(q & Hq & Hqlt) Hpn].
      split; [exists q; split; [congruence|exact Hqlt]|congruence].
    + cbn. split; [exists self; split; [reflexivity|lia]|exact Hpne].
  - rewrite Hr, (alookup_app_none _ _ _ Rc), alookup_single. rewrite path_eqb_neq; [reflexivity|congruence].
  - intros b x' Hg' Hne Hmr. unfold regd. rewrite Hr. destruct (Hcases b x' Hg') as [Hlt|[-> ->]].
    + destruct (Hold b x' Hlt Hg') as (xb & Hxb & Q1 & _ & _ & Q4). rewrite Q1. apply alookup_app_some. apply (R1 b xb Hxb Hne (Q4 Hmr)).
    + cbn [a_path new_actor]. rewrite (alookup_app_none _ _ _ Hlk), alookup_single, path_eqb_refl. reflexivity.
  - intros b x' z Hg' Hcz. unfold regd. rewrite Hr. destruct (Hcases b x' Hg') as [Hlt|[-> ->]].
    + destruct (Hold b x' Hlt Hg') as (xb & Hxb & Q1 & _ & Q3 & _). rewrite Q1.
      destruct (R8 b xb z Hxb ltac:(congruence)) as [E|Hn]; [left; exact E|right]. intros Hreg. apply Hn.
      apply alookup_app_one in Hreg. destruct Hreg as [H|[_ H]]; [exact H|lia].
    + discriminate Hcz.
Qed.

Lemma instr_eq_cleanup i : i = ICleanup \/ i <> ICleanup.
Proof. destruct i; try (right; discriminate). left; reflexivity. Qed.
Lemma app_eq_len {A} (l1 l2 r1 r2 : list A) : length l1 = length l2 -> l1 ++ r1 = l2 ++ r2 -> l1 = l2 /\ r1 = r2.
Proof.
  revert l2. induction l1 as [|h t IH]; intros [|h2 t2] Hl E; cbn in *; try discriminate; [auto|].
  inversion E; subst. destruct (IH t2 ltac:(lia) H1) as [-> ->]. auto.
Qed.
Lemma upd_app_inj (l : list actor) a y y' news n : a < length l -> upd l a y ++ news = upd l a y' ++ [n] -> news = [n] /\ y = y'.
Proof.
  intros Hl E. assert (Hlen : length (upd l a y) = length (upd l a y')) by (rewrite !upd_length; reflexivity).
  destruct (app_eq_len _ _ _ _ Hlen E) as [E1 E2]. split; [exact E2|].
  apply (f_equal (fun l => nth_error l a)) in E1. rewrite !nth_upd_eq in E1 by exact Hl. congruence.
Qed.

Lemma RInv_self s t : RInv s -> forall i rest, pend_of s t = i :: rest -> exists x, get s (self_of t) = Some x.
Proof.
  intros (Ra & _) i rest Hp. destruct t as [a|j]; cbn [self_of].
  - destruct (pend_of_TA_cons _ _ _ _ Hp) as (x & Hg & _). eauto.
  - destruct Ra as (x0 & Hg0 & _). eauto.
Qed.

Lemma regd_cleanup_other s a x b xb :
  RInv s -> get s a = Some x -> In ICleanup (lf (a_pend x)) -> get s b = Some xb -> b <> a -> regd s b xb ->
  alookup (aremove (reg s) (a_path x)) (a_path xb) = Some b.
Proof.
  intros (Ra & Rb & Rc & R1 & R8) Hg Hin Hgb Hne Hreg. unfold regd in Hreg.
  rewrite alookup_aremove_other; [exact Hreg|]. apply path_eqb_neq. intros E.
  destruct (Nat.eq_dec a 0) as [->|Ha0].
  - destruct Ra as (x0 & Hg0 & _ & Hp0). assert (x0 = x) by congruence; subst. rewrite E, Hp0, Rc in Hreg. discriminate.
  - assert (Hra : regd s a x) by (apply (R1 a x Hg Ha0); right; left; exact Hin). unfold regd in Hra. rewrite <- E in Hra. congruence.
Qed.

Lemma astep_shape s t i rest x :
  get s (self_of t) = Some x -> pend_of s t = i :: rest -> i <> ICleanup ->
  exists ys, get (astep s t i rest) (self_of t) = Some ys /\
    a_path ys = a_path x /\ a_parent ys = a_parent x /\ a_cache ys = a_cache x /\
    ((actors (astep s t i rest) = upd (actors s) (self_of t) ys /\ reg (astep s t i rest) = reg s /\
      (a_children ys = a_children x \/ exists w, i = IOnKilled w)) \/
     (exists sp g, i = IAct (ASpawn sp) /\ alookup (reg s) (a_path x ++ [sp_name sp]) = None /\ a_state x <> Killed /\
        a_children ys = aset (a_children x) (a_path x ++ [sp_name sp]) (length (actors s)) /\
        actors (astep s t i rest) = upd (actors s) (self_of t) ys ++ [new_actor (a_path x ++ [sp_name sp]) g (Some (self_of t)) sp] /\
        reg (astep s t i rest) = reg s ++ [(a_path x ++ [sp_name sp], length (actors s))])).
Proof.
  intros Hg Hp Hnc. assert (Hl : self_of t < length (actors s)) by (eapply nth_error_lt; exact Hg).
  destruct (astep_table s t i rest x Hg Hp) as (Hg0 & y & news & Hy & _ & Ha1 & Ha & Hr & Hl0 & Hr0). cbv zeta in *.
  set (s0 := set_pend s t rest) in *. set (x0 := popped t x rest) in *.
  assert (Hx0 : a_path x0 = a_path x /\ a_parent x0 = a_parent x /\ a_cache x0 = a_cache x /\ a_children x0 = a_children x /\ a_state x0 = a_state x)
    by (unfold x0; destruct t; repeat split).
  destruct Hx0 as (X1 & X2 & X3 & X4 & X5).
  eexists. split; [apply (get_upd_app s _ _ x _ _ Hg Ha)|].
  assert (Hys : forall l, a_path (pushed t y l) = a_path x /\ a_parent (pushed t y l) = a_parent x /\ a_cache (pushed t y l) = a_cache x /\
                          a_children (pushed t y l) = a_children y).
  { intros l. destruct t; cbn [pushed upd_pend a_path a_parent a_cache a_children];
      rewrite (lu_path _ _ _ Hy), (lu_parent _ _ _ Hy), (lu_cache _ _ _ Hy); auto. }
  destruct (Hys (snd (exec1 s0 t (held_of s0 t) i) ++ rest)) as (Y1 & Y2 & Y3 & Y4).
  split; [exact Y1|split; [exact Y2|split; [exact Y3|]]]. rewrite Y4.
  assert (Hnn : forall s1, s1 = fst (exec1 s0 t (held_of s0 t) i) -> length (actors s1) = length (actors s0) -> news = []).
  { intros s1 -> Hlen. rewrite Ha1, app_length, upd_length in Hlen. destruct news; [reflexivity|cbn in Hlen; lia]. }
  destruct (spawn_dec i) as [[sp ->]|Hns].
  - destruct (exec1_spawn s0 t (held_of s0 t) sp x0 Hg0) as [[code E]|(Hst & _ & Hlk & g & s1 & E & Hsa & Hsr & _)]; cbv zeta in *; rewrite E in *; cbn [fst] in *.
    + left. rewrite (Hnn _ eq_refl eq_refl) in *. rewrite app_nil_r in *. split; [exact Ha|split; [rewrite Hr; exact Hr0|left]].
      cbn [add_obs actors] in Ha1. apply (f_equal (fun l => nth_error l (self_of t))) in Ha1. unfold get in Hg0. rewrite Hg0, nth_upd_eq in Ha1 by (rewrite Hl0; exact Hl).
      inversion Ha1. exact X4.
    + right. rewrite Hsa in Ha1. symmetry in Ha1. apply upd_app_inj in Ha1; [|rewrite Hl0; exact Hl]. destruct Ha1 as [-> ->].
      rewrite Hl0, Hr0, X1, X5 in *. exists sp, g. split; [reflexivity|split; [exact Hlk|split; [exact Hst|split; [cbn; rewrite X4; reflexivity|split; [exact Ha|]]]]].
      rewrite Hr. exact Hsr.
  - left. destruct (exec1_local s0 t (held_of s0 t) i x0 Hg0 Hns) as (y2 & _ & Ha2 & _ & _ & Hreg' & _). cbv zeta in Ha2, Hreg'.
    rewrite (Hnn _ eq_refl) in * by (rewrite Ha2; apply upd_length). rewrite app_nil_r in *.
    split; [exact Ha|split; [rewrite Hr, Hreg', Hr0; destruct i; try reflexivity; congruence|]].
    destruct (lu_children _ _ _ Hy) as [E|[[sp E]|[w E]]]; [left; rewrite E; exact X4|exfalso; exact (Hns sp E)|right; eauto].
Qed.

Lemma must_reg_astep s t i rest x xs :
  wf s -> LI s -> get s (self_of t) = Some x -> pend_of s t = i :: rest -> i <> ICleanup ->
  get (astep s t i rest) (self_of t) = Some xs -> must_reg xs -> must_reg x.
Proof.
  intros W I Hg Hp Hnc Hxs Hm. destruct t as [a|j]; cbn [self_of] in *.
  - rewrite (pend_of_TA _ _ _ Hg) in Hp. apply (must_reg_astep_TA s a x i rest xs Hg Hp (I _ _ Hg) Hnc Hxs Hm).
  - (* an external caller: the root's lifecycle fields and pending list are untouched *)
    pose proof (ext_head_plain s j i rest W Hp) as Hpl.
    destruct (astep_table s (TX j) i rest x Hg Hp) as (Hg0 & y & news & Hy & _ & Ha1 & Ha & _). cbv zeta in *. cbn [self_of popped pushed] in *.
    rewrite (get_upd_app s _ 0 x _ _ Hg Ha) in Hxs. inversion Hxs; subst xs.
    destruct (exec1_plain_lc _ (TX j) (held_of (set_pend s (TX j) rest) (TX j)) i x Hg0 Hpl) as (y' & Hy' & Hs' & Hz' & _). cbn [self_of] in Hy'.
    rewrite (get_upd_app _ _ 0 x _ _ Hg0 Ha1) in Hy'. inversion Hy'; subst y'.
    unfold must_reg in *. rewrite Hs', Hz', (lu_pend _ _ _ Hy) in Hm. exact Hm.
Qed.

Lemma RInv_astep s t i rest :
  wf s -> LI s -> RInv s -> pend_of s t = i :: rest -> yielding i = false -> is_enq i = false -> RInv (astep s t i rest).
Proof.
  intros W I HR Hp Hyld Hq.
  destruct (RInv_self s t HR i rest Hp) as (x & Hg).
  assert (Hl : self_of t < length (actors s)) by (eapply nth_error_lt; exact Hg).
  destruct (instr_eq_cleanup i) as [-> |Hnc].
  - destruct t as [a|j]; [|discriminate (ext_head_plain s j _ rest W Hp)]. cbn [self_of] in *.
    destruct (pend_of_TA_cons _ _ _ _ Hp) as (x1 & Hg1 & Hpx). assert (x1 = x) by congruence; subst x1.
    rewrite (astep_cleanup s a x rest Hg).
    pose proof (I _ _ Hg) as (L1 & L2 & L3 & L4 & L5). unfold life_ok in L5. rewrite Hpx in L3, L4, L5.
    rewrite (lf_cons_life ICleanup rest eq_refl) in L5. rewrite (uzc_cons_plain ICleanup rest eq_refl) in *.
    assert (Hlr : lf rest = []) by (destruct (lf rest); [reflexivity|contradiction]). rewrite Hlr in L5. destruct L5 as [Hk Hzu].
    assert (Hin : In ICleanup (lf (a_pend x))) by (rewrite Hpx, (lf_cons_life ICleanup rest eq_refl); left; reflexivity).
    destruct (lf_cleanup_sends a x) as [Hcf Hcu].
    pose proof HR as (Ra & Rb & Rc & R1 & R8).
    set (sr := set_reg (set_subs s (unsub_all (subs s) (a_path x))) (aremove (reg s) (a_path x))).
    set (xn := upd_pend x ((cleanup_sends a x ++ [IPub evKilled (actor_key x); IResume1]) ++ rest)).
    assert (Hget : forall b, get (set_actor sr a xn) b = if Nat.eqb a b then Some xn else get s b).
    { intros b. destruct (Nat.eqb_spec a b) as [<-|Hne]; [apply (get_set_same sr a xn Hl)|apply (get_set_other sr a b xn Hne)]. }
    split; [|split; [|split; [|split]]].
    + destruct Ra as (x0 & Hg0 & A & B). rewrite Hget. destruct (Nat.eqb_spec a 0) as [->|Hne].
      * assert (x0 = x) by congruence; subst. exists xn. auto.
      * exists x0. auto.
    + intros b xb Hgb Hne. rewrite Hget in Hgb. destruct (Nat.eqb_spec a b) as [<-|Hab].
      * inversion Hgb; subst xb. apply (Rb a x Hg Hne).
      * apply (Rb b xb Hgb Hne).
    + cbn [set_actor reg sr set_reg]. destruct (alookup (aremove (reg s) (a_path x)) []) eqn:E; [|reflexivity].
      apply alookup_aremove in E. congruence.
    + intros b xb Hgb Hne Hm. rewrite Hget in Hgb. unfold regd. cbn [set_actor reg sr set_reg]. destruct (Nat.eqb_spec a b) as [<-|Hab].
      * inversion Hgb; subst xb. exfalso. unfold must_reg, xn in Hm. cbn [upd_pend a_state a_zombie a_pend] in Hm.
        rewrite lf_app, uzc_app, Hcf, Hcu, Hlr in Hm. cbn [app plus In] in Hm.
        destruct Hm as [H|[H|[H|[H1 H2]]]]; try contradiction. specialize (Hzu H1). lia.
      * apply (regd_cleanup_other s a x b xb HR Hg Hin Hgb ltac:(congruence)). apply (R1 b xb Hgb Hne Hm).
    + intros b xb z Hgb Hcz. rewrite Hget in Hgb. unfold regd. cbn [set_actor reg sr set_reg].
      assert (Hxb : exists xo, get s b = Some xo /\ a_cache xo = Some z /\ a_path xb = a_path xo).
      { destruct (Nat.eqb_spec a b) as [<-|Hab]; [inversion Hgb; subst xb; exists x; auto|exists xb; auto]. }
      destruct Hxb as (xo & Hxo & Hco & Hpo). rewrite Hpo.
      destruct (R8 b xo z Hxo Hco) as [E|Hn]; [left; exact E|right]. intros Hreg. apply Hn. apply alookup_aremove in Hreg. exact Hreg.
  - destruct (astep_shape s t i rest x Hg Hp Hnc) as (ys & Hself & Y1 & Y2 & Y3 & [(Ha & Hr & _)|(sp & g & -> & Hlk & _ & _ & Ha & Hr)]).
    + apply (RInv_transfer s); [exact Hr|rewrite Ha; apply upd_length| |exact HR].
      intros b xb Hgb. rewrite (get_upd s _ _ x _ b Hg Ha) in Hgb. destruct (Nat.eqb_spec (self_of t) b) as [<-|Hne].
      * inversion Hgb; subst xb. exists x. split; [exact Hg|split; [exact Y1|split; [exact Y2|split; [left; exact Y3|]]]].
        apply (must_reg_astep s t i rest x ys W I Hg Hp Hnc Hself).
      * exists xb. split; [exact Hgb|]. split; [reflexivity|split; [reflexivity|split; [left; reflexivity|auto]]].
    + eapply (RInv_spawn s _ (self_of t) x _ _ g sp ys HR Hg eq_refl eq_refl Hlk Hr Ha Y1 Y2 Y3).
      apply (must_reg_astep s t _ rest x ys W I Hg Hp Hnc Hself).
Qed.

Lemma RInv_handle s a x e :
  wf s -> LI s -> RInv s -> get s a = Some x -> a_cons x = CH e -> RInv (mstep s (MHandle a)).
Proof.
  intros W I HR Hg Hc. cbn [mstep]. rewrite Hg, Hc.
  assert (Hl : a < length (actors s)) by (eapply nth_error_lt; exact Hg).
  assert (Hpx : a_pend x = []).
  { destruct W as [HA _]. apply pend_shape_idle; [eapply Forall_nth; eauto|]. intros md E; congruence. }
  set (s0 := set_actor s a (busy x)).
  assert (Hg0 : get s0 a = Some (busy x)) by (apply get_set_same; exact Hl).
  pose proof (I _ _ Hg) as (L1 & _).
  destruct (dispatch_life s0 a (busy x) e Hg0 L1) as (y & Hy & Hz & Hch & Hpd & Hst & Hu & Hlf).
  destruct (dispatch_effect s0 a (busy x) e Hg0) as (y2 & Hdf & Ha & _ & _ & _ & Hr & _).
  destruct (dispatch s0 a (busy x) e) as [s1 ins]. cbn [fst snd] in *.
  assert (Hyy : y2 = y).
  { unfold get in Hy. rewrite Ha in Hy. rewrite nth_upd_eq in Hy by (unfold s0; cbn; rewrite upd_length; exact Hl). congruence. }
  subst y2.
  apply (RInv_transfer s); [rewrite set_pend_reg; exact Hr|rewrite len_set_pend, Ha; unfold s0; cbn; rewrite !upd_length; reflexivity| |exact HR].
  intros b xb Hgb. rewrite (set_pend_TA _ _ _ _ Hy) in Hgb.
  destruct (Nat.eq_dec a b) as [<-|Hne].
  - rewrite (get_set_same' _ _ _ _ Hy) in Hgb. inversion Hgb; subst xb. exists x. split; [exact Hg|].
    cbn [upd_pend a_path a_parent]. rewrite (df_path _ _ Hdf), (df_parent _ _ Hdf). cbn [busy set_mb a_path a_parent].
    split; [reflexivity|split; [reflexivity|split]].
    + left. cbn [upd_pend a_cache]. rewrite (df_cache _ _ Hdf). reflexivity.
    + unfold must_reg. cbn [upd_pend a_state a_zombie a_pend]. rewrite Hz, Hu, Hpx. cbn [busy set_mb a_state a_zombie lf filter uzc length In] in *.
      intros [H|[H|[H|H]]].
      * left. intros Hk. apply H. destruct Hst as [E|[E _]]; congruence.
      * destruct Hlf as [E|[[p E]|[w E]]]; rewrite E in H; cbn in H; intuition discriminate.
      * destruct Hlf as [E|[[p E]|[w E]]]; rewrite E in H; cbn in H; intuition discriminate.
      * right; right; right. exact H.
  - rewrite get_set_other in Hgb by exact Hne.
    assert (E : get s1 b = get s b).
    { unfold get. rewrite Ha. unfold s0. cbn [set_actor actors]. rewrite upd_upd. apply nth_upd_neq. exact Hne. }
    rewrite E in Hgb. exists xb. split; [exact Hgb|]. split; [reflexivity|split; [reflexivity|split; [left; reflexivity|auto]]].
Qed.

Theorem RInv_mstep s m : wf s -> LI s -> RInv s -> RInv (mstep s m).
Proof.
  intros W I HR.
  destruct (mstep_cases s m) as [Hq|[(t & i & rest & pre & s1 & Hp & Hpl & Hf & Hu & Hq & _ & E)|[(a & x & e & -> & Hg & Hc)|(t & i & rest & -> & Hp & Hy & Hq & E)]]].
  - apply (RInv_quiet s); assumption.
  - rewrite E. apply (RInv_plain s s1 t i rest pre); assumption.
  - apply (RInv_handle s a x e); assumption.
  - rewrite E. apply RInv_astep; assumption.
Qed.

Lemma RInv_init scs : RInv (init_with scs).
Proof.
  split; [|split; [|split; [|split]]].
  - unfold get. rewrite init_with_actors. eexists. split; [reflexivity|split; reflexivity].
  - intros a x Hg Hne. destruct (get_init scs a x Hg) as [-> _]. congruence.
  - rewrite init_with_reg. reflexivity.
  - intros a x Hg Hne. destruct (get_init scs a x Hg) as [-> _]. congruence.
  - intros a x y Hg Hc. destruct (get_init scs a x Hg) as [_ ->]. discriminate Hc.
Qed.

Theorem RInv_reachable s : reachable s -> RInv s.
Proof.
  revert s. apply (micro_invariant_with (fun s => wf s /\ LI s) RInv).
  - intros scs. split; [apply wf_init|apply LI_init].
  - intros s m [W I]. split; [apply wf_mstep; exact W|apply LI_mstep; assumption].
  - apply RInv_init.
  - intros s m [W I] HR. apply RInv_mstep; assumption.
Qed.
