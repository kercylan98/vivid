(** C09-d: the paused flag along a run equals the last Pause / Resume word of the own mailbox, and what that
    says of quiescent states: mail is left only behind a Pause.  (That no running survivor stays paused at
    quiescence is [quiescent_unpaused], Actor/ProofsMailCover2.v.)  Two runs that once ended with a paused
    survivor are kept as regression runs. *)
From Coq Require Import List NArith Bool.
From Vivid Require Import Actor.Core Actor.CoreRun Actor.SpecMail Actor.ProofsMailBase Actor.ProofsMailInv.
Import ListNotations.

Lemma paused_run b evs : forall s acc,
  err (run_events evs s) = false ->
  (match acc with Some v => paused_at s b = v | None => True end) ->
  paused_at (run_events evs s) b =
  match last_pause_word b evs acc with Some v => v | None => paused_at s b end.
Proof.
  induction evs as [|ev r IH]; intros s acc He Hacc.
  - cbn. destruct acc; auto.
  - change (run_events (ev :: r) s) with (run_events r (step s ev)) in *. cbn [last_pause_word].
    pose proof (paused_step s ev b (err_false_run_head r s ev He)) as Hst.
    destruct (own_pause_word ev b) as [v|] eqn:E.
    + rewrite (IH (step s ev) (Some v) He Hst).
      destruct (last_pause_word b r (Some v)) eqn:E2; [reflexivity|].
      exfalso. clear -E2. revert v E2. induction r as [|e r IHr]; intros v E2; cbn in E2; [discriminate|].
      destruct (own_pause_word e b); eauto.
    + destruct acc as [v|].
      * rewrite (IH (step s ev) (Some v) He); [|rewrite Hst; exact Hacc].
        destruct (last_pause_word b r (Some v)) eqn:E2; [reflexivity|].
        exfalso. clear -E2. revert v E2. induction r as [|e r IHr]; intros v E2; cbn in E2; [discriminate|].
        destruct (own_pause_word e b); eauto.
      * rewrite (IH (step s ev) None He I). rewrite Hst. reflexivity.
Qed.

Lemma paused_init scs b : paused_at (init_with scs) b = false.
Proof.
  unfold paused_at. destruct (get (init_with scs) b) as [x|] eqn:Hg; [|reflexivity].
  destruct (get_init scs b x Hg) as [_ ->]. reflexivity.
Qed.

Theorem paused_iff_last_word scs evs b :
  err (run_events evs (init_with scs)) = false ->
  paused_at (run_events evs (init_with scs)) b = match last_pause_word b evs None with Some v => v | None => false end.
Proof. intros He. rewrite (paused_run b evs (init_with scs) None He I), paused_init. reflexivity. Qed.

(** Two former findings, kept as regression runs (fixed in /repo a8829bb: onRestart in a non-running target now
    resumes the mailbox and, when killing, passes an immediate kill to the remaining children) *)
Local Open Scope N_scope.
(** root -> G (one-for-one, Restart) -> P (one-for-one, Escalate) -> C.  P handles a graceful Kill, C then panics,
    P escalates, G answers with an immediate Restart that reaches P while it is killing *)
Definition rf_c : spec := Spec 3 [] [] [] 0 [] true [] false.
Definition rf_p : spec := Spec 2 [ASpawn rf_c] [] [] 1 [DEscalate] true [] false.
Definition rf_g : spec := Spec 1 [ASpawn rf_p] [] [] 1 [DRestart] true [] false.
Definition rf_scs : list (list action) :=
  [ [ASpawn rf_g]; [ATell (XPath [1;2;3]) 10 [APanic]]; [AKill (XPath [1;2]) true] ].
Definition rf_sched : list event :=
  let s0 := init_with rf_scs in
  let e1 := drive 1000 [TX 0; TA 0; TA 1; TA 2; TA 3] s0 in let s1 := run_events e1 s0 in
  let e2 := drive 100 [TX 1] s1 in let s2 := run_events e2 s1 in
  let e3 := drive 100 [TX 2; TA 2] s2 in let s3 := run_events e3 s2 in
  e1 ++ e2 ++ e3 ++ drive_all 1000 s3.
Definition rf_evs : list event := Eval vm_compute in rf_sched.

(** a zombie sibling paused by a one-for-all pause loop and then sent an immediate Restart *)
Definition zf_c : spec := Spec 3 [] [] [] 0 [] true [(true, false, true)] false.
Definition zf_d : spec := Spec 4 [] [] [] 0 [] true [] false.
Definition zf_p : spec := Spec 2 [ASpawn zf_c; ASpawn zf_d] [] [] 2 [DRestart; DRestart] true [] false.
Definition zf_scs : list (list action) :=
  [ [ASpawn zf_p]; [ATell (XPath [2;3]) 10 [APanic]]; [ATell (XPath [2;4]) 11 [APanic]]; [ATell (XPath [2;3]) 12 []] ].
Definition zf_sched : list event :=
  let acts := [TA 0; TA 1; TA 2; TA 3] in
  let s0 := init_with zf_scs in
  let e1 := drive 1000 (TX 0 :: acts) s0 in let s1 := run_events e1 s0 in
  let e2 := drive 1000 (TX 1 :: acts) s1 in let s2 := run_events e2 s1 in
  let e3 := drive 1000 (TX 2 :: acts) s2 in let s3 := run_events e3 s2 in
  e1 ++ e2 ++ e3 ++ drive 1000 (TX 3 :: acts) s3.
Definition zf_evs : list event := Eval vm_compute in zf_sched.
Local Close Scope N_scope.

Lemma quiescent_actor s a x :
  quiescent s = true -> get s a = Some x ->
  a_pend x = [] /\ a_cons x = C0 /\ a_sq x = [] /\ held x = [] /\ (a_paused x = false -> a_uq x = []).
Proof.
  intros Hq Hg. unfold quiescent in Hq. apply andb_true_iff in Hq. destruct Hq as [Hq _].
  rewrite forallb_forall in Hq. specialize (Hq x (nth_error_In _ _ Hg)). unfold idle_actor in Hq.
  destruct (a_pend x); [|discriminate]. destruct (a_cons x) eqn:Hc; try discriminate. destruct (a_sq x); [|discriminate].
  unfold held. rewrite Hc. repeat split. intros Hp. rewrite Hp in Hq. destruct (a_uq x); [reflexivity|discriminate].
Qed.

Theorem quiescent_mail_only_behind_a_pause scs evs a x :
  let s := run_events evs (init_with scs) in
  err s = false -> quiescent s = true -> get s a = Some x -> inbox x <> [] ->
  inbox x = a_uq x /\ a_paused x = true /\ last_pause_word a evs None = Some true.
Proof.
  cbv zeta. intros He Hq Hg Hne. destruct (quiescent_actor _ _ _ Hq Hg) as (_ & _ & Hs & Hh & Hu).
  unfold inbox in *. rewrite Hs, Hh, app_nil_r in *. cbn [app] in *.
  destruct (a_paused x) eqn:Hp; [|rewrite (Hu eq_refl) in Hne; congruence].
  split; [reflexivity|split; [reflexivity|]].
  pose proof (paused_iff_last_word scs evs a He) as Hw. unfold paused_at in Hw. rewrite Hg, Hp in Hw.
  destruct (last_pause_word a evs None) as [[|]|]; congruence.
Qed.
