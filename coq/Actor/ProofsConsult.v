(** Proofs for the history-level "consulted exactly once" clause (statements: Properties/C08_history.v; notions:
    Actor/SpecConsult.v).  Main result [decisions_track_consults]: in every run from an initial state, for every
    context, what is left of its decision maker is what remains after exactly as many answers as the number of
    failure reports the context has handled: no report is answered twice, none is skipped, and nothing else
    (restart, stop, zombie transition, any other message, any other actor) ever consumes an answer. *)
From Coq Require Import List Bool Lia PeanoNat.
From Vivid Require Import Actor.Core Actor.CoreRun Actor.SpecMail Actor.ProofsMailBase Actor.ProofsMail
  Actor.SpecSup Actor.SpecStash Actor.SpecConsult Actor.ProofsStep.
Import ListNotations.

(** How one primitive changes the decision makers: [c a] = 1 when it consumes one answer of [a] *)
Definition dtl (n : nat) (l : list decision) : list decision := match n with O => l | S _ => tl l end.

Definition evolves (c : aid -> nat) (s s' : state) : Prop :=
  (forall a x, get s a = Some x ->
     exists x', get s' a = Some x' /\ a_spec x' = a_spec x /\ a_decisions x' = dtl (c a) (a_decisions x)) /\
  (forall a x', get s a = None -> get s' a = Some x' -> a_decisions x' = sp_decisions (a_spec x')).

Definition zero : aid -> nat := fun _ => 0.

Lemma evolves_ext c c' s s' : (forall a, c a = c' a) -> evolves c s s' -> evolves c' s s'.
Proof.
  intros E [A B]. split; [|exact B]. intros a x H. destruct (A a x H) as (x' & G & S & D). exists x'. rewrite <- E. auto.
Qed.

Lemma evolves_refl s : evolves zero s s.
Proof. split; [intros a x H; exists x; auto|intros a x' H1 H2; congruence]. Qed.

Lemma evolves_trans c s1 s2 s3 : evolves c s1 s2 -> evolves zero s2 s3 -> evolves c s1 s3.
Proof.
  intros [A1 B1] [A2 B2]. split.
  - intros a x H. destruct (A1 a x H) as (x2 & G2 & S2 & D2). destruct (A2 a x2 G2) as (x3 & G3 & S3 & D3).
    exists x3. cbn [zero dtl] in D3. repeat split; congruence.
  - intros a x3 H1 H3. destruct (get s2 a) as [x2|] eqn:G2.
    + destruct (A2 a x2 G2) as (x3' & G3 & S3 & D3). cbn [zero dtl] in D3.
      assert (x3' = x3) by congruence. subst x3'. rewrite D3, S3. apply (B1 a x2 H1 G2).
    + apply (B2 a x3 G2 H3).
Qed.

Lemma evolves_same_actors s s' : actors s' = actors s -> evolves zero s s'.
Proof.
  intros H. split.
  - intros a x G. exists x. unfold get in *. rewrite H. auto.
  - intros a x' G1 G2. unfold get in *. rewrite H in G2. congruence.
Qed.

Lemma evolves_upd s s' a x y n news :
  get s a = Some x -> actors s' = upd (actors s) a y ++ news ->
  a_spec y = a_spec x -> a_decisions y = dtl n (a_decisions x) -> Forall is_new news ->
  evolves (fun b => if Nat.eqb a b then n else 0) s s'.
Proof.
  intros Hg Ha Hs Hd Hn.
  assert (Hl : a < length (actors s)) by (eapply nth_error_lt; exact Hg).
  split.
  - intros b xb Gb. unfold get in *. rewrite Ha.
    rewrite nth_error_app1 by (rewrite upd_length; eapply nth_error_lt; exact Gb).
    destruct (Nat.eqb_spec a b) as [<-|Hne].
    + rewrite nth_upd_eq by exact Hl. exists y. assert (xb = x) by congruence. subst xb. auto.
    + rewrite nth_upd_neq by exact Hne. exists xb. auto.
  - intros b x' G1 G2. unfold get in *. rewrite Ha in G2.
    assert (Hb : length (actors s) <= b) by (apply nth_error_None; exact G1).
    rewrite nth_error_app2 in G2 by (rewrite upd_length; exact Hb).
    apply nth_error_In in G2. rewrite Forall_forall in Hn. destruct (Hn x' G2) as (p & g & par & sp & ->). reflexivity.
Qed.

Lemma evolves_set_actor s a x y :
  get s a = Some x -> a_spec y = a_spec x -> a_decisions y = a_decisions x -> evolves zero s (set_actor s a y).
Proof.
  intros Hg Hs Hd. apply (evolves_ext (fun b => if Nat.eqb a b then 0 else 0)); [intros b; destruct (Nat.eqb a b); reflexivity|].
  apply (evolves_upd _ _ a x y 0 [] Hg); auto. cbn [set_actor actors]. rewrite app_nil_r. reflexivity.
Qed.

Lemma evolves_with_actor s a f :
  (forall x, a_spec (f x) = a_spec x /\ a_decisions (f x) = a_decisions x) -> evolves zero s (with_actor s a f).
Proof.
  intros H. unfold with_actor. destruct (get s a) as [x|] eqn:E.
  - apply (evolves_set_actor s a x (f x) E); apply H.
  - apply evolves_same_actors. reflexivity.
Qed.

Lemma evolves_set_pend s t l : evolves zero s (set_pend s t l).
Proof.
  destruct t as [a|i]; [apply evolves_with_actor; intros x; split; reflexivity|].
  apply evolves_same_actors. apply set_pend_TX_actors.
Qed.

Lemma evolves_resolve s r : evolves zero s (snd (resolve s r)).
Proof.
  destruct (resolve_shape s r) as [H|[H|(a & x & y & _ & Hg & _ & _ & H & _)]]; rewrite H.
  - apply evolves_refl.
  - apply evolves_same_actors. reflexivity.
  - apply (evolves_set_actor s a x _ Hg); reflexivity.
Qed.

Lemma evolves_exec1 s t h i : evolves zero s (fst (exec1 s t h i)).
Proof.
  destruct (get s (self_of t)) as [x|] eqn:E.
  - destruct (exec1_actors s t h i x E) as (y & news & Hy & Hn & Ha).
    apply (evolves_ext (fun b => if Nat.eqb (self_of t) b then 0 else 0)); [intros b; destruct (Nat.eqb _ b); reflexivity|].
    exact (evolves_upd _ _ _ x y 0 news E Ha (lu_spec _ _ _ Hy) (lu_decisions _ _ _ Hy) Hn).
  - rewrite (exec1_none _ _ _ _ E). apply evolves_same_actors. reflexivity.
Qed.

Lemma dispatch_dec s a x e :
  get s a = Some x ->
  exists y, actors (fst (dispatch s a x e)) = upd (actors s) a y /\ a_spec y = a_spec x /\
            a_decisions y = dtl (if consulting x e then 1 else 0) (a_decisions x).
Proof.
  intros Hg.
  assert (Hsame : actors s = upd (actors s) a x) by (symmetry; apply upd_same; exact Hg).
  assert (Hno : consulting x e = false -> forall y, a_spec y = a_spec x -> a_decisions y = a_decisions x ->
            exists y0, actors (set_actor s a y) = upd (actors s) a y0 /\ a_spec y0 = a_spec x /\
                       a_decisions y0 = dtl (if consulting x e then 1 else 0) (a_decisions x)).
  { intros -> y H1 H2. exists y. auto. }
  unfold consulting in *. change (dead_for x e) with (is_dead x e && negb (a_zombie x)) in *.
  destruct (dispatch_cases s a x e) as [Hd Hz _|p Hd Hz _|r Hd Hr]; cbn [fst].
  - rewrite Hd, Hz, andb_false_r. exists x. auto.
  - rewrite Hd, Hz, andb_false_r. exists x. auto.
  - rewrite Hd in *. destruct Hr; rewrite Em in *; cbn [is_sup_msg andb negb] in *;
      try (apply Hno; reflexivity); try (eexists; split; [reflexivity|split; reflexivity]).
    unfold sup_decision. destruct (sp_strategy (a_spec x)); [apply Hno; reflexivity|].
    eexists; split; [reflexivity|]. split; [reflexivity|]. destruct (a_decisions x); reflexivity.
Qed.

Lemma consult1_other s ev a : (forall b, ev <> EvHandle b) -> consult1 s ev a = 0.
Proof. intros H. destruct ev; try reflexivity. exfalso. exact (H a0 eq_refl). Qed.

Lemma consult1_no_atomic s ev a : pre_atomic s ev = None -> consult1 s ev a = 0.
Proof.
  destruct ev; try reflexivity. cbn [pre_atomic consult1]. destruct (Nat.eqb_spec a0 a) as [->|]; [|reflexivity].
  destruct (get s a) as [x|]; [|reflexivity]. destruct (a_cons x); try reflexivity. destruct (dispatch _ a _ e). discriminate.
Qed.

Lemma pre_atomic_evolves s ev s' t : pre_atomic s ev = Some (s', t) -> evolves (consult1 s ev) s s'.
Proof.
  intros E. destruct (pre_atomic_cases s ev s' t E) as [_ [(a & x & e & -> & Hg & Hc & ->)|[Hn _]]].
  - assert (Hg0 : get (set_actor s a (busy x)) a = Some (busy x)) by (apply (get_set_same' s a _ x Hg)).
    destruct (dispatch_dec (set_actor s a (busy x)) a (busy x) e Hg0) as (y & Ha & Hs & Hd).
    eapply evolves_trans; [|apply evolves_set_pend].
    eapply evolves_ext; [|apply (evolves_upd s _ a x y (if consulting x e then 1 else 0) [] Hg)]; auto.
    + intros b. cbn [consult1]. destruct (Nat.eqb_spec a b) as [<-|Hne]; [|reflexivity]. rewrite Hg, Hc. reflexivity.
    + rewrite app_nil_r, Ha. cbn [set_actor actors]. apply upd_upd.
  - eapply evolves_ext; [intros b; symmetry; apply consult1_other, Hn|].
    apply (pre_atomic_rel (fun _ => evolves zero)) with (ev := ev) (t := t); auto.
    + intros _. apply evolves_refl.
    + intros _. apply evolves_trans.
    + intros _ s0. apply evolves_same_actors. reflexivity.
    + intros t0 s0 l. apply evolves_set_pend.
    + intros t0 s0 x sq uq pa co cu Hg. apply (evolves_set_actor s0 _ x _ Hg); reflexivity.
Qed.

Lemma no_atomic_evolves s ev : pre_atomic s ev = None -> evolves (consult1 s ev) s (step s ev).
Proof.
  intros E. eapply evolves_ext; [intros b; symmetry; apply consult1_no_atomic, E|].
  apply (no_atomic_rel (fun _ => evolves zero)); auto.
  - intros _. apply evolves_trans.
  - intros _ s0. apply evolves_same_actors. reflexivity.
  - intros t0 s0 l. apply evolves_set_pend.
  - intros t0 s0 x sq uq pa co cu Hg. apply (evolves_set_actor s0 _ x _ Hg); reflexivity.
  - intros _ s0 a e. unfold push_mb. apply evolves_with_actor. intros x. split; reflexivity.
  - intros _ s0 r. apply evolves_resolve.
Qed.

Theorem step_evolves s ev : evolves (consult1 s ev) s (step s ev).
Proof.
  rewrite (step_pre s ev). destruct (pre_atomic s ev) as [[s' t]|] eqn:E; [|apply no_atomic_evolves; exact E].
  eapply evolves_trans; [exact (pre_atomic_evolves s ev s' t E)|].
  apply run_atomic_rel; [apply evolves_refl|apply evolves_trans|intros; apply evolves_same_actors; reflexivity
                        |intros; apply evolves_set_pend|intros; apply evolves_resolve|intros; apply evolves_exec1].
Qed.

(** The invariant: the decision maker of every context is at position [k a] *)
Definition tracks (k : aid -> nat) (s : state) : Prop :=
  (forall a x, get s a = Some x -> a_decisions x = skipn (k a) (sp_decisions (a_spec x))) /\
  (forall a, get s a = None -> k a = 0).

Lemma skipn_S_tl {A} n (l : list A) : skipn (S n) l = tl (skipn n l).
Proof. revert l. induction n as [|n IH]; intros [|h l]; try reflexivity. apply IH. Qed.

Lemma nth_skipn_hd {A} n (l : list A) d : nth n l d = match skipn n l with x :: _ => x | [] => d end.
Proof. revert l. induction n as [|n IH]; intros [|h l]; try reflexivity. apply IH. Qed.

Lemma skipn_dtl {A} n (c : nat) (l : list A) :
  c <= 1 -> skipn (n + c) l = match c with O => skipn n l | S _ => tl (skipn n l) end.
Proof.
  intros Hc. destruct c as [|[|c]]; [rewrite Nat.add_0_r; reflexivity| |lia]. rewrite Nat.add_1_r. apply skipn_S_tl.
Qed.

Lemma consult1_le s ev a : consult1 s ev a <= 1.
Proof.
  destruct ev; cbn [consult1]; try lia. destruct (Nat.eqb a0 a); [|lia].
  destruct (get s a) as [x|]; [|lia]. destruct (a_cons x); try lia. destruct (consulting x e); lia.
Qed.

Lemma consult1_none s ev a : get s a = None -> consult1 s ev a = 0.
Proof. intros H. destruct ev; cbn [consult1]; try reflexivity. destruct (Nat.eqb a0 a); [rewrite H|]; reflexivity. Qed.

Lemma tracks_step k s ev : tracks k s -> tracks (fun a => k a + consult1 s ev a) (step s ev).
Proof.
  intros [T1 T2]. destruct (step_evolves s ev) as [A B]. split.
  - intros a x' G'. destruct (get s a) as [x|] eqn:G.
    + destruct (A a x G) as (x'' & G'' & S & D). assert (x'' = x') by congruence. subst x''.
      rewrite D, S, (T1 a x G), (skipn_dtl _ _ _ (consult1_le s ev a)).
      destruct (consult1 s ev a); reflexivity.
    + rewrite (B a x' G G'), (T2 a G), (consult1_none s ev a G). reflexivity.
  - intros a G'. destruct (get s a) as [x|] eqn:G.
    + destruct (A a x G) as (x'' & G'' & _). congruence.
    + rewrite (T2 a G), (consult1_none s ev a G). reflexivity.
Qed.

Lemma tracks_ext k k' s : (forall a, k a = k' a) -> tracks k s -> tracks k' s.
Proof. intros E [T1 T2]. split; intros a; rewrite <- E; auto. Qed.

Lemma tracks_run evs : forall k s, tracks k s -> tracks (fun a => k a + consults a evs s) (run_events evs s).
Proof.
  induction evs as [|ev r IH]; intros k s T.
  - cbn [consults run_events fold_left]. eapply tracks_ext; [|exact T]. intros a. lia.
  - change (run_events (ev :: r) s) with (run_events r (step s ev)).
    eapply tracks_ext; [|apply (IH _ _ (tracks_step k s ev T))]. intros a. cbn [consults]. lia.
Qed.

Lemma tracks_init scs : tracks zero (init_with scs).
Proof. split; [|reflexivity]. intros a x G. destruct (get_init scs a x G) as [_ ->]. reflexivity. Qed.

Theorem decisions_track_consults scs evs a x :
  get (run_events evs (init_with scs)) a = Some x ->
  a_decisions x = skipn (consults a evs (init_with scs)) (sp_decisions (a_spec x)).
Proof. intros G. exact (proj1 (tracks_run evs zero _ (tracks_init scs)) a x G). Qed.

Theorem next_decision_is_kth scs evs a x e c :
  get (run_events evs (init_with scs)) a = Some x -> e_msg e = MSup c -> consulting x e = true ->
  exists ds targets,
    dispatch (run_events evs (init_with scs)) a x e =
      (set_actor (run_events evs (init_with scs)) a
         (set_decisions (set_mb x (a_sq x) (a_uq x) (a_paused x) (a_cons x) (Some e)) ds),
       [ISupPause c (kth_decision x (consults a evs (init_with scs))) targets []; IEndHandler]) /\
    ds = skipn (S (consults a evs (init_with scs))) (sp_decisions (a_spec x)).
Proof.
  intros G Em Hc. pose proof (decisions_track_consults scs evs a x G) as D.
  unfold consulting in Hc. apply andb_prop in Hc as [Hc Hs]. apply andb_prop in Hc as [_ Hd].
  apply negb_true_iff in Hd, Hs.
  destruct (dispatch_alive (run_events evs (init_with scs)) a x e Hd); try congruence. replace c0 with c by congruence.
  exists (snd (sup_decision x)), (ProofsMail.sup_targets x c). split; [|unfold sup_decision].
  - do 3 f_equal. unfold sup_decision, kth_decision. destruct (sp_strategy (a_spec x)); [discriminate Hs|].
    rewrite D, nth_skipn_hd. destruct (skipn _ _); reflexivity.
  - destruct (sp_strategy (a_spec x)); [discriminate Hs|]. rewrite skipn_S_tl, <- D. destruct (a_decisions x); reflexivity.
Qed.
