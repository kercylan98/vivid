(** C06-d: generation bookkeeping - a released name can be used again by the parent, and the new context
    gets the next generation of that path. *)
From Coq Require Import List NArith Arith Lia.
From Vivid Require Import Actor.Core Actor.CoreRun Actor.ProofsMailBase Actor.ProofsMailInv Actor.SpecLife Actor.ProofsLife Actor.ProofsLifeSum Actor.ProofsLifePhase Actor.ProofsLifeGen.
Import ListNotations.
Local Open Scope N_scope.

(** [gens] counts the contexts ever registered under a path: every non-root context's generation is below the
    counter of its path, and the counter of a path is (the generation of some context with that path) + 1 *)
Definition GI (s : state) : Prop :=
  (forall b xb, get s b = Some xb -> b <> 0%nat -> exists g, alookup (gens s) (a_path xb) = Some g /\ a_gen xb < g) /\
  (forall p g, alookup (gens s) p = Some g ->
     exists b xb, get s b = Some xb /\ b <> 0%nat /\ a_path xb = p /\ a_gen xb + 1 = g).

Definition key (x : actor) : path * N := (a_path x, a_gen x).

Definition idsame (s s' : state) : Prop :=
  gens s' = gens s /\ forall b, option_map key (get s' b) = option_map key (get s b).

Lemma GI_idsame s s' : idsame s s' -> GI s -> GI s'.
Proof.
  intros (Hg & Hk) (G1 & G2). split.
  - intros b y Hy Hb. specialize (Hk b). rewrite Hy in Hk. destruct (get s b) as [x|] eqn:Hx; [|discriminate Hk].
    cbn [option_map] in Hk. unfold key in Hk. inversion Hk as [[Hp Hgn]]. rewrite Hg, Hp, Hgn. apply (G1 b x Hx Hb).
  - intros p g Hl. rewrite Hg in Hl. destruct (G2 p g Hl) as (b & x & Hx & Hb & Hp & Hgn).
    specialize (Hk b). rewrite Hx in Hk. destruct (get s' b) as [y|] eqn:Hy; [|discriminate Hk].
    cbn [option_map] in Hk. unfold key in Hk. inversion Hk as [[Hp' Hgn']]. exists b, y. split; [exact Hy|]. split; [exact Hb|]. split; [rewrite Hp'; exact Hp|rewrite Hgn'; exact Hgn].
Qed.

Lemma idsame_refl s : idsame s s. Proof. split; reflexivity. Qed.
Lemma idsame_trans s1 s2 s3 : idsame s1 s2 -> idsame s2 s3 -> idsame s1 s3.
Proof. intros (G1 & K1) (G2 & K2). split; [congruence|]. intros b. rewrite K2. apply K1. Qed.

Lemma idsame_set_actor s a x y : get s a = Some x -> key y = key x -> idsame s (set_actor s a y).
Proof.
  intros Hg Hk. split; [reflexivity|]. apply (keeps_set_actor (fun x => Some (key x)) None s a x y Hg). rewrite Hk. reflexivity.
Qed.

Lemma idsame_mb s s' : mb_equiv s s' -> idsame s s'.
Proof.
  intros Hm. split; [apply Hm|]. apply (mb_equiv_keeps key _ _ (fun x y Hl => ltac:(unfold key; destruct Hl as (-> & -> & _); reflexivity)) Hm).
Qed.

Lemma idsame_set_pend s t p : idsame s (set_pend s t p).
Proof.
  split; [|apply (keeps_set_pend (fun x => Some (key x)) None s t p (fun _ _ => eq_refl))].
  destruct t as [a|k]; cbn [set_pend]; [unfold with_actor; destruct (get s a)|destruct (nth_error (exts s) k)]; reflexivity.
Qed.

Lemma exec1_spawn_cases s t h sp s' front x :
  exec1 s t h (IAct (ASpawn sp)) = (s', front) -> get s (self_of t) = Some x ->
  (exists o, s' = add_obs s o) \/
  (a_state x <> Killed /\ sp_prelaunch sp = true /\ alookup (reg s) (a_path x ++ [sp_name sp]) = None).
Proof.
  intros He Hg. destruct (exec1_spawn s t h sp x Hg) as [[code E]|(Hk & Hp & Hr & _)]; [|right; auto].
  rewrite E in He. injection He as <- _. left. eexists. reflexivity.
Qed.

Lemma path_eqb_false_ne p q : path_eqb p q = false -> p <> q.
Proof. intros H ->. rewrite path_eqb_refl in H. discriminate. Qed.

Lemma GI_spawn_ok s t h sp x s' front :
  GI s -> get s (self_of t) = Some x -> a_state x <> Killed -> sp_prelaunch sp = true ->
  alookup (reg s) (a_path x ++ [sp_name sp]) = None ->
  exec1 s t h (IAct (ASpawn sp)) = (s', front) -> GI s'.
Proof.
  intros (G1 & G2) Hg Hnk Hpl Hr He.
  destruct (exec1_spawn_ok s t h sp x s' front Hg Hnk Hpl Hr He) as (Hlen & Hnew & Hoth & Hself & _ & _ & Hgens & _).
  set (p := a_path x ++ [sp_name sp]) in *. set (c := length (actors s)) in *.
  set (g := match alookup (gens s) p with Some g => g | None => 0 end) in *.
  assert (Hc0 : c <> 0%nat) by (pose proof (nth_error_lt _ _ _ Hg); unfold c; lia).
  assert (Hold : forall b y, get s' b = Some y -> b <> c -> exists x0, get s b = Some x0 /\ key y = key x0).
  { intros b y Hy Hbc. destruct (Nat.eq_dec b (self_of t)) as [->|Hbs].
    - rewrite Hself in Hy. inversion Hy; subst y. exists x. split; [exact Hg|reflexivity].
    - rewrite (Hoth b Hbs Hbc) in Hy. exists y. split; [exact Hy|reflexivity]. }
  split.
  - intros b y Hy Hb0. rewrite Hgens. destruct (Nat.eq_dec b c) as [->|Hbc].
    + rewrite Hnew in Hy. inversion Hy; subst y. cbn [new_actor a_path a_gen]. exists (g + 1).
      split; [apply alookup_aset_same|lia].
    + destruct (Hold b y Hy Hbc) as (x0 & Hx0 & Hk). unfold key in Hk. inversion Hk as [[Hp Hgn]]. rewrite Hp, Hgn.
      destruct (G1 b x0 Hx0 Hb0) as (g0 & Hl & Hlt).
      destruct (path_eqb (a_path x0) p) eqn:Hpe.
      * apply path_eqb_eq in Hpe. rewrite Hpe in *. exists (g + 1). split; [apply alookup_aset_same|].
        unfold g. rewrite Hl. lia.
      * exists g0. split; [rewrite alookup_aset_other by exact Hpe; exact Hl|exact Hlt].
  - intros q gq Hl. rewrite Hgens in Hl. destruct (path_eqb q p) eqn:Hpe.
    + apply path_eqb_eq in Hpe. subst q. rewrite alookup_aset_same in Hl. inversion Hl; subst gq.
      exists c. eexists. split; [exact Hnew|]. split; [exact Hc0|]. split; reflexivity.
    + rewrite alookup_aset_other in Hl by exact Hpe.
      destruct (G2 q gq Hl) as (b & x0 & Hx0 & Hb0 & Hp & Hgn).
      assert (Hbc : b <> c) by (pose proof (nth_error_lt _ _ _ Hx0); unfold c; lia).
      destruct (Nat.eq_dec b (self_of t)) as [->|Hbs].
      * exists (self_of t). eexists. split; [exact Hself|]. rewrite Hg in Hx0. inversion Hx0; subst x0. repeat split; assumption.
      * exists b, x0. split; [rewrite (Hoth b Hbs Hbc); exact Hx0|]. repeat split; assumption.
Qed.

Lemma idsame_exec1_nospawn s t h i s' front x :
  (forall sp, i <> IAct (ASpawn sp)) -> exec1 s t h i = (s', front) -> get s (self_of t) = Some x -> idsame s s'.
Proof.
  intros Hns He Hg. destruct (exec1_local s t h i x Hg Hns) as (x' & Hl & Ha & _ & Hgn & _). rewrite He in *. cbn [fst] in *.
  split; [exact Hgn|]. intros b. unfold get. rewrite Ha. destruct (Nat.eq_dec (self_of t) b) as [<-|Hne].
  - rewrite (nth_error_upd_same _ _ _ _ Hg). unfold get in Hg. rewrite Hg. cbn [option_map]. unfold key.
    rewrite (lu_path _ _ _ Hl), (lu_gen _ _ _ Hl). reflexivity.
  - rewrite nth_upd_neq by exact Hne. reflexivity.
Qed.

Lemma GI_astep s t i rest :
  SInv s -> GI s -> pend_of s t = i :: rest -> yielding i = false -> err (astep s t i rest) = false -> GI (astep s t i rest).
Proof.
  intros _ HG _ _ He1. unfold astep in *.
  pose proof (GI_idsame _ _ (idsame_set_pend s t rest) HG) as HG0.
  destruct (exec1 (set_pend s t rest) t (held_of (set_pend s t rest) t) i) as [s1 front] eqn:He.
  apply (GI_idsame s1); [apply idsame_set_pend|].
  destruct (get (set_pend s t rest) (self_of t)) as [x|] eqn:Hg.
  2:{ unfold exec1 in He. rewrite Hg in He. inversion He; subst s1.
      rewrite set_pend_err_mono in He1 by reflexivity. discriminate He1. }
  destruct (spawn_dec i) as [[sp ->]|Hns].
  - destruct (exec1_spawn_cases _ _ _ _ _ _ _ He Hg) as [(o & ->)|(Hnk & Hpl & Hr)].
    + apply (GI_idsame (set_pend s t rest)); [split; [reflexivity|intros b; reflexivity]|exact HG0].
    + apply (GI_spawn_ok _ _ _ _ _ _ _ HG0 Hg Hnk Hpl Hr He).
  - apply (GI_idsame _ _ (idsame_exec1_nospawn _ _ _ _ _ _ _ Hns He Hg) HG0).
Qed.

Theorem GI_reachable s : reachable s -> GI s.
Proof.
  apply (Q_reachable GI).
  - intros s0 s' Hm. apply GI_idsame, idsame_mb, Hm.
  - intros s0 t i rest front HG _ _ _. apply (GI_idsame s0); [apply idsame_set_pend|exact HG].
  - apply GI_astep.
  - intros s0 a x sq uq pa co cu HG Hg _. apply (GI_idsame s0); [|exact HG].
    apply (idsame_set_actor _ _ x); [exact Hg|reflexivity].
  - intros s0 a x e s1 ins _ HG Hg _ _ x0 Hd. apply (GI_idsame s0); [|exact HG]. split; [destruct (handle_pre s0 a x e s1 ins Hg Hd) as (y & _ & _ & _ & _ & _ & _ & _ & H); exact H|].
    apply (handle_pre_keeps key s0 a x e s1 ins); try assumption; try reflexivity.
    intros x1 y Hy. unfold key. rewrite (df_path _ _ Hy), (df_gen _ _ Hy). reflexivity.
  - intros scs. unfold init_with. split.
    + intros b xb Hb Hb0. unfold get in Hb. rewrite set_exts_actors in Hb. cbn [actors init_state] in Hb.
      destruct b as [|[|b]]; cbn [nth_error] in Hb; try discriminate. congruence.
    + intros p g Hl. assert (Hg : forall scs0 i s1, gens (set_exts s1 i scs0) = gens s1).
      { induction scs0 as [|sc scs0 IH]; intros i s1; [reflexivity|]. cbn [set_exts]. rewrite IH.
        cbn [set_pend]. destruct (nth_error (exts s1) i); reflexivity. }
      rewrite Hg in Hl. discriminate Hl.
Qed.

(** C06-d: after the cleanup of [a] ([alookup (reg s) path = None], see C06_cleanup_releases_path) the parent can
    create a child with the same name again: ActorOf succeeds and the new context's generation is above the
    generation of every earlier context of that path and equals (generation of the latest one) + 1 *)
Theorem released_name_reusable s t h sp xp s' front :
  reachable s -> get s (self_of t) = Some xp -> a_state xp <> Killed -> sp_prelaunch sp = true ->
  alookup (reg s) (a_path xp ++ [sp_name sp]) = None ->
  exec1 s t h (IAct (ASpawn sp)) = (s', front) ->
  let p := a_path xp ++ [sp_name sp] in
  exists g, get s' (length (actors s)) = Some (new_actor p g (Some (self_of t)) sp) /\
            alookup (reg s') p = Some (length (actors s)) /\
            (forall b xb, get s b = Some xb -> b <> 0%nat -> a_path xb = p -> a_gen xb < g) /\
            ((exists b xb, get s b = Some xb /\ b <> 0%nat /\ a_path xb = p) ->
             exists b xb, get s b = Some xb /\ a_path xb = p /\ g = a_gen xb + 1).
Proof.
  intros Hr Hg Hnk Hpl Hreg He p.
  destruct (exec1_spawn_ok s t h sp xp s' front Hg Hnk Hpl Hreg He) as (_ & Hnew & _ & _ & _ & Hrl & _).
  destruct (GI_reachable s Hr) as (G1 & G2). fold p in Hnew, Hrl.
  eexists. split; [exact Hnew|]. split; [exact Hrl|]. split.
  - intros b xb Hb Hb0 Hp. destruct (G1 b xb Hb Hb0) as (g0 & Hl & Hlt). rewrite Hp in Hl. rewrite Hl. exact Hlt.
  - intros (b & xb & Hb & Hb0 & Hp). destruct (G1 b xb Hb Hb0) as (g0 & Hl & _). rewrite Hp in Hl. rewrite Hl.
    destruct (G2 p g0 Hl) as (b' & xb' & Hb' & _ & Hp' & Hgn). exists b', xb'. repeat split; auto.
Qed.
