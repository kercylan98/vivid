(** Tree invariants of C06-c, part 2: a registered actor is in its parent's children map; hence when an actor is
    marked Killed all its children have been released (children first), and so has its whole subtree. *)
From Coq Require Import List Arith Lia.
From Vivid Require Import Actor.Core Actor.CoreRun Actor.ProofsMailBase Actor.ProofsMail Actor.ProofsMailInv Actor.ProofsMailWf Actor.SpecLife Actor.ProofsLife Actor.ProofsLifeSum Actor.ProofsLifePhase Actor.ProofsLifeGen Actor.ProofsLifeTree Actor.ProofsLifeReg Actor.ProofsLifeTaint Actor.ProofsLifeLog.
Import ListNotations.
Local Open Scope N_scope.

Definition T1 (s : state) : Prop :=
  forall c xc p, c <> 0%nat -> get s c = Some xc -> a_parent xc = Some p ->
    exists xp, get s p = Some xp /\
      (alookup (reg s) (a_path xc) = Some c -> alookup (a_children xp) (a_path xc) = Some c).

Definition tview (x : actor) : path * option aid * list (path * aid) := (a_path x, a_parent x, a_children x).

Definition tsame (s s' : state) : Prop :=
  reg s' = reg s /\ forall b, option_map tview (get s' b) = option_map tview (get s b).

Lemma T1_tsame s s' : tsame s s' -> T1 s -> T1 s'.
Proof.
  intros (Hr & Hv) HT c yc p Hc0 Hc Hpar.
  pose proof (Hv c) as Vc. rewrite Hc in Vc. destruct (get s c) as [xc|] eqn:Hxc; [|discriminate Vc].
  cbn [option_map] in Vc. unfold tview in Vc. inversion Vc as [[V1 V2 V3]].
  destruct (HT c xc p Hc0 Hxc) as (xp & Hxp & Himp); [rewrite <- V2; exact Hpar|].
  pose proof (Hv p) as Vp. rewrite Hxp in Vp. destruct (get s' p) as [yp|] eqn:Hyp; [|discriminate Vp].
  cbn [option_map] in Vp. unfold tview in Vp. inversion Vp as [[W1 W2 W3]].
  exists yp. split; [reflexivity|]. intros Hreg. rewrite W3, V1. apply Himp. rewrite <- V1, <- Hr. exact Hreg.
Qed.

Lemma tsame_refl s : tsame s s. Proof. split; reflexivity. Qed.
Lemma tsame_trans s1 s2 s3 : tsame s1 s2 -> tsame s2 s3 -> tsame s1 s3.
Proof. intros (R1 & V1) (R2 & V2). split; [congruence|exact (keeps_trans _ _ _ _ _ V1 V2)]. Qed.

Lemma tsame_mb s s' : mb_equiv s s' -> tsame s s'.
Proof.
  intros Hm. split; [apply Hm|]. apply (mb_equiv_keeps tview _ _ (fun x y Hl => ltac:(unfold tview; destruct Hl as (-> & _ & -> & _ & _ & _ & _ & -> & _); reflexivity)) Hm).
Qed.

Lemma tsame_set_actor s a x y : get s a = Some x -> tview y = tview x -> tsame s (set_actor s a y).
Proof.
  intros Hg Hv. split; [reflexivity|]. apply (keeps_set_actor (fun x => Some (tview x)) None s a x y Hg). rewrite Hv. reflexivity.
Qed.

Lemma tsame_set_pend s t p : tsame s (set_pend s t p).
Proof. split; [apply set_pend_reg|apply (keeps_set_pend (fun x => Some (tview x)) None s t p (fun _ _ => eq_refl))]. Qed.

Lemma tsame_step_nonatomic s ev :
  (match ev with EvSysPop _ | EvLoadPaused _ | EvUserPop _ | EvPush _ _ => True | _ => False end) ->
  err (step s ev) = false -> tsame s (step s ev).
Proof.
  intros Hev Herr. destruct ev; try contradiction.
  4:{ destruct (step_push s t choice Herr) as (i & rest & s1 & mb & e & front & _ & Hpu & ->).
      apply (tsame_trans _ (fst (deliver s1 mb e))); [apply tsame_mb, (pushes_plain _ _ _ _ _ _ _ _ Hpu)|apply tsame_set_pend]. }
  all: destruct (consumer_move s _ Herr I) as (b & x & sq & uq & co & Hg & _ & _ & ->); apply (tsame_set_actor _ _ x); [exact Hg|reflexivity].
Qed.

Lemma T1_local s s' a x x' :
  T1 s -> get s a = Some x -> get s' a = Some x' -> a_path x' = a_path x -> a_parent x' = a_parent x ->
  (forall b xb, b <> a -> get s b = Some xb -> get s' b = Some xb) ->
  (forall c xc, get s c = Some xc -> alookup (reg s') (a_path xc) = Some c -> alookup (reg s) (a_path xc) = Some c) ->
  (forall c xc, c <> 0%nat -> get s c = Some xc -> alookup (reg s) (a_path xc) = Some c ->
     alookup (a_children x) (a_path xc) = Some c -> alookup (a_children x') (a_path xc) = Some c) ->
  forall c, (c < length (actors s))%nat -> forall yc p, c <> 0%nat -> get s' c = Some yc -> a_parent yc = Some p ->
  exists yp, get s' p = Some yp /\
    (alookup (reg s') (a_path yc) = Some c -> alookup (a_children yp) (a_path yc) = Some c).
Proof.
  intros HT Hg Hg' Hpath Hpar Hoth Hreg Hch c Hlt yc p Hc0 Hyc Hp.
  destruct (get s c) as [xc|] eqn:Hxc; [|apply nth_error_None in Hxc; lia].
  assert (Hv : a_path yc = a_path xc /\ a_parent yc = a_parent xc).
  { destruct (Nat.eq_dec c a) as [->|Hca]; [|rewrite (Hoth c xc Hca Hxc) in Hyc; injection Hyc as <-; split; reflexivity].
    rewrite Hg in Hxc. rewrite Hg' in Hyc. injection Hxc as <-. injection Hyc as <-. split; assumption. }
  destruct Hv as (V1 & V2). rewrite V2 in Hp. rewrite V1.
  destruct (HT c xc p Hc0 Hxc Hp) as (xp & Hxp & Himp).
  destruct (Nat.eq_dec p a) as [->|Hpa].
  - exists x'. split; [exact Hg'|]. intros Hr. rewrite Hg in Hxp. injection Hxp as <-.
    pose proof (Hreg c xc Hxc Hr) as Hr0. apply (Hch c xc Hc0 Hxc Hr0 (Himp Hr0)).
  - exists xp. split; [apply (Hoth p xp Hpa Hxp)|]. intros Hr. apply Himp, (Hreg c xc Hxc Hr).
Qed.

Lemma T1_exec1 s t h i s' front x :
  T1 s -> exec1 s t h i = (s', front) -> get s (self_of t) = Some x ->
  (forall c xc, i = IOnKilled (RObj c) -> c <> 0%nat -> c <> self_of t -> get s c = Some xc ->
                alookup (reg s) (a_path xc) = Some c -> False) ->
  T1 s'.
Proof.
  intros HT He Hg Hkill.
  destruct (spawn_dec i) as [[sp ->]|Hns].
  - destruct (exec1_spawn_cases _ _ _ _ _ _ _ He Hg) as [(o & ->)|(Hnk & Hpl & Hr)]; [exact HT|].
    destruct (exec1_spawn_ok s t h sp x s' front Hg Hnk Hpl Hr He) as (Hlen & Hnew & Hoth & Hself & Hreg & _).
    set (p0 := a_path x ++ [sp_name sp]) in *. set (cn := length (actors s)) in *.
    assert (Hold : forall b xb, get s b = Some xb -> b <> cn) by (intros b xb Hb; pose proof (nth_error_lt _ _ _ Hb); unfold cn; lia).
    intros c yc p Hc0 Hc Hpar.
    destruct (Nat.eq_dec c cn) as [->|Hcn].
    + rewrite Hnew in Hc. inversion Hc; subst yc. cbn [new_actor a_path a_parent] in *. inversion Hpar; subst p.
      eexists. split; [exact Hself|]. intros _. cbn [set_children upd_local a_children]. apply alookup_aset_same.
    + apply (T1_local s s' (self_of t) x _ HT Hg Hself eq_refl eq_refl) with (c := c); try assumption.
      * intros b xb Hb Hxb. rewrite (Hoth b Hb (Hold b xb Hxb)). exact Hxb.
      * intros c0 xc Hxc. rewrite Hreg, alookup_app. destruct (alookup (reg s) (a_path xc)) as [v|]; [auto|].
        cbn [alookup]. destruct (path_eqb (a_path xc) p0); [|discriminate]. intros E. injection E as <-. destruct (Hold _ _ Hxc eq_refl).
      * intros c0 xc _ _ Hrc Hl. cbn [set_children upd_local a_children]. rewrite alookup_aset_other; [exact Hl|].
        destruct (path_eqb (a_path xc) p0) eqn:E; [|reflexivity]. apply path_eqb_eq in E. congruence.
      * pose proof (nth_error_lt _ _ _ Hc). unfold cn in *. lia.
  - destruct (exec1_local s t h i x Hg Hns) as (x' & Hlu & Ha & _ & _ & Hrg & _). rewrite He in *. cbn [fst] in *.
    assert (Hget : forall b, get s' b = if Nat.eqb (self_of t) b then Some x' else get s b).
    { intros b. unfold get. rewrite Ha. destruct (Nat.eqb_spec (self_of t) b) as [<-|E]; [apply (nth_error_upd_same _ _ _ _ Hg)|apply nth_upd_neq, E]. }
    pose proof (Hget (self_of t)) as Hx'. rewrite Nat.eqb_refl in Hx'.
    intros c yc p Hc0 Hc.
    apply (T1_local s s' (self_of t) x x' HT Hg Hx' (lu_path _ _ _ Hlu) (lu_parent _ _ _ Hlu)) with (c := c); try assumption.
    { intros b xb Hb Hxb. rewrite Hget. destruct (Nat.eqb_spec (self_of t) b); [congruence|exact Hxb]. }
    { intros c0 xc _. rewrite Hrg. destruct i; auto. apply alookup_aremove_Some. }
    2:{ pose proof (nth_error_lt _ _ _ Hc) as Hlt. rewrite Ha, upd_length in Hlt. exact Hlt. }
    clear c yc p Hc0 Hc. intros c xc Hc0 Hxc Hrc Hl.
    destruct (lu_children _ _ _ Hlu) as [->|[(sp & ->)|(who & ->)]]; [exact Hl|destruct (Hns sp eq_refl)|].
    destruct (a_zombie x) eqn:Hz.
    { rewrite (exec1_onkilled_zombie _ _ _ _ who Hg Hz) in He. injection He as <- _. congruence. }
    destruct (ref_eq s who (RObj (self_of t))) eqn:Hre.
    { rewrite (exec1_IOnKilled_own _ _ _ _ who Hg Hz Hre) in He. injection He as <- _. congruence. }
    destruct (exec1_IOnKilled_other _ _ h _ who Hg Hz Hre) as (x2 & He' & Hch2 & _).
    rewrite He' in He. injection He as <- _. rewrite (get_set_same' _ _ _ _ Hg) in Hx'. injection Hx' as <-.
    destruct Hch2 as [->|(c0 & p0 & Hw & Hrp & Hl0 & ->)]; [exact Hl|].
    destruct (path_eqb (a_path xc) p0) eqn:Epp; [exfalso|rewrite alookup_aremove_other by exact Epp; exact Hl].
    apply path_eqb_eq in Epp. subst p0. rewrite Hl in Hl0. injection Hl0 as <-.
    apply (Hkill c xc); try assumption; [congruence|].
    intros ->. subst who. rewrite (ref_eq_self _ _ _ Hg) in Hre. discriminate Hre.
Qed.

Definition TT (s : state) : Prop := T2 s /\ T1 s.

Lemma T1_astep s t i rest :
  SInv s -> TT s -> pend_of s t = i :: rest -> yielding i = false -> err (astep s t i rest) = false -> T1 (astep s t i rest).
Proof.
  intros [HA HX] [HT2 HT1] Hp Hy He1. unfold astep in *.
  pose proof (T1_tsame _ _ (tsame_set_pend s t rest) HT1) as HT0.
  destruct (exec1 (set_pend s t rest) t (held_of (set_pend s t rest) t) i) as [s1 front] eqn:He.
  apply (T1_tsame s1); [apply tsame_set_pend|].
  destruct (get (set_pend s t rest) (self_of t)) as [x0|] eqn:Hg0.
  2:{ unfold exec1 in He. rewrite Hg0 in He. inversion He; subst s1. rewrite set_pend_err_mono in He1 by reflexivity. discriminate He1. }
  apply (T1_exec1 _ _ _ _ _ _ _ HT0 He Hg0).
  intros c xc -> Hc0 Hcs Hgc Hrc.
  assert (Hlive : live s c).
  { apply (live_psame s (set_pend s t rest) c (psame_set_pend s t rest)). left. split; [exact Hc0|]. exists xc. split; assumption. }
  destruct (HT2 c Hlive) as (C1 & _).
  destruct t as [a|k].
  - destruct (pend_of_TA_cons _ _ _ _ Hp) as (x & Hg & Hpx). specialize (C1 a x Hg).
    unfold otaint in C1. cbn [self_of] in Hcs. destruct (Nat.eqb a c) eqn:E; [apply Nat.eqb_eq in E; congruence|].
    assert (taint c x = true).
    { apply taint_split. do 5 right. rewrite Hpx. cbn [existsb instr_mk]. rewrite Nat.eqb_refl. reflexivity. }
    congruence.
  - destruct (pend_of_TX_cons _ _ _ _ Hp) as (ex & Hn & Hpx).
    assert (Hs : sig (IOnKilled (RObj c)) = false) by (apply (HX k ex Hn); rewrite Hpx; left; reflexivity).
    discriminate Hs.
Qed.

Lemma set_exts_forall (P : instr -> Prop) :
  (forall a, P (IAct a)) ->
  forall scs s i, (forall k ex, nth_error (exts s) k = Some ex -> forall j, In j (x_pend ex) -> P j) ->
  forall k ex, nth_error (exts (set_exts s i scs)) k = Some ex -> forall j, In j (x_pend ex) -> P j.
Proof.
  intros HP. induction scs as [|sc scs IH]; intros s i HX; cbn [set_exts]; [exact HX|].
  apply IH. cbn [set_pend]. destruct (nth_error (exts s) i) as [ex|] eqn:Hn; [|exact HX].
  intros j exj Hj q Hq. unfold set_ext in Hj; cbn [exts] in Hj.
  destruct (Nat.eq_dec i j) as [<-|Hij].
  - rewrite (nth_error_upd_same _ _ _ _ Hn) in Hj. inversion Hj; subst exj. cbn [x_pend] in Hq.
    apply in_map_iff in Hq as (ac & <- & _). apply HP.
  - rewrite nth_upd_neq in Hj by exact Hij. apply (HX j exj Hj q Hq).
Qed.

Lemma TT_reachable s : reachable s -> TT s.
Proof.
  apply (SQ_reachable TT).
  - intros s0 t i rest HI HQ Hp Hy He1. split; [apply T2_astep; try assumption; apply HQ|apply T1_astep; assumption].
  - intros s0 t sys to sender m rest HI [H2 H1] Hp. split; [apply T2_resolve; assumption|].
    apply (T1_tsame s0); [|exact H1].
    apply (tsame_trans _ (snd (resolve s0 to))); [apply tsame_mb, mb_equiv_resolve|apply tsame_set_pend].
  - intros s0 t choice HI [H2 H1] He. split; [apply T2_push; assumption|].
    apply (T1_tsame s0); [|exact H1]. apply tsame_step_nonatomic; [exact I|exact He].
  - intros s0 t i rest HI [H2 H1] Hp Hi. split; [apply (T2_pophead s0 t i rest HI H2 Hp Hi)|].
    apply (T1_tsame s0); [apply tsame_set_pend|exact H1].
  - intros s0 t rest HI [H2 H1] Hp. split; [apply T2_pause; assumption|].
    apply (T1_tsame s0); [|exact H1].
    match goal with |- tsame s0 (set_pend ?s1 t rest) => apply (tsame_trans _ s1); [|apply tsame_set_pend] end.
    apply tsame_mb. apply mb_equiv_with_actor. intros; repeat split.
  - intros s0 t rest x HI [H2 H1] Hp Hg. split; [apply T2_resume1p; assumption|].
    apply (T1_tsame s0); [|exact H1].
    match goal with |- tsame s0 (set_pend ?s1 t _) => apply (tsame_trans _ s1); [|apply tsame_set_pend] end.
    apply (tsame_set_actor _ _ x); [exact Hg|reflexivity].
  - intros s0 ev Hev HI [H2 H1] He. split; [apply T2_consumer; assumption|].
    apply (T1_tsame s0); [|exact H1]. apply tsame_step_nonatomic; [destruct ev; try contradiction; exact I|exact He].
  - intros s0 a x e s1 ins HI [H2 H1] Hg Hc Hpx x0 Hd. split; [apply (T2_handle s0 a x e s1 ins HI H2 Hg Hc Hpx Hd)|].
    apply (T1_tsame s0); [|exact H1]. split; [destruct (handle_pre s0 a x e s1 ins Hg Hd) as (y & _ & _ & _ & _ & H & _); exact H|].
    apply (handle_pre_keeps tview s0 a x e s1 ins); try assumption; try reflexivity.
    intros x1 y Hy. unfold tview. rewrite (df_path _ _ Hy), (df_parent _ _ Hy), (df_children _ _ Hy). reflexivity.
  - intros scs. unfold init_with. split.
    + intros c Hl. split.
      * intros q y Hy. unfold get in Hy. rewrite set_exts_actors in Hy. cbn [actors init_state] in Hy.
        destruct q as [|[|q]]; cbn [nth_error] in Hy; try discriminate. inversion Hy; subst y.
        unfold otaint. destruct (Nat.eqb 0 c); reflexivity.
      * intros k ex Hk. apply existsb_false_intro.
        apply (set_exts_forall (fun j => instr_mk c j = false) (fun _ => eq_refl) scs (init_state (length scs)) 0%nat) with (k := k); [|exact Hk].
        intros k0 ex0 Hn j Hj. cbn [exts init_state] in Hn. apply nth_error_In, repeat_spec in Hn. subst ex0. destruct Hj.
    + intros c xc p Hc0 Hc Hpar. unfold get in Hc. rewrite set_exts_actors in Hc. cbn [actors init_state] in Hc.
      destruct c as [|[|c]]; cbn [nth_error] in Hc; try discriminate. congruence.
Qed.

Definition T3 (s : state) : Prop :=
  (forall c, c <> 0%nat -> (c < length (actors s))%nat -> isreg s c \/ rel c s) /\
  (forall p c, alookup (reg s) p = Some c -> p <> []) /\
  (forall x, get s 0%nat = Some x -> a_path x = []).

Lemma isreg_psame_fwd s s' c : psame s s' -> isreg s c -> isreg s' c.
Proof.
  intros (Hr & Hp) (x & Hx & Hl). specialize (Hp c). rewrite Hx in Hp.
  destruct (get s' c) as [y|] eqn:Hy; [|discriminate Hp]. cbn [option_map] in Hp. inversion Hp as [Hpp].
  exists y. split; [exact Hy|]. rewrite Hr, Hpp. exact Hl.
Qed.

Lemma length_psame s s' : psame s s' -> length (actors s') = length (actors s).
Proof.
  intros (_ & Hp). apply length_of_get. intros b. specialize (Hp b). destruct (get s b), (get s' b); try discriminate Hp; exact I.
Qed.

Lemma psame_mb s s' : mb_equiv s s' -> psame s s'.
Proof.
  intros Hm. split; [apply Hm|]. apply (mb_equiv_keeps a_path _ _ (fun x y Hl => proj1 Hl) Hm).
Qed.

Lemma T3_keep s s' :
  psame s s' -> (forall c, rel c s -> rel c s') -> T3 s -> T3 s'.
Proof.
  intros Hps Hrel (H1 & H2 & H3). split; [|split].
  - intros c Hc0 Hlt. rewrite (length_psame _ _ Hps) in Hlt. destruct (H1 c Hc0 Hlt) as [H|H]; [left; apply (isreg_psame_fwd _ _ c Hps H)|right; apply Hrel; exact H].
  - destruct Hps as (-> & _). exact H2.
  - intros y Hy. destruct Hps as (_ & Hp). specialize (Hp 0%nat). rewrite Hy in Hp.
    destruct (get s 0) as [x|] eqn:Hx; [|discriminate Hp]. cbn [option_map] in Hp. inversion Hp as [Hpp]. rewrite Hpp. apply H3. reflexivity.
Qed.

Lemma isreg_exec1 s t h i s' front x c :
  exec1 s t h i = (s', front) -> get s (self_of t) = Some x -> isreg s c ->
  isreg s' c \/ (i = ICleanup /\ exists xc, get s c = Some xc /\ a_path xc = a_path x).
Proof.
  intros He Hg (xc & Hxc & Hl). destruct (spawn_dec i) as [[sp ->]|Hns].
  - left. destruct (exec1_spawn_cases _ _ _ _ _ _ _ He Hg) as [(o & ->)|(Hnk & Hpl & Hr)]; [exists xc; split; assumption|].
    destruct (exec1_spawn_ok s t h sp x s' front Hg Hnk Hpl Hr He) as (_ & _ & Hoth & Hself & Hreg & _).
    assert (Hcn : c <> length (actors s)) by (pose proof (nth_error_lt _ _ _ Hxc); lia).
    destruct (Nat.eq_dec c (self_of t)) as [->|Hcs].
    + rewrite Hg in Hxc. inversion Hxc; subst xc. eexists. split; [exact Hself|]. cbn [set_children upd_local a_path].
      rewrite Hreg, alookup_app, Hl. reflexivity.
    + exists xc. split; [rewrite (Hoth c Hcs Hcn); exact Hxc|]. rewrite Hreg, alookup_app, Hl. reflexivity.
  - destruct (exec1_local s t h i x Hg Hns) as (x' & Hlu & Ha & _ & _ & Hrg & _). rewrite He in *. cbn [fst] in *.
    assert (Hyc : exists yc, get s' c = Some yc /\ a_path yc = a_path xc).
    { unfold get. rewrite Ha. destruct (Nat.eq_dec (self_of t) c) as [<-|Hcs].
      - rewrite (nth_error_upd_same _ _ _ _ Hg). exists x'. split; [reflexivity|]. rewrite Hg in Hxc. inversion Hxc; subst xc. apply Hlu.
      - rewrite nth_upd_neq by exact Hcs. exists xc. split; [exact Hxc|reflexivity]. }
    destruct Hyc as (yc & Hyc & Hp).
    assert (Hkeep : reg s' = reg s -> isreg s' c) by (intros E; exists yc; split; [exact Hyc|]; rewrite E, Hp; exact Hl).
    destruct i; try (left; apply Hkeep, Hrg).
    destruct (path_eqb (a_path xc) (a_path x)) eqn:E.
    + right. split; [reflexivity|]. exists xc. split; [exact Hxc|]. apply path_eqb_eq. exact E.
    + left. exists yc. split; [exact Hyc|]. rewrite Hrg, Hp, alookup_aremove_other by exact E. exact Hl.
Qed.

Lemma reg_exec1_nonempty s t h i s' front x :
  exec1 s t h i = (s', front) -> get s (self_of t) = Some x ->
  (forall p c, alookup (reg s) p = Some c -> p <> []) -> forall p c, alookup (reg s') p = Some c -> p <> [].
Proof.
  intros He Hg H p c Hl. destruct (spawn_dec i) as [[sp ->]|Hns].
  - destruct (exec1_spawn_cases _ _ _ _ _ _ _ He Hg) as [(o & ->)|(Hnk & Hpl & Hr)]; [apply (H p c Hl)|].
    destruct (exec1_spawn_ok s t h sp x s' front Hg Hnk Hpl Hr He) as (_ & _ & _ & _ & Hreg & _).
    rewrite Hreg, alookup_app in Hl. destruct (alookup (reg s) p) as [v|] eqn:E; [apply (H p v E)|].
    cbn [alookup] in Hl. destruct (path_eqb p (a_path x ++ [sp_name sp])) eqn:E2; [|discriminate Hl].
    apply path_eqb_eq in E2. subst p. intros Hn. apply app_eq_nil in Hn as [_ Hn]. discriminate Hn.
  - destruct (exec1_local s t h i x Hg Hns) as (x' & _ & _ & _ & _ & Hrg & _). rewrite He in Hrg. cbn [fst] in Hrg.
    rewrite Hrg in Hl. destruct i; try apply (H p c Hl). apply (H p c (alookup_aremove_Some _ _ _ _ Hl)).
Qed.

Lemma T3_astep s t i rest :
  SInv s -> T3 s -> pend_of s t = i :: rest -> yielding i = false -> err (astep s t i rest) = false -> T3 (astep s t i rest).
Proof.
  intros HI (H1 & H2 & H3) Hp Hy He1. pose proof HI as [HA HX].
  pose proof (psame_set_pend s t rest) as Hps0.
  pose proof He1 as He1'. unfold astep in He1'.
  destruct (exec1 (set_pend s t rest) t (held_of (set_pend s t rest) t) i) as [s1 front] eqn:He.
  assert (Hfin : astep s t i rest = set_pend s1 t (front ++ pend_of s1 t)) by (unfold astep; rewrite He; reflexivity).
  pose proof (psame_set_pend s1 t (front ++ pend_of s1 t)) as Hps1.
  destruct (get (set_pend s t rest) (self_of t)) as [x0|] eqn:Hg0.
  2:{ unfold exec1 in He. rewrite Hg0 in He. inversion He; subst s1. rewrite set_pend_err_mono in He1' by reflexivity. discriminate He1'. }
  split; [|split].
  - intros c Hc0 Hlt.
    destruct (Nat.lt_ge_cases c (length (actors s))) as [Hold|Hnew].
    + destruct (H1 c Hc0 Hold) as [Hreg|Hrel]; [|right; apply rel_astep; assumption].
      pose proof (isreg_psame_fwd _ _ c Hps0 Hreg) as Hreg0.
      destruct (isreg_exec1 _ _ _ _ _ _ _ c He Hg0 Hreg0) as [Hreg1|(-> & xc & Hxc & Hpath)].
      * left. rewrite Hfin. apply (isreg_psame_fwd _ _ c Hps1 Hreg1).
      * (* ICleanup of a context with the same path as the registered c: it is c itself *)
        destruct t as [a|k].
        2:{ destruct (pend_of_TX_cons _ _ _ _ Hp) as (ex & Hn & Hpx).
            assert (Hs : sig ICleanup = false) by (apply (HX k ex Hn); rewrite Hpx; left; reflexivity). discriminate Hs. }
        destruct (pend_of_TA_cons _ _ _ _ Hp) as (x & Hg & Hpx).
        assert (Hx0 : x0 = upd_pend x rest) by (cbn [self_of] in Hg0; rewrite (get_set_pend_TA_same _ _ _ _ Hg) in Hg0; congruence).
        destruct (Nat.eq_dec c a) as [->|Hca]; [right; apply rel_after_cleanup; assumption|]. exfalso.
        assert (Hxc' : exists xc', get s c = Some xc' /\ a_path xc' = a_path x).
        { rewrite get_set_pend_TA_other in Hxc by (intros E; apply Hca; symmetry; exact E). exists xc. split; [exact Hxc|]. rewrite Hpath, Hx0. reflexivity. }
        destruct Hxc' as (xc' & Hxc' & Hpath'). destruct Hreg as (xr & Hxr & Hlr). rewrite Hxc' in Hxr. inversion Hxr; subst xr.
        destruct (Nat.eq_dec a 0) as [->|Ha0].
        -- (* the root's path is [] (it is never registered); c's path is registered, hence not [] *)
           apply (H2 _ _ Hlr). rewrite Hpath'. apply H3. exact Hg.
        -- destruct (H1 a Ha0 (nth_error_lt _ _ _ Hg)) as [(xa & Hxa & Hla)|(xa & Hxa & Hra)].
           ++ rewrite Hg in Hxa. inversion Hxa; subst xa. rewrite <- Hpath' in Hla. congruence.
           ++ rewrite Hg in Hxa. inversion Hxa; subst xa. destruct Hra as (_ & R2 & _). rewrite Hpx in R2. discriminate R2.
    + (* a context created by this very step: registered *)
      left. rewrite Hfin. apply (isreg_psame_fwd _ _ c Hps1).
      assert (Hl0 : length (actors (set_pend s t rest)) = length (actors s)) by apply (length_psame _ _ Hps0).
      assert (Hlen1 : length (actors (set_pend s1 t (front ++ pend_of s1 t))) = length (actors s1)) by apply (length_psame _ _ Hps1).
      rewrite Hfin, Hlen1 in Hlt.
      destruct (spawn_dec i) as [[sp ->]|Hns].
      * destruct (exec1_spawn_cases _ _ _ _ _ _ _ He Hg0) as [(o & ->)|(Hnk & Hpl & Hr)]; [cbn [actors add_obs] in Hlt; lia|].
        destruct (exec1_spawn_ok _ t _ sp x0 s1 front Hg0 Hnk Hpl Hr He) as (Hlen & Hnewa & _ & _ & _ & Hlk & _).
        assert (c = length (actors (set_pend s t rest))) by lia. subst c.
        eexists. split; [exact Hnewa|]. cbn [new_actor a_path]. exact Hlk.
      * destruct (exec1_local _ t (held_of (set_pend s t rest) t) i x0 Hg0 Hns) as (x' & _ & Ha & _). rewrite He in Ha. cbn [fst] in Ha. rewrite Ha, upd_length in Hlt. lia.
  - rewrite Hfin. destruct Hps1 as (-> & _). apply (reg_exec1_nonempty _ _ _ _ _ _ _ He Hg0). destruct Hps0 as (-> & _). exact H2.
  - intros y Hyy. rewrite Hfin in Hyy. destruct Hps1 as (_ & Hp1). specialize (Hp1 0%nat). rewrite Hyy in Hp1.
    destruct (get s1 0) as [y1|] eqn:Hy1; [|discriminate Hp1]. cbn [option_map] in Hp1. inversion Hp1 as [Hpp1]. rewrite Hpp1.
    destruct (get s 0) as [xr|] eqn:Hxr.
    2:{ exfalso. pose proof (nth_error_lt _ _ _ Hy1) as Hl1. unfold get in Hxr. apply nth_error_None in Hxr.
        pose proof (nth_error_lt _ _ _ Hg0) as Hl0. rewrite (length_psame _ _ Hps0) in Hl0. lia. }
    assert (Hxr0 : exists x00, get (set_pend s t rest) 0%nat = Some x00 /\ a_path x00 = []).
    { destruct Hps0 as (_ & Hp0). specialize (Hp0 0%nat). rewrite Hxr in Hp0.
      destruct (get (set_pend s t rest) 0) as [x00|]; [|discriminate Hp0]. cbn [option_map] in Hp0. inversion Hp0 as [Hpp0].
      exists x00. split; [reflexivity|]. rewrite Hpp0. apply H3. reflexivity. }
    destruct Hxr0 as (x00 & Hx00 & Hp00).
    destruct (Nat.eq_dec (self_of t) 0) as [Hs0|Hs0].
    + rewrite Hs0 in *. rewrite Hg0 in Hx00. inversion Hx00; subst x00.
      destruct (exec1_self _ _ _ _ _ _ _ He ltac:(rewrite Hs0; exact Hg0)) as (x1' & Hg1' & Hlu).
      rewrite Hs0 in Hg1'. rewrite Hy1 in Hg1'. inversion Hg1'; subst x1'. rewrite (lu_path _ _ _ Hlu). exact Hp00.
    + rewrite <- Hp00. f_equal. apply (f_equal Some) in Hp00.
      pose proof (exec1_keeps _ _ _ _ _ _ 0%nat x00 He (fun E => Hs0 (eq_sym E)) Hx00) as Hk. congruence.
Qed.

Theorem T3_reachable s : reachable s -> T3 s.
Proof.
  apply (Q_reachable T3).
  - intros s0 s' Hm. apply T3_keep; [apply psame_mb; exact Hm|]. intros c. apply rel_mb. exact Hm.
  - intros s0 t i rest front HT Hp Hs Hf. apply (T3_keep s0); [apply psame_set_pend| |exact HT].
    intros c Hr. apply (rel_pop c s0 t i rest front Hr Hp Hs Hf).
  - apply T3_astep.
  - intros s0 a x sq uq pa co cu HT Hg Hpx. apply (T3_keep s0); [apply (psame_set_actor _ _ x); [exact Hg|reflexivity]| |exact HT].
    intros c Hr. apply (rel_cons c s0 a x sq uq pa co cu Hr Hg Hpx).
  - intros s0 a x e s1 ins HI HT Hg Hc Hpx x0 Hd. apply (T3_keep s0); [| |exact HT].
    + split; [destruct (handle_pre s0 a x e s1 ins Hg Hd) as (y & _ & _ & _ & _ & H & _); exact H|].
      apply (handle_pre_keeps a_path s0 a x e s1 ins); try assumption; try reflexivity. intros x1 y Hy. apply Hy.
    + intros c Hr. apply (rel_handle c s0 a x e s1 ins HI Hr Hg Hc Hpx Hd).
  - intros scs. unfold init_with. split; [|split].
    + intros c Hc0 Hlt. rewrite set_exts_actors in Hlt. cbn [actors init_state length] in Hlt. lia.
    + intros p c Hl. assert (Hr : forall scs0 i s1, reg (set_exts s1 i scs0) = reg s1).
      { induction scs0 as [|sc scs0 IH]; intros i s1; [reflexivity|]. cbn [set_exts]. rewrite IH.
        cbn [set_pend]. destruct (nth_error (exts s1) i); reflexivity. }
      rewrite Hr in Hl. discriminate Hl.
    + intros x Hx. unfold get in Hx. rewrite set_exts_actors in Hx. cbn [actors init_state nth_error] in Hx. inversion Hx. reflexivity.
Qed.

Lemma reachable_parent s c xc : reachable s -> get s c = Some xc -> a_parent xc <> None -> c <> 0%nat.
Proof. intros Hr Hc Hp ->. apply Hp. apply (proj1 (parent_inv s 0%nat xc Hr Hc)). reflexivity. Qed.

(** C06-c: when actor p has been marked Killed, every context whose parent is p has been released
    (it is Killed, not a zombie waiting, its cleanup has run) and is not registered any more: children first *)
Theorem children_first s p xp c xc :
  reachable s -> get s p = Some xp -> a_state xp = Killed ->
  get s c = Some xc -> a_parent xc = Some p ->
  released xc /\ alookup (reg s) (a_path xc) <> Some c.
Proof.
  intros Hr Hp Hk Hc Hpar.
  assert (Hc0 : c <> 0%nat) by (apply (reachable_parent s c xc Hr Hc); congruence).
  destruct (TT_reachable s Hr) as (_ & HT1). destruct (T3_reachable s Hr) as (HT3 & _).
  assert (Hnr : alookup (reg s) (a_path xc) <> Some c).
  { intros Hreg. destruct (HT1 c xc p Hc0 Hc Hpar) as (xp' & Hxp' & Himp). rewrite Hp in Hxp'. inversion Hxp'; subst xp'.
    specialize (Himp Hreg). rewrite (killed_no_children s p xp Hr Hp Hk) in Himp. discriminate Himp. }
  split; [|exact Hnr].
  destruct (HT3 c Hc0 (nth_error_lt _ _ _ Hc)) as [(x' & Hx' & Hl)|(x' & Hx' & Hrel)].
  - rewrite Hc in Hx'. inversion Hx'; subst x'. contradiction.
  - rewrite Hc in Hx'. inversion Hx'; subst x'. exact Hrel.
Qed.

Inductive below (s : state) (p : aid) : aid -> Prop :=
| below_child c xc : get s c = Some xc -> a_parent xc = Some p -> below s p c
| below_step c d xd : below s p c -> get s d = Some xd -> a_parent xd = Some c -> below s p d.

Theorem subtree_terminated s p xp d :
  reachable s -> get s p = Some xp -> a_state xp = Killed -> below s p d ->
  exists xd, get s d = Some xd /\ released xd /\ alookup (reg s) (a_path xd) <> Some d.
Proof.
  intros Hr Hp Hk Hb. induction Hb as [c xc Hc Hpar|c d xd Hb IH Hd Hpar].
  - exists xc. split; [exact Hc|]. apply (children_first s p xp c xc Hr Hp Hk Hc Hpar).
  - destruct IH as (xc & Hc & (Hkc & _) & _). exists xd. split; [exact Hd|].
    apply (children_first s c xc d xd Hr Hc Hkc Hd Hpar).
Qed.

Theorem registered_in_parent s c xc p :
  reachable s -> get s c = Some xc -> a_parent xc = Some p -> alookup (reg s) (a_path xc) = Some c ->
  exists xp, get s p = Some xp /\ alookup (a_children xp) (a_path xc) = Some c.
Proof.
  intros Hr Hc Hpar Hreg.
  assert (Hc0 : c <> 0%nat) by (apply (reachable_parent s c xc Hr Hc); congruence).
  destruct (TT_reachable s Hr) as (_ & HT1). destruct (HT1 c xc p Hc0 Hc Hpar) as (xp & Hxp & Himp). exists xp. auto.
Qed.

Theorem registered_or_released s c xc :
  reachable s -> get s c = Some xc -> c <> 0%nat -> alookup (reg s) (a_path xc) = Some c \/ released xc.
Proof.
  intros Hr Hc Hc0. destruct (T3_reachable s Hr) as (HT3 & _).
  destruct (HT3 c Hc0 (nth_error_lt _ _ _ Hc)) as [(x' & Hx' & Hl)|(x' & Hx' & Hrel)]; rewrite Hc in Hx'; inversion Hx'; subst x'; auto.
Qed.

(** an OnKilled naming a registered actor is nowhere outside that actor's own context *)
Theorem no_early_killed_notice s c xc q y :
  reachable s -> c <> 0%nat -> get s c = Some xc -> alookup (reg s) (a_path xc) = Some c ->
  get s q = Some y -> q <> c -> taint c y = false.
Proof.
  intros Hr Hc0 Hc Hreg Hq Hqc. destruct (TT_reachable s Hr) as (HT2 & _).
  destruct (HT2 c) as (C1 & _); [left; split; [exact Hc0|]; exists xc; auto|].
  specialize (C1 q y Hq). unfold otaint in C1. destruct (Nat.eqb q c) eqn:E; [apply Nat.eqb_eq in E; congruence|exact C1].
Qed.
