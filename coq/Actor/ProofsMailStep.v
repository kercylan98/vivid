(** Closed forms of one atomic step ([astep], Actor/ProofsMailMicro.v) of an actor's handler for the lifecycle
    instructions and for ActorOf; the lifecycle transitions as one relation. *)
From Coq Require Import List NArith ZArith Bool Lia Arith.
From Vivid Require Import Actor.Core Actor.CoreRun Actor.SpecMail Actor.ProofsMailBase Actor.ProofsMail Actor.ProofsMailInv
  Actor.ProofsMailMicro.
Import ListNotations.

Section AstepTA.
  Variables (s : state) (a : aid) (x : actor) (rest : list instr).
  Hypothesis Hg : get s a = Some x.

  Let Hl : a < length (actors s). Proof. eapply nth_error_lt; exact Hg. Qed.
  Let s0 := set_actor s a (upd_pend x rest).
  Let Hg0 : get s0 a = Some (upd_pend x rest). Proof. apply get_set_same; exact Hl. Qed.

  Lemma astep_TA_unfold i :
    astep s (TA a) i rest =
    (let r := exec1 s0 (TA a) [] i in set_pend (fst r) (TA a) (snd r ++ pend_of (fst r) (TA a))).
  Proof. unfold astep. rewrite (set_pend_TA _ _ _ _ Hg). cbv zeta. change (held_of _ (TA a)) with (@nil aid). destruct (exec1 _ _ _ _). reflexivity. Qed.

  Lemma astep_set i y fr :
    exec1 s0 (TA a) [] i = (set_actor s0 a y, fr) -> a_pend y = rest -> astep s (TA a) i rest = set_actor s a (upd_pend y (fr ++ rest)).
  Proof.
    intros E Hp. rewrite astep_TA_unfold, E. cbv zeta. cbn [fst snd].
    assert (Hy : get (set_actor s0 a y) a = Some y) by (apply (get_set_same' _ _ _ _ Hg0)).
    rewrite (pend_of_TA _ _ _ Hy), (set_pend_TA _ _ _ _ Hy), Hp. unfold s0. rewrite !set_actor_twice. reflexivity.
  Qed.
  Lemma astep_same i fr : exec1 s0 (TA a) [] i = (s0, fr) -> astep s (TA a) i rest = set_actor s a (upd_pend x (fr ++ rest)).
  Proof.
    intros E. rewrite (astep_set i (upd_pend x rest) fr); [reflexivity| |reflexivity].
    rewrite E. unfold s0. rewrite set_actor_twice. reflexivity.
  Qed.

  Lemma astep_dokill p :
    astep s (TA a) (IDoKill p) rest =
    set_actor s a (upd_pend x (((match a_children x with
                                 | [] => []
                                 | l => [IEnqAny (negb p) (map (fun q => RObj (snd q)) l) (RObj a) (MKill (RObj a) p)]
                                 end)
                                ++ [IBeh (match a_cur x with Some e => e_msg e | None => MKill RNone p end) (sp_kill (a_spec x)) RecLog;
                                    IOnKilled (RObj a)]) ++ rest)).
  Proof. apply astep_same. apply (exec1_dokill s0 (TA a) [] _ p Hg0). Qed.

  Lemma astep_onkilled_zombie who :
    a_zombie x = true -> astep s (TA a) (IOnKilled who) rest = set_actor s a (upd_pend x ([ICleanup; IUnzombie] ++ rest)).
  Proof. intros Hz. apply astep_same. apply (exec1_onkilled_zombie s0 (TA a) [] _ who Hg0 Hz). Qed.

  Lemma astep_onkilled_self who :
    a_zombie x = false -> ref_eq s0 who (RObj a) = true ->
    astep s (TA a) (IOnKilled who) rest = set_actor s a (upd_pend x ([ICheckMark] ++ rest)).
  Proof. intros Hz Hr. apply astep_same. unfold exec1. cbn [self_of]. rewrite Hg0. cbn [a_zombie upd_pend]. rewrite Hz, Hr. reflexivity. Qed.

  (** the children entry removed by a child's OnKilled: only the entry of that very context *)
  Definition drop_child (who : rref) : list (path * aid) :=
    match who with
    | RObj c => match ref_path s0 who with
                | Some p => match alookup (a_children x) p with
                            | Some c' => if Nat.eqb c c' then aremove (a_children x) p else a_children x
                            | None => a_children x
                            end
                | None => a_children x
                end
    | _ => a_children x
    end.

  Lemma astep_onkilled_other who :
    a_zombie x = false -> ref_eq s0 who (RObj a) = false ->
    astep s (TA a) (IOnKilled who) rest =
    set_actor s a (upd_pend (set_children x (drop_child who))
                            ([IBeh (MKilled who) (sp_killed (a_spec x)) (RecKilled who); ICheckMark] ++ rest)).
  Proof.
    intros Hz Hr. apply (astep_set _ (upd_pend (set_children x (drop_child who)) rest)); [|reflexivity].
    unfold exec1. cbn [self_of]. rewrite Hg0. cbn [a_zombie upd_pend]. rewrite Hz, Hr. f_equal. f_equal. unfold drop_child.
    destruct who as [c| |]; try reflexivity. destruct (ref_path s0 (RObj c)); [|reflexivity].
    cbn [a_children upd_pend]. destruct (alookup (a_children x) l) as [c'|]; [|reflexivity]. destruct (Nat.eqb c c'); reflexivity.
  Qed.

  Lemma astep_checkmark_idle :
    (a_children x <> [] \/ a_state x <> Killing) -> astep s (TA a) ICheckMark rest = set_actor s a (upd_pend x rest).
  Proof.
    intros H. apply (astep_same _ []). unfold exec1. cbn [self_of]. rewrite Hg0. cbn [a_children a_state upd_pend].
    destruct (a_children x); [|reflexivity]. destruct (a_state x); try reflexivity. destruct H; congruence.
  Qed.

  Definition marked : actor :=
    let x1 := set_state x Killed in
    set_mb x1 (a_sq x1) (a_uq x1) (a_paused x1) (a_cons x1)
      (Some {| e_sys := true; e_sender := match a_cur x with Some e0 => e_sender e0 | None => RNone end; e_msg := MKilled (RObj a) |}).

  Lemma astep_checkmark_kill :
    a_children x = [] -> a_state x = Killing ->
    astep s (TA a) ICheckMark rest =
    set_actor s a (upd_pend marked ([IBeh (MKilled (RObj a)) (sp_killed (a_spec x)) RecLog;
                                     match a_restarting x with None => ICleanup | Some _ => IRestartFinish end] ++ rest)).
  Proof.
    intros Hc Hs. apply (astep_set _ (upd_pend marked rest)); [|reflexivity].
    unfold exec1. cbn [self_of]. rewrite Hg0. cbn [a_children a_state upd_pend]. rewrite Hc, Hs.
    cbn [a_restarting upd_pend]. destruct (a_restarting x); reflexivity.
  Qed.

  Lemma astep_cleanup :
    astep s (TA a) ICleanup rest =
    set_actor (set_reg (set_subs s (unsub_all (subs s) (a_path x))) (aremove (reg s) (a_path x))) a
              (upd_pend x ((cleanup_sends a x ++ [IPub evKilled (actor_key x); IResume1]) ++ rest)).
  Proof.
    rewrite astep_TA_unfold. cbv zeta. rewrite (exec1_cleanup s0 (TA a) [] _ Hg0). cbn [fst snd self_of].
    match goal with |- set_pend ?s1 _ _ = _ => assert (Hg1 : get s1 a = Some (upd_pend x rest)) by exact Hg0 end.
    rewrite (pend_of_TA _ _ _ Hg1), (set_pend_TA _ _ _ _ Hg1).
    unfold set_actor, set_reg, set_subs, s0. cbn. rewrite upd_upd. reflexivity.
  Qed.

  Lemma astep_unzombie : astep s (TA a) IUnzombie rest = set_actor s a (upd_pend (set_zombie x false) rest).
  Proof. apply (astep_set _ (upd_pend (set_zombie x false) rest) []); [|reflexivity]. apply (exec1_unzombie s0 (TA a) [] _ Hg0). Qed.

  Definition restarted : actor :=
    let x1 := if sp_provider (a_spec x) then set_inst x (a_inst x + 1)%N else x in
    let x3 := set_hooks (set_modes x1 [0%N]) (match a_hooks x with _ :: r => r | [] => [] end) in
    let x4 := set_state (set_restarting x3 None) Running in
    set_mb x4 (a_sq x4) (a_uq x4) (a_paused x4) (CBusy 0%N) (Some {| e_sys := true; e_sender := rref_parent x; e_msg := MLaunch |}).
  Definition zombied : actor :=
    let x1 := if sp_provider (a_spec x) then set_inst x (a_inst x + 1)%N else x in
    set_zombie (set_hooks (set_modes x1 [0%N]) (match a_hooks x with _ :: r => r | [] => [] end)) true.

  Lemma astep_restart_ok :
    restart_ok x = true ->
    astep s (TA a) IRestartFinish rest =
    set_actor s a (upd_pend restarted
      ([IResume1; IPub evRestarted (actor_key x); IPub evResumed (actor_key x);
        IBeh MLaunch (sp_launch (a_spec x)) RecFail; IPub evLaunched (actor_key x)] ++ rest)).
  Proof.
    intros Hok. apply (astep_set _ (upd_pend restarted rest)); [|reflexivity].
    unfold exec1. cbn [self_of]. rewrite Hg0. unfold restart_ok in Hok. cbn [a_hooks a_spec upd_pend]. unfold restarted.
    destruct (a_hooks x) as [|[[h1 h2] h3] hs]; [|rewrite Hok]; destruct (sp_provider (a_spec x)); reflexivity.
  Qed.

  Lemma astep_restart_fail :
    restart_ok x = false -> astep s (TA a) IRestartFinish rest = set_actor s a (upd_pend zombied ([IResume1] ++ rest)).
  Proof.
    intros Hok. apply (astep_set _ (upd_pend zombied rest)); [|reflexivity].
    unfold exec1. cbn [self_of]. rewrite Hg0. unfold restart_ok in Hok. cbn [a_hooks a_spec upd_pend]. unfold zombied.
    destruct (a_hooks x) as [|[[h1 h2] h3] hs]; [discriminate Hok|]. rewrite Hok. destruct (sp_provider (a_spec x)); reflexivity.
  Qed.

  Inductive ltrans : instr -> actor -> list instr -> Prop :=
  | lt_dokill p :
      ltrans (IDoKill p) x
        ((match a_children x with
          | [] => []
          | l => [IEnqAny (negb p) (map (fun q => RObj (snd q)) l) (RObj a) (MKill (RObj a) p)]
          end)
         ++ [IBeh (match a_cur x with Some e => e_msg e | None => MKill RNone p end) (sp_kill (a_spec x)) RecLog; IOnKilled (RObj a)])
  | lt_onkilled_zombie w : a_zombie x = true -> ltrans (IOnKilled w) x [ICleanup; IUnzombie]
  | lt_onkilled_self w : a_zombie x = false -> ref_eq s0 w (RObj a) = true -> ltrans (IOnKilled w) x [ICheckMark]
  | lt_onkilled_other w : a_zombie x = false -> ref_eq s0 w (RObj a) = false ->
      ltrans (IOnKilled w) (set_children x (drop_child w)) [IBeh (MKilled w) (sp_killed (a_spec x)) (RecKilled w); ICheckMark]
  | lt_mark_idle : (a_children x <> [] \/ a_state x <> Killing) -> ltrans ICheckMark x []
  | lt_mark_kill : a_children x = [] -> a_state x = Killing ->
      ltrans ICheckMark marked [IBeh (MKilled (RObj a)) (sp_killed (a_spec x)) RecLog;
                                match a_restarting x with None => ICleanup | Some _ => IRestartFinish end]
  | lt_cleanup : ltrans ICleanup x (cleanup_sends a x ++ [IPub evKilled (actor_key x); IResume1])
  | lt_restart_ok : restart_ok x = true ->
      ltrans IRestartFinish restarted [IResume1; IPub evRestarted (actor_key x); IPub evResumed (actor_key x);
                                       IBeh MLaunch (sp_launch (a_spec x)) RecFail; IPub evLaunched (actor_key x)]
  | lt_restart_fail : restart_ok x = false -> ltrans IRestartFinish zombied [IResume1]
  | lt_unzombie : ltrans IUnzombie (set_zombie x false) [].

  Lemma astep_life i :
    (match i with IDoKill _ | IOnKilled _ | ICheckMark | ICleanup | IRestartFinish | IUnzombie => True | _ => False end) ->
    exists y front, ltrans i y front /\ get (astep s (TA a) i rest) a = Some (upd_pend y (front ++ rest)).
  Proof.
    assert (Hset : forall y, get (set_actor s a y) a = Some y) by (intros; apply get_set_same; exact Hl).
    destruct i; try contradiction; intros _.
    - do 2 eexists. split; [apply lt_dokill|]. rewrite astep_dokill. apply Hset.
    - destruct (a_zombie x) eqn:Hz; [do 2 eexists; split; [apply lt_onkilled_zombie; exact Hz|rewrite (astep_onkilled_zombie _ Hz); apply Hset]|].
      destruct (ref_eq s0 who (RObj a)) eqn:Hr; do 2 eexists.
      + split; [apply lt_onkilled_self; assumption|rewrite (astep_onkilled_self _ Hz Hr); apply Hset].
      + split; [apply lt_onkilled_other; assumption|rewrite (astep_onkilled_other _ Hz Hr); apply Hset].
    - destruct (a_children x) eqn:Hc; [destruct (a_state x) eqn:Hs|]; do 2 eexists.
      + split; [apply lt_mark_idle; right; congruence|rewrite astep_checkmark_idle by (right; congruence); apply Hset].
      + split; [apply (lt_mark_kill Hc Hs)|rewrite (astep_checkmark_kill Hc Hs); apply Hset].
      + split; [apply lt_mark_idle; right; congruence|rewrite astep_checkmark_idle by (right; congruence); apply Hset].
      + split; [apply lt_mark_idle; left; congruence|rewrite astep_checkmark_idle by (left; congruence); apply Hset].
    - do 2 eexists. split; [apply lt_cleanup|]. rewrite astep_cleanup. apply (get_set_same _ a _ Hl).
    - destruct (restart_ok x) eqn:Hok; do 2 eexists.
      + split; [apply (lt_restart_ok Hok)|rewrite (astep_restart_ok Hok); apply Hset].
      + split; [apply (lt_restart_fail Hok)|rewrite (astep_restart_fail Hok); apply Hset].
    - do 2 eexists. split; [apply lt_unzombie|]. rewrite astep_unzombie. apply Hset.
  Qed.
End AstepTA.

Lemma ref_path_set_actor s a x y r : get s a = Some x -> a_path y = a_path x -> ref_path (set_actor s a y) r = ref_path s r.
Proof.
  intros Hg Hp. destruct r as [b|p|]; try reflexivity. cbn [ref_path].
  destruct (Nat.eq_dec a b) as [<-|Hne]; [rewrite (get_set_same' _ _ _ _ Hg), Hg, Hp; reflexivity|rewrite get_set_other by exact Hne; reflexivity].
Qed.
Lemma ref_eq_set_actor s a x y r1 r2 : get s a = Some x -> a_path y = a_path x -> ref_eq (set_actor s a y) r1 r2 = ref_eq s r1 r2.
Proof. intros Hg Hp. unfold ref_eq. rewrite !(ref_path_set_actor s a x y _ Hg Hp). reflexivity. Qed.

Section SpawnTA.
  Variables (s : state) (a : aid) (x : actor) (rest : list instr) (sp : spec).
  Hypothesis Hg : get s a = Some x.
  Let p := a_path x ++ [sp_name sp].
  Let c := length (actors s).
  Let g := match alookup (gens s) p with Some g => g | None => 0%N end.

  Definition spawn_ok : bool :=
    match a_state x with Killed => false | _ => sp_prelaunch sp && match alookup (reg s) p with Some _ => false | None => true end end.

  Lemma astep_spawn_refused :
    spawn_ok = false ->
    exists o, astep s (TA a) (IAct (ASpawn sp)) rest = add_obs (set_actor s a (upd_pend x rest)) o.
  Proof.
    intros Hno. rewrite (astep_TA_unfold s a x rest Hg). cbv zeta.
    assert (Hl : a < length (actors s)) by (eapply nth_error_lt; exact Hg).
    set (s0 := set_actor s a (upd_pend x rest)).
    assert (Hg0 : get s0 a = Some (upd_pend x rest)) by (apply get_set_same; exact Hl).
    unfold exec1. cbn [self_of]. rewrite Hg0. cbn [a_state a_path upd_pend]. unfold spawn_ok in Hno. fold p.
    replace (reg s0) with (reg s) by reflexivity.
    assert (Hfin : forall o, set_pend (add_obs s0 o) (TA a) ([] ++ pend_of (add_obs s0 o) (TA a)) = add_obs (set_actor s a (upd_pend x rest)) o).
    { intros o. assert (Hgo : get (add_obs s0 o) a = Some (upd_pend x rest)) by exact Hg0.
      rewrite (pend_of_TA _ _ _ Hgo), (set_pend_TA _ _ _ _ Hgo). unfold s0, add_obs, set_actor. cbn. rewrite upd_upd. reflexivity. }
    destruct (a_state x); try (eexists; apply Hfin);
      (destruct (sp_prelaunch sp); cbn [negb andb] in *; [|eexists; apply Hfin]);
      (destruct (alookup (reg s) p); [eexists; apply Hfin|discriminate Hno]).
  Qed.

  Definition spawn_front : list instr :=
    [IEnq true (RObj c) (RObj a) MLaunch; IEnqDone; IPub evSpawned (p ++ [g])]
    ++ (match a_state x with Killing => [IEnq true (RObj c) (RObj a) (MKill (RObj a) false); IEnqDone] | _ => [] end)
    ++ [IObs (OSpawn a (sp_name sp) 0)].

  Lemma astep_spawn_ok :
    spawn_ok = true ->
    let s' := astep s (TA a) (IAct (ASpawn sp)) rest in
    actors s' = upd (actors s) a (upd_pend (set_children x (aset (a_children x) p c)) (spawn_front ++ rest)) ++ [new_actor p g (Some a) sp] /\
    reg s' = reg s ++ [(p, c)] /\ exts s' = exts s /\ alookup (reg s) p = None /\ a_state x <> Killed.
  Proof.
    intros Hok. cbv zeta. rewrite (astep_TA_unfold s a x rest Hg). cbv zeta.
    assert (Hl : a < length (actors s)) by (eapply nth_error_lt; exact Hg).
    set (s0 := set_actor s a (upd_pend x rest)).
    assert (Hg0 : get s0 a = Some (upd_pend x rest)) by (apply get_set_same; exact Hl).
    assert (Hlen : length (actors s0) = c) by (unfold s0; cbn; apply upd_length).
    unfold exec1. cbn [self_of]. rewrite Hg0. cbn [a_state a_path upd_pend]. unfold spawn_ok in Hok. fold p.
    replace (reg s0) with (reg s) in * by reflexivity. replace (gens s0) with (gens s) by reflexivity.
    assert (Hst : a_state x <> Killed) by (destruct (a_state x); [discriminate|discriminate|discriminate Hok]).
    assert (Hpl : sp_prelaunch sp = true) by (destruct (a_state x), (sp_prelaunch sp); try reflexivity; discriminate Hok).
    assert (Hrg : alookup (reg s) p = None).
    { destruct (a_state x), (alookup (reg s) p); try reflexivity; try discriminate Hok; try (rewrite Hpl in Hok; discriminate Hok). }
    rewrite Hpl, Hrg. cbn [negb]. fold g. rewrite Hlen.
    assert (Hcore : forall stx, stx = a_state x -> stx <> Killed ->
      let s1 := with_actor
           {| actors := actors s0 ++ [new_actor p g (Some a) sp]; reg := reg s ++ [(p, c)]; gens := aset (gens s) p (g + 1)%N;
              subs := subs s0; exts := exts s0; olog := olog s0; ghost := ghost s0; err := err s0 |} a
           (fun x1 => set_children x1 (aset (a_children x1) p c)) in
      forall front, let s' := set_pend s1 (TA a) (front ++ pend_of s1 (TA a)) in
      actors s' = upd (actors s) a (upd_pend (set_children x (aset (a_children x) p c)) (front ++ rest)) ++ [new_actor p g (Some a) sp] /\
      reg s' = reg s ++ [(p, c)] /\ exts s' = exts s).
    { intros stx _ _. cbv zeta. intros front.
      match goal with |- context[with_actor ?sa _ _] =>
        assert (Hga : get sa a = Some (upd_pend x rest))
          by (unfold get; cbn [actors]; rewrite nth_error_app1 by (rewrite Hlen; exact Hl); exact Hg0);
        rewrite (with_actor_some _ _ _ _ Hga) end.
      match goal with |- context[set_pend ?sb _ _] =>
        assert (Hgb : get sb a = Some (set_children (upd_pend x rest) (aset (a_children (upd_pend x rest)) p c)))
          by (apply get_set_same; cbn [actors]; rewrite app_length, Hlen; lia) end.
      rewrite (pend_of_TA _ _ _ Hgb), (set_pend_TA _ _ _ _ Hgb). cbn [set_actor actors reg exts upd_pend set_children upd_local a_pend a_children].
      split; [|split; reflexivity].
      rewrite upd_upd. rewrite upd_app_l by (rewrite Hlen; exact Hl). unfold s0. cbn [set_actor actors]. rewrite upd_upd. reflexivity. }
    destruct (a_state x) eqn:Est; [| |congruence];
      (destruct (Hcore _ eq_refl ltac:(discriminate) (spawn_front)) as (A & B & C); unfold spawn_front in *; rewrite Est in *;
       cbn [fst snd] in *; repeat split; auto; try discriminate).
  Qed.
End SpawnTA.
