(** Proofs for the stash clauses over whole histories (statements: Properties/C03_stash.v; notions: Actor/SpecStash.v).

    Main result [run_balance]: along ANY event list from ANY state, for every actor [b],
        stash before ++ parked along the run  =  taken along the run ++ stash after
    i.e. the stash is a FIFO that only the owner's own Stash / Unstash calls ever touch: no restart, failed
    restart (zombie), stop, kill, supervision directive, Pause / Resume, queue operation or action of any other
    actor adds, removes, duplicates or reorders a parked envelope. *)
From Coq Require Import List ZArith.
From Vivid Require Import Actor.Core Actor.CoreRun Actor.SpecMail Actor.SpecSup Actor.SpecStash
  Actor.ProofsMailBase Actor.ProofsMail Actor.ProofsMailInv Actor.ProofsMailGhost Actor.ProofsStep.
Import ListNotations.

Lemma parked_app b l1 l2 : parked_of b (l1 ++ l2) = parked_of b l1 ++ parked_of b l2.
Proof. unfold parked_of. apply flat_map_app. Qed.
Lemma taken_app b l1 l2 : taken_of b (l1 ++ l2) = taken_of b l1 ++ taken_of b l2.
Proof. unfold taken_of. apply flat_map_app. Qed.

Lemma balance_trans {A} (l0 l1 l2 a1 a2 d1 d2 : list A) :
  l0 ++ a1 = d1 ++ l1 -> l1 ++ a2 = d2 ++ l2 -> l0 ++ (a1 ++ a2) = (d1 ++ d2) ++ l2.
Proof. intros H1 H2. rewrite app_assoc, H1, <- app_assoc, H2, app_assoc. reflexivity. Qed.

Lemma stash_at_keeps s s' : keeps a_stash [] s s' -> forall b, stash_at s' b = stash_at s b.
Proof. intros K b. exact (K b). Qed.

Lemma balance_keeps s s' b : keeps a_stash [] s s' -> stash_at s b ++ parked_of b [] = taken_of b [] ++ stash_at s' b.
Proof. intros K. cbn. rewrite app_nil_r, (stash_at_keeps _ _ K). reflexivity. Qed.

Lemma unstash_k_count n len : unstash_k n len = unstash_count n len.
Proof. reflexivity. Qed.

Lemma instr_sops_other s t i :
  i <> IAct AStash -> (forall n, i <> IAct (AUnstash n)) -> instr_sops s t i = [].
Proof.
  intros H1 H2. unfold instr_sops. destruct (get s (self_of t)) as [x|]; [|reflexivity].
  destruct i; try reflexivity. destruct a; try reflexivity; [congruence|exfalso; exact (H2 n eq_refl)].
Qed.

Lemma keeps_stash_set_actor_other s a y b : b <> a -> stash_at (set_actor s a y) b = stash_at s b.
Proof. intros H. unfold stash_at. rewrite get_set_other by congruence. reflexivity. Qed.

Lemma instr_balance s t h i b :
  stash_at s b ++ parked_of b (instr_sops s t i) = taken_of b (instr_sops s t i) ++ stash_at (fst (exec1 s t h i)) b.
Proof.
  destruct (get s (self_of t)) as [x|] eqn:Hg.
  2:{ unfold instr_sops. rewrite Hg, (exec1_none _ _ _ _ Hg). cbn. rewrite app_nil_r. reflexivity. }
  assert (Hother : i <> IAct AStash -> (forall n, i <> IAct (AUnstash n)) ->
                   stash_at s b ++ parked_of b (instr_sops s t i) = taken_of b (instr_sops s t i) ++ stash_at (fst (exec1 s t h i)) b).
  { intros H1 H2. rewrite (instr_sops_other s t i H1 H2). apply balance_keeps. apply exec1_stash_frame; assumption. }
  destruct i; try (apply Hother; [discriminate|intros; discriminate]).
  destruct a; try (apply Hother; [discriminate|intros; discriminate]).
  - unfold instr_sops. rewrite Hg. destruct (a_cur x) as [e|] eqn:Hc.
    + rewrite (exec1_stash s t h x e Hg Hc). cbn [fst parked_of taken_of flat_map app].
      destruct (Nat.eqb_spec (self_of t) b) as [<-|Hne].
      * unfold stash_at. rewrite (get_set_same' _ _ _ _ Hg), Hg. cbn [a_stash set_stash upd_local]. rewrite app_nil_r. reflexivity.
      * rewrite keeps_stash_set_actor_other by congruence. rewrite app_nil_r. reflexivity.
    + unfold exec1. rewrite Hg, Hc. cbn. rewrite app_nil_r. reflexivity.
  - unfold instr_sops. rewrite Hg. destruct (a_stash x) as [|e0 r] eqn:Hs.
    + rewrite (exec1_unstash_empty s t h x n Hg Hs). cbn. rewrite app_nil_r. reflexivity.
    + assert (Hne : a_stash x <> []) by (rewrite Hs; discriminate).
      pose proof (exec1_unstash s t h x n Hg Hne) as E. cbv zeta in E. rewrite E. clear E.
      rewrite <- Hs. rewrite unstash_k_count. cbn [fst parked_of taken_of flat_map app]. rewrite !app_nil_r.
      destruct (Nat.eqb_spec (self_of t) b) as [<-|Hnb].
      * unfold stash_at. rewrite (get_set_same' _ _ _ _ Hg), Hg. cbn [a_stash set_stash upd_local].
        symmetry. apply firstn_skipn.
      * rewrite keeps_stash_set_actor_other by congruence. reflexivity.
Qed.

Lemma keeps_stash_set_pend s t l : keeps a_stash [] s (set_pend s t l).
Proof. apply keeps_set_pend. reflexivity. Qed.

Definition trace_sops (t : tid) (tr : list (state * instr)) : list sop :=
  fold_right (fun p v => instr_sops (fst p) t (snd p) ++ v) [] tr.

Lemma atomic_sops_trace f s t : atomic_sops f s t = trace_sops t (atomic_trace f s t).
Proof. apply (atomic_trace_fold atomic_sops instr_sops); reflexivity. Qed.

Lemma atomic_balance f s t b :
  stash_at s b ++ parked_of b (atomic_sops f s t) = taken_of b (atomic_sops f s t) ++ stash_at (run_atomic f s t) b.
Proof.
  rewrite atomic_sops_trace. revert f s.
  apply (run_atomic_trace_ind (fun s tr s' =>
    stash_at s b ++ parked_of b (trace_sops t tr) = taken_of b (trace_sops t tr) ++ stash_at s' b));
    cbn [trace_sops fold_right fst snd].
  - intros s. apply balance_keeps, keeps_refl.
  - intros s. apply balance_keeps, keeps_same_actors. reflexivity.
  - (* IEnq: findMailbox, then the thread waits for its queue insertion *)
    intros s sys to sender m rest _. apply balance_keeps.
    eapply keeps_trans; [apply keeps_resolve; reflexivity|apply keeps_stash_set_pend].
  - intros s i rest s1 front f0 _ _ _ E B2.
    pose proof (instr_balance (set_pend s t rest) t (held_of (set_pend s t rest) t) i b) as B1.
    rewrite E in B1. cbn [fst] in B1.
    rewrite (stash_at_keeps _ _ (keeps_stash_set_pend s t rest)) in B1.
    rewrite (stash_at_keeps _ _ (keeps_stash_set_pend s1 t (front ++ pend_of s1 t))) in B2.
    rewrite parked_app, taken_app. exact (balance_trans _ _ _ _ _ _ _ B1 B2).
Qed.

Lemma keeps_stash_with_actor_mb s a f :
  (forall x, a_stash (f x) = a_stash x) -> keeps a_stash [] s (with_actor s a f).
Proof. apply keeps_with_actor. Qed.

Lemma pre_atomic_keeps s ev s' t : pre_atomic s ev = Some (s', t) -> keeps a_stash [] s s'.
Proof.
  apply (pre_rel (fun _ => keeps a_stash [])).
  - intros _. apply keeps_refl.
  - intros _. apply keeps_trans.
  - intros _ s0. apply keeps_same_actors. reflexivity.
  - intros t0 s0 l. apply keeps_stash_set_pend.
  - intros t0 s0 x sq uq pa co cu Hg. eapply keeps_set_actor; [exact Hg|reflexivity].
  - intros s0 a x e. apply dispatch_stash_frame.
Qed.

Lemma no_atomic_keeps s ev : pre_atomic s ev = None -> keeps a_stash [] s (step s ev).
Proof.
  apply (no_atomic_rel (fun _ => keeps a_stash [])).
  - intros _. apply keeps_trans.
  - intros _ s0. apply keeps_same_actors. reflexivity.
  - intros t0 s0 l. apply keeps_stash_set_pend.
  - intros t0 s0 x sq uq pa co cu Hg. eapply keeps_set_actor; [exact Hg|reflexivity].
  - intros _ s0 a e. unfold push_mb. apply keeps_with_actor. reflexivity.
  - intros _ s0 r. apply keeps_resolve. reflexivity.
Qed.

Theorem step_balance s ev b :
  stash_at s b ++ parked_of b (step_sops s ev) = taken_of b (step_sops s ev) ++ stash_at (step s ev) b.
Proof.
  unfold step_sops. rewrite (step_pre s ev). destruct (pre_atomic s ev) as [[s' t]|] eqn:E.
  - rewrite <- (stash_at_keeps _ _ (pre_atomic_keeps _ _ _ _ E)). apply atomic_balance.
  - apply balance_keeps. apply no_atomic_keeps. exact E.
Qed.

Theorem run_balance evs : forall s b,
  stash_at s b ++ parked_of b (run_sops evs s) = taken_of b (run_sops evs s) ++ stash_at (run_events evs s) b.
Proof.
  induction evs as [|ev r IH]; intros s b.
  - cbn. rewrite app_nil_r. reflexivity.
  - change (run_events (ev :: r) s) with (run_events r (step s ev)). cbn [run_sops].
    rewrite parked_app, taken_app. exact (balance_trans _ _ _ _ _ _ _ (step_balance s ev b) (IH (step s ev) b)).
Qed.

Lemma stash_at_init scs b : stash_at (init_with scs) b = [].
Proof.
  unfold stash_at. destruct (get (init_with scs) b) as [x|] eqn:Hg; [|reflexivity].
  destruct (get_init scs b x Hg) as [_ ->]. reflexivity.
Qed.

Theorem history_balance scs evs b :
  parked_of b (run_sops evs (init_with scs)) =
  taken_of b (run_sops evs (init_with scs)) ++ stash_at (run_events evs (init_with scs)) b.
Proof. pose proof (run_balance evs (init_with scs) b) as H. rewrite stash_at_init in H. exact H. Qed.

Theorem stash_frame_run evs s b :
  parked_of b (run_sops evs s) = [] -> taken_of b (run_sops evs s) = [] ->
  stash_at (run_events evs s) b = stash_at s b.
Proof. intros H1 H2. pose proof (run_balance evs s b) as H. rewrite H1, H2, app_nil_r in H. symmetry. exact H. Qed.

Lemma instr_sops_actor s t i : Forall (fun o => sop_actor o = self_of t) (instr_sops s t i).
Proof.
  unfold instr_sops. destruct (get s (self_of t)) as [x|]; [|constructor].
  destruct i; try constructor. destruct a; try constructor.
  - destruct (a_cur x); repeat constructor.
  - destruct (a_stash x); repeat constructor.
Qed.

Lemma atomic_sops_actor f s t : Forall (fun o => sop_actor o = self_of t) (atomic_sops f s t).
Proof.
  rewrite atomic_sops_trace. induction (atomic_trace f s t) as [|p tr IH]; [constructor|].
  cbn [trace_sops fold_right]. apply Forall_app. split; [apply instr_sops_actor|exact IH].
Qed.

Theorem step_sops_own s ev : Forall (fun o => sop_actor o = event_actor ev) (step_sops s ev).
Proof.
  unfold step_sops. destruct (pre_atomic s ev) as [[s' t]|] eqn:E; [|constructor].
  rewrite (pre_atomic_thread _ _ _ _ E). replace (event_actor ev) with (self_of (ev_thread ev)) by (destruct ev; reflexivity).
  apply atomic_sops_actor.
Qed.

Lemma parked_of_foreign b ops : Forall (fun o => sop_actor o <> b) ops -> parked_of b ops = [] /\ taken_of b ops = [].
Proof.
  induction 1 as [|o l Ho _ IH]; [split; reflexivity|]. destruct IH as [I1 I2].
  unfold parked_of, taken_of in *. cbn [flat_map]. rewrite I1, I2.
  destruct o as [a e|a es]; cbn [sop_actor] in Ho; destruct (Nat.eqb_spec a b); try congruence; split; reflexivity.
Qed.

Theorem stash_foreign_step s ev b : event_actor ev <> b -> stash_at (step s ev) b = stash_at s b.
Proof.
  intros Hne. pose proof (step_balance s ev b) as H.
  assert (F : Forall (fun o => sop_actor o <> b) (step_sops s ev)).
  { eapply Forall_impl; [|apply step_sops_own]. cbn. intros o Ho. congruence. }
  destruct (parked_of_foreign b _ F) as [E1 E2]. rewrite E1, E2, app_nil_r in H. symmetry. exact H.
Qed.

Theorem queue_events_no_sops s ev :
  match ev with EvSysPop _ | EvLoadPaused _ | EvUserPop _ | EvPush _ _ => True | _ => False end -> step_sops s ev = [].
Proof. destruct ev; cbn; tauto. Qed.

Theorem unstash_reenqueues s t h x n :
  get s (self_of t) = Some x -> a_stash x <> [] ->
  instr_sops s t (IAct (AUnstash n)) = [STake (self_of t) (firstn (unstash_k n (length (a_stash x))) (a_stash x))] /\
  snd (exec1 s t h (IAct (AUnstash n))) =
    flat_map (fun e => [IEnqMb (self_of t) e; IEnqDone]) (firstn (unstash_k n (length (a_stash x))) (a_stash x)).
Proof.
  intros Hg Hne. split.
  - unfold instr_sops. rewrite Hg. destruct (a_stash x); [congruence|reflexivity].
  - pose proof (exec1_unstash s t h x n Hg Hne) as E. cbv zeta in E. rewrite E. reflexivity.
Qed.

Theorem stash_parks_current s t x e :
  get s (self_of t) = Some x -> a_cur x = Some e -> instr_sops s t (IAct AStash) = [SPark (self_of t) e].
Proof. intros Hg Hc. unfold instr_sops. rewrite Hg, Hc. reflexivity. Qed.
