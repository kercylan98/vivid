(** C19, history level, part 2: where a fan-out insertion lands (nowhere but in the addressed context's own mailbox), the
    completed fan-out of one publish under any interleaving (each snapshot entry exactly one insertion, nobody
    else), and the order of one publisher's events in a subscriber's user queue.
    Definitions: Actor/SpecStream.v. *)
From Coq Require Import List Bool Permutation Lia PeanoNat.
From Vivid Require Import Actor.Core Actor.CoreRun Actor.SpecSup Actor.ProofsSup Actor.ProofsStream.
From Vivid Require Import Actor.SpecMail Actor.ProofsMailBase Actor.ProofsMailInv Actor.ProofsMailWf
  Actor.ProofsMailAcct Actor.ProofsMailReg Actor.ProofsMailMicro2 Actor.ProofsMailLife Actor.ProofsMailTree
  Actor.ProofsMailCache.
From Vivid Require Import Actor.SpecStream Actor.ProofsStream2.
Import ListNotations.

(** a reference to a context object always resolves to that context's own mailbox: non-root contexts have their
    cache filled by ActorOf's first tell (ref_cache_reachable); the guard is never registered and is the only
    context with the empty path *)
Lemma resolve_obj s y xy :
  reachable s -> get s y = Some xy ->
  fst (resolve s (RObj y)) = MbActor y \/ (y = 0 /\ fst (resolve s (RObj y)) = MbRoot).
Proof.
  intros Hr Hg. cbn [resolve]. rewrite Hg.
  destruct (Nat.eq_dec y 0) as [->|Hne].
  - destruct (RInv_reachable s Hr) as ((x0 & Hg0 & _ & Hp0) & Rb & Rc & _). rewrite Hg in Hg0. inversion Hg0; subst x0.
    destruct (a_cache xy) as [z|] eqn:Hc.
    + left. cbn [fst]. destruct (reachable_route_ok s Hr) as [_ HC]. destruct (HC 0 xy z Hg Hc) as (xz & Hgz & Hpz).
      destruct (Nat.eq_dec z 0) as [->|Hz]; [reflexivity|]. exfalso. destruct (Rb z xz Hgz Hz) as [_ Hn]. apply Hn. congruence.
    + right. split; [reflexivity|]. rewrite Hp0, Rc. reflexivity.
  - left. rewrite (ref_cache_reachable s y xy Hr Hg Hne). reflexivity.
Qed.

Lemma lands_obj s y xy : reachable s -> get s y = Some xy -> lands s (RObj y) = Some y.
Proof. intros Hr Hg. unfold lands. destruct (resolve_obj s y xy Hr Hg) as [->|[-> ->]]; reflexivity. Qed.

Lemma lands_obj_inv s y x : reachable s -> lands s (RObj y) = Some x -> y = x.
Proof.
  intros Hr H. destruct (get s y) as [xy|] eqn:Hg.
  - rewrite (lands_obj s y xy Hr Hg) in H. congruence.
  - unfold lands in H. cbn [resolve] in H. rewrite Hg in H. discriminate H.
Qed.

Lemma landing_obj s y xy e : reachable s -> get s y = Some xy -> landing (fst (resolve s (RObj y))) e = (y, e).
Proof. intros Hr Hg. destruct (resolve_obj s y xy Hr Hg) as [->|[-> ->]]; reflexivity. Qed.

Lemma resolve_obj_err s y : get s y = None -> err (snd (resolve s (RObj y))) = true.
Proof. intros Hg. cbn [resolve]. rewrite Hg. reflexivity. Qed.

Lemma push_any_get s t k sys tos sender m rest y :
  pend_of s t = IEnqAny sys tos sender m :: rest -> nth_error tos k = Some (RObj y) -> err (step s (EvPush t k)) = false ->
  exists xy, get s y = Some xy.
Proof.
  intros Hp Hk He. destruct (get s y) as [xy|] eqn:Hg; [eauto|]. exfalso.
  cbn [step] in He. rewrite Hp, Hk in He. pose proof (resolve_obj_err s y Hg) as Hr.
  destruct (resolve s (RObj y)) as [mb s1]. cbn [snd] in Hr. rewrite deliver_eq in He.
  rewrite set_pend_err_mono in He; [discriminate|]. apply push_mb_fields. exact Hr.
Qed.

Lemma delivers_addr t ty x s ev : reachable s -> delivers t ty x s ev = true -> addr_delivers t ty x s ev = true.
Proof.
  intros Hr H. unfold delivers in H. unfold addr_delivers, gdelivers.
  destruct (stream_push s ev) as [[[[t' ty'] pl] to]|] eqn:Hs; [|discriminate H].
  apply andb_true_iff in H. destruct H as [H1 H2]. rewrite H1. cbn [andb].
  destruct (stream_push_obj s ev t' ty' pl to Hr Hs) as [y ->].
  destruct (lands s (RObj y)) as [z|] eqn:Hl; [|discriminate H2]. apply Nat.eqb_eq in H2. subst z.
  rewrite (lands_obj_inv s y x Hr Hl). cbn [is_obj]. apply Nat.eqb_refl.
Qed.

Lemma deliveries_addr t ty x evs : forall s,
  reachable s -> err (run_events evs s) = false -> deliveries t ty x evs s <= addr_deliveries t ty x evs s.
Proof.
  induction evs as [|ev r IH]; intros s Hr He; [cbn; lia|].
  change (run_events (ev :: r) s) with (run_events r (step s ev)) in He.
  pose proof (err_false_run_head r s ev He) as He1.
  unfold addr_deliveries in *. cbn [deliveries gdeliveries]. fold (addr_delivers t ty x s ev).
  specialize (IH (step s ev) (ProofsSup.reachable_step s ev Hr He1) He).
  destruct (delivers t ty x s ev) eqn:E; [rewrite (delivers_addr _ _ _ _ _ Hr E)|]; cbn [b2n]; lia.
Qed.

Lemma unsub_bound t ty x evs s :
  reachable s -> err (run_events evs s) = false -> unsub_along ty x evs s ->
  deliveries t ty x evs s + inflight t ty x (run_events evs s) <= inflight t ty x s.
Proof.
  intros Hr He Hu. pose proof (deliveries_addr t ty x evs s Hr He). pose proof (unsub_bound_addr t ty x evs s He Hu). lia.
Qed.

Lemma not_own_handle s t ev :
  wf s -> err (step s ev) = false -> pend_of s t <> [] -> forall a, t = TA a -> ev <> EvHandle a.
Proof.
  intros [W _] He Hp a -> ->. cbn [step] in He. cbn [pend_of] in Hp. destruct (get s a) as [x|] eqn:Hg; [|discriminate He].
  pose proof (Forall_nth _ _ _ _ W Hg) as [E|(md & l & Hc & _)]; [contradiction|]. rewrite Hc in He. discriminate He.
Qed.

Lemma enq_done_phase_step s t i rest ev :
  yielding i = true -> wf s -> err (step s ev) = false -> pend_of s t = IEnqDone :: i :: rest ->
  (pend_of (step s ev) t = IEnqDone :: i :: rest /\ is_push_of t ev = false) \/
  (ev = EvEnqDone t /\ pend_of (step s ev) t = i :: rest).
Proof.
  intros Hy W He Hp.
  assert (Hh := not_own_handle s t ev W He ltac:(rewrite Hp; discriminate)).
  destruct (waiting_step s t _ _ ev Hh He Hp eq_refl) as [E| ->].
  - left. split; [exact E|]. destruct ev; try reflexivity. cbn [is_push_of]. destruct (tid_eqb t0 t) eqn:Et; [|reflexivity].
    apply tid_eqb_eq in Et. subst t0. cbn [step] in He. rewrite Hp in He. discriminate He.
  - right. split; [reflexivity|]. exact (step_EvEnqDone_yield s t i rest Hp Hy He).
Qed.

Lemma enq_any_phase_step' s t sys tos sender m rest ev :
  wf s -> err (step s ev) = false -> pend_of s t = IEnqAny sys tos sender m :: rest ->
  (pend_of (step s ev) t = IEnqAny sys tos sender m :: rest /\ is_push_of t ev = false) \/
  exists k to, ev = EvPush t k /\ nth_error tos k = Some to /\
    pend_of (step s ev) t = IEnqDone :: match remove_nth k tos with [] => rest | _ :: _ => IEnqAny sys (remove_nth k tos) sender m :: rest end.
Proof.
  intros W He Hp.
  assert (Hh := not_own_handle s t ev W He ltac:(rewrite Hp; discriminate)).
  destruct (enq_any_phase_step s t sys tos sender m rest ev Hh He Hp) as [E|H]; [|right; exact H].
  left. split; [exact E|]. destruct ev; try reflexivity. cbn [is_push_of]. destruct (tid_eqb t0 t) eqn:Et; [|reflexivity].
  apply tid_eqb_eq in Et. subst t0. destruct (step_IEnqAny s t choice sys tos sender m rest Hp He) as (to & _ & _ & E'). congruence.
Qed.

Lemma remove_nth_length {A} (l : list A) k x : nth_error l k = Some x -> length l = S (length (remove_nth k l)).
Proof.
  revert k. induction l as [|y l IH]; intros [|k] H; cbn in H; try discriminate.
  - reflexivity.
  - unfold remove_nth in *. change (skipn (S (S k)) (y :: l)) with (skipn (S k) l). cbn [firstn app length]. rewrite (IH k H). reflexivity.
Qed.

Lemma In_remove_nth {A} (l : list A) k y : In y (remove_nth k l) -> In y l.
Proof.
  unfold remove_nth. intros H. apply in_app_or in H. destruct H as [H|H]; [eapply firstn_In; exact H|].
  rewrite <- (firstn_skipn (S k) l). apply in_or_app. right. exact H.
Qed.

Lemma tpushes_app t evs1 : forall evs2 s, tpushes t (evs1 ++ evs2) s = tpushes t evs1 s ++ tpushes t evs2 (run_events evs1 s).
Proof.
  induction evs1 as [|ev r IH]; intros evs2 s; [reflexivity|].
  change (run_events (ev :: r) s) with (run_events r (step s ev)). cbn [app tpushes]. rewrite IH, app_assoc. reflexivity.
Qed.

Lemma npush_cons t ev r : npush t (ev :: r) = b2n (is_push_of t ev) + npush t r.
Proof. unfold npush. cbn [filter]. destruct (is_push_of t ev); reflexivity. Qed.

Definition ref_aid (r : rref) : aid := match r with RObj a => a | _ => 0 end.

Section Fan.
  Variables (t : tid) (sys : bool) (sender : rref) (m : msg) (rest : list instr).
  Let env : envelope := {| e_sys := sys; e_sender := sender; e_msg := m |}.

  (** the range over [rem] is pending: about to insert, or between an insertion and the end of its Enqueue *)
  Definition in_range (s : state) (rem : list rref) : Prop :=
    rem <> [] /\ (pend_of s t = IEnqAny sys rem sender m :: rest \/ pend_of s t = IEnqDone :: IEnqAny sys rem sender m :: rest).

  Lemma fan_run evs : forall s rem,
    reachable s -> in_range s rem -> (forall to, In to rem -> exists y, to = RObj y) ->
    err (run_events evs s) = false -> length rem <= npush t evs ->
    exists evs1 evs2 order,
      evs = evs1 ++ evs2 /\ pick_order rem order /\ npush t evs1 = length rem /\
      tpushes t evs1 s = map (fun to => (ref_aid to, env)) order /\
      pend_of (run_events evs1 s) t = IEnqDone :: rest.
  Proof.
    induction evs as [|ev r IH]; intros s rem Hr (Hne & Hph) Hobj He Hlen.
    { exfalso. destruct rem; [congruence|cbn in Hlen; lia]. }
    change (run_events (ev :: r) s) with (run_events r (step s ev)) in He.
    pose proof (err_false_run_head r s ev He) as He1.
    pose proof (ProofsSup.reachable_step s ev Hr He1) as Hr'. pose proof (reachable_wf s Hr) as W.
    rewrite npush_cons in Hlen.
    assert (Hstay : forall (Hph' : in_range (step s ev) rem) (Hnp : is_push_of t ev = false),
      exists evs1 evs2 order, ev :: r = evs1 ++ evs2 /\ pick_order rem order /\ npush t evs1 = length rem /\
        tpushes t evs1 s = map (fun to => (ref_aid to, env)) order /\ pend_of (run_events evs1 s) t = IEnqDone :: rest).
    { intros Hph' Hnp. rewrite Hnp in Hlen. cbn [b2n plus] in Hlen.
      destruct (IH (step s ev) rem Hr' Hph' Hobj He Hlen) as (evs1 & evs2 & order & E & Hpo & Hn & Htp & Hpd).
      exists (ev :: evs1), evs2, order. split; [rewrite E; reflexivity|]. split; [exact Hpo|]. split; [rewrite npush_cons, Hnp; exact Hn|].
      split; [|exact Hpd]. cbn [tpushes]. rewrite <- Htp.
      destruct ev; try reflexivity. cbn [is_push_of] in Hnp. rewrite Hnp. reflexivity. }
    destruct Hph as [Hp|Hp].
    - destruct (enq_any_phase_step' s t sys rem sender m rest ev W He1 Hp) as [[E Hnp]|(k & to & -> & Hk & E)].
      + apply Hstay; [split; [exact Hne|left; exact E]|exact Hnp].
      + destruct (Hobj to (nth_error_In _ _ Hk)) as [y ->].
        destruct (push_any_get s t k sys rem sender m rest y Hp Hk He1) as [xy Hgy].
        assert (Hpush : push_of s t k = Some (y, env)).
        { unfold push_of. rewrite Hp, Hk. rewrite (landing_obj s y xy _ Hr Hgy). reflexivity. }
        pose proof (remove_nth_length rem k _ Hk) as Hl.
        destruct (remove_nth k rem) as [|r0 rem'] eqn:Er.
        * exists [EvPush t k], r, [RObj y]. split; [reflexivity|]. split; [eapply pick_cons; [exact Hk|rewrite Er; constructor]|].
          split; [rewrite npush_cons; cbn [is_push_of]; rewrite tid_eqb_refl, Hl; reflexivity|].
          split; [cbn [tpushes]; rewrite tid_eqb_refl, Hpush; reflexivity|exact E].
        * cbn [is_push_of] in Hlen. rewrite tid_eqb_refl in Hlen. cbn [b2n] in Hlen.
          assert (Hobj' : forall to, In to (r0 :: rem') -> exists y0, to = RObj y0).
          { intros to Hin. apply Hobj. apply (In_remove_nth rem k). rewrite Er. exact Hin. }
          assert (Hlen' : length (r0 :: rem') <= npush t r) by lia.
          assert (Hph' : in_range (step s (EvPush t k)) (r0 :: rem')) by (split; [discriminate|right; exact E]).
          destruct (IH (step s (EvPush t k)) (r0 :: rem') Hr' Hph' Hobj' He Hlen')
            as (evs1 & evs2 & order & E' & Hpo & Hn & Htp & Hpd).
          exists (EvPush t k :: evs1), evs2, (RObj y :: order). split; [rewrite E'; reflexivity|].
          split; [eapply pick_cons; [exact Hk|rewrite Er; exact Hpo]|].
          split; [rewrite npush_cons; cbn [is_push_of]; rewrite tid_eqb_refl, Hn, Hl; reflexivity|].
          split; [|exact Hpd]. cbn [tpushes]. rewrite tid_eqb_refl, Hpush, Htp. reflexivity.
    - destruct (enq_done_phase_step s t (IEnqAny sys rem sender m) rest ev) as [[E Hnp]|[-> E]]; try assumption.
      { destruct rem; [congruence|reflexivity]. }
      + apply Hstay; [split; [exact Hne|right; exact E]|exact Hnp].
      + apply Hstay; [split; [exact Hne|left; exact E]|reflexivity].
  Qed.
End Fan.

Lemma fanout_completes t sys sender m rest l evs s :
  reachable s -> pend_of s t = IEnqAny sys (map RObj l) sender m :: rest -> l <> [] ->
  err (run_events evs s) = false -> length l <= npush t evs ->
  exists evs1 evs2 order,
    evs = evs1 ++ evs2 /\ Permutation l order /\ npush t evs1 = length l /\
    tpushes t evs1 s = map (fun a => (a, {| e_sys := sys; e_sender := sender; e_msg := m |})) order /\
    firstn (length l) (tpushes t evs s) = map (fun a => (a, {| e_sys := sys; e_sender := sender; e_msg := m |})) order /\
    pend_of (run_events evs1 s) t = IEnqDone :: rest.
Proof.
  intros Hr Hp Hne He Hlen.
  destruct (fan_run t sys sender m rest evs s (map RObj l) Hr) as (evs1 & evs2 & order & E & Hpo & Hn & Htp & Hpd).
  - split; [destruct l; [congruence|discriminate]|left; exact Hp].
  - intros to Hin. apply in_map_iff in Hin. destruct Hin as (y & <- & _). eauto.
  - exact He.
  - rewrite map_length. exact Hlen.
  - rewrite map_length in Hn. pose proof (pick_order_perm _ _ Hpo) as Hperm.
    destruct (Permutation_map_inv _ _ (Permutation_sym Hperm)) as (order' & Eo & Hp').
    exists evs1, evs2, order'. split; [exact E|]. split; [exact Hp'|]. split; [exact Hn|].
    assert (Htp' : tpushes t evs1 s = map (fun a => (a, {| e_sys := sys; e_sender := sender; e_msg := m |})) order').
    { rewrite Htp, Eo, map_map. reflexivity. }
    split; [exact Htp'|]. split; [|exact Hpd].
    rewrite E, tpushes_app, Htp'. rewrite firstn_app.
    assert (Hl : length (map (fun a => (a, {| e_sys := sys; e_sender := sender; e_msg := m |})) order') = length l).
    { rewrite map_length. symmetry. apply Permutation_length. exact Hp'. }
    rewrite <- Hl at 1. rewrite firstn_all, Hl, Nat.sub_diag. cbn [firstn]. apply app_nil_r.
Qed.

Lemma upushed_pushed_run a evs : forall s, map snd (upushed a evs s) = pushed_run a false evs s.
Proof.
  induction evs as [|ev r IH]; intros s; [reflexivity|]. cbn [upushed pushed_run]. rewrite map_app, IH. f_equal.
  unfold upushed1, pushed_to. destruct ev; try reflexivity. destruct (push_of s t choice) as [[tgt e]|]; [|reflexivity].
  destruct (Nat.eqb tgt a), (e_sys e); reflexivity.
Qed.

Lemma user_fifo a evs s :
  err (run_events evs s) = false ->
  popped_run a false evs s ++ uq_at (run_events evs s) a = uq_at s a ++ map snd (upushed a evs s).
Proof. intros He. rewrite upushed_pushed_run. exact (queue_run false a evs s He). Qed.

Lemma upushed_thread_filter t a evs : forall s,
  map snd (filter (fun q : tid * envelope => tid_eqb (fst q) t) (upushed a evs s)) =
  map snd (filter (fun p : aid * envelope => Nat.eqb (fst p) a && negb (e_sys (snd p))) (tpushes t evs s)).
Proof.
  induction evs as [|ev r IH]; intros s; [reflexivity|]. cbn [upushed tpushes]. rewrite !filter_app, !map_app, IH. f_equal.
  unfold upushed1. destruct ev; try reflexivity.
  destruct (tid_eqb t0 t) eqn:Et.
  - apply tid_eqb_eq in Et. subst t0. destruct (push_of s t choice) as [[tgt e]|]; [|reflexivity].
    cbn [filter fst snd]. destruct (Nat.eqb tgt a && negb (e_sys e)); [|reflexivity]. cbn [filter fst]. rewrite tid_eqb_refl. reflexivity.
  - destruct (push_of s t0 choice) as [[tgt e]|]; [|reflexivity].
    destruct (Nat.eqb tgt a && negb (e_sys e)); [|reflexivity]. cbn [filter fst]. rewrite Et. reflexivity.
Qed.

Lemma filter_map_none (env : envelope) a (l : list aid) :
  ~ In a l -> filter (fun p : aid * envelope => Nat.eqb (fst p) a && negb (e_sys (snd p))) (map (fun y => (y, env)) l) = [].
Proof.
  induction l as [|z l IH]; intros Hn; [reflexivity|]. cbn [map filter fst snd].
  destruct (Nat.eqb_spec z a) as [->|Nz]; [exfalso; apply Hn; left; reflexivity|]. cbn [andb]. apply IH. intros Hin. apply Hn. right. exact Hin.
Qed.

Lemma filter_map_once (env : envelope) a (l : list aid) :
  NoDup l -> In a l -> e_sys env = false ->
  filter (fun p : aid * envelope => Nat.eqb (fst p) a && negb (e_sys (snd p))) (map (fun y => (y, env)) l) = [(a, env)].
Proof.
  intros Hn Hin Hs. induction l as [|y l IH]; [destruct Hin|]. inversion Hn as [|y' l' Hy Hl]; subst. cbn [map filter fst snd]. rewrite Hs. cbn [negb].
  destruct (Nat.eqb_spec y a) as [->|Ne]; cbn [andb].
  - rewrite (filter_map_none env a l Hy). reflexivity.
  - destruct Hin as [E|Hin]; [congruence|]. apply IH; assumption.
Qed.

Lemma filter_hd_split {A} (P : A -> bool) (l : list A) x r :
  filter P l = x :: r -> exists l1 l2, l = l1 ++ x :: l2 /\ (forall y, In y l1 -> P y = false).
Proof.
  induction l as [|y l IH]; cbn [filter]; [discriminate|]. destruct (P y) eqn:E.
  - intros H. inversion H; subst. exists [], l. split; [reflexivity|intros z []].
  - intros H. destruct (IH H) as (l1 & l2 & -> & Hl). exists (y :: l1), l2. split; [reflexivity|].
    intros z [<-|Hz]; [exact E|apply Hl; exact Hz].
Qed.

Lemma publisher_first t sender m rest l a evs s :
  reachable s -> pend_of s t = IEnqAny false (map RObj l) sender m :: rest -> NoDup l -> In a l ->
  err (run_events evs s) = false -> length l <= npush t evs ->
  exists l1 l2, upushed a evs s = l1 ++ (t, {| e_sys := false; e_sender := sender; e_msg := m |}) :: l2 /\
                (forall e, ~ In (t, e) l1).
Proof.
  intros Hr Hp Hn Hin He Hlen.
  assert (Hne : l <> []) by (intros ->; destruct Hin).
  destruct (fanout_completes t false sender m rest l evs s Hr Hp Hne He Hlen) as (evs1 & evs2 & order & E & Hperm & _ & Htp & _ & _).
  set (env := {| e_sys := false; e_sender := sender; e_msg := m |}) in *.
  pose proof (upushed_thread_filter t a evs s) as Hf. rewrite E in Hf at 2. rewrite tpushes_app, Htp, filter_app in Hf.
  rewrite (filter_map_once env a order (Permutation_NoDup Hperm Hn) (Permutation_in a Hperm Hin) eq_refl) in Hf.
  cbn [app map snd] in Hf.
  destruct (filter (fun q : tid * envelope => tid_eqb (fst q) t) (upushed a evs s)) as [|[t' e'] fr] eqn:Ef; [discriminate Hf|].
  cbn [map snd] in Hf. inversion Hf; subst e'.
  assert (Ht : t' = t).
  { assert (Hi : In (t', env) (filter (fun q : tid * envelope => tid_eqb (fst q) t) (upushed a evs s))) by (rewrite Ef; left; reflexivity).
    apply filter_In in Hi. destruct Hi as [_ Hi]. apply tid_eqb_eq in Hi. exact Hi. }
  subst t'. destruct (filter_hd_split _ _ _ _ Ef) as (l1 & l2 & El & Hl1). exists l1, l2. split; [exact El|].
  intros e Hi. specialize (Hl1 _ Hi). cbn [fst] in Hl1. rewrite tid_eqb_refl in Hl1. discriminate.
Qed.

Lemma publish_snapshot f s t ty pl rest x :
  pend_of s t = IPub ty pl :: rest -> get s (self_of t) = Some x -> subscribers s ty <> [] ->
  err (run_atomic (S (S f)) s t) = false ->
  subs (run_atomic (S (S f)) s t) = subs s /\
  pend_of (run_atomic (S (S f)) s t) t = IEnqAny false (map (fun p => RObj (snd p)) (subscribers s ty)) root_ref (MEvent ty pl) :: rest /\
  just_published (run_atomic (S (S f)) s t) t ty pl rest.
Proof.
  intros Hp Hg Hne He.
  rewrite (run_atomic_exec _ _ _ _ _ Hp eq_refl eq_refl) in *. cbv zeta in *.
  destruct (exec1 (set_pend s t rest) t (held_of (set_pend s t rest) t) (IPub ty pl)) as [s1 front] eqn:E.
  destruct (atomic_next_pend s t _ rest s1 front E (err_false_before_run_atomic _ _ _ He)) as [_ Hp2].
  destruct (get_set_pend s t rest _ x Hg) as (x0 & Hg0 & _).
  rewrite (exec1_IPub _ _ _ _ _ _ Hg0) in E.
  replace (subscribers (set_pend s t rest) ty) with (subscribers s ty) in E by (unfold subscribers; rewrite set_pend_subs; reflexivity).
  destruct (subscribers s ty) as [|p0 l0] eqn:Hsub; [congruence|]. injection E as <- <-. cbn [app] in *.
  match type of Hp2 with pend_of ?s0 t = _ => set (s2 := s0) in * end.
  rewrite (ProofsMailBase.run_atomic_yield f s2 t _ _ Hp2 eq_refl).
  assert (Hs2 : subs s2 = subs s) by (unfold s2; rewrite !set_pend_subs; reflexivity).
  split; [exact Hs2|]. split; [exact Hp2|].
  unfold just_published, subscribers. rewrite Hs2. fold (subscribers s ty). rewrite Hsub. split; [discriminate|exact Hp2].
Qed.
