(** One event, for C03 / C09: errors are sticky; what HandleEnvelop may change ([dispatch_effect]); and what an
    event does to the queues, the paused flag and the consumer's position of every mailbox - each read off the
    mailbox word of the event ([step_word], Actor/ProofsStep.v). *)
From Coq Require Import List Bool Arith.
From Vivid Require Import Actor.Core Actor.CoreRun Actor.SpecMail Actor.ProofsMailBase Actor.ProofsMail Actor.ProofsStep.
Import ListNotations.

Record disp_frame (x y : actor) : Prop := {
  df_path : a_path y = a_path x; df_gen : a_gen y = a_gen x; df_parent : a_parent y = a_parent x;
  df_spec : a_spec y = a_spec x; df_cache : a_cache y = a_cache x;
  df_sq : a_sq y = a_sq x; df_uq : a_uq y = a_uq x; df_paused : a_paused y = a_paused x;
  df_cons : a_cons y = a_cons x; df_pend : a_pend y = a_pend x; df_stash : a_stash y = a_stash x;
  df_children : a_children y = a_children x; df_zombie : a_zombie y = a_zombie x;
}.

Lemma disp_frame_refl x : disp_frame x x.
Proof. constructor; reflexivity. Qed.

Lemma dispatch_effect s a x e :
  get s a = Some x ->
  exists y, disp_frame x y /\ actors (fst (dispatch s a x e)) = upd (actors s) a y /\
            olog (fst (dispatch s a x e)) = olog s /\ err (fst (dispatch s a x e)) = err s /\
            exts (fst (dispatch s a x e)) = exts s /\ reg (fst (dispatch s a x e)) = reg s /\
            subs (fst (dispatch s a x e)) = subs s /\
            (ghost (fst (dispatch s a x e)) = ghost s \/ exists o, ghost (fst (dispatch s a x e)) = ghost s ++ [o]).
Proof.
  intros Hg.
  assert (Hsame : actors s = upd (actors s) a x) by (symmetry; apply upd_same; exact Hg).
  destruct (dispatch_cases s a x e) as [| |r _ []]; cbn [fst];
    first [ exists x; split; [apply disp_frame_refl|]; cbn; repeat split; eauto; fail
          | eexists; split; [|split; [reflexivity|cbn; repeat split; eauto]]; constructor; reflexivity ].
Qed.

Lemma trel_dispatch (R : aid -> actor -> actor -> Prop) (N : aid -> actor -> Prop) s a x e :
  (forall b x, R b x x) -> get s a = Some x -> (forall y, disp_frame x y -> R a x y) -> trel R N s (fst (dispatch s a x e)).
Proof.
  intros Hr Hg H. destruct (dispatch_effect s a x e Hg) as (y & Hy & Ha & _).
  apply (trel_upd_app R N Hr s _ a x y [] Hg); [rewrite app_nil_r; exact Ha|exact (H y Hy)|constructor].
Qed.

Lemma keeps_dispatch {A} (pi : actor -> A) d s a x e :
  get s a = Some x -> (forall y, disp_frame x y -> pi y = pi x) -> keeps pi d s (fst (dispatch s a x e)).
Proof. intros Hg H. apply keeps_trel, trel_dispatch; auto. Qed.

Lemma push_mb_fields s a e :
  olog (push_mb s a e) = olog s /\ ghost (push_mb s a e) = ghost s /\ reg (push_mb s a e) = reg s /\
  subs (push_mb s a e) = subs s /\ exts (push_mb s a e) = exts s /\ (err s = true -> err (push_mb s a e) = true).
Proof. unfold push_mb. apply with_actor_fields. Qed.

Lemma dispatch_err s a x e : get s a = Some x -> err (fst (dispatch s a x e)) = err s.
Proof. intros Hg. destruct (dispatch_effect s a x e Hg) as (y & _ & _ & _ & H & _). exact H. Qed.

Lemma err_mono_step s ev : err s = true -> err (step s ev) = true.
Proof.
  apply (step_rel (fun _ s0 s1 => err s0 = true -> err s1 = true)); auto.
  - intros t s0 l. apply set_pend_err_mono.
  - intros _ s0 a e. apply push_mb_fields.
  - intros _ s0 r. apply resolve_err_mono.
  - intros s0 a x e Hg. rewrite (dispatch_err s0 a x e Hg). auto.
  - intros t s0 h i. apply exec1_state.
Qed.

Lemma err_mono_run evs s : err s = true -> err (run_events evs s) = true.
Proof. revert s. induction evs as [|ev r IH]; intros s H; [exact H|]. change (err (run_events r (step s ev)) = true). apply IH, err_mono_step, H. Qed.

Lemma err_false_step s ev : err (step s ev) = false -> err s = false.
Proof. intros H. destruct (err s) eqn:E; [|reflexivity]. rewrite (err_mono_step s ev E) in H. discriminate. Qed.

Lemma err_false_run_head evs s ev : err (run_events (ev :: evs) s) = false -> err (step s ev) = false.
Proof. intros H. change (err (run_events evs (step s ev)) = false) in H. destruct (err (step s ev)) eqn:E; [|reflexivity]. rewrite (err_mono_run evs _ E) in H. discriminate. Qed.

(** The parts of an event other than its mailbox word keep every projection of the records that instruction
    lists, caches, actor-local updates and HandleEnvelop's bookkeeping do not touch *)
Section KeepsWord.
  Context {A : Type} (pi : actor -> A) (d : A).
  Hypothesis Hpend : forall x p, pi (upd_pend x p) = pi x.
  Hypothesis Hcache : forall x c, pi (set_cache x c) = pi x.
  Hypothesis Hlocal : forall i x y, local_upd i x y -> pi y = pi x.
  Hypothesis Hnew : forall p g par sp, pi (new_actor p g par sp) = d.
  Hypothesis Hdisp : forall x y, disp_frame x y -> pi y = pi x.

  Lemma keeps_word s ev : word (keeps pi d) s ev (step s ev).
  Proof.
    apply step_word.
    - apply keeps_refl.
    - apply keeps_trans.
    - intros s0. apply keeps_same_actors. reflexivity.
    - intros s0 t l. apply keeps_set_pend, Hpend.
    - intros s0 r. apply keeps_resolve, Hcache.
    - intros s0 a x e Hg. apply keeps_dispatch; [exact Hg|apply Hdisp].
    - intros s0 t h i. apply keeps_exec1; [apply Hlocal|apply Hnew].
  Qed.
End KeepsWord.

Lemma proj_at_set_actor {A} (pi : actor -> A) d s a x y b :
  get s a = Some x -> proj_at pi d (set_actor s a y) b = if Nat.eqb a b then pi y else proj_at pi d s b.
Proof. intros Hg. unfold proj_at. rewrite (get_set_actor_dec _ _ _ _ b Hg). destruct (Nat.eqb a b); reflexivity. Qed.

Definition q_at (sys : bool) : state -> aid -> list envelope := if sys then sq_at else uq_at.

Lemma queue_step s ev b sys :
  err (step s ev) = false ->
  popped_from s ev b sys ++ q_at sys (step s ev) b = q_at sys s b ++ pushed_to s ev b sys.
Proof.
  intros He. set (pi := if sys then a_sq else a_uq).
  assert (Eq : forall s0, q_at sys s0 b = proj_at pi [] s0 b) by (intros; unfold pi; destruct sys; reflexivity).
  rewrite !Eq.
  destruct (keeps_word pi []) with (s := s) (ev := ev) as [x y Hg Hw K|t c tgt e s0 x -> Hpo K0 Hg K|Hn K|E _];
    try (unfold pi; destruct sys; intros; try reflexivity; match goal with H : _ |- _ => apply H end).
  - (* the own record: a pop takes the head of its queue, every other word leaves the queues alone *)
    rewrite (K b), (proj_at_set_actor _ _ _ _ _ _ _ Hg).
    replace (pushed_to s ev b sys) with (@nil envelope) by (destruct ev; try reflexivity; discriminate Hw).
    rewrite app_nil_r. unfold proj_at.
    destruct ev; cbn [own_word event_actor popped_from] in *; try discriminate Hw;
      (destruct (Nat.eqb_spec a b) as [<-|Hne] || destruct (Nat.eqb_spec (self_of t) b) as [<-|Hne]);
      try (destruct sys; reflexivity); rewrite Hg;
      repeat match type of Hw with context[match ?c with _ => _ end] => destruct c eqn:? end;
      try discriminate Hw; injection Hw as <-; unfold pi; destruct sys; cbn; congruence.
  - rewrite (K b), (proj_at_set_actor _ _ _ _ _ _ _ Hg), <- (K0 b). cbn [popped_from pushed_to]. rewrite Hpo.
    replace (match sys with true | false => @nil envelope end) with (@nil envelope) by (destruct sys; reflexivity). cbn [app].
    destruct (Nat.eqb_spec tgt b) as [<-|Hne]; [|rewrite app_nil_r; reflexivity].
    unfold proj_at. rewrite Hg. unfold pi, enq. destruct sys, (e_sys e); cbn; rewrite ?app_nil_r; reflexivity.
  - replace (popped_from s ev b sys) with (@nil envelope) by (destruct ev, sys; try reflexivity; destruct Hn).
    replace (pushed_to s ev b sys) with (@nil envelope) by (destruct ev; try reflexivity; destruct Hn).
    rewrite app_nil_r. apply K.
  - congruence.
Qed.

Lemma queue_run sys b evs s :
  err (run_events evs s) = false ->
  popped_run b sys evs s ++ q_at sys (run_events evs s) b = q_at sys s b ++ pushed_run b sys evs s.
Proof.
  revert s. induction evs as [|ev r IH]; intros s He.
  - cbn. rewrite app_nil_r. reflexivity.
  - change (run_events (ev :: r) s) with (run_events r (step s ev)) in *.
    cbn [popped_run pushed_run]. rewrite <- app_assoc, (IH _ He), app_assoc.
    rewrite (queue_step s ev b sys (err_false_run_head r s ev He)), <- app_assoc. reflexivity.
Qed.

Definition c3_back : state -> state -> Prop :=
  trel (fun _ x y => a_cons y = C3 -> a_cons x = C3) (fun _ n => a_cons n <> C3).

Lemma c3_word s ev : word c3_back s ev (step s ev).
Proof.
  apply step_word.
  - intros s0. apply trel_refl. auto.
  - apply trel_trans; auto.
  - intros s0. apply trel_same; auto.
  - intros s0 t l. apply trel_set_pend; auto.
  - intros s0 r. apply trel_resolve; auto.
  - intros s0 a x e Hg. apply trel_dispatch; [auto|exact Hg|]. intros y Hy. rewrite (df_cons _ _ Hy). auto.
  - intros s0 t h i. apply trel_exec1; [auto| |discriminate].
    intros x y Hy Hc. destruct (lu_cons _ _ _ Hy) as [H|[[_ H]|[_ H]]]; congruence.
Qed.

Lemma c3_step s ev b x' :
  get (step s ev) b = Some x' -> a_cons x' = C3 ->
  exists x, get s b = Some x /\ (a_cons x = C3 \/ (ev = EvLoadPaused b /\ a_cons x = C2 /\ a_paused x = false)).
Proof.
  intros Hg' Hc'.
  assert (Hback : forall s1 s2 z, c3_back s1 s2 -> get s2 b = Some z -> a_cons z = C3 -> exists x, get s1 b = Some x /\ a_cons x = C3).
  { intros s1 s2 z [F Nw] Hz Hc. destruct (get s1 b) as [x|] eqn:Hx; [|destruct (Nw b z Hx Hz Hc)].
    destruct (F b x Hx) as (y & Hy & H). exists x. split; [reflexivity|]. apply H. congruence. }
  destruct (c3_word s ev) as [x y Hg Hw K|t c tgt e s0 x -> Hpo K0 Hg K|Hn K|E K];
    destruct (Hback _ _ _ K Hg' Hc') as (x1 & Hg1 & Hc1); eauto.
  - (* the own record: only the paused-load moves the consumer to the user-pop position *)
    rewrite (get_set_actor_dec _ _ _ _ b Hg) in Hg1.
    destruct (Nat.eqb_spec (event_actor ev) b) as [<-|Hne]; [|eauto]. injection Hg1 as <-. exists x. split; [exact Hg|].
    destruct ev; cbn [own_word event_actor] in *; try discriminate Hw;
      repeat match type of Hw with context[match ?c with _ => _ end] => destruct c eqn:? end;
      try discriminate Hw; injection Hw as <-; try discriminate Hc1; auto.
  - rewrite (get_set_actor_dec _ _ _ _ b Hg) in Hg1.
    assert (Hz : exists z, get s0 b = Some z /\ a_cons z = C3)
      by (destruct (Nat.eqb_spec tgt b) as [<-|Hne]; [injection Hg1 as <-|]; eauto).
    destruct Hz as (z & Hz & Hcz). destruct (Hback _ _ _ K0 Hz Hcz) as (xb & Hxb & Hcb). eauto.
Qed.

Lemma user_pop_needs_c3 s ev b e : popped_from s ev b false = [e] ->
  ev = EvUserPop b /\ exists x, get s b = Some x /\ a_cons x = C3 /\ exists r, a_uq x = e :: r.
Proof.
  destruct ev; cbn [popped_from]; try discriminate.
  destruct (Nat.eqb_spec a b) as [<-|Hne]; [|discriminate].
  destruct (get s a) as [x|] eqn:Hg; [|discriminate].
  destruct (a_cons x) eqn:Hc; try discriminate. destruct (a_uq x) as [|e0 r] eqn:Hu; [discriminate|].
  intros H. inversion H; subst. split; [reflexivity|]. exists x. repeat split; eauto.
Qed.

Lemma paused_step s ev b :
  err (step s ev) = false ->
  paused_at (step s ev) b = match own_pause_word ev b with Some v => v | None => paused_at s b end.
Proof.
  intros He. change paused_at with (proj_at a_paused false).
  destruct (keeps_word a_paused false) with (s := s) (ev := ev) as [x y Hg Hw K|t c tgt e s0 x -> Hpo K0 Hg K|Hn K|E _];
    try (intros; try reflexivity; match goal with H : _ |- _ => apply H end).
  - rewrite (K b), (proj_at_set_actor _ _ _ _ _ _ _ Hg). unfold proj_at.
    destruct ev; cbn [own_word event_actor own_pause_word] in *; try discriminate Hw;
      (destruct (Nat.eqb_spec a b) as [<-|Hne] || destruct (Nat.eqb_spec (self_of t) b) as [<-|Hne]);
      try reflexivity; rewrite ?Hg;
      repeat match type of Hw with context[match ?c with _ => _ end] => destruct c eqn:? end;
      try discriminate Hw; injection Hw as <-; reflexivity.
  - rewrite (K b), (proj_at_set_actor _ _ _ _ _ _ _ Hg), <- (K0 b). unfold proj_at.
    destruct (Nat.eqb_spec tgt b) as [<-|Hne]; [rewrite Hg|]; reflexivity.
  - rewrite (K b). destruct ev; try contradiction; try reflexivity. cbn [own_pause_word wordless] in *.
    destruct (Nat.eqb_spec (self_of t) b) as [<-|Hne]; [exact Hn|reflexivity].
  - congruence.
Qed.
