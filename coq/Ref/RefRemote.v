(** C15's per-operation theorems (Remoting/TransparencyProofs.v) instantiated with the MODELLED NewRef: the
    hypothesis [valid_aref newref r] ("NewRef accepts the reference's strings unchanged") is discharged for every
    reference NewRef or ParseRef can make. *)
From Coq Require Import List NArith ZArith Bool Lia.
From Coq Require Import ZifyN ZifyNat ZifyBool.
From Vivid Require Import Codec.Prim Codec.MsgPrim Codec.Msgs Codec.MsgsProofs Remoting.Frame Codec.Envelope
  Remoting.Transparency Remoting.TransparencyProofs.
From Vivid Require Import Ref.RefModel Ref.RefProofs Ref.RefCodec.
Import ListNotations.
Local Open Scope N_scope.

Lemma valid_ref_small_aref r : valid_ref r -> small_aref r -> valid_aref ref_newref r.
Proof. intros V [Sa Sp]. apply valid_ref_aref; [exact V|apply small_len32, Sa|apply small_len32, Sp]. Qed.

Lemma readdressed_small_aref own r :
  normalize_address own = Some own -> small own -> valid_ref r -> small_aref r -> valid_aref ref_newref (own, snd r).
Proof.
  intros Ho So V [_ Sp]. apply valid_ref_aref; [exact (valid_ref_readdress own r Ho V)|apply small_len32, So|apply small_len32, Sp].
Qed.

Section Inst.
  Variable U : Type.
  Variable hc : bool.
  Variable cenc : U -> mres bytes.
  Variable cdec : bytes -> mres U.
  Variable qerr : Z -> option bytes.

  Theorem ref_remote_kill (own : bytes) (killer target : bytes * bytes) (reason : bytes) (poison : bool) :
    valid_ref killer -> valid_ref target -> normalize_address own = Some own -> small own ->
    small_aref killer -> small_aref target -> small reason ->
    exists e',
      remote_transport U hc cenc cdec qerr ref_newref own (op_envelope U (OpKill killer target reason poison)) = Some e' /\
      (forall chunks, concat chunks = wire_bytes U hc cenc (op_envelope U (OpKill killer target reason poison)) ->
                      remote_receive U hc cdec qerr ref_newref own chunks = [Some e']) /\
      e_system U e' = negb poison /\
      e_msg U e' = M_OnKill (RRef (fst killer) (snd killer)) reason poison /\
      e_sender U e' = RRef (fst killer) (snd killer) /\
      e_receiver U e' = RRef own (snd target) /\
      find_mailbox own (e_receiver U e') = ToLocal (snd target).
  Proof.
    intros Vk Vt Ho So Sk St Sr.
    exact (remote_kill U hc cenc cdec qerr ref_newref own killer target reason poison
             (valid_ref_small_aref _ Vk Sk) (valid_ref_small_aref _ Vt St) (readdressed_small_aref own target Ho So Vt St) Sk St Sr).
  Qed.

  Theorem ref_remote_watch_onkilled (ownW ownT : bytes) (watcher target : bytes * bytes) :
    valid_ref watcher -> valid_ref target ->
    normalize_address ownW = Some ownW -> normalize_address ownT = Some ownT -> small ownW -> small ownT ->
    small_aref watcher -> small_aref target ->
    exists e1 e2,
      remote_transport U hc cenc cdec qerr ref_newref ownT (op_envelope U (OpWatch watcher target)) = Some e1 /\
      killed_notice U (ownT, snd target) (e_sender U e1) = op_envelope U (OpKilledNotice (ownT, snd target) watcher) /\
      remote_transport U hc cenc cdec qerr ref_newref ownW (killed_notice U (ownT, snd target) (e_sender U e1)) = Some e2 /\
      (forall chunks, concat chunks = wire_bytes U hc cenc (killed_notice U (ownT, snd target) (e_sender U e1)) ->
                      remote_receive U hc cdec qerr ref_newref ownW chunks = [Some e2]) /\
      e_system U e2 = true /\
      e_msg U e2 = M_OnKilled (RRef ownT (snd target)) /\
      find_mailbox ownW (e_receiver U e2) = ToLocal (snd watcher).
  Proof.
    intros Vw Vt HoW HoT SoW SoT Sw St.
    exact (remote_onkilled_names_target U hc cenc cdec qerr ref_newref ownW ownT watcher target
             (valid_ref_small_aref _ Vw Sw) (readdressed_small_aref ownW watcher HoW SoW Vw Sw)
             (valid_ref_small_aref _ Vt St) (readdressed_small_aref ownT target HoT SoT Vt St) Sw St SoT).
  Qed.
End Inst.

(** C12: the ActorRef fields of OnKill / OnKilled round-trip through the codec whose factory is the modelled NewRef,
    for every reference NewRef can make *)
Theorem ref_onkill_roundtrip (k : bytes * bytes) (reason : bytes) (poison : bool) (rest : bytes) :
  valid_ref k -> len32 (fst k) -> len32 (snd k) -> len32 reason ->
  drun (dec_OnKill ref_newref) (enc_OnKill (RRef (fst k) (snd k)) reason poison ++ rest) = MOk ((RRef (fst k) (snd k), reason, poison), rest).
Proof.
  intros V La Lp Lr. exact (OnKill_rt ref_newref (RRef (fst k) (snd k)) reason poison rest (valid_ref_kref k V La Lp) Lr).
Qed.
Theorem ref_onkilled_roundtrip (k : bytes * bytes) (rest : bytes) :
  valid_ref k -> len32 (fst k) -> len32 (snd k) ->
  drun (dec_OnKilled ref_newref) (enc_OnKilled (RRef (fst k) (snd k)) ++ rest) = MOk (RRef (fst k) (snd k), rest).
Proof.
  intros V La Lp. exact (OnKilled_rt ref_newref (RRef (fst k) (snd k)) rest (valid_ref_kref k V La Lp)).
Qed.
