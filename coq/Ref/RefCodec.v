(** The modelled actor.NewRef as the ActorRef factory of the wire codec (Codec/Msgs.v [newref], the factory
    vivid.RegisterActorRefFactory installs) and as the NewRef of HandleRemotingEnvelop (Remoting/Transparency.v):
    the hypotheses "NewRef is idempotent" / "newref a p = MOk (a, p)" of C12 and C15 hold for every reference
    NewRef can make. *)
From Coq Require Import List NArith Bool Lia.
From Vivid Require Import Codec.Prim Codec.MsgPrim Codec.Msgs Remoting.Transparency.
From Vivid Require Import Ref.RefModel Ref.RefProofs.
Import ListNotations.
Local Open Scope N_scope.

(** the factory: any rejection is "bad ref" for the decoder *)
Definition ref_newref (a p : bytes) : mres (bytes * bytes) :=
  match new_ref a p with ROk r => MOk r | RErr _ => MErr MEBadRef end.

Lemma ref_newref_ok a p r : ref_newref a p = MOk r <-> new_ref a p = ROk r.
Proof. unfold ref_newref. destruct (new_ref a p); split; intros H; try discriminate; injection H as <-; reflexivity. Qed.

Lemma ref_newref_idem a p a' p' : ref_newref a p = MOk (a', p') -> ref_newref a' p' = MOk (a', p').
Proof. rewrite !ref_newref_ok. exact (new_ref_idem a p (a', p')). Qed.

Lemma valid_ref_newref r : valid_ref r <-> ref_newref (fst r) (snd r) = MOk r.
Proof. unfold valid_ref. symmetry. apply ref_newref_ok. Qed.

Lemma valid_ref_nonempty r : valid_ref r -> fst r <> [].
Proof. destruct r as [a p]. intros V. destruct (valid_ref_inv _ _ V) as [_ [_ [_ [_ [H _]]]]]. exact H. Qed.

Lemma valid_ref_kref r : valid_ref r -> len32 (fst r) -> len32 (snd r) -> valid_kref ref_newref (RRef (fst r) (snd r)).
Proof.
  intros V La Lp. cbn [valid_kref]. split; [exact La|]. split; [exact Lp|]. split; [left; exact (valid_ref_nonempty _ V)|].
  destruct r as [a p]. apply (proj1 (valid_ref_newref (a, p))). exact V.
Qed.

Lemma valid_ref_aref r : valid_ref r -> len32 (fst r) -> len32 (snd r) -> valid_aref ref_newref r.
Proof. intros V La Lp. unfold valid_aref, to_eref. exact (valid_ref_kref r V La Lp). Qed.

(** the receiver re-addressed to the system's own advertised address *)
Lemma valid_ref_readdress own r : normalize_address own = Some own -> valid_ref r -> valid_ref (own, snd r).
Proof.
  destruct r as [a p]. intros Ho V. unfold valid_ref in *. cbn [fst snd] in *.
  destruct (new_ref_ok _ _ _ V) as [_ Hp]. cbn [snd] in Hp. unfold new_ref. rewrite Ho, Hp. reflexivity.
Qed.
