(** What a valid address / host / port / path consists of (RefModel.v): the splitting functions reassemble, a
    valid address contains no '/', a valid path consists of printable ASCII. *)
From Coq Require Import List NArith Bool Lia Arith.
From Coq Require Import ZifyN ZifyNat ZifyBool.
From Vivid Require Import Ref.RefModel Ref.RefTrimProofs.
Import ListNotations.
Local Open Scope N_scope.

Lemma forallb_imp {A} (f g : A -> bool) l : (forall x, f x = true -> g x = true) -> forallb f l = true -> forallb g l = true.
Proof. intros H. rewrite !forallb_forall. auto. Qed.

Lemma has_byte_false_forallb c l : has_byte c l = false <-> forallb (fun x => negb (c =? x)) l = true.
Proof.
  unfold has_byte. induction l as [|x l IH]; [cbn; tauto|]. cbn [existsb forallb].
  rewrite orb_false_iff, andb_true_iff, IH, negb_true_iff. tauto.
Qed.

(** a match on a byte constant unfolds to a match on the binary digits of a [positive]; these lemmas turn it into a
    test with [=?] *)
Lemma match_43 {A} c (x y : A) : match c with 43 => x | _ => y end = if c =? 43 then x else y.
Proof.
  destruct (N.eqb_spec c 43) as [->|H]; [reflexivity|].
  destruct c as [|c]; [reflexivity|]. do 6 (destruct c as [c|c|]; try reflexivity). congruence.
Qed.
Lemma match_47 {A} c (x y : A) : match c with 47 => x | _ => y end = if c =? 47 then x else y.
Proof.
  destruct (N.eqb_spec c 47) as [->|H]; [reflexivity|].
  destruct c as [|c]; [reflexivity|]. do 6 (destruct c as [c|c|]; try reflexivity). congruence.
Qed.
Lemma match_58 {A} c (x y : A) : match c with 58 => x | _ => y end = if c =? 58 then x else y.
Proof.
  destruct (N.eqb_spec c 58) as [->|H]; [reflexivity|].
  destruct c as [|c]; [reflexivity|]. do 6 (destruct c as [c|c|]; try reflexivity). congruence.
Qed.
Lemma match_91 {A} c (x y : A) : match c with 91 => x | _ => y end = if c =? 91 then x else y.
Proof.
  destruct (N.eqb_spec c 91) as [->|H]; [reflexivity|].
  destruct c as [|c]; [reflexivity|]. do 7 (destruct c as [c|c|]; try reflexivity). congruence.
Qed.
Lemma match_46_58 {A} c (x y z : A) :
  match c with 46 => x | 58 => y | _ => z end = if c =? 46 then x else if c =? 58 then y else z.
Proof.
  destruct (N.eqb_spec c 46) as [->|H]; [reflexivity|]. destruct (N.eqb_spec c 58) as [->|H']; [reflexivity|].
  destruct c as [|c]; [reflexivity|]. do 6 (destruct c as [c|c|]; try reflexivity); congruence.
Qed.

Lemma split_last_colon_spec s a b : split_last_colon s = Some (a, b) -> s = a ++ 58 :: b /\ has_byte 58 b = false.
Proof.
  revert a b. induction s as [|c r IH]; intros a b; cbn [split_last_colon]; [discriminate|].
  destruct (split_last_colon r) as [[a' b']|] eqn:E.
  - intros H. injection H as <- <-. destruct (IH _ _ eq_refl) as [-> Hb]. split; [reflexivity|exact Hb].
  - destruct (c =? 58) eqn:Ec; [|discriminate]. intros H. injection H as <- <-. apply N.eqb_eq in Ec. subst c.
    split; [reflexivity|].
    (* no colon in r, otherwise split_last_colon r would have found it *)
    clear IH. induction r as [|d r IHr]; [reflexivity|]. cbn [split_last_colon] in E.
    destruct (split_last_colon r) as [[? ?]|]; [discriminate|]. destruct (d =? 58) eqn:Ed; [discriminate|].
    apply has_byte_cons_false. split; [exact Ed|exact (IHr eq_refl)].
Qed.

Lemma split_first_spec x s a b : split_first x s = Some (a, b) -> s = a ++ x :: b /\ has_byte x a = false.
Proof.
  revert a b. induction s as [|c r IH]; intros a b; cbn [split_first]; [discriminate|].
  destruct (c =? x) eqn:Ec.
  - intros H. injection H as <- <-. apply N.eqb_eq in Ec. subst c. split; reflexivity.
  - destruct (split_first x r) as [[a' b']|]; [|discriminate]. intros H. injection H as <- <-.
    destruct (IH _ _ eq_refl) as [-> Ha]. split; [reflexivity|]. apply has_byte_cons_false. split; [exact Ec|exact Ha].
Qed.

(** net.SplitHostPort succeeded: the address is host:port or [host]:port *)
Lemma split_host_port_spec s h p :
  split_host_port s = Some (h, p) -> s = h ++ 58 :: p \/ s = 91 :: h ++ 93 :: 58 :: p.
Proof.
  unfold split_host_port. destruct (split_last_colon s) as [[pre port]|] eqn:E; [|discriminate].
  destruct s as [|c rest]; [discriminate E|]. apply split_last_colon_spec in E as [Es _].
  rewrite match_91. destruct (N.eqb_spec c 91) as [->|_].
  - destruct (split_first 93 rest) as [[host after]|] eqn:E2; [|discriminate].
    apply split_first_spec in E2 as [Er _].
    destruct after as [|d p']; [discriminate|]. rewrite match_58. destruct (N.eqb_spec d 58) as [->|_]; [|discriminate].
    destruct (has_byte 58 p'); [discriminate|]. destruct (has_byte 91 rest); [discriminate|].
    destruct (has_byte 93 (58 :: p')); [discriminate|]. intros H. injection H as <- <-. right. rewrite Er. reflexivity.
  - destruct (has_byte 58 pre); [discriminate|]. destruct (has_byte 91 (c :: rest)); [discriminate|].
    destruct (has_byte 93 (c :: rest)); [discriminate|]. intros H. injection H as <- <-. left. exact Es.
Qed.

Definition ipc (c : N) : bool := is_hexdig c || (c =? 58) || (c =? 46).

Lemma ip4_fields_chars s : forall v d pos st, ip4_fields s v d pos st = true -> forallb (fun c => is_digit c || (c =? 46)) s = true.
Proof.
  induction s as [|c r IH]; intros v d pos st; [reflexivity|]. cbn [ip4_fields forallb].
  destruct (is_digit c) eqn:Ed.
  - destruct ((d =? 1) && (v =? 0)); [discriminate|]. destruct (255 <? v * 10 + (c - 48)); [discriminate|].
    intros H. rewrite (IH _ _ _ _ H). reflexivity.
  - destruct (c =? 46) eqn:E46; [|discriminate]. destruct st; [discriminate|]. destruct r as [|c' r']; [discriminate|].
    destruct (pos =? 3); [discriminate|]. intros H. rewrite (IH _ _ _ _ H). reflexivity.
Qed.

Lemma digit_hex c : is_digit c = true -> is_hexdig c = true.
Proof. unfold is_hexdig. intros ->. reflexivity. Qed.

Lemma ip4_ipc s v d pos st : ip4_fields s v d pos st = true -> forallb ipc s = true.
Proof.
  intros H. apply ip4_fields_chars in H. revert H. apply forallb_imp. intros c Hc. unfold ipc.
  apply orb_true_iff in Hc as [Hc|Hc]; [rewrite (digit_hex _ Hc); reflexivity|rewrite Hc; apply orb_true_r].
Qed.

Lemma span_hex_spec s : forall h r, span_hex s = (h, r) -> s = h ++ r /\ forallb is_hexdig h = true.
Proof.
  induction s as [|c s IH]; intros h r; cbn [span_hex].
  - intros H. injection H as <- <-. split; reflexivity.
  - destruct (is_hexdig c) eqn:Ec.
    + destruct (span_hex s) as [h' t] eqn:E. intros H. injection H as <- <-. destruct (IH _ _ eq_refl) as [-> Hh].
      split; [reflexivity|]. cbn. rewrite Ec. exact Hh.
    + intros H. injection H as <- <-. split; reflexivity.
Qed.

Lemma ip6_loop_chars : forall fuel i ell s i' ell' rest,
  ip6_loop fuel i ell s = Some (i', ell', rest) -> exists used, s = used ++ rest /\ forallb ipc used = true.
Proof.
  induction fuel as [|fuel IH]; intros i ell s i' ell' rest; cbn [ip6_loop].
  - intros H. injection H as <- <- <-. exists []. split; reflexivity.
  - destruct (span_hex s) as [h t] eqn:Es. apply span_hex_spec in Es as [-> Hh].
    assert (Hhc : forallb ipc h = true).
    { revert Hh. apply forallb_imp. intros c Hc. unfold ipc. rewrite Hc. reflexivity. }
    destruct (4 <? N.of_nat (length h)); [discriminate|]. destruct (N.of_nat (length h) =? 0); [discriminate|].
    destruct t as [|c t1].
    { intros H. injection H as <- <- <-. exists h. split; [reflexivity|exact Hhc]. }
    rewrite match_46_58. destruct (N.eqb_spec c 46) as [->|_].
    { destruct (negb ell && negb (i =? 12)); [discriminate|]. destruct (16 <? i + 4); [discriminate|].
      destruct (ip4_fields (h ++ 46 :: t1) 0 0 0 true) eqn:E4; [|discriminate].
      intros H. injection H as <- <- <-. exists (h ++ 46 :: t1). split; [rewrite app_nil_r; reflexivity|].
      exact (ip4_ipc _ _ _ _ _ E4). }
    destruct (N.eqb_spec c 58) as [->|_]; [|discriminate].
    destruct t1 as [|c2 t2]; [discriminate|]. rewrite match_58. destruct (N.eqb_spec c2 58) as [->|_].
    + destruct ell; [discriminate|]. destruct t2 as [|c3 t3].
      * intros H. injection H as <- <- <-. exists (h ++ [58; 58]). split; [rewrite <- app_assoc; reflexivity|].
        rewrite forallb_app, Hhc. reflexivity.
      * intros H. destruct (IH _ _ _ _ _ _ H) as [used [E F]]. exists (h ++ 58 :: 58 :: used). split.
        -- rewrite <- app_assoc. cbn. rewrite E. reflexivity.
        -- rewrite forallb_app, Hhc. cbn. exact F.
    + intros H. destruct (IH _ _ _ _ _ _ H) as [used [E F]]. exists (h ++ 58 :: used). split.
      * rewrite <- app_assoc. cbn. rewrite E. reflexivity.
      * rewrite forallb_app, Hhc. cbn. exact F.
Qed.

Lemma ip6_finish_rest r : ip6_finish r = true -> exists i ell, r = Some (i, ell, []).
Proof.
  destruct r as [[[i ell] rest]|]; [|discriminate]. destruct rest; [|discriminate]. intros _. exists i, ell. reflexivity.
Qed.

Lemma parse_ip6_chars s : parse_ip6 s = true -> forallb ipc s = true.
Proof.
  unfold parse_ip6. destruct (has_byte 37 s); [discriminate|].
  assert (G : forall ell0 t, ip6_finish (ip6_loop 8 0 ell0 t) = true -> forallb ipc t = true).
  { intros ell0 t H. apply ip6_finish_rest in H as [i [ell H]]. apply ip6_loop_chars in H as [used [-> F]].
    rewrite app_nil_r. exact F. }
  destruct s as [|c1 s1]; [intros H; exact (G _ _ H)|].
  rewrite match_58. destruct (N.eqb_spec c1 58) as [->|_]; [|intros H; exact (G _ _ H)].
  destruct s1 as [|c2 s2]; [intros H; exact (G _ _ H)|].
  rewrite match_58. destruct (N.eqb_spec c2 58) as [->|_]; [|intros H; exact (G _ _ H)].
  destruct s2 as [|c3 s3]; [reflexivity|]. intros H. change (forallb ipc (58 :: 58 :: c3 :: s3)) with (forallb ipc (c3 :: s3)). exact (G _ _ H).
Qed.

Lemma parse_ip_chars s : parse_ip s = true -> forallb ipc s = true.
Proof.
  unfold parse_ip. destruct (ip_kind s =? 4).
  - unfold parse_ip4. apply ip4_ipc.
  - destruct (ip_kind s =? 6); [apply parse_ip6_chars|discriminate].
Qed.

(** bytes of a domain name: ASCII letters, digits, '-', '.', and the bytes of U+017F / U+212A *)
Definition domc (c : N) : bool :=
  is_alnum c || (c =? 45) || (c =? 46) || (c =? 197) || (c =? 191) || (c =? 226) || (c =? 132) || (c =? 170).

Lemma dom_tokens_chars s : forall ts, dom_tokens s = Some ts -> forallb domc s = true.
Proof.
  induction s as [s IH] using list_len_ind. intros ts.
  (* the bytes [h] of one rune are read and the scan goes on with the rest *)
  assert (Hrec : forall h t k, s = h ++ t -> h <> [] -> forallb domc h = true ->
            option_map (cons k) (dom_tokens t) = Some ts -> forallb domc s = true).
  { intros h t k -> Hne Fh H. destruct (dom_tokens t) as [ts'|] eqn:E; [|discriminate]. rewrite forallb_app, Fh.
    apply (IH t) with ts'; [|exact E]. rewrite app_length. destruct h; [congruence|cbn; lia]. }
  destruct s as [|a r]; [reflexivity|]. cbn [dom_tokens].
  destruct (is_alnum a) eqn:Ea.
  { apply (Hrec [a] r DA eq_refl); [discriminate|]. cbn. unfold domc. rewrite Ea. reflexivity. }
  destruct (a =? 45) eqn:E45.
  { apply (Hrec [a] r DH eq_refl); [discriminate|]. cbn. unfold domc. rewrite E45, !orb_true_r. reflexivity. }
  destruct (a =? 46) eqn:E46.
  { apply (Hrec [a] r DD eq_refl); [discriminate|]. cbn. unfold domc. rewrite E46, !orb_true_r. reflexivity. }
  destruct r as [|b r2]; [discriminate|].
  destruct ((a =? 197) && (b =? 191)) eqn:E2.
  { apply andb_true_iff in E2 as [Ea2 Eb2]. apply N.eqb_eq in Ea2 as ->, Eb2 as ->.
    apply (Hrec [197; 191] r2 DA eq_refl); [discriminate|reflexivity]. }
  destruct r2 as [|c r3]; [discriminate|].
  destruct ((a =? 226) && (b =? 132) && (c =? 170)) eqn:E3; [|discriminate].
  apply andb_true_iff in E3 as [E3 Ec3]. apply andb_true_iff in E3 as [Ea3 Eb3].
  apply N.eqb_eq in Ea3 as ->, Eb3 as ->, Ec3 as ->. apply (Hrec [226; 132; 170] r3 DA eq_refl); [discriminate|reflexivity].
Qed.

Lemma is_domain_chars s : is_domain s = true -> forallb domc s = true.
Proof.
  unfold is_domain. intros H. apply andb_true_iff in H as [_ H].
  destruct (dom_tokens s) as [ts|] eqn:E; [|discriminate]. exact (dom_tokens_chars _ _ E).
Qed.

Lemma is_domain_nonempty s : is_domain s = true -> s <> [].
Proof. intros H ->. discriminate. Qed.

Lemma is_valid_port_chars p : is_valid_port p = true -> forallb (fun c => is_digit c || (c =? 43)) p = true.
Proof.
  unfold is_valid_port.
  assert (G : forall ds, match ds with [] => false | _ => forallb is_digit ds && (1 <=? dec_val ds 0) && (dec_val ds 0 <=? 65535) end = true ->
                         forallb (fun c => is_digit c || (c =? 43)) ds = true).
  { intros ds H. destruct ds; [discriminate|]. apply andb_true_iff in H as [H _]. apply andb_true_iff in H as [H _].
    revert H. apply forallb_imp. intros c ->. reflexivity. }
  destruct p as [|c r]; [discriminate|]. rewrite match_43. destruct (N.eqb_spec c 43) as [->|_]; [|exact (G (c :: r))].
  intros H. cbn [forallb]. rewrite (G _ H). reflexivity.
Qed.

Lemma ip_no_slash s : parse_ip s = true -> has_byte 47 s = false.
Proof. intros H. apply (has_byte_forallb 47 ipc); [reflexivity|apply parse_ip_chars, H]. Qed.
Lemma domain_no_slash s : is_domain s = true -> has_byte 47 s = false.
Proof. intros H. apply (has_byte_forallb 47 domc); [reflexivity|apply is_domain_chars, H]. Qed.
Lemma domain_no_colon s : is_domain s = true -> has_byte 58 s = false.
Proof. intros H. apply (has_byte_forallb 58 domc); [reflexivity|apply is_domain_chars, H]. Qed.
Lemma host_no_slash h : is_valid_host h = true -> has_byte 47 h = false.
Proof.
  unfold is_valid_host. destruct h; [discriminate|]. intros H. apply orb_true_iff in H as [H|H];
    [apply ip_no_slash, H|apply domain_no_slash, H].
Qed.
Lemma port_no_slash p : is_valid_port p = true -> has_byte 47 p = false.
Proof. intros H. apply (has_byte_forallb 47 (fun c => is_digit c || (c =? 43))); [reflexivity|apply is_valid_port_chars, H]. Qed.

(** NormalizeAddress = a check of the trimmed string, which is returned unchanged *)
Definition addr_core (a : bytes) : option bytes :=
  match a with
  | [] => None
  | _ =>
      if has_byte 58 a then
        match split_host_port a with
        | None => None
        | Some (h, p) => if is_valid_host h && is_valid_port p then Some a else None
        end
      else if parse_ip a then None
      else if is_domain a then Some a else None
  end.

Lemma normalize_address_core s : normalize_address s = addr_core (trim_space s).
Proof. reflexivity. Qed.

Lemma addr_core_inv a a' : addr_core a = Some a' ->
  a' = a /\ a <> [] /\
  if has_byte 58 a then exists h p, split_host_port a = Some (h, p) /\ is_valid_host h = true /\ is_valid_port p = true
  else is_domain a = true /\ parse_ip a = false.
Proof.
  unfold addr_core. destruct a as [|c r]; [discriminate|]. set (a := c :: r).
  assert (Hne : a <> []) by discriminate. destruct (has_byte 58 a).
  - destruct (split_host_port a) as [[h p]|]; [|discriminate]. destruct (is_valid_host h && is_valid_port p) eqn:V; [|discriminate].
    apply andb_true_iff in V. intros [= <-]. split; [reflexivity|]. split; [exact Hne|]. exists h, p. split; [reflexivity|exact V].
  - destruct (parse_ip a); [discriminate|]. destruct (is_domain a); [|discriminate]. intros [= <-]. repeat split. exact Hne.
Qed.
Lemma addr_core_id a a' : addr_core a = Some a' -> a' = a /\ a <> [].
Proof. intros H. destruct (addr_core_inv _ _ H) as (E & Hne & _). auto. Qed.

Lemma addr_core_no_slash a : addr_core a = Some a -> has_byte 47 a = false.
Proof.
  intros H. destruct (addr_core_inv _ _ H) as (_ & _ & Hc). destruct (has_byte 58 a).
  - destruct Hc as (h & p & E & Vh & Vp). apply host_no_slash in Vh. apply port_no_slash in Vp.
    apply split_host_port_spec in E as [E|E]; rewrite E.
    + change (h ++ 58 :: p) with (h ++ [58] ++ p). rewrite !has_byte_app, Vh, Vp. reflexivity.
    + change (91 :: h ++ 93 :: 58 :: p) with ([91] ++ h ++ [93; 58] ++ p). rewrite !has_byte_app, Vh, Vp. reflexivity.
  - exact (domain_no_slash _ (proj1 Hc)).
Qed.

Lemma path_char_printable c : path_char c = true -> (33 <=? c) && (c <=? 126) = true.
Proof. unfold path_char, is_alnum, is_digit, is_lower, is_upper, has_byte, path_punct. cbn [existsb]. lia. Qed.
Lemma hexdig_printable c : is_hexdig c = true -> (33 <=? c) && (c <=? 126) = true.
Proof. unfold is_hexdig, is_digit. lia. Qed.


Lemma path_body_printable s : path_body s = true -> forallb printable s = true.
Proof.
  induction s as [s IH] using list_len_ind. destruct s as [|c r]; [reflexivity|]. cbn [path_body forallb].
  destruct (path_char c) eqn:Ec.
  - intros H. unfold printable at 1. rewrite (path_char_printable _ Ec). apply IH; [cbn; lia|exact H].
  - destruct (c =? 37) eqn:E37; [|discriminate]. apply N.eqb_eq in E37 as ->.
    destruct r as [|h1 [|h2 r2]]; try discriminate. intros H.
    apply andb_true_iff in H as [H H3]. apply andb_true_iff in H as [H1 H2].
    cbn [forallb]. unfold printable at 2 3. rewrite (hexdig_printable _ H1), (hexdig_printable _ H2).
    cbn. apply IH; [cbn; lia|exact H3].
Qed.

Lemma is_valid_path_cons c r : is_valid_path (c :: r) = (c =? 47) && path_body r.
Proof. cbn [is_valid_path]. rewrite match_47. destruct (c =? 47); reflexivity. Qed.

Lemma valid_path_shape p : is_valid_path p = true -> exists r, p = 47 :: r /\ forallb printable p = true.
Proof.
  destruct p as [|c r]; [discriminate|]. rewrite is_valid_path_cons. intros H.
  apply andb_true_iff in H as [Hc H]. apply N.eqb_eq in Hc as ->.
  exists r. split; [reflexivity|]. cbn [forallb]. rewrite (path_body_printable _ H). reflexivity.
Qed.

Lemma printable_not_space c : printable c = true -> space_byte c = false.
Proof. unfold printable, space_byte, ascii_space. lia. Qed.

Lemma forallb_last (P : N -> bool) l d : l <> [] -> forallb P l = true -> P (last l d) = true.
Proof.
  intros Hne H. destruct (exists_last Hne) as [l' [z ->]]. rewrite last_last.
  rewrite forallb_app in H. apply andb_true_iff in H as [_ H]. cbn in H. rewrite andb_true_r in H. exact H.
Qed.
