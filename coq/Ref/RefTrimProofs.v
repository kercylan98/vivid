(** strings.TrimSpace as modelled in RefModel.v: what is cut off consists of space bytes only, the result neither
    starts nor ends with a space rune, trimming is idempotent. *)
From Coq Require Import List NArith Bool Lia Wf_nat.
From Coq Require Import ZifyN ZifyNat ZifyBool.
From Vivid Require Import Ref.RefModel.
Import ListNotations.
Local Open Scope N_scope.

(** induction on the length of a list, for the functions that look several bytes ahead *)
Lemma list_len_ind {A} (P : list A -> Prop) :
  (forall l, (forall l', (length l' < length l)%nat -> P l') -> P l) -> forall l, P l.
Proof. exact (well_founded_ind (well_founded_ltof _ (@length A)) P). Qed.

Section Gen.
  Variables (p1 : N -> bool) (p2 : N -> N -> bool) (p3 : N -> N -> N -> bool).
  Variable B : N -> bool.   (* the bytes a space rune may consist of *)
  Hypothesis B1 : forall a, p1 a = true -> B a = true.
  Hypothesis B2 : forall a b, p2 a b = true -> B a = true /\ B b = true.
  Hypothesis B3 : forall a b c, p3 a b c = true -> B a = true /\ B b = true /\ B c = true.

  Definition starts_gen (s : bytes) : bool :=
    match s with
    | [] => false
    | a :: r => p1 a || match r with
                        | [] => false
                        | b :: r2 => p2 a b || match r2 with [] => false | c :: _ => p3 a b c end
                        end
    end.

  Lemma trim_gen_fix s : starts_gen s = false -> trim_gen p1 p2 p3 s = s.
  Proof.
    destruct s as [|a [|b [|c r]]]; cbn [starts_gen trim_gen]; intros H; try reflexivity.
    - apply orb_false_iff in H as [H _]. rewrite H. reflexivity.
    - apply orb_false_iff in H as [H H']. apply orb_false_iff in H' as [H' _]. rewrite H, H'. reflexivity.
    - apply orb_false_iff in H as [H H']. apply orb_false_iff in H' as [H' H'']. rewrite H, H', H''. reflexivity.
  Qed.

  Lemma trim_gen_spec s :
    starts_gen (trim_gen p1 p2 p3 s) = false /\ exists pre, s = pre ++ trim_gen p1 p2 p3 s /\ forallb B pre = true.
  Proof.
    induction s as [s IH] using list_len_ind.
    destruct (starts_gen s) eqn:S.
    2:{ rewrite (trim_gen_fix s S). split; [exact S|]. exists []. split; reflexivity. }
    (* a space rune [h] is cut off and the loop goes on with the rest *)
    assert (Hrec : forall h t, s = h ++ t -> h <> [] -> forallb B h = true ->
              starts_gen (trim_gen p1 p2 p3 t) = false /\ exists pre, s = pre ++ trim_gen p1 p2 p3 t /\ forallb B pre = true).
    { intros h t -> Hne Fh. destruct (IH t) as [S' [pre [E F]]]; [rewrite app_length; destruct h; [congruence|cbn; lia]|].
      split; [exact S'|]. exists (h ++ pre). rewrite <- app_assoc, <- E, forallb_app, Fh, F. split; reflexivity. }
    destruct s as [|a r]; [discriminate|]. cbn [starts_gen trim_gen] in *. destruct (p1 a) eqn:E1.
    { apply (Hrec [a] r eq_refl); [discriminate|]. cbn. rewrite (B1 _ E1). reflexivity. }
    destruct r as [|b r2]; [discriminate|]. destruct (p2 a b) eqn:E2.
    { apply (Hrec [a; b] r2 eq_refl); [discriminate|]. destruct (B2 _ _ E2) as [Ha Hb]. cbn. rewrite Ha, Hb. reflexivity. }
    destruct r2 as [|c r3]; [discriminate|]. cbn [orb] in S. rewrite S.
    apply (Hrec [a; b; c] r3 eq_refl); [discriminate|]. destruct (B3 _ _ _ S) as [Ha [Hb Hc]]. cbn. rewrite Ha, Hb, Hc. reflexivity.
  Qed.

  Lemma trim_gen_nostart s : starts_gen (trim_gen p1 p2 p3 s) = false.
  Proof. exact (proj1 (trim_gen_spec s)). Qed.
  Lemma trim_gen_decomp s : exists pre, s = pre ++ trim_gen p1 p2 p3 s /\ forallb B pre = true.
  Proof. exact (proj2 (trim_gen_spec s)). Qed.
  Lemma trim_gen_idem s : trim_gen p1 p2 p3 (trim_gen p1 p2 p3 s) = trim_gen p1 p2 p3 s.
  Proof. apply trim_gen_fix, trim_gen_nostart. Qed.

  Lemma starts_gen_app s x : starts_gen s = true -> starts_gen (s ++ x) = true.
  Proof.
    destruct s as [|a [|b [|c r]]]; cbn [starts_gen app]; intros H; try discriminate.
    - rewrite orb_false_r in H. rewrite H. reflexivity.
    - rewrite orb_false_r in H. apply orb_true_iff in H as [H|H]; rewrite H; [reflexivity|].
      rewrite orb_true_r; reflexivity.
    - exact H.
  Qed.
End Gen.


Lemma sb1 a : ascii_space a = true -> space_byte a = true.
Proof. unfold space_byte. intros ->. reflexivity. Qed.
Lemma sb2 a b : sp2 a b = true -> space_byte a = true /\ space_byte b = true.
Proof. unfold sp2, space_byte, ascii_space. lia. Qed.
Lemma sb3 a b c : sp3 a b c = true -> space_byte a = true /\ space_byte b = true /\ space_byte c = true.
Proof. unfold sp3, space_byte, ascii_space. lia. Qed.
Lemma sb2r c b : sp2 b c = true -> space_byte c = true /\ space_byte b = true.
Proof. intros H. destruct (sb2 _ _ H). tauto. Qed.
Lemma sb3r c b a : sp3 a b c = true -> space_byte c = true /\ space_byte b = true /\ space_byte a = true.
Proof. intros H. destruct (sb3 _ _ _ H) as [? [? ?]]. tauto. Qed.

Notation starts_space := (starts_gen ascii_space sp2 sp3).
Notation ends_space_rev := (starts_gen ascii_space (fun c b => sp2 b c) (fun c b a => sp3 a b c)).

Lemma trim_left_decomp s : exists pre, s = pre ++ trim_left s /\ forallb space_byte pre = true.
Proof. exact (trim_gen_decomp _ _ _ space_byte sb1 sb2 sb3 s). Qed.
Lemma trim_left_rev_decomp s : exists pre, s = pre ++ trim_left_rev s /\ forallb space_byte pre = true.
Proof. exact (trim_gen_decomp _ _ _ space_byte sb1 sb2r sb3r s). Qed.

Lemma forallb_rev {A} (f : A -> bool) l : forallb f (rev l) = forallb f l.
Proof.
  induction l as [|x l IH]; [reflexivity|]. cbn. rewrite forallb_app, IH. cbn. rewrite andb_true_r. apply andb_comm.
Qed.

Lemma trim_right_decomp s : exists post, s = trim_right s ++ post /\ forallb space_byte post = true.
Proof.
  unfold trim_right. destruct (trim_left_rev_decomp (rev s)) as [pre [E F]].
  exists (rev pre). split; [|rewrite forallb_rev; exact F].
  rewrite <- rev_app_distr, <- E, rev_involutive. reflexivity.
Qed.

Lemma trim_space_decomp s :
  exists pre post, s = pre ++ trim_space s ++ post /\ forallb space_byte pre = true /\ forallb space_byte post = true.
Proof.
  unfold trim_space. destruct (trim_left_decomp s) as [pre [E F]].
  destruct (trim_right_decomp (trim_left s)) as [post [E' F']].
  exists pre, post. split; [|tauto]. rewrite <- E'. exact E.
Qed.

Lemma trim_left_fix s : starts_space s = false -> trim_left s = s.
Proof. apply trim_gen_fix. Qed.
Lemma trim_left_nostart s : starts_space (trim_left s) = false.
Proof. exact (trim_gen_nostart _ _ _ space_byte sb1 sb2 sb3 s). Qed.

(** what TrimRight leaves of a string that does not start with a space rune does not start with one either *)
Lemma trim_space_nostart s : starts_space (trim_space s) = false.
Proof.
  unfold trim_space. destruct (starts_space (trim_right (trim_left s))) eqn:E; [|reflexivity].
  destruct (trim_right_decomp (trim_left s)) as [post [Eu _]].
  rewrite <- (trim_left_nostart s), Eu. symmetry. apply starts_gen_app, E.
Qed.

Theorem trim_space_idem s : trim_space (trim_space s) = trim_space s.
Proof.
  unfold trim_space at 1. rewrite (trim_left_fix _ (trim_space_nostart s)).
  unfold trim_space, trim_right. rewrite rev_involutive. unfold trim_left_rev.
  rewrite (trim_gen_idem _ _ _ space_byte sb1 sb2r sb3r). reflexivity.
Qed.

Lemma has_byte_app c a b : has_byte c (a ++ b) = has_byte c a || has_byte c b.
Proof. apply existsb_app. Qed.

Lemma has_byte_cons_false c x l : has_byte c (x :: l) = false <-> (x =? c) = false /\ has_byte c l = false.
Proof. unfold has_byte. cbn [existsb]. rewrite orb_false_iff, N.eqb_sym. reflexivity. Qed.

Lemma has_byte_forallb c (P : N -> bool) l : P c = false -> forallb P l = true -> has_byte c l = false.
Proof.
  intros Hc. unfold has_byte. induction l as [|x l IH]; [reflexivity|]. cbn [existsb forallb]. intros H.
  apply andb_true_iff in H as [Hx Hl]. rewrite (IH Hl), orb_false_r. apply N.eqb_neq. intros ->. congruence.
Qed.

Lemma trim_space_has_byte c s : space_byte c = false -> has_byte c (trim_space s) = has_byte c s.
Proof.
  intros Hc. destruct (trim_space_decomp s) as [pre [post [E [F G]]]].
  rewrite E at 2. rewrite !has_byte_app, (has_byte_forallb c _ pre Hc F), (has_byte_forallb c _ post Hc G).
  rewrite orb_false_r. reflexivity.
Qed.

Lemma trim_space_first c r : space_byte c = false -> exists post, c :: r = trim_space (c :: r) ++ post /\ forallb space_byte post = true.
Proof.
  intros Hc. destruct (trim_space_decomp (c :: r)) as [pre [post [E [F G]]]].
  destruct pre as [|x pre].
  - exists post. split; [exact E|exact G].
  - cbn in E. injection E as Ex _. subst x. cbn in F. rewrite Hc in F. discriminate.
Qed.

Lemma trim_space_keeps_prefix c p x :
  space_byte c = false -> space_byte (last (c :: p) 0) = false ->
  exists y, trim_space ((c :: p) ++ x) = (c :: p) ++ y.
Proof.
  intros Hc Hl. destruct (trim_space_first c (p ++ x) Hc) as [post [E G]].
  change (c :: p ++ x) with ((c :: p) ++ x) in E.
  set (t := trim_space ((c :: p) ++ x)) in *.
  apply app_eq_app in E as [l [[E1 E2]|[E1 E2]]].
  - (* c :: p = t ++ l, post = l ++ x: l must be empty, its last byte would be a trimmed space byte *)
    destruct l as [|z l' _] using rev_ind.
    + exists []. rewrite app_nil_r in *. symmetry. exact E1.
    + exfalso. rewrite E1, app_assoc, last_last in Hl.
      rewrite E2, forallb_app, forallb_app in G. cbn in G. rewrite Hl in G.
      rewrite andb_false_r, andb_false_l in G. discriminate.
  - exists l. exact E1.
Qed.
