(** Theorems about references as strings (RefModel.v): NewRef is idempotent, String is injective on valid
    references (with an explicit left inverse), ParseRef (String r) is r or - for exactly the [ambiguous] references -
    an address error, ParseRef is a retraction (every parsed reference reparses from its own string), Child stays
    under its parent, JoinPath laws, Equals is equality. *)
From Coq Require Import List NArith Bool Lia Arith.
From Coq Require Import ZifyN ZifyNat ZifyBool.
From Vivid Require Import Ref.RefModel Ref.RefTrimProofs Ref.RefAddrProofs.
Import ListNotations.
Local Open Scope N_scope.

Lemma strip_slashes_cons c r : strip_slashes (c :: r) = if c =? 47 then strip_slashes r else c :: r.
Proof. cbn [strip_slashes]. apply match_47. Qed.

Lemma bytes_eqb_eq a b : bytes_eqb a b = true <-> a = b.
Proof.
  revert b. induction a as [|x a IH]; intros [|y b]; cbn [bytes_eqb]; try (split; [discriminate|discriminate]); [tauto|].
  rewrite andb_true_iff, N.eqb_eq, IH. split; [intros [-> ->]; reflexivity|intros H; injection H; auto].
Qed.
Lemma bytes_eqb_refl a : bytes_eqb a a = true.
Proof. apply bytes_eqb_eq. reflexivity. Qed.

Lemma is_nil_false (a : bytes) : a <> [] -> is_nil a = false.
Proof. destruct a; [congruence|reflexivity]. Qed.

Lemma normalize_address_some s a : normalize_address s = Some a -> a = trim_space s /\ addr_core a = Some a.
Proof.
  rewrite normalize_address_core. intros H. destruct (addr_core_id _ _ H) as [-> _]. split; [reflexivity|exact H].
Qed.
Lemma normalize_path_some s p : normalize_path s = Some p -> p = trim_space s /\ is_valid_path p = true.
Proof.
  unfold normalize_path. destruct (is_valid_path (trim_space s)) eqn:E; [|discriminate].
  intros H. injection H as <-. split; [reflexivity|exact E].
Qed.

(** a normaliser that trims and then only checks is idempotent when trimming is *)
Lemma checked_idem {A} (t : A -> A) (c : A -> option A) :
  (forall x, t (t x) = t x) -> (forall x y, c x = Some y -> y = x) ->
  forall s a, c (t s) = Some a -> c (t a) = Some a.
Proof. intros Ht Hc s a H. pose proof (Hc _ _ H) as ->. rewrite Ht. exact H. Qed.

Lemma normalize_address_idem s a : normalize_address s = Some a -> normalize_address a = Some a.
Proof. exact (checked_idem trim_space addr_core trim_space_idem (fun x y H => proj1 (addr_core_id x y H)) s a). Qed.
Lemma normalize_path_idem s p : normalize_path s = Some p -> normalize_path p = Some p.
Proof.
  apply (checked_idem trim_space (fun q => if is_valid_path q then Some q else None) trim_space_idem).
  intros x y. destruct (is_valid_path x); [intros [= <-]; reflexivity|discriminate].
Qed.

Theorem new_ref_idem a p r : new_ref a p = ROk r -> new_ref (fst r) (snd r) = ROk r.
Proof.
  unfold new_ref. destruct (normalize_address a) as [a'|] eqn:Ea; [|discriminate].
  destruct (normalize_path p) as [p'|] eqn:Ep; [|discriminate]. intros H. injection H as <-. cbn [fst snd].
  rewrite (normalize_address_idem _ _ Ea), (normalize_path_idem _ _ Ep). reflexivity.
Qed.

Lemma new_ref_ok a p r : new_ref a p = ROk r -> normalize_address a = Some (fst r) /\ normalize_path p = Some (snd r).
Proof.
  unfold new_ref. destruct (normalize_address a) as [a'|]; [|discriminate].
  destruct (normalize_path p) as [p'|]; [|discriminate]. intros H. injection H as <-. split; reflexivity.
Qed.

Lemma valid_ref_inv a p : valid_ref (a, p) ->
  addr_core a = Some a /\ trim_space a = a /\ is_valid_path p = true /\ trim_space p = p /\
  a <> [] /\ has_byte 47 a = false /\ exists p', p = 47 :: p'.
Proof.
  unfold valid_ref. cbn [fst snd]. intros H. apply new_ref_ok in H as [Ha Hp]. cbn [fst snd] in *.
  destruct (normalize_address_some _ _ Ha) as [Ta Ca]. destruct (normalize_path_some _ _ Hp) as [Tp Vp].
  destruct (addr_core_id _ _ Ca) as [_ Hne]. destruct (valid_path_shape _ Vp) as [p' [Ep _]].
  repeat split; auto. apply addr_core_no_slash, Ca. exists p'. exact Ep.
Qed.

Lemma valid_ref_intro a p : addr_core a = Some a -> trim_space a = a -> is_valid_path p = true -> trim_space p = p -> valid_ref (a, p).
Proof.
  intros Ca Ta Vp Tp. unfold valid_ref, new_ref, normalize_path. cbn [fst snd].
  rewrite normalize_address_core, Ta, Ca, Tp, Vp. reflexivity.
Qed.

Lemma split_cs_spec s b c : split_cs s = Some (b, c) -> s = b ++ 58 :: c /\ exists c', c = 47 :: c'.
Proof.
  revert b c. induction s as [|x r IH]; intros b c; cbn [split_cs]; [discriminate|].
  destruct r as [|d r']; [discriminate|].
  destruct ((x =? 58) && (d =? 47)) eqn:E.
  - intros H. injection H as <- <-. apply andb_true_iff in E as [Ex Ed]. apply N.eqb_eq in Ex, Ed. subst.
    split; [reflexivity|]. exists r'. reflexivity.
  - destruct (split_cs (d :: r')) as [[a' b']|]; [|discriminate]. intros H. injection H as <- <-.
    destruct (IH _ _ eq_refl) as [E' Hc]. rewrite E'. split; [reflexivity|exact Hc].
Qed.

Lemma split_cs_port a p : has_byte 47 a = false -> split_cs (a ++ 58 :: 47 :: p) = Some (a, 47 :: p).
Proof.
  induction a as [|c a IH]; intros H; [reflexivity|].
  apply has_byte_cons_false in H as [Hc Ha].
  change ((c :: a) ++ 58 :: 47 :: p) with (c :: (a ++ 58 :: 47 :: p)). cbn [split_cs].
  destruct (a ++ 58 :: 47 :: p) as [|d r'] eqn:E; [destruct a; discriminate|].
  assert (Hd : (c =? 58) && (d =? 47) = false).
  { destruct a as [|d' a']; cbn in E; injection E as <- _.
    - rewrite andb_false_r. reflexivity.
    - apply has_byte_cons_false in Ha as [Hd' _]. rewrite Hd', andb_false_r. reflexivity. }
  rewrite Hd, (IH Ha). reflexivity.
Qed.

Lemma split_cs_nocolon a p : has_byte 58 a = false ->
  split_cs (a ++ p) = match split_cs p with Some (b, c) => Some (a ++ b, c) | None => None end.
Proof.
  induction a as [|c a IH]; intros H.
  - cbn [app]. destruct (split_cs p) as [[b c]|]; reflexivity.
  - apply has_byte_cons_false in H as [Hc Ha].
    change ((c :: a) ++ p) with (c :: (a ++ p)). cbn [split_cs]. rewrite Hc. cbn [andb].
    destruct (a ++ p) as [|d r'] eqn:E.
    + apply app_eq_nil in E as [-> ->]. reflexivity.
    + rewrite (IH Ha). destruct (split_cs p) as [[b c']|]; reflexivity.
Qed.

Lemma split_cs_cons2 a d r :
  split_cs (a :: d :: r) = if (a =? 58) && (d =? 47) then Some ([], d :: r)
                           else match split_cs (d :: r) with Some (x, y) => Some (a :: x, y) | None => None end.
Proof. reflexivity. Qed.

Lemma split_cs_app x y b c : split_cs x = Some (b, c) -> split_cs (x ++ y) = Some (b, c ++ y).
Proof.
  revert b c. induction x as [|a r IH]; intros b c; [discriminate|].
  destruct r as [|d r']; [discriminate|]. change ((a :: d :: r') ++ y) with (a :: d :: (r' ++ y)).
  rewrite !split_cs_cons2.
  destruct ((a =? 58) && (d =? 47)).
  - intros H. injection H as <- <-. reflexivity.
  - destruct (split_cs (d :: r')) as [[a' b']|] eqn:E; [|discriminate]. intros H. injection H as <- <-.
    change (d :: r' ++ y) with ((d :: r') ++ y). rewrite (IH _ _ eq_refl). reflexivity.
Qed.

Lemma split_slash_spec s a q : split_slash s = Some (a, q) -> s = a ++ q /\ has_byte 47 a = false /\ exists q', q = 47 :: q'.
Proof.
  revert a q. induction s as [|c r IH]; intros a q; cbn [split_slash]; [discriminate|].
  destruct (c =? 47) eqn:Ec.
  - intros H. injection H as <- <-. apply N.eqb_eq in Ec. subst c. split; [reflexivity|]. split; [reflexivity|]. exists r. reflexivity.
  - destruct (split_slash r) as [[a' q']|]; [|discriminate]. intros H. injection H as <- <-.
    destruct (IH _ _ eq_refl) as [-> [Ha Hq]]. split; [reflexivity|]. split; [|exact Hq].
    apply has_byte_cons_false. split; [exact Ec|exact Ha].
Qed.

Lemma split_slash_app a p : has_byte 47 a = false -> split_slash (a ++ 47 :: p) = Some (a, 47 :: p).
Proof.
  induction a as [|c a IH]; intros H; [reflexivity|].
  apply has_byte_cons_false in H as [Hc Ha].
  change ((c :: a) ++ 47 :: p) with (c :: (a ++ 47 :: p)). cbn [split_slash]. rewrite Hc, (IH Ha). reflexivity.
Qed.

Lemma has_byte_cons c x l : has_byte c (x :: l) = (c =? x) || has_byte c l.
Proof. reflexivity. Qed.

Lemma parse_ref_nonempty c v :
  parse_ref (c :: v) = match split_cs (c :: v) with
                       | Some (a, p) => if negb (is_nil a) && has_byte 58 a then new_ref a p else parse_slash_branch (c :: v)
                       | None => parse_slash_branch (c :: v)
                       end.
Proof. reflexivity. Qed.

Theorem parse_ref_string r : valid_ref r -> parse_ref (ref_string r) = if ambiguous r then RErr EAddr else ROk r.
Proof.
  destruct r as [a p]. intros V. destruct (valid_ref_inv _ _ V) as [Ca [Ta [Vp [Tp [Hne [Hns [p' ->]]]]]]].
  unfold ref_string, format_ref, ambiguous. cbn [fst snd].
  destruct a as [|a0 a1]; [congruence|]. set (a := a0 :: a1) in *.
  destruct (has_byte 58 a) eqn:Hc; cbn [negb andb].
  - (* host:port:/path *)
    change (a ++ 58 :: 47 :: p') with (a0 :: (a1 ++ 58 :: 47 :: p')). rewrite parse_ref_nonempty.
    change (a0 :: a1 ++ 58 :: 47 :: p') with (a ++ 58 :: 47 :: p'). rewrite (split_cs_port _ _ Hns).
    rewrite Hc. cbn [negb andb is_nil]. exact V.
  - (* domain/path *)
    change (a ++ 47 :: p') with (a0 :: (a1 ++ 47 :: p')). rewrite parse_ref_nonempty.
    change (a0 :: a1 ++ 47 :: p') with (a ++ 47 :: p').
    assert (Hslash : parse_slash_branch (a ++ 47 :: p') = ROk (a, 47 :: p')).
    { unfold parse_slash_branch. rewrite (split_slash_app _ _ Hns). cbn [is_nil]. exact V. }
    rewrite (split_cs_nocolon _ _ Hc). destruct (split_cs (47 :: p')) as [[b c]|] eqn:Ep; [|exact Hslash].
    rewrite has_byte_app, Hc. cbn [orb]. replace (is_nil (a ++ b)) with false by reflexivity. cbn [negb andb].
    destruct (has_byte 58 b) eqn:Hb; [|exact Hslash].
    (* the wrong branch: the "address" a ++ b contains a '/' *)
    apply split_cs_spec in Ep as [Ep _].
    assert (Hb47 : has_byte 47 b = true).
    { destruct b as [|b0 b1]; [discriminate|]. cbn in Ep. injection Ep as <- _. reflexivity. }
    unfold new_ref. destruct (normalize_address (a ++ b)) as [x|] eqn:En; [|reflexivity]. exfalso.
    apply normalize_address_some in En as [Ex Cx]. apply addr_core_no_slash in Cx.
    rewrite Ex, trim_space_has_byte, has_byte_app, Hb47, orb_true_r in Cx by reflexivity. discriminate.
Qed.

Lemma last_not_byte c (a : bytes) : a <> [] -> has_byte c a = false -> (last a 0 =? c) = false.
Proof.
  intros Hne H. apply has_byte_false_forallb in H. apply (forallb_last _ _ 0 Hne) in H.
  apply negb_true_iff in H. rewrite N.eqb_sym. exact H.
Qed.

Theorem unformat_string r : valid_ref r -> unformat (ref_string r) = Some r.
Proof.
  destruct r as [a p]. intros V. destruct (valid_ref_inv _ _ V) as [Ca [Ta [Vp [Tp [Hne [Hns [p' ->]]]]]]].
  unfold ref_string, format_ref, unformat. cbn [fst snd]. destruct (has_byte 58 a) eqn:Hc.
  - change (a ++ 58 :: 47 :: p') with (a ++ [58] ++ 47 :: p'). rewrite app_assoc.
    rewrite split_slash_app by (rewrite has_byte_app, Hns; reflexivity).
    rewrite is_nil_false by (destruct a; discriminate). rewrite last_last. cbn [N.eqb Pos.eqb].
    rewrite removelast_last. reflexivity.
  - rewrite (split_slash_app _ _ Hns), (is_nil_false _ Hne), (last_not_byte _ _ Hne Hc). reflexivity.
Qed.

Theorem ref_string_injective r1 r2 : valid_ref r1 -> valid_ref r2 -> ref_string r1 = ref_string r2 -> r1 = r2.
Proof.
  intros V1 V2 E. apply unformat_string in V1, V2. rewrite E in V1. congruence.
Qed.

Lemma parse_slash_branch_ok s r : parse_slash_branch s = ROk r ->
  exists a q, split_slash s = Some (a, q) /\ a <> [] /\ new_ref a q = ROk r.
Proof.
  unfold parse_slash_branch. destruct (split_slash s) as [[a q]|]; [|discriminate].
  destruct a as [|a0 a1]; [discriminate|]. cbn [is_nil]. intros H. exists (a0 :: a1), q. repeat split; [discriminate|exact H].
Qed.

Lemma parse_ref_ok s r : parse_ref s = ROk r ->
  (exists a p, split_cs s = Some (a, p) /\ has_byte 58 a = true /\ new_ref a p = ROk r) \/
  (exists a q, split_slash s = Some (a, q) /\ a <> [] /\ new_ref a q = ROk r /\
               forall b c, split_cs s = Some (b, c) -> negb (is_nil b) && has_byte 58 b = false).
Proof.
  destruct s as [|c v]; [discriminate|]. rewrite parse_ref_nonempty.
  destruct (split_cs (c :: v)) as [[a p]|] eqn:E.
  - destruct (negb (is_nil a) && has_byte 58 a) eqn:Ec.
    + intros H. left. exists a, p. apply andb_true_iff in Ec as [_ Ec]. auto.
    + intros H. right. destruct (parse_slash_branch_ok _ _ H) as [a' [q [Es [Hne Hn]]]]. exists a', q.
      repeat split; auto. intros b c' Hbc. injection Hbc as <- <-. exact Ec.
  - intros H. right. destruct (parse_slash_branch_ok _ _ H) as [a' [q [Es [Hne Hn]]]]. exists a', q.
    repeat split; auto. discriminate.
Qed.

Theorem parse_ref_valid s r : parse_ref s = ROk r -> valid_ref r.
Proof.
  intros H. apply parse_ref_ok in H as [[a [p [_ [_ H]]]]|[a [q [_ [_ [H _]]]]]]; exact (new_ref_idem _ _ _ H).
Qed.

Theorem parse_ref_unambiguous s r : parse_ref s = ROk r -> ambiguous r = false.
Proof.
  intros H. apply parse_ref_ok in H as [[a [p [_ [Hc H]]]]|[a [q [Es [Hne [H Hno]]]]]].
  - apply new_ref_ok in H as [Ha _]. apply normalize_address_some in Ha as [Ha _].
    unfold ambiguous. rewrite Ha, trim_space_has_byte, Hc by reflexivity. reflexivity.
  - destruct (ambiguous r) eqn:Am; [exfalso|reflexivity].
    unfold ambiguous in Am. apply andb_true_iff in Am as [Ac Ab]. apply negb_true_iff in Ac.
    apply new_ref_ok in H as [Ha Hq]. apply normalize_address_some in Ha as [Ha _]. apply normalize_path_some in Hq as [Hq _].
    rewrite Ha, trim_space_has_byte in Ac by reflexivity.
    destruct (split_cs (snd r)) as [[b c]|] eqn:Eb; [|discriminate].
    apply split_slash_spec in Es as [Es [_ [q' Eq]]]. subst q.
    destruct (trim_space_first 47 q' eq_refl) as [post [Ep _]]. rewrite <- Hq in Ep.
    assert (Hs : split_cs s = Some (a ++ b, c ++ post)).
    { rewrite Es, Ep, (split_cs_nocolon _ _ Ac), (split_cs_app _ post _ _ Eb). reflexivity. }
    specialize (Hno _ _ Hs). rewrite has_byte_app, Ab, orb_true_r, andb_true_r in Hno.
    destruct a; [congruence|discriminate].
Qed.

Theorem parse_ref_retraction s r : parse_ref s = ROk r -> parse_ref (ref_string r) = ROk r.
Proof.
  intros H. rewrite (parse_ref_string _ (parse_ref_valid _ _ H)), (parse_ref_unambiguous _ _ H). reflexivity.
Qed.

Definition sep (b : bytes) : bytes := if last b 0 =? 47 then [] else [47].
Lemma join_path_alt b s : b <> [] -> join_path b s = b ++ sep b ++ strip_slashes s.
Proof.
  intros Hne. unfold join_path, sep. destruct b as [|b0 b1]; [congruence|].
  destruct (bytes_eqb (b0 :: b1) [47]) eqn:E.
  - apply bytes_eqb_eq in E. rewrite E. reflexivity.
  - destruct (last (b0 :: b1) 0 =? 47); [reflexivity|]. reflexivity.
Qed.

Lemma join_path_prefix b s : b <> [] -> exists y, join_path b s = b ++ y.
Proof. intros Hne. rewrite (join_path_alt b s Hne). eauto. Qed.

Theorem child_spec r seg r' : valid_ref r -> child r seg = ROk r' ->
  valid_ref r' /\ fst r' = fst r /\ exists y, snd r' = snd r ++ y.
Proof.
  destruct r as [a p]. intros V. destruct (valid_ref_inv _ _ V) as [Ca [Ta [Vp [Tp [Hne [Hns [p' Ep]]]]]]].
  unfold child. cbn [fst snd]. destruct (is_nil (trim_space seg)); [discriminate|]. intros H.
  split; [exact (new_ref_idem _ _ _ H)|]. apply new_ref_ok in H as [Ha Hp].
  rewrite normalize_address_core, Ta, Ca in Ha. injection Ha as Ha. split; [symmetry; exact Ha|].
  apply normalize_path_some in Hp as [Hp _]. rewrite Hp.
  destruct (join_path_prefix p seg) as [y0 Ey]; [subst p; discriminate|]. rewrite Ey. subst p.
  apply trim_space_keeps_prefix; [reflexivity|].
  apply printable_not_space. destruct (valid_path_shape _ Vp) as [_ [_ Hpr]].
  apply forallb_last; [discriminate|exact Hpr].
Qed.

Theorem ref_equals_eq r1 r2 : ref_equals r1 r2 = true <-> r1 = r2.
Proof.
  destruct r1 as [a1 p1], r2 as [a2 p2]. unfold ref_equals. cbn [fst snd].
  rewrite andb_true_iff, !bytes_eqb_eq. split; [intros [-> ->]; reflexivity|intros H; injection H; auto].
Qed.

Lemma strip_slashes_idem s : strip_slashes (strip_slashes s) = strip_slashes s.
Proof.
  induction s as [|c r IH]; [reflexivity|]. rewrite strip_slashes_cons. destruct (c =? 47) eqn:E; [exact IH|].
  rewrite strip_slashes_cons, E. reflexivity.
Qed.
Lemma strip_slashes_head s : (hd 0 (strip_slashes s) =? 47) = false.
Proof.
  induction s as [|c r IH]; [reflexivity|]. rewrite strip_slashes_cons. destruct (c =? 47) eqn:E; [exact IH|exact E].
Qed.
Lemma strip_slashes_fix s : (hd 0 s =? 47) = false -> strip_slashes s = s.
Proof. destruct s as [|c r]; [reflexivity|]. cbn [hd]. intros E. rewrite strip_slashes_cons, E. reflexivity. Qed.

Theorem join_path_strip b s : join_path b (strip_slashes s) = join_path b s.
Proof. unfold join_path. rewrite strip_slashes_idem. reflexivity. Qed.
Theorem join_path_slash b s : join_path b (47 :: s) = join_path b s.
Proof. reflexivity. Qed.
Theorem join_path_empty_base s : join_path [] s = join_path [47] s.
Proof. reflexivity. Qed.

Theorem join_path_head b s : b = [] \/ (exists b', b = 47 :: b') -> exists t, join_path b s = 47 :: t.
Proof.
  intros [->|[b' ->]]; [exists (strip_slashes s); reflexivity|].
  rewrite join_path_alt by discriminate. eexists. reflexivity.
Qed.

Lemma no_dslash_cons2 a b r : no_dslash (a :: b :: r) = negb ((a =? 47) && (b =? 47)) && no_dslash (b :: r).
Proof. reflexivity. Qed.

Lemma no_dslash_app x y : no_dslash x = true -> no_dslash y = true -> (last x 0 =? 47) && (hd 0 y =? 47) = false ->
  no_dslash (x ++ y) = true.
Proof.
  induction x as [|a r IH]; intros Hx Hy Hc; [exact Hy|].
  destruct r as [|b r'].
  - destruct y as [|c y']; [reflexivity|]. change ([a] ++ c :: y') with (a :: c :: y'). rewrite no_dslash_cons2.
    cbn [last hd] in Hc. rewrite Hc, Hy. reflexivity.
  - change ((a :: b :: r') ++ y) with (a :: b :: (r' ++ y)). rewrite no_dslash_cons2 in *.
    apply andb_true_iff in Hx as [Hab Hr]. rewrite Hab. cbn [andb].
    change (b :: r' ++ y) with ((b :: r') ++ y). apply IH; auto.
Qed.

Theorem join_path_no_dslash b s : no_dslash b = true -> no_dslash (strip_slashes s) = true -> no_dslash (join_path b s) = true.
Proof.
  intros Hb Hs. assert (Hh := strip_slashes_head s).
  assert (H47 : no_dslash ([47] ++ strip_slashes s) = true).
  { apply no_dslash_app; [reflexivity|exact Hs|]. rewrite Hh, andb_false_r. reflexivity. }
  destruct b as [|b0 b1]; [exact H47|]. rewrite join_path_alt by discriminate. unfold sep.
  destruct (last (b0 :: b1) 0 =? 47) eqn:El.
  - change ([] ++ strip_slashes s) with (strip_slashes s).
    apply no_dslash_app; [exact Hb|exact Hs|]. rewrite Hh, andb_false_r. reflexivity.
  - apply no_dslash_app; [exact Hb|exact H47|]. rewrite El. reflexivity.
Qed.

Lemma last_app_ne (x t : bytes) d : t <> [] -> last (x ++ t) d = last t d.
Proof.
  intros Hne. destruct (exists_last Hne) as [t' [z ->]]. rewrite app_assoc, !last_last. reflexivity.
Qed.

Lemma sep_app x t : t <> [] -> sep (x ++ t) = sep t.
Proof. intros H. unfold sep. rewrite (last_app_ne _ _ _ H). reflexivity. Qed.

(** joining twice = joining the joined segments: Child(Child(r, s1), s2) has the path of Child(r, s1/s2) *)
Theorem join_path_assoc b s1 s2 :
  join_path (join_path b s1) s2 = join_path b (join_path (strip_slashes s1) s2).
Proof.
  set (t1 := strip_slashes s1). set (t2 := strip_slashes s2).
  assert (Ht2 : strip_slashes t2 = t2) by apply strip_slashes_idem.
  (* the base [] behaves as the base "/" *)
  assert (G : forall b', b' <> [] -> join_path (join_path b' s1) s2 = join_path b' (join_path t1 s2)).
  { intros b' Hne. rewrite (join_path_alt b' s1 Hne). fold t1.
    destruct t1 as [|c t1'] eqn:E1.
    - (* the first segment is empty: b' ++ sep b' ends in '/' *)
      change (join_path [] s2) with (47 :: t2). rewrite (join_path_alt b' (47 :: t2) Hne).
      change (strip_slashes (47 :: t2)) with (strip_slashes t2). rewrite Ht2, app_nil_r.
      assert (Hx : b' ++ sep b' <> []) by (destruct b'; [congruence|discriminate]).
      rewrite (join_path_alt _ s2 Hx). fold t2.
      assert (Hs : sep (b' ++ sep b') = []).
      { unfold sep. destruct (last b' 0 =? 47) eqn:El; [rewrite app_nil_r, El; reflexivity|].
        rewrite last_last. reflexivity. }
      rewrite Hs, <- app_assoc. reflexivity.
    - assert (Hc : (c =? 47) = false) by (assert (H := strip_slashes_head s1); fold t1 in H; rewrite E1 in H; exact H).
      assert (Hne1 : c :: t1' <> []) by discriminate.
      assert (Hx : b' ++ sep b' ++ c :: t1' <> []) by (destruct b'; [congruence|discriminate]).
      rewrite (join_path_alt _ s2 Hx). fold t2.
      rewrite (join_path_alt (c :: t1') s2 Hne1). fold t2.
      rewrite (join_path_alt b' _ Hne).
      rewrite (strip_slashes_fix ((c :: t1') ++ _)) by exact Hc.
      replace (sep (b' ++ sep b' ++ c :: t1')) with (sep (c :: t1')) by (rewrite app_assoc; symmetry; apply sep_app; exact Hne1).
      rewrite <- !app_assoc. reflexivity. }
  destruct b as [|b0 b1]; [|apply G; discriminate].
  rewrite !join_path_empty_base. apply G. discriminate.
Qed.

Theorem valid_address_shape s a : normalize_address s = Some a ->
  a = trim_space s /\ a <> [] /\ has_byte 47 a = false /\
  if has_byte 58 a
  then exists h p, (a = h ++ 58 :: p \/ a = 91 :: h ++ 93 :: 58 :: p) /\ is_valid_host h = true /\ is_valid_port p = true
  else is_domain a = true /\ parse_ip a = false.
Proof.
  intros H. apply normalize_address_some in H as [Ea Ca]. destruct (addr_core_inv _ _ Ca) as (_ & Hne & Hc).
  split; [exact Ea|]. split; [exact Hne|]. split; [exact (addr_core_no_slash _ Ca)|].
  destruct (has_byte 58 a); [|exact Hc]. destruct Hc as (h & p & E & V).
  exists h, p. split; [exact (split_host_port_spec _ _ _ E)|exact V].
Qed.

Theorem valid_path_shape' s p : normalize_path s = Some p ->
  p = trim_space s /\ (exists r, p = 47 :: r) /\ forallb printable p = true.
Proof.
  intros H. apply normalize_path_some in H as [Ep Vp]. split; [exact Ep|].
  destruct (valid_path_shape _ Vp) as [r [E F]]. split; [exists r; exact E|exact F].
Qed.

Theorem trim_space_no_space_ends s :
  starts_space (trim_space s) = false /\ ends_space_rev (rev (trim_space s)) = false.
Proof.
  split; [apply trim_space_nostart|]. unfold trim_space, trim_right. rewrite rev_involutive.
  exact (trim_gen_nostart _ _ _ space_byte sb1 sb2r sb3r _).
Qed.

Theorem parse_ref_string_same r r' : valid_ref r -> parse_ref (ref_string r) = ROk r' -> r' = r.
Proof.
  intros V. rewrite (parse_ref_string r V). destruct (ambiguous r); [discriminate|]. intros H. injection H as <-. reflexivity.
Qed.

Theorem ref_equals_iff_string r1 r2 : valid_ref r1 -> valid_ref r2 ->
  (ref_equals r1 r2 = true <-> ref_string r1 = ref_string r2).
Proof.
  intros V1 V2. rewrite ref_equals_eq. split; [intros ->; reflexivity|exact (ref_string_injective r1 r2 V1 V2)].
Qed.

Lemma space_printable_nil l : forallb space_byte l = true -> forallb printable l = true -> l = [].
Proof.
  destruct l as [|c l]; [reflexivity|]. cbn [forallb]. intros H1 H2.
  apply andb_true_iff in H1 as [H1 _]. apply andb_true_iff in H2 as [H2 _].
  rewrite (printable_not_space _ H2) in H1. discriminate.
Qed.

Theorem trim_space_printable s : forallb printable s = true -> trim_space s = s.
Proof.
  intros H. destruct (trim_space_decomp s) as [pre [post [E [F G]]]].
  rewrite E, !forallb_app, !andb_true_iff in H. destruct H as (Hpre & _ & Hpost).
  rewrite (space_printable_nil pre F Hpre), (space_printable_nil post G Hpost), app_nil_r in E. symmetry. exact E.
Qed.

Lemma path_body_app x y : path_body x = true -> path_body y = true -> path_body (x ++ y) = true.
Proof.
  induction x as [x IH] using list_len_ind. destruct x as [|c r]; [intros _ H; exact H|]. cbn [app path_body].
  destruct (path_char c).
  - intros Hx Hy. apply IH; [cbn; lia|exact Hx|exact Hy].
  - destruct (c =? 37); [|discriminate]. destruct r as [|h1 [|h2 r2]]; try discriminate. cbn [app].
    intros Hx Hy. apply andb_true_iff in Hx as [Hx H3]. rewrite Hx. cbn [andb].
    apply IH; [cbn; lia|exact H3|exact Hy].
Qed.

Lemma path_chars_body s : forallb path_char s = true -> path_body s = true.
Proof.
  induction s as [|c r IH]; [reflexivity|]. cbn [forallb path_body]. intros H. apply andb_true_iff in H as [Hc Hr].
  rewrite Hc. exact (IH Hr).
Qed.

Lemma path_char_47 : path_char 47 = true.
Proof. reflexivity. Qed.

Lemma strip_slashes_forallb (P : N -> bool) s : forallb P s = true -> forallb P (strip_slashes s) = true.
Proof.
  induction s as [|c r IH]; [reflexivity|]. rewrite strip_slashes_cons. destruct (c =? 47); [|exact (fun H => H)].
  cbn [forallb]. intros H. apply andb_true_iff in H as [_ H]. exact (IH H).
Qed.

(** a non-empty segment of path characters (no '%' escapes needed) always gives a child, whose path is exactly
    JoinPath(parent path, segment).  NewAgentRef relies on it: it drops the error of Child("@future@" ++ a UUID) *)
Theorem child_total r seg : valid_ref r -> seg <> [] -> forallb path_char seg = true ->
  child r seg = ROk (fst r, join_path (snd r) seg).
Proof.
  destruct r as [a p]. intros V Hne Hseg. destruct (valid_ref_inv _ _ V) as [Ca [Ta [Vp [Tp [Hane [Hns [p' Ep]]]]]]].
  unfold child. cbn [fst snd].
  assert (Hsp : forallb printable seg = true).
  { revert Hseg. apply forallb_imp. intros c Hc. exact (path_char_printable _ Hc). }
  rewrite (trim_space_printable _ Hsp), (is_nil_false _ Hne).
  unfold new_ref. rewrite normalize_address_core, Ta, Ca.
  assert (Hj : is_valid_path (join_path p seg) = true).
  { rewrite join_path_alt by (subst p; discriminate). subst p. cbn [app]. rewrite is_valid_path_cons in *. cbn [N.eqb Pos.eqb andb] in *.
    apply (path_body_app _ _ Vp).
    assert (Hst : path_body (strip_slashes seg) = true) by (apply path_chars_body, strip_slashes_forallb, Hseg).
    unfold sep. destruct (last (47 :: p') 0 =? 47); [exact Hst|]. cbn [app path_body]. rewrite path_char_47. exact Hst. }
  assert (Hpr : forallb printable (join_path p seg) = true).
  { destruct (valid_path_shape _ Hj) as [_ [_ H]]. exact H. }
  unfold normalize_path. rewrite (trim_space_printable _ Hpr), Hj. reflexivity.
Qed.

Theorem normalize_addresses_valid l a : In a (normalize_addresses l) -> normalize_address a = Some a.
Proof.
  induction l as [|s r IH]; [intros []|]. cbn [normalize_addresses].
  destruct (normalize_address s) as [a'|] eqn:E; [|exact IH]. intros [<-|H]; [exact (normalize_address_idem _ _ E)|exact (IH H)].
Qed.
Theorem normalize_addresses_idem l : normalize_addresses (normalize_addresses l) = normalize_addresses l.
Proof.
  induction l as [|s r IH]; [reflexivity|]. cbn [normalize_addresses].
  destruct (normalize_address s) as [a|] eqn:E; [|exact IH]. cbn [normalize_addresses].
  rewrite (normalize_address_idem _ _ E), IH. reflexivity.
Qed.
