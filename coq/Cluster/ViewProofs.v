(** Lemmas about the cluster-view model (Cluster/View.v): the incarnation order, IsNewerThan,
    recomputeCounts / prune, MergeFromWithOptions.  The property statements are restated in
    Properties/C17.v. *)
From stdpp Require Import gmap.
From Vivid Require Import Cluster.VV Cluster.VVProofs Cluster.View Cluster.ViewCfg.
Local Open Scope N_scope.

Lemma inc_lt_irrefl p : inc_lt p p = false.
Proof. destruct p as [a b]. unfold inc_lt; cbn [fst snd]. lia. Qed.
Lemma inc_lt_asym p q : inc_lt p q = true -> inc_lt q p = false.
Proof. destruct p as [a b], q as [c d]. unfold inc_lt; cbn [fst snd]. lia. Qed.
Lemma inc_lt_trans p q r : inc_lt p q = true -> inc_lt q r = true -> inc_lt p r = true.
Proof. destruct p as [a b], q as [c d], r as [e f]. unfold inc_lt; cbn [fst snd]. lia. Qed.
Lemma inc_lt_total p q : inc_lt p q = false -> inc_lt q p = false -> p = q.
Proof.
  destruct p as [a b], q as [c d]. unfold inc_lt; cbn [fst snd]. intros H1 H2.
  assert (a = c) by lia. assert (b = d) by lia. subst. reflexivity.
Qed.
Lemma inc_lt_neg_trans p q r : inc_lt q p = false -> inc_lt r q = false -> inc_lt r p = false.
Proof. destruct p as [a b], q as [c d], r as [e f]. unfold inc_lt; cbn [fst snd]. lia. Qed.

Lemma inc_max_cases p q : inc_max p q = p \/ inc_max p q = q.
Proof. unfold inc_max. destruct (inc_lt p q); auto. Qed.
Lemma inc_max_comm p q : inc_max p q = inc_max q p.
Proof.
  unfold inc_max. destruct (inc_lt p q) eqn:A, (inc_lt q p) eqn:B; try reflexivity.
  - apply inc_lt_asym in A. congruence.
  - symmetry. apply inc_lt_total; assumption.
Qed.
Lemma inc_max_idem p : inc_max p p = p.
Proof. unfold inc_max. rewrite inc_lt_irrefl. reflexivity. Qed.
Lemma inc_max_ge_l p q : inc_lt (inc_max p q) p = false.
Proof.
  unfold inc_max. destruct (inc_lt p q) eqn:A; [apply inc_lt_asym; exact A|apply inc_lt_irrefl].
Qed.
Lemma inc_max_ge_r p q : inc_lt (inc_max p q) q = false.
Proof. rewrite inc_max_comm. apply inc_max_ge_l. Qed.
Lemma inc_max_assoc p q r : inc_max p (inc_max q r) = inc_max (inc_max p q) r.
Proof.
  destruct p as [a b], q as [c d], r as [e f]. unfold inc_max.
  destruct (inc_lt (a, b) (c, d)) eqn:A; destruct (inc_lt (c, d) (e, f)) eqn:B; rewrite ?A, ?B;
    destruct (inc_lt (a, b) (e, f)) eqn:C; rewrite ?A, ?B, ?C; try reflexivity;
    unfold inc_lt in *; cbn [fst snd] in *; lia.
Qed.

Lemma isnewer_irrefl s : isnewer s s = false.
Proof.
  unfold isnewer. rewrite Z.eqb_refl. cbn [negb]. rewrite Z.ltb_irrefl, N.ltb_irrefl.
  destruct (_ && _ && _); reflexivity.
Qed.

Lemma isnewer_asym n o : isnewer n o = true -> isnewer o n = false.
Proof.
  unfold isnewer. rewrite (Z.eqb_sym (ns_gen o) (ns_gen n)).
  destruct (ns_gen n =? ns_gen o)%Z eqn:G; cbn [negb]; [|lia].
  destruct (decide (ns_id n = ns_id o)) as [E|E].
  - rewrite (bool_decide_eq_true_2 _ E), (bool_decide_eq_true_2 _ (eq_sym E)). cbn [andb].
    destruct (ns_lc n =? 0) eqn:A, (ns_lc o =? 0) eqn:B; cbn [negb andb]; lia.
  - rewrite (bool_decide_eq_false_2 _ E). rewrite bool_decide_eq_false_2 by congruence. cbn [andb]. lia.
Qed.

Lemma isnewer_wf n o :
  ns_id n = ns_id o -> wf_state n -> wf_state o -> isnewer n o = inc_lt (inc_of o) (inc_of n).
Proof.
  intros E [Hg1 Hl1] [Hg2 Hl2]. unfold isnewer, inc_lt, inc_of; cbn [fst snd].
  rewrite (bool_decide_eq_true_2 _ E). cbn [andb].
  replace (ns_lc n =? 0) with false by lia. replace (ns_lc o =? 0) with false by lia. cbn [negb andb].
  destruct (ns_gen n =? ns_gen o)%Z eqn:G; cbn [negb].
  - replace (ns_gen o <? ns_gen n)%Z with false by lia. replace (ns_gen o =? ns_gen n)%Z with true by lia. reflexivity.
  - replace (ns_gen o =? ns_gen n)%Z with false by lia. rewrite andb_false_l, orb_false_r. reflexivity.
Qed.

Lemma isnewer_wf_trans a b c :
  ns_id a = ns_id b -> ns_id b = ns_id c -> wf_state a -> wf_state b -> wf_state c ->
  isnewer a b = true -> isnewer b c = true -> isnewer a c = true.
Proof.
  intros E1 E2 Wa Wb Wc. rewrite !isnewer_wf by (assumption || congruence).
  intros H1 H2. eapply inc_lt_trans; eassumption.
Qed.

(** without well-formedness (one logical clock is 0, as a wire-decoded state may have) the three
    criteria form a cycle: a beats b on timestamp, b beats c on logical clock, c beats a on timestamp *)
Definition cyc_a : nstate := NState [97] [] 1 2 0 1 0 0.
Definition cyc_b : nstate := NState [97] [] 1 1 0 1 2 0.
Definition cyc_c : nstate := NState [97] [] 1 3 0 1 1 0.
Lemma isnewer_cycle :
  isnewer cyc_a cyc_b = true /\ isnewer cyc_b cyc_c = true /\ isnewer cyc_c cyc_a = true.
Proof. vm_compute. auto. Qed.
Definition isnewer_cycle_example := isnewer_cycle.

Lemma recompute_members v : vw_members (recompute v) = vw_members v.
Proof. reflexivity. Qed.
Lemma recompute_maxent v : vw_maxent (recompute v) = vw_maxent v.
Proof. reflexivity. Qed.

Lemma keys_elem (m : members) k : k ∈ (map_to_list m).*1 <-> is_Some (m !! k).
Proof.
  rewrite elem_of_list_fmap. split.
  - intros ([k' s] & -> & Hin). apply elem_of_map_to_list in Hin. eexists; exact Hin.
  - intros [s Hs]. exists (k, s). split; [reflexivity|]. apply elem_of_map_to_list. exact Hs.
Qed.

Lemma recompute_vv_sub v k c : vw_vv (recompute v) !! k = Some c -> vw_vv v !! k = Some c.
Proof.
  unfold recompute; cbn [vw_vv]. destruct (map_to_list (vw_members v)); [tauto|].
  intros H. apply vprune_sub in H. tauto.
Qed.
Lemma recompute_vv_in v k c :
  vw_members v <> ∅ -> vw_vv (recompute v) !! k = Some c -> is_Some (vw_members v !! k).
Proof.
  intros Hne. unfold recompute; cbn [vw_vv]. destruct (map_to_list (vw_members v)) eqn:E.
  - apply map_to_list_empty_iff in E. contradiction.
  - rewrite <- E. intros H. apply vprune_sub in H as [_ H]. apply keys_elem. exact H.
Qed.
Lemma recompute_vv_keep v k :
  CapOK v -> is_Some (vw_members v !! k) -> vw_vv (recompute v) !! k = vw_vv v !! k.
Proof.
  intros Hcap Hk. unfold recompute; cbn [vw_vv]. destruct (map_to_list (vw_members v)) eqn:E; [reflexivity|].
  rewrite <- E, vprune_exact by (rewrite fmap_length; exact Hcap).
  rewrite bool_decide_eq_true_2 by (apply keys_elem, Hk). reflexivity.
Qed.
Lemma recompute_vv_id v : VVin v -> CapOK v -> vw_vv (recompute v) = vw_vv v.
Proof.
  intros Hin Hcap. apply map_eq. intros k.
  destruct (vw_vv v !! k) as [c|] eqn:E.
  - rewrite recompute_vv_keep; [exact E|exact Hcap|]. apply Hin. eexists; exact E.
  - destruct (vw_vv (recompute v) !! k) as [c|] eqn:E2; [|reflexivity].
    apply recompute_vv_sub in E2. congruence.
Qed.
Lemma vget_recompute_le v k : vget (vw_vv (recompute v)) k <= vget (vw_vv v) k.
Proof.
  unfold vget. destruct (vw_vv (recompute v) !! k) as [c|] eqn:E; cbn; [|lia].
  apply recompute_vv_sub in E. rewrite E. cbn. lia.
Qed.

Lemma merge_members_lookup (a o : members) k :
  merge_members a o !! k =
  match a !! k, o !! k with
  | Some e, Some x => Some (if isnewer x e then x else e)
  | Some e, None => Some e
  | None, Some x => Some x
  | None, None => None
  end.
Proof. apply (lookup_join (fun e x => if isnewer x e then x else e)). Qed.

Lemma members_changed_false (a o : members) :
  members_changed a o = false <->
  (forall k x, o !! k = Some x -> exists e, a !! k = Some e /\ isnewer x e = false).
Proof.
  unfold members_changed. rewrite <- not_true_iff_false, existsb_exists. split.
  - intros H k x Hk. destruct (a !! k) as [e|] eqn:E.
    + exists e. split; [reflexivity|]. apply not_true_iff_false. intros Hn. apply H.
      exists (k, x). split; [apply elem_of_list_In, elem_of_map_to_list; exact Hk|]. cbn [fst snd]. rewrite E. exact Hn.
    + exfalso. apply H. exists (k, x). split; [apply elem_of_list_In, elem_of_map_to_list; exact Hk|].
      cbn [fst snd]. rewrite E. reflexivity.
  - intros H ([k x] & Hin & Hx). apply elem_of_list_In, elem_of_map_to_list in Hin.
    destruct (H k x Hin) as (e & He & Hn). cbn [fst snd] in Hx. rewrite He in Hx. congruence.
Qed.

Lemma members_unchanged_eq (a o : members) : members_changed a o = false -> merge_members a o = a.
Proof.
  intros H. apply map_eq. intros k. rewrite merge_members_lookup.
  destruct (o !! k) as [x|] eqn:Eo.
  - destruct (proj1 (members_changed_false a o) H k x Eo) as (e & He & Hn). rewrite He, Hn. reflexivity.
  - destruct (a !! k); reflexivity.
Qed.

Lemma members_changed_neq (a o : members) : members_changed a o = true -> merge_members a o <> a.
Proof.
  unfold members_changed. rewrite existsb_exists. intros ([k x] & Hin & Hx) Heq.
  apply elem_of_list_In, elem_of_map_to_list in Hin. cbn [fst snd] in Hx.
  apply (f_equal (fun m => m !! k)) in Heq. rewrite merge_members_lookup, Hin in Heq.
  destruct (a !! k) as [e|] eqn:E; [|discriminate].
  rewrite Hx in Heq. injection Heq as ->. rewrite isnewer_irrefl in Hx. discriminate.
Qed.

Lemma set_members_same v : set_members v (vw_members v) = v.
Proof. destruct v; reflexivity. Qed.

Lemma view_merge_empty sk st now v o :
  vw_members o = ∅ -> view_merge sk st now v o = (v, false).
Proof. intros H. unfold view_merge, view_merge_gen. rewrite H, map_size_empty, bool_decide_eq_true_2 by reflexivity. reflexivity. Qed.

Lemma o_empty_dec (o : view) : {vw_members o = ∅} + {size (vw_members o) <> 0%nat}.
Proof.
  destruct (decide (size (vw_members o) = 0%nat)) as [H|H]; [left; apply map_size_empty_inv; exact H|right; exact H].
Qed.

Lemma view_merge_members sk st now v o :
  vw_members (fst (view_merge sk st now v o)) = merge_members (vw_members v) (vw_members o).
Proof.
  destruct (o_empty_dec o) as [H|H].
  - rewrite view_merge_empty by exact H. cbn [fst]. rewrite H. symmetry. unfold merge_members. apply (right_id ∅ _).
  - unfold view_merge, view_merge_gen. rewrite bool_decide_eq_false_2 by exact H. reflexivity.
Qed.
Lemma view_merge_maxent sk st now v o : vw_maxent (fst (view_merge sk st now v o)) = vw_maxent v.
Proof. unfold view_merge, view_merge_gen. destruct (bool_decide _); reflexivity. Qed.

Lemma view_merge_vv sk st now v o :
  size (vw_members o) <> 0%nat ->
  vw_vv (fst (view_merge sk st now v o)) =
  vmerge (vw_vv (recompute (set_members v (merge_members (vw_members v) (vw_members o))))) (vw_vv o).
Proof. intros H. unfold view_merge, view_merge_gen. rewrite bool_decide_eq_false_2 by exact H. reflexivity. Qed.

Lemma view_merge_epoch_ts_proto sk st now v o :
  let e := bool_decide (size (vw_members o) = 0%nat) in
  let a := negb e && adopts sk st now v o in
  vw_epoch (fst (view_merge sk st now v o)) = (if a then Z.max (vw_epoch v) (vw_epoch o) else vw_epoch v) /\
  vw_ts (fst (view_merge sk st now v o)) = (if a then Z.max (vw_ts v) (vw_ts o) else vw_ts v) /\
  vw_proto (fst (view_merge sk st now v o)) = (if e then vw_proto v else N.max (vw_proto v) (vw_proto o)).
Proof.
  unfold view_merge, view_merge_gen, adopts. destruct (bool_decide _); cbn [fst negb andb vw_epoch vw_ts vw_proto]; [auto|].
  destruct (negb _ && negb _); cbn [andb];
    destruct (Z.ltb_spec (vw_epoch v) (vw_epoch o)), (Z.ltb_spec (vw_ts v) (vw_ts o)), (N.ltb_spec (vw_proto v) (vw_proto o));
    repeat split; lia.
Qed.

Lemma wf_new_node_state id addr now : wf_state (new_node_state id addr now).
Proof. split; cbn; lia. Qed.
Lemma wf_set_status s st : wf_state s -> wf_state (ns_set_status s st).
Proof. intros H. exact H. Qed.

Lemma WF_new now maxent : WF (new_view now maxent).
Proof. apply map_Forall_empty. Qed.
Lemma VVin_new now maxent : VVin (new_view now maxent).
Proof. intros k [c H]. cbn in H. rewrite lookup_empty in H. discriminate. Qed.

Lemma WF_recompute v : WF v -> WF (recompute v).
Proof. intros H. exact H. Qed.

Lemma WF_add v s : WF v -> wf_state s -> WF (view_add v s).
Proof.
  intros Hv Hs.
  assert (Hins : WF (recompute (set_members v (<[ns_id s := s]> (vw_members v)))))
    by (apply map_Forall_insert_2; [split; [reflexivity|exact Hs]|exact Hv]).
  unfold view_add. destruct (vw_members v !! ns_id s) as [e|]; [destruct (isnewer s e)|]; assumption.
Qed.

Lemma members_ne_insert (m : members) k s : <[k := s]> m <> ∅.
Proof. apply insert_non_empty. Qed.

Lemma VVin_recompute_nonempty v : vw_members v <> ∅ -> VVin (recompute v).
Proof. intros Hne k [c Hc]. rewrite recompute_members. eapply recompute_vv_in; eassumption. Qed.

Lemma VVin_add v s : VVin v -> VVin (view_add v s).
Proof.
  intros Hv.
  assert (Hins : VVin (recompute (set_members v (<[ns_id s := s]> (vw_members v)))))
    by (apply VVin_recompute_nonempty, insert_non_empty).
  unfold view_add. destruct (vw_members v !! ns_id s) as [e|]; [destruct (isnewer s e)|]; assumption.
Qed.

Lemma WF_remove v id : WF v -> WF (view_remove v id).
Proof.
  intros Hv. unfold view_remove. destruct (vw_members v !! id); [|exact Hv]. apply map_Forall_delete, Hv.
Qed.
Lemma VVin_remove v id : VVin v -> vw_members (view_remove v id) <> ∅ -> VVin (view_remove v id).
Proof.
  intros Hv. unfold view_remove. destruct (vw_members v !! id); [|intros _; exact Hv].
  intros Hne. apply VVin_recompute_nonempty. exact Hne.
Qed.

Lemma view_inc_members v id : vw_members (view_inc v id) = vw_members v.
Proof. unfold view_inc. destruct id; [reflexivity|]. destruct (vinc _ _); reflexivity. Qed.

Lemma WF_inc v id : WF v -> WF (view_inc v id).
Proof. unfold WF. rewrite view_inc_members. auto. Qed.
Lemma VVin_inc v id : VVin v -> is_Some (vw_members v !! id) -> VVin (view_inc v id).
Proof.
  intros Hv Hid k. rewrite view_inc_members. unfold view_inc. destruct id as [|b r]; [apply Hv|].
  destruct (vinc (vw_vv v) (b :: r)) as [x|] eqn:E; [|apply Hv].
  apply vinc_Ok in E as (_ & _ & ->). cbn [set_vv vw_vv].
  destruct (decide (k = b :: r)) as [->|Hne]; [auto|]. rewrite lookup_insert_ne by congruence. apply Hv.
Qed.

Lemma WF_set_status v id st : WF v -> WF (view_set_status v id st).
Proof.
  intros Hv k x Hk. cbn in Hk. destruct (decide (k = id)) as [->|Hne].
  - rewrite lookup_alter in Hk. destruct (vw_members v !! id) as [s|] eqn:E; [|discriminate].
    injection Hk as <-. apply (Hv id s E).
  - rewrite lookup_alter_ne in Hk by congruence. apply (Hv k x Hk).
Qed.
Lemma VVin_set_status v id st : VVin v -> VVin (view_set_status v id st).
Proof. intros Hv k Hk. apply lookup_alter_is_Some, Hv, Hk. Qed.

Lemma wf_rejoin_state self v now : WF v -> wf_state self -> wf_state (fst (view_rejoin self v now)).
Proof.
  intros Hv Hs. unfold view_rejoin. destruct (vw_members v !! ns_id self) as [prev|] eqn:E; [|exact Hs].
  destruct (_ <=? _)%Z; [|exact Hs]. cbn [fst]. destruct (Hv _ _ E) as [_ [Hg Hl]].
  split; cbn; [lia|]. destruct (ns_lc prev =? 0); lia.
Qed.
Lemma WF_rejoin self v now : WF v -> wf_state self -> WF (snd (view_rejoin self v now)).
Proof.
  intros Hv Hs. pose proof (wf_rejoin_state self v now Hv Hs) as Hw. unfold view_rejoin in *.
  destruct (vw_members v !! ns_id self) as [prev|]; [|exact Hv].
  destruct (_ <=? _)%Z; [|exact Hv]. cbn [fst snd] in *. apply WF_add; assumption.
Qed.
Lemma VVin_rejoin self v now : VVin v -> VVin (snd (view_rejoin self v now)).
Proof.
  intros Hv. unfold view_rejoin. destruct (vw_members v !! ns_id self) as [prev|]; [|exact Hv].
  destruct (_ <=? _)%Z; [|exact Hv]. cbn [snd]. apply VVin_add. exact Hv.
Qed.

Lemma WF_merge sk st now v o : WF v -> WF o -> WF (fst (view_merge sk st now v o)).
Proof.
  intros Hv Ho k s Hk. rewrite view_merge_members, merge_members_lookup in Hk.
  destruct (vw_members v !! k) as [e|] eqn:Ev, (vw_members o !! k) as [x|] eqn:Eo; try discriminate;
    injection Hk as <-; [destruct (isnewer x e)| |]; first [apply (Ho _ _ Eo)|apply (Hv _ _ Ev)].
Qed.

Lemma VVin_merge sk st now v o : VVin v -> VVin o -> VVin (fst (view_merge sk st now v o)).
Proof.
  intros Hv Ho. destruct (o_empty_dec o) as [H|H].
  - rewrite view_merge_empty by exact H. exact Hv.
  - intros k Hk. rewrite view_merge_members, merge_members_lookup.
    rewrite view_merge_vv in Hk by exact H. apply vmerge_dom in Hk as [[c Hk]|Hk].
    + apply recompute_vv_sub in Hk. destruct (Hv k) as [e He]; [eexists; exact Hk|].
      rewrite He. destruct (vw_members o !! k); eexists; reflexivity.
    + destruct (Ho k Hk) as [x Hx]. rewrite Hx. destruct (vw_members v !! k); eexists; reflexivity.
Qed.

Theorem reach_wf v : reach v -> WF v /\ VVin v.
Proof.
  induction 1 as [now maxent|v s Hr [IH1 IH2] Hs|v id Hr [IH1 IH2] Hid|v id st Hr [IH1 IH2]
                 |v self now Hr [IH1 IH2] Hs|sk st now v o Hr1 [IH1 IH2] Hr2 [IH3 IH4]|v Hr IH].
  - split; [apply WF_new|apply VVin_new].
  - split; [apply WF_add; assumption|apply VVin_add; assumption].
  - split; [apply WF_inc; assumption|apply VVin_inc; assumption].
  - split; [apply WF_set_status; assumption|apply VVin_set_status; assumption].
  - split; [apply WF_rejoin; assumption|apply VVin_rejoin; assumption].
  - split; [apply WF_merge; assumption|apply VVin_merge; assumption].
  - exact IH.
Qed.

(** a one-member view with the member's own vector entry, as AddMember(self); IncrementVersion(self) builds it *)
Lemma reach_one_member now maxent s : wf_state s -> ns_id s <> [] ->
  reach (view_inc (view_add (new_view now maxent) s) (ns_id s)).
Proof.
  intros Hs Hid. apply R_inc; [apply R_join; [apply R_new|exact Hs]|].
  unfold view_add. cbn. rewrite lookup_empty. cbn. rewrite lookup_insert. eauto.
Qed.

Lemma pjoin_lookup (a b : pmap) k :
  pjoin a b !! k = match a !! k, b !! k with
                   | Some x, Some y => Some (inc_max x y)
                   | Some x, None => Some x
                   | None, Some y => Some y
                   | None, None => None
                   end.
Proof. apply (lookup_join inc_max). Qed.

Lemma proj_merge_pointwise sk st now v o k :
  WF v -> WF o ->
  proj (fst (view_merge sk st now v o)) !! k =
  match proj v !! k, proj o !! k with
  | Some x, Some y => Some (inc_max x y)
  | Some x, None => Some x
  | None, Some y => Some y
  | None, None => None
  end.
Proof.
  intros Hv Ho. unfold proj. rewrite !lookup_fmap, view_merge_members, merge_members_lookup.
  destruct (vw_members v !! k) as [e|] eqn:Ev, (vw_members o !! k) as [x|] eqn:Eo; cbn; try reflexivity.
  destruct (Hv _ _ Ev) as [Ie We], (Ho _ _ Eo) as [Ix Wx].
  rewrite (isnewer_wf x e) by (assumption || congruence).
  unfold inc_max. destruct (inc_lt (inc_of e) (inc_of x)); reflexivity.
Qed.

Theorem proj_merge sk st now v o :
  WF v -> WF o -> proj (fst (view_merge sk st now v o)) = pjoin (proj v) (proj o).
Proof. intros Hv Ho. apply map_eq. intros k. rewrite pjoin_lookup. apply proj_merge_pointwise; assumption. Qed.

Theorem pjoin_comm a b : pjoin a b = pjoin b a.
Proof. apply join_comm, inc_max_comm. Qed.
Theorem pjoin_assoc a b c : pjoin (pjoin a b) c = pjoin a (pjoin b c).
Proof. apply join_assoc, inc_max_assoc. Qed.
Theorem pjoin_idem a : pjoin a a = a.
Proof. apply join_idem, inc_max_idem. Qed.
Lemma pjoin_empty_l a : pjoin ∅ a = a.
Proof. unfold pjoin. apply (left_id ∅ _). Qed.
Lemma pjoin_empty_r a : pjoin a ∅ = a.
Proof. unfold pjoin. apply (right_id ∅ _). Qed.

Theorem proj_merge_comm sk st now sk' st' now' a b :
  WF a -> WF b ->
  proj (fst (view_merge sk st now a b)) = proj (fst (view_merge sk' st' now' b a)).
Proof. intros Ha Hb. rewrite !proj_merge by assumption. apply pjoin_comm. Qed.

Theorem proj_merge_assoc sk1 st1 n1 sk2 st2 n2 sk3 st3 n3 sk4 st4 n4 a b c :
  WF a -> WF b -> WF c ->
  proj (fst (view_merge sk1 st1 n1 (fst (view_merge sk2 st2 n2 a b)) c)) =
  proj (fst (view_merge sk3 st3 n3 a (fst (view_merge sk4 st4 n4 b c)))).
Proof.
  intros Ha Hb Hc. rewrite !proj_merge by (try apply WF_merge; assumption). apply pjoin_assoc.
Qed.

Theorem proj_merge_idem sk st now a : WF a -> proj (fst (view_merge sk st now a a)) = proj a.
Proof. intros Ha. rewrite proj_merge by assumption. apply pjoin_idem. Qed.

Lemma pjoin_all_app l1 l2 : pjoin_all (l1 ++ l2) = pjoin (pjoin_all l1) (pjoin_all l2).
Proof.
  unfold pjoin_all. induction l1 as [|v l1 IH]; cbn [app foldr].
  - symmetry. apply pjoin_empty_l.
  - rewrite IH. symmetry. apply pjoin_assoc.
Qed.

Lemma pjoin_all_perm l1 l2 : l1 ≡ₚ l2 -> pjoin_all l1 = pjoin_all l2.
Proof.
  apply (foldr_permutation_proper (=)); [solve_proper|]. intros v1 v2 acc.
  rewrite <- !pjoin_assoc, (pjoin_comm (proj v1)). reflexivity.
Qed.

Theorem meval_spec e :
  Forall WF (mleaves e) -> WF (meval e) /\ proj (meval e) = pjoin_all (mleaves e).
Proof.
  induction e as [v|sk st now l IHl r IHr]; cbn [mleaves meval]; intros H.
  - apply Forall_inv in H. split; [exact H|]. symmetry. apply pjoin_empty_r.
  - apply Forall_app in H as [Hl Hr]. destruct (IHl Hl) as [Wl Pl], (IHr Hr) as [Wr Pr].
    split; [apply WF_merge; assumption|]. rewrite proj_merge by assumption. rewrite Pl, Pr, pjoin_all_app. reflexivity.
Qed.

Theorem merge_order_insensitive e1 e2 :
  Forall WF (mleaves e1) -> mleaves e1 ≡ₚ mleaves e2 -> proj (meval e1) = proj (meval e2).
Proof.
  intros H1 Hp. assert (H2 : Forall WF (mleaves e2)) by (rewrite <- Hp; exact H1).
  rewrite (proj2 (meval_spec e1 H1)), (proj2 (meval_spec e2 H2)). apply pjoin_all_perm. exact Hp.
Qed.

Theorem pjoin_all_none l k : pjoin_all l !! k = None <-> (forall v, v ∈ l -> proj v !! k = None).
Proof.
  unfold pjoin_all. induction l as [|v l IH]; cbn [foldr].
  - rewrite lookup_empty. split; [intros _ v Hv; inversion Hv|reflexivity].
  - rewrite pjoin_lookup. setoid_rewrite elem_of_cons. split.
    + intros H w [->|Hw]; destruct (proj v !! k), (foldr _ _ l !! k); try discriminate; [reflexivity|].
      apply (proj1 IH eq_refl), Hw.
    + intros H. rewrite (H v), (proj2 IH) by auto. reflexivity.
Qed.

Theorem pjoin_all_some l k p :
  pjoin_all l !! k = Some p ->
  (exists v, v ∈ l /\ proj v !! k = Some p) /\
  (forall v q, v ∈ l -> proj v !! k = Some q -> inc_lt p q = false).
Proof.
  unfold pjoin_all. revert p. induction l as [|v l IH]; cbn [foldr]; intros p.
  - rewrite lookup_empty. discriminate.
  - rewrite pjoin_lookup. setoid_rewrite elem_of_cons.
    destruct (proj v !! k) as [x|] eqn:E1, (foldr _ _ l !! k) as [y|] eqn:E2; try discriminate; intros [= <-].
    + destruct (IH y eq_refl) as [(w & Hw & Hwk) Hmax]. split.
      * destruct (inc_max_cases x y) as [->| ->]; eauto.
      * intros u q [->|Hu] Hq.
        -- rewrite E1 in Hq. injection Hq as <-. apply inc_max_ge_l.
        -- apply (inc_lt_neg_trans _ y); [apply (Hmax u q Hu Hq)|apply inc_max_ge_r].
    + split; [eauto|]. intros u q [->|Hu] Hq.
      * rewrite E1 in Hq. injection Hq as <-. apply inc_lt_irrefl.
      * rewrite (proj1 (pjoin_all_none l k) E2 u Hu) in Hq. discriminate.
    + destruct (IH y eq_refl) as [(w & Hw & Hwk) Hmax]. split; [eauto|].
      intros u q [->|Hu] Hq; [congruence|apply (Hmax u q Hu Hq)].
Qed.

Theorem merge_keeps_member sk st now v o k s :
  vw_members v !! k = Some s ->
  exists s', vw_members (fst (view_merge sk st now v o)) !! k = Some s' /\
             (s' = s \/ (vw_members o !! k = Some s' /\ isnewer s' s = true)).
Proof.
  intros Hk. rewrite view_merge_members, merge_members_lookup, Hk.
  destruct (vw_members o !! k) as [x|] eqn:Eo; [|exists s; auto].
  destruct (isnewer x s) eqn:N; [exists x; auto|exists s; auto].
Qed.

Theorem merge_no_regression sk st now v o k p :
  WF v -> WF o -> proj v !! k = Some p ->
  exists p', proj (fst (view_merge sk st now v o)) !! k = Some p' /\ inc_lt p' p = false.
Proof.
  intros Hv Ho Hk. rewrite proj_merge_pointwise, Hk by assumption.
  destruct (proj o !! k) as [q|]; [exists (inc_max p q); split; [reflexivity|apply inc_max_ge_l]|
                                   exists p; split; [reflexivity|apply inc_lt_irrefl]].
Qed.

Theorem merge_epoch_mono sk st now v o :
  (vw_epoch v <= vw_epoch (fst (view_merge sk st now v o)))%Z /\
  (vw_ts v <= vw_ts (fst (view_merge sk st now v o)))%Z /\
  vw_proto v <= vw_proto (fst (view_merge sk st now v o)).
Proof.
  destruct (view_merge_epoch_ts_proto sk st now v o) as (-> & -> & ->).
  destruct (_ && _), (bool_decide _); lia.
Qed.

Theorem merge_epoch_max st now v o :
  st <> 1%Z -> vw_members o <> ∅ ->
  vw_epoch (fst (view_merge 0 st now v o)) = Z.max (vw_epoch v) (vw_epoch o).
Proof.
  intros Hst Hne. rewrite (proj1 (view_merge_epoch_ts_proto 0 st now v o)).
  rewrite bool_decide_eq_false_2 by (apply map_size_non_empty_iff, Hne).
  unfold adopts. replace (st =? 1)%Z with false by lia. rewrite andb_false_r. reflexivity.
Qed.

Lemma CapOK_merge_inner sk st now v o :
  CapOK (fst (view_merge sk st now v o)) ->
  CapOK (set_members v (merge_members (vw_members v) (vw_members o))).
Proof. unfold CapOK. rewrite view_merge_members, view_merge_maxent. exact (fun H => H). Qed.

Theorem merge_vv_member_mono sk st now v o k :
  CapOK (fst (view_merge sk st now v o)) ->
  is_Some (vw_members (fst (view_merge sk st now v o)) !! k) ->
  vget (vw_vv v) k <= vget (vw_vv (fst (view_merge sk st now v o))) k.
Proof.
  intros Hcap Hk. destruct (o_empty_dec o) as [H|H].
  - rewrite view_merge_empty by exact H. cbn [fst]. lia.
  - rewrite view_merge_vv by exact H. rewrite vget_merge.
    apply CapOK_merge_inner in Hcap. rewrite view_merge_members in Hk.
    unfold vget at 2. rewrite recompute_vv_keep by assumption. cbn [set_members vw_vv]. fold (vget (vw_vv v) k). lia.
Qed.

Theorem merge_vv_mono sk st now v o :
  VVin v -> CapOK (fst (view_merge sk st now v o)) ->
  forall k, vget (vw_vv v) k <= vget (vw_vv (fst (view_merge sk st now v o))) k.
Proof.
  intros Hin Hcap k. destruct (vw_vv v !! k) as [c|] eqn:E.
  - apply merge_vv_member_mono; [exact Hcap|].
    destruct (Hin k) as [s Hs]; [eexists; exact E|].
    destruct (merge_keeps_member sk st now v o k s Hs) as (s' & Hs' & _). eexists; exact Hs'.
  - unfold vget at 1. rewrite E. cbn. lia.
Qed.

Lemma merge_inner_vv sk st now v o :
  VVin v -> CapOK (fst (view_merge sk st now v o)) ->
  vw_vv (recompute (set_members v (merge_members (vw_members v) (vw_members o)))) = vw_vv v.
Proof.
  intros Hin Hcap. rewrite recompute_vv_id; [reflexivity| |apply CapOK_merge_inner in Hcap; exact Hcap].
  intros k Hk. destruct (Hin k Hk) as [s Hs]. cbn [set_members vw_members].
  rewrite merge_members_lookup, Hs. destruct (vw_members o !! k); eexists; reflexivity.
Qed.

Theorem merge_vv_value sk st now v o :
  VVin v -> CapOK (fst (view_merge sk st now v o)) -> vw_members o <> ∅ ->
  vw_vv (fst (view_merge sk st now v o)) = vmerge (vw_vv v) (vw_vv o).
Proof.
  intros Hin Hcap Hne. rewrite view_merge_vv by (apply map_size_non_empty_iff, Hne).
  rewrite (merge_inner_vv sk st now) by assumption. reflexivity.
Qed.

Lemma VVin_no_members v : VVin v -> vw_members v = ∅ -> vw_vv v = ∅.
Proof.
  intros Hin He. apply map_eq. intros k. rewrite lookup_empty.
  destruct (vw_vv v !! k) as [c|] eqn:E; [|reflexivity].
  destruct (Hin k) as [s Hs]; [eexists; exact E|]. rewrite He, lookup_empty in Hs. discriminate.
Qed.

(** also for an argument view without members (which the merge ignores): its vector is then empty *)
Lemma merge_vv_total sk st now v o :
  VVin v -> VVin o -> CapOK (fst (view_merge sk st now v o)) ->
  vw_vv (fst (view_merge sk st now v o)) = vmerge (vw_vv v) (vw_vv o).
Proof.
  intros Hv Ho Hcap. destruct (decide (vw_members o = ∅)) as [E|E]; [|apply merge_vv_value; assumption].
  rewrite view_merge_empty, (VVin_no_members o Ho E) by exact E. reflexivity.
Qed.

Theorem merge_vv_comm sk st now sk' st' now' a b :
  VVin a -> VVin b ->
  CapOK (fst (view_merge sk st now a b)) -> CapOK (fst (view_merge sk' st' now' b a)) ->
  vw_vv (fst (view_merge sk st now a b)) = vw_vv (fst (view_merge sk' st' now' b a)).
Proof. intros Ha Hb Ca Cb. rewrite !merge_vv_total by assumption. apply vmerge_comm. Qed.

Lemma is_equal_veq a b : is_equal a b = true <-> veq a b.
Proof.
  unfold is_equal. rewrite <- vcompare_equal. destruct (vcompare a b); split; congruence.
Qed.

Theorem merge_changed_exact sk st now v o :
  let v' := fst (view_merge sk st now v o) in
  snd (view_merge sk st now v o) = true <->
  (vw_members v' <> vw_members v \/ ~ veq (vw_vv v') (vw_vv v) \/ vw_epoch v' <> vw_epoch v \/
   vw_ts v' <> vw_ts v \/ vw_proto v' <> vw_proto v).
Proof.
  cbn zeta.
  destruct (o_empty_dec o) as [H|H].
  - rewrite view_merge_empty by exact H. cbn [fst snd]. split; [discriminate|].
    intros [A|[A|[A|[A|A]]]]; try congruence. exfalso; apply A. intros k; reflexivity.
  - pose proof (view_merge_members sk st now v o) as Hm.
    revert Hm. unfold view_merge, view_merge_gen. rewrite bool_decide_eq_false_2 by exact H.
    cbn [fst snd vw_members vw_vv vw_epoch vw_ts vw_proto]. intros Hm.
    rewrite Hm.
    set (mvv := vmerge _ _).
    set (adopt := negb _ && negb _).
    split.
    + rewrite !orb_true_iff. intros [[[[A|A]|A]|A]|A].
      * left. apply members_changed_neq. exact A.
      * right; left. apply negb_true_iff in A. intros Hq. apply is_equal_veq in Hq. congruence.
      * right; right; left. rewrite A. apply andb_true_iff in A as [_ A]. lia.
      * right; right; right; left. rewrite A. apply andb_true_iff in A as [_ A]. lia.
      * right; right; right; right. rewrite A. lia.
    + intros Hd. apply not_false_iff_true. intros Hf.
      rewrite !orb_false_iff in Hf. destruct Hf as [[[[A B] C] D] E].
      rewrite C, D, E in Hd. apply negb_false_iff, is_equal_veq in B.
      rewrite (members_unchanged_eq _ _ A) in Hd.
      destruct Hd as [X|[X|[X|[X|X]]]]; try (apply X; reflexivity). apply X; exact B.
Qed.

Theorem merge_changed_sound sk st now v o :
  vw_members (fst (view_merge sk st now v o)) <> vw_members v \/
  (exists k, vget (vw_vv (fst (view_merge sk st now v o))) k <> vget (vw_vv v) k) ->
  snd (view_merge sk st now v o) = true.
Proof.
  intros Hd. apply (merge_changed_exact sk st now v o).
  destruct Hd as [Hd|[k Hk]]; [left; exact Hd|right; left]. intros Hq. apply Hk. apply Hq.
Qed.

Lemma view_merge_before_fix_fst sk st now v o :
  fst (view_merge_before_fix sk st now v o) = fst (view_merge sk st now v o).
Proof. unfold view_merge_before_fix, view_merge, view_merge_gen. destruct (bool_decide _); reflexivity. Qed.

Theorem merge_self sk st now v :
  let r := view_merge sk st now v (view_snapshot v) in
  vw_members (fst r) = vw_members v /\ veq (vw_vv (fst r)) (vw_vv v) /\
  vw_epoch (fst r) = vw_epoch v /\ vw_ts (fst r) = vw_ts v.
Proof.
  cbn zeta. unfold view_snapshot. split; [|split].
  - rewrite view_merge_members. apply (join_idem (fun e x => if isnewer x e then x else e)).
    intros s. rewrite isnewer_irrefl. reflexivity.
  - destruct (o_empty_dec v) as [H|H].
    + rewrite view_merge_empty by exact H. intros k; reflexivity.
    + rewrite view_merge_vv by exact H. intros k. rewrite vget_merge.
      pose proof (vget_recompute_le (set_members v (merge_members (vw_members v) (vw_members v))) k) as L.
      cbn [set_members vw_vv] in L. lia.
  - destruct (view_merge_epoch_ts_proto sk st now v v) as (-> & -> & _). rewrite !Z.max_id. destruct (_ && _); auto.
Qed.

Definition ida : list N := [97].
Definition idb : list N := [98].
Definition mk (id : list N) (gen : Z) (lc : N) (st ts : Z) : nstate := NState id id gen ts 0 st lc ts.

Lemma wf_mk id st ts : wf_state (mk id 1 1 st ts).
Proof. split; cbn; lia. Qed.

(** (1) same incarnation, different status: each side keeps its own state, so the members maps of
    merge(a,b) and merge(b,a) differ although both views are reachable (status flips are in place) *)
Definition w_up : view := view_inc (view_add (new_view 100 0) (mk ida 1 1 st_up 100)) ida.
Definition w_suspect : view := view_set_status w_up ida st_suspect.

Lemma w_reach : reach w_up /\ reach w_suspect.
Proof.
  assert (R : reach w_up) by (apply (reach_one_member 100 0 (mk ida 1 1 st_up 100)); [apply wf_mk|discriminate]).
  split; [exact R|apply R_status; exact R].
Qed.

Lemma full_state_comm_refuted :
  exists a b, reach a /\ reach b /\
    vw_members (fst (view_merge 0 0 0 a b)) <> vw_members (fst (view_merge 0 0 0 b a)) /\
    snd (view_merge 0 0 0 a b) = false /\ snd (view_merge 0 0 0 b a) = false.
Proof.
  exists w_up, w_suspect. destruct w_reach as [R1 R2]. repeat split; try assumption.
  intros H. apply (f_equal (fun m => ns_status <$> m !! ida)) in H. vm_compute in H. discriminate.
Qed.

(** (2) MaxVersionVectorEntries smaller than the member count: the prune in recomputeCounts drops a
    member's entry and a later merge lowers it.  The merge reports changed = true (before the repair
    of the flag it reported false). All three views are built by the code's own operations. *)
Definition w_cap_a : view := view_inc (view_add (new_view 100 1) (mk ida 1 1 st_up 100)) ida.
Definition w_cap_b : view := view_inc (view_add (new_view 100 1) (mk idb 1 1 st_up 100)) idb.
Definition w_cap_ab : view := fst (view_merge 0 0 0 w_cap_a w_cap_b).

Lemma vv_entry_lowered_when_cap_exceeded :
  exists v o k, reach v /\ reach o /\ is_Some (vw_members v !! k) /\
    vget (vw_vv (fst (view_merge 0 0 0 v o))) k < vget (vw_vv v) k /\
    snd (view_merge 0 0 0 v o) = true /\
    snd (view_merge_before_fix 0 0 0 v o) = false /\
    ~ CapOK (fst (view_merge 0 0 0 v o)).
Proof.
  assert (Ra : reach w_cap_a) by (apply (reach_one_member 100 1 (mk ida 1 1 st_up 100)); [apply wf_mk|discriminate]).
  assert (Rb : reach w_cap_b) by (apply (reach_one_member 100 1 (mk idb 1 1 st_up 100)); [apply wf_mk|discriminate]).
  exists w_cap_ab, w_cap_a, idb.
  split; [apply R_merge; assumption|]. split; [exact Ra|]. split; [vm_compute; eexists; reflexivity|].
  split; [vm_compute; reflexivity|]. split; [vm_compute; reflexivity|]. split; [vm_compute; reflexivity|].
  unfold CapOK. vm_compute. intros H. apply H. reflexivity.
Qed.

Lemma vv_entry_monotone_refuted :
  exists v o k, reach v /\ reach o /\ is_Some (vw_members v !! k) /\
    vget (vw_vv (fst (view_merge 0 0 0 v o))) k < vget (vw_vv v) k.
Proof.
  destruct vv_entry_lowered_when_cap_exceeded as (v & o & k & H1 & H2 & H3 & H4 & _).
  exists v, o, k. auto.
Qed.

(** (3) a version-vector key that is not a member (RemoveMember(self); IncrementVersion(self), the
    ForceMemberDown path for the node's own id): the prune drops it.  No member's entry is lowered by
    that, and the merge reports changed = true; before the repair of the flag it reported false. *)
Definition w_nm : view :=
  view_inc (view_remove (view_inc (view_add (view_add (new_view 100 0) (mk ida 1 1 st_up 100)) (mk idb 1 1 st_up 100)) idb) idb) idb.
Definition w_nm_o : view := view_add (new_view 100 0) (mk ida 1 1 st_up 100).

Lemma changed_unsound_before_fix :
  (forall sk st now v o, fst (view_merge_before_fix sk st now v o) = fst (view_merge sk st now v o)) /\
  (exists v o k, reach v /\ reach o /\
     vget (vw_vv (fst (view_merge 0 0 0 v o))) k <> vget (vw_vv v) k /\
     snd (view_merge 0 0 0 v o) = true /\ snd (view_merge_before_fix 0 0 0 v o) = false) /\
  (WF w_nm /\ WF w_nm_o /\ ~ VVin w_nm /\ vw_members w_nm !! idb = None /\
   vget (vw_vv (fst (view_merge 0 0 0 w_nm w_nm_o))) idb < vget (vw_vv w_nm) idb /\
   snd (view_merge 0 0 0 w_nm w_nm_o) = true /\ snd (view_merge_before_fix 0 0 0 w_nm w_nm_o) = false).
Proof.
  split; [exact view_merge_before_fix_fst|]. split.
  { destruct vv_entry_lowered_when_cap_exceeded as (v & o & k & H1 & H2 & H3 & H4 & H5 & H6 & _).
    exists v, o, k. split; [exact H1|]. split; [exact H2|]. split; [lia|]. split; [exact H5|exact H6]. }
  split; [|split; [|split; [|repeat split; vm_compute; reflexivity]]].
  - unfold w_nm. apply WF_inc, WF_remove, WF_inc, WF_add; [apply WF_add; [apply WF_new|apply wf_mk]|apply wf_mk].
  - unfold w_nm_o. apply WF_add; [apply WF_new|apply wf_mk].
  - intros H. destruct (H idb) as [s Hs]; [vm_compute; eexists; reflexivity|]. vm_compute in Hs. discriminate.
Qed.

(** (4) a wire-decoded state with logical clock 0 replaces a newer incarnation on timestamp *)
Definition w_lc5 : view := view_add (new_view 100 0) (mk ida 1 5 st_up 100).
Definition w_lc0 : view := view_add (new_view 100 0) (mk ida 1 0 st_up 200).
Lemma regression_without_wf :
  WF w_lc5 /\ ~ WF w_lc0 /\
  proj w_lc5 !! ida = Some (1%Z, 5) /\ proj (fst (view_merge 0 0 0 w_lc5 w_lc0)) !! ida = Some (1%Z, 0).
Proof.
  split; [|split; [|split; vm_compute; reflexivity]].
  - apply WF_add; [apply WF_new|split; cbn; lia].
  - intros H. destruct (H ida (mk ida 1 0 st_up 200)) as [_ [_ Hl]]; [vm_compute; reflexivity|]. cbn in Hl. lia.
Qed.

(** (5) PreferLocal on concurrent vectors: the epoch of merge(a,b) and merge(b,a) differ (the
    property only claims order-insensitivity of the membership) *)
Definition w_ep (id : list N) (ep : Z) : view :=
  let v := view_inc (view_add (new_view 100 0) (mk id 1 1 st_up 100)) id in
  View ep (vw_ts v) (vw_members v) (vw_healthy v) (vw_unhealthy v) (vw_quorum v) (vw_vv v) (vw_proto v) (vw_maxent v).
Lemma epoch_not_commutative_prefer_local :
  vw_epoch (fst (view_merge 0 1 0 (w_ep ida 1) (w_ep idb 2))) = 1%Z /\
  vw_epoch (fst (view_merge 0 1 0 (w_ep idb 2) (w_ep ida 1))) = 2%Z /\
  vw_epoch (fst (view_merge 0 0 0 (w_ep ida 1) (w_ep idb 2))) = 2%Z.
Proof. vm_compute. auto. Qed.

(** non-vacuity: a reachable pair with different members, a restart, concurrent vectors *)
Definition ex_a : view :=
  view_inc (view_add (view_inc (view_add (new_view 100 0) (mk ida 1 1 st_up 100)) ida) (mk idb 1 1 st_up 101)) ida.
Definition ex_b : view :=
  view_inc (snd (view_rejoin (mk idb 1 1 st_up 300) (view_add (new_view 200 0) (mk idb 1 1 st_up 101)) 300)) idb.
Lemma ex_reach : reach ex_a /\ reach ex_b.
Proof.
  split; (apply R_inc; [|vm_compute; eexists; reflexivity]).
  - apply R_join; [apply w_reach|apply wf_mk].
  - apply R_rejoin; [apply R_join; [apply R_new|]|]; apply wf_mk.
Qed.
Lemma ex_capok : CapOK (fst (view_merge 0 0 0 ex_a ex_b)).
Proof. unfold CapOK. vm_compute. discriminate. Qed.
Lemma ex_merge_values :
  proj (fst (view_merge 0 0 0 ex_a ex_b)) !! idb = Some (2%Z, 2) /\
  proj (fst (view_merge 0 0 0 ex_a ex_b)) !! ida = Some (1%Z, 1) /\
  snd (view_merge 0 0 0 ex_a ex_b) = true /\
  is_concurrent (vw_vv ex_a) (vw_vv ex_b) = true.
Proof. vm_compute. auto. Qed.

Lemma meval_union_newest e k :
  Forall WF (mleaves e) ->
  (proj (meval e) !! k = None <-> (forall v, v ∈ mleaves e -> proj v !! k = None)) /\
  (forall p, proj (meval e) !! k = Some p ->
     (exists v, v ∈ mleaves e /\ proj v !! k = Some p) /\
     (forall v q, v ∈ mleaves e -> proj v !! k = Some q -> inc_lt p q = false)).
Proof.
  intros H. rewrite (proj2 (meval_spec e H)). split; [apply pjoin_all_none|intros p; apply pjoin_all_some].
Qed.
