(** Caps and boundaries of the version vector, on BOTH sides: which vectors the API can build
    (Increment / Merge / Compact / PruneWithMax / Read), which the writer accepts, which the reader accepts. *)
From stdpp Require Import gmap sorting.
From Vivid Require Import Codec.Prim Codec.PrimProofs Cluster.VV Cluster.VVProofs Cluster.VVHeap.
Local Open Scope N_scope.

Lemma wf_vv_alt v : wf_vv v <-> N.of_nat (size v) <= max_entries /\ entries_ok v.
Proof. reflexivity. Qed.

Lemma vread_entries_ok n : forall acc bs m rest (sz : nat),
  entries_ok acc -> (size acc <= sz)%nat ->
  vread_entries n acc bs = Ok (m, rest) -> entries_ok m /\ (size m <= sz + n)%nat.
Proof.
  induction n as [|n IH]; intros acc bs m rest sz Hok Hsz; cbn [vread_entries].
  - intros [= <- <-]. split; [exact Hok|lia].
  - destruct (rd_lp4 bs) as [[k bs1]|e]; cbn [bind]; [|discriminate].
    destruct (valid_addr k) eqn:Ek; [|discriminate].
    destruct (rd_u64 bs1) as [[c bs2]|e]; cbn [bind]; [|discriminate].
    destruct (N.ltb_spec max_counter c); [discriminate|]. intros Hr.
    destruct (IH (<[k:=c]> acc) bs2 m rest (S sz)) as [A B]; [| |exact Hr|split; [exact A|lia]].
    + intros k' c' Hl. apply lookup_insert_Some in Hl as [[<- <-]|[_ Hl]]; [split; [exact Ek|lia]|apply Hok, Hl].
    + destruct (acc !! k) eqn:El; [rewrite map_size_insert_Some by (eexists; exact El)|rewrite map_size_insert_None by exact El]; lia.
Qed.

Theorem vread_wf bs v rest : vread bs = Ok (v, rest) -> wf_vv v.
Proof.
  unfold vread. destruct (rd_u32 bs) as [[n bs1]|e]; cbn [bind]; [|discriminate].
  destruct (N.ltb_spec max_entries n); [discriminate|]. intros Hr.
  destruct (vread_entries_ok (N.to_nat n) ∅ bs1 v rest 0) as [A B]; [| |exact Hr|].
  - intros k c Hl. rewrite lookup_empty in Hl. discriminate.
  - rewrite map_size_empty. lia.
  - split; [lia|exact A].
Qed.

Theorem wire_accepts_exactly v : wf_vv v <-> exists bs, vread bs = Ok (v, []).
Proof.
  split.
  - intros H. destruct (vread_vwrite v [] H) as (bs & _ & Hr). rewrite app_nil_r in Hr. exists bs. exact Hr.
  - intros (bs & Hr). exact (vread_wf bs v [] Hr).
Qed.

Lemma vwrite_entries_spec l :
  vwrite_entries l =
  if forallb (fun p => valid_addr (fst p)) l then Ok (flat_map enc_entry l) else Err EInvalid.
Proof.
  induction l as [|[k c] l IH]; cbn [vwrite_entries forallb flat_map fst]; [reflexivity|].
  rewrite IH. destruct (valid_addr k); [|reflexivity]. destruct (forallb _ l); cbn [bind andb]; [|reflexivity].
  unfold enc_entry. cbn [fst snd]. rewrite <- app_assoc. reflexivity.
Qed.

Lemma vwrite_spec v :
  vwrite v =
  if max_entries <? N.of_nat (size v) then Err ETooLarge
  else if forallb (fun p => valid_addr (fst p)) (ventries v)
       then Ok (put_u32 (N.of_nat (size v)) ++ flat_map enc_entry (ventries v)) else Err EInvalid.
Proof.
  unfold vwrite. rewrite ventries_length, vwrite_entries_spec.
  destruct (_ <? _); [reflexivity|]. destruct (forallb _ _); reflexivity.
Qed.

Lemma ventries_all_valid v :
  forallb (fun p => valid_addr (fst p)) (ventries v) = true <-> forall k c, v !! k = Some c -> valid_addr k = true.
Proof.
  rewrite forallb_forall. split.
  - intros H k c Hk. apply (H (k, c)), elem_of_list_In. rewrite ventries_perm. apply elem_of_map_to_list, Hk.
  - intros H [k c] Hin. apply elem_of_list_In in Hin. rewrite ventries_perm in Hin.
    apply elem_of_map_to_list in Hin. exact (H k c Hin).
Qed.

Theorem vwrite_ok_iff v :
  (exists bs, vwrite v = Ok bs) <->
  N.of_nat (size v) <= max_entries /\ (forall k c, v !! k = Some c -> valid_addr k = true).
Proof.
  rewrite vwrite_spec, <- ventries_all_valid. destruct (N.ltb_spec max_entries (N.of_nat (size v))) as [Hgt|Hle].
  - split; [intros (bs & Hb); discriminate|]. intros [H _]. lia.
  - destruct (forallb _ _); split; try (intros [? ?]; discriminate); eauto.
Qed.

Theorem vwrite_too_large_iff v : vwrite v = Err ETooLarge <-> max_entries < N.of_nat (size v).
Proof.
  rewrite vwrite_spec. destruct (N.ltb_spec max_entries (N.of_nat (size v))) as [Hgt|Hle]; [tauto|].
  destruct (forallb _ _); split; try discriminate; lia.
Qed.

Theorem vwrite_format v bs :
  vwrite v = Ok bs ->
  bs = put_u32 (N.of_nat (size v)) ++ flat_map enc_entry (ventries v) /\
  StronglySorted ent_lt (ventries v) /\ ventries v ≡ₚ map_to_list v.
Proof.
  rewrite vwrite_spec. destruct (_ <? _); [discriminate|]. destruct (forallb _ _); [|discriminate].
  intros [= <-]. split; [reflexivity|apply ventries_sorted].
Qed.

Lemma vinc_entries_ok v k v' : entries_ok v -> vinc v k = Ok v' -> entries_ok v'.
Proof.
  intros Hok (Hk & Hc & ->)%vinc_Ok. apply map_Forall_insert_2; [split; [exact Hk|lia]|exact Hok].
Qed.
Lemma vmerge_entries_ok a b : entries_ok a -> entries_ok b -> entries_ok (vmerge a b).
Proof.
  intros Ha Hb k c. rewrite vmerge_union. unfold vmax_union. rewrite lookup_join.
  destruct (a !! k) as [x|] eqn:Ea, (b !! k) as [y|] eqn:Eb; intros [= <-].
  - destruct (Ha k x Ea), (Hb k y Eb). split; [assumption|lia].
  - apply (Ha k x Ea).
  - apply (Hb k y Eb).
Qed.
Lemma filter_entries_ok (P : list N * N -> Prop) `{!forall x, Decision (P x)} (v : vv) : entries_ok v -> entries_ok (filter P v).
Proof. intros Hok k c Hl. apply map_filter_lookup_Some in Hl as [Hl _]. apply Hok, Hl. Qed.
Lemma vprune_entries_ok v act maxe : entries_ok v -> entries_ok (vprune_max v act maxe).
Proof.
  intros Hok. unfold vprune_max. destruct (_ || _); [intros k c Hl; rewrite lookup_empty in Hl; discriminate|].
  apply filter_entries_ok, Hok.
Qed.

Theorem api_reach_entries_ok v : api_reach v -> entries_ok v.
Proof.
  induction 1.
  - apply map_Forall_empty.
  - eapply vinc_entries_ok; eassumption.
  - apply vmerge_entries_ok; assumption.
  - apply filter_entries_ok; assumption.
  - apply vprune_entries_ok; assumption.
  - exact (proj2 (vread_wf bs v rest H)).
Qed.

Theorem api_wire_agree v : (api_reach v /\ N.of_nat (size v) <= max_entries) <-> wf_vv v.
Proof.
  split.
  - intros [Hr Hs]. split; [exact Hs|apply api_reach_entries_ok, Hr].
  - intros Hwf. split; [|apply Hwf]. apply wire_accepts_exactly in Hwf as (bs & Hr). exact (api_read bs v [] Hr).
Qed.

Theorem vinc_boundary v k : valid_addr k = true ->
  (vget v k < max_counter -> exists v', vinc v k = Ok v' /\ vget v' k = vget v k + 1 /\ vget v' k <= max_counter) /\
  (max_counter <= vget v k -> vinc v k = Err EOverflow).
Proof.
  intros Hk. unfold vinc. rewrite Hk. destruct (N.leb_spec max_counter (vget v k)); (split; [|reflexivity || lia]).
  - lia.
  - intros _. eexists. split; [reflexivity|]. rewrite vget_insert, decide_True by reflexivity. lia.
Qed.

Theorem inc_producible_iff c :
  (exists v k v', vinc v k = Ok v' /\ vget v' k = c) <-> 1 <= c <= max_counter.
Proof.
  split.
  - intros (v & k & v' & (_ & Hc & ->)%vinc_Ok & <-). rewrite vget_insert, decide_True by reflexivity. lia.
  - intros Hc. exists {[ [97] := c - 1 ]}, [97], (<[ [97] := c ]> {[ [97] := c - 1 ]}).
    assert (Hg : vget ({[ [97] := c - 1 ]} : vv) [97] = c - 1) by (unfold vget; rewrite lookup_singleton; reflexivity).
    split; [|rewrite vget_insert, decide_True by reflexivity; reflexivity].
    apply vinc_Ok. rewrite Hg. split; [reflexivity|]. split; [lia|]. f_equal. lia.
Qed.

Theorem vread_counter_boundary k c rest : valid_addr k = true -> c < 18446744073709551616 ->
  vread (put_u32 1 ++ put_lp4 k ++ put_u64 c ++ rest) =
  if c <=? max_counter then Ok ({[ k := c ]}, rest) else Err EOverflow.
Proof.
  intros Hk Hc. unfold vread. rewrite rd_u32_put by lia. cbn [bind].
  replace (max_entries <? 1) with false by reflexivity.
  change (N.to_nat 1) with 1%nat. cbn [vread_entries].
  rewrite rd_lp4_put by (apply valid_addr_len32, Hk). cbn [bind]. rewrite Hk. rewrite rd_u64_put by exact Hc. cbn [bind].
  destruct (N.leb_spec c max_counter), (N.ltb_spec max_counter c); try lia; reflexivity.
Qed.

Theorem wire_counter_iff c :
  (exists bs v rest k, vread bs = Ok (v, rest) /\ v !! k = Some c) <-> c <= max_counter.
Proof.
  split.
  - intros (bs & v & rest & k & Hr & Hl). apply vread_wf in Hr. apply (proj2 Hr k c Hl).
  - intros Hc. exists (put_u32 1 ++ put_lp4 [97] ++ put_u64 c ++ []), {[ [97] := c ]}, [], [97]. split.
    + rewrite vread_counter_boundary; [|reflexivity|unfold max_counter in Hc; lia].
      destruct (N.leb_spec c max_counter); [reflexivity|lia].
    + apply lookup_singleton.
Qed.

Lemma vinc_size v k v' : vinc v k = Ok v' ->
  size v' = (match v !! k with None => S (size v) | Some _ => size v end).
Proof.
  intros (_ & _ & ->)%vinc_Ok.
  destruct (v !! k) eqn:E; [apply map_size_insert_Some; eexists; exact E|apply map_size_insert_None, E].
Qed.

Theorem vinc_beyond_entry_cap v k v' :
  N.of_nat (size v) = max_entries -> v !! k = None -> vinc v k = Ok v' -> vwrite v' = Err ETooLarge.
Proof.
  intros Hs Hk Hi. apply vwrite_too_large_iff. rewrite (vinc_size v k v' Hi), Hk. lia.
Qed.

(** a vector with exactly [n] entries (two-byte addresses), for every n <= 65536 *)
Definition key_of (i : nat) : list N := [N.of_nat i / 256; N.of_nat i mod 256].
Definition big_vv (n : nat) : vv := list_to_map (map (fun i => (key_of i, 1)) (seq 0 n)).

Lemma key_of_inj i j : key_of i = key_of j -> i = j.
Proof.
  unfold key_of. intros [= H1 H2].
  pose proof (N.div_mod (N.of_nat i) 256 ltac:(lia)). pose proof (N.div_mod (N.of_nat j) 256 ltac:(lia)). lia.
Qed.

Lemma big_vv_keys n : NoDup ((map (fun i => (key_of i, 1)) (seq 0 n)).*1).
Proof.
  rewrite <- list_fmap_compose. apply NoDup_fmap_2_strong; [|apply NoDup_seq].
  intros i j _ _ H. cbn in H. apply key_of_inj, H.
Qed.
Lemma big_vv_size n : size (big_vv n) = n.
Proof.
  unfold big_vv. change (size ?m) with (length (map_to_list m)).
  rewrite (Permutation_length (map_to_list_to_map _ (big_vv_keys n))). rewrite map_length, seq_length. reflexivity.
Qed.
Lemma big_vv_lookup n k c : big_vv n !! k = Some c -> length k = 2%nat /\ c = 1.
Proof.
  unfold big_vv. intros H. apply elem_of_list_to_map_2 in H. apply elem_of_list_In, in_map_iff in H as (i & [= <- <-] & _).
  split; reflexivity.
Qed.

Theorem entry_cap_reachable :
  exists v k v', wf_vv v /\ N.of_nat (size v) = max_entries /\ v !! k = None /\ vinc v k = Ok v' /\
                 vwrite v' = Err ETooLarge.
Proof.
  set (n := N.to_nat 65535).
  assert (En : N.of_nat n = max_entries) by (unfold n; rewrite N2Nat.id; reflexivity).
  exists (big_vv n), [1; 1; 1].
  assert (Hn : big_vv n !! [1; 1; 1] = None).
  { destruct (big_vv n !! [1; 1; 1]) as [c|] eqn:E; [|reflexivity]. apply big_vv_lookup in E as [E _]. discriminate. }
  assert (Hg : vget (big_vv n) [1; 1; 1] = 0) by (unfold vget; rewrite Hn; reflexivity).
  eexists. split; [|split; [|split; [exact Hn|split]]].
  - split; [rewrite big_vv_size, En; vm_compute; discriminate|]. intros k c H. apply big_vv_lookup in H as [Hk ->].
    split; [|vm_compute; discriminate]. unfold valid_addr. rewrite Hk. reflexivity.
  - rewrite big_vv_size. exact En.
  - unfold vinc. replace (valid_addr [1; 1; 1]) with true by reflexivity. rewrite Hg. reflexivity.
  - apply vwrite_too_large_iff. rewrite map_size_insert_None by exact Hn. rewrite big_vv_size. unfold max_entries in *. lia.
Qed.
