(** View-level facts of the clean class: the cached counts, the ghost log under a local change / a merge / the
    refresh of handleGossip, what a broadcast does for one target, and who the gossip targets are. *)
From stdpp Require Import gmap.
From Vivid Require Import Cluster.VV Cluster.VVProofs Cluster.View Cluster.ViewProofs Cluster.Gossip
  Cluster.GossipProofs Cluster.GossipCleanOps Cluster.GossipCleanInv.
Local Open Scope N_scope.

Definition all_up (m : members) : Prop := forall k s, m !! k = Some s -> ns_status s = st_up.

Lemma recompute_CC v : all_up (vw_members v) -> CC (recompute v).
Proof.
  intros Hu. unfold CC, recompute. cbn [vw_healthy vw_quorum vw_members].
  assert (E : count_up (map_to_list (vw_members v)) = N.of_nat (size (vw_members v))).
  { rewrite count_up_all_up; [reflexivity|].
    intros [k s] Hp. apply elem_of_map_to_list in Hp. cbn. apply (Hu k s Hp). }
  rewrite E. split; reflexivity.
Qed.

Lemma truthful_all_up w v : truthful w v -> all_up (vw_members v).
Proof. intros H k s Hk. apply (H k s Hk). Qed.

Lemma view_add_CC v s : CC v -> all_up (vw_members v) -> ns_status s = st_up -> CC (view_add v s).
Proof.
  intros Hc Hu Hs.
  assert (Hins : CC (recompute (set_members v (<[ns_id s := s]> (vw_members v))))).
  { apply recompute_CC. intros k x Hk. destruct v; cbn in *. destruct (decide (k = ns_id s)) as [->|Hne].
    - rewrite lookup_insert in Hk. injection Hk as <-. exact Hs.
    - rewrite lookup_insert_ne in Hk by congruence. apply (Hu k x Hk). }
  unfold view_add. destruct (vw_members v !! ns_id s) as [e|]; [destruct (isnewer s e)|]; assumption.
Qed.

Lemma view_inc_CC v id : CC v -> CC (view_inc v id).
Proof.
  intros H. unfold view_inc. destruct id; [exact H|]. destruct (vinc _ _); [|exact H]. destruct v; exact H.
Qed.

Lemma merge_CC v o now : CC v -> all_up (vw_members (fst (view_merge 0 0 now v o))) -> CC (fst (view_merge 0 0 now v o)).
Proof.
  intros Hc Hu. destruct (o_empty_dec o) as [He|He].
  - rewrite view_merge_empty by exact He. exact Hc.
  - rewrite view_merge_members in Hu. unfold view_merge, view_merge_gen. rewrite bool_decide_eq_false_2 by exact He.
    cbn [fst]. set (v1 := recompute (set_members v (merge_members (vw_members v) (vw_members o)))).
    assert (H1 : CC v1) by (apply recompute_CC; destruct v; exact Hu).
    unfold CC in *. cbn [vw_healthy vw_quorum vw_members]. exact H1.
Qed.

Lemma refresh_CC v id now : CC v -> CC (set_members v (alter (fun s => ns_refresh s now) id (vw_members v))).
Proof.
  intros H. unfold CC in *. destruct v as [ep ts ms h u q vx pr mx]; cbn [vw_healthy vw_quorum vw_members set_members] in *.
  assert (E : size (alter (fun s => ns_refresh s now) id ms) = size ms) by (rewrite <- !size_dom, dom_alter_L; reflexivity).
  rewrite E. exact H.
Qed.

Lemma sat_quorum_default v :
  vw_quorum v = (if 0 <? vw_healthy v then vw_healthy v / 2 + 1 else 0) -> sat_quorum v = (0 <? vw_healthy v).
Proof.
  intros H. unfold sat_quorum. rewrite H. destruct (0 <? vw_healthy v) eqn:E; [|reflexivity].
  assert (vw_healthy v / 2 < vw_healthy v) by (apply N.div_lt; lia). apply andb_true_iff. split; lia.
Qed.

Lemma CC_sat_quorum v : CC v -> sat_quorum v = (0 <? N.of_nat (size (vw_members v))).
Proof. intros [H1 H2]. rewrite <- H1 in H2 |- *. exact (sat_quorum_default v H2). Qed.

(** a local change: AddMember(s) on [v], possibly followed by an increment of the owner's counter *)
Lemma local_just_cover G v v2 s i c :
  WF v -> wf_state s -> just G v -> cover G v ->
  vw_members v2 = vw_members (view_add v s) ->
  (forall k, k <> i -> vget (vw_vv v2) k = vget (vw_vv v) k) ->
  vget (vw_vv v) i <= vget (vw_vv v2) i -> c = vget (vw_vv v2) i ->
  (forall e0, e0 ∈ G -> g_i e0 = i -> g_c e0 <= vget (vw_vv v) i) ->
  just (G ++ [GEnt i c (ns_id s) (inc_of s)]) v2 /\ cover (G ++ [GEnt i c (ns_id s) (inc_of s)]) v2.
Proof.
  intros Hwf Hs Hj Hc Hm Hoth Hi Ec Hwin.
  assert (Hle : forall k, vget (vw_vv v) k <= vget (vw_vv v2) k).
  { intros k. destruct (decide (k = i)) as [->|Hne]; [exact Hi|rewrite Hoth by exact Hne; lia]. }
  split.
  - intros m e Hme. rewrite Hm in Hme. apply view_add_lookup_cases in Hme as [Hold|[-> ->]].
    + destruct (Hj m e Hold) as (e0 & H1 & H2 & H3 & H4). exists e0. split; [apply elem_of_app; left; exact H1|].
      split; [exact H2|]. split; [exact H3|]. unfold sel in *. specialize (Hle (g_i e0)). lia.
    + eexists. split; [apply elem_of_app; right; apply elem_of_list_singleton; reflexivity|].
      cbn. split; [reflexivity|]. split; [reflexivity|]. unfold sel; cbn. lia.
  - intros e He Hsel. apply elem_of_app in He as [He|He].
    + assert (Hsel0 : sel (vw_vv v) e).
      { unfold sel in *. destruct (decide (g_i e = i)) as [Ei|Hne]; [rewrite Ei; apply Hwin; assumption|].
        rewrite Hoth in Hsel by exact Hne. exact Hsel. }
      destruct (Hc e He Hsel0) as (s0 & Hs0 & L0).
      destruct (view_add_keeps v s (g_m e) s0 Hwf Hs Hs0) as (s1 & Hs1 & L1).
      exists s1. rewrite Hm. split; [exact Hs1|]. eapply inc_lt_neg_trans; eassumption.
    + apply elem_of_list_singleton in He. subst e. cbn.
      destruct (view_add_lookup_self v s Hwf Hs) as (e1 & H1 & H2 & _). exists e1. rewrite Hm. split; [exact H1|exact H2].
Qed.

Lemma merge_just_cover G v o now :
  WF v -> WF o -> VVin v -> VVin o -> vw_maxent v = 0%Z ->
  capN (merge_members (vw_members v) (vw_members o)) ->
  just G v -> just G o -> cover G v -> cover G o ->
  just G (fst (view_merge 0 0 now v o)) /\ cover G (fst (view_merge 0 0 now v o)).
Proof.
  intros Wv Wo Iv Io H0 Hcap Jv Jo Cv Co.
  assert (Hmax : forall k, vget (vw_vv (fst (view_merge 0 0 now v o))) k = N.max (vget (vw_vv v) k) (vget (vw_vv o) k))
    by (intros k; apply merge_vget; assumption).
  split.
  - intros m s Hs. apply merge_lookup_cases in Hs as [Hs|Hs].
    + destruct (Jv m s Hs) as (e & H1 & H2 & H3 & H4). exists e. repeat split; try assumption. unfold sel in *. rewrite Hmax. lia.
    + destruct (Jo m s Hs) as (e & H1 & H2 & H3 & H4). exists e. repeat split; try assumption. unfold sel in *. rewrite Hmax. lia.
  - intros e He Hsel. unfold sel in Hsel. rewrite Hmax in Hsel.
    destruct (N.le_gt_cases (g_c e) (vget (vw_vv v) (g_i e))) as [Hl|Hl].
    + destruct (Cv e He Hl) as (s & Hs & L). destruct (merge_lookup_ge_l v o now _ _ Wv Wo Hs) as (s' & Hs' & L').
      exists s'. split; [exact Hs'|eapply inc_lt_neg_trans; eassumption].
    + assert (Hr : sel (vw_vv o) e) by (unfold sel; lia).
      destruct (Co e He Hr) as (s & Hs & L). destruct (merge_lookup_ge_r v o now _ _ Wv Wo Hs) as (s' & Hs' & L').
      exists s'. split; [exact Hs'|eapply inc_lt_neg_trans; eassumption].
Qed.

Lemma truthful_merge w v o now : truthful w v -> truthful w o -> truthful w (fst (view_merge 0 0 now v o)).
Proof. intros Hv Ho m s Hs. apply merge_lookup_cases in Hs as [Hs|Hs]; [apply (Hv m s Hs)|apply (Ho m s Hs)]. Qed.

Definition nodes_cap (w : world) : Prop := N.of_nat (size (w_nodes w)) <= max_entries.
Definition ids_uniq (w : world) : Prop :=
  forall a b n m, w_nodes w !! a = Some n -> w_nodes w !! b = Some m -> nd_id n = nd_id m -> a = b.

Lemma truthful_capN w v : truthful w v -> ids_uniq w -> nodes_cap w -> capN (vw_members v).
Proof. intros Ht Hu Hc. unfold capN. pose proof (truthful_size w v Ht Hu). unfold nodes_cap in Hc. lia. Qed.

Lemma vinv0_merge G w v o now :
  ids_uniq w -> nodes_cap w -> vinv0 G w v -> vinv0 G w o -> vinv0 G w (fst (view_merge 0 0 now v o)).
Proof.
  intros Hu Hcap [Wv Iv Tv Jv Cv Ev Pv Mv CCv] [Wo Io To Jo Co Eo Po Mo CCo].
  assert (Tm : truthful w (fst (view_merge 0 0 now v o))) by (apply truthful_merge; assumption).
  assert (Cm : capN (merge_members (vw_members v) (vw_members o))).
  { rewrite <- (view_merge_members 0 0 now). eapply truthful_capN; eassumption. }
  destruct (merge_just_cover G v o now) as [Jm Cvm]; try assumption.
  destruct (merge_fields v o now Ev Eo Pv Po) as (E1 & E2 & E3).
  split; try assumption.
  - apply WF_merge; assumption.
  - apply VVin_merge; assumption.
  - rewrite E3. exact Mv.
  - apply merge_CC; [exact CCv|eapply truthful_all_up; exact Tm].
Qed.

Lemma vinv0_merge_vget G w v o now k :
  ids_uniq w -> nodes_cap w -> vinv0 G w v -> vinv0 G w o ->
  vget (vw_vv (fst (view_merge 0 0 now v o))) k = N.max (vget (vw_vv v) k) (vget (vw_vv o) k).
Proof.
  intros Hu Hcap Hv Ho.
  assert (Cm : capN (merge_members (vw_members v) (vw_members o))).
  { rewrite <- (view_merge_members 0 0 now). eapply truthful_capN; [|eassumption|eassumption].
    apply truthful_merge; [apply Hv|apply Ho]. }
  apply merge_vget; try assumption; try apply Hv; apply Ho.
Qed.

Lemma vown'_merge G w id v o now :
  ids_uniq w -> nodes_cap w -> vinv0 G w v -> vinv0 G w o -> vown' w id v -> vown' w id o ->
  vown' w id (fst (view_merge 0 0 now v o)).
Proof.
  intros Hu Hcap Hv Ho Ov Oo k Hpos. rewrite (vinv0_merge_vget G w) in Hpos |- * by assumption.
  destruct (N.max_spec (vget (vw_vv v) k) (vget (vw_vv o) k)) as [[_ E]|[_ E]]; rewrite E in *; [apply Oo|apply Ov]; exact Hpos.
Qed.

Lemma vinv0_refresh G w v id now :
  vinv0 G w v -> vinv0 G w (set_members v (alter (fun s => ns_refresh s now) id (vw_members v))).
Proof.
  intros [Wv Iv Tv Jv Cv Ev Pv Mv CCv].
  assert (Hl : forall k, vw_members (set_members v (alter (fun s => ns_refresh s now) id (vw_members v))) !! k =
                         if decide (k = id) then (fun s => ns_refresh s now) <$> (vw_members v !! k) else vw_members v !! k).
  { intros k. destruct v; cbn. apply refresh_lookup. }
  assert (Hvv : vw_vv (set_members v (alter (fun s => ns_refresh s now) id (vw_members v))) = vw_vv v) by (destruct v; reflexivity).
  split.
  - apply refresh_WF; exact Wv.
  - intros k Hk. rewrite Hvv in Hk. destruct (Iv k Hk) as [s Hs]. rewrite Hl. destruct (decide (k = id)); rewrite Hs; eexists; reflexivity.
  - intros m s Hs. rewrite Hl in Hs. destruct (decide (m = id)) as [->|Hne]; [|apply (Tv m s Hs)].
    destruct (vw_members v !! id) as [s0|] eqn:E0; [|discriminate]. cbn in Hs. injection Hs as <-.
    destruct (Tv id s0 E0) as (Hu & n & Hn & Hid). split; [apply ns_refresh_up; exact Hu|]. exists n. split; [exact Hn|exact Hid].
  - intros m s Hs. rewrite Hl in Hs. rewrite Hvv. destruct (decide (m = id)) as [->|Hne]; [|apply (Jv m s Hs)].
    destruct (vw_members v !! id) as [s0|] eqn:E0; [|discriminate]. cbn in Hs. injection Hs as <-.
    destruct (Jv id s0 E0) as (e & H1 & H2 & H3 & H4). exists e. repeat split; assumption.
  - intros e He Hsel. rewrite Hvv in Hsel. destruct (Cv e He Hsel) as (s & Hs & L). rewrite Hl.
    destruct (decide (g_m e = id)) as [Ei|Hne]; [|exists s; split; assumption].
    rewrite Hs. cbn. eexists. split; [reflexivity|exact L].
  - destruct v; exact Ev.
  - destruct v; exact Pv.
  - destruct v; exact Mv.
  - apply refresh_CC. exact CCv.
Qed.

Lemma prune_last_sub n t q : nd_last (prune_last n) !! t = Some q -> nd_last n !! t = Some q.
Proof. unfold prune_last; cbn. intros H. apply map_filter_lookup_Some in H as [H _]. exact H. Qed.

Lemma broadcast_covers n t :
  t ∈ select_targets n ->
  (t, nd_view n) ∈ snd (broadcast n) \/ exists q, nd_last n !! t = Some q /\ vle (vw_vv (nd_view n)) q.
Proof.
  intros Ht. destruct (should_send (prune_last n) (vw_vv (nd_view n)) t) eqn:E.
  - left. unfold broadcast; cbn [snd]. apply elem_of_list_fmap. exists t. split; [reflexivity|].
    apply elem_of_list_In, filter_In. split; [apply elem_of_list_In; rewrite select_targets_prune; exact Ht|exact E].
  - right. unfold should_send in E. destruct (nd_last (prune_last n) !! t) as [q|] eqn:Eq; [|discriminate].
    exists q. split; [apply prune_last_sub; exact Eq|]. apply vle_compare.
    destruct (vcompare (vw_vv (nd_view n)) q); try discriminate; auto.
Qed.

Lemma select_targets_spec n t :
  t ∈ select_targets n <->
  t <> [] /\ t <> nd_addr n /\ (t ∈ c_seeds (nd_cfg n) \/ exists k s, vw_members (nd_view n) !! k = Some s /\ ns_addr s = t).
Proof.
  unfold select_targets. rewrite isort_elem, elem_of_remove_dups, elem_of_list_In, filter_In, <- elem_of_list_In.
  rewrite elem_of_app, andb_true_iff, negb_true_iff. unfold nonempty. rewrite negb_true_iff, !bool_decide_eq_false.
  split.
  - intros [[H|H] [H1 H2]]; (split; [exact H1|]; split; [exact H2|]); [left; exact H|right].
    apply elem_of_list_In, in_map_iff in H as (s & <- & Hs). apply elem_of_list_In in Hs.
    unfold states in Hs. apply elem_of_list_fmap in Hs as ([k s'] & -> & Hk). apply elem_of_map_to_list in Hk.
    exists k, s'. split; [exact Hk|reflexivity].
  - intros (H1 & H2 & [H|(k & s & Hk & <-)]); (split; [|split; assumption]); [left; exact H|right].
    apply elem_of_list_In, in_map_iff. exists s. split; [reflexivity|]. apply elem_of_list_In.
    unfold states. apply elem_of_list_fmap. exists (k, s). split; [reflexivity|]. apply elem_of_map_to_list. exact Hk.
Qed.
