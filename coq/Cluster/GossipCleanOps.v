(** What the view operations of the clean class (AddMember, IncrementVersion, MergeFrom, the LastSeen refresh, the
    rejoin bump) do to the members map and to the version vector, under the guards that the clean-world invariant
    provides (every vector key is a member, the member count is within the entry cap, no counter overflow). *)
From stdpp Require Import gmap.
From Vivid Require Import Cluster.VV Cluster.VVProofs Cluster.View Cluster.ViewProofs Cluster.Gossip
  Cluster.GossipClean.
Local Open Scope N_scope.

Lemma ple_refl p : ple p p.
Proof. intros m x H. exists x. split; [exact H|apply inc_lt_irrefl]. Qed.

Lemma ple_trans p q r : ple p q -> ple q r -> ple p r.
Proof.
  intros H1 H2 m x Hm. destruct (H1 m x Hm) as (y & Hy & L1). destruct (H2 m y Hy) as (z & Hz & L2).
  exists z. split; [exact Hz|]. eapply inc_lt_neg_trans; eassumption.
Qed.

Lemma ple_antisym p q : ple p q -> ple q p -> p = q.
Proof.
  intros H1 H2. apply map_eq. intros m.
  destruct (p !! m) as [x|] eqn:Ep, (q !! m) as [y|] eqn:Eq; try reflexivity.
  - destruct (H1 m x Ep) as (y' & Hy' & L1). destruct (H2 m y Eq) as (x' & Hx' & L2).
    rewrite Eq in Hy'. injection Hy' as <-. rewrite Ep in Hx'. injection Hx' as <-.
    f_equal. apply inc_lt_total; assumption.
  - destruct (H1 m x Ep) as (y' & Hy' & _). congruence.
  - destruct (H2 m y Eq) as (x' & Hx' & _). congruence.
Qed.

Lemma proj_lookup v m : proj v !! m = inc_of <$> (vw_members v !! m).
Proof. unfold proj. apply lookup_fmap. Qed.

Lemma vle_refl a : vle a a.
Proof. intros k. lia. Qed.
Lemma vle_trans a b c : vle a b -> vle b c -> vle a c.
Proof. intros H1 H2 k. specialize (H1 k). specialize (H2 k). lia. Qed.
Lemma veq_vle a b : veq a b -> vle a b.
Proof. intros H k. rewrite (H k). lia. Qed.
Lemma veq_sym a b : veq a b -> veq b a.
Proof. intros H k. symmetry. apply H. Qed.
Lemma veq_trans a b c : veq a b -> veq b c -> veq a c.
Proof. intros H1 H2 k. rewrite (H1 k). apply H2. Qed.
Lemma vle_antisym a b : vle a b -> vle b a -> veq a b.
Proof. intros H1 H2 k. specialize (H1 k). specialize (H2 k). lia. Qed.

(** the entry cap with MaxVersionVectorEntries = 0 *)
Definition capN (m : members) : Prop := N.of_nat (size m) <= max_entries.

Lemma CapOK_capN v : vw_maxent v = 0%Z -> capN (vw_members v) -> CapOK v.
Proof. intros H0 H. unfold CapOK, vv_limit. rewrite H0. cbn. exact H. Qed.

Lemma view_inc_spec v id :
  valid_addr id = true -> vget (vw_vv v) id < max_counter ->
  vw_vv (view_inc v id) = <[id := vget (vw_vv v) id + 1]> (vw_vv v) /\
  vw_members (view_inc v id) = vw_members v /\ vw_epoch (view_inc v id) = vw_epoch v /\
  vw_ts (view_inc v id) = vw_ts v /\ vw_proto (view_inc v id) = vw_proto v /\ vw_maxent (view_inc v id) = vw_maxent v /\
  vw_healthy (view_inc v id) = vw_healthy v /\ vw_quorum (view_inc v id) = vw_quorum v.
Proof.
  intros Hv Hc. unfold view_inc. destruct id as [|b r]; [discriminate Hv|].
  unfold vinc. rewrite Hv. replace (max_counter <=? vget (vw_vv v) (b :: r)) with false by lia.
  destruct v; cbn. repeat split; reflexivity.
Qed.

Lemma view_inc_vget_le v id k : vget (vw_vv v) k <= vget (vw_vv (view_inc v id)) k.
Proof.
  unfold view_inc. destruct id as [|b r]; [lia|].
  destruct (vinc (vw_vv v) (b :: r)) as [x|] eqn:E; [|lia].
  unfold vinc in E. destruct (valid_addr _); [|discriminate]. destruct (_ <=? _); [discriminate|].
  injection E as <-. destruct v; cbn. rewrite vget_insert. destruct (decide _) as [->|]; lia.
Qed.

Lemma view_inc_members v id : vw_members (view_inc v id) = vw_members v.
Proof. exact (ViewProofs.view_inc_members v id). Qed.

Lemma view_add_members v s :
  vw_members (view_add v s) =
  match vw_members v !! ns_id s with
  | Some e => if isnewer s e then <[ns_id s := s]> (vw_members v) else vw_members v
  | None => <[ns_id s := s]> (vw_members v)
  end.
Proof.
  unfold view_add. destruct (vw_members v !! ns_id s) as [e|]; [destruct (isnewer s e)|]; destruct v; reflexivity.
Qed.

Lemma view_add_fields v s :
  vw_epoch (view_add v s) = vw_epoch v /\ vw_ts (view_add v s) = vw_ts v /\
  vw_proto (view_add v s) = vw_proto v /\ vw_maxent (view_add v s) = vw_maxent v.
Proof.
  unfold view_add. destruct (vw_members v !! ns_id s) as [e|]; [destruct (isnewer s e)|]; destruct v; repeat split; reflexivity.
Qed.

Lemma view_add_vv v s :
  VVin v -> vw_maxent v = 0%Z -> capN (<[ns_id s := s]> (vw_members v)) -> vw_vv (view_add v s) = vw_vv v.
Proof.
  intros Hin H0 Hcap.
  assert (E : vw_vv (recompute (set_members v (<[ns_id s := s]> (vw_members v)))) = vw_vv v).
  { rewrite recompute_vv_id; [destruct v; reflexivity| |].
    - intros k Hk. assert (Hk' : is_Some (vw_vv v !! k)) by (destruct v; exact Hk).
      destruct (Hin k Hk') as [x Hx]. destruct v; cbn in *.
      destruct (decide (k = ns_id s)) as [->|Hne]; [rewrite lookup_insert; eexists; reflexivity|].
      rewrite lookup_insert_ne by congruence. eexists; exact Hx.
    - apply CapOK_capN; [destruct v; exact H0|destruct v; exact Hcap]. }
  unfold view_add. destruct (vw_members v !! ns_id s) as [e|]; [destruct (isnewer s e)|]; try exact E; reflexivity.
Qed.

Lemma view_add_lookup_self v s :
  WF v -> wf_state s ->
  exists e, vw_members (view_add v s) !! ns_id s = Some e /\ inc_lt (inc_of e) (inc_of s) = false /\
            (e = s \/ vw_members v !! ns_id s = Some e).
Proof.
  intros Hv Hs. rewrite view_add_members.
  destruct (vw_members v !! ns_id s) as [e|] eqn:E.
  - destruct (isnewer s e) eqn:N.
    + exists s. rewrite lookup_insert. split; [reflexivity|]. split; [apply inc_lt_irrefl|left; reflexivity].
    + exists e. split; [exact E|]. destruct (Hv _ _ E) as [Ie We].
      rewrite isnewer_wf in N by (assumption || congruence). split; [exact N|right; reflexivity].
  - exists s. rewrite lookup_insert. split; [reflexivity|]. split; [apply inc_lt_irrefl|left; reflexivity].
Qed.

Lemma view_add_lookup_other v s k : k <> ns_id s -> vw_members (view_add v s) !! k = vw_members v !! k.
Proof.
  intros Hne. rewrite view_add_members.
  destruct (vw_members v !! ns_id s) as [e|]; [destruct (isnewer s e)|]; try reflexivity; rewrite lookup_insert_ne by congruence; reflexivity.
Qed.

Lemma view_add_lookup_cases v s k e :
  vw_members (view_add v s) !! k = Some e -> vw_members v !! k = Some e \/ (k = ns_id s /\ e = s).
Proof.
  destruct (decide (k = ns_id s)) as [->|Hne].
  - rewrite view_add_members. destruct (vw_members v !! ns_id s) as [e0|] eqn:E0.
    + destruct (isnewer s e0); [rewrite lookup_insert; intros [= <-]; right; auto|rewrite E0; intros [= <-]; left; reflexivity].
    + rewrite lookup_insert. intros [= <-]. right; auto.
  - rewrite view_add_lookup_other by exact Hne. auto.
Qed.

Lemma view_add_keeps v s k e :
  WF v -> wf_state s -> vw_members v !! k = Some e ->
  exists e', vw_members (view_add v s) !! k = Some e' /\ inc_lt (inc_of e') (inc_of e) = false.
Proof.
  intros Hv Hs Hk. destruct (decide (k = ns_id s)) as [->|Hne].
  - rewrite view_add_members, Hk. destruct (isnewer s e) eqn:N.
    + exists s. rewrite lookup_insert. split; [reflexivity|]. destruct (Hv _ _ Hk) as [Ie We].
      rewrite isnewer_wf in N by (assumption || congruence). apply inc_lt_asym. exact N.
    + exists e. split; [exact Hk|apply inc_lt_irrefl].
  - exists e. rewrite view_add_lookup_other by exact Hne. split; [exact Hk|apply inc_lt_irrefl].
Qed.

Lemma size_insert_le (m : members) k s : (size (<[k := s]> m) <= S (size m))%nat.
Proof.
  destruct (m !! k) as [e|] eqn:E.
  - rewrite map_size_insert_Some by (eexists; exact E). lia.
  - rewrite map_size_insert_None by exact E. lia.
Qed.

Lemma merge_vget v o now k :
  VVin v -> VVin o -> vw_maxent v = 0%Z -> capN (merge_members (vw_members v) (vw_members o)) ->
  vget (vw_vv (fst (view_merge 0 0 now v o))) k = N.max (vget (vw_vv v) k) (vget (vw_vv o) k).
Proof.
  intros Hv Ho H0 Hcap. destruct (o_empty_dec o) as [He|He].
  - rewrite view_merge_empty by exact He. cbn [fst]. rewrite (VVin_no_members o Ho He).
    unfold vget at 3. rewrite lookup_empty. cbn. lia.
  - rewrite merge_vv_value; [apply vget_merge|exact Hv| |].
    + apply CapOK_capN; [rewrite view_merge_maxent; exact H0|rewrite view_merge_members; exact Hcap].
    + intros E. rewrite E, map_size_empty in He. congruence.
Qed.

Lemma merge_fields v o now :
  vw_epoch v = 0%Z -> vw_epoch o = 0%Z -> vw_proto v = 1 -> vw_proto o = 1 ->
  vw_epoch (fst (view_merge 0 0 now v o)) = 0%Z /\ vw_proto (fst (view_merge 0 0 now v o)) = 1 /\
  vw_maxent (fst (view_merge 0 0 now v o)) = vw_maxent v.
Proof.
  intros E1 E2 P1 P2. unfold view_merge, view_merge_gen. destruct (bool_decide _); cbn [fst vw_epoch vw_proto vw_maxent].
  - auto.
  - rewrite E1, E2, P1, P2. rewrite Z.ltb_irrefl, andb_false_r. cbn. auto.
Qed.

Lemma merge_lookup_ge_l v o now k e :
  WF v -> WF o -> vw_members v !! k = Some e ->
  exists e', vw_members (fst (view_merge 0 0 now v o)) !! k = Some e' /\ inc_lt (inc_of e') (inc_of e) = false.
Proof.
  intros Hv Ho Hk. rewrite view_merge_members, merge_members_lookup, Hk.
  destruct (vw_members o !! k) as [x|] eqn:Eo; [|exists e; split; [reflexivity|apply inc_lt_irrefl]].
  destruct (Hv _ _ Hk) as [Ie We]. destruct (Ho _ _ Eo) as [Ix Wx].
  destruct (isnewer x e) eqn:N.
  - exists x. split; [reflexivity|]. rewrite isnewer_wf in N by (assumption || congruence). apply inc_lt_asym. exact N.
  - exists e. split; [reflexivity|apply inc_lt_irrefl].
Qed.
Lemma merge_lookup_ge_r v o now k x :
  WF v -> WF o -> vw_members o !! k = Some x ->
  exists e', vw_members (fst (view_merge 0 0 now v o)) !! k = Some e' /\ inc_lt (inc_of e') (inc_of x) = false.
Proof.
  intros Hv Ho Hk. rewrite view_merge_members, merge_members_lookup, Hk.
  destruct (vw_members v !! k) as [e|] eqn:Ev; [|exists x; split; [reflexivity|apply inc_lt_irrefl]].
  destruct (Hv _ _ Ev) as [Ie We]. destruct (Ho _ _ Hk) as [Ix Wx].
  destruct (isnewer x e) eqn:N.
  - exists x. split; [reflexivity|apply inc_lt_irrefl].
  - exists e. split; [reflexivity|]. rewrite isnewer_wf in N by (assumption || congruence). exact N.
Qed.
Lemma merge_lookup_cases v o now k e :
  vw_members (fst (view_merge 0 0 now v o)) !! k = Some e ->
  vw_members v !! k = Some e \/ vw_members o !! k = Some e.
Proof.
  rewrite view_merge_members, merge_members_lookup.
  destruct (vw_members v !! k) as [a|], (vw_members o !! k) as [b|]; try discriminate.
  - destruct (isnewer b a); intros [= <-]; auto.
  - intros [= <-]; auto.
  - intros [= <-]; auto.
Qed.

Lemma merge_members_same v o now :
  WF v -> WF o -> ple (proj o) (proj v) ->
  vw_members (fst (view_merge 0 0 now v o)) = vw_members v.
Proof.
  intros Hv Ho Hle. rewrite view_merge_members. apply map_eq. intros k. rewrite merge_members_lookup.
  destruct (vw_members o !! k) as [x|] eqn:Eo; [|destruct (vw_members v !! k); reflexivity].
  destruct (Hle k (inc_of x)) as (y & Hy & L); [rewrite proj_lookup, Eo; reflexivity|].
  rewrite proj_lookup in Hy. destruct (vw_members v !! k) as [e|] eqn:Ev; [|discriminate]. cbn in Hy. injection Hy as <-.
  destruct (Hv _ _ Ev) as [Ie We]. destruct (Ho _ _ Eo) as [Ix Wx].
  rewrite isnewer_wf by (assumption || congruence).
  destruct (inc_lt (inc_of e) (inc_of x)) eqn:N; [|reflexivity].
  congruence.
Qed.

Lemma merge_unchanged sk st now v o :
  snd (view_merge sk st now v o) = false ->
  vw_members (fst (view_merge sk st now v o)) = vw_members v /\ veq (vw_vv (fst (view_merge sk st now v o))) (vw_vv v).
Proof.
  intros H. pose proof (merge_changed_exact sk st now v o) as Hch. rewrite H in Hch. split.
  - destruct (decide (vw_members (fst (view_merge sk st now v o)) = vw_members v)) as [E|N]; [exact E|].
    discriminate (proj2 Hch (or_introl N)).
  - intros k. destruct (N.eq_dec (vget (vw_vv (fst (view_merge sk st now v o))) k) (vget (vw_vv v) k)) as [E|N]; [exact E|].
    discriminate (proj2 Hch (or_intror (or_introl (fun Hq => N (Hq k))))).
Qed.

Lemma refresh_lookup (m : members) id now k :
  alter (fun s => ns_refresh s now) id m !! k =
  if decide (k = id) then (fun s => ns_refresh s now) <$> (m !! k) else m !! k.
Proof.
  destruct (decide (k = id)) as [->|Hne]; [apply lookup_alter|apply lookup_alter_ne; congruence].
Qed.

Lemma ns_refresh_up s now : ns_status s = st_up -> ns_status (ns_refresh s now) = st_up.
Proof. intros H. unfold ns_refresh; cbn. rewrite H. reflexivity. Qed.

Lemma count_up_all_up (l : list (list N * nstate)) :
  (forall p, p ∈ l -> ns_status (snd p) = st_up) -> count_up l = N.of_nat (length l).
Proof.
  induction l as [|p r IH]; intros H; cbn [count_up length]; [reflexivity|].
  rewrite (H p) by (apply elem_of_cons; auto). rewrite IH by (intros q Hq; apply H, elem_of_cons; auto).
  cbn. lia.
Qed.
