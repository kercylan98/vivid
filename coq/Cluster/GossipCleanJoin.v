(** Bootstrap, accepting a join, completing a join: the clean-world invariant is preserved. *)
From stdpp Require Import gmap.
From Vivid Require Import Cluster.VV Cluster.VVProofs Cluster.View Cluster.ViewProofs Cluster.Gossip
  Cluster.GossipProofs Cluster.GossipCleanOps Cluster.GossipCleanInv Cluster.GossipCleanStep
  Cluster.GossipCleanWorld Cluster.GossipCleanHandlers.
Local Open Scope N_scope.

Lemma self_up_truthful G w a n :
  cinv G w -> w_nodes w !! a = Some n ->
  let s := ns_set_status (nd_self n) st_up in
  wf_state s /\ ns_status s = st_up /\ ns_id s = nd_id n /\ ns_addr s = a /\
  (exists m, w_nodes w !! ns_addr s = Some m /\ nd_id m = ns_id s) /\
  is_Some (vw_members (view_add (nd_view n) s) !! nd_id n).
Proof.
  intros Hc Ha. destruct (ci_nodes _ _ Hc a n Ha) as [N1 N2 N3 N4 N5 N6 N7 N8 N9 N10 N11 N12]. cbn zeta.
  split; [exact N3|]. split; [reflexivity|]. split; [exact N4|]. split; [exact N5|]. split.
  - exists n. cbn. rewrite N5. split; [exact Ha|symmetry; exact N4].
  - destruct (view_add_lookup_self (nd_view n) (ns_set_status (nd_self n) st_up) (vi_wf _ _ _ N9) N3) as (e & He & _).
    cbn [ns_id ns_set_status] in He. rewrite N4 in He. eexists; exact He.
Qed.

Lemma log_grows_snoc G G' n n1 e :
  log_grows G G' n n1 -> g_i e = nd_id n ->
  vget (vw_vv (nd_view n)) (nd_id n) < g_c e <= vget (vw_vv (nd_view n1)) (nd_id n) ->
  log_grows G (G' ++ [e]) n n1.
Proof.
  intros (L1 & L2 & L3) Ei Ec. split; [intros e0 He0; apply elem_of_app; left; apply L1; exact He0|].
  split; [rewrite app_length; lia|]. intros e0 He0. apply elem_of_app in He0 as [He0|He0]; [apply L3; exact He0|].
  apply elem_of_list_singleton in He0. subst e0. right. split; [exact Ei|exact Ec].
Qed.

(** AddMember(s); IncrementVersion: the node that results (with [self'] as its own state) and the log entry *)
Lemma local_change G w a n s self' :
  cinv G w -> nodes_cap w -> N.of_nat (length G) < max_counter -> w_nodes w !! a = Some n ->
  wf_state s -> ns_status s = st_up -> (exists m, w_nodes w !! ns_addr s = Some m /\ nd_id m = ns_id s) ->
  is_Some (vw_members (view_add (nd_view n) s) !! nd_id n) ->
  wf_state self' -> ns_id self' = nd_id n -> ns_addr self' = a ->
  let n1 := set_view (set_self n self') (view_inc (view_add (nd_view n) s) (nd_id n)) in
  let G' := G ++ [GEnt (nd_id n) (vget (vw_vv (nd_view n)) (nd_id n) + 1) (ns_id s) (inc_of s)] in
  npre G' w n n1 /\ log_grows G G' n n1 /\ is_Some (vw_members (nd_view n1) !! nd_id n).
Proof.
  intros Hc Hcap Hlen Ha Hs Hu Hm Hself Sw Si Sa. cbn zeta.
  destruct (local_add G w a n s Hc Hcap Hlen Ha Hs Hu Hm Hself) as (V0 & Ow & Hid & Hoth & Hmem).
  set (v2 := view_inc (view_add (nd_view n) s) (nd_id n)) in *.
  assert (Hs2 : is_Some (vw_members v2 !! nd_id n)) by (rewrite Hmem; exact Hself).
  split; [|split; [|exact Hs2]].
  - eapply npre_local; try eassumption.
    + intros k. destruct (decide (k = nd_id n)) as [->|Hne]; [rewrite Hid; lia|rewrite Hoth by exact Hne; lia].
    + intros _. exact Hs2.
    + intros k. rewrite app_length; cbn [length]. pose proof (ci_cnt _ _ Hc a n k Ha).
      destruct (decide (k = nd_id n)) as [->|Hne]; [rewrite Hid|rewrite Hoth by exact Hne]; lia.
  - apply log_grows_snoc; [apply log_grows_refl|reflexivity|]. cbn [g_c nd_view set_view]. rewrite Hid. lia.
Qed.

Lemma bootstrap_cinv G w a n :
  cinv G w -> nodes_cap w -> N.of_nat (length G) < max_counter -> w_nodes w !! a = Some n ->
  exists G', cinv G' (upd w (fst (fst (bootstrap n))) (snd (fst (bootstrap n)))) /\ (length G' <= length G + 1)%nat.
Proof.
  intros Hc Hcap Hlen Ha.
  destruct (self_up_truthful G w a n Hc Ha) as (Sw & Su & Si & Sa & Sm & Hself).
  set (self := ns_set_status (nd_self n) st_up) in *.
  destruct (local_change G w a n self self Hc Hcap Hlen Ha Sw Su Sm Hself Sw Si Sa) as (Hp & Hl & Hs).
  destruct (finish_cinv G _ w a n _ true Hc Ha Hp Hl) as [R1 _]; [intros _; exact Hs|].
  eexists. rewrite bootstrap_eq. split; [exact R1|rewrite app_length; cbn [length]; lia].
Qed.

(** handleJoinRequest at a node that has itself joined *)
Lemma accept_cinv G w s sd aj nj n' resp out evs :
  cinv G w -> nodes_cap w -> N.of_nat (length G) < max_counter ->
  w_nodes w !! s = Some sd -> w_nodes w !! aj = Some nj -> nd_gossip_on sd = true ->
  handle_join_request sd (nd_self nj) = Some (n', resp, out, evs) ->
  exists G', cinv G' (upd w n' out) /\ nd_addr n' = s /\ (length G' <= length G + 1)%nat /\ resp = nd_view n'.
Proof.
  intros Hc Hcap Hlen Hs Hj Hg Hr. apply handle_join_request_Some in Hr as (_ & -> & -> & ->).
  pose proof (ci_nodes _ _ Hc s sd Hs) as Ns. pose proof (ci_nodes _ _ Hc aj nj Hj) as Nj.
  set (st := ns_set_status (nd_self nj) st_up).
  assert (Sm : exists m, w_nodes w !! ns_addr st = Some m /\ nd_id m = ns_id st).
  { exists nj. cbn. rewrite (ni_self_addr _ _ _ _ Nj). split; [exact Hj|symmetry; exact (ni_self_id _ _ _ _ Nj)]. }
  destruct (ni_joined _ _ _ _ Ns Hg) as [_ [e0 He0]].
  assert (Hself : is_Some (vw_members (view_add (nd_view sd) st) !! nd_id sd)).
  { destruct (view_add_keeps (nd_view sd) st _ _ (vi_wf _ _ _ (ni_view _ _ _ _ Ns)) (ni_self_wf _ _ _ _ Nj) He0) as (e' & He' & _). eexists; exact He'. }
  destruct (local_change G w s sd st (nd_self sd) Hc Hcap Hlen Hs (ni_self_wf _ _ _ _ Nj) eq_refl Sm Hself
              (ni_self_wf _ _ _ _ Ns) (ni_self_id _ _ _ _ Ns) (ni_self_addr _ _ _ _ Ns)) as (Hp & Hl & _).
  replace (set_self sd (nd_self sd)) with sd in Hp, Hl by (destruct sd; reflexivity).
  destruct (finish_cinv G _ w s sd _ false Hc Hs Hp Hl) as [R1 R3]; [discriminate|].
  eexists. split; [exact R1|]. split; [exact R3|]. split; [rewrite app_length; cbn [length]; lia|reflexivity].
Qed.

Lemma local_finish_cinv G G' w a n self' v2 :
  cinv G w -> w_nodes w !! a = Some n ->
  wf_state self' -> ns_id self' = nd_id n -> ns_addr self' = a ->
  vinv0 G' w v2 -> vown' w (nd_id n) v2 -> vle (vw_vv (nd_view n)) (vw_vv v2) ->
  is_Some (vw_members v2 !! nd_id n) -> (forall k, vget (vw_vv v2) k <= N.of_nat (length G')) ->
  log_grows G G' n (set_view (set_self n self') v2) ->
  let f := finish (set_view (set_self n self') v2) in
  cinv G' (upd w (start_loops (fst (fst f))) (snd (fst f))) /\ nd_addr (start_loops (fst (fst f))) = a.
Proof.
  intros Hc Ha Hw Hi Had Hv Ho Hle Hs Hcnt Hl.
  apply (finish_cinv G G' w a n _ true Hc Ha); [|exact Hl|intros _; exact Hs].
  eapply npre_local; try eassumption. intros _. exact Hs.
Qed.

Lemma join_complete_cinv G w a n resp now :
  cinv G w -> nodes_cap w -> N.of_nat (length G) + 1 < max_counter -> w_nodes w !! a = Some n ->
  vinv G w resp -> (forall k, vget (vw_vv resp) k <= N.of_nat (length G)) ->
  let r := join_complete n resp now in
  exists G', cinv G' (upd w (fst (fst r)) (snd (fst r))) /\ nd_addr (fst (fst r)) = a /\ (length G' <= length G + 2)%nat.
Proof.
  intros Hc Hcap Hlen Ha Hresp Hrc. cbn zeta.
  destruct (self_up_truthful G w a n Hc Ha) as (Sw & Su & Si & Sa & Sm & Hself).
  set (self1 := ns_set_status (nd_self n) st_up) in *.
  pose proof (ci_uniq _ _ Hc) as Hu.
  assert (Hlen0 : N.of_nat (length G) < max_counter) by lia.
  destruct (local_add G w a n self1 Hc Hcap Hlen0 Ha Sw Su Sm Hself) as (V2 & O2 & Hid & Hoth & Hmem).
  set (v2 := view_inc (view_add (nd_view n) self1) (nd_id n)) in *.
  set (c1 := vget (vw_vv (nd_view n)) (nd_id n) + 1) in *.
  set (G2 := G ++ [GEnt (nd_id n) c1 (ns_id self1) (inc_of self1)]) in *.
  assert (R2 : vinv0 G2 w resp).
  { apply (vinv0_mono G G2 w w resp); [apply vinv_vinv0; exact Hresp|apply wext_refl|intros e He; apply elem_of_app; left; exact He|].
    intros e He Hsel. apply elem_of_app in He as [He|He]; [exact He|]. apply elem_of_list_singleton in He. subst e. exfalso.
    unfold sel in Hsel; cbn in Hsel. destruct (vi_own _ _ _ Hresp (nd_id n)) as (b & m & Hb & Hidm & Hle); [unfold c1 in Hsel; lia|].
    assert (b = a) by (eapply Hu; eassumption). subst b. rewrite Ha in Hb. injection Hb as <-. unfold c1 in Hsel. lia. }
  assert (RO : vown' w (nd_id n) resp) by (apply vown_vown'; apply Hresp).
  set (v3 := fst (view_merge 0 0 now v2 resp)).
  assert (V3 : vinv0 G2 w v3) by (apply vinv0_merge; assumption).
  assert (O3 : vown' w (nd_id n) v3) by (eapply vown'_merge; eassumption).
  assert (M3 : forall k, vget (vw_vv v3) k = N.max (vget (vw_vv v2) k) (vget (vw_vv resp) k))
    by (intros k; apply (vinv0_merge_vget G2 w); assumption).
  assert (B2 : forall k, vget (vw_vv (nd_view n)) k <= vget (vw_vv v2) k <= vget (vw_vv (nd_view n)) k + 1).
  { intros k. destruct (decide (k = nd_id n)) as [->|Hne]; [rewrite Hid|rewrite Hoth by exact Hne]; clear; lia. }
  assert (Hle3 : vle (vw_vv (nd_view n)) (vw_vv v3)).
  { intros k. rewrite M3. pose proof (B2 k) as B. clear - B. lia. }
  assert (Hcnt3 : forall k, vget (vw_vv v3) k <= N.of_nat (length G2)).
  { intros k. unfold G2. rewrite M3, app_length. cbn [length].
    pose proof (ci_cnt _ _ Hc a n k Ha) as B1. pose proof (B2 k) as B. pose proof (Hrc k) as B3. clear - B1 B B3. lia. }
  assert (Hc3 : vget (vw_vv (nd_view n)) (nd_id n) < c1 <= vget (vw_vv v3) (nd_id n)) by (rewrite M3, Hid; unfold c1; clear; lia).
  assert (Hself3 : exists prev, vw_members v3 !! nd_id n = Some prev).
  { rewrite <- Hmem in Hself. destruct Hself as [e He].
    destruct (merge_lookup_ge_l v2 resp now _ _ (v0_wf _ _ _ V2) (v0_wf _ _ _ R2) He) as (e' & He' & _). exists e'. exact He'. }
  rewrite join_complete_eq. cbv zeta. fold self1. fold v2. fold v3.
  destruct Hself3 as [prev Hprev].
  assert (Hprev' : vw_members v3 !! ns_id self1 = Some prev) by (rewrite Si; exact Hprev).
  unfold view_rejoin. rewrite Hprev'.
  destruct (ns_gen self1 <=? ns_gen prev)%Z eqn:Egen.
  - (* the bump *)
    set (self2 := NState (ns_id self1) (ns_addr self1) (ns_gen prev + 1) now (ns_seq self1) (ns_status self1)
                         (if ns_lc prev =? 0 then 1 else ns_lc prev + 1) (ns_seen self1)).
    assert (W2 : wf_state self2).
    { destruct (v0_wf _ _ _ V3 _ _ Hprev) as [_ [Hg Hl]]. split; cbn; clear - Hg Hl; [lia|destruct (ns_lc prev =? 0); lia]. }
    destruct (vinv0_add G2 w v3 self2 (nd_id n) Hu Hcap V3 W2 Su Sm) as [E4 V4].
    { intros e0 He0 Ei. apply elem_of_app in He0 as [He0|He0].
      - pose proof (own_entries_le G w a n e0 Hc Ha He0 Ei) as Hle. clear - Hle Hc3. lia.
      - apply elem_of_list_singleton in He0. subst e0. apply Hc3. }
    destruct (local_finish_cinv G _ w a n self2 (view_add v3 self2) Hc Ha W2 Si Sa V4) as [R1 R3].
    + intros k Hk. rewrite E4 in Hk |- *. apply O3. exact Hk.
    + rewrite E4. exact Hle3.
    + destruct (view_add_lookup_self v3 self2 (v0_wf _ _ _ V3) W2) as (e & He & _). change (ns_id self2) with (ns_id self1) in He. rewrite Si in He. eexists; exact He.
    + intros k. rewrite E4, app_length. pose proof (Hcnt3 k) as B. clear - B. lia.
    + cbn [nd_view set_view]. repeat (apply log_grows_snoc; [|reflexivity|cbn [nd_view set_view g_c]; rewrite E4]); [apply log_grows_refl|exact Hc3|clear - Hc3; lia].
    + eexists. split; [exact R1|]. split; [exact R3|]. unfold G2. rewrite !app_length. cbn [length]. clear. lia.
  - (* no bump (cannot happen, but needs no argument) *)
    destruct (local_finish_cinv G G2 w a n self1 v3 Hc Ha Sw Si Sa V3 O3 Hle3 (ex_intro _ prev Hprev) Hcnt3) as [R1 R3].
    + apply log_grows_snoc; [apply log_grows_refl|reflexivity|exact Hc3].
    + eexists. split; [exact R1|]. split; [exact R3|]. unfold G2. rewrite app_length. cbn [length]. clear. lia.
Qed.
