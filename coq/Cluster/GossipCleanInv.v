(** The invariant of clean worlds.

    Ghost state: a log [G] of the LOCAL membership changes, one entry (owner NodeID i, value c of the owner's own
    version-vector counter when the change was made, member id m, incarnation x) per AddMember that a node
    performed on its own initiative (bootstrap, accepting a join, completing its own join, the rejoin bump).
    The invariant says that the membership of every view that exists in the world (of a node, of a GossipMessage
    in flight) is exactly what its version vector selects from the log:
      [just]   every listed member at incarnation x is justified by a log entry (i, c, m, x) with c <= vv[i];
      [cover]  every log entry (i, c, m, x) with c <= vv[i] is covered: m is listed at an incarnation >= x.
    Hence the vector order IS the membership order (vv u <= vv v -> members u <= members v), which is what makes
    the gossip suppression of shouldSendGossipTo sound in this class of histories. *)
From stdpp Require Import gmap.
From Vivid Require Import Cluster.VV Cluster.VVProofs Cluster.View Cluster.Gossip Cluster.GossipClean
  Cluster.GossipCleanOps.
Local Open Scope N_scope.

Record gent := GEnt { g_i : list N; g_c : N; g_m : list N; g_x : Z * N }.
Notation glog := (list gent).

Definition sel (V : vv) (e : gent) : Prop := g_c e <= vget V (g_i e).

Definition just (G : glog) (v : view) : Prop :=
  forall m s, vw_members v !! m = Some s ->
    exists e, e ∈ G /\ g_m e = m /\ g_x e = inc_of s /\ sel (vw_vv v) e.
Definition cover (G : glog) (v : view) : Prop :=
  forall e, e ∈ G -> sel (vw_vv v) e ->
    exists s, vw_members v !! g_m e = Some s /\ inc_lt (inc_of s) (g_x e) = false.

Lemma just_cover_ple G u v : just G u -> cover G v -> vle (vw_vv u) (vw_vv v) -> ple (proj u) (proj v).
Proof.
  intros Hj Hc Hle m x Hm. rewrite proj_lookup in Hm.
  destruct (vw_members u !! m) as [s|] eqn:Es; [|discriminate]. cbn in Hm. injection Hm as <-.
  destruct (Hj m s Es) as (e & He & Em & Ex & Hs).
  destruct (Hc e He) as (s' & Hs' & L).
  - unfold sel in *. specialize (Hle (g_i e)). lia.
  - exists (inc_of s'). rewrite proj_lookup, <- Em, Hs'. split; [reflexivity|]. rewrite <- Ex. exact L.
Qed.

Definition truthful (w : world) (v : view) : Prop :=
  forall m s, vw_members v !! m = Some s ->
    ns_status s = st_up /\ exists n, w_nodes w !! ns_addr s = Some n /\ nd_id n = m.

Definition vown (w : world) (v : view) : Prop :=
  forall id, 0 < vget (vw_vv v) id ->
    exists a n, w_nodes w !! a = Some n /\ nd_id n = id /\ vget (vw_vv v) id <= vget (vw_vv (nd_view n)) id.

(** the cached counts are those of a view all of whose members are Up (recomputeCounts after every change) *)
Definition CC (v : view) : Prop :=
  vw_healthy v = N.of_nat (size (vw_members v)) /\
  vw_quorum v = (if 0 <? N.of_nat (size (vw_members v)) then N.of_nat (size (vw_members v)) / 2 + 1 else 0).
Definition pub_ok (n : node) : Prop := nd_leader n = leader_of (nd_view n) /\ nd_inq n = sat_quorum (nd_view n).

Record vinv (G : glog) (w : world) (v : view) : Prop := {
  vi_wf : WF v;
  vi_vvin : VVin v;
  vi_truth : truthful w v;
  vi_just : just G v;
  vi_cover : cover G v;
  vi_own : vown w v;
  vi_ep : vw_epoch v = 0%Z;
  vi_pr : vw_proto v = 1;
  vi_mx : vw_maxent v = 0%Z;
  vi_cc : CC v
}.

(** the part of [vinv] that does not look at the other nodes' counters *)
Record vinv0 (G : glog) (w : world) (v : view) : Prop := {
  v0_wf : WF v;
  v0_vvin : VVin v;
  v0_truth : truthful w v;
  v0_just : just G v;
  v0_cover : cover G v;
  v0_ep : vw_epoch v = 0%Z;
  v0_pr : vw_proto v = 1;
  v0_mx : vw_maxent v = 0%Z;
  v0_cc : CC v
}.
Lemma vinv_vinv0 G w v : vinv G w v -> vinv0 G w v.
Proof. intros []. split; assumption. Qed.
Lemma vinv0_vinv G w v : vinv0 G w v -> vown w v -> vinv G w v.
Proof. intros [] ?. split; assumption. Qed.

(** ... relaxed for the view a node is building in a handler: its OWN counter may be ahead *)
Definition vown' (w : world) (id : list N) (v : view) : Prop :=
  forall k, 0 < vget (vw_vv v) k -> k = id \/
    exists a n, w_nodes w !! a = Some n /\ nd_id n = k /\ vget (vw_vv v) k <= vget (vw_vv (nd_view n)) k.
Lemma vown_vown' w id v : vown w v -> vown' w id v.
Proof. intros H k Hk. right. apply H. exact Hk. Qed.

Record ninv (G : glog) (w : world) (a : addr) (n : node) : Prop := {
  ni_addr : nd_addr n = a;
  ni_ne : a <> [];
  ni_self_wf : wf_state (nd_self n);
  ni_self_id : ns_id (nd_self n) = nd_id n;
  ni_self_addr : ns_addr (nd_self n) = a;
  ni_fd : (c_fd (nd_cfg n) <=? 0)%Z = true;
  ni_idok : valid_addr (nd_id n) = true;
  ni_fdoff : nd_fd_on n = false;
  ni_view : vinv G w (nd_view n);
  ni_last : forall t q, nd_last n !! t = Some q ->
              exists m, w_nodes w !! t = Some m /\ vle q (vw_vv (nd_view m));
  ni_joined : nd_gossip_on n = true ->
              nd_retry_on n = false /\ is_Some (vw_members (nd_view n) !! nd_id n);
  ni_pub : pub_ok n
}.

Record cinv (G : glog) (w : world) : Prop := {
  ci_nodes : forall a n, w_nodes w !! a = Some n -> ninv G w a n;
  ci_net : forall p, p ∈ w_net w ->
             vinv G w (p_view p) /\
             exists m, w_nodes w !! p_src p = Some m /\ vle (vw_vv (p_view p)) (vw_vv (nd_view m));
  ci_uniq : forall a b n m, w_nodes w !! a = Some n -> w_nodes w !! b = Some m -> nd_id n = nd_id m -> a = b;
  ci_log : forall e, e ∈ G ->
             0 < g_c e /\
             exists a n, w_nodes w !! a = Some n /\ nd_id n = g_i e /\ g_c e <= vget (vw_vv (nd_view n)) (g_i e);
  ci_cnt : forall a n k, w_nodes w !! a = Some n -> vget (vw_vv (nd_view n)) k <= N.of_nat (length G)
}.

Lemma cinv_empty : cinv [] empty_world.
Proof.
  split.
  - intros a n H. cbn in H. rewrite lookup_empty in H. discriminate.
  - intros p H. inversion H.
  - intros a b n m H. cbn in H. rewrite lookup_empty in H. discriminate.
  - intros e H. inversion H.
  - intros a n k H. cbn in H. rewrite lookup_empty in H. discriminate.
Qed.

Definition wext (w w' : world) : Prop :=
  forall a n, w_nodes w !! a = Some n ->
    exists n', w_nodes w' !! a = Some n' /\ nd_id n' = nd_id n /\ vle (vw_vv (nd_view n)) (vw_vv (nd_view n')).

Lemma wext_refl w : wext w w.
Proof. intros a n H. exists n. split; [exact H|]. split; [reflexivity|apply vle_refl]. Qed.
Lemma wext_trans w1 w2 w3 : wext w1 w2 -> wext w2 w3 -> wext w1 w3.
Proof.
  intros H1 H2 a n Ha. destruct (H1 a n Ha) as (n' & Ha' & I1 & L1). destruct (H2 a n' Ha') as (n'' & Ha'' & I2 & L2).
  exists n''. split; [exact Ha''|]. split; [congruence|eapply vle_trans; eassumption].
Qed.

Definition log_ext (w : world) (G G' : glog) : Prop :=
  (forall e, e ∈ G -> e ∈ G') /\
  forall e, e ∈ G' -> e ∈ G \/
    (0 < g_c e /\ forall a n, w_nodes w !! a = Some n -> nd_id n = g_i e -> vget (vw_vv (nd_view n)) (g_i e) < g_c e).

Lemma log_ext_refl w G : log_ext w G G.
Proof. split; [auto|intros e H; left; exact H]. Qed.

Lemma truthful_mono w w' v : truthful w v -> wext w w' -> truthful w' v.
Proof.
  intros Ht Hx m s Hm. destruct (Ht m s Hm) as (Hu & n & Hn & Hid). split; [exact Hu|].
  destruct (Hx _ _ Hn) as (n' & Hn' & Hid' & _). exists n'. split; [exact Hn'|congruence].
Qed.

Lemma vown_mono w w' v : vown w v -> wext w w' -> vown w' v.
Proof.
  intros Ho Hx id Hpos. destruct (Ho id Hpos) as (a & n & Hn & Hid & Hle).
  destruct (Hx _ _ Hn) as (n' & Hn' & Hid' & L). exists a, n'. split; [exact Hn'|]. split; [congruence|].
  specialize (L id). lia.
Qed.

Lemma vinv_mono G G' w w' v : vinv G w v -> wext w w' -> log_ext w G G' -> vinv G' w' v.
Proof.
  intros [Hwf Hin Ht Hj Hc Ho He Hp Hm Hcc] Hx [Hsub Hnew]. split; try assumption.
  - eapply truthful_mono; eassumption.
  - intros m s Hs. destruct (Hj m s Hs) as (e & H1 & H2 & H3 & H4). exists e. split; [apply Hsub; exact H1|auto].
  - intros e He' Hsel. destruct (Hnew e He') as [Hold|[Hpos Hab]]; [apply Hc; assumption|].
    exfalso. unfold sel in Hsel. destruct (Ho (g_i e)) as (a & n & Hn & Hid & Hle); [lia|].
    specialize (Hab a n Hn Hid). lia.
  - eapply vown_mono; eassumption.
Qed.

Lemma truthful_size w v :
  truthful w v -> (forall a b n m, w_nodes w !! a = Some n -> w_nodes w !! b = Some m -> nd_id n = nd_id m -> a = b) ->
  (size (vw_members v) <= size (w_nodes w))%nat.
Proof.
  intros Ht Hu.
  (* the map id |-> address of the member is injective into the domain of the nodes *)
  set (f := fun (s : nstate) => ns_addr s).
  assert (Hinj : forall k1 k2 s1 s2, vw_members v !! k1 = Some s1 -> vw_members v !! k2 = Some s2 -> f s1 = f s2 -> k1 = k2).
  { intros k1 k2 s1 s2 H1 H2 Hf. destruct (Ht _ _ H1) as (_ & n1 & Hn1 & I1). destruct (Ht _ _ H2) as (_ & n2 & Hn2 & I2).
    unfold f in Hf. rewrite Hf in Hn1. rewrite Hn1 in Hn2. injection Hn2 as <-. congruence. }
  (* size = length of the list of addresses, which is NoDup and included in the node keys *)
  assert (E1 : size (vw_members v) = length ((fun p : list N * nstate => f (snd p)) <$> map_to_list (vw_members v)))
    by (rewrite fmap_length; reflexivity).
  assert (E2 : size (w_nodes w) = length ((map_to_list (w_nodes w)).*1)) by (rewrite fmap_length; reflexivity).
  rewrite E1, E2.
  apply submseteq_length, NoDup_submseteq.
  - apply NoDup_fmap_2_strong; [|apply NoDup_map_to_list].
    intros [k1 s1] [k2 s2] H1 H2 Hf. apply elem_of_map_to_list in H1, H2. cbn in Hf.
    assert (k1 = k2) by (eapply Hinj; eassumption). subst k2. rewrite H1 in H2. congruence.
  - intros x Hx. apply elem_of_list_fmap in Hx as ([k s] & -> & Hks). apply elem_of_map_to_list in Hks.
    destruct (Ht _ _ Hks) as (_ & n & Hn & _). cbn. apply elem_of_list_fmap. exists (f s, n). split; [reflexivity|].
    apply elem_of_map_to_list. exact Hn.
Qed.
