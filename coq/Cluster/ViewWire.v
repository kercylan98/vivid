(** Bridge between the complete ClusterView of C17 (Cluster/ViewFull.v) and the wire model of
    internal/cluster/serialize.go that C12/C13 verify (Codec/ClusterMsgs.v: writeClusterView /
    readClusterView byte for byte, round trip proved in Codec/ClusterMsgsProofs.view_rt).

    [to_wire] / [of_wire] are field-by-field conversions between the two records (the counts are Go
    `int`: N here, Z on the wire side).  [wire_ok] states on the C17 side, field by field, what
    serialize.go needs for a view to come back unchanged: lengths below 2^32, Generation / Status /
    counts / MaxVersionVectorEntries within int32 (they are NARROWED by the writer), a non-nil Members
    map without nil entries (a nil map comes back empty, a nil entry is dropped), and no EMPTY NON-NIL
    Metadata / Labels map (it comes back nil).  Under [wire_ok] the view that arrives is the view that
    was sent, so merging what came off the wire is merging the sender's view. *)
From Coq Require Import List NArith ZArith Lia Bool.
From stdpp Require Import gmap.
From Vivid Require Import Codec.MsgPrim Cluster.VV.
From Vivid Require Codec.ClusterMsgs Codec.ClusterMsgsProofs.
From Vivid Require Import Cluster.View Cluster.ViewFull.
Local Open Scope N_scope.

Definition to_wire_state (s : fstate) : ClusterMsgs.node_state :=
  {| ClusterMsgs.ns_id := ns_id (fs_core s); ClusterMsgs.ns_cluster := fs_cluster s; ClusterMsgs.ns_addr := ns_addr (fs_core s);
     ClusterMsgs.ns_gen := ns_gen (fs_core s); ClusterMsgs.ns_ts := ns_ts (fs_core s); ClusterMsgs.ns_seq := ns_seq (fs_core s);
     ClusterMsgs.ns_status := ns_status (fs_core s); ClusterMsgs.ns_unreach := fs_unreach s;
     ClusterMsgs.ns_lastseen := ns_seen (fs_core s); ClusterMsgs.ns_lclock := ns_lc (fs_core s);
     ClusterMsgs.ns_meta := fs_meta s; ClusterMsgs.ns_labels := fs_labels s; ClusterMsgs.ns_checksum := fs_checksum s |}.

Definition of_wire_state (n : ClusterMsgs.node_state) : fstate :=
  FState (NState (ClusterMsgs.ns_id n) (ClusterMsgs.ns_addr n) (ClusterMsgs.ns_gen n) (ClusterMsgs.ns_ts n) (ClusterMsgs.ns_seq n) (ClusterMsgs.ns_status n)
                 (ClusterMsgs.ns_lclock n) (ClusterMsgs.ns_lastseen n))
         (ClusterMsgs.ns_cluster n) (ClusterMsgs.ns_unreach n) (ClusterMsgs.ns_meta n) (ClusterMsgs.ns_labels n) (ClusterMsgs.ns_checksum n).

Definition to_wire (v : fview) : ClusterMsgs.view :=
  {| ClusterMsgs.v_id := fv_id v; ClusterMsgs.v_epoch := fv_epoch v; ClusterMsgs.v_ts := fv_ts v;
     ClusterMsgs.v_members := fmap (M := option) (fmap (M := gmap (list N)) (fmap (M := option) to_wire_state)) (fv_members v);
     ClusterMsgs.v_healthy := Z.of_N (fv_healthy v); ClusterMsgs.v_unhealthy := Z.of_N (fv_unhealthy v);
     ClusterMsgs.v_quorum := Z.of_N (fv_quorum v);
     ClusterMsgs.v_vv := fv_vv v; ClusterMsgs.v_proto := fv_proto v; ClusterMsgs.v_maxvv := fv_maxent v |}.

Definition of_wire (w : ClusterMsgs.view) : fview :=
  FView (ClusterMsgs.v_id w)
        (fmap (M := option) (fmap (M := gmap (list N)) (fmap (M := option) of_wire_state)) (ClusterMsgs.v_members w))
        (ClusterMsgs.v_epoch w) (ClusterMsgs.v_ts w) (Z.to_N (ClusterMsgs.v_healthy w)) (Z.to_N (ClusterMsgs.v_unhealthy w)) (Z.to_N (ClusterMsgs.v_quorum w))
        (ClusterMsgs.v_vv w) (ClusterMsgs.v_proto w) (ClusterMsgs.v_maxvv w).

Definition wire_ok_state (s : fstate) : Prop :=
  len32 (ns_id (fs_core s)) /\ len32 (fs_cluster s) /\ len32 (ns_addr (fs_core s)) /\
  in_i32 (ns_gen (fs_core s)) /\ in_i64 (ns_ts (fs_core s)) /\ ns_seq (fs_core s) < 2 ^ 64 /\
  in_i32 (ns_status (fs_core s)) /\ in_i64 (ns_seen (fs_core s)) /\ ns_lc (fs_core s) < 2 ^ 64 /\
  fs_checksum s < 2 ^ 32 /\ ClusterMsgs.valid_mapss (fs_meta s) /\ ClusterMsgs.valid_mapss (fs_labels s).

Definition wire_ok (v : fview) : Prop :=
  len32 (fv_id v) /\ in_i64 (fv_epoch v) /\ in_i64 (fv_ts v) /\
  fv_healthy v < 2 ^ 31 /\ fv_unhealthy v < 2 ^ 31 /\ fv_quorum v < 2 ^ 31 /\
  fv_proto v < 2 ^ 16 /\ in_i32 (fv_maxent v) /\
  (N.of_nat (size (fv_vv v)) <= max_entries /\
   forall k c, fv_vv v !! k = Some c -> valid_addr k = true /\ c <= max_counter) /\
  exists m, fv_members v = Some m /\ N.of_nat (size m) < 2 ^ 32 /\
    forall k e, m !! k = Some e -> len32 k /\ exists s, e = Some s /\ wire_ok_state s.

Lemma of_to_wire_state s : of_wire_state (to_wire_state s) = s.
Proof. destruct s as [[] ? ? ? ? ?]; reflexivity. Qed.

Lemma of_to_wire v : of_wire (to_wire v) = v.
Proof.
  destruct v as [i ms ep ts h u q x p mx]. unfold of_wire, to_wire. cbn.
  rewrite !N2Z.id. f_equal.
  destruct ms as [m|]; [|reflexivity]. cbn. f_equal. apply map_eq. intros key. rewrite !lookup_fmap.
  destruct (m !! key) as [[s|]|]; cbn; [rewrite of_to_wire_state|..]; reflexivity.
Qed.

Lemma in_i32_i64 z : in_i32 z -> in_i64 z.
Proof. unfold in_i32, in_i64. lia. Qed.

Lemma wire_ok_state_valid s : wire_ok_state s -> ClusterMsgs.ty_ns (to_wire_state s) /\ ClusterMsgs.valid_ns (to_wire_state s).
Proof.
  intros (A1 & A2 & A3 & A4 & A5 & A6 & A7 & A8 & A9 & A10 & A11 & A12).
  split; cbn; repeat (split; [assumption || (apply in_i32_i64; assumption)|]); assumption || (apply in_i32_i64; assumption).
Qed.

Lemma wire_ok_valid v : wire_ok v -> ClusterMsgs.ty_view (to_wire v) /\ ClusterMsgs.valid_view (to_wire v).
Proof.
  intros (A1 & A2 & A3 & A4 & A5 & A6 & A7 & A8 & A9 & m & Hm & Hsz & Hall).
  assert (I32 : forall n, n < 2 ^ 31 -> in_i32 (Z.of_N n)) by (intros n Hn; unfold in_i32; lia).
  unfold ClusterMsgs.ty_view, ClusterMsgs.valid_view, to_wire. cbn. rewrite Hm. cbn.
  split.
  - do 7 (split; [first [assumption | apply in_i32_i64; auto]|]).
    intros k n Hk. rewrite lookup_fmap in Hk. destruct (m !! k) as [e|] eqn:E; [|discriminate].
    destruct (Hall k e E) as (_ & s & -> & Hs). cbn in Hk. injection Hk as <-. apply (wire_ok_state_valid s Hs).
  - split; [assumption|]. do 4 (split; [auto|]). split; [assumption|].
    split; [rewrite map_size_fmap; exact Hsz|].
    intros k st Hk. rewrite lookup_fmap in Hk. destruct (m !! k) as [e|] eqn:E; [|discriminate].
    destruct (Hall k e E) as (Hl & s & -> & Hs). cbn in Hk. injection Hk as <-.
    split; [exact Hl|]. apply (wire_ok_state_valid s Hs).
Qed.

Lemma wire_ok_nonil v : wire_ok v -> nonil v.
Proof.
  intros (_ & _ & _ & _ & _ & _ & _ & _ & _ & m & Hm & _ & Hall). exists m. split; [exact Hm|].
  intros k Hk. destruct (Hall k None Hk) as (_ & s & Hs & _). discriminate.
Qed.

Theorem wire_roundtrip v rest :
  wire_ok v ->
  exists b, ClusterMsgs.enc_view (Some (to_wire v)) = MOk b /\
            drun ClusterMsgs.dec_view (b ++ rest) = MOk (Some (to_wire v), rest).
Proof.
  intros H. destruct (wire_ok_valid v H) as [T V].
  exact (ClusterMsgsProofs.view_rt (Some (to_wire v)) rest T V).
Qed.

Theorem merge_commutes_with_wire sk st now v o rest :
  wire_ok o ->
  exists b w, ClusterMsgs.enc_view (Some (to_wire o)) = MOk b /\
              drun ClusterMsgs.dec_view (b ++ rest) = MOk (Some w, rest) /\
              of_wire w = o /\
              f_merge sk st now v (of_wire w) = f_merge sk st now v o /\ nonil (of_wire w).
Proof.
  intros H. destruct (wire_roundtrip o rest H) as (b & Hb & Hd).
  exists b, (to_wire o). rewrite of_to_wire. repeat split; try assumption. apply wire_ok_nonil. exact H.
Qed.

(** non-vacuity: a one-member view (Labels {dc: 1}, Metadata nil) satisfies wire_ok *)
Definition wx_state : fstate :=
  FState (new_node_state [97] [97] 100) [120; 118] false None (Some {[ [100; 99] := [49] ]}) 0.
Definition wx_view : fview := FView [1] (Some {[ [97] := Some wx_state ]}) 0 100 0 1 0 {[ [97] := 1 ]} 1 0.

Lemma wx_wire_ok : wire_ok wx_view.
Proof.
  unfold wire_ok, wx_view. cbn [fv_id fv_epoch fv_ts fv_healthy fv_unhealthy fv_quorum fv_proto fv_maxent fv_vv fv_members].
  unfold len32, in_i64, in_i32. cbn [length].
  split; [lia|]. split; [lia|]. split; [lia|]. split; [lia|]. split; [lia|]. split; [lia|]. split; [lia|]. split; [lia|].
  split.
  - split; [rewrite map_size_singleton; unfold max_entries; lia|].
    intros k c Hk. apply lookup_singleton_Some in Hk as [<- <-]. split; [reflexivity|unfold max_counter; lia].
  - eexists. split; [reflexivity|]. split; [rewrite map_size_singleton; lia|].
    intros k e Hk. apply lookup_singleton_Some in Hk as [<- <-]. split; [cbn; lia|].
    exists wx_state. split; [reflexivity|].
    unfold wire_ok_state, wx_state, new_node_state, st_joining, len32, in_i32, in_i64. cbn.
    repeat (split; [lia|]). split; [apply insert_non_empty|].
    split; [rewrite map_size_singleton; unfold ClusterMsgs.max_map_entries; lia|].
    intros k v Hk. apply lookup_singleton_Some in Hk as [<- <-]. unfold len32. cbn. lia.
Qed.
