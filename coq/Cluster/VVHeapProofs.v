(** Proofs about the heap-level model (Cluster/VVHeap.v): every method of VersionVector, as a heap program,
    (a) REFINES the functional model of Cluster/VV.v on the abstract values [omap], and
    (b) satisfies the FRAME property [hext]: it writes only into locations it allocated itself,
    for every heap, every vector object living in it, and every map-iteration oracle.
    At the end: the concurrent machine of AtomicVersionVector (Cluster/VVAtomic.v) loses no update. *)
From stdpp Require Import gmap.
From Vivid Require Import Codec.Prim Cluster.VV Cluster.VVProofs Cluster.VVHeap Cluster.VVAtomic.
Local Open Scope N_scope.

(** [grows n h h']: [h'] agrees with [h] everywhere outside the window [n, h_next h').  Every primitive step
    satisfies it for every [n] up to the location it writes or allocates; it composes; taken at
    [n = h_next h] it gives both the frame property [hext] and well-formedness of [h']. *)
Definition grows (n : loc) (h h' : heap) : Prop :=
  h_next h <= h_next h' /\
  forall l, l < n \/ h_next h' <= l ->
    h_maps h' !! l = h_maps h !! l /\ h_ents h' !! l = h_ents h !! l /\
    h_strs h' !! l = h_strs h !! l /\ h_cells h' !! l = h_cells h !! l.

Lemma grows_refl n h : grows n h h.
Proof. split; [lia|]. intros l _. repeat split. Qed.
Lemma grows_trans n h1 h2 h3 : grows n h1 h2 -> grows n h2 h3 -> grows n h1 h3.
Proof.
  intros [A1 B1] [A2 B2]. split; [lia|]. intros l Hl.
  destruct (B1 l ltac:(lia)) as (?&?&?&?), (B2 l Hl) as (?&?&?&?). repeat split; congruence.
Qed.
Lemma grows_hext h h' : grows (h_next h) h h' -> hext h h'.
Proof. intros [A B]. split; [exact A|]. intros l Hl. apply B. left. exact Hl. Qed.
Lemma grows_wf n h h' : grows n h h' -> heap_wf h -> heap_wf h'.
Proof.
  intros [A B] W l Hl. destruct (B l (or_intror Hl)) as (-> & -> & -> & ->). apply W. lia.
Qed.

Lemma grows_spec h h' : heap_wf h -> grows (h_next h) h h' -> hext h h' /\ heap_wf h'.
Proof. intros W G. split; [apply grows_hext, G|exact (grows_wf _ _ _ G W)]. Qed.

Lemma hext_refl h : hext h h.
Proof. apply grows_hext, grows_refl. Qed.
Lemma hext_trans h1 h2 h3 : hext h1 h2 -> hext h2 h3 -> hext h1 h3.
Proof.
  intros [A1 B1] [A2 B2]. split; [lia|]. intros l Hl.
  destruct (B1 l Hl) as (?&?&?&?), (B2 l ltac:(lia)) as (?&?&?&?). repeat split; congruence.
Qed.

Lemma hext_grows h h1 h2 : hext h h1 -> grows (h_next h) h1 h2 -> hext h h2.
Proof.
  intros [A1 B1] [A2 B2]. split; [lia|]. intros l Hl.
  destruct (B1 l Hl) as (?&?&?&?), (B2 l (or_introl Hl)) as (?&?&?&?). repeat split; congruence.
Qed.

Lemma grows_alloc_map n h : n <= h_next h -> grows n h (snd (alloc_map h)).
Proof. intros Hn. split; cbn; [lia|]. intros l Hl. rewrite lookup_insert_ne by lia. repeat split. Qed.
Lemma grows_alloc_ents n cs h : n <= h_next h -> grows n h (snd (alloc_ents cs h)).
Proof. intros Hn. split; cbn; [lia|]. intros l Hl. rewrite lookup_insert_ne by lia. repeat split. Qed.
Lemma grows_alloc_strs n cs h : n <= h_next h -> grows n h (snd (alloc_strs cs h)).
Proof. intros Hn. split; cbn; [lia|]. intros l Hl. rewrite lookup_insert_ne by lia. repeat split. Qed.
Lemma grows_alloc_cell n v h : n <= h_next h -> grows n h (snd (alloc_cell v h)).
Proof. intros Hn. split; cbn; [lia|]. intros l Hl. rewrite lookup_insert_ne by lia. repeat split. Qed.
Lemma grows_store_ents n l cs h : n <= l < h_next h -> grows n h (store_ents l cs h).
Proof. intros Hn. split; cbn; [lia|]. intros l' Hl. rewrite lookup_alter_ne by lia. repeat split. Qed.
Lemma grows_store_strs n l cs h : n <= l < h_next h -> grows n h (store_strs l cs h).
Proof. intros Hn. split; cbn; [lia|]. intros l' Hl. rewrite lookup_alter_ne by lia. repeat split. Qed.
Lemma grows_bump n h : grows n h (bump_tick h).
Proof. split; cbn; [lia|]. intros l _. repeat split. Qed.

Lemma wf_heap0 : heap_wf heap0.
Proof. intros l _. cbn. rewrite !lookup_empty. repeat split. Qed.

Definition upd (l : loc) (f : vv -> vv) (h : heap) : heap :=
  Heap (alter f l (h_maps h)) (h_ents h) (h_strs h) (h_cells h) (h_next h) (h_tick h).

Lemma grows_upd n l f h : n <= l < h_next h -> grows n h (upd l f h).
Proof. intros Hn. split; cbn; [lia|]. intros l' Hl. rewrite lookup_alter_ne by lia. repeat split. Qed.
Lemma upd_id l h : upd l (fun m => m) h = h.
Proof. destruct h. unfold upd. cbn. f_equal. apply alter_id. reflexivity. Qed.
Lemma upd_upd l f g h : upd l g (upd l f h) = upd l (fun m => g (f m)) h.
Proof. unfold upd. cbn. f_equal. symmetry. apply (alter_compose g f). Qed.
Lemma upd_ext l f g h : (forall m, h_maps h !! l = Some m -> f m = g m) -> upd l f h = upd l g h.
Proof. intros E. unfold upd. f_equal. apply alter_ext. intros m Hm. apply E, Hm. Qed.

Lemma store_all_upd l es h : store_all l es h = upd l (fun m => foldl ins_entry m es) h.
Proof.
  unfold store_all. revert h. induction es as [|e es IH]; intros h; cbn [fold_left foldl].
  - symmetry. apply upd_id.
  - rewrite IH. apply (upd_upd l (fun m => ins_entry m e)).
Qed.

Lemma omap_hext h h' v : hext h h' -> obj_ok h v -> omap h' v = omap h v.
Proof.
  intros [_ B] [A _]. unfold omap, map_of. destruct (o_m v) as [l|]; [|reflexivity].
  destruct (B l (proj1 (A l eq_refl))) as (-> & _). reflexivity.
Qed.
Lemma ents_of_hext h h' s : hext h h' -> s_arr s < h_next h -> ents_of h' s = ents_of h s.
Proof. intros [_ B] Hs. unfold ents_of. destruct (B _ Hs) as (_ & -> & _). reflexivity. Qed.
Lemma strs_of_hext h h' s : hext h h' -> slice_ok h s -> strs_of h' s = strs_of h s.
Proof. intros [_ B] Hs. unfold strs_of. destruct (B _ Hs) as (_ & _ & -> & _). reflexivity. Qed.
Lemma obj_ok_hext h h' v : hext h h' -> obj_ok h v -> obj_ok h' v.
Proof.
  intros X O. pose proof X as [Hnx B]. destruct O as [Om Oe]. split.
  - intros l Hl. destruct (Om l Hl) as [? ?]. split; [lia|]. destruct (B l) as (-> & _); assumption.
  - intros s Hs. destruct (Oe s Hs) as [? C]. split; [lia|].
    rewrite (ents_of_hext h h'), (omap_hext h h' v X) by (assumption || split; assumption). exact C.
Qed.

Lemma obj_at h l m d : l < h_next h -> h_maps h !! l = Some m ->
  obj_ok h (VObj (Some l) None d) /\ omap h (VObj (Some l) None d) = m.
Proof.
  intros Hl Hm. split; [split; cbn [o_m o_ents]; [|discriminate]|].
  - intros ? [= <-]. rewrite Hm. eauto.
  - unfold omap, map_of. cbn [o_m]. rewrite Hm. reflexivity.
Qed.

(** Each method proof shows [grows (h_next h)] from the heap the call started in, which gives the frame
    and well-formedness clauses together, and reads the result object off the final heap ([obj_at], [new_obj_at]). *)
Lemma fresh_at h l d : h_next h <= l -> fresh_obj h (VObj (Some l) None d).
Proof. intros Hl. split; [exists l; split; [reflexivity|exact Hl]|reflexivity]. Qed.

Definition ret_ok {A} (h : heap) (r : A * heap) (Q : A -> heap -> Prop) : Prop :=
  hext h (snd r) /\ heap_wf (snd r) /\ Q (fst r) (snd r).

Lemma ret_ok_grows {A} h h' (a : A) (Q : A -> heap -> Prop) :
  heap_wf h -> grows (h_next h) h h' -> Q a h' -> ret_ok h (a, h') Q.
Proof. intros W G HQ. destruct (grows_spec h h' W G) as [X W']. exact (conj X (conj W' HQ)). Qed.
Lemma ret_ok_refl {A} h (a : A) (Q : A -> heap -> Prop) : heap_wf h -> Q a h -> ret_ok h (a, h) Q.
Proof. intros W HQ. apply ret_ok_grows; [exact W|apply grows_refl|exact HQ]. Qed.
Lemma ret_ok_impl {A} h (r : A * heap) (Q Q' : A -> heap -> Prop) :
  ret_ok h r Q -> (forall a h', Q a h' -> Q' a h') -> ret_ok h r Q'.
Proof. intros (X & W & HQ) H. exact (conj X (conj W (H _ _ HQ))). Qed.
Definition new_obj (h : heap) (val : vv) (r : vobj) (h' : heap) : Prop :=
  obj_ok h' r /\ omap h' r = val /\ fresh_obj h r.

Lemma new_obj_at h h' l d val :
  heap_wf h -> grows (h_next h) h h' -> h_next h <= l < h_next h' -> h_maps h' !! l = Some val ->
  ret_ok h (VObj (Some l) None d, h') (new_obj h val).
Proof.
  intros W G Hl Hm. apply ret_ok_grows; [exact W|exact G|]. destruct (obj_at h' l val d (proj2 Hl) Hm) as [O V].
  split; [exact O|]. split; [exact V|apply fresh_at, Hl].
Qed.

Lemma olen_0 h v : Nat.eqb (olen h v) 0 = bool_decide (size (omap h v) = 0%nat).
Proof. unfold olen. destruct (Nat.eqb_spec (size (omap h v)) 0); [rewrite bool_decide_eq_true_2|rewrite bool_decide_eq_false_2]; auto. Qed.

(** a fresh map, one [range] loop, then [f] applied to the new map: the common shape of Clone, Merge,
    Compact and PruneWithMax; [n0] is the allocation pointer of the heap the method started in *)
Lemma fresh_fill_spec (n0 : loc) (h : heap) (f : vv -> vv) : n0 <= h_next h ->
  let h' := upd (h_next h) f (bump_tick (snd (alloc_map h))) in
  grows n0 h h' /\ h_maps h' !! h_next h = Some (f ∅).
Proof.
  intros Hn. cbn zeta. split; [|cbn; rewrite lookup_alter, lookup_insert; reflexivity].
  eapply grows_trans; [apply grows_alloc_map, Hn|]. eapply grows_trans; [apply grows_bump|].
  apply grows_upd. cbn. lia.
Qed.

Section Methods.
  Variable iter : N -> vv -> list ent.
  Hypothesis Hiter : iter_ok iter.

  Lemma h_new_spec h : heap_wf h -> ret_ok h (h_new h) (new_obj h ∅).
  Proof.
    intros W. apply new_obj_at; [exact W|apply grows_alloc_map; lia|cbn; lia|apply lookup_insert].
  Qed.

  Lemma range_perm t h h' v : hext h h' -> obj_ok h v -> iter t (omap h' v) ≡ₚ map_to_list (omap h v).
  Proof. intros X O. rewrite (omap_hext h h' v X O). apply Hiter. Qed.

  Lemma h_clone_spec v h : heap_wf h -> obj_ok h v -> ret_ok h (h_clone iter v h) (new_obj h (omap h v)).
  Proof.
    intros W O. unfold h_clone. destruct (o_m v) as [l0|] eqn:Em.
    - cbn [alloc_map range_obj fst snd]. rewrite store_all_upd.
      destruct (fresh_fill_spec (h_next h) h (fun m => foldl ins_entry m (iter (h_tick h) (omap (snd (alloc_map h)) v))))
        as (G & M); [lia|].
      apply new_obj_at; [exact W|exact G|cbn; lia|]. refine (eq_trans M _). f_equal.
      apply foldl_ins_perm, range_perm; [apply grows_hext, grows_alloc_map; lia|exact O].
    - assert (omap h v = ∅) as -> by (unfold omap; rewrite Em; reflexivity). apply h_new_spec, W.
  Qed.

  Lemma h_inc_spec v k h : heap_wf h -> obj_ok h v ->
    ret_ok h (h_inc iter v k h) (fun a h' =>
      match a with
      | Ok r => obj_ok h' r /\ vinc (omap h v) k = Ok (omap h' r) /\ fresh_obj h r
      | Err e => vinc (omap h v) k = Err e
      end).
  Proof.
    intros W O. unfold h_inc, vinc. destruct (valid_addr k); [|apply ret_ok_refl; [exact W|reflexivity]]. unfold ret_ok.
    destruct (h_clone_spec v h W O) as (X & W1 & O1 & E1 & F1).
    destruct (h_clone iter v h) as [out h1]. cbn [fst snd] in *.
    unfold h_get. rewrite E1.
    destruct (max_counter <=? vget (omap h v) k) eqn:Ecap; cbn [fst snd]; [split; [exact X|split; [exact W1|reflexivity]]|].
    destruct out as [om oe od]. destruct F1 as [(l & El & Hl) Ee]. cbn [o_m o_ents] in El, Ee. subst om oe. cbn [o_m o_ents fst snd].
    destruct (proj1 O1 l eq_refl) as [Hl1 [m Hm]].
    assert (Em : m = omap h v) by (rewrite <- E1; unfold omap, map_of; cbn [o_m]; rewrite Hm; reflexivity).
    set (f := insert k (vget (omap h v) k + 1) : vv -> vv).
    change (store_map l k (vget (omap h v) k + 1) h1) with (upd l f h1).
    assert (G : grows (h_next h) h1 (upd l f h1)) by (apply grows_upd; lia).
    destruct (obj_at (upd l f h1) l (f m) true Hl1) as [O' V']; [cbn; rewrite lookup_alter, Hm; reflexivity|].
    split; [exact (hext_grows _ _ _ X G)|]. split; [exact (grows_wf _ _ _ G W1)|]. split; [exact O'|].
    split; [rewrite V', Em; reflexivity|apply fresh_at, Hl].
  Qed.

  (** Merge: the second loop is a fold of [merge_step] over the new map, which is the pointwise maximum *)
  Definition merge_step (m : vv) (e : ent) : vv :=
    match m !! fst e with
    | Some cur => if cur <? snd e then <[fst e := snd e]> m else m
    | None => <[fst e := snd e]> m
    end.

  Lemma merge_into_upd l es h : merge_into l es h = upd l (fun m => foldl merge_step m es) h.
  Proof.
    unfold merge_into. revert h. induction es as [|e es IH]; intros h; cbn [fold_left foldl].
    - symmetry. apply upd_id.
    - etransitivity; [|exact (upd_upd l (fun m => merge_step m e) (fun m => foldl merge_step m es) h)].
      rewrite <- IH. f_equal.
      transitivity (upd l (match map_of h l !! fst e with
                           | Some cur => if cur <? snd e then insert (fst e) (snd e) else fun m => m
                           | None => insert (fst e) (snd e)
                           end) h).
      + destruct (map_of h l !! fst e) as [cur|]; [destruct (cur <? snd e)|]; try reflexivity. symmetry. apply upd_id.
      + apply upd_ext. intros m Hm. unfold map_of, merge_step. rewrite Hm. unfold default, id.
        destruct (m !! fst e) as [cur|]; [destruct (cur <? snd e)|]; reflexivity.
  Qed.

  Lemma foldl_merge_step (es : list ent) (a : vv) :
    NoDup (es.*1) -> foldl merge_step a es = vmax_union a (list_to_map es).
  Proof.
    revert a. induction es as [|e es IH]; intros a Hnd; cbn [foldl].
    - symmetry. unfold vmax_union. apply (right_id ∅ _).
    - cbn in Hnd. apply NoDup_cons in Hnd as [Hnin Hnd]. rewrite IH by exact Hnd.
      apply map_eq. intros k. unfold vmax_union. rewrite !lookup_join. cbn [list_to_map foldr].
      change (foldr (λ p, <[p.1:=p.2]>) ∅ es) with (list_to_map (M:=vv) es).
      unfold merge_step. destruct (decide (k = fst e)) as [->|Hne].
      + rewrite lookup_insert, (not_elem_of_list_to_map_1 _ _ Hnin).
        destruct (a !! fst e) as [cur|] eqn:Ea; [destruct (N.ltb_spec cur (snd e))|];
          rewrite ?lookup_insert, ?Ea; f_equal; lia.
      + rewrite lookup_insert_ne by congruence.
        destruct (a !! fst e) as [cur|]; [destruct (cur <? snd e)|]; rewrite ?lookup_insert_ne by congruence; reflexivity.
  Qed.

  Lemma h_merge_spec v o h : heap_wf h -> obj_ok h v -> obj_ok h o ->
    ret_ok h (h_merge iter v o h) (new_obj h (vmerge (omap h v) (omap h o))).
  Proof.
    intros W Ov Oo. unfold h_merge, vmerge. rewrite !olen_0.
    destruct (bool_decide (size (omap h o) = 0%nat)); [apply h_clone_spec; assumption|].
    destruct (bool_decide (size (omap h v) = 0%nat)); [apply h_clone_spec; assumption|].
    cbn [alloc_map range_obj fst snd]. rewrite store_all_upd, merge_into_upd.
    pose (n := h_next h). pose (h1 := snd (alloc_map h)).
    pose (f1 := fun m => foldl ins_entry m (iter (h_tick h) (omap h1 v))).
    pose (h3 := upd n f1 (bump_tick h1)).
    destruct (fresh_fill_spec n h f1 (N.le_refl _)) as (G3 & M3).
    assert (E1 : f1 ∅ = omap h v)
      by (apply foldl_ins_perm, range_perm; [apply grows_hext, grows_alloc_map; reflexivity|exact Ov]).
    rewrite E1 in M3. change (h_maps h3 !! n = Some (omap h v)) in M3.
    pose (eso := iter (h_tick h3) (omap h3 o)).
    assert (Po : eso ≡ₚ map_to_list (omap h o)) by (apply range_perm; [apply grows_hext, G3|exact Oo]).
    pose (f := fun m => foldl merge_step m eso).
    apply (new_obj_at h (upd n f (bump_tick h3)) n); [exact W| |cbn; lia|].
    - eapply grows_trans; [exact G3|]. eapply grows_trans; [apply grows_bump|]. apply grows_upd. cbn. lia.
    - change (alter f n (h_maps h3) !! n = Some (vmax_union (omap h v) (omap h o))).
      rewrite lookup_alter, M3. cbn. f_equal. unfold f.
      rewrite foldl_merge_step by (rewrite Po; apply NoDup_fst_map_to_list).
      f_equal. rewrite <- (list_to_map_to_list (omap h o)). apply list_to_map_proper; [rewrite Po; apply NoDup_fst_map_to_list|exact Po].
  Qed.

Lemma existsb_perm {A} (f : A -> bool) l1 l2 : l1 ≡ₚ l2 -> existsb f l1 = existsb f l2.
Proof.
  intros Hp. apply eq_true_iff_eq. rewrite !existsb_exists. split; intros (x & Hin & Hx); exists x; (split; [|exact Hx]);
    apply elem_of_list_In; apply elem_of_list_In in Hin; [rewrite <- Hp|rewrite Hp]; exact Hin.
Qed.

(** both passes of Compare are this loop: two flags that are only ever raised, with an early return once both
    are up; the early return does not change what is computed *)
Fixpoint scan (f g : ent -> bool) (es : list ent) (ls gt : bool) : option (bool * bool) :=
  match es with
  | [] => Some (ls, gt)
  | e :: r => if (ls || f e) && (gt || g e) then None else scan f g r (ls || f e) (gt || g e)
  end.

Lemma scan_spec f g es ls gt : ls && gt = false ->
  scan f g es ls gt =
  if (ls || existsb f es) && (gt || existsb g es) then None else Some (ls || existsb f es, gt || existsb g es).
Proof.
  revert ls gt. induction es as [|e es IH]; intros ls gt H0; cbn [scan existsb].
  - rewrite !orb_false_r, H0. reflexivity.
  - rewrite !orb_assoc. destruct ((ls || f e) && (gt || g e)) eqn:E; [|apply IH, E].
    apply andb_true_iff in E as [-> ->]. reflexivity.
Qed.

Lemma cmp_pass1_scan om es ls gt :
  cmp_pass1 om es ls gt = scan (fun p => snd p <? vget om (fst p)) (fun p => vget om (fst p) <? snd p) es ls gt.
Proof. revert ls gt. induction es as [|e es IH]; intros ls gt; cbn [cmp_pass1 scan]; [|rewrite IH]; reflexivity. Qed.

Lemma cmp_pass2_scan (vm : vv) es ls gt : ls && gt = false ->
  cmp_pass2 vm es ls gt = scan (fun p => bool_decide (vm !! fst p = None) && (0 <? snd p)) (fun _ => false) es ls gt.
Proof.
  revert ls. induction es as [|e es IH]; intros ls H0; cbn [cmp_pass2 scan]; [reflexivity|]. rewrite orb_false_r.
  destruct (vm !! fst e) as [x|] eqn:Ek.
  - rewrite bool_decide_eq_false_2 by discriminate. cbn [andb]. rewrite orb_false_r, H0. apply IH, H0.
  - rewrite bool_decide_eq_true_2 by reflexivity. cbn [andb]. destruct ((ls || (0 <? snd e)) && gt) eqn:E; [reflexivity|apply IH, E].
Qed.

  Lemma h_compare_spec v o h : heap_wf h ->
    ret_ok h (h_compare iter v o h) (fun a _ => a = vcompare (omap h v) (omap h o)).
  Proof.
    intros W. unfold h_compare, vcompare. rewrite !olen_0.
    destruct (bool_decide (size (omap h v) = 0%nat) && bool_decide (size (omap h o) = 0%nat));
      [apply ret_ok_refl; [exact W|reflexivity]|].
    unfold ret_ok.
    destruct (grows_spec h _ W (grows_bump _ h)) as [X1 W1].
    destruct (grows_spec h _ W (grows_trans _ _ _ _ (grows_bump _ h) (grows_bump _ (bump_tick h)))) as [X2 W2].
    cbn [range_obj]. change (omap (bump_tick h) o) with (omap h o).
    rewrite cmp_pass1_scan, scan_spec by reflexivity. cbn [orb].
    rewrite !(existsb_perm _ _ _ (Hiter (h_tick h) (omap h v))).
    fold (vgreater (omap h v) (omap h o)).
    set (gt := vgreater (omap h v) (omap h o)). set (l1 := existsb _ (map_to_list (omap h v))).
    unfold vless. fold l1.
    destruct (l1 && gt) eqn:E1; cbn [fst snd].
    - apply andb_true_iff in E1 as [-> ->]. split; [exact X1|split; [exact W1|reflexivity]].
    - rewrite cmp_pass2_scan, scan_spec by exact E1.
      rewrite (existsb_perm _ _ _ (Hiter (h_tick (bump_tick h)) (omap h o))).
      set (l2 := existsb _ (map_to_list (omap h o))).
      assert (existsb (fun _ : ent => false) (iter (h_tick (bump_tick h)) (omap h o)) = false) as ->
        by (induction (iter _ _); [reflexivity|assumption]).
      rewrite orb_false_r.
      destruct ((l1 || l2) && gt) eqn:E2; cbn [fst snd]; (split; [exact X2|split; [exact W2|]]).
      + apply andb_true_iff in E2 as [-> ->]. reflexivity.
      + destruct (l1 || l2), gt; try discriminate; reflexivity.
  Qed.

  Lemma foldl_ins_filter (f : ent -> bool) (P : ent -> Prop) `{!forall x, Decision (P x)} (es : list ent) (m : vv) :
    (forall p, f p = true <-> P p) -> es ≡ₚ map_to_list m -> foldl ins_entry ∅ (List.filter f es) = filter P m.
  Proof.
    intros Hf Hp.
    assert (Hnd : NoDup ((List.filter f es).*1)).
    { assert (Hnd0 : NoDup (es.*1)) by (rewrite Hp; apply NoDup_fst_map_to_list).
      clear Hp. induction es as [|e es IH]; cbn; [constructor|].
      cbn in Hnd0. apply NoDup_cons in Hnd0 as [Hnin Hnd0]. destruct (f e); [|apply IH, Hnd0].
      cbn. apply NoDup_cons. split; [|apply IH, Hnd0]. intros Hin. apply Hnin.
      apply elem_of_list_fmap in Hin as (q & -> & Hq). apply elem_of_list_fmap. exists q. split; [reflexivity|].
      apply elem_of_list_In. apply elem_of_list_In, filter_In in Hq. tauto. }
    rewrite fold_ins_nodup by exact Hnd. rewrite (right_id ∅ (∪)).
    apply map_eq. intros k. apply option_eq. intros c.
    rewrite <- elem_of_list_to_map by exact Hnd. rewrite map_filter_lookup_Some.
    rewrite elem_of_list_In, filter_In, <- elem_of_list_In, Hp, elem_of_map_to_list, Hf. reflexivity.
  Qed.

  Lemma filter_len_le {A} (f : A -> bool) (l : list A) : (length (List.filter f l) <= length l)%nat.
  Proof. induction l as [|y l IH]; cbn; [lia|]. destruct (f y); cbn; lia. Qed.
  Lemma filter_length_all {A} (f : A -> bool) (l : list A) :
    length (List.filter f l) = length l -> forall x, In x l -> f x = true.
  Proof.
    induction l as [|y l IH]; cbn; [tauto|]. pose proof (filter_len_le f l).
    destruct (f y) eqn:E; cbn; [|lia]. intros Hlen x [<-|Hin]; [exact E|apply IH; [lia|exact Hin]].
  Qed.

  (** Clone restricted to the entries satisfying [f]: the tail of Compact and of PruneWithMax; [h0] is the heap the
      method started in *)
  Lemma filter_fill_spec (f : ent -> bool) (P : ent -> Prop) `{!forall x, Decision (P x)} h0 h v :
    (forall p, f p = true <-> P p) -> heap_wf h0 -> obj_ok h0 v -> grows (h_next h0) h0 h ->
    let h1 := snd (alloc_map h) in
    ret_ok h0 (VObj (Some (h_next h)) None true,
               store_all (h_next h) (List.filter f (iter (h_tick h1) (omap h1 v))) (bump_tick h1))
           (new_obj h0 (filter P (omap h0 v))).
  Proof.
    intros Hf W O G0. cbn zeta. rewrite store_all_upd.
    assert (Hn : h_next h0 <= h_next h) by apply G0.
    destruct (fresh_fill_spec (h_next h0) h
                (fun m => foldl ins_entry m (List.filter f (iter (h_tick (snd (alloc_map h))) (omap (snd (alloc_map h)) v)))) Hn)
      as (G & M).
    apply new_obj_at; [exact W|exact (grows_trans _ _ _ _ G0 G)|cbn; lia|]. rewrite M. f_equal.
    apply foldl_ins_filter; [exact Hf|]. apply range_perm; [|exact O].
    apply grows_hext. eapply grows_trans; [exact G0|apply grows_alloc_map, Hn].
  Qed.

  Lemma h_compact_spec v h : heap_wf h -> obj_ok h v ->
    ret_ok h (h_compact iter v h) (fun r h' =>
      obj_ok h' r /\ omap h' r = vcompact (omap h v) /\ (r = v \/ fresh_obj h r)).
  Proof.
    intros W O. unfold h_compact. rewrite olen_0.
    destruct (bool_decide (size (omap h v) = 0%nat)) eqn:E0.
    - apply ret_ok_refl; [exact W|]. split; [exact O|]. split; [|left; reflexivity].
      apply bool_decide_eq_true, map_size_empty_inv in E0. rewrite E0. unfold vcompact. symmetry. apply map_filter_empty.
    - unfold ret_ok. cbn [range_obj]. set (es := iter (h_tick h) (omap h v)).
      assert (Hes : es ≡ₚ map_to_list (omap h v)) by apply Hiter.
      destruct (grows_spec h _ W (grows_bump _ h)) as [X1 W1].
      destruct (Nat.eqb_spec (length (List.filter nonzero es)) (olen h v)) as [Eq|Ne]; cbn [fst snd].
      + split; [exact X1|]. split; [exact W1|]. split; [apply (obj_ok_hext h); assumption|]. split; [|left; reflexivity].
        change (omap (bump_tick h) v) with (omap h v). unfold vcompact. symmetry. apply map_filter_id.
        intros k c Hk. cbn. unfold olen in Eq. rewrite <- (Permutation_length Hes : length es = size (omap h v)) in Eq.
        apply elem_of_map_to_list in Hk. rewrite <- Hes in Hk. apply elem_of_list_In in Hk.
        pose proof (filter_length_all nonzero es Eq (k, c) Hk) as Hnz. unfold nonzero in Hnz. cbn in Hnz. lia.
      + destruct (filter_fill_spec nonzero (fun p => 0 < snd p) h (bump_tick h) v) as (X & W' & O' & V' & F');
          [intros p; unfold nonzero; lia|assumption..|apply grows_bump|].
        split; [exact X|]. split; [exact W'|]. split; [exact O'|]. split; [exact V'|right; exact F'].
  Qed.

Lemma ent_append_room (n : loc) (pre : list ent) (r' : nat) (e : ent) (h : heap) :
  h_ents h !! n = Some (pre ++ repeat zcell (S r')) ->
  ent_append (Slice n (length pre)) e h =
  (Slice n (S (length pre)), store_ents n ((pre ++ [e]) ++ repeat zcell r') h).
Proof.
  intros Harr. unfold ent_append. cbn [s_arr s_len]. rewrite Harr. cbn [from_option]. unfold id.
  assert (Nat.ltb (length pre) (length (pre ++ repeat zcell (S r'))) = true) as ->.
  { apply Nat.ltb_lt. rewrite app_length, repeat_length. lia. }
  f_equal. f_equal.
  rewrite take_app. cbn [repeat]. rewrite <- app_assoc. cbn [app]. f_equal. f_equal.
  change (pre ++ zcell :: repeat zcell r') with (pre ++ [zcell] ++ repeat zcell r').
  rewrite app_assoc. rewrite drop_app_alt; [reflexivity|]. rewrite app_length. cbn. lia.
Qed.

Lemma append_loop (n0 n : loc) (es : list ent) : forall (pre : list ent) (r : nat) (h : heap),
  n0 <= n < h_next h -> h_ents h !! n = Some (pre ++ repeat zcell r) -> (length es <= r)%nat ->
  let res := fold_left (fun sh e => ent_append (fst sh) e (snd sh)) es (Slice n (length pre), h) in
  fst res = Slice n (length pre + length es) /\
  h_ents (snd res) !! n = Some (pre ++ es ++ repeat zcell (r - length es)) /\
  grows n0 h (snd res).
Proof.
  induction es as [|e es IH]; intros pre r h Hn Harr Hlen; cbn zeta; cbn [fold_left fst snd].
  - cbn [length]. rewrite Nat.add_0_r, Nat.sub_0_r. cbn [app]. split; [reflexivity|]. split; [exact Harr|apply grows_refl].
  - cbn [length] in Hlen. destruct r as [|r']; [lia|].
    rewrite (ent_append_room n pre r' e h Harr).
    set (h1 := store_ents n ((pre ++ [e]) ++ repeat zcell r') h).
    assert (Harr1 : h_ents h1 !! n = Some ((pre ++ [e]) ++ repeat zcell r')).
    { cbn. rewrite lookup_alter, Harr. reflexivity. }
    specialize (IH (pre ++ [e]) r' h1 Hn Harr1 ltac:(lia)). cbn zeta in IH.
    replace (length (pre ++ [e])) with (S (length pre)) in IH by (rewrite app_length; cbn; lia).
    destruct IH as (I1 & I2 & I3).
    split; [rewrite I1; f_equal; cbn; lia|]. split; [rewrite I2; rewrite <- !app_assoc; cbn [app length]; do 3 f_equal|].
    eapply grows_trans; [apply grows_store_ents, Hn|exact I3].
Qed.

  Lemma h_prune_max_spec v (s : slice) maxe h : heap_wf h -> obj_ok h v -> slice_ok h s ->
    ret_ok h (h_prune_max iter v (Some s) maxe h) (fun r h' =>
      obj_ok h' r /\ omap h' r = vprune_max (omap h v) (strs_of h s) maxe /\ fresh_obj h r /\
      strs_of h' s = strs_of h s).
  Proof.
    intros W O S.
    enough (K : ret_ok h (h_prune_max iter v (Some s) maxe h) (new_obj h (vprune_max (omap h v) (strs_of h s) maxe))).
    { destruct K as (X & W' & O' & V' & F'). repeat (split; [assumption|]). apply strs_of_hext; assumption. }
    unfold h_prune_max, vprune_max. rewrite olen_0.
    set (actl := strs_of h s).
    assert (Nat.eqb (length actl) 0 = bool_decide (length actl = 0%nat)) as ->.
    { destruct (Nat.eqb_spec (length actl) 0); [rewrite bool_decide_eq_true_2|rewrite bool_decide_eq_false_2]; auto. }
    destruct (bool_decide (size (omap h v) = 0%nat) || bool_decide (length actl = 0%nat)); [apply h_new_spec, W|].
    assert (Tail : forall (act' : list key) hb, grows (h_next h) h hb ->
      let h1 := snd (alloc_map hb) in
      ret_ok h (VObj (Some (h_next hb)) None true,
                store_all (h_next hb) (List.filter (fun e => bool_decide (fst e ∈ act')) (iter (h_tick h1) (omap h1 v))) (bump_tick h1))
             (new_obj h (filter (fun p => bool_decide (fst p ∈ act')) (omap h v)))).
    { intros act' hb G0. apply filter_fill_spec; [intros p; symmetry; apply Is_true_true|assumption..]. }
    set (limit := if (maxe <=? 0)%Z then max_entries else Z.to_N maxe).
    destruct (limit <? N.of_nat (length actl)).
    - cbn [alloc_strs fst snd].
      set (hb := store_strs (h_next h) (isort lex_le actl) (snd (alloc_strs actl h))).
      assert (Es : strs_of hb (Slice (h_next h) (length actl)) = isort lex_le actl).
      { unfold strs_of. cbn. rewrite lookup_alter, lookup_insert. cbn. rewrite <- (isort_length lex_le actl). apply firstn_all. }
      change (Heap (h_maps h) (h_ents h) (<[h_next h:=actl]> (h_strs h)) (h_cells h) (h_next h + 1) (h_tick h))
        with (snd (alloc_strs actl h)).
      fold hb. rewrite Es. apply (Tail _ hb).
      eapply grows_trans; [apply grows_alloc_strs; lia|]. apply grows_store_strs. cbn. lia.
    - apply (Tail actl h), grows_refl.
  Qed.

  Lemma ventries_empty (m : vv) : size m = 0%nat -> ventries m = [].
  Proof. intros H. apply map_size_empty_inv in H. subst. unfold ventries. rewrite map_to_list_empty. reflexivity. Qed.

  Lemma h_sorted_fresh_spec v h : heap_wf h -> obj_ok h v ->
    ret_ok h (h_sorted_fresh iter v h) (fun so h' =>
      slice_ents h' so = ventries (omap h v) /\
      forall s, so = Some s -> h_next h <= s_arr s /\ s_arr s < h_next h').
  Proof.
    intros W O. unfold ret_ok, h_sorted_fresh. cbn [alloc_ents range_obj].
    set (n := h_next h). set (sz := olen h v).
    change (Heap (h_maps h) (<[n:=repeat zcell sz]> (h_ents h)) (h_strs h) (h_cells h) (n + 1) (h_tick h))
      with (snd (alloc_ents (repeat zcell sz) h)).
    set (h1 := snd (alloc_ents (repeat zcell sz) h)).
    assert (G1 : grows n h h1) by (apply grows_alloc_ents; lia).
    set (es := iter (h_tick h1) (omap h1 v)).
    assert (Hes : es ≡ₚ map_to_list (omap h v)) by (apply range_perm; [apply grows_hext, G1|exact O]).
    assert (Hlen : length es = sz) by apply (Permutation_length Hes).
    pose proof (append_loop n n es [] sz (bump_tick h1) ltac:(cbn; lia) (lookup_insert _ _ _) ltac:(lia)) as L.
    cbn zeta in L. cbn [length Nat.add] in L.
    destruct (fold_left (fun sh e => ent_append (fst sh) e (snd sh)) es (Slice n 0, bump_tick h1)) as [s h3].
    cbn [fst snd] in *. destruct L as (-> & L2 & G3).
    rewrite Hlen, Nat.sub_diag in L2. cbn [repeat app] in L2. rewrite app_nil_r in L2.
    unfold ents_sort. cbn [s_arr s_len]. rewrite L2. cbn [from_option]. unfold id.
    rewrite firstn_all, skipn_all, app_nil_r.
    assert (Hn3 : n < h_next h3) by (destruct G3 as [G3 _]; cbn in G3; lia).
    destruct (grows_spec h (store_ents n (isort (fun p q => lex_le (fst p) (fst q)) es) h3) W) as [X W'].
    { eapply grows_trans; [exact G1|]. eapply grows_trans; [apply grows_bump|]. eapply grows_trans; [exact G3|].
      apply grows_store_ents. lia. }
    split; [exact X|]. split; [exact W'|]. split.
    - unfold slice_ents, ents_of. cbn [s_arr s_len store_ents h_ents]. rewrite lookup_alter, L2. cbn [fmap option_fmap option_map from_option].
      unfold id. rewrite <- (isort_length ent_le es) at 1. rewrite firstn_all. apply ventries_of_perm, Hes.
    - intros s [= <-]. cbn. lia.
  Qed.

  Lemma h_sorted_entries_spec v h : heap_wf h -> obj_ok h v ->
    ret_ok h (h_sorted_entries iter v h) (fun so h' =>
      slice_ents h' so = ventries (omap h v) /\
      forall s, so = Some s -> (o_ents v = Some s \/ h_next h <= s_arr s) /\ s_arr s < h_next h').
  Proof.
    intros W O. unfold h_sorted_entries. rewrite olen_0.
    destruct (bool_decide (size (omap h v) = 0%nat)) eqn:E0.
    { apply ret_ok_refl; [exact W|]. split; [|discriminate].
      symmetry. apply ventries_empty. apply bool_decide_eq_true in E0. exact E0. }
    destruct (o_dirty v) eqn:Ed; [|destruct (o_ents v) as [s|] eqn:Ee].
    1,3: apply (ret_ok_impl _ _ _ _ (h_sorted_fresh_spec v h W O)); intros so h' [C D]; (split; [exact C|]);
         intros s' Hs; destruct (D s' Hs); auto.
    destruct (proj2 O s Ee) as [Hs C]. apply ret_ok_refl; [exact W|]. split; [exact (C Ed)|].
    intros s' [= <-]. split; [left; reflexivity|exact Hs].
  Qed.

  Lemma h_write_spec v h : heap_wf h -> obj_ok h v ->
    ret_ok h (h_write iter v h) (fun a _ => a = vwrite (omap h v)).
  Proof.
    intros W O. unfold h_write. destruct (h_sorted_entries_spec v h W O) as (X & W1 & E & _).
    destruct (h_sorted_entries iter v h) as [so h1]. cbn [fst snd] in *.
    refine (conj X (conj W1 _)). cbn [fst snd]. rewrite E. reflexivity.
  Qed.

Lemma h_read_entries_spec n : forall l bs h acc, l < h_next h -> h_maps h !! l = Some acc ->
  let r := h_read_entries n l bs h in
  grows l h (snd r) /\
  match vread_entries n acc bs with
  | Ok (m, rest) => fst r = Ok rest /\ h_maps (snd r) !! l = Some m
  | Err e => fst r = Err e
  end.
Proof.
  induction n as [|n IH]; intros l bs h acc Hl Hacc; cbn zeta; cbn [h_read_entries vread_entries].
  - split; [apply grows_refl|]. split; [reflexivity|exact Hacc].
  - destruct (rd_lp4 bs) as [[k bs1]|e]; cbn [bind fst snd]; [|split; [apply grows_refl|reflexivity]].
    destruct (valid_addr k); cbn [fst snd]; [|split; [apply grows_refl|reflexivity]].
    destruct (rd_u64 bs1) as [[c bs2]|e]; cbn [bind fst snd]; [|split; [apply grows_refl|reflexivity]].
    destruct (max_counter <? c); cbn [fst snd]; [split; [apply grows_refl|reflexivity]|].
    destruct (IH l bs2 (store_map l k c h) (<[k:=c]> acc) Hl) as [G R]; [cbn; rewrite lookup_alter, Hacc; reflexivity|].
    split; [|exact R]. eapply grows_trans; [apply (grows_upd l l (insert k c)); lia|exact G].
Qed.

Lemma h_read_spec bs h : heap_wf h ->
  ret_ok h (h_read bs h) (fun a h' =>
    match vread bs with
    | Ok (m, rest) => exists r, a = Ok (r, rest) /\ new_obj h m r h'
    | Err e => a = Err e
    end).
Proof.
  intros W. unfold h_read, vread. destruct (rd_u32 bs) as [[n bs1]|e]; cbn [bind]; [|apply ret_ok_refl; [exact W|reflexivity]].
  destruct (max_entries <? n); [apply ret_ok_refl; [exact W|reflexivity]|].
  unfold ret_ok, new_obj. cbn [alloc_map fst snd].
  change (Heap (<[h_next h:=∅]> (h_maps h)) (h_ents h) (h_strs h) (h_cells h) (h_next h + 1) (h_tick h)) with (snd (alloc_map h)).
  destruct (h_read_entries_spec (N.to_nat n) (h_next h) bs1 (snd (alloc_map h)) ∅) as [G R]; [cbn; lia|apply lookup_insert|].
  destruct (grows_spec h (snd (h_read_entries (N.to_nat n) (h_next h) bs1 (snd (alloc_map h)))) W) as [X W'].
  { eapply grows_trans; [apply grows_alloc_map; lia|exact G]. }
  destruct (h_read_entries (N.to_nat n) (h_next h) bs1 (snd (alloc_map h))) as [rr h2]. cbn [fst snd] in *.
  pose proof (proj1 G) as Hl. cbn in Hl.
  destruct (vread_entries (N.to_nat n) ∅ bs1) as [[m rest]|e]; [destruct R as [-> R]|subst rr]; cbn [fst snd].
  - destruct (obj_at h2 (h_next h) m false ltac:(lia) R) as [O' V'].
    split; [exact X|]. split; [exact W'|]. exists (VObj (Some (h_next h)) None false).
    split; [reflexivity|]. split; [exact O'|]. split; [exact V'|apply fresh_at; lia].
  - split; [exact X|]. split; [exact W'|reflexivity].
Qed.

Lemma box_of_hext h h' c : hext h h' -> c < h_next h -> box_of c h' = box_of c h.
Proof. intros [_ B] Hc. unfold box_of. destruct (B c Hc) as (_&_&_&->). reflexivity. Qed.
Lemma cell_ok_hext h h' c : hext h h' -> cell_ok h c -> cell_ok h' c.
Proof.
  intros X [Hc (v & Hv & Ov)]. pose proof X as [Hn B]. split; [lia|]. exists v. split.
  - destruct (B c Hc) as (_&_&_&->). exact Hv.
  - apply (obj_ok_hext h); assumption.
Qed.
Lemma cell_ok_box h c : cell_ok h c -> obj_ok h (box_of c h).
Proof. intros [_ (v & Hv & Ov)]. unfold box_of. rewrite Hv. exact Ov. Qed.

Lemma alloc_cell_spec v h : heap_wf h -> obj_ok h v ->
  ret_ok h (alloc_cell v h) (fun p h' => cell_ok h' p /\ box_of p h' = v /\ h_next h <= p).
Proof.
  intros W O. unfold ret_ok. destruct (grows_spec h _ W (grows_alloc_cell _ v h (N.le_refl _))) as [X W'].
  split; [exact X|]. split; [exact W'|]. split; [|split].
  - split; [cbn; lia|]. exists v. split; [cbn; apply lookup_insert|]. apply (obj_ok_hext h); assumption.
  - unfold box_of. cbn. rewrite lookup_insert. reflexivity.
  - cbn. lia.
Qed.

  Lemma a_new_spec init h : heap_wf h -> obj_ok h init ->
    ret_ok h (a_new init h) (fun p h' => cell_ok h' p /\ omap h' (box_of p h') = omap h init).
  Proof.
    intros W O. unfold ret_ok, a_new. destruct (o_m init) eqn:Em.
    - destruct (alloc_cell_spec init h W O) as (X & W' & C & B & _).
      split; [exact X|]. split; [exact W'|]. split; [exact C|]. rewrite B. apply omap_hext; assumption.
    - destruct (h_new_spec h W) as (X1 & W1 & O1 & E1 & _).
      destruct (h_new h) as [v h1]. cbn [fst snd] in *.
      destruct (alloc_cell_spec v h1 W1 O1) as (X & W' & C & B & _).
      split; [exact (hext_trans _ _ _ X1 X)|]. split; [exact W'|]. split; [exact C|].
      rewrite B, (omap_hext h1 _ v X O1), E1. unfold omap. rewrite Em. reflexivity.
  Qed.

  Lemma a_cas_spec p old new h : heap_wf h -> cell_ok h p -> obj_ok h new ->
    ret_ok h (a_cas iter p old new h) (fun a h' =>
      cell_ok h' (snd a) /\
      match vcompare (omap h (box_of p h)) (omap h old) with
      | VEqual => fst a = true /\ box_of (snd a) h' = new
      | _ => fst a = false /\ snd a = p
      end).
  Proof.
    intros W C On. unfold ret_ok, a_cas. destruct (h_compare_spec (box_of p h) old h W) as (X & W' & E).
    destruct (h_compare iter (box_of p h) old h) as [ord h1]. cbn [fst snd] in *. subst ord.
    assert (K : forall b, b = false -> hext h h1 /\ heap_wf h1 /\ cell_ok h1 p /\ b = false /\ p = p).
    { intros b ->. split; [exact X|]. split; [exact W'|]. split; [apply (cell_ok_hext h); assumption|]. split; reflexivity. }
    destruct (vcompare (omap h (box_of p h)) (omap h old)); cbn [fst snd]; try (apply K; reflexivity).
    destruct (alloc_cell_spec new h1 W' (obj_ok_hext h h1 new X On)) as (X2 & W2 & C2 & B2 & _).
    split; [exact (hext_trans _ _ _ X X2)|]. split; [exact W2|]. split; [exact C2|]. split; [reflexivity|exact B2].
  Qed.

  Lemma a_inc_spec fuel p k h : heap_wf h -> cell_ok h p ->
    ret_ok h (a_inc iter (S fuel) p k h) (fun a h' =>
      cell_ok h' (snd a) /\
      match vinc (omap h (box_of p h)) k with
      | Ok nv => exists v, fst a = ORet (Ok v) /\ omap h' v = nv /\ box_of (snd a) h' = v /\
                           vcompare (omap h' v) (omap h (box_of p h)) = VAfter
      | Err e => fst a = ORet (Err e) /\ snd a = p
      end).
  Proof.
    intros W C. unfold ret_ok. cbn [a_inc]. unfold a_load.
    pose proof (h_inc_spec (box_of p h) k h W (cell_ok_box h p C)) as I.
    destruct (h_inc iter (box_of p h) k h) as [[nv|e] h1]; cbn [fst snd] in I.
    - destruct I as (X & W1 & O1 & E1 & F1). rewrite E1.
      pose proof (a_cas_spec p (box_of p h) nv h1 W1 (cell_ok_hext h h1 p X C) O1) as S. unfold ret_ok in S.
      rewrite (box_of_hext h h1 p X (proj1 C)) in S.
      rewrite (omap_hext h h1 _ X (cell_ok_box h p C)) in S. rewrite vcompare_refl in S.
      destruct (a_cas iter p (box_of p h) nv h1) as [[b p'] h2]. cbn [fst snd] in *.
      destruct S as (X2 & W2 & C2 & Eb & B2). subst b. cbn [fst snd].
      split; [exact (hext_trans _ _ _ X X2)|]. split; [exact W2|]. split; [exact C2|].
      exists nv. split; [reflexivity|]. assert (Ev : omap h2 nv = omap h1 nv) by (apply omap_hext; assumption).
      split; [exact Ev|]. split; [exact B2|]. rewrite Ev. apply (vinc_ok _ k _ E1).
    - destruct I as (X & W1 & E1). rewrite E1. cbn [fst snd].
      split; [exact X|]. split; [exact W1|]. split; [apply (cell_ok_hext h); assumption|]. split; reflexivity.
  Qed.

Definition sess_inv (st : list vobj * heap) : Prop := heap_wf (snd st) /\ Forall (obj_ok (snd st)) (fst st).

Lemma fpool_get_map (f : vobj -> vv) pool i : fpool_get (map f pool) i = option_map f (pool_get pool i).
Proof.
  unfold fpool_get, pool_get. rewrite map_length. destruct (i <? N.of_nat (length pool)); [|reflexivity].
  apply nth_error_map.
Qed.
Lemma pool_get_in pool i v : pool_get pool i = Some v -> In v pool.
Proof. unfold pool_get. destruct (i <? _); [|discriminate]. apply nth_error_In. Qed.

Lemma map_omap_hext h h' pool : hext h h' -> Forall (obj_ok h) pool -> map (omap h') pool = map (omap h) pool.
Proof.
  intros X F. apply map_ext_in. intros v Hv. apply omap_hext; [exact X|]. apply elem_of_list_In in Hv. exact (proj1 (Forall_forall _ _) F v Hv).
Qed.
Lemma Forall_ok_hext h h' pool : hext h h' -> Forall (obj_ok h) pool -> Forall (obj_ok h') pool.
Proof. intros X F. eapply Forall_impl; [exact F|]. intros v. apply obj_ok_hext, X. Qed.

(** what one step of a session does to the state [st]; the last clause (no object with a cached slice appears)
    serves [hsession_cache_never_filled] *)
Definition sess_step (st r : list vobj * heap) (vals : list vv) : Prop :=
  sess_inv r /\ hext (snd st) (snd r) /\ (exists suf, fst r = fst st ++ suf) /\
  map (omap (snd r)) (fst r) = vals /\
  (Forall (fun o => o_ents o = None) (fst st) -> Forall (fun o => o_ents o = None) (fst r)).

Lemma sess_same pool h h' : sess_inv (pool, h) -> hext h h' -> heap_wf h' ->
  sess_step (pool, h) (pool, h') (map (omap h) pool).
Proof.
  intros [_ F] X W'. split; [split; [exact W'|apply (Forall_ok_hext h); assumption]|]. split; [exact X|].
  split; [exists []; symmetry; apply app_nil_r|]. split; [apply map_omap_hext; assumption|tauto].
Qed.
Lemma sess_grow pool h h' r : sess_inv (pool, h) -> hext h h' -> heap_wf h' -> obj_ok h' r ->
  (Forall (fun o => o_ents o = None) pool -> o_ents r = None) ->
  sess_step (pool, h) (pool ++ [r], h') (map (omap h) pool ++ [omap h' r]).
Proof.
  intros [_ F] X W' O' Hn. cbn [fst snd] in F.
  split; [split; [exact W'|]; cbn; apply Forall_app; split; [apply (Forall_ok_hext h); assumption|constructor; [exact O'|constructor]]|].
  split; [exact X|]. split; [eexists; reflexivity|]. split; [cbn [fst snd]; rewrite map_app; cbn; f_equal; apply map_omap_hext; assumption|].
  intros Hp. apply Forall_app. split; [exact Hp|]. constructor; [apply Hn, Hp|constructor].
Qed.

Lemma sess_new pool h val r : sess_inv (pool, h) -> ret_ok h r (new_obj h val) ->
  sess_step (pool, h) (pool ++ [fst r], snd r) (map (omap h) pool ++ [val]).
Proof. intros I (X & W' & O' & <- & Fr). apply sess_grow; try assumption. intros _. apply Fr. Qed.

Lemma sess_ret {A} pool h (r : A * heap) Q : sess_inv (pool, h) -> ret_ok h r Q ->
  sess_step (pool, h) (pool, snd r) (map (omap h) pool).
Proof. intros I (X & W' & _). apply sess_same; assumption. Qed.

  Lemma hstep_spec op st : sess_inv st ->
    sess_step st (fst (hstep iter op st)) (fstep op (map (omap (snd st)) (fst st))).
  Proof.
    destruct st as [pool h]. intros I. pose proof I as [W F]. cbn [fst snd] in W, F |- *.
    assert (Keep : sess_step (pool, h) (pool, h) (map (omap h) pool)) by (apply sess_same; [exact I|apply hext_refl|exact W]).
    assert (Ok : forall i v, pool_get pool i = Some v -> obj_ok h v).
    { intros i v Hv. apply (proj1 (Forall_forall _ _) F), elem_of_list_In, (pool_get_in pool i), Hv. }
    destruct op as [i k|i j|i|i|i|i|i act maxe|i j]; cbn [hstep fstep fst snd]; rewrite ?fpool_get_map;
      (destruct (pool_get pool i) as [v|] eqn:Ev; cbn [option_map]; [|exact Keep]).
    - pose proof (h_inc_spec v k h W (Ok i v Ev)) as S.
      destruct (h_inc iter v k h) as [[r|e] h']; cbn [fst snd] in *.
      + destruct S as (X & W' & O' & E' & Fr). rewrite E'. apply sess_grow; try assumption. intros _. apply Fr.
      + destruct S as (X & W' & E'). rewrite E'. apply sess_same; assumption.
    - destruct (pool_get pool j) as [o|] eqn:Eo; cbn [option_map]; [|exact Keep].
      pose proof (sess_new pool h _ _ I (h_merge_spec v o h W (Ok i v Ev) (Ok j o Eo))) as S.
      destruct (h_merge iter v o h) as [r h']. exact S.
    - pose proof (sess_new pool h _ _ I (h_clone_spec v h W (Ok i v Ev))) as S.
      destruct (h_clone iter v h) as [r h']. exact S.
    - pose proof (h_write_spec v h W (Ok i v Ev)) as S.
      destruct (h_write iter v h) as [[bs|e] h1]; destruct S as (X1 & W1 & E1); cbn [fst snd] in *; rewrite <- E1;
        [|apply sess_same; assumption].
      pose proof (h_read_spec bs h1 W1) as R.
      destruct (vread bs) as [[m rest]|e2].
      + destruct R as (X2 & W2 & r & R1 & O2 & E2 & Fr).
        destruct (h_read bs h1) as [rr h2]. cbn [fst snd] in *. subst rr. cbn [fst snd]. rewrite <- E2.
        apply sess_grow; try assumption; [exact (hext_trans _ _ _ X1 X2)|intros _; apply Fr].
      + destruct R as (X2 & W2 & R1).
        destruct (h_read bs h1) as [rr h2]. cbn [fst snd] in *. subst rr. cbn [fst snd].
        apply sess_same; try assumption. exact (hext_trans _ _ _ X1 X2).
    - pose proof (h_compact_spec v h W (Ok i v Ev)) as S.
      destruct (h_compact iter v h) as [r h']; cbn [fst snd] in *.
      destruct S as (X & W' & O' & E' & Fr). rewrite <- E'. apply sess_grow; try assumption.
      intros Hp. destruct Fr as [->|Fr]; [|apply Fr].
      apply (proj1 (Forall_forall _ _) Hp), elem_of_list_In, (pool_get_in pool i), Ev.
    - pose proof (sess_ret pool h _ _ I (h_sorted_entries_spec v h W (Ok i v Ev))) as S.
      destruct (h_sorted_entries iter v h) as [so h']. exact S.
    - cbn [alloc_strs].
      change (Heap (h_maps h) (h_ents h) (<[h_next h:=act]> (h_strs h)) (h_cells h) (h_next h + 1) (h_tick h))
        with (snd (alloc_strs act h)).
      set (h0 := snd (alloc_strs act h)). set (s := Slice (h_next h) (length act)).
      destruct (grows_spec h h0 W (grows_alloc_strs _ act h (N.le_refl _))) as [X0 W0].
      assert (E0 : strs_of h0 s = act) by (unfold strs_of; cbn; rewrite lookup_insert; apply firstn_all).
      pose proof (h_prune_max_spec v s maxe h0 W0 (obj_ok_hext h h0 v X0 (Ok i v Ev)) ltac:(unfold slice_ok; cbn; lia)) as S.
      cbn zeta in S. destruct (h_prune_max iter v (Some s) maxe h0) as [r h']; cbn [fst snd] in *.
      destruct S as (X & W' & O' & E' & Fr & _). rewrite E0, (omap_hext h h0 v X0 (Ok i v Ev)) in E'.
      rewrite <- E'. apply sess_grow; try assumption; [exact (hext_trans _ _ _ X0 X)|intros _; apply Fr].
    - destruct (pool_get pool j) as [o|] eqn:Eo; cbn [option_map]; [|exact Keep].
      pose proof (sess_ret pool h _ _ I (h_compare_spec v o h W)) as S.
      destruct (h_compare iter v o h) as [r h']. exact S.
  Qed.

  Lemma hrun_cons op ops st :
    fst (hrun iter (op :: ops) st) = fst (hrun iter ops (fst (hstep iter op st))).
  Proof. cbn [hrun]. destruct (hstep iter op st) as [st1 ob]. cbn [fst]. destruct (hrun iter ops st1) as [st2 obs]. reflexivity. Qed.

  Lemma hrun_app ops1 ops2 st :
    fst (hrun iter (ops1 ++ ops2) st) = fst (hrun iter ops2 (fst (hrun iter ops1 st))).
  Proof.
    revert st. induction ops1 as [|op ops1 IH]; intros st; [reflexivity|].
    cbn [app]. rewrite !hrun_cons. apply IH.
  Qed.

  Lemma hrun_spec ops : forall st, sess_inv st ->
    sess_step st (fst (hrun iter ops st)) (frun ops (map (omap (snd st)) (fst st))).
  Proof.
    induction ops as [|op ops IH]; intros st I.
    - destruct st as [pool h]. apply sess_same; [exact I|apply hext_refl|apply I].
    - rewrite hrun_cons. destruct (hstep_spec op st I) as (I1 & X1 & (s1 & P1) & E1 & N1).
      destruct (IH _ I1) as (I2 & X2 & (s2 & P2) & E2 & N2).
      split; [exact I2|]. split; [exact (hext_trans _ _ _ X1 X2)|].
      split; [exists (s1 ++ s2); rewrite P2, P1, app_assoc; reflexivity|].
      split; [rewrite E2, E1; reflexivity|]. intros H. apply N2, N1, H.
  Qed.

  Lemma h_of_list_spec init :
    sess_inv ([fst (h_of_list init heap0)], snd (h_of_list init heap0)) /\
    omap (snd (h_of_list init heap0)) (fst (h_of_list init heap0)) = foldl ins_entry ∅ init /\
    o_ents (fst (h_of_list init heap0)) = None.
  Proof.
    unfold h_of_list. cbn [alloc_map fst snd]. rewrite store_all_upd.
    set (h' := upd _ _ _).
    destruct (obj_at h' 0 (foldl ins_entry ∅ init) false) as [O V]; [reflexivity|reflexivity|].
    split; [split; [|constructor; [exact O|constructor]]|split; [exact V|reflexivity]].
    apply (grows_wf 0 heap0); [|exact wf_heap0].
    eapply grows_trans; [apply (grows_alloc_map 0 heap0); reflexivity|apply grows_upd; cbn; lia].
  Qed.

  Theorem hsession_refines init ops :
    let st := fst (hsession iter init ops) in
    heap_wf (snd st) /\ Forall (obj_ok (snd st)) (fst st) /\
    map (omap (snd st)) (fst st) = frun ops [foldl ins_entry ∅ init].
  Proof.
    cbn zeta. unfold hsession. destruct (h_of_list_spec init) as (I & E & _).
    destruct (h_of_list init heap0) as [v h]. cbn [fst snd] in *.
    destruct (hrun_spec ops ([v], h) I) as ((W & F) & _ & _ & R & _). cbn [fst snd map] in R. rewrite E in R.
    split; [exact W|]. split; [exact F|exact R].
  Qed.

  Theorem hsession_never_modifies init ops1 ops2 :
    let st1 := fst (hsession iter init ops1) in
    let st2 := fst (hsession iter init (ops1 ++ ops2)) in
    hext (snd st1) (snd st2) /\ (exists suf, fst st2 = fst st1 ++ suf) /\
    forall o, In o (fst st1) ->
      omap (snd st2) o = omap (snd st1) o /\
      slice_ents (snd (h_sorted_entries iter o (snd st2))) (fst (h_sorted_entries iter o (snd st2))) = ventries (omap (snd st1) o) /\
      fst (h_write iter o (snd st2)) = vwrite (omap (snd st1) o) /\
      (forall p, In p (fst st2) -> fst (h_compare iter o p (snd st2)) = vcompare (omap (snd st1) o) (omap (snd st2) p)).
  Proof.
    cbn zeta. unfold hsession. destruct (h_of_list_spec init) as (I & _ & _).
    destruct (h_of_list init heap0) as [v h]. cbn [fst snd] in I. rewrite hrun_app.
    destruct (hrun_spec ops1 ([v], h) I) as (I1 & _).
    set (st1 := fst (hrun iter ops1 ([v], h))) in *.
    destruct (hrun_spec ops2 st1 I1) as (I2 & X & P & _).
    set (st2 := fst (hrun iter ops2 st1)) in *.
    split; [exact X|]. split; [exact P|]. intros o Ho.
    assert (O1 : obj_ok (snd st1) o) by (apply (proj1 (Forall_forall _ _) (proj2 I1)), elem_of_list_In, Ho).
    assert (O2 : obj_ok (snd st2) o) by (apply (obj_ok_hext (snd st1)); assumption).
    assert (E : omap (snd st2) o = omap (snd st1) o) by (apply omap_hext; assumption).
    split; [exact E|]. rewrite <- E.
    split; [apply (h_sorted_entries_spec o (snd st2) (proj1 I2) O2)|].
    split; [apply (h_write_spec o (snd st2) (proj1 I2) O2)|].
    intros p _. apply (h_compare_spec o p (snd st2) (proj1 I2)).
  Qed.

  Theorem hsession_cache_never_filled init ops :
    let st := fst (hsession iter init ops) in
    forall o, In o (fst st) ->
      o_ents o = None /\
      forall s, fst (h_sorted_entries iter o (snd st)) = Some s -> h_next (snd st) <= s_arr s.
  Proof.
    cbn zeta. unfold hsession. destruct (h_of_list_spec init) as (I & _ & En).
    destruct (h_of_list init heap0) as [v h]. cbn [fst snd] in *.
    destruct (hrun_spec ops ([v], h) I) as (I2 & _ & _ & _ & Nn).
    specialize (Nn ltac:(cbn; constructor; [exact En|constructor])).
    intros o Ho. assert (Eo : o_ents o = None) by (apply (proj1 (Forall_forall _ _) Nn), elem_of_list_In, Ho).
    split; [exact Eo|]. intros s Hs.
    assert (O2 : obj_ok (snd (fst (hrun iter ops ([v], h)))) o) by (apply (proj1 (Forall_forall _ _) (proj2 I2)), elem_of_list_In, Ho).
    destruct (h_sorted_entries_spec o _ (proj1 I2) O2) as (_ & _ & _ & D). cbn zeta in D.
    destruct (D s Hs) as [[C|C] _]; [congruence|exact C].
  Qed.
End Methods.

Lemma fstep_suffix op pool : exists suf, fstep op pool = pool ++ suf.
Proof.
  assert (K : exists suf, pool = pool ++ suf) by (exists []; symmetry; apply app_nil_r).
  destruct op; cbn [fstep]; repeat case_match; try exact K; eexists; reflexivity.
Qed.
Lemma frun_suffix ops : forall pool, exists suf, frun ops pool = pool ++ suf.
Proof.
  unfold frun. induction ops as [|op ops IH]; intros pool; cbn [fold_left]; [exists []; symmetry; apply app_nil_r|].
  destruct (fstep_suffix op pool) as (s1 & ->). destruct (IH (pool ++ s1)) as (s2 & ->). exists (s1 ++ s2). rewrite app_assoc. reflexivity.
Qed.

(** The concurrent machine of Cluster/VVAtomic.v.  No lost update: in every interleaving of any number of Increment loops on one AtomicVersionVector, the stored
    vector is the initial one plus exactly one per successful call (linearisation point = the successful CAS). *)
Definition contrib (k : akey) (t : athread) : N := if bool_decide (t_node t = k) then N.of_nat (length (t_ok t)) else 0.

Lemma succ_on_cons k t r : succ_on k (t :: r) = contrib k t + succ_on k r.
Proof. reflexivity. Qed.
Lemma succ_on_set_nth k ths : forall i t t', nth_error ths i = Some t ->
  succ_on k (set_nth i t' ths) + contrib k t = succ_on k ths + contrib k t'.
Proof.
  induction ths as [|y r IH]; intros [|i] t t' H; cbn [nth_error] in H; try discriminate.
  - injection H as ->. cbn [set_nth]. rewrite !succ_on_cons. lia.
  - cbn [set_nth]. rewrite !succ_on_cons. specialize (IH i t t' H). lia.
Qed.

Definition pc_ok (t : athread) : Prop :=
  match t_pc t with
  | PStart => True
  | PLoaded cur nv | PCas _ cur nv => vinc cur (t_node t) = Ok nv /\ (1 <= t_todo t)%nat
  end.
Definition oks_ok (t : athread) : Prop := Forall (fun p => vinc (fst p) (t_node t) = Ok (snd p)) (t_ok t).
Definition acct (t0 t : athread) : Prop :=
  t_node t = t_node t0 /\ (t_todo t + length (t_ok t) + t_errs t = t_todo t0)%nat.

Definition ainv (v0 : vv) (ths0 : list athread) (st : astate) : Prop :=
  (forall k, vget (as_value (snd st)) k = vget v0 k + succ_on k (fst st)) /\
  Forall2 acct ths0 (fst st) /\
  Forall (fun t => pc_ok t /\ oks_ok t) (fst st).

Lemma Forall_set_nth {A} (P : A -> Prop) l : forall i x, Forall P l -> P x -> Forall P (set_nth i x l).
Proof.
  induction l as [|y r IH]; intros i x F Hx; [destruct i; constructor|].
  apply Forall_cons in F as [? ?]. destruct i as [|i]; cbn [set_nth]; constructor; auto.
Qed.
Lemma Forall2_set_nth {A B} (R : A -> B -> Prop) l0 l : forall i t t',
  Forall2 R l0 l -> nth_error l i = Some t -> (forall t0, R t0 t -> R t0 t') -> Forall2 R l0 (set_nth i t' l).
Proof.
  intros i t t' F. revert i. induction F as [|x y l0 l Hxy F IH]; intros [|i] H K; cbn in *; try discriminate.
  - injection H as ->. constructor; auto.
  - constructor; auto.
Qed.
(** what one step of thread [t] in shared state [s] may result in: the thread stays well formed and accounted for,
    and either the shared state and its list of successes are unchanged, or (the successful CAS) the stored value
    was Equal to the value [cur] the call had read, is now [nv = Increment cur], and [(cur, nv)] is appended *)
Definition tstep_ok (t : athread) (s : ashared) (r : athread * ashared) : Prop :=
  pc_ok (fst r) /\ oks_ok (fst r) /\ t_node (fst r) = t_node t /\
  (t_todo (fst r) + length (t_ok (fst r)) + t_errs (fst r) = t_todo t + length (t_ok t) + t_errs t)%nat /\
  ((snd r = s /\ t_ok (fst r) = t_ok t) \/
   (exists cur nv, vinc cur (t_node t) = Ok nv /\ vcompare (as_value s) cur = VEqual /\ as_value (snd r) = nv /\
                   t_ok (fst r) = t_ok t ++ [(cur, nv)])).

Lemma tstep_ok_same t s t' :
  t_node t' = t_node t -> t_ok t' = t_ok t -> pc_ok t' -> oks_ok t ->
  (t_todo t' + t_errs t' = t_todo t + t_errs t)%nat -> tstep_ok t s (t', s).
Proof.
  intros Hn Ho Pc Ok0 Hacc. unfold tstep_ok, oks_ok. cbn [fst snd]. rewrite Hn, Ho.
  split; [exact Pc|]. split; [exact Ok0|]. split; [reflexivity|]. split; [lia|left; auto].
Qed.

Lemma tstep_inv t s : pc_ok t -> oks_ok t -> tstep_ok t s (tstep t s).
Proof.
  intros Pc Ok0. unfold tstep. unfold pc_ok in Pc. destruct (t_pc t) as [|cur nv|p1 cur nv] eqn:E.
  - destruct (t_todo t) as [|todo'] eqn:Et.
    + apply tstep_ok_same; auto. unfold pc_ok. rewrite E. exact I.
    + destruct (vinc (as_value s) (t_node t)) as [nv|e] eqn:Ev; apply tstep_ok_same; cbn; auto; try lia.
      split; [exact Ev|lia].
  - apply tstep_ok_same; cbn; auto.
  - destruct Pc as [Pv Pt].
    assert (Retry : tstep_ok t s (AThread (t_node t) (t_todo t) PStart (t_ok t) (t_errs t), s))
      by (apply tstep_ok_same; cbn; auto; exact I).
    destruct (vcompare (default ∅ (as_boxes s !! p1)) cur) eqn:Ec; try exact Retry.
    destruct (N.eqb_spec (as_ptr s) p1) as [Ep|]; [|exact Retry].
    unfold tstep_ok, oks_ok. cbn [fst snd t_pc t_ok t_node t_todo t_errs]. split; [exact I|].
    split; [apply Forall_app; split; [exact Ok0|constructor; [exact Pv|constructor]]|].
    split; [reflexivity|]. split; [rewrite app_length; cbn; lia|]. right. exists cur, nv.
    split; [exact Pv|]. split; [unfold as_value; rewrite Ep; exact Ec|].
    split; [unfold as_value; cbn; rewrite lookup_insert; reflexivity|reflexivity].
Qed.

Lemma astep_inv v0 ths0 i st : ainv v0 ths0 st -> ainv v0 ths0 (astep i st).
Proof.
  destruct st as [ths s]. intros (I1 & I2 & I3). unfold astep. cbn [fst snd] in *.
  destruct (nth_error ths i) as [t|] eqn:Ei; [|split; [exact I1|split; assumption]].
  destruct (proj1 (List.Forall_forall _ _) I3 t (nth_error_In _ _ Ei)) as [Pc Ok0].
  pose proof (tstep_inv t s Pc Ok0) as (Pc' & Ok' & Hnode & Hacc & Hval).
  destruct (tstep t s) as [t' s']. cbn [fst snd] in *.
  split; [|split].
  - intros k. cbn [fst snd]. pose proof (succ_on_set_nth k ths i t t' Ei) as Hs. unfold contrib in Hs. rewrite Hnode in Hs.
    destruct Hval as [[-> Hok]|(cur & nv & Hv & Heq & <- & Hok)]; rewrite Hok in Hs.
    + rewrite I1. destruct (bool_decide (t_node t = k)); lia.
    + pose proof (vinc_ok _ _ _ Hv) as (G1 & G2 & _). apply vcompare_equal in Heq.
      rewrite app_length in Hs. cbn [length] in Hs.
      destruct (decide (t_node t = k)) as [<-|Hk].
      * rewrite bool_decide_eq_true_2 in Hs by reflexivity. rewrite G1, <- Heq, I1. lia.
      * rewrite bool_decide_eq_false_2 in Hs by exact Hk.
        assert (vget (as_value s') k = vget cur k) as -> by (unfold vget; rewrite G2 by congruence; reflexivity).
        rewrite <- Heq, I1. lia.
  - apply (Forall2_set_nth acct ths0 ths i t t' I2 Ei). intros t0 [A B]. split; [congruence|lia].
  - apply Forall_set_nth; [exact I3|split; assumption].
Qed.

Lemma ainv_init v0 ths0 :
  Forall (fun t => t_pc t = PStart /\ t_ok t = []) ths0 -> (forall t, In t ths0 -> t_errs t = 0%nat) ->
  ainv v0 ths0 (ths0, a_init v0).
Proof.
  intros F E. split; [|split].
  - intros k. cbn [fst snd]. unfold as_value, a_init. cbn [as_boxes as_ptr]. rewrite lookup_singleton. cbn [from_option]. unfold id.
    assert (succ_on k ths0 = 0) as ->; [|lia].
    induction ths0 as [|t r IH]; [reflexivity|]. apply Forall_cons in F as [[_ Hok] F].
    rewrite succ_on_cons, IH; [|exact F|intros t' Ht; apply E; right; exact Ht].
    unfold contrib. rewrite Hok. destruct (bool_decide _); reflexivity.
  - induction ths0 as [|t r IH]; [constructor|]. apply Forall_cons in F as [[_ Hok] F]. constructor.
    + split; [reflexivity|]. rewrite Hok, (E t (or_introl eq_refl)). cbn. lia.
    + apply IH; [exact F|intros t' Ht; apply E; right; exact Ht].
  - eapply Forall_impl; [exact F|]. intros t [Hpc Hok]. unfold pc_ok, oks_ok. rewrite Hpc, Hok. split; [exact I|constructor].
Qed.

Lemma arun_inv v0 ths0 sched : forall st, ainv v0 ths0 st -> ainv v0 ths0 (arun_sched sched st).
Proof.
  unfold arun_sched. induction sched as [|i sched IH]; intros st I; cbn [fold_left]; [exact I|].
  apply IH, astep_inv, I.
Qed.

Theorem atomic_no_lost_update v0 ths0 sched :
  Forall (fun t => t_pc t = PStart /\ t_ok t = []) ths0 -> (forall t, In t ths0 -> t_errs t = 0%nat) ->
  ainv v0 ths0 (arun_sched sched (ths0, a_init v0)).
Proof. intros F E. apply arun_inv, ainv_init; assumption. Qed.

Theorem tstep_cas p1 cur nv t s : t_pc t = PCas p1 cur nv ->
  if (match vcompare (default ∅ (as_boxes s !! p1)) cur with VEqual => true | _ => false end) && (as_ptr s =? p1)
  then as_ptr (snd (tstep t s)) = as_next s /\ as_value (snd (tstep t s)) = nv /\
       t_ok (fst (tstep t s)) = t_ok t ++ [(cur, nv)] /\ t_pc (fst (tstep t s)) = PStart
  else snd (tstep t s) = s /\ t_ok (fst (tstep t s)) = t_ok t /\ t_pc (fst (tstep t s)) = PStart /\
       t_todo (fst (tstep t s)) = t_todo t.
Proof.
  intros E. unfold tstep. rewrite E. destruct (vcompare (default ∅ (as_boxes s !! p1)) cur); cbn [andb]; try (repeat split; reflexivity).
  destruct (as_ptr s =? p1); [|repeat split; reflexivity].
  cbn [fst snd as_ptr t_ok t_pc]. split; [reflexivity|]. split; [|split; reflexivity].
  unfold as_value. cbn [as_boxes as_ptr]. rewrite lookup_insert. reflexivity.
Qed.

Theorem tstep_other t s : (forall p1 cur nv, t_pc t <> PCas p1 cur nv) -> snd (tstep t s) = s.
Proof.
  intros H. unfold tstep. destruct (t_pc t) eqn:E; [destruct (t_todo t); [|destruct (vinc _ _)]| |destruct (H _ _ _ eq_refl)];
    reflexivity.
Qed.

Theorem tstep_error t s todo' e :
  t_pc t = PStart -> t_todo t = S todo' -> vinc (as_value s) (t_node t) = Err e ->
  tstep t s = (AThread (t_node t) todo' PStart (t_ok t) (S (t_errs t)), s).
Proof. intros A B C. unfold tstep. rewrite A, B, C. reflexivity. Qed.
