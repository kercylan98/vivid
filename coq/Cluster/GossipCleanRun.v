(** Every clean step, hence every clean run, preserves the clean-world invariant. *)
From stdpp Require Import gmap.
From Vivid Require Import Cluster.VV Cluster.VVProofs Cluster.View Cluster.ViewProofs Cluster.Gossip
  Cluster.GossipProofs Cluster.GossipClean Cluster.GossipCleanOps Cluster.GossipCleanInv Cluster.GossipCleanStep
  Cluster.GossipCleanWorld Cluster.GossipCleanHandlers Cluster.GossipCleanJoin.
Local Open Scope N_scope.

Lemma world_eq w1 w2 : w_nodes w1 = w_nodes w2 -> w_net w1 = w_net w2 -> w1 = w2.
Proof. destruct w1, w2; cbn; intros -> ->; reflexivity. Qed.

Lemma upd_nil w n : upd w n [] = put_node w n.
Proof. apply world_eq; cbn; [reflexivity|apply app_nil_r]. Qed.

Lemma upd_size w a n n' out : w_nodes w !! a = Some n -> nd_addr n' = a -> size (w_nodes (upd w n' out)) = size (w_nodes w).
Proof. intros Ha Ea. cbn. rewrite Ea. apply map_size_insert_Some. eexists; exact Ha. Qed.

Lemma nodes_cap_upd w a n n' out : w_nodes w !! a = Some n -> nd_addr n' = a -> nodes_cap (upd w n' out) <-> nodes_cap w.
Proof. intros Ha Ea. unfold nodes_cap. rewrite (upd_size w a n n' out Ha Ea). reflexivity. Qed.

Lemma fresh_id_spec w id : fresh_id w id = true <-> forall a n, w_nodes w !! a = Some n -> nd_id n <> id.
Proof.
  unfold fresh_id. rewrite forallb_nodes_of. split; intros H a n Ha; specialize (H a n Ha).
  - apply negb_true_iff, bool_decide_eq_false in H. exact H.
  - apply negb_true_iff, bool_decide_eq_false, H.
Qed.

Lemma new_node_cinv G w c now :
  cinv G w -> w_nodes w !! c_addr c = None -> c_addr c <> [] -> clean_cfg c = true -> fresh_id w (c_id c) = true ->
  cinv G (put_node w (new_node c now)).
Proof.
  intros Hc Hnone Hne Hcl Hfr. apply andb_true_iff in Hcl as [Hfd Hid]. rewrite fresh_id_spec in Hfr.
  set (n0 := new_node c now).
  assert (V0 : forall k, vget (vw_vv (nd_view n0)) k = 0) by (intros k; cbn; unfold vget; rewrite lookup_empty; reflexivity).
  rewrite <- upd_nil.
  apply (cinv_put G G w (c_addr c) n0 n0 [] Hc eq_refl Hne Hfd Hid); auto.
  - intros b m Hb [->|E]; [rewrite Hnone in Hb; discriminate|destruct (Hfr b m Hb E)].
  - split; try reflexivity.
    + apply wf_new_node_state.
    + split; try reflexivity.
      * apply WF_new.
      * apply VVin_new.
      * intros k s Hk. cbn in Hk. rewrite lookup_empty in Hk. discriminate.
      * intros k s Hk. cbn in Hk. rewrite lookup_empty in Hk. discriminate.
      * intros e He Hsel. exfalso. destruct (ci_log _ _ Hc e He) as (Hpos & _). unfold sel in Hsel. rewrite V0 in Hsel. lia.
      * split; reflexivity.
    + intros k Hk. rewrite V0 in Hk. lia.
    + apply vle_refl.
    + intros t q Hq. cbn in Hq. rewrite lookup_empty in Hq. discriminate.
    + cbn. discriminate.
    + intros k. rewrite V0. lia.
  - split; reflexivity.
  - intros d v H. inversion H.
Qed.

Lemma timers_cinv G w a n r :
  cinv G w -> w_nodes w !! a = Some n -> nd_gossip_on n = false -> cinv G (put_node w (set_timers n false false r)).
Proof.
  intros Hc Ha Hg. rewrite <- upd_nil.
  apply (cinv_upd G G w a n (set_timers n false false r) [] Hc Ha); auto.
  - destruct (npre_self G w a n Hc Ha) as [P1 P2 P3 P4 P5 P6 P7 P8 P9 P10 P11]. split; cbn; try assumption; try reflexivity. discriminate.
  - apply (ni_pub _ _ _ _ (ci_nodes _ _ Hc a n Ha)).
  - intros d v H. inversion H.
Qed.

Lemma try_join_cinv asks G w n now log w1 n1 joined log1 :
  cinv G (put_node w n) -> nodes_cap (put_node w n) -> N.of_nat (length G) + 3 < max_counter ->
  forallb (ask_ok w) asks = true ->
  try_join w n now asks log = (w1, n1, joined, log1) ->
  exists G1, cinv G1 (put_node w1 n1) /\ (length G1 <= length G + 3)%nat /\ (joined = false -> n1 = n /\ w1 = w).
Proof.
  intros Hc Hcap Hlen Hok H.
  destruct (try_join_spec asks w n now log) as [E|(s & sd & sd' & resp & out & evs & Hin & Esa & Es & Ej & E)];
    cbv zeta in E; rewrite E in H.
  - injection H as <- <- <- _. exists G. split; [exact Hc|]. split; [lia|auto].
  - pose proof (proj1 (forallb_elem_of _ _) Hok _ Hin) as Hok1.
    destruct (join_complete n resp now) as [[n' out'] evs'] eqn:Ec. cbn [fst snd] in H. injection H as <- <- <- _.
    assert (Hs0 : w_nodes (put_node w n) !! s = Some sd).
    { unfold put_node; cbn [w_nodes]. rewrite lookup_insert_ne; [exact Es|]. intros E'. apply Esa. symmetry. exact E'. }
    assert (Ha0 : w_nodes (put_node w n) !! nd_addr n = Some n) by (unfold put_node; cbn [w_nodes]; apply lookup_insert).
    set (a := nd_addr n) in *. set (w0 := put_node w n) in *.
    assert (Hg : nd_gossip_on sd = true).
    { unfold ask_ok in Hok1. cbn [fst snd negb orb] in Hok1. rewrite Es in Hok1.
      rewrite (proj1 (handle_join_request_Some _ _ _ _ _ _ Ej)) in Hok1. exact Hok1. }
    destruct (accept_cinv G w0 s sd a n sd' resp out evs Hc Hcap) as (G1 & C1 & A1 & L1 & Er); try assumption; [lia|].
    set (wA := upd w0 sd' out) in *.
    assert (HaA : w_nodes wA !! a = Some n).
    { unfold wA. rewrite lookup_upd_nodes, A1, decide_False by congruence. exact Ha0. }
    assert (HsA : w_nodes wA !! s = Some sd') by (unfold wA; rewrite lookup_upd_nodes, A1, decide_True by reflexivity; reflexivity).
    assert (HcapA : nodes_cap wA) by (apply (nodes_cap_upd w0 s sd sd' out Hs0 A1); exact Hcap).
    pose proof (join_complete_cinv G1 wA a n resp now C1 HcapA) as HJ. rewrite Ec in HJ. cbn [fst snd] in HJ.
    destruct HJ as (G2 & C2 & A2 & L2); try assumption; [lia| | |].
    + rewrite Er. apply (ni_view _ _ _ _ (ci_nodes _ _ C1 s sd' HsA)).
    + intros k. rewrite Er. eapply (ci_cnt _ _ C1); exact HsA.
    + assert (Ew : put_node (add_net (add_net (put_node w sd') (stamp s out)) (stamp a out')) n' = upd wA n' out').
      { apply world_eq.
        - cbn. rewrite A1, A2. fold a. rewrite (insert_commute _ s a) by congruence. rewrite insert_insert.
          rewrite (insert_commute _ a s) by congruence. reflexivity.
        - cbn. rewrite A1, A2. reflexivity. }
      exists G2. rewrite Ew. split; [exact C2|]. split; [lia|discriminate].
Qed.

Lemma join_or_retry_cinv G w n now asks w' log :
  cinv G (put_node w n) -> nodes_cap (put_node w n) -> N.of_nat (length G) + 3 < max_counter ->
  forallb (ask_ok w) asks = true -> nd_gossip_on n = false -> nd_fd_on n = false ->
  join_or_retry w n now asks = (w', log) ->
  exists G1, cinv G1 w' /\ (length G1 <= length G + 3)%nat.
Proof.
  intros Hc Hcap Hlen Hok Hg Hf H. unfold join_or_retry in H.
  destruct (try_join w n now asks []) as [[[w1 n1] joined] lg] eqn:Et.
  destruct (try_join_cinv asks G w n now [] w1 n1 joined lg Hc Hcap Hlen Hok Et) as (G1 & C1 & L1 & J0).
  destruct joined; injection H as <- _; [exists G1; auto|].
  destruct (J0 eq_refl) as [-> ->]. rewrite Hg, Hf. exists G. split; [|lia].
  pose proof (timers_cinv G (put_node w n) (nd_addr n) n true Hc (lookup_insert _ _ _) Hg) as R1.
  replace (put_node w (set_timers n false false true)) with (put_node (put_node w n) (set_timers n false false true)); [exact R1|].
  apply world_eq; cbn; [apply insert_insert|reflexivity].
Qed.

(** The cap on the number of nodes is assumed of the world a run ends in; it holds of the worlds before because a
    clean step never removes a node. *)
Definition keys_le (w w' : world) : Prop := forall a, is_Some (w_nodes w !! a) -> is_Some (w_nodes w' !! a).

Lemma keys_le_refl w : keys_le w w.
Proof. intros a H; exact H. Qed.
Lemma keys_le_trans w1 w2 w3 : keys_le w1 w2 -> keys_le w2 w3 -> keys_le w1 w3.
Proof. intros H1 H2 a H. apply H2, H1, H. Qed.
Lemma keys_le_put w n : keys_le w (put_node w n).
Proof. intros a H. cbn. apply lookup_insert_is_Some'. right. exact H. Qed.
Lemma keys_le_net w ps : keys_le w (add_net w ps).
Proof. intros a H; exact H. Qed.

Lemma keys_le_cap w w' : keys_le w w' -> nodes_cap w' -> nodes_cap w.
Proof.
  intros Hk Hc. unfold nodes_cap in *.
  assert (size (w_nodes w) <= size (w_nodes w'))%nat; [|lia].
  rewrite <- !size_dom. apply subseteq_size. intros a Ha. apply elem_of_dom in Ha. apply elem_of_dom. apply Hk. exact Ha.
Qed.

Lemma join_complete_cfg n resp now : nd_cfg (fst (fst (join_complete n resp now))) = nd_cfg n.
Proof. rewrite join_complete_eq. cbv zeta. destruct (view_rejoin _ _ _). reflexivity. Qed.

Lemma join_or_retry_keys w n now asks w' log :
  join_or_retry w n now asks = (w', log) -> keys_le w w' /\ is_Some (w_nodes w' !! nd_addr n).
Proof.
  unfold join_or_retry.
  destruct (try_join_spec asks w n now []) as [E|(s & sd & sd' & resp & out & evs & _ & _ & _ & _ & E)]; cbv zeta in E; rewrite E;
    intros [= <- _]; (split; [|eexists; cbn; unfold nd_addr; rewrite ?join_complete_cfg; apply lookup_insert]).
  - apply keys_le_put.
  - eapply keys_le_trans; [apply (keys_le_put w sd')|apply (keys_le_put (add_net (add_net _ _) _))].
Qed.

Lemma clean_step_keys w now s w' l : clean_step s = true -> step_world w now s = Some (w', l) -> keys_le w w'.
Proof.
  intros Hcs H. destruct s as [c asks|a asks|a|a asks|k choice|k|a|a|a id]; cbn [step_world clean_step] in H, Hcs; try discriminate.
  - destruct (negb _); [discriminate|]. destruct (w_nodes w !! c_addr c); [discriminate|]. destruct (launch_is_seed c).
    + destruct (bootstrap _) as [[n1 out] evs]. injection H as <- _. eapply keys_le_trans; [apply (keys_le_put w n1)|apply keys_le_net].
    + destruct (join_or_retry _ _ _ _) as [w1 lg] eqn:Ej. injection H as <- _. apply (join_or_retry_keys _ _ _ _ _ _ Ej).
  - destruct (w_nodes w !! a); [|discriminate]. destruct (nd_retry_on n); [|discriminate].
    destruct (join_or_retry _ _ _ _) as [w1 lg] eqn:Ej. injection H as <- _. apply (join_or_retry_keys _ _ _ _ _ _ Ej).
  - destruct (w_nodes w !! a); [|discriminate]. destruct (nd_gossip_on n); [|discriminate].
    destruct (gossip_tick n) as [[n1 out] evs]. injection H as <- _. eapply keys_le_trans; [apply (keys_le_put w n1)|apply keys_le_net].
  - destruct (w_nodes w !! a); [|discriminate]. destruct (nd_fd_on n); [|discriminate].
    destruct (fd_tick n now) as [[[n1 out] evs] rec]. destruct (if rec then _ else _) as [n2 out2]. injection H as <- _.
    eapply keys_le_trans; [apply (keys_le_put w n2)|apply keys_le_net].
  - destruct (_ <=? _); [discriminate|]. destruct (w_net w !! N.to_nat k) as [p|]; [|discriminate].
    destruct (w_nodes w !! p_dst p).
    + match type of H with (if ?b then _ else None) = _ => destruct b end; [|discriminate].
      destruct (handle_gossip _ _ _ _ _) as [[n1 out] evs]. injection H as <- _. intros b Hb. cbn. apply lookup_insert_is_Some'. right. exact Hb.
    + destruct choice; [discriminate|]. injection H as <- _. intros b Hb; exact Hb.
  - destruct (_ <=? _); [discriminate|]. injection H as <- _. intros b Hb; exact Hb.
Qed.

Theorem clean_step_cinv G w now s w' l :
  cinv G w -> nodes_cap w' -> N.of_nat (length G) + 3 < max_counter -> clean_at w s = true ->
  step_world w now s = Some (w', l) ->
  exists G', cinv G' w' /\ (length G' <= length G + 3)%nat.
Proof.
  intros Hc Hcap Hlen Hcl H. unfold clean_at in Hcl. apply andb_true_iff in Hcl as [Hcs Hcl].
  pose proof (clean_step_keys w now s w' l Hcs H) as Hk. pose proof (keys_le_cap w w' Hk Hcap) as Hcapw.
  destruct s as [c asks|a asks|a|a asks|k choice|k|a|a|a id]; cbn [step_world clean_step] in H, Hcs, Hcl; try discriminate.
  - (* start *)
    apply andb_true_iff in Hcl as [Hfr Hok].
    destruct (negb (nonempty (c_addr c))) eqn:Ene; [discriminate|]. apply negb_false_iff in Ene. unfold nonempty in Ene.
    apply negb_true_iff, bool_decide_eq_false in Ene.
    destruct (w_nodes w !! c_addr c) eqn:Enone; [discriminate|].
    pose proof (new_node_cinv G w c now Hc Enone Ene Hcs Hfr) as C0.
    set (n0 := new_node c now) in *. set (w0 := put_node w n0) in *.
    assert (Ha0 : w_nodes w0 !! c_addr c = Some n0) by (unfold w0, put_node; cbn; apply lookup_insert).
    assert (Hcap0 : is_Some (w_nodes w' !! c_addr c) -> nodes_cap w0).
    { intros Hs. apply (keys_le_cap w0 w'); [|exact Hcap]. intros b Hb. unfold w0, put_node in Hb; cbn in Hb.
      change (nd_addr n0) with (c_addr c) in Hb. apply lookup_insert_is_Some' in Hb as [<-|Hb]; [exact Hs|apply Hk; exact Hb]. }
    destruct (launch_is_seed c).
    + pose proof (bootstrap_cinv G w0 (c_addr c) n0 C0) as HB.
      destruct (bootstrap n0) as [[n1 out] evs] eqn:Eb. injection H as <- _. cbn [fst snd] in HB.
      assert (A1 : nd_addr n1 = c_addr c) by exact (eq_sym (f_equal (fun r => nd_addr (fst (fst r))) Eb)).
      destruct HB as (G' & C1 & L1); [|lia|exact Ha0|].
      * apply Hcap0. cbn. rewrite A1. apply lookup_insert_is_Some'. left. reflexivity.
      * replace (add_net (put_node w n1) (stamp (c_addr c) out)) with (upd w0 n1 out); [exists G'; split; [exact C1|lia]|].
        apply world_eq; cbn; rewrite A1; [change (nd_addr n0) with (c_addr c); rewrite insert_insert; reflexivity|reflexivity].
    + destruct (join_or_retry w n0 now asks) as [w1 lg] eqn:Ej. injection H as <- _.
      apply (join_or_retry_cinv G w n0 now asks w1 lg C0); try assumption; try reflexivity.
      apply Hcap0, (join_or_retry_keys w n0 now asks w1 lg Ej).
  - (* join retry *)
    destruct (w_nodes w !! a) as [n|] eqn:Ea; [|discriminate]. destruct (nd_retry_on n) eqn:Er; [|discriminate].
    destruct (join_or_retry w _ now asks) as [w1 lg] eqn:Ej. injection H as <- _.
    pose proof (ci_nodes _ _ Hc a n Ea) as Hn.
    assert (Hg : nd_gossip_on n = false).
    { destruct (nd_gossip_on n) eqn:E; [|reflexivity]. destruct (ni_joined _ _ _ _ Hn E) as [R _]. congruence. }
    rewrite Hg, (ni_fdoff _ _ _ _ Hn) in Ej.
    apply (join_or_retry_cinv G w _ now asks w1 lg (timers_cinv G w a n false Hc Ea Hg)); try assumption; try reflexivity.
    apply (keys_le_cap _ w1); [|exact Hcap]. intros b Hb. cbn in Hb. change (nd_addr (set_timers n false false false)) with (nd_addr n) in Hb.
    rewrite (ni_addr _ _ _ _ Hn) in Hb. apply lookup_insert_is_Some' in Hb as [<-|Hb]; apply Hk; [eexists; exact Ea|exact Hb].
  - (* gossip tick *)
    destruct (w_nodes w !! a) as [n|] eqn:Ea; [|discriminate]. destruct (nd_gossip_on n); [|discriminate].
    rewrite gossip_tick_eq in H. injection H as <- _.
    destruct (tick_cinv G w a n Hc Ea) as (R1 & _ & R3). unfold upd in R1. rewrite R3 in R1. exists G. split; [exact R1|lia].
  - (* failure-detection tick: never enabled, the loop is not registered *)
    destruct (w_nodes w !! a) as [n|] eqn:Ea; [|discriminate].
    rewrite (ni_fdoff _ _ _ _ (ci_nodes _ _ Hc a n Ea)) in H. discriminate.
  - (* delivery *)
    destruct (N.of_nat (length (w_net w)) <=? k); [discriminate|].
    destruct (w_net w !! N.to_nat k) as [p|] eqn:Ek; [|discriminate].
    destruct (w_nodes w !! p_dst p) as [n|] eqn:Ed.
    + match type of H with (if ?b then _ else None) = _ => destruct b end; [|discriminate].
      destruct (deliver_cinv G w p n (remove_at k (w_net w)) now choice Hc Hcapw (elem_of_list_lookup_2 _ _ _ Ek)
                  (elem_of_remove_at k _) Ed) as (R1 & _ & R3).
      destruct (handle_gossip n (p_src p) (p_view p) now choice) as [[n1 out] evs]. injection H as <- _. cbn [fst snd] in R1, R3.
      unfold upd in R1. rewrite R3 in R1. exists G. split; [exact R1|lia].
    + destruct choice; [discriminate|]. injection H as <- _. exists G. split; [|lia].
      apply cinv_less_net; [exact Hc|apply elem_of_remove_at].
  - (* loss *)
    destruct (N.of_nat (length (w_net w)) <=? k); [discriminate|]. injection H as <- _.
    exists G. split; [apply cinv_less_net; [exact Hc|apply elem_of_remove_at]|lia].
Qed.

Lemma clean_at_step w s : clean_at w s = true -> clean_step s = true.
Proof. unfold clean_at. intros H. apply andb_true_iff in H. tauto. Qed.

Lemma clean_run_keys h : forall w w' l, clean_run w h = true -> run w h = Some (w', l) -> keys_le w w'.
Proof.
  induction h as [|[now s] rest IH]; intros w w' l Hcl H; cbn [run clean_run] in H, Hcl.
  - injection H as <- _. apply keys_le_refl.
  - apply andb_true_iff in Hcl as [Hat Hcl].
    destruct (step_world w now s) as [[w1 l1]|] eqn:E; [|discriminate].
    destruct (run w1 rest) as [[w2 l2]|] eqn:E2; [|discriminate]. injection H as <- _.
    eapply keys_le_trans; [eapply clean_step_keys; [apply (clean_at_step w s); exact Hat|exact E]|eapply IH; eassumption].
Qed.

Theorem clean_run_cinv h : forall G w w' l,
  cinv G w -> clean_run w h = true -> run w h = Some (w', l) -> nodes_cap w' ->
  N.of_nat (length G) + 3 * N.of_nat (length h) < max_counter ->
  exists G', cinv G' w' /\ (length G' <= length G + 3 * length h)%nat.
Proof.
  induction h as [|[now s] rest IH]; intros G w w' l Hc Hcl H Hcap Hlen; cbn [run clean_run] in H, Hcl.
  - injection H as <- _. exists G. split; [exact Hc|cbn; lia].
  - apply andb_true_iff in Hcl as [Hat Hcl].
    destruct (step_world w now s) as [[w1 l1]|] eqn:E; [|discriminate].
    destruct (run w1 rest) as [[w2 l2]|] eqn:E2; [|discriminate]. injection H as <- _.
    cbn [length] in Hlen.
    destruct (clean_step_cinv G w now s w1 l1 Hc) as (G1 & C1 & L1); try assumption.
    + apply (keys_le_cap w1 w2); [eapply clean_run_keys; eassumption|exact Hcap].
    + lia.
    + destruct (IH G1 w1 w2 l2 C1 Hcl E2 Hcap) as (G2 & C2 & L2); [lia|].
      exists G2. split; [exact C2|cbn [length]; lia].
Qed.

(** a step adds at most three entries to the ghost log (accepting a join, completing it, the rejoin bump), and every
    version counter is bounded by the length of that log: no counter overflows within [k] steps *)
Definition steps_ok (k : nat) : Prop := 3 * N.of_nat k + 3 < max_counter.

Theorem clean_history_cinv h w l :
  clean_history h = true -> run empty_world h = Some (w, l) ->
  N.of_nat (size (w_nodes w)) <= max_entries -> steps_ok (length h) -> exists G, cinv G w.
Proof.
  intros Hcl Hrun Hcap Hst. unfold steps_ok in Hst.
  destruct (clean_run_cinv h [] empty_world w l cinv_empty Hcl Hrun Hcap) as (G & Hc & _); [cbn [length]; lia|]. eauto.
Qed.

Lemma view_in_vinv G w v : cinv G w -> view_in w v -> vinv G w v.
Proof.
  intros Hc [(a & n & Ha & <-)|(p & Hp & <-)]; [apply (ni_view _ _ _ _ (ci_nodes _ _ Hc a n Ha))|apply (ci_net _ _ Hc p Hp)].
Qed.

Theorem clean_vector_order h w l :
  clean_history h = true -> run empty_world h = Some (w, l) ->
  N.of_nat (size (w_nodes w)) <= max_entries -> steps_ok (length h) ->
  forall u v, view_in w u -> view_in w v -> vle (vw_vv u) (vw_vv v) -> ple (proj u) (proj v).
Proof.
  intros Hcl Hrun Hcap Hst u v Hu Hv Hle. destruct (clean_history_cinv h w l Hcl Hrun Hcap Hst) as [G Hc].
  eapply just_cover_ple; [apply (view_in_vinv G w u Hc Hu)|apply (view_in_vinv G w v Hc Hv)|exact Hle].
Qed.
