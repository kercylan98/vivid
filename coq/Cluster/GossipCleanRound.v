(** One fair round closes the gossip relation: in a clean world in which every node has joined, after a fair round
    every node's vector is dominated by the vector of each of its gossip targets. *)
From stdpp Require Import gmap.
From Vivid Require Import Cluster.VVProofs Cluster.View Cluster.Gossip Cluster.GossipProofs Cluster.GossipClean
  Cluster.GossipCleanOps Cluster.GossipCleanInv Cluster.GossipCleanStep Cluster.GossipCleanWorld
  Cluster.GossipCleanHandlers.
Local Open Scope N_scope.

Lemma gossip_pre_addr n src now choice t :
  (exists k s, vw_members (gossip_pre n src now choice) !! k = Some s /\ ns_addr s = t) ->
  exists k s, vw_members (nd_view n) !! k = Some s /\ ns_addr s = t.
Proof.
  unfold gossip_pre. destruct choice as [id|]; [destruct (nonempty src)|]; try (intros H; exact H).
  intros (k & s & Hk & Hs). destruct (nd_view n) as [ep ts ms h u q vx pr mx]; cbn in *.
  rewrite refresh_lookup in Hk. destruct (decide (k = id)) as [->|Hne]; [|exists k, s; auto].
  destruct (ms !! id) as [s0|] eqn:E; [|discriminate]. cbn in Hk. injection Hk as <-. exists id, s0. auto.
Qed.

(** handleGossip either changes nothing that matters to the round, or ends with a broadcast *)
Lemma handle_gossip_modes n src v now choice :
  let r := handle_gossip n src v now choice in
  let n' := fst (fst r) in
  (veq (vw_vv (nd_view n')) (vw_vv (nd_view n)) /\ (forall t, t ∈ select_targets n' -> t ∈ select_targets n))
  \/ (forall t, t ∈ select_targets n' ->
        (t, nd_view n') ∈ snd (fst r) \/ exists q, nd_last n' !! t = Some q /\ vle (vw_vv (nd_view n')) q).
Proof.
  cbn zeta. rewrite handle_gossip_eq. cbv zeta. destruct (snd (view_merge _ _ _ _ _)) eqn:Ech; [right|left].
  - intros t Ht. unfold finish in *. cbn [fst snd] in *. rewrite select_targets_prune in Ht.
    destruct (broadcast_covers _ t Ht) as [Hin|(q & Hq & Hle)]; [left; exact Hin|right].
    exists q. split; [rewrite (prune_keeps_target _ t Ht); exact Hq|exact Hle].
  - destruct (merge_unchanged _ _ _ _ _ Ech) as [Hm Hv]. cbn [fst nd_view set_view]. split.
    + intros k. rewrite (Hv k), gossip_pre_vv. reflexivity.
    + intros t Ht. apply select_targets_spec in Ht as (H1 & H2 & H3). apply select_targets_spec.
      split; [exact H1|]. split; [destruct (nonempty src); exact H2|].
      destruct H3 as [H3|H3]; [left; destruct (nonempty src); exact H3|right].
      cbn [nd_view set_view] in H3. rewrite Hm in H3. apply (gossip_pre_addr n src now choice t H3).
Qed.

Lemma elem_of_remove_at_or {A} (k : N) (l : list A) p q : l !! N.to_nat k = Some p -> q ∈ l -> q ∈ remove_at k l \/ q = p.
Proof.
  intros Hk Hq. apply elem_of_list_lookup in Hq as [i Hi]. unfold remove_at.
  destruct (lt_eq_lt_dec i (N.to_nat k)) as [[Hlt|Heq]|Hgt].
  - left. apply elem_of_list_lookup. exists i. rewrite lookup_delete_lt by exact Hlt. exact Hi.
  - right. subst i. congruence.
  - left. apply elem_of_list_lookup. exists (pred i). rewrite lookup_delete_ge by lia. replace (S (pred i)) with i by lia. exact Hi.
Qed.

Definition all_joined_retry_off G w : cinv G w -> all_joined w -> forall a n, w_nodes w !! a = Some n -> nd_retry_on n = false.
Proof. intros Hc Hj a n Ha. apply (ni_joined _ _ _ _ (ci_nodes _ _ Hc a n Ha)). apply (Hj a n Ha). Qed.

(** the steps of a round that are enabled when everybody has joined and no failure detector runs *)
Definition tick_or_deliver (s : step) : bool := match s with SGossipTick _ | SDeliver _ _ => true | _ => false end.

Lemma enabled_ff_step G w now s w' l :
  cinv G w -> all_joined w -> fault_free s = true -> step_world w now s = Some (w', l) -> tick_or_deliver s = true.
Proof.
  intros Hc Hj Hff H. destruct s as [c asks|a asks|a|a asks|k choice|k|a|a|a id]; cbn in Hff; try discriminate; try reflexivity.
  - cbn [step_world] in H. destruct (w_nodes w !! a) as [n|] eqn:Ea; [|discriminate].
    rewrite (all_joined_retry_off G w Hc Hj a n Ea) in H. discriminate.
  - cbn [step_world] in H. destruct (w_nodes w !! a) as [n|] eqn:Ea; [|discriminate].
    rewrite (ni_fdoff _ _ _ _ (ci_nodes _ _ Hc a n Ea)) in H. discriminate.
Qed.

Definition tick_of (s : step) : list addr := match s with SGossipTick a => [a] | _ => [] end.

Lemma round_step G S w now s w' l :
  cinv G w -> rinv S w -> all_joined w -> nodes_cap w ->
  tick_or_deliver s = true -> step_world w now s = Some (w', l) ->
  cinv G w' /\ rinv (tick_of s ++ S) w' /\ all_joined w' /\ wext w w' /\
  (forall a n', w_nodes w' !! a = Some n' -> exists n, w_nodes w !! a = Some n /\ nd_cfg n' = nd_cfg n).
Proof.
  intros Hc Hr Hj Hcap Htd H.
  destruct s as [c asks|a asks|a|a asks|k choice|k|a|a|a id]; cbn in Htd; try discriminate; cbn [step_world tick_of] in *.
  - (* gossip tick *)
    destruct (w_nodes w !! a) as [n|] eqn:Ea; [|discriminate]. destruct (nd_gossip_on n) eqn:Eg; [|discriminate].
    destruct (tick_cinv G w a n Hc Ea) as (R1 & R2 & R3).
    assert (E : w' = upd w (prune_last n) (snd (broadcast n))) by (injection H as <- _; unfold upd; rewrite R3; reflexivity).
    rewrite E. clear H E.
    split; [exact R1|]. split; [|split; [|split; [exact R2|]]].
    + cbn [app]. eapply (rinv_upd S (a :: S) w w a n (prune_last n)); try eassumption; try reflexivity.
      * intros q Hq. left; exact Hq.
      * apply vle_refl.
      * intros t q m Hq Hm. pose proof (ci_nodes _ _ R1 a (prune_last n)) as Hn'. rewrite lookup_upd_nodes, R3, decide_True in Hn' by reflexivity.
        destruct (ni_last _ _ _ _ (Hn' eq_refl) t q Hq) as (m' & Hm' & Hle). rewrite Hm in Hm'. injection Hm' as <-. exact Hle.
      * intros b Hb. apply elem_of_cons in Hb as [->|Hb]; auto.
      * right. intros t Ht. rewrite select_targets_prune in Ht.
        destruct (broadcast_covers n t Ht) as [Hin|(q & Hq & Hle)]; [left; exact Hin|right].
        exists q. split; [rewrite (prune_keeps_target n t Ht); exact Hq|exact Hle].
    + intros b m Hb. rewrite lookup_upd_nodes, R3 in Hb. destruct (decide (b = a)) as [->|Hne]; [|apply (Hj b m Hb)].
      injection Hb as <-. exact Eg.
    + intros b m Hb. rewrite lookup_upd_nodes, R3 in Hb. destruct (decide (b = a)) as [->|Hne]; [|exists m; auto].
      injection Hb as <-. exists n. auto.
  - (* delivery *)
    destruct (N.of_nat (length (w_net w)) <=? k); [discriminate|].
    destruct (w_net w !! N.to_nat k) as [p|] eqn:Ek; [|discriminate].
    assert (Hp : p ∈ w_net w) by (eapply elem_of_list_lookup_2; exact Ek).
    set (w1 := World (w_nodes w) (remove_at k (w_net w))) in *.
    destruct (w_nodes w !! p_dst p) as [n|] eqn:Ed.
    + match type of H with (if ?b then _ else None) = _ => destruct b end; [|discriminate].
      destruct (deliver_cinv G w p n (remove_at k (w_net w)) now choice Hc Hcap Hp (elem_of_remove_at k _) Ed) as (R1 & R2 & R3).
      destruct (handle_gossip_npre G w (p_dst p) n p now choice Hc Hcap Ed Hp) as [Hpre _].
      destruct (handle_gossip_fields n (p_src p) (p_view p) now choice) as (_ & F2 & _).
      pose proof (handle_gossip_view n (p_src p) (p_view p) now choice) as Hv.
      pose proof (handle_gossip_modes n (p_src p) (p_view p) now choice) as Hmodes.
      destruct (handle_gossip n (p_src p) (p_view p) now choice) as [[n1 out] evs]. injection H as <- _. cbn [fst snd] in *. fold w1 in R1, R2.
      replace (add_net (put_node w1 n1) (stamp (p_dst p) out)) with (upd w1 n1 out) by (unfold upd; rewrite R3; reflexivity).
      (* the delivered view is dominated by the receiver's new view *)
      assert (Hpv : vle (vw_vv (p_view p)) (vw_vv (nd_view n1))).
      { rewrite Hv. destruct (ci_net _ _ Hc p Hp) as (Pv & _).
        intros x. rewrite (vinv0_merge_vget G w); [lia|exact (ci_uniq _ _ Hc)|exact Hcap| |apply vinv_vinv0; exact Pv].
        apply gossip_pre_vinv0, vinv_vinv0. apply (ni_view _ _ _ _ (ci_nodes _ _ Hc _ n Ed)). }
      split; [exact R1|]. split; [|split; [|split; [exact R2|]]].
      * cbn [app]. eapply (rinv_upd S S w w1 (p_dst p) n n1 out); try eassumption; try reflexivity.
        -- intros q Hq. destruct (elem_of_remove_at_or k (w_net w) p q Ek Hq) as [Hin| ->]; [left; exact Hin|right; split; [reflexivity|exact Hpv]].
        -- apply (np_vle _ _ _ _ Hpre).
        -- intros t q m Hq Hm. pose proof (ci_nodes _ _ R1 (p_dst p) n1) as Hn'. rewrite lookup_upd_nodes, R3, decide_True in Hn' by reflexivity.
           destruct (ni_last _ _ _ _ (Hn' eq_refl) t q Hq) as (m' & Hm' & Hle). rewrite Hm in Hm'. injection Hm' as <-. exact Hle.
        -- auto.
        -- destruct Hmodes as [(M1 & M2)|M]; [left|right; exact M].
           split; [exact M1|]. split; [exact M2|]. split; [rewrite F2; auto|auto].
      * intros b m Hb. rewrite lookup_upd_nodes, R3 in Hb. destruct (decide (b = p_dst p)) as [->|Hne]; [|apply (Hj b m Hb)].
        injection Hb as <-. rewrite F2. apply (Hj _ _ Ed).
      * intros b m Hb. rewrite lookup_upd_nodes, R3 in Hb. destruct (decide (b = p_dst p)) as [->|Hne]; [|exists m; auto].
        injection Hb as <-. exists n. split; [exact Ed|]. apply (np_cfg _ _ _ _ Hpre).
    + destruct choice; [discriminate|]. injection H as <- _.
      split; [apply cinv_less_net; [exact Hc|apply elem_of_remove_at]|].
      split; [|split; [exact Hj|split; [apply wext_same_nodes; reflexivity|intros b m Hb; exists m; auto]]].
      cbn [app]. intros b m Hb Hm Hg t Ht mt Hmt. cbn in Hm, Hmt.
      destruct (Hr b m Hb Hm Hg t Ht mt Hmt) as [L|(q & Hq & Hd & L)]; [left; exact L|right].
      exists q. split; [|split; [exact Hd|exact L]]. cbn.
      destruct (elem_of_remove_at_or k (w_net w) p q Ek Hq) as [Hin| ->]; [exact Hin|]. rewrite Hd in Ed. congruence.
Qed.
