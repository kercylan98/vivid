(** Convergence on clean histories: one fair round after everybody has joined makes all version vectors - hence all
    memberships - equal, provided the seed lists connect the nodes. *)
From stdpp Require Import gmap.
From Vivid Require Import Cluster.VV Cluster.VVProofs Cluster.View Cluster.Gossip Cluster.GossipProofs
  Cluster.GossipClean Cluster.GossipCleanOps Cluster.GossipCleanInv Cluster.GossipCleanStep
  Cluster.GossipCleanWorld Cluster.GossipCleanHandlers Cluster.GossipCleanRun Cluster.GossipCleanRound.
Local Open Scope N_scope.

(** The argument. (1) After a fair round every node's vector is below that of each of its gossip targets: [closed], by
    [fair_round_closure] (from [round_run]). (2) Such an edge is symmetric ([closed_sym]): n <= m makes m list n's own entry
    ([vle_lists], by [just_cover_ple]), so n is a target of m ([select_targets_spec]) and [closed] gives m <= n. (3) Seeds are
    targets ([seed_edge_veq]), so equality spreads along seed paths: [closed_agree] gives [agree]. (4) Silence: [settled] is [agree]
    over the views in flight too; from there a tick or a delivery changes no membership and logs nothing ([settled_step]) *)
Definition is_tick (a : addr) (s : step) : bool := match s with SGossipTick b => bool_decide (b = a) | _ => false end.

Lemma round_run r : forall G S w w' l,
  cinv G w -> rinv S w -> all_joined w -> nodes_cap w ->
  forallb (fun x => fault_free (snd x)) r = true -> run w r = Some (w', l) ->
  exists S', cinv G w' /\ rinv S' w' /\ all_joined w' /\ wext w w' /\
             (forall a n', w_nodes w' !! a = Some n' -> exists n, w_nodes w !! a = Some n /\ nd_cfg n' = nd_cfg n) /\
             (forall b, b ∈ S -> b ∈ S') /\ (forall a, has_step r (is_tick a) = true -> a ∈ S').
Proof.
  induction r as [|[now s] rest IH]; intros G S w w' l Hc Hr Hj Hcap Hff H; cbn [run forallb] in H, Hff.
  - injection H as <- _. exists S. split; [exact Hc|]. split; [exact Hr|]. split; [exact Hj|]. split; [apply wext_refl|].
    split; [intros a n' Ha; exists n'; auto|]. split; [auto|]. intros a Ha. cbn in Ha. discriminate.
  - apply andb_true_iff in Hff as [Hff1 Hff]. cbn [snd] in Hff1.
    destruct (step_world w now s) as [[w1 l1]|] eqn:E; [|discriminate].
    destruct (run w1 rest) as [[w2 l2]|] eqn:E2; [|discriminate]. injection H as <- _.
    pose proof (enabled_ff_step G w now s w1 l1 Hc Hj Hff1 E) as Htd.
    destruct (round_step G S w now s w1 l1 Hc Hr Hj Hcap Htd E) as (C1 & R1 & J1 & X1 & K1).
    assert (Hcap1 : nodes_cap w1).
    { apply (keys_le_cap w1 w); [|exact Hcap]. intros a [n' Ha]. destruct (K1 a n' Ha) as (n & Hn & _). eexists; exact Hn. }
    destruct (IH G (tick_of s ++ S) w1 w2 l2 C1 R1 J1 Hcap1 Hff E2) as (S' & C2 & R2 & J2 & X2 & K2 & Sub & Tk).
    exists S'. split; [exact C2|]. split; [exact R2|]. split; [exact J2|]. split; [eapply wext_trans; eassumption|].
    split; [intros a n'' Ha; destruct (K2 a n'' Ha) as (n' & Hn' & E'); destruct (K1 a n' Hn') as (n & Hn & E''); exists n; split; [exact Hn|congruence]|]. split; [intros b Hb; apply Sub, elem_of_app; right; exact Hb|].
    intros a Ha. unfold has_step in Ha. cbn [existsb snd] in Ha. apply orb_true_iff in Ha as [Ha|Ha]; [|apply Tk; exact Ha].
    apply Sub, elem_of_app. left. destruct s; cbn in Ha; try discriminate. apply bool_decide_eq_true in Ha. subst. cbn. apply elem_of_list_singleton. reflexivity.
Qed.

Definition closed (w : world) : Prop :=
  forall a n t m, w_nodes w !! a = Some n -> t ∈ select_targets n -> w_nodes w !! t = Some m ->
    vle (vw_vv (nd_view n)) (vw_vv (nd_view m)).

Theorem fair_round_closure G w t r w' l :
  cinv G w -> all_joined w -> nodes_cap w -> fair_round w t r = Some (w', l) ->
  cinv G w' /\ all_joined w' /\ nodes_cap w' /\ w_net w' = [] /\ wext w w' /\
  (forall a n', w_nodes w' !! a = Some n' -> exists n, w_nodes w !! a = Some n /\ nd_cfg n' = nd_cfg n) /\ closed w'.
Proof.
  intros Hc Hj Hcap H. unfold fair_round in H.
  destruct (forallb (fun x => fault_free (snd x)) r && clocks_from t r && ticks_everyone w r) eqn:Ef; [|discriminate].
  apply andb_true_iff in Ef as [Ef Ht]. apply andb_true_iff in Ef as [Ef _].
  destruct (run w r) as [[w1 l1]|] eqn:Er; [|discriminate].
  destruct (w_net w1) eqn:En; [|discriminate]. injection H as <- <-.
  destruct (round_run r G [] w w1 l1 Hc (rinv_nil w) Hj Hcap Ef Er) as (S' & C1 & R1 & J1 & X1 & K1 & _ & Tk).
  split; [exact C1|]. split; [exact J1|].
  split; [apply (keys_le_cap w1 w); [intros a [n' Ha]; destruct (K1 a n' Ha) as (n & Hn & _); eexists; exact Hn|exact Hcap]|]. split; [exact En|].
  split; [exact X1|]. split; [exact K1|].
  intros a n tg m Ha Htg Hm.
  destruct (K1 a n Ha) as (n0 & Hn0 & _).
  assert (HaS : a ∈ S').
  { apply Tk. apply (proj1 (forallb_nodes_of _ w)) with (a := a) (n := n0) in Ht; [|exact Hn0].
    rewrite (Hj a n0 Hn0) in Ht. cbn [negb orb] in Ht.
    apply andb_true_iff in Ht as [Ht _]. apply andb_true_iff in Ht as [Ht _].
    rewrite (ni_addr _ _ _ _ (ci_nodes _ _ Hc a n0 Hn0)) in Ht. exact Ht. }
  destruct (R1 a n HaS Ha (J1 a n Ha) tg Htg m Hm) as [L|(p & Hp & _)]; [exact L|].
  rewrite En in Hp. inversion Hp.
Qed.

Definition agree (w : world) : Prop :=
  forall a b n m, w_nodes w !! a = Some n -> w_nodes w !! b = Some m -> veq (vw_vv (nd_view n)) (vw_vv (nd_view m)).

Lemma self_entry G w a n : cinv G w -> w_nodes w !! a = Some n -> nd_gossip_on n = true ->
  exists s, vw_members (nd_view n) !! nd_id n = Some s /\ ns_addr s = a.
Proof.
  intros Hc Ha Hg. destruct (ci_nodes _ _ Hc a n Ha) as [N1 N2 N3 N4 N5 N6 N7 N8 N9 N10 N11 N12].
  destruct (N11 Hg) as [_ [s Hs]]. exists s. split; [exact Hs|].
  destruct (vi_truth _ _ _ N9 _ _ Hs) as (_ & m & Hm & Hid). eapply (ci_uniq _ _ Hc); [exact Hm|exact Ha|exact Hid].
Qed.

Lemma vle_lists G w a b n m :
  cinv G w -> w_nodes w !! a = Some n -> w_nodes w !! b = Some m -> nd_gossip_on n = true ->
  vle (vw_vv (nd_view n)) (vw_vv (nd_view m)) ->
  exists s, vw_members (nd_view m) !! nd_id n = Some s /\ ns_addr s = a.
Proof.
  intros Hc Ha Hb Hg Hle.
  pose proof (ni_view _ _ _ _ (ci_nodes _ _ Hc a n Ha)) as Vn. pose proof (ni_view _ _ _ _ (ci_nodes _ _ Hc b m Hb)) as Vm.
  destruct (self_entry G w a n Hc Ha Hg) as (s & Hs & _).
  pose proof (just_cover_ple G _ _ (vi_just _ _ _ Vn) (vi_cover _ _ _ Vm) Hle) as Hp.
  destruct (Hp (nd_id n) (inc_of s)) as (y & Hy & _); [rewrite proj_lookup, Hs; reflexivity|].
  rewrite proj_lookup in Hy. destruct (vw_members (nd_view m) !! nd_id n) as [s'|] eqn:Es'; [|discriminate].
  exists s'. split; [reflexivity|]. destruct (vi_truth _ _ _ Vm _ _ Es') as (_ & x & Hx & Hid).
  eapply (ci_uniq _ _ Hc); [exact Hx|exact Ha|exact Hid].
Qed.

Lemma closed_sym G w a t n m :
  cinv G w -> all_joined w -> closed w -> w_nodes w !! a = Some n -> w_nodes w !! t = Some m ->
  t ∈ select_targets n -> veq (vw_vv (nd_view n)) (vw_vv (nd_view m)).
Proof.
  intros Hc Hj Hcl Ha Ht Htg. pose proof (Hcl a n t m Ha Htg Ht) as L1.
  apply vle_antisym; [exact L1|].
  destruct (vle_lists G w a t n m Hc Ha Ht (Hj a n Ha) L1) as (s & Hs & Hsa).
  apply (Hcl t m a n Ht); [|exact Ha]. apply select_targets_spec.
  pose proof (ci_nodes _ _ Hc a n Ha) as Na. pose proof (ci_nodes _ _ Hc t m Ht) as Nt.
  split; [apply (ni_ne _ _ _ _ Na)|]. split.
  - rewrite (ni_addr _ _ _ _ Nt). intros E. apply (select_targets_not_self _ _ Htg). rewrite (ni_addr _ _ _ _ Na). symmetry. exact E.
  - right. exists (nd_id n), s. auto.
Qed.

Lemma seed_edge_veq G w a b :
  cinv G w -> all_joined w -> closed w -> seed_edge w a b ->
  forall n m, w_nodes w !! a = Some n -> w_nodes w !! b = Some m -> veq (vw_vv (nd_view n)) (vw_vv (nd_view m)).
Proof.
  intros Hc Hj Hcl (n0 & Hn0 & [m0 Hm0] & Hseed & Hne) n m Ha Hb. rewrite Ha in Hn0. injection Hn0 as <-.
  eapply closed_sym; try eassumption. apply select_targets_spec.
  split; [apply (ni_ne _ _ _ _ (ci_nodes _ _ Hc b m Hb))|]. split; [rewrite (ni_addr _ _ _ _ (ci_nodes _ _ Hc a n Ha)); exact Hne|left; exact Hseed].
Qed.

Theorem closed_agree G w : cinv G w -> all_joined w -> closed w -> seed_connected w -> agree w.
Proof.
  intros Hc Hj Hcl Hconn a b n m Ha Hb.
  assert (Hp : seed_path w a b) by (apply Hconn; eexists; eassumption).
  revert n m Ha Hb. induction Hp as [a|a b c He Hp IH|a b c He Hp IH]; intros n m Ha Hb.
  - rewrite Ha in Hb. injection Hb as <-. intros k; reflexivity.
  - destruct He as (n0 & Hn0 & [mb Hmb] & Hrest). eapply veq_trans; [|apply (IH mb m Hmb Hb)].
    eapply (seed_edge_veq G w a b); try eassumption. exists n0. split; [exact Hn0|]. split; [eexists; exact Hmb|exact Hrest].
  - destruct He as (nb & Hnb & [ma Hma] & Hrest). eapply veq_trans; [|apply (IH nb m Hnb Hb)].
    apply veq_sym. eapply (seed_edge_veq G w b a); try eassumption. exists nb. split; [exact Hnb|]. split; [eexists; exact Hma|exact Hrest].
Qed.

Lemma elem_member_ids v id ad :
  (id, ad) ∈ member_ids v <-> exists s, vw_members v !! id = Some s /\ ns_addr s = ad.
Proof.
  unfold member_ids. rewrite elem_of_list_In, in_map_iff. split.
  - intros ([k s] & [= <- <-] & Hin). apply elem_of_list_In, elem_of_map_to_list in Hin. exists s. auto.
  - intros (s & Hs & <-). exists (id, s). split; [reflexivity|]. apply elem_of_list_In, elem_of_map_to_list. exact Hs.
Qed.
Lemma elem_running_ids w id ad :
  (id, ad) ∈ running_ids w <-> exists n, w_nodes w !! ad = Some n /\ nd_id n = id.
Proof.
  unfold running_ids. rewrite elem_of_list_In, in_map_iff. split.
  - intros ([k n] & [= <- <-] & Hin). apply elem_of_list_In, elem_of_map_to_list in Hin. exists n. auto.
  - intros (n & Hn & <-). exists (ad, n). split; [reflexivity|]. apply elem_of_list_In, elem_of_map_to_list. exact Hn.
Qed.

Lemma agree_members G w a n :
  cinv G w -> all_joined w -> agree w -> w_nodes w !! a = Some n ->
  same_set (member_ids (nd_view n)) (running_ids w).
Proof.
  intros Hc Hj Hag Ha [id ad]. rewrite elem_member_ids, elem_running_ids. split.
  - intros (s & Hs & <-). destruct (vi_truth _ _ _ (ni_view _ _ _ _ (ci_nodes _ _ Hc a n Ha)) _ _ Hs) as (_ & m & Hm & Hid). exists m. auto.
  - intros (m & Hm & <-). apply (vle_lists G w ad a m n Hc Hm Ha (Hj ad m Hm)). apply veq_vle. apply (Hag ad a m n Hm Ha).
Qed.

Lemma agree_up_addrs G w a n :
  cinv G w -> all_joined w -> agree w -> w_nodes w !! a = Some n ->
  forall ad, ad ∈ up_addrs (nd_view n) <-> is_Some (w_nodes w !! ad).
Proof.
  intros Hc Hj Hag Ha ad. rewrite elem_up_addrs. split.
  - intros (k & s & Hk & _ & _ & <-). destruct (vi_truth _ _ _ (ni_view _ _ _ _ (ci_nodes _ _ Hc a n Ha)) _ _ Hk) as (_ & m & Hm & _). eexists; exact Hm.
  - intros [m Hm]. destruct (vle_lists G w ad a m n Hc Hm Ha (Hj ad m Hm)) as (s & Hs & Hsa); [apply veq_vle, (Hag ad a m n Hm Ha)|].
    exists (nd_id m), s. split; [exact Hs|]. split; [apply (vi_truth _ _ _ (ni_view _ _ _ _ (ci_nodes _ _ Hc a n Ha)) _ _ Hs)|].
    split; [rewrite Hsa; apply (ni_ne _ _ _ _ (ci_nodes _ _ Hc ad m Hm))|exact Hsa].
Qed.

Theorem agree_converged G w : cinv G w -> all_joined w -> agree w -> converged w.
Proof.
  intros Hc Hj Hag a n Ha. split; [eapply agree_members; eassumption|].
  intros b m Hb. apply same_up_same_leader. intros ad.
  rewrite (agree_up_addrs G w a n Hc Hj Hag Ha), (agree_up_addrs G w b m Hc Hj Hag Hb). reflexivity.
Qed.

Theorem agree_one_leader G w :
  cinv G w -> all_joined w -> agree w -> nodes_of w <> [] ->
  exists n, n ∈ nodes_of w /\ iam_leader n = true /\ forall m, m ∈ nodes_of w -> iam_leader m = true -> m = n.
Proof.
  intros Hc Hj Hag Hne.
  pose proof (elem_of_nodes_of w) as Hel.
  assert (Hnd : NoDup (map nd_addr (nodes_of w))).
  { unfold nodes_of. rewrite map_map.
    assert (E : map (fun x : addr * node => nd_addr (snd x)) (map_to_list (w_nodes w)) = (map_to_list (w_nodes w)).*1).
    { apply map_ext_in. intros [a n] Hin. apply elem_of_list_In, elem_of_map_to_list in Hin. cbn.
      apply (ni_addr _ _ _ _ (ci_nodes _ _ Hc a n Hin)). }
    rewrite E. apply NoDup_fst_map_to_list. }
  destruct (one_leader (nodes_of w) Hne Hnd) as (ld & _ & n & Hn & Hl & Huq).
  - intros n Hn ad. apply Hel in Hn as [a Ha]. rewrite (agree_up_addrs G w a n Hc Hj Hag Ha). split.
    + intros [m Hm]. apply elem_of_list_In, in_map_iff. exists m. split; [apply (ni_addr _ _ _ _ (ci_nodes _ _ Hc ad m Hm))|].
      apply elem_of_list_In, Hel. exists ad. exact Hm.
    + intros Hin. apply elem_of_list_In, in_map_iff in Hin as (m & <- & Hm). apply elem_of_list_In, Hel in Hm as [b Hb].
      rewrite (ni_addr _ _ _ _ (ci_nodes _ _ Hc b m Hb)). eexists; exact Hb.
  - exists n. split; [exact Hn|]. split; [exact Hl|exact Huq].
Qed.

Definition settled (G : glog) (w : world) : Prop :=
  cinv G w /\ all_joined w /\ nodes_cap w /\
  forall u v, view_in w u -> view_in w v -> veq (vw_vv u) (vw_vv v).

Lemma agree_settled G w : cinv G w -> all_joined w -> nodes_cap w -> w_net w = [] -> agree w -> settled G w.
Proof.
  intros Hc Hj Hcap Hn Hag. split; [exact Hc|]. split; [exact Hj|]. split; [exact Hcap|].
  intros u v [(a & n & Ha & <-)|(p & Hp & _)] [(b & m & Hb & <-)|(q & Hq & _)]; try (rewrite Hn in *; match goal with H : _ ∈ [] |- _ => inversion H end).
  eapply Hag; eassumption.
Qed.

Lemma settled_agree G w : settled G w -> agree w.
Proof. intros (_ & _ & _ & H) a b n m Ha Hb. apply H; left; [exists a, n|exists b, m]; split; auto. Qed.

Lemma publish_quiet n : leader_of (nd_view n) = nd_leader n -> sat_quorum (nd_view n) = nd_inq n ->
  forallb (fun e => negb (is_change e)) (snd (publish_leader n)) = true.
Proof.
  intros H1 H2. unfold publish_leader. cbn [snd]. rewrite H1, H2.
  rewrite bool_decide_eq_true_2 by reflexivity. rewrite eqb_reflx. cbn [negb orb]. rewrite app_nil_r.
  destruct (nd_inq n); cbn; reflexivity.
Qed.

Lemma quiet_tag a evs : quiet (tag a evs) = forallb (fun e => negb (is_change e)) evs.
Proof. unfold quiet, tag. induction evs as [|e r IH]; cbn; [reflexivity|rewrite IH; reflexivity]. Qed.

Lemma quiet_app l1 l2 : quiet (l1 ++ l2) = quiet l1 && quiet l2.
Proof. unfold quiet. apply forallb_app. Qed.

Lemma handle_gossip_settled G w a n p now choice :
  cinv G w -> nodes_cap w -> w_nodes w !! a = Some n -> p ∈ w_net w ->
  veq (vw_vv (p_view p)) (vw_vv (nd_view n)) ->
  let r := handle_gossip n (p_src p) (p_view p) now choice in
  forallb (fun e => negb (is_change e)) (snd r) = true /\
  proj (nd_view (fst (fst r))) = proj (nd_view n) /\ veq (vw_vv (nd_view (fst (fst r)))) (vw_vv (nd_view n)).
Proof.
  intros Hc Hcap Ha Hp Hveq. cbn zeta.
  pose proof (ci_nodes _ _ Hc a n Ha) as Hn. pose proof (ni_view _ _ _ _ Hn) as N9. destruct (ni_pub _ _ _ _ Hn) as [P1 P2].
  destruct (ci_net _ _ Hc p Hp) as (Pv & _).
  set (pre := gossip_pre n (p_src p) now choice).
  assert (V0 : vinv0 G w pre) by (apply gossip_pre_vinv0, vinv_vinv0; exact N9).
  assert (P0 : vinv0 G w (p_view p)) by (apply vinv_vinv0; exact Pv).
  assert (Hmem : vw_members (fst (view_merge 0 0 now pre (p_view p))) = vw_members pre).
  { apply merge_members_same; [apply V0|apply P0|]. unfold pre. rewrite gossip_pre_proj.
    apply (just_cover_ple G); [apply Pv|apply N9|apply veq_vle; exact Hveq]. }
  assert (Hvv : veq (vw_vv (fst (view_merge 0 0 now pre (p_view p)))) (vw_vv (nd_view n))).
  { intros k. rewrite (vinv0_merge_vget G w) by (try assumption; exact (ci_uniq _ _ Hc)). unfold pre. rewrite gossip_pre_vv. rewrite (Hveq k). lia. }
  rewrite handle_gossip_view. fold pre. split; [|split; [|exact Hvv]].
  - (* nothing is announced: the leader and the quorum verdict are those the publisher remembers *)
    pose proof (vinv0_merge G w pre (p_view p) now (ci_uniq _ _ Hc) Hcap V0 P0) as V'.
    destruct (same_members_pub G w n _ now choice _ N9 (v0_cc _ _ _ V') Hmem) as [HL HQ].
    rewrite handle_gossip_eq. cbv zeta. fold pre. destruct (snd (view_merge _ _ _ _ _)); [|reflexivity].
    apply publish_quiet; destruct (nonempty (p_src p)); cbn [nd_view set_view nd_leader nd_inq set_last]; congruence.
  - unfold proj. rewrite Hmem. apply (gossip_pre_proj n (p_src p) now choice).
Qed.

Lemma same_memberships_refl w : same_memberships w w.
Proof. intros a n Ha. exists n. split; [exact Ha|]. split; [reflexivity|intros k; reflexivity]. Qed.
Lemma same_memberships_trans w1 w2 w3 : same_memberships w1 w2 -> same_memberships w2 w3 -> same_memberships w1 w3.
Proof.
  intros H1 H2 a n Ha. destruct (H1 a n Ha) as (n' & Ha' & P1 & V1). destruct (H2 a n' Ha') as (n'' & Ha'' & P2 & V2).
  exists n''. split; [exact Ha''|]. split; [congruence|eapply veq_trans; eassumption].
Qed.

Lemma view_in_upd w n' out u :
  (forall d v, (d, v) ∈ out -> v = nd_view n') -> view_in (upd w n' out) u -> view_in w u \/ u = nd_view n'.
Proof.
  intros Hout [(b & m & Hb & <-)|(q & Hq & <-)].
  - rewrite lookup_upd_nodes in Hb. destruct (decide _); [injection Hb as <-; right; reflexivity|left; left; eauto].
  - apply elem_upd_net in Hq as [Hq|(d & v & Hdv & ->)]; [left; right; eauto|right; apply (Hout d v Hdv)].
Qed.

Lemma view_in_less_net w net' u : (forall q, q ∈ net' -> q ∈ w_net w) -> view_in (World (w_nodes w) net') u -> view_in w u.
Proof. intros Hsub [H|(q & Hq & <-)]; [left; exact H|right; exists q; auto]. Qed.

Lemma same_memberships_upd w a n n' out :
  w_nodes w !! a = Some n -> nd_addr n' = a -> proj (nd_view n') = proj (nd_view n) ->
  veq (vw_vv (nd_view n')) (vw_vv (nd_view n)) -> same_memberships w (upd w n' out).
Proof.
  intros Ha Ea Hp Hv b m Hb. rewrite lookup_upd_nodes, Ea. destruct (decide (b = a)) as [->|Hne].
  - rewrite Ha in Hb. injection Hb as <-. eauto.
  - exists m. split; [exact Hb|]. split; [reflexivity|intros k; reflexivity].
Qed.

Lemma settled_step G w now s w' l :
  settled G w -> tick_or_deliver s = true -> step_world w now s = Some (w', l) ->
  settled G w' /\ quiet l = true /\ same_memberships w w'.
Proof.
  intros (Hc & Hj & Hcap & Hall) Htd H.
  destruct (round_step G [] w now s w' l Hc (rinv_nil w) Hj Hcap Htd H) as (C1 & _ & J1 & X1 & K1).
  assert (Hcap1 : nodes_cap w').
  { apply (keys_le_cap w' w); [|exact Hcap]. intros b [n' Hb]. destruct (K1 b n' Hb) as (n & Hn & _). eexists; exact Hn. }
  (* every view of the new world has the vector of a view of the old one *)
  enough (Hin : (forall u, view_in w' u -> exists u0, view_in w u0 /\ veq (vw_vv u) (vw_vv u0)) /\ quiet l = true /\ same_memberships w w').
  { destruct Hin as (Hin & Hq & Hm). split; [|split; assumption]. split; [exact C1|]. split; [exact J1|]. split; [exact Hcap1|].
    intros u v Hu Hv. destruct (Hin u Hu) as (u0 & Hu0 & E1). destruct (Hin v Hv) as (v0 & Hv0 & E2).
    eapply veq_trans; [exact E1|]. eapply veq_trans; [apply (Hall u0 v0 Hu0 Hv0)|apply veq_sym, E2]. }
  assert (Hsame : forall u, view_in w u -> exists u0, view_in w u0 /\ veq (vw_vv u) (vw_vv u0)) by (intros u Hu; exists u; split; [exact Hu|intros k; reflexivity]).
  destruct s as [c asks|a asks|a|a asks|k choice|k|a|a|a id]; cbn in Htd; try discriminate; cbn [step_world] in H.
  - (* tick *)
    destruct (w_nodes w !! a) as [n|] eqn:Ea; [|discriminate]. destruct (nd_gossip_on n); [|discriminate].
    pose proof (ni_addr _ _ _ _ (ci_nodes _ _ Hc a n Ea)) as Ea1.
    assert (E : w' = upd w (prune_last n) (snd (broadcast n)) /\ l = []).
    { rewrite gossip_tick_eq in H. injection H as <- <-. unfold upd. change (nd_addr (prune_last n)) with (nd_addr n). rewrite Ea1. auto. }
    destruct E as [-> ->]. split; [|split; [reflexivity|eapply same_memberships_upd; [exact Ea|exact Ea1|reflexivity|intros k; reflexivity]]].
    intros u Hu. apply Hsame. apply view_in_upd in Hu as [Hu| ->]; [exact Hu|left; eauto|exact (broadcast_payload n)].
  - (* delivery *)
    destruct (N.of_nat (length (w_net w)) <=? k); [discriminate|].
    destruct (w_net w !! N.to_nat k) as [p|] eqn:Ek; [|discriminate].
    assert (Hp : p ∈ w_net w) by (eapply elem_of_list_lookup_2; exact Ek).
    destruct (w_nodes w !! p_dst p) as [n|] eqn:Ed.
    + match type of H with (if ?b then _ else None) = _ => destruct b end; [|discriminate].
      assert (Hveq : veq (vw_vv (p_view p)) (vw_vv (nd_view n))) by (apply Hall; [right; eexists; eauto|left; eexists _, _; eauto]).
      destruct (handle_gossip_settled G w (p_dst p) n p now choice Hc Hcap Ed Hp Hveq) as (Hq & Hpr & Hvv).
      pose proof (handle_gossip_payload n (p_src p) (p_view p) now choice) as Hpl.
      pose proof (handle_gossip_cfg n (p_src p) (p_view p) now choice) as Hcf.
      destruct (handle_gossip n (p_src p) (p_view p) now choice) as [[n1 out] evs]. injection H as <- <-. cbn [fst snd] in *.
      assert (Ea1 : nd_addr n1 = p_dst p) by (unfold nd_addr; rewrite Hcf; apply (ni_addr _ _ _ _ (ci_nodes _ _ Hc _ n Ed))).
      replace (add_net (put_node (World (w_nodes w) (remove_at k (w_net w))) n1) (stamp (p_dst p) out))
        with (upd (World (w_nodes w) (remove_at k (w_net w))) n1 out) by (unfold upd; rewrite Ea1; reflexivity).
      split; [|split; [rewrite quiet_tag; exact Hq|exact (same_memberships_upd (World (w_nodes w) _) _ n n1 out Ed Ea1 Hpr Hvv)]].
      intros u Hu. apply view_in_upd in Hu as [Hu| ->]; [|exists (nd_view n); split; [left; eauto|exact Hvv]|exact Hpl].
      apply Hsame. apply (view_in_less_net w _ u (elem_of_remove_at k _) Hu).
    + destruct choice; [discriminate|]. injection H as <- <-. split; [|split; [reflexivity|exact (same_memberships_refl w)]].
      intros u Hu. apply Hsame. apply (view_in_less_net w _ u (elem_of_remove_at k _) Hu).
Qed.

Lemma settled_run r : forall G w w' l,
  settled G w -> forallb (fun x => fault_free (snd x)) r = true -> run w r = Some (w', l) ->
  settled G w' /\ quiet l = true /\ same_memberships w w'.
Proof.
  induction r as [|[now s] rest IH]; intros G w w' l Hs Hff H; cbn [run forallb] in H, Hff.
  - injection H as <- <-. split; [exact Hs|]. split; [reflexivity|apply same_memberships_refl].
  - apply andb_true_iff in Hff as [Hff1 Hff]. cbn [snd] in Hff1.
    destruct (step_world w now s) as [[w1 l1]|] eqn:E; [|discriminate].
    destruct (run w1 rest) as [[w2 l2]|] eqn:E2; [|discriminate]. injection H as <- <-.
    destruct Hs as (Hc & Hj & Hrest).
    pose proof (enabled_ff_step G w now s w1 l1 Hc Hj Hff1 E) as Htd.
    destruct (settled_step G w now s w1 l1 (conj Hc (conj Hj Hrest)) Htd E) as (S1 & Q1 & M1).
    destruct (IH G w1 w2 l2 S1 Hff E2) as (S2 & Q2 & M2).
    split; [exact S2|]. split; [rewrite quiet_app, Q1, Q2; reflexivity|eapply same_memberships_trans; eassumption].
Qed.

Lemma settled_rounds rounds : forall G w t d w' logs,
  settled G w -> fair_rounds w t d rounds = Some (w', logs) ->
  settled G w' /\ Forall (fun lg => quiet lg = true) logs /\ same_memberships w w'.
Proof.
  induction rounds as [|r rest IH]; intros G w t d w' logs Hs H; cbn [fair_rounds] in H.
  - injection H as <- <-. split; [exact Hs|]. split; [constructor|apply same_memberships_refl].
  - destruct (fair_round w t r) as [[w1 l1]|] eqn:Er; [|discriminate].
    destruct (fair_rounds w1 (t + d) d rest) as [[w2 ls]|] eqn:E2; [|discriminate]. injection H as <- <-.
    unfold fair_round in Er. destruct (forallb (fun x => fault_free (snd x)) r && clocks_from t r && ticks_everyone w r) eqn:Ef; [|discriminate].
    apply andb_true_iff in Ef as [Ef _]. apply andb_true_iff in Ef as [Ef _].
    destruct (run w r) as [[w1' l1']|] eqn:Erun; [|discriminate]. destruct (w_net w1'); [|discriminate]. injection Er as <- <-.
    destruct (settled_run r G w w1' l1' Hs Ef Erun) as (S1 & Q1 & M1).
    destruct (IH G w1' (t + d)%Z d w2 ls S1 E2) as (S2 & Q2 & M2).
    split; [exact S2|]. split; [constructor; assumption|eapply same_memberships_trans; eassumption].
Qed.

Theorem clean_convergence h w0 l0 t r w1 l1 :
  clean_history h = true -> run empty_world h = Some (w0, l0) ->
  N.of_nat (size (w_nodes w0)) <= max_entries -> steps_ok (length h) ->
  all_joined w0 -> fair_round w0 t r = Some (w1, l1) -> seed_connected w1 ->
  converged w1 /\
  (nodes_of w1 <> [] -> exists n, n ∈ nodes_of w1 /\ iam_leader n = true /\ forall m, m ∈ nodes_of w1 -> iam_leader m = true -> m = n) /\
  forall t' d rounds w2 logs, fair_rounds w1 t' d rounds = Some (w2, logs) ->
    converged w2 /\ Forall (fun lg => quiet lg = true) logs /\ same_memberships w1 w2.
Proof.
  intros Hcl Hrun Hcap Hst Hj Hr Hconn. destruct (clean_history_cinv h w0 l0 Hcl Hrun Hcap Hst) as [G Hc].
  destruct (fair_round_closure G w0 t r w1 l1 Hc Hj Hcap Hr) as (C1 & J1 & Cap1 & N1 & _ & _ & Hclosed).
  pose proof (closed_agree G w1 C1 J1 Hclosed Hconn) as Hag.
  split; [eapply agree_converged; eassumption|]. split; [intros Hne; eapply agree_one_leader; eassumption|].
  intros t' d rounds w2 logs Hrounds.
  destruct (settled_rounds rounds G w1 t' d w2 logs (agree_settled G w1 C1 J1 Cap1 N1 Hag) Hrounds) as (S2 & Q2 & M2).
  split; [|split; assumption]. pose proof (settled_agree G w2 S2) as Hag2. destruct S2 as (C2 & J2 & _).
  eapply agree_converged; eassumption.
Qed.

Theorem clean_suppression_sound h w l a n t m :
  clean_history h = true -> run empty_world h = Some (w, l) ->
  N.of_nat (size (w_nodes w)) <= max_entries -> steps_ok (length h) ->
  w_nodes w !! a = Some n -> w_nodes w !! t = Some m ->
  should_send n (vw_vv (nd_view n)) t = false ->
  vle (vw_vv (nd_view n)) (vw_vv (nd_view m)) /\ ple (proj (nd_view n)) (proj (nd_view m)).
Proof.
  intros Hcl Hrun Hcap Hst Ha Ht Hss. destruct (clean_history_cinv h w l Hcl Hrun Hcap Hst) as [G Hc].
  unfold should_send in Hss. destruct (nd_last n !! t) as [q|] eqn:Eq; [|discriminate].
  destruct (ni_last _ _ _ _ (ci_nodes _ _ Hc a n Ha) t q Eq) as (m' & Hm' & Hle). rewrite Ht in Hm'. injection Hm' as <-.
  assert (L : vle (vw_vv (nd_view n)) (vw_vv (nd_view m))).
  { eapply vle_trans; [|exact Hle]. apply vle_compare. destruct (vcompare (vw_vv (nd_view n)) q); try discriminate; auto. }
  split; [exact L|].
  eapply just_cover_ple; [apply (ni_view _ _ _ _ (ci_nodes _ _ Hc a n Ha))|apply (ni_view _ _ _ _ (ci_nodes _ _ Hc t m Ht))|exact L].
Qed.

(** boolean checkers for the side conditions (used by the Examples of Properties/C18.v) *)
Definition all_joined_b (w : world) : bool := forallb nd_gossip_on (nodes_of w).
Lemma all_joined_b_sound w : all_joined_b w = true -> all_joined w.
Proof. exact (proj1 (forallb_nodes_of nd_gossip_on w)). Qed.

Definition seed_edge_b (w : world) (a b : addr) : bool :=
  match w_nodes w !! a, w_nodes w !! b with
  | Some n, Some _ => bool_decide (b ∈ c_seeds (nd_cfg n)) && negb (bool_decide (b = a))
  | _, _ => false
  end.
Lemma seed_edge_b_sound w a b : seed_edge_b w a b = true -> seed_edge w a b.
Proof.
  unfold seed_edge_b. destruct (w_nodes w !! a) as [n|] eqn:Ea; [|discriminate]. destruct (w_nodes w !! b) as [m|] eqn:Eb; [|discriminate].
  intros H. apply andb_true_iff in H as [H1 H2]. apply bool_decide_eq_true in H1. apply negb_true_iff, bool_decide_eq_false in H2.
  exists n. split; [exact Ea|]. split; [eexists; exact Eb|]. split; assumption.
Qed.

Lemma seed_path_trans w a b c : seed_path w a b -> seed_path w b c -> seed_path w a c.
Proof. intros H1 H2. induction H1; [exact H2|eapply sp_fwd; eauto|eapply sp_bwd; eauto]. Qed.
Lemma seed_path_sym w a b : seed_path w a b -> seed_path w b a.
Proof.
  intros H. induction H as [a|a b c He Hp IH|a b c He Hp IH]; [constructor| |].
  - eapply seed_path_trans; [exact IH|]. eapply sp_bwd; [exact He|constructor].
  - eapply seed_path_trans; [exact IH|]. eapply sp_fwd; [exact He|constructor].
Qed.

(** [a] reaches [c] over at most [k] undirected seed edges *)
Fixpoint seed_reach_b (w : world) (k : nat) (a c : addr) : bool :=
  bool_decide (a = c) ||
  match k with
  | O => false
  | S k' => existsb (fun b => (seed_edge_b w a b || seed_edge_b w b a) && seed_reach_b w k' b c) (running_addrs w)
  end.
Lemma seed_reach_b_sound w k : forall a c, seed_reach_b w k a c = true -> seed_path w a c.
Proof.
  induction k as [|k IH]; intros a c H; cbn [seed_reach_b] in H; apply orb_true_iff in H as [H|H];
    try (apply bool_decide_eq_true in H; subst; constructor); [discriminate|].
  apply existsb_exists in H as (b & _ & Hb). apply andb_true_iff in Hb as [He Hr]. apply orb_true_iff in He as [He|He].
  - eapply sp_fwd; [apply seed_edge_b_sound; exact He|apply IH; exact Hr].
  - eapply sp_bwd; [apply seed_edge_b_sound; exact He|apply IH; exact Hr].
Qed.

Definition seed_connected_b (w : world) : bool :=
  match running_addrs w with
  | [] => true
  | hub :: _ => forallb (fun a => seed_reach_b w (length (running_addrs w)) a hub) (running_addrs w)
  end.
Lemma running_addrs_elem w a : a ∈ running_addrs w <-> is_Some (w_nodes w !! a).
Proof.
  unfold running_addrs. rewrite isort_elem, elem_of_list_In, in_map_iff. split.
  - intros ([a' n] & <- & Hin). apply elem_of_list_In, elem_of_map_to_list in Hin. eexists; exact Hin.
  - intros [n Hn]. exists (a, n). split; [reflexivity|]. apply elem_of_list_In, elem_of_map_to_list. exact Hn.
Qed.
Lemma seed_connected_b_sound w : seed_connected_b w = true -> seed_connected w.
Proof.
  unfold seed_connected_b. intros H a b Ha Hb. apply running_addrs_elem in Ha, Hb.
  destruct (running_addrs w) as [|hub rest] eqn:E; [inversion Ha|].
  rewrite forallb_forall in H.
  eapply seed_path_trans; [eapply seed_reach_b_sound, H, elem_of_list_In; exact Ha|].
  apply seed_path_sym. eapply seed_reach_b_sound, H, elem_of_list_In; exact Hb.
Qed.

Lemma seed_edge_b_complete w a b : seed_edge w a b -> seed_edge_b w a b = true.
Proof.
  intros (n & Hn & [m Hm] & Hs & Hne). unfold seed_edge_b. rewrite Hn, Hm.
  rewrite bool_decide_eq_true_2 by exact Hs. rewrite bool_decide_eq_false_2 by exact Hne. reflexivity.
Qed.

Definition no_seed_edges_b (w : world) : bool :=
  forallb (fun a => forallb (fun b => negb (seed_edge_b w a b)) (running_addrs w)) (running_addrs w).

Lemma no_seed_edges_apart w a b :
  no_seed_edges_b w = true -> is_Some (w_nodes w !! a) -> is_Some (w_nodes w !! b) -> a <> b -> ~ seed_connected w.
Proof.
  intros Hno Ha Hb Hne Hc.
  assert (Hedge : forall x y, ~ seed_edge w x y).
  { intros x y He. pose proof (seed_edge_b_complete w x y He) as Hb'. destruct He as (n & Hn & Hy & _).
    unfold no_seed_edges_b in Hno. rewrite forallb_forall in Hno.
    assert (Hx : In x (running_addrs w)) by (apply elem_of_list_In, running_addrs_elem; eexists; exact Hn).
    specialize (Hno x Hx). rewrite forallb_forall in Hno.
    assert (Hy' : In y (running_addrs w)) by (apply elem_of_list_In, running_addrs_elem; exact Hy).
    specialize (Hno y Hy'). rewrite Hb' in Hno. discriminate. }
  pose proof (Hc a b Ha Hb) as Hp. clear - Hp Hedge Hne.
  induction Hp as [x|x y z He _ _|x y z He _ _]; [congruence|exfalso; eapply Hedge; exact He|exfalso; eapply Hedge; exact He].
Qed.

Lemma seed_connected_fwd w w' :
  wext w w' ->
  (forall a n', w_nodes w' !! a = Some n' -> exists n, w_nodes w !! a = Some n /\ nd_cfg n' = nd_cfg n) ->
  seed_connected w -> seed_connected w'.
Proof.
  intros Hx Hk Hc.
  assert (He : forall a b, seed_edge w a b -> seed_edge w' a b).
  { intros a b (n & Hn & [m Hm] & Hs & Hne). destruct (Hx _ _ Hn) as (n' & Hn' & _). destruct (Hx _ _ Hm) as (m' & Hm' & _).
    destruct (Hk a n' Hn') as (n0 & Hn0 & Ec). rewrite Hn in Hn0. injection Hn0 as <-.
    exists n'. split; [exact Hn'|]. split; [eexists; exact Hm'|]. split; [rewrite Ec; exact Hs|exact Hne]. }
  intros a b [n' Ha] [m' Hb]. destruct (Hk a n' Ha) as (n & Hn & _). destruct (Hk b m' Hb) as (m & Hm & _).
  assert (Hp : seed_path w a b) by (apply Hc; eexists; eassumption).
  clear - Hp He. induction Hp; [constructor|eapply sp_fwd; eauto|eapply sp_bwd; eauto].
Qed.

(** the property as [C18_unconditional] states it, on the clean histories: two fair rounds suffice *)
Theorem clean_unconditional d faults t rounds w1 l1 w2 logs :
  clean_history faults = true -> run empty_world faults = Some (w1, l1) ->
  N.of_nat (size (w_nodes w1)) <= max_entries -> steps_ok (length faults) ->
  all_joined w1 -> seed_connected w1 ->
  fair_rounds w1 t d rounds = Some (w2, logs) -> (2 <= length rounds)%nat ->
  converged w2 /\ (forall lg, last logs = Some lg -> quiet lg = true).
Proof.
  intros Hcl Hrun Hcap Hst Hj Hconn Hr Hlen.
  destruct rounds as [|r rest]; [cbn in Hlen; lia|]. cbn [fair_rounds] in Hr.
  destruct (fair_round w1 t r) as [[wa la]|] eqn:Er; [|discriminate].
  destruct (fair_rounds wa (t + d) d rest) as [[wb ls]|] eqn:E2; [|discriminate]. injection Hr as <- <-.
  assert (Hconn' : seed_connected wa).
  { destruct (clean_history_cinv faults w1 l1 Hcl Hrun Hcap Hst) as [G Hc].
    destruct (fair_round_closure G w1 t r wa la Hc Hj Hcap Er) as (_ & _ & _ & _ & X & K & _).
    eapply seed_connected_fwd; eassumption. }
  destruct (clean_convergence faults w1 l1 t r wa la Hcl Hrun Hcap Hst Hj Er Hconn') as (_ & _ & Hfut).
  destruct (Hfut (t + d)%Z d rest wb ls E2) as (Hcv & Hq & _).
  split; [exact Hcv|]. intros lg Hlast.
  destruct rest as [|r2 rest']; [cbn in Hlen; lia|].
  cbn [fair_rounds] in E2. destruct (fair_round wa (t + d) r2) as [[wc lc]|]; [|discriminate].
  destruct (fair_rounds wc (t + d + d) d rest') as [[wd ls']|]; [|discriminate]. injection E2 as _ <-.
  rewrite last_cons_cons in Hlast. rewrite Forall_forall in Hq. apply Hq.
  apply last_Some_elem_of in Hlast. exact Hlast.
Qed.
