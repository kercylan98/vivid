(** The handlers of the NodeActor on a node of a clean world: what each leaves behind ([npre]). *)
From stdpp Require Import gmap.
From Vivid Require Import Cluster.VV Cluster.VVProofs Cluster.View Cluster.ViewProofs Cluster.Gossip
  Cluster.GossipProofs Cluster.GossipCleanOps Cluster.GossipCleanInv Cluster.GossipCleanStep
  Cluster.GossipCleanWorld.
Local Open Scope N_scope.

Lemma npre_self G w a n : cinv G w -> w_nodes w !! a = Some n -> npre G w n n.
Proof.
  intros Hc Ha. destruct (ci_nodes _ _ Hc a n Ha) as [N1 N2 N3 N4 N5 N6 N7 N8 N9 N10 N11 N12]. split; try assumption; try reflexivity.
  - rewrite N5, N1. reflexivity.
  - apply vinv_vinv0. exact N9.
  - apply vown_vown'. apply N9.
  - apply vle_refl.
  - intros k. eapply (ci_cnt _ _ Hc); exact Ha.
Qed.

Lemma npre_ext G w n n1 n2 :
  npre G w n n1 ->
  nd_cfg n2 = nd_cfg n1 -> nd_self n2 = nd_self n1 -> nd_view n2 = nd_view n1 -> nd_fd_on n2 = nd_fd_on n1 ->
  nd_gossip_on n2 = nd_gossip_on n1 -> nd_retry_on n2 = nd_retry_on n1 ->
  (forall t q, nd_last n2 !! t = Some q -> nd_last n1 !! t = Some q) ->
  npre G w n n2.
Proof.
  intros [P1 P2 P3 P4 P5 P6 P7 P8 P9 P10 P11] E1 E2 E3 E4 E5 E6 E7.
  split; rewrite ?E1, ?E2, ?E3, ?E4, ?E5, ?E6; try assumption.
  intros t q Hq. apply P9. apply E7. exact Hq.
Qed.

Lemma npre_finish G w n n1 : npre G w n n1 -> npre G w n (fst (fst (finish n1))).
Proof. intros Hp. eapply npre_ext; [exact Hp|reflexivity..|]. intros t q Hq. exact (prune_last_sub _ t q Hq). Qed.

Lemma gossip_tick_npre G w a n : cinv G w -> w_nodes w !! a = Some n -> npre G w n (prune_last n).
Proof.
  intros Hc Ha. eapply npre_ext; [eapply npre_self; eassumption|reflexivity..|]. apply prune_last_sub.
Qed.

Lemma tick_cinv G w a n :
  cinv G w -> w_nodes w !! a = Some n ->
  cinv G (upd w (prune_last n) (snd (broadcast n))) /\ wext w (upd w (prune_last n) (snd (broadcast n))) /\
  nd_addr (prune_last n) = a.
Proof.
  intros Hc Ha. apply (cinv_upd G G w a n _ _ Hc Ha (gossip_tick_npre G w a n Hc Ha)); auto.
  - exact (ni_pub _ _ _ _ (ci_nodes _ _ Hc a n Ha)).
  - exact (broadcast_payload n).
Qed.

Lemma handle_gossip_fields n src v now choice :
  let n' := fst (fst (handle_gossip n src v now choice)) in
  nd_self n' = nd_self n /\ nd_gossip_on n' = nd_gossip_on n /\ nd_fd_on n' = nd_fd_on n /\ nd_retry_on n' = nd_retry_on n /\
  forall t q, nd_last n' !! t = Some q -> nd_last n !! t = Some q \/ (t = src /\ q = vw_vv v).
Proof.
  cbn zeta. rewrite handle_gossip_eq. cbv zeta.
  assert (HL : forall t q, nd_last (if nonempty src then set_last n (<[src := vw_vv v]> (nd_last n)) else n) !! t = Some q ->
                           nd_last n !! t = Some q \/ (t = src /\ q = vw_vv v)).
  { destruct (nonempty src); [|auto]. intros t q Hq. cbn [nd_last set_last] in Hq. apply lookup_insert_Some in Hq as [[<- <-]|[_ Hq]]; auto. }
  destruct (snd (view_merge _ _ _ _ _)); (repeat split; [destruct (nonempty src); reflexivity..|]); intros t q Hq.
  - apply prune_last_sub in Hq. exact (HL t q Hq).
  - exact (HL t q Hq).
Qed.

Lemma gossip_pre_vv n src now choice : vw_vv (gossip_pre n src now choice) = vw_vv (nd_view n).
Proof. unfold gossip_pre. destruct choice; [destruct (nonempty src)|]; try reflexivity. Qed.

Lemma gossip_pre_vinv0 G w n src now choice : vinv0 G w (nd_view n) -> vinv0 G w (gossip_pre n src now choice).
Proof. intros H. unfold gossip_pre. destruct choice; [destruct (nonempty src)|]; try exact H. apply vinv0_refresh. exact H. Qed.

Lemma gossip_pre_keys n src now choice k :
  is_Some (vw_members (nd_view n) !! k) -> is_Some (vw_members (gossip_pre n src now choice) !! k).
Proof.
  intros H. unfold gossip_pre. destruct choice; [destruct (nonempty src)|]; try exact H.
  destruct (nd_view n); cbn in *. apply lookup_alter_is_Some. exact H.
Qed.

Lemma handle_gossip_npre G w a n p now choice :
  cinv G w -> nodes_cap w -> w_nodes w !! a = Some n -> p ∈ w_net w ->
  let r := handle_gossip n (p_src p) (p_view p) now choice in
  npre G w n (fst (fst r)) /\ (forall d v, (d, v) ∈ snd (fst r) -> v = nd_view (fst (fst r))).
Proof.
  intros Hc Hcap Ha Hp. cbn zeta.
  destruct (ci_nodes _ _ Hc a n Ha) as [N1 N2 N3 N4 N5 N6 N7 N8 N9 N10 N11 N12].
  destruct (ci_net _ _ Hc p Hp) as (Pv & m & Hm & Pl).
  destruct (handle_gossip_fields n (p_src p) (p_view p) now choice) as (F1 & F2 & F3 & F4 & F5).
  pose proof (ci_uniq _ _ Hc) as Hu.
  assert (V0 : vinv0 G w (gossip_pre n (p_src p) now choice)) by (apply gossip_pre_vinv0, vinv_vinv0; exact N9).
  assert (P0 : vinv0 G w (p_view p)) by (apply vinv_vinv0; exact Pv).
  split; [|intros d v H; eapply handle_gossip_payload; exact H].
  split.
  - apply handle_gossip_cfg.
  - rewrite F1. exact N3.
  - rewrite F1. exact N4.
  - rewrite F1, N5, N1. reflexivity.
  - rewrite F3. exact N8.
  - rewrite handle_gossip_view. apply vinv0_merge; assumption.
  - rewrite handle_gossip_view. eapply vown'_merge; try eassumption.
    + intros k Hk. rewrite gossip_pre_vv in Hk |- *. right. apply N9. exact Hk.
    + apply vown_vown'. apply Pv.
  - rewrite handle_gossip_view. intros k. rewrite (vinv0_merge_vget G w) by assumption. rewrite gossip_pre_vv. lia.
  - intros t q Hq. destruct (F5 t q Hq) as [Ho|[-> ->]]; [apply N10; exact Ho|]. exists m. split; [exact Hm|exact Pl].
  - rewrite F2, F4. intros Hg. destruct (N11 Hg) as [R1 R2]. split; [exact R1|].
    rewrite handle_gossip_view. destruct (gossip_pre_keys n (p_src p) now choice _ R2) as [s Hs].
    destruct (merge_lookup_ge_l _ (p_view p) now _ _ (v0_wf _ _ _ V0) (v0_wf _ _ _ P0) Hs) as (s' & Hs' & _). eexists; exact Hs'.
  - intros k. rewrite handle_gossip_view, (vinv0_merge_vget G w) by assumption. rewrite gossip_pre_vv.
    pose proof (ci_cnt _ _ Hc a n k Ha). pose proof (ci_cnt _ _ Hc _ m k Hm). specialize (Pl k). lia.
Qed.

Lemma truthful_insert w v s :
  truthful w v -> ns_status s = st_up -> (exists m, w_nodes w !! ns_addr s = Some m /\ nd_id m = ns_id s) ->
  truthful w (set_members v (<[ns_id s := s]> (vw_members v))).
Proof.
  intros Ht Hu Hm k x Hk. destruct v; cbn in *. destruct (decide (k = ns_id s)) as [->|Hne].
  - rewrite lookup_insert in Hk. injection Hk as <-. split; [exact Hu|exact Hm].
  - rewrite lookup_insert_ne in Hk by congruence. apply (Ht k x Hk).
Qed.

Lemma truthful_add w v s :
  truthful w v -> ns_status s = st_up -> (exists m, w_nodes w !! ns_addr s = Some m /\ nd_id m = ns_id s) ->
  truthful w (view_add v s).
Proof.
  intros Ht Hu Hm k x Hk. apply view_add_lookup_cases in Hk as [Hk|[-> ->]]; [apply (Ht k x Hk)|split; assumption].
Qed.

Lemma vinv0_add G w v s i :
  ids_uniq w -> nodes_cap w -> vinv0 G w v ->
  wf_state s -> ns_status s = st_up -> (exists m, w_nodes w !! ns_addr s = Some m /\ nd_id m = ns_id s) ->
  (forall e0, e0 ∈ G -> g_i e0 = i -> g_c e0 <= vget (vw_vv v) i) ->
  vw_vv (view_add v s) = vw_vv v /\ vinv0 (G ++ [GEnt i (vget (vw_vv v) i) (ns_id s) (inc_of s)]) w (view_add v s).
Proof.
  intros Hu Hcap [Wv Iv Tv Jv Cv Ev Pv Mv CCv] Hs Hup Hm Hwin.
  assert (Hcapi : capN (<[ns_id s := s]> (vw_members v))).
  { pose proof (truthful_capN w _ (truthful_insert w v s Tv Hup Hm) Hu Hcap) as H. destruct v; exact H. }
  assert (E : vw_vv (view_add v s) = vw_vv v) by (apply view_add_vv; assumption).
  destruct (view_add_fields v s) as (F1 & _ & F3 & F4).
  destruct (local_just_cover G v (view_add v s) s i (vget (vw_vv v) i) Wv Hs Jv Cv eq_refl) as [J C].
  - intros k _. rewrite E. reflexivity.
  - rewrite E. lia.
  - rewrite E. reflexivity.
  - exact Hwin.
  - split; [exact E|]. split; try congruence; try assumption.
    + apply WF_add; assumption.
    + apply VVin_add; exact Iv.
    + apply truthful_add; assumption.
    + apply view_add_CC; [exact CCv|eapply truthful_all_up; exact Tv|exact Hup].
Qed.

Lemma own_entries_le G w a n e :
  cinv G w -> w_nodes w !! a = Some n -> e ∈ G -> g_i e = nd_id n -> g_c e <= vget (vw_vv (nd_view n)) (nd_id n).
Proof.
  intros Hc Ha He Ei. destruct (ci_log _ _ Hc e He) as (_ & b & m & Hb & Hidm & Hle).
  assert (b = a) by (eapply (ci_uniq _ _ Hc); [exact Hb|exact Ha|rewrite Hidm, Ei; reflexivity]). subst b.
  rewrite Ha in Hb. injection Hb as <-. rewrite Ei in Hle. exact Hle.
Qed.

Lemma local_add G w a n s :
  cinv G w -> nodes_cap w -> N.of_nat (length G) < max_counter -> w_nodes w !! a = Some n ->
  wf_state s -> ns_status s = st_up -> (exists m, w_nodes w !! ns_addr s = Some m /\ nd_id m = ns_id s) ->
  is_Some (vw_members (view_add (nd_view n) s) !! nd_id n) ->
  let v2 := view_inc (view_add (nd_view n) s) (nd_id n) in
  let c := vget (vw_vv (nd_view n)) (nd_id n) + 1 in
  let G' := G ++ [GEnt (nd_id n) c (ns_id s) (inc_of s)] in
  vinv0 G' w v2 /\ vown' w (nd_id n) v2 /\ vget (vw_vv v2) (nd_id n) = c /\
  (forall k, k <> nd_id n -> vget (vw_vv v2) k = vget (vw_vv (nd_view n)) k) /\
  vw_members v2 = vw_members (view_add (nd_view n) s).
Proof.
  intros Hc Hcap Hlen Ha Hs Hu Hm Hself. cbn zeta.
  destruct (ci_nodes _ _ Hc a n Ha) as [N1 N2 N3 N4 N5 N6 N7 N8 N9 N10 N11 N12].
  set (v := nd_view n) in *. set (id := nd_id n) in *. set (va := view_add v s).
  pose proof (fun e0 => own_entries_le G w a n e0 Hc Ha) as Hwin.
  destruct (vinv0_add G w v s id (ci_uniq _ _ Hc) Hcap (vinv_vinv0 _ _ _ N9) Hs Hu Hm Hwin) as [Eva [Wa Ia Ta _ _ Ea Pa Ma CCa]].
  fold va in Eva, Wa, Ia, Ta, Ea, Pa, Ma, CCa.
  assert (Hcnt : vget (vw_vv va) id < max_counter).
  { rewrite Eva. pose proof (ci_cnt _ _ Hc a n id Ha). fold v in H. lia. }
  destruct (view_inc_spec va id N7 Hcnt) as (I1 & I2 & I3 & I4 & I5 & I6 & _).
  assert (Hid : vget (vw_vv (view_inc va id)) id = vget (vw_vv v) id + 1).
  { rewrite I1, vget_insert, decide_True by reflexivity. rewrite Eva. reflexivity. }
  assert (Hoth : forall k, k <> id -> vget (vw_vv (view_inc va id)) k = vget (vw_vv v) k).
  { intros k Hk. rewrite I1, vget_insert, decide_False by exact Hk. rewrite Eva. reflexivity. }
  destruct (local_just_cover G v (view_inc va id) s id (vget (vw_vv v) id + 1) (vi_wf _ _ _ N9) Hs (vi_just _ _ _ N9) (vi_cover _ _ _ N9) I2 Hoth)
    as [Jn Cn]; [rewrite Hid; lia|symmetry; exact Hid|exact Hwin|].
  split; [|split; [|split; [exact Hid|split; [exact Hoth|exact I2]]]].
  - split; try congruence; try assumption.
    + apply WF_inc; exact Wa.
    + apply VVin_inc; [exact Ia|exact Hself].
    + intros k x Hk. rewrite I2 in Hk. apply (Ta k x Hk).
    + apply view_inc_CC; exact CCa.
  - intros k Hpos. destruct (decide (k = id)) as [->|Hne]; [left; reflexivity|right].
    rewrite Hoth in Hpos |- * by exact Hne. apply (vi_own _ _ _ N9). exact Hpos.
Qed.

(** the conditions on the new log entries that [cinv_upd] asks for *)
Definition log_grows (G G' : glog) (n n' : node) : Prop :=
  (forall e, e ∈ G -> e ∈ G') /\ (length G <= length G')%nat /\
  forall e, e ∈ G' -> e ∈ G \/
    (g_i e = nd_id n /\ vget (vw_vv (nd_view n)) (nd_id n) < g_c e /\ g_c e <= vget (vw_vv (nd_view n')) (nd_id n)).

Lemma log_grows_refl G n n' : log_grows G G n n'.
Proof. split; [auto|]. split; [lia|]. intros e H. left. exact H. Qed.

Lemma log_grows_view G G' n n1 n2 : log_grows G G' n n1 -> nd_view n2 = nd_view n1 -> log_grows G G' n n2.
Proof. intros (H1 & H2 & H3) E. split; [exact H1|]. split; [exact H2|]. rewrite E. exact H3. Qed.

Lemma publish_pub n : pub_ok (fst (publish_leader n)).
Proof.
  unfold publish_leader, pub_ok. cbn [fst nd_leader nd_inq nd_view set_pub]. split; [|reflexivity].
  destruct (negb (bool_decide (leader_of (nd_view n) = nd_leader n)) || negb (eqb (sat_quorum (nd_view n)) (nd_inq n))) eqn:E; [reflexivity|].
  apply orb_false_iff in E as [E _]. apply negb_false_iff, bool_decide_eq_true in E. symmetry. exact E.
Qed.

(** publish_leader; broadcast; (start the loops): the world after the handler *)
Lemma finish_cinv G G' w a n n1 (loops : bool) :
  cinv G w -> w_nodes w !! a = Some n -> npre G' w n n1 -> log_grows G G' n n1 ->
  (loops = true -> is_Some (vw_members (nd_view n1) !! nd_id n)) ->
  let nf := if loops then start_loops (fst (fst (finish n1))) else fst (fst (finish n1)) in
  cinv G' (upd w nf (snd (fst (finish n1)))) /\ nd_addr nf = a.
Proof.
  intros Hc Ha Hp (L1 & L2 & L3) Hloops. cbn zeta.
  pose proof (npre_finish G' w n n1 Hp) as Hp3.
  assert (Hpf : npre G' w n (if loops then start_loops (fst (fst (finish n1))) else fst (fst (finish n1)))).
  { destruct loops; [|exact Hp3]. destruct Hp3 as [P1 P2 P3 P4 P5 P6 P7 P8 P9 P10 P11]. split; try assumption.
    - cbn [nd_fd_on start_loops set_timers nd_cfg]. change (nd_cfg (fst (fst (finish n1)))) with (nd_cfg n1). rewrite (np_cfg _ _ _ _ Hp).
      pose proof (ni_fd _ _ _ _ (ci_nodes _ _ Hc a n Ha)). lia.
    - intros _. split; [reflexivity|apply Hloops; reflexivity]. }
  destruct (cinv_upd G G' w a n _ (snd (fst (finish n1))) Hc Ha Hpf) as (R1 & _ & R3); try assumption.
  - destruct loops; exact (publish_pub n1).
  - destruct loops; exact L3.
  - intros d v Hd. rewrite (finish_payload _ _ _ Hd). destruct loops; reflexivity.
  - split; assumption.
Qed.

Lemma npre_local G G' w a n self' v2 :
  cinv G w -> w_nodes w !! a = Some n ->
  wf_state self' -> ns_id self' = nd_id n -> ns_addr self' = a ->
  vinv0 G' w v2 -> vown' w (nd_id n) v2 -> vle (vw_vv (nd_view n)) (vw_vv v2) ->
  (nd_gossip_on n = true -> is_Some (vw_members v2 !! nd_id n)) ->
  (forall k, vget (vw_vv v2) k <= N.of_nat (length G')) ->
  npre G' w n (set_view (set_self n self') v2).
Proof.
  intros Hc Ha Hw Hi Had Hv Ho Hle Hj Hcnt.
  destruct (ci_nodes _ _ Hc a n Ha) as [N1 N2 N3 N4 N5 N6 N7 N8 N9 N10 N11 N12].
  split; cbn; try assumption; try reflexivity.
  - rewrite Had, N1. reflexivity.
  - intros Hg. destruct (N11 Hg) as [R1 _]. split; [exact R1|apply Hj; exact Hg].
Qed.

Lemma elem_up_addrs v ad :
  ad ∈ up_addrs v <-> exists k s, vw_members v !! k = Some s /\ ns_status s = st_up /\ ns_addr s <> [] /\ ns_addr s = ad.
Proof.
  unfold up_addrs, states. rewrite elem_of_list_In, in_map_iff. split.
  - intros (s & <- & Hin). apply filter_In in Hin as [Hin Hup]. apply elem_of_list_In, elem_of_list_fmap in Hin as ([k s'] & -> & Hk).
    apply elem_of_map_to_list in Hk. unfold is_up_addr in Hup. apply andb_true_iff in Hup as [H1 H2].
    apply negb_true_iff, bool_decide_eq_false in H2. apply Z.eqb_eq in H1. exists k, s'. cbn [snd]. repeat split; auto.
  - intros (k & s & Hk & Hu & Hne & <-). exists s. split; [reflexivity|]. apply filter_In. split.
    + apply elem_of_list_In, elem_of_list_fmap. exists (k, s). split; [reflexivity|]. apply elem_of_map_to_list. exact Hk.
    + unfold is_up_addr. rewrite Hu. cbn. apply negb_true_iff, bool_decide_eq_false. exact Hne.
Qed.

Lemma gossip_pre_up_addrs n src now choice :
  all_up (vw_members (nd_view n)) -> forall ad, ad ∈ up_addrs (gossip_pre n src now choice) <-> ad ∈ up_addrs (nd_view n).
Proof.
  intros Hu ad. unfold gossip_pre. destruct choice as [id|]; [destruct (nonempty src)|]; try reflexivity.
  rewrite !elem_up_addrs. destruct (nd_view n) as [ep ts ms h u q vx pr mx]; cbn [vw_members set_members] in *. split.
  - intros (k & s & Hk & H1 & H2 & H3). rewrite refresh_lookup in Hk. destruct (decide (k = id)) as [->|Hne]; [|exists k, s; auto].
    destruct (ms !! id) as [s0|] eqn:E; [|discriminate]. cbn in Hk. injection Hk as <-. exists id, s0. cbn in H2, H3. repeat split; auto. apply (Hu id s0 E).
  - intros (k & s & Hk & H1 & H2 & H3). destruct (decide (k = id)) as [->|Hne].
    + exists id, (ns_refresh s now). rewrite refresh_lookup, decide_True by reflexivity. rewrite Hk. cbn. repeat split; auto. rewrite H1. reflexivity.
    + exists k, s. rewrite refresh_lookup, decide_False by exact Hne. auto.
Qed.

Lemma gossip_pre_size n src now choice : size (vw_members (gossip_pre n src now choice)) = size (vw_members (nd_view n)).
Proof.
  unfold gossip_pre. destruct choice as [id|]; [destruct (nonempty src)|]; try reflexivity.
  destruct (nd_view n); cbn. rewrite <- !size_dom, dom_alter_L. reflexivity.
Qed.

Lemma same_members_pub G w n src now choice v' :
  vinv G w (nd_view n) -> CC v' -> vw_members v' = vw_members (gossip_pre n src now choice) ->
  leader_of v' = leader_of (nd_view n) /\ sat_quorum v' = sat_quorum (nd_view n).
Proof.
  intros Hv Hcc Hm. split.
  - apply same_up_same_leader. intros ad.
    rewrite <- (gossip_pre_up_addrs n src now choice) by (eapply truthful_all_up; apply Hv). rewrite !elem_up_addrs, Hm. reflexivity.
  - rewrite (CC_sat_quorum _ (vi_cc _ _ _ Hv)), (CC_sat_quorum _ Hcc), Hm, gossip_pre_size. reflexivity.
Qed.

Lemma handle_gossip_pub G w a n p now choice :
  cinv G w -> nodes_cap w -> w_nodes w !! a = Some n -> p ∈ w_net w ->
  pub_ok (fst (fst (handle_gossip n (p_src p) (p_view p) now choice))).
Proof.
  intros Hc Hcap Ha Hp.
  destruct (handle_gossip_npre G w a n p now choice Hc Hcap Ha Hp) as [Hpre _].
  pose proof (v0_cc _ _ _ (np_view _ _ _ _ Hpre)) as Hcc. rewrite handle_gossip_view in Hcc.
  pose proof (ci_nodes _ _ Hc a n Ha) as Hn. destruct (ni_pub _ _ _ _ Hn) as [P1 P2].
  rewrite handle_gossip_eq. cbv zeta. destruct (snd (view_merge _ _ _ _ _)) eqn:Ech; [exact (publish_pub _)|].
  destruct (merge_unchanged _ _ _ _ _ Ech) as [Hm _].
  destruct (same_members_pub G w n _ now choice _ (ni_view _ _ _ _ Hn) Hcc Hm) as [HL HQ].
  unfold pub_ok. destruct (nonempty (p_src p)); cbn [fst nd_leader nd_inq nd_view set_view set_last]; rewrite P1, P2, HL, HQ; split; reflexivity.
Qed.

(** the world after a delivery (the delivered GossipMessage and possibly others are no longer in flight) *)
Lemma deliver_cinv G w p n net' now choice :
  cinv G w -> nodes_cap w -> p ∈ w_net w -> (forall q, q ∈ net' -> q ∈ w_net w) -> w_nodes w !! p_dst p = Some n ->
  let r := handle_gossip n (p_src p) (p_view p) now choice in
  let w1 := World (w_nodes w) net' in
  cinv G (upd w1 (fst (fst r)) (snd (fst r))) /\ wext w (upd w1 (fst (fst r)) (snd (fst r))) /\ nd_addr (fst (fst r)) = p_dst p.
Proof.
  intros Hc Hcap Hp Hsub Hd. cbn zeta.
  destruct (handle_gossip_npre G w (p_dst p) n p now choice Hc Hcap Hd Hp) as [Hpre Hout].
  assert (Hpre1 : npre G (World (w_nodes w) net') n (fst (fst (handle_gossip n (p_src p) (p_view p) now choice)))).
  { destruct Hpre as [P1 P2 P3 P4 P5 [Q1 Q2 Q3 Q4 Q5 Q6 Q7 Q8 Q9] P7 P8 P9 P10 P11]. split; try assumption. split; assumption. }
  destruct (cinv_upd G G (World (w_nodes w) net') (p_dst p) n _ (snd (fst (handle_gossip n (p_src p) (p_view p) now choice)))
              (cinv_less_net G w net' Hc Hsub) Hd Hpre1
              (handle_gossip_pub G w (p_dst p) n p now choice Hc Hcap Hd Hp)) as (R1 & R2 & R3); [auto..|].
  (* [wext] only looks at the nodes, and those of the world without the delivered message are those of [w] *)
  split; [exact R1|split; [exact R2|exact R3]].
Qed.
