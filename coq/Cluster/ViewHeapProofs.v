(** Proofs about the pointer-level model (Cluster/ViewHeap.v). *)
From stdpp Require Import gmap.
From Vivid Require Import Cluster.View Cluster.ViewFull Cluster.ViewFullProofs Cluster.ViewHeap.
Local Open Scope N_scope.

Lemma hext_refl h : hext h h.
Proof. split; [reflexivity|lia]. Qed.
Lemma hext_trans h1 h2 h3 : hext h1 h2 -> hext h2 h3 -> hext h1 h3.
Proof. intros [A1 B1] [A2 B2]. split; [etransitivity; eassumption|lia]. Qed.

Lemma hext_state h h' l s : hext h h' -> h_state h l = Some s -> h_state h' l = Some s.
Proof.
  intros [He _]. unfold h_state. destruct (h_cells h !! l) as [[x|m]|] eqn:E; try discriminate.
  intros [= ->]. rewrite (lookup_weaken _ _ _ _ E He). reflexivity.
Qed.
Lemma hext_map h h' l m : hext h h' -> h_map h l = Some m -> h_map h' l = Some m.
Proof.
  intros [He _]. unfold h_map. destruct (h_cells h !! l) as [[x|m']|] eqn:E; try discriminate.
  intros [= ->]. rewrite (lookup_weaken _ _ _ _ E He). reflexivity.
Qed.

Lemma state_below h l s : hwf h -> h_state h l = Some s -> l < h_next h.
Proof. intros Hw. unfold h_state. destruct (h_cells h !! l) as [c|] eqn:E; [|discriminate]. intros _. eapply Hw; exact E. Qed.
Lemma map_below h l : hwf h -> is_Some (h_map h l) -> l < h_next h.
Proof. intros Hw [m Hm]. unfold h_map in Hm. destruct (h_cells h !! l) as [c|] eqn:E; [|discriminate]. eapply Hw; exact E. Qed.

Lemma alloc_spec h c :
  hwf h ->
  hext h (fst (h_alloc h c)) /\ hwf (fst (h_alloc h c)) /\
  h_cells (fst (h_alloc h c)) !! h_next h = Some c /\ h_next (fst (h_alloc h c)) = h_next h + 1.
Proof.
  intros Hw.
  assert (Hn : h_cells h !! h_next h = None).
  { destruct (h_cells h !! h_next h) as [x|] eqn:E; [|reflexivity]. specialize (Hw _ _ E). lia. }
  unfold h_alloc. cbn [fst h_cells h_next]. split; [|split; [|split]].
  - split; cbn [h_cells h_next]; [apply insert_subseteq; exact Hn|lia].
  - intros l x Hl. cbn [h_cells h_next] in *. destruct (decide (l = h_next h)) as [->|Hne]; [lia|].
    rewrite lookup_insert_ne in Hl by congruence. specialize (Hw _ _ Hl). lia.
  - apply lookup_insert.
  - reflexivity.
Qed.

Lemma hwf_empty : hwf h_empty.
Proof. intros l c H. cbn in H. rewrite lookup_empty in H. discriminate. Qed.
Lemma hwf_alloc h c : hwf h -> hwf (fst (h_alloc h c)).
Proof. intros Hw. apply alloc_spec, Hw. Qed.

Lemma sclosed_ext h h' s : hext h h' -> sclosed h s -> sclosed h' s.
Proof. intros He Hc l Hl. destruct (Hc l Hl) as [m Hm]. exists m. eapply hext_map; eassumption. Qed.

Lemma abs_map_ext h h' r :
  hext h h' -> (forall l, r = Some l -> is_Some (h_map h l)) -> abs_map h' r = abs_map h r.
Proof.
  intros He Hc. destruct r as [l|]; [|reflexivity]. cbn. destruct (Hc l eq_refl) as [m Hm].
  rewrite Hm, (hext_map _ _ _ _ He Hm). reflexivity.
Qed.

Lemma abs_state_ext h h' s : hext h h' -> sclosed h s -> abs_state h' s = abs_state h s.
Proof.
  intros He Hc. unfold abs_state.
  rewrite (abs_map_ext h h' (hs_meta s) He), (abs_map_ext h h' (hs_labels s) He); [reflexivity| |].
  - intros l Hl. apply Hc. right. exact Hl.
  - intros l Hl. apply Hc. left. exact Hl.
Qed.

Definition eclosed (h : heap) (e : option loc) : Prop :=
  forall l, e = Some l -> exists s, h_state h l = Some s /\ sclosed h s.

Lemma abs_entry_ext h h' e : hext h h' -> eclosed h e -> abs_entry h' e = abs_entry h e.
Proof.
  intros He Hc. destruct e as [l|]; [|reflexivity]. cbn. destruct (Hc l eq_refl) as (s & Hs & Hcl).
  rewrite Hs, (hext_state _ _ _ _ He Hs). cbn. rewrite (abs_state_ext _ _ _ He Hcl). reflexivity.
Qed.

Lemma eclosed_ext h h' e : hext h h' -> eclosed h e -> eclosed h' e.
Proof.
  intros He Hc l Hl. destruct (Hc l Hl) as (s & Hs & Hcl). exists s. split; [eapply hext_state; eassumption|eapply sclosed_ext; eassumption].
Qed.

Definition mclosed (h : heap) (m : hmembers) : Prop := forall k e, m !! k = Some e -> eclosed h e.

Lemma vclosed_mclosed h v : vclosed h v <-> mclosed h (hv_map v).
Proof.
  split.
  - intros H k e Hk l ->. apply (H k l Hk).
  - intros H k l Hk. apply (H k (Some l) Hk l eq_refl).
Qed.

Lemma abs_members_lookup (h : heap) (m : hmembers) (k : list N) : abs_members h m !! k = abs_entry h <$> (m !! k).
Proof. unfold abs_members. apply lookup_fmap. Qed.

Lemma abs_members_ext h h' m : hext h h' -> mclosed h m -> abs_members h' m = abs_members h m.
Proof.
  intros He Hc. apply map_eq. intros k. rewrite !abs_members_lookup.
  destruct (m !! k) as [e|] eqn:E; [|reflexivity]. cbn. rewrite (abs_entry_ext _ _ _ He (Hc k e E)). reflexivity.
Qed.

Theorem abs_view_ext h h' v : hext h h' -> vclosed h v -> abs_view h' v = abs_view h v.
Proof.
  intros He Hc. apply vclosed_mclosed in Hc. unfold abs_view, hv_map in *.
  destruct (hv_members v) as [m|]; [|reflexivity]. cbn [fmap option_fmap option_map default from_option id] in *.
  rewrite (abs_members_ext _ _ _ He Hc). reflexivity.
Qed.

(** Clone: everything is stated relative to a base heap [h0] that the current heap [h] extends, and is monotone in the
    later heap: that is the form the member loop needs; [clone_spec] is the case [h0 = h]. *)

(** [l'] is (the location of) a copy made at or above the allocation pointer [lo], or [l'] is the original
    itself, which then is an empty map *)
Definition fresh_or_empty (h0 : heap) (lo : loc) (h' : heap) (orig : loc -> Prop) (l' : loc) : Prop :=
  (lo <= l' /\ l' < h_next h') \/ (orig l' /\ h_map h0 l' = Some ∅).

Definition cloned_map (h0 : heap) (lo : loc) (h' : heap) (r r' : option loc) : Prop :=
  abs_map h' r' = abs_map h0 r /\
  forall l, r' = Some l -> is_Some (h_map h' l) /\ fresh_or_empty h0 lo h' (fun l => r = Some l) l.

Lemma cloned_map_mono h0 lo lo' h' h'' r r' :
  lo' <= lo -> hext h' h'' -> cloned_map h0 lo h' r r' -> cloned_map h0 lo' h'' r r'.
Proof.
  intros Hlo X [A F]. pose proof (proj2 X) as Hn. split.
  - rewrite <- A. apply (abs_map_ext _ _ _ X). intros l Hl. apply (F l Hl).
  - intros l Hl. destruct (F l Hl) as [[m Hm] B]. split; [exists m; exact (hext_map _ _ _ _ X Hm)|].
    destruct B as [[B1 B2]|B]; [left; lia|right; exact B].
Qed.

Lemma clone_map_spec h0 h r :
  hwf h -> hext h0 h -> (forall l, r = Some l -> is_Some (h_map h0 l)) ->
  let h' := fst (h_clone_map h r) in
  hext h h' /\ hwf h' /\ cloned_map h0 (h_next h) h' r (snd (h_clone_map h r)).
Proof.
  intros Hw He Hc. cbn zeta. unfold h_clone_map. destruct r as [l|].
  2:{ cbn [fst snd]. split; [apply hext_refl|]. split; [exact Hw|]. split; [reflexivity|]. intros l [=]. }
  destruct (Hc l eq_refl) as [m Hm0]. pose proof (hext_map _ _ _ _ He Hm0) as Hm. rewrite Hm. cbn [default from_option id].
  destruct (decide (size m = 0%nat)) as [Hz|Hz].
  - rewrite bool_decide_eq_true_2 by exact Hz. cbn [fst snd].
    split; [apply hext_refl|]. split; [exact Hw|]. split; [cbn; rewrite Hm, Hm0; reflexivity|].
    intros l' [= <-]. split; [eauto|]. right. apply map_size_empty_inv in Hz. subst m. auto.
  - rewrite bool_decide_eq_false_2 by exact Hz.
    destruct (alloc_spec h (CMap m) Hw) as (X & Hw' & Hnew & Hnx).
    unfold h_alloc in *. cbn [fst snd] in *.
    split; [exact X|]. split; [exact Hw'|].
    assert (Hm' : h_map (Heap (<[h_next h:=CMap m]> (h_cells h)) (h_next h + 1)) (h_next h) = Some m).
    { unfold h_map. rewrite Hnew. reflexivity. }
    split; [cbn; rewrite Hm', Hm0; reflexivity|].
    intros l' [= <-]. split; [eauto|]. left. cbn [h_next]. lia.
Qed.

(** [e] is an entry holding a clone of an object with contents [xs] (of the heap h0), made at or above the
    allocation pointer [lo] and living in h' *)
Definition clone_of (h0 : heap) (lo : loc) (h' : heap) (xs : hstate) (e : option (option loc)) : Prop :=
  exists l' s', e = Some (Some l') /\ lo <= l' /\ l' < h_next h' /\ h_state h' l' = Some s' /\
    abs_state h' s' = abs_state h0 xs /\ sclosed h' s' /\
    (forall lm, smaps s' lm -> fresh_or_empty h0 lo h' (smaps xs) lm).

Lemma clone_of_mono h0 lo lo' h' h'' xs e :
  lo' <= lo -> hext h' h'' -> clone_of h0 lo h' xs e -> clone_of h0 lo' h'' xs e.
Proof.
  intros Hlo X (l' & s' & E1 & E2 & E3 & E4 & E5 & E6 & E7). pose proof (proj2 X) as Hn.
  exists l', s'. split; [exact E1|]. split; [lia|]. split; [lia|]. split; [exact (hext_state _ _ _ _ X E4)|].
  split; [rewrite (abs_state_ext _ _ _ X E6); exact E5|]. split; [exact (sclosed_ext _ _ _ X E6)|].
  intros lm Hlm. destruct (E7 lm Hlm) as [[B1 B2]|B]; [left; lia|right; exact B].
Qed.

Lemma clone_gen h0 h xs : hwf h -> hext h0 h -> sclosed h0 xs ->
  hext h (fst (h_clone h xs)) /\ hwf (fst (h_clone h xs)) /\
  clone_of h0 (h_next h) (fst (h_clone h xs)) xs (Some (Some (snd (h_clone h xs)))).
Proof.
  intros Hw He Hc. unfold h_clone.
  destruct (clone_map_spec h0 h (hs_meta xs) Hw He) as (X1 & W1 & M1); [intros l Hl; apply Hc; left; exact Hl|].
  destruct (h_clone_map h (hs_meta xs)) as [h1 me]. cbn [fst snd] in *.
  destruct (clone_map_spec h0 h1 (hs_labels xs) W1 (hext_trans _ _ _ He X1)) as (X2 & W2 & M2); [intros l Hl; apply Hc; right; exact Hl|].
  destruct (h_clone_map h1 (hs_labels xs)) as [h2 la]. cbn [fst snd] in *.
  set (s' := HState (hs_core xs) (hs_cluster xs) (hs_unreach xs) me la (hs_checksum xs)).
  destruct (alloc_spec h2 (CState s') W2) as (X3 & W3 & Hnew & Hnx).
  unfold h_alloc in *. cbn [fst snd] in *.
  set (h3 := Heap (<[h_next h2:=CState s']> (h_cells h2)) (h_next h2 + 1)) in *.
  pose proof (proj2 X1) as N1. pose proof (proj2 X2) as N2.
  destruct (cloned_map_mono h0 _ (h_next h) _ h3 _ _ (N.le_refl _) (hext_trans _ _ _ X2 X3) M1) as [A1 F1].
  destruct (cloned_map_mono h0 _ (h_next h) _ h3 _ _ N1 X3 M2) as [A2 F2].
  split; [exact (hext_trans _ _ _ (hext_trans _ _ _ X1 X2) X3)|]. split; [exact W3|].
  exists (h_next h2), s'. split; [reflexivity|]. split; [lia|]. split; [rewrite Hnx; lia|].
  split; [unfold h_state; rewrite Hnew; reflexivity|].
  split; [unfold abs_state; cbn [s' hs_core hs_cluster hs_unreach hs_meta hs_labels hs_checksum]; rewrite A1, A2; reflexivity|].
  split; intros l [Hl|Hl]; cbn [hs_meta hs_labels s'] in Hl.
  - apply (F1 l Hl).
  - apply (F2 l Hl).
  - destruct (proj2 (F1 l Hl)) as [B|[B1 B2]]; [left; exact B|right; split; [left; exact B1|exact B2]].
  - destruct (proj2 (F2 l Hl)) as [B|[B1 B2]]; [left; exact B|right; split; [right; exact B1|exact B2]].
Qed.

Theorem clone_spec h s :
  hwf h -> sclosed h s ->
  let h' := fst (h_clone h s) in
  let l' := snd (h_clone h s) in
  hext h h' /\ hwf h' /\ h_next h <= l' /\ l' < h_next h' /\
  exists s', h_state h' l' = Some s' /\ abs_state h' s' = abs_state h s /\ sclosed h' s' /\
    hs_core s' = hs_core s /\
    (forall l, smaps s' l -> (h_next h <= l /\ l < h_next h') \/ (smaps s l /\ h_map h l = Some ∅)).
Proof.
  intros Hw Hc. destruct (clone_gen h h s Hw (hext_refl h) Hc) as (X & W & l' & s' & [= <-] & E2 & E3 & E4 & E5 & E6 & E7).
  cbn zeta. split; [exact X|]. split; [exact W|]. split; [exact E2|]. split; [exact E3|].
  exists s'. split; [exact E4|]. split; [exact E5|]. split; [exact E6|]. split; [exact (f_equal fs_core E5)|exact E7].
Qed.

(** the loop over a list of (key, pointer) pairs with distinct keys, key by key: where the loop adopts, the entry
    is a clone of the adopted object; every other entry is as it was *)
Lemma loop_list_spec h0 vm l : forall h m,
  hwf h -> hext h0 h -> NoDup l.*1 ->
  (forall k ol xs, (k, ol) ∈ l -> h_adopt h0 vm k ol = Some xs -> sclosed h0 xs) ->
  let r := foldl (h_loop_step h0 vm) (h, m) l in
  hext h (fst r) /\ hwf (fst r) /\
  forall k, match (list_to_map l : hmembers) !! k ≫= h_adopt h0 vm k with
            | Some xs => clone_of h0 (h_next h) (fst r) xs (snd r !! k)
            | None => snd r !! k = m !! k
            end.
Proof.
  induction l as [|[k0 ol0] l IH]; intros h m Hw He Hnd Hcl; cbn zeta.
  - cbn [foldl fst snd]. split; [apply hext_refl|]. split; [exact Hw|]. intros k. rewrite list_to_map_nil, lookup_empty. reflexivity.
  - cbn [fmap list_fmap fst] in Hnd. apply NoDup_cons in Hnd as [Hk0 Hnd].
    assert (Hcl' : forall k ol xs, (k, ol) ∈ l -> h_adopt h0 vm k ol = Some xs -> sclosed h0 xs).
    { intros k ol xs Hin. apply Hcl. apply elem_of_cons. right. exact Hin. }
    assert (Hnone : (list_to_map l : hmembers) !! k0 = None) by apply not_elem_of_list_to_map_1, Hk0.
    cbn [foldl]. rewrite list_to_map_cons.
    change (h_loop_step h0 vm (h, m) (k0, ol0)) with
      (match h_adopt h0 vm k0 ol0 with
       | Some xs => let '(h', l') := h_clone h xs in (h', <[k0 := Some l']> m)
       | None => (h, m)
       end).
    destruct (h_adopt h0 vm k0 ol0) as [xs0|] eqn:Ead.
    + destruct (clone_gen h0 h xs0 Hw He) as (X1 & W1 & C1);
        [apply (Hcl k0 ol0); [apply elem_of_cons; left; reflexivity|exact Ead]|].
      destruct (h_clone h xs0) as [h1 l1]. cbn [fst snd] in *.
      destruct (IH h1 (<[k0 := Some l1]> m) W1 (hext_trans _ _ _ He X1) Hnd Hcl') as (Xr & Wr & P).
      split; [exact (hext_trans _ _ _ X1 Xr)|]. split; [exact Wr|]. intros k. specialize (P k).
      destruct (decide (k = k0)) as [->|Hne].
      * rewrite lookup_insert. cbn [mbind option_bind]. rewrite Ead. rewrite Hnone in P. cbn [mbind option_bind] in P.
        rewrite P, lookup_insert. apply (clone_of_mono h0 (h_next h) _ h1); [lia|exact Xr|exact C1].
      * rewrite lookup_insert_ne by congruence. destruct (_ ≫= _) as [xs|].
        -- apply (clone_of_mono h0 (h_next h1) _ _ _ _ _ (proj2 X1) (hext_refl _) P).
        -- rewrite P. apply lookup_insert_ne. congruence.
    + destruct (IH h m Hw He Hnd Hcl') as (Xr & Wr & P).
      split; [exact Xr|]. split; [exact Wr|]. intros k. specialize (P k).
      destruct (decide (k = k0)) as [->|Hne].
      * rewrite lookup_insert. cbn [mbind option_bind]. rewrite Ead. rewrite Hnone in P. exact P.
      * rewrite lookup_insert_ne by congruence. exact P.
Qed.

Lemma adopt_source h0 vm k ol xs :
  h_adopt h0 vm k ol = Some xs -> exists lo, ol = Some lo /\ h_state h0 lo = Some xs.
Proof.
  unfold h_adopt. destruct ol as [lo|]; [|discriminate]. destruct (h_state h0 lo) as [s|] eqn:Es; [|discriminate].
  intros H. exists lo. split; [reflexivity|]. f_equal.
  destruct (vm !! k) as [[el|]|]; try congruence.
  destruct (h_state h0 el); [destruct (isnewer _ _)|]; congruence.
Qed.

Theorem loop_spec (h0 : heap) (vm om : hmembers) :
  hwf h0 -> mclosed h0 om ->
  let r := h_loop h0 vm om in
  hext h0 (fst r) /\ hwf (fst r) /\
  forall k, match om !! k ≫= h_adopt h0 vm k with
            | Some xs => clone_of h0 (h_next h0) (fst r) xs (snd r !! k)
            | None => snd r !! k = vm !! k
            end.
Proof.
  intros Hw Hc. cbn zeta. unfold h_loop.
  pose proof (loop_list_spec h0 vm (map_to_list om) h0 vm Hw (hext_refl h0) (NoDup_fst_map_to_list om)) as L.
  rewrite list_to_map_to_list in L. apply L.
  intros k ol xs Hin Had. apply elem_of_map_to_list in Hin.
  destruct (adopt_source _ _ _ _ _ Had) as (lo & -> & Hlo). destruct (Hc k (Some lo) Hin lo eq_refl) as (s & Hs & Hcl).
  rewrite Hlo in Hs. injection Hs as <-. exact Hcl.
Qed.

Lemma abs_adopt h0 vm k ol :
  mclosed h0 vm -> eclosed h0 ol ->
  f_pick (abs_entry h0 <$> vm !! k) (Some (abs_entry h0 ol)) =
  match h_adopt h0 vm k ol with
  | Some xs => Some (Some (abs_state h0 xs))
  | None => abs_entry h0 <$> vm !! k
  end.
Proof.
  intros Hv Ho. unfold h_adopt. destruct ol as [l|]; [|destruct (vm !! k); reflexivity].
  destruct (Ho l eq_refl) as (xs & Hxs & _). cbn [abs_entry]. rewrite Hxs. cbn [fmap option_fmap option_map f_pick].
  destruct (vm !! k) as [[el|]|] eqn:Ek; cbn [fmap option_fmap option_map abs_entry f_isnewer f_clone]; try reflexivity.
  destruct (Hv k (Some el) Ek el eq_refl) as (es & Hes & _). rewrite Hes.
  cbn [fmap option_fmap option_map f_isnewer abs_state fs_core]. destruct (isnewer _ _); reflexivity.
Qed.

Theorem loop_refines (h0 : heap) (vm om : hmembers) :
  hwf h0 -> mclosed h0 vm -> mclosed h0 om ->
  let r := h_loop h0 vm om in
  hext h0 (fst r) /\ hwf (fst r) /\ mclosed (fst r) (snd r) /\
  abs_members (fst r) (snd r) = f_merge_members (abs_members h0 vm) (abs_members h0 om).
Proof.
  intros Hw Hv Ho. destruct (loop_spec h0 vm om Hw Ho) as (X & W & L). cbn zeta.
  split; [exact X|]. split; [exact W|].
  assert (Old : forall k e, vm !! k = Some e -> eclosed (fst (h_loop h0 vm om)) e /\
                  abs_entry (fst (h_loop h0 vm om)) e = abs_entry h0 e).
  { intros k e Hk. split; [apply (eclosed_ext _ _ _ X), (Hv k e Hk)|apply (abs_entry_ext _ _ _ X), (Hv k e Hk)]. }
  split.
  - intros k e Hk. specialize (L k). destruct (om !! k ≫= h_adopt h0 vm k) as [xs|].
    + destruct L as (l' & s' & E1 & _ & _ & E4 & _ & E6 & _). rewrite E1 in Hk. injection Hk as <-.
      intros l [= <-]. exists s'. split; assumption.
    + rewrite L in Hk. apply (Old k e Hk).
  - apply map_eq. intros k. specialize (L k). rewrite f_merge_members_lookup, !abs_members_lookup.
    destruct (om !! k) as [ol|] eqn:Ek; cbn [mbind option_bind fmap option_fmap option_map] in *.
    + rewrite (abs_adopt h0 vm k ol Hv (Ho k ol Ek)). destruct (h_adopt h0 vm k ol) as [xs|].
      * destruct L as (l' & s' & -> & _ & _ & E4 & E5 & _). cbn [fmap option_fmap option_map abs_entry].
        rewrite E4. cbn. rewrite E5. reflexivity.
      * rewrite L. destruct (vm !! k) as [e|] eqn:Ev; [|reflexivity]. cbn. rewrite (proj2 (Old k e Ev)). reflexivity.
    + rewrite L. destruct (vm !! k) as [e|] eqn:Ev; cbn [fmap option_fmap option_map f_pick]; [|reflexivity].
      rewrite (proj2 (Old k e Ev)). reflexivity.
Qed.

Lemma abs_view_map h v : fv_map (abs_view h v) = abs_members h (hv_map v).
Proof.
  unfold fv_map, hv_map, abs_view. cbn [fv_members]. destruct (hv_members v) as [m|]; [reflexivity|].
  symmetry. apply fmap_empty.
Qed.

Lemma hv_map_Some v m : hv_members v = Some m -> hv_map v = m.
Proof. unfold hv_map. intros ->. reflexivity. Qed.

Theorem merge_refines sk st now h v o :
  hwf h -> vclosed h v -> vclosed h o ->
  let r := h_merge sk st now h v o in
  let h' := fst (fst r) in let v' := snd (fst r) in
  abs_view h' v' = fst (f_merge sk st now (abs_view h v) (abs_view h o)) /\
  snd r = snd (f_merge sk st now (abs_view h v) (abs_view h o)) /\
  hext h h' /\ hwf h' /\ vclosed h' v'.
Proof.
  intros Hw Hv Ho. cbn zeta. unfold h_merge, f_merge.
  change (fv_members (abs_view h o)) with (abs_members h <$> hv_members o).
  assert (Same : abs_view h v = abs_view h v /\ false = false /\ hext h h /\ hwf h /\ vclosed h v)
    by (split; [reflexivity|split; [reflexivity|split; [apply hext_refl|split; assumption]]]).
  destruct (hv_members o) as [om|] eqn:Eom; cbn [fmap option_fmap option_map fst snd]; [|exact Same].
  rewrite (map_size_fmap (abs_entry h) om : size (abs_members h om) = size om).
  destruct (bool_decide (size om = 0%nat)); [exact Same|].
  apply vclosed_mclosed in Hv, Ho. rewrite (hv_map_Some o om Eom) in Ho.
  destruct (loop_refines h (hv_map v) om Hw Hv Ho) as (X & W & C & A).
  destruct (h_loop h (hv_map v) om) as [h' m']. cbn [fst snd] in *.
  split; [|split; [reflexivity|split; [exact X|split; [exact W|apply vclosed_mclosed; exact C]]]].
  unfold abs_view at 1. cbn [hv_members hv_rest fmap option_fmap option_map]. rewrite A, abs_view_map. reflexivity.
Qed.

Theorem merge_frame sk st now h v o w :
  hwf h -> vclosed h v -> vclosed h o -> vclosed h w ->
  abs_view (fst (fst (h_merge sk st now h v o))) w = abs_view h w.
Proof.
  intros Hw Hv Ho Hc. destruct (merge_refines sk st now h v o Hw Hv Ho) as (_ & _ & X & _).
  apply abs_view_ext; assumption.
Qed.

Lemma mclosed_empty h : mclosed h ∅.
Proof. intros k e Hk. rewrite lookup_empty in Hk. discriminate. Qed.

Lemma f_snapshot_members (m : fmembers) :
  omap (fun e : option fstate => (fun s => Some (f_clone s)) <$> e) m = f_merge_members ∅ m.
Proof.
  apply map_eq. intros k. rewrite lookup_omap, f_merge_members_lookup, lookup_empty.
  destruct (m !! k) as [[s|]|]; reflexivity.
Qed.

Theorem snapshot_refines h v :
  hwf h -> vclosed h v ->
  let r := h_snapshot h v in
  abs_view (fst r) (snd r) = f_snapshot (abs_view h v) /\ hext h (fst r) /\ hwf (fst r) /\ vclosed (fst r) (snd r).
Proof.
  intros Hw Hv. cbn zeta. unfold h_snapshot. apply vclosed_mclosed in Hv.
  destruct (loop_refines h ∅ (hv_map v) Hw (mclosed_empty h) Hv) as (X & W & C & A).
  destruct (h_loop h ∅ (hv_map v)) as [h' m']. cbn [fst snd] in *.
  split; [|split; [exact X|split; [exact W|apply vclosed_mclosed; exact C]]].
  unfold abs_view at 1. cbn [hv_members hv_rest fmap option_fmap option_map]. rewrite A.
  unfold f_snapshot, abs_members at 1. rewrite fmap_empty, f_snapshot_members, abs_view_map. reflexivity.
Qed.

(** AddMember stores through the member loop with a one-entry argument map *)
Lemma f_add_members (s : fstate) (v : fview) :
  fv_members (f_add v s) = Some (f_merge_members (fv_map v) {[ ns_id (fs_core s) := Some s ]}).
Proof.
  set (id := ns_id (fs_core s)).
  assert (E : f_merge_members (fv_map v) {[ id := Some s ]} =
              match fv_map v !! id with
              | Some e => if f_isnewer s e then <[id := Some (f_clone s)]> (fv_map v) else fv_map v
              | None => <[id := Some (f_clone s)]> (fv_map v)
              end).
  { apply map_eq. intros k. rewrite f_merge_members_lookup. destruct (decide (k = id)) as [->|Hne].
    - rewrite lookup_singleton. cbn [f_pick].
      destruct (fv_map v !! id) as [e|] eqn:Ek; [destruct (f_isnewer s e)|]; rewrite ?lookup_insert, ?Ek; reflexivity.
    - rewrite lookup_singleton_ne by congruence.
      destruct (fv_map v !! id) as [e|]; [destruct (f_isnewer s e)|]; rewrite ?lookup_insert_ne by congruence;
        destruct (fv_map v !! k); reflexivity. }
  rewrite E. unfold f_add. fold id. destruct (fv_map v !! id) as [e|]; [destruct (f_isnewer s e)|]; reflexivity.
Qed.

Lemma f_add_base v s :
  f_add v s = f_with_base (f_add v s) (fv_members (f_add v s)) (erase (f_add v s)).
Proof. destruct (f_add v s); reflexivity. Qed.

Lemma mclosed_singleton h k l s : h_state h l = Some s -> sclosed h s -> mclosed h {[ k := Some l ]}.
Proof. intros Hs Hc k' e Hk. apply lookup_singleton_Some in Hk as [_ <-]. intros l' [= <-]. eauto. Qed.

Theorem add_refines h v l s :
  hwf h -> vclosed h v -> h_state h l = Some s -> sclosed h s ->
  let r := h_add h v l in
  abs_view (fst r) (snd r) = f_add (abs_view h v) (abs_state h s) /\ hext h (fst r) /\ hwf (fst r) /\ vclosed (fst r) (snd r).
Proof.
  intros Hw Hv Hs Hc. cbn zeta. unfold h_add. rewrite Hs. apply vclosed_mclosed in Hv.
  destruct (loop_refines h (hv_map v) _ Hw Hv (mclosed_singleton h (ns_id (hs_core s)) l s Hs Hc)) as (X & W & C & A).
  destruct (h_loop h (hv_map v) _) as [h' m']. cbn [fst snd] in *.
  split; [|split; [exact X|split; [exact W|apply vclosed_mclosed; exact C]]].
  set (fa := f_add (abs_view h v) (abs_state h s)).
  assert (Em : fv_members fa = Some (abs_members h' m')).
  { subst fa. rewrite f_add_members, A, abs_view_map. unfold abs_members at 3.
    rewrite map_fmap_singleton. cbn [abs_entry]. rewrite Hs. reflexivity. }
  unfold abs_view at 1. cbn [hv_members hv_rest fmap option_fmap option_map].
  rewrite <- Em. destruct fa; reflexivity.
Qed.

Theorem loop_sharing (h0 : heap) (vm om : hmembers) (rest : fview) (l : loc) :
  hwf h0 -> mclosed h0 vm -> mclosed h0 om ->
  vlocs (fst (h_loop h0 vm om)) (HView (Some (snd (h_loop h0 vm om))) rest) l ->
  vlocs h0 (HView (Some vm) rest) l \/ h_next h0 <= l \/
  (h_map h0 l = Some ∅ /\ exists k lo xs, om !! k = Some (Some lo) /\ h_state h0 lo = Some xs /\ smaps xs l).
Proof.
  intros Hw Hv Ho Hl. destruct (loop_spec h0 vm om Hw Ho) as (X & W & L).
  set (h' := fst (h_loop h0 vm om)) in *. set (m' := snd (h_loop h0 vm om)) in *.
  assert (Hcase : exists k e, m' !! k = Some e /\
                  (e = Some l \/ exists ls s, e = Some ls /\ h_state h' ls = Some s /\ smaps s l)).
  { destruct Hl as [(k & Hk)|(k & ls & s & Hk & Hs & Hm)]; cbn [hv_map hv_members default from_option id] in Hk.
    - exists k, (Some l). split; [exact Hk|left; reflexivity].
    - exists k, (Some ls). split; [exact Hk|right; exists ls, s; auto]. }
  destruct Hcase as (k & e & Hk & Hc). specialize (L k).
  destruct (om !! k ≫= h_adopt h0 vm k) as [xs|] eqn:Et.
  - apply bind_Some in Et as (ol & Ek & Ead). destruct (adopt_source _ _ _ _ _ Ead) as (lo & -> & Hlo).
    destruct L as (l' & s' & E1 & E2 & E3 & E4 & E5 & E6 & E7). rewrite E1 in Hk. injection Hk as <-.
    destruct Hc as [[= <-]|(ls & s & [= <-] & Hs & Hm)]; [right; left; exact E2|].
    rewrite E4 in Hs. injection Hs as <-.
    destruct (E7 l Hm) as [[B _]|[B1 B2]]; [right; left; exact B|]. right; right. split; [exact B2|]. exists k, lo, xs. auto.
  - left. rewrite L in Hk. destruct Hc as [->|(ls & s & -> & Hs & Hm)].
    + left. exists k. exact Hk.
    + right. destruct (Hv k (Some ls) Hk ls eq_refl) as (s0 & Hs0 & _).
      rewrite (hext_state _ _ _ _ X Hs0) in Hs. injection Hs as <-. exists k, ls, s0. auto.
Qed.

Lemma vlocs_below h v l : hwf h -> vclosed h v -> vlocs h v l -> l < h_next h.
Proof.
  intros Hw Hc [(k & Hk)|(k & ls & s & Hk & Hs & Hm)].
  - destruct (Hc k l Hk) as (s & Hs & _). eapply state_below; eassumption.
  - destruct (Hc k ls Hk) as (s0 & Hs0 & Hcl). rewrite Hs0 in Hs. injection Hs as <-.
    apply map_below; [exact Hw|]. apply Hcl. exact Hm.
Qed.

Lemma vlocs_ext h h' v l : hext h h' -> vclosed h v -> vlocs h' v l -> vlocs h v l.
Proof.
  intros He Hc [(k & Hk)|(k & ls & s & Hk & Hs & Hm)]; [left; exists k; exact Hk|].
  right. destruct (Hc k ls Hk) as (s0 & Hs0 & _). rewrite (hext_state _ _ _ _ He Hs0) in Hs. injection Hs as <-.
  exists k, ls, s0. auto.
Qed.

Lemma vsep_empty h rest w : vsep h (HView (Some ∅) rest) w.
Proof. intros l [(k & Hk)|(k & ls & s & Hk & _)] _; cbn in Hk; rewrite lookup_empty in Hk; discriminate. Qed.

Lemma vlocs_map h m r r' l : vlocs h (HView (Some m) r) l -> vlocs h (HView (Some m) r') l.
Proof. exact (fun H => H). Qed.

Lemma loop_sep h vm om rest w :
  hwf h -> mclosed h vm -> mclosed h om -> vclosed h w -> vsep h (HView (Some vm) rest) w ->
  vsep_but_empty_maps (fst (h_loop h vm om)) (HView (Some (snd (h_loop h vm om))) rest) w.
Proof.
  intros Hw Hv Ho Hc Hsep l A B. destruct (loop_refines h vm om Hw Hv Ho) as (X & _).
  pose proof (vlocs_ext _ _ _ _ X Hc B) as B0. pose proof (vlocs_below _ _ _ Hw Hc B0) as Hlt.
  destruct (loop_sharing h vm om rest l Hw Hv Ho A) as [C|[C|[C _]]].
  - destruct (Hsep l C B0).
  - lia.
  - apply (hext_map _ _ _ _ X C).
Qed.

Theorem merge_sharing sk st now h v o :
  hwf h -> vclosed h v -> vclosed h o -> vsep h v o ->
  let r := h_merge sk st now h v o in
  vsep_but_empty_maps (fst (fst r)) (snd (fst r)) o.
Proof.
  intros Hw Hv Ho Hsep. cbn zeta. unfold h_merge.
  destruct (hv_members o) as [om|] eqn:Eom; [destruct (bool_decide (size om = 0%nat))|]; cbn [fst snd];
    try (intros l A B; destruct (Hsep l A B)).
  pose proof (loop_sep h (hv_map v) om (fst (f_merge sk st now (abs_view h v) (abs_view h o))) o Hw) as LS.
  destruct (h_loop h (hv_map v) om) as [h' m']. apply LS; try assumption; [apply vclosed_mclosed, Hv|].
  rewrite <- (hv_map_Some o om Eom). apply vclosed_mclosed, Ho.
Qed.

Theorem snapshot_sharing h v :
  hwf h -> vclosed h v ->
  vsep_but_empty_maps (fst (h_snapshot h v)) (snd (h_snapshot h v)) v.
Proof.
  intros Hw Hv. unfold h_snapshot.
  pose proof (loop_sep h ∅ (hv_map v) (f_snapshot (abs_view h v)) v Hw (mclosed_empty h)) as LS.
  destruct (h_loop h ∅ (hv_map v)) as [h' m']. apply LS; try assumption; [apply vclosed_mclosed, Hv|apply vsep_empty].
Qed.

Theorem add_sharing h v lc s l :
  hwf h -> vclosed h v -> h_state h lc = Some s -> sclosed h s ->
  vlocs (fst (h_add h v lc)) (snd (h_add h v lc)) l ->
  vlocs h v l \/ h_next h <= l \/ (h_map h l = Some ∅ /\ smaps s l).
Proof.
  intros Hw Hv Hs Hc. unfold h_add. rewrite Hs.
  set (om := ({[ ns_id (hs_core s) := Some lc ]} : hmembers)).
  pose proof (fun rest l => loop_sharing h (hv_map v) om rest l Hw (proj1 (vclosed_mclosed _ _) Hv)
                (mclosed_singleton h _ lc s Hs Hc)) as LS.
  destruct (h_loop h (hv_map v) om) as [h' m'] eqn:El. cbn [fst snd] in *.
  intros A. destruct (LS _ l A) as [C|[C|[C (k & lo & xs & Hk & Hlo & Hm)]]].
  - left. exact C.
  - right; left. exact C.
  - right; right. split; [exact C|]. subst om. apply lookup_singleton_Some in Hk as [_ [= <-]].
    rewrite Hs in Hlo. injection Hlo as <-. exact Hm.
Qed.

Lemma map_insert_state h l k x ls : h_state (h_map_insert h l k x) ls = h_state h ls.
Proof.
  unfold h_map_insert. destruct (h_map h l) as [m|] eqn:E; [|reflexivity].
  unfold h_state. cbn [h_cells]. destruct (decide (ls = l)) as [->|Hne].
  - rewrite lookup_insert. unfold h_map in E. destruct (h_cells h !! l) as [[s|m']|]; try discriminate. reflexivity.
  - rewrite lookup_insert_ne by congruence. reflexivity.
Qed.
Lemma map_insert_map h l k x lm : lm <> l -> h_map (h_map_insert h l k x) lm = h_map h lm.
Proof.
  intros Hne. unfold h_map_insert. destruct (h_map h l) as [m|] eqn:E; [|reflexivity].
  unfold h_map at 1. cbn [h_cells]. rewrite lookup_insert_ne by congruence. reflexivity.
Qed.
Lemma set_status_map h l st lm : h_map (h_set_status h l st) lm = h_map h lm.
Proof.
  unfold h_set_status. destruct (h_state h l) as [s|] eqn:E; [|reflexivity].
  unfold h_map. cbn [h_cells]. destruct (decide (lm = l)) as [->|Hne].
  - rewrite lookup_insert. unfold h_state in E. destruct (h_cells h !! l) as [[s'|m']|]; try discriminate. reflexivity.
  - rewrite lookup_insert_ne by congruence. reflexivity.
Qed.
Lemma set_status_state h l st ls : ls <> l -> h_state (h_set_status h l st) ls = h_state h ls.
Proof.
  intros Hne. unfold h_set_status. destruct (h_state h l) as [s|] eqn:E; [|reflexivity].
  unfold h_state at 1. cbn [h_cells]. rewrite lookup_insert_ne by congruence. reflexivity.
Qed.

Lemma abs_view_frame h h' v :
  (forall k ls, hv_map v !! k = Some (Some ls) -> h_state h' ls = h_state h ls) ->
  (forall k ls s lm, hv_map v !! k = Some (Some ls) -> h_state h ls = Some s -> smaps s lm -> h_map h' lm = h_map h lm) ->
  abs_view h' v = abs_view h v.
Proof.
  intros Hs Hm. unfold abs_view. destruct (hv_members v) as [m|] eqn:Em; [|reflexivity].
  cbn [fmap option_fmap option_map]. f_equal. f_equal. apply map_eq. intros k. rewrite !abs_members_lookup.
  assert (Hk : hv_map v !! k = m !! k) by (unfold hv_map; rewrite Em; reflexivity).
  destruct (m !! k) as [[ls|]|] eqn:E; [|reflexivity|reflexivity]. cbn.
  rewrite (Hs k ls Hk). destruct (h_state h ls) as [s|] eqn:Es; [|reflexivity]. cbn. f_equal.
  unfold abs_state.
  assert (A1 : abs_map h' (hs_meta s) = abs_map h (hs_meta s)).
  { destruct (hs_meta s) as [lm|] eqn:E1; [|reflexivity]. cbn. rewrite (Hm k ls s lm Hk Es); [reflexivity|left; exact E1]. }
  assert (A2 : abs_map h' (hs_labels s) = abs_map h (hs_labels s)).
  { destruct (hs_labels s) as [lm|] eqn:E1; [|reflexivity]. cbn. rewrite (Hm k ls s lm Hk Es); [reflexivity|right; exact E1]. }
  rewrite A1, A2. reflexivity.
Qed.

Theorem write_frame h v l k x st :
  ~ vlocs h v l ->
  abs_view (h_map_insert h l k x) v = abs_view h v /\ abs_view (h_set_status h l st) v = abs_view h v.
Proof.
  intros Hn. split; apply abs_view_frame.
  - intros k' ls _. apply map_insert_state.
  - intros k' ls s lm Hk Hs Hm. apply map_insert_map. intros ->. apply Hn. right. exists k', ls, s. auto.
  - intros k' ls Hk. apply set_status_state. intros ->. apply Hn. left. exists k'. exact Hk.
  - intros k' ls s lm _ _ _. apply set_status_map.
Qed.

(** no state of the view has an empty non-nil Metadata / Labels map *)
Definition no_empty_maps (h : heap) (v : hview) : Prop :=
  forall k ls s lm, hv_map v !! k = Some (Some ls) -> h_state h ls = Some s -> smaps s lm -> h_map h lm <> Some ∅.

Theorem merge_independent_partial sk st now h v o :
  hwf h -> vclosed h v -> vclosed h o -> vsep h v o -> no_empty_maps h o ->
  let r := h_merge sk st now h v o in
  let h' := fst (fst r) in let v' := snd (fst r) in
  vsep h' v' o /\
  forall l k x s,
    (vlocs h' o l -> abs_view (h_map_insert h' l k x) v' = abs_view h' v' /\ abs_view (h_set_status h' l s) v' = abs_view h' v') /\
    (vlocs h' v' l -> abs_view (h_map_insert h' l k x) o = abs_view h' o /\ abs_view (h_set_status h' l s) o = abs_view h' o).
Proof.
  intros Hw Hv Ho Hsep Hne. cbn zeta.
  pose proof (merge_sharing sk st now h v o Hw Hv Ho Hsep) as MS. cbn zeta in MS.
  destruct (merge_refines sk st now h v o Hw Hv Ho) as (_ & _ & X & _).
  set (h' := fst (fst (h_merge sk st now h v o))) in *. set (v' := snd (fst (h_merge sk st now h v o))) in *.
  assert (S : vsep h' v' o).
  { intros l A B. specialize (MS l A B).
    pose proof (vlocs_ext _ _ _ _ X Ho B) as B0.
    destruct B0 as [(k & Hk)|(k & ls & s & Hk & Hs & Hm)].
    - destruct (Ho k l Hk) as (s & Hs & _). pose proof (hext_state _ _ _ _ X Hs) as Hs'.
      unfold h_map in MS. unfold h_state in Hs'. destruct (h_cells h' !! l) as [[?|?]|]; discriminate.
    - apply (Hne k ls s l Hk Hs Hm). destruct (Ho k ls Hk) as (s0 & Hs0 & Hc0). rewrite Hs0 in Hs. injection Hs as <-.
      destruct (Hc0 l Hm) as [mm Hmm]. rewrite (hext_map _ _ _ _ X Hmm) in MS. congruence. }
  split; [exact S|]. intros l k x s. split; intros Hl; apply write_frame; intros Hl'; [apply (S l Hl' Hl)|apply (S l Hl Hl')].
Qed.

Definition rx_core : nstate := new_node_state [98] [98] 100.
(** the heap after `s := newNodeState("b", ..)`: two empty maps and the state object *)
Definition rx_h : heap :=
  fst (h_alloc (fst (h_alloc (fst (h_alloc h_empty (CMap ∅))) (CMap ∅)))
               (CState (HState rx_core [] false (Some 0) (Some 1) 0))).
(** o = a view holding that object (as AddMember of a fresh view would, had it not cloned), v = an empty view *)
Definition rx_o : hview := HView (Some {[ [98] := Some 2 ]}) (f_new_view [2] 100 0).
Definition rx_v : hview := HView (Some ∅) (f_new_view [1] 100 0).

Lemma rx_closed : vclosed rx_h rx_o /\ vclosed rx_h rx_v /\ vsep rx_h rx_v rx_o.
Proof.
  split; [|split].
  - intros k l Hk. cbn in Hk. apply lookup_singleton_Some in Hk as [_ [= <-]].
    exists (HState rx_core [] false (Some 0) (Some 1) 0). split; [reflexivity|].
    intros l [[= <-]|[= <-]]; eexists; reflexivity.
  - apply vclosed_mclosed, mclosed_empty.
  - apply vsep_empty.
Qed.

(** the size of the Labels map of member "b", read through the heap *)
Definition rx_labels_size (h : heap) (v : hview) : option nat :=
  match fv_map (abs_view h v) !! [98] with
  | Some (Some s) => size <$> fs_labels s
  | _ => None
  end.

Lemma merge_shares_empty_map :
  let r := h_merge 0 0 0 rx_h rx_v rx_o in
  let h' := fst (fst r) in let v' := snd (fst r) in
  hwf rx_h /\ vclosed rx_h rx_v /\ vclosed rx_h rx_o /\ vsep rx_h rx_v rx_o /\
  vlocs h' v' 1 /\ vlocs h' rx_o 1 /\ h_map h' 1 = Some ∅ /\
  rx_labels_size h' rx_o = Some 0%nat /\
  rx_labels_size (h_map_insert h' 1 [107] [120]) rx_o = Some 1%nat /\
  rx_labels_size (h_map_insert h' 1 [107] [120]) v' = Some 1%nat /\
  abs_view (h_map_insert h' 1 [107] [120]) rx_o <> abs_view h' rx_o.
Proof.
  cbn zeta. destruct rx_closed as (Co & Cv & Sp).
  split; [apply hwf_alloc, hwf_alloc, hwf_alloc, hwf_empty|]. split; [exact Cv|]. split; [exact Co|]. split; [exact Sp|].
  assert (E1 : rx_labels_size (fst (fst (h_merge 0 0 0 rx_h rx_v rx_o))) rx_o = Some 0%nat) by (vm_compute; reflexivity).
  assert (E2 : rx_labels_size (h_map_insert (fst (fst (h_merge 0 0 0 rx_h rx_v rx_o))) 1 [107] [120]) rx_o = Some 1%nat)
    by (vm_compute; reflexivity).
  split.
  { right. exists [98], 3, (HState rx_core [] false (Some 0) (Some 1) 0).
    split; [vm_compute; reflexivity|]. split; [vm_compute; reflexivity|]. right. reflexivity. }
  split.
  { right. exists [98], 2, (HState rx_core [] false (Some 0) (Some 1) 0).
    split; [vm_compute; reflexivity|]. split; [vm_compute; reflexivity|]. right. reflexivity. }
  split; [vm_compute; reflexivity|]. split; [exact E1|]. split; [exact E2|].
  split; [vm_compute; reflexivity|].
  intros Heq. unfold rx_labels_size in E1, E2. rewrite Heq, E1 in E2. discriminate.
Qed.

(** non-vacuity of [merge_independent_partial]: a state with a nil Metadata and a one-entry Labels map *)
Definition px_state : hstate := HState rx_core [120; 118] false None (Some 0) 7.
Definition px_h : heap := fst (h_alloc (fst (h_alloc h_empty (CMap {[ [100; 99] := [49] ]}))) (CState px_state)).
Definition px_o : hview := HView (Some {[ [98] := Some 1 ]}) (f_new_view [2] 100 0).

Lemma px_hyps :
  hwf px_h /\ vclosed px_h rx_v /\ vclosed px_h px_o /\ vsep px_h rx_v px_o /\ no_empty_maps px_h px_o /\
  snd (h_merge 0 0 0 px_h rx_v px_o) = true /\
  rx_labels_size (fst (fst (h_merge 0 0 0 px_h rx_v px_o))) (snd (fst (h_merge 0 0 0 px_h rx_v px_o))) = Some 1%nat.
Proof.
  split; [apply hwf_alloc, hwf_alloc, hwf_empty|]. split; [|split; [|split; [|split; [|split]]]].
  - apply vclosed_mclosed, mclosed_empty.
  - intros k l Hk. cbn in Hk. apply lookup_singleton_Some in Hk as [_ [= <-]].
    exists px_state. split; [reflexivity|]. intros l [[=]|[= <-]]. eexists; reflexivity.
  - apply vsep_empty.
  - intros k ls s lm Hk Hs Hm. cbn in Hk. apply lookup_singleton_Some in Hk as [_ [= <-]].
    assert (s = px_state) by (vm_compute in Hs; injection Hs as <-; reflexivity). subst s.
    destruct Hm as [[=]|[= <-]]. intros H.
    apply (f_equal (fun x => size <$> x)) in H. vm_compute in H. discriminate.
  - vm_compute. reflexivity.
  - vm_compute. reflexivity.
Qed.
