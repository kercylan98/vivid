From stdpp Require Import gmap sorting.
From Vivid Require Import Codec.Prim Codec.PrimProofs Cluster.VV.
Local Open Scope N_scope.

(** * Pointwise join of two finite maps: [union_with (λ x y, Some (f x y))].
    [vmax_union] (f = N.max), [View.pjoin] (f = inc_max) and [View.merge_members] are instances;
    commutativity, idempotence and the empty map as unit are stdpp's [union_with_comm],
    [union_with_idemp], [left_id] / [right_id]. *)
Section Join.
  Context `{Countable K} {A : Type} (f : A -> A -> A).
  Implicit Types a b c : gmap K A.

  Lemma lookup_join a b k :
    union_with (fun x y => Some (f x y)) a b !! k =
    match a !! k, b !! k with
    | Some x, Some y => Some (f x y)
    | Some x, None => Some x
    | None, Some y => Some y
    | None, None => None
    end.
  Proof. rewrite lookup_union_with. destruct (a !! k), (b !! k); reflexivity. Qed.

  Lemma join_comm a b : (forall x y, f x y = f y x) ->
    union_with (fun x y => Some (f x y)) a b = union_with (fun x y => Some (f x y)) b a.
  Proof. intros C. apply fin_maps.union_with_comm. intros. f_equal. apply C. Qed.

  Lemma join_assoc a b c : (forall x y z, f x (f y z) = f (f x y) z) ->
    union_with (fun x y => Some (f x y)) (union_with (fun x y => Some (f x y)) a b) c =
    union_with (fun x y => Some (f x y)) a (union_with (fun x y => Some (f x y)) b c).
  Proof.
    intros As. apply map_eq. intros k. rewrite !lookup_join.
    destruct (a !! k), (b !! k), (c !! k); try reflexivity. f_equal. symmetry. apply As.
  Qed.

  Lemma join_idem a : (forall x, f x x = x) -> union_with (fun x y => Some (f x y)) a a = a.
  Proof. intros I. apply union_with_idemp. intros. f_equal. apply I. Qed.
End Join.

Lemma vless_spec v o : vless v o = true <-> exists k, vget v k < vget o k.
Proof.
  unfold vless. rewrite orb_true_iff, !existsb_exists. split.
  - intros [((k, x) & Hin & Hx) | ((k, x) & Hin & Hx)]; cbn [fst snd] in Hx;
      apply elem_of_list_In, elem_of_map_to_list in Hin; exists k.
    + unfold vget at 1. rewrite Hin. cbn. lia.
    + apply andb_true_iff in Hx as [Hn Hp]. apply bool_decide_eq_true in Hn.
      unfold vget. rewrite Hn, Hin. cbn. lia.
  - intros (k & Hk). unfold vget in Hk. destruct (v !! k) as [va|] eqn:E; cbn in Hk.
    + left. exists (k, va). split; [apply elem_of_list_In, elem_of_map_to_list; exact E|cbn; unfold vget; lia].
    + right. destruct (o !! k) as [vb|] eqn:E2; cbn in Hk; [|lia].
      exists (k, vb). split; [apply elem_of_list_In, elem_of_map_to_list; exact E2|].
      cbn. rewrite E, bool_decide_eq_true_2 by reflexivity. cbn. lia.
Qed.

Lemma vgreater_spec v o : vgreater v o = true <-> exists k, vget o k < vget v k.
Proof.
  unfold vgreater. rewrite existsb_exists. split.
  - intros ((k, x) & Hin & Hx); cbn [fst snd] in Hx.
    apply elem_of_list_In, elem_of_map_to_list in Hin. exists k.
    unfold vget at 2. rewrite Hin. cbn. lia.
  - intros (k & Hk). unfold vget in Hk at 2. destruct (v !! k) as [va|] eqn:E; cbn in Hk; [|lia].
    exists (k, va). split; [apply elem_of_list_In, elem_of_map_to_list; exact E|cbn; lia].
Qed.

Lemma not_ex_lt {K} (f g : K -> N) : ~ (exists k, f k < g k) <-> forall k, g k <= f k.
Proof.
  split.
  - intros H k. destruct (N.le_gt_cases (g k) (f k)); [assumption|]. exfalso; apply H; exists k; lia.
  - intros H (k & Hk). specialize (H k). lia.
Qed.

Lemma ex_lt_ext {K} (f f' g g' : K -> N) :
  (forall k, f k = f' k) -> (forall k, g k = g' k) -> (exists k, f k < g k) <-> (exists k, f' k < g' k).
Proof. intros Hf Hg. split; intros (k & Hk); exists k; [rewrite <- Hf, <- Hg|rewrite Hf, Hg]; exact Hk. Qed.

Lemma vless_false v o : vless v o = false <-> forall k, vget o k <= vget v k.
Proof. rewrite <- not_true_iff_false, vless_spec. apply not_ex_lt. Qed.
Lemma vgreater_false v o : vgreater v o = false <-> forall k, vget v k <= vget o k.
Proof. rewrite <- not_true_iff_false, vgreater_spec. apply not_ex_lt. Qed.

(** the fast path agrees with the flags *)
Lemma vcompare_flags v o :
  vcompare v o = match vless v o, vgreater v o with
                 | false, false => VEqual | true, false => VBefore
                 | false, true => VAfter | true, true => VConcurrent end.
Proof.
  unfold vcompare. destruct (bool_decide (size v = 0%nat) && bool_decide (size o = 0%nat)) eqn:E; [|reflexivity].
  apply andb_true_iff in E as [E1 E2]. apply bool_decide_eq_true, map_size_empty_inv in E1, E2. subst.
  unfold vless, vgreater. rewrite map_to_list_empty. reflexivity.
Qed.

Lemma vcompare_by_flags v o :
  (vcompare v o = VEqual <-> vless v o = false /\ vgreater v o = false) /\
  (vcompare v o = VBefore <-> vless v o = true /\ vgreater v o = false) /\
  (vcompare v o = VAfter <-> vless v o = false /\ vgreater v o = true) /\
  (vcompare v o = VConcurrent <-> vless v o = true /\ vgreater v o = true).
Proof. rewrite vcompare_flags. destruct (vless v o), (vgreater v o); intuition congruence. Qed.

Definition vle (a b : vv) : Prop := forall k, vget a k <= vget b k.
Definition veq (a b : vv) : Prop := forall k, vget a k = vget b k.
Definition vlt (a b : vv) : Prop := vle a b /\ exists k, vget a k < vget b k.

Theorem vcompare_equal v o : vcompare v o = VEqual <-> veq v o.
Proof.
  rewrite (proj1 (vcompare_by_flags v o)), vless_false, vgreater_false. unfold veq. split.
  - intros [L G] k. specialize (L k); specialize (G k). lia.
  - intros E. split; intros k; rewrite E; lia.
Qed.

Theorem vcompare_before v o : vcompare v o = VBefore <-> vlt v o.
Proof. rewrite (proj1 (proj2 (vcompare_by_flags v o))), vless_spec, vgreater_false. unfold vlt, vle. tauto. Qed.

Theorem vcompare_after v o : vcompare v o = VAfter <-> vlt o v.
Proof. rewrite (proj1 (proj2 (proj2 (vcompare_by_flags v o)))), vless_false, vgreater_spec. reflexivity. Qed.

Theorem vcompare_concurrent v o :
  vcompare v o = VConcurrent <-> (exists k, vget v k < vget o k) /\ (exists k, vget o k < vget v k).
Proof. rewrite (proj2 (proj2 (proj2 (vcompare_by_flags v o)))), vless_spec, vgreater_spec. reflexivity. Qed.

Theorem vcompare_refl v : vcompare v v = VEqual.
Proof. apply vcompare_equal. intros k. reflexivity. Qed.

Theorem vcompare_converse v o :
  match vcompare v o with
  | VEqual => vcompare o v = VEqual
  | VBefore => vcompare o v = VAfter
  | VAfter => vcompare o v = VBefore
  | VConcurrent => vcompare o v = VConcurrent
  end.
Proof.
  destruct (vcompare v o) eqn:E.
  - apply vcompare_equal in E. apply vcompare_equal. intros k. symmetry. apply E.
  - apply vcompare_before in E. apply vcompare_after. exact E.
  - apply vcompare_after in E. apply vcompare_before. exact E.
  - apply vcompare_concurrent in E. apply vcompare_concurrent. tauto.
Qed.

Theorem vcompare_antisym v o : vcompare v o = VBefore -> vcompare o v = VBefore -> False.
Proof.
  intros H1 H2. apply vcompare_before in H1 as [H1 _]. apply vcompare_before in H2 as [_ (k & Hk)].
  specialize (H1 k). lia.
Qed.

Theorem vcompare_trans_before a b c :
  vcompare a b = VBefore -> vcompare b c = VBefore -> vcompare a c = VBefore.
Proof.
  intros H1 H2. apply vcompare_before in H1 as [L1 (k & Hk)]. apply vcompare_before in H2 as [L2 _].
  apply vcompare_before. split.
  - intros j. specialize (L1 j); specialize (L2 j). lia.
  - exists k. specialize (L2 k). lia.
Qed.
Theorem vcompare_trans_equal a b c :
  vcompare a b = VEqual -> vcompare b c = VEqual -> vcompare a c = VEqual.
Proof.
  intros H1 H2. apply vcompare_equal in H1, H2. apply vcompare_equal. intros k. rewrite H1. apply H2.
Qed.
Theorem vcompare_equal_congr a b c : vcompare a b = VEqual -> vcompare a c = vcompare b c.
Proof.
  intros H. apply vcompare_equal in H. rewrite !vcompare_flags.
  assert (L : vless a c = vless b c) by (apply eq_true_iff_eq; rewrite !vless_spec; apply ex_lt_ext; [exact H|reflexivity]).
  assert (G : vgreater a c = vgreater b c) by (apply eq_true_iff_eq; rewrite !vgreater_spec; apply ex_lt_ext; [reflexivity|exact H]).
  rewrite L, G. reflexivity.
Qed.

Lemma vle_compare a b : vle a b <-> (vcompare a b = VBefore \/ vcompare a b = VEqual).
Proof.
  rewrite vcompare_before, vcompare_equal. unfold vlt, vle, veq. split.
  - intros H. destruct (vless a b) eqn:L.
    + left. split; [exact H|]. apply vless_spec. exact L.
    + right. intros k. pose proof (proj1 (vless_false _ _) L k). specialize (H k). lia.
  - intros [[H _]|H] k; [apply H|rewrite H; lia].
Qed.

Lemma vmerge_union a b : vmerge a b = vmax_union a b.
Proof.
  unfold vmerge, vmax_union. destruct (decide (size b = 0%nat)) as [Eb|Eb].
  - rewrite bool_decide_eq_true_2 by exact Eb. apply map_size_empty_inv in Eb. subst. symmetry. apply (right_id ∅ _).
  - rewrite bool_decide_eq_false_2 by exact Eb. destruct (decide (size a = 0%nat)) as [Ea|Ea].
    + rewrite bool_decide_eq_true_2 by exact Ea. apply map_size_empty_inv in Ea. subst. symmetry. apply (left_id ∅ _).
    + rewrite bool_decide_eq_false_2 by exact Ea. reflexivity.
Qed.

Lemma vget_merge a b k : vget (vmerge a b) k = N.max (vget a k) (vget b k).
Proof.
  rewrite vmerge_union. unfold vget, vmax_union. rewrite lookup_join.
  destruct (a !! k), (b !! k); cbn; lia.
Qed.

Theorem vmerge_comm a b : vmerge a b = vmerge b a.
Proof. rewrite !vmerge_union. apply join_comm, N.max_comm. Qed.
Theorem vmerge_assoc a b c : vmerge (vmerge a b) c = vmerge a (vmerge b c).
Proof. rewrite !vmerge_union. apply join_assoc, N.max_assoc. Qed.
Theorem vmerge_idem a : vmerge a a = a.
Proof. rewrite !vmerge_union. apply join_idem, N.max_id. Qed.

Theorem vmerge_upper_l a b : vle a (vmerge a b).
Proof. intros k. rewrite vget_merge. lia. Qed.
Theorem vmerge_upper_r a b : vle b (vmerge a b).
Proof. intros k. rewrite vget_merge. lia. Qed.
Theorem vmerge_least a b c : vle a c -> vle b c -> vle (vmerge a b) c.
Proof. intros H1 H2 k. rewrite vget_merge. specialize (H1 k); specialize (H2 k). lia. Qed.

Theorem vmerge_dom a b k : is_Some (vmerge a b !! k) <-> is_Some (a !! k) \/ is_Some (b !! k).
Proof.
  rewrite vmerge_union. unfold vmax_union. rewrite lookup_join.
  destruct (a !! k), (b !! k); rewrite !is_Some_alt; tauto.
Qed.

Lemma vget_insert (v : vv) k c j : vget (<[k := c]> v) j = if decide (j = k) then c else vget v j.
Proof.
  unfold vget. destruct (decide (j = k)) as [->|Hj]; [rewrite lookup_insert|rewrite lookup_insert_ne by congruence]; reflexivity.
Qed.

Lemma vinc_Ok v k v' :
  vinc v k = Ok v' <-> valid_addr k = true /\ vget v k < max_counter /\ v' = <[k := vget v k + 1]> v.
Proof.
  unfold vinc. destruct (valid_addr k); [destruct (N.leb_spec max_counter (vget v k))|]; split;
    try discriminate; try (intros (? & ? & ?); discriminate || lia).
  - intros [= <-]. auto.
  - intros (_ & _ & ->). reflexivity.
Qed.

Theorem vinc_ok v k v' :
  vinc v k = Ok v' ->
  vget v' k = vget v k + 1 /\ (forall j, j <> k -> v' !! j = v !! j) /\ vcompare v' v = VAfter.
Proof.
  intros (_ & _ & ->)%vinc_Ok.
  split; [rewrite vget_insert, decide_True by reflexivity; reflexivity|].
  split; [intros j Hj; apply lookup_insert_ne; congruence|].
  apply vcompare_after. split.
  - intros j. rewrite vget_insert. destruct (decide (j = k)) as [->|]; lia.
  - exists k. rewrite vget_insert, decide_True by reflexivity. lia.
Qed.

Theorem vinc_err v k :
  (vinc v k = Err EInvalid <-> valid_addr k = false) /\
  (vinc v k = Err EOverflow <-> valid_addr k = true /\ max_counter <= vget v k) /\
  (forall e, vinc v k = Err e -> e = EInvalid \/ e = EOverflow).
Proof.
  unfold vinc. destruct (valid_addr k); [destruct (N.leb_spec max_counter (vget v k))|];
    (split; [|split; [|intros e [= <-]; auto]]); split; try discriminate; try tauto; intros [? ?]; lia || discriminate.
Qed.

Theorem vcompare_zero_entry v k : v !! k = None -> vcompare v (<[k := 0]> v) = VEqual.
Proof.
  intros H. apply vcompare_equal. intros j. rewrite vget_insert.
  destruct (decide (j = k)) as [->|]; [unfold vget; rewrite H|]; reflexivity.
Qed.

Theorem vcompact_equal v : vcompare (vcompact v) v = VEqual.
Proof.
  apply vcompare_equal. intros k. unfold vget, vcompact.
  destruct (v !! k) as [x|] eqn:E.
  - destruct (decide (0 < x)) as [Hx|Hx].
    + rewrite (map_filter_lookup_Some_2 _ _ _ x E); [reflexivity|exact Hx].
    + rewrite map_filter_lookup_None_2; [cbn; lia|]. right. intros y Hy. rewrite E in Hy. injection Hy as <-. exact Hx.
  - rewrite map_filter_lookup_None_2; [reflexivity|]. left. exact E.
Qed.

Lemma ins_sorted_perm {A} (le : A -> A -> bool) x l : ins_sorted le x l ≡ₚ x :: l.
Proof.
  induction l as [|y r IH]; cbn; [reflexivity|]. destruct (le x y); [reflexivity|].
  rewrite IH. apply Permutation_swap.
Qed.
Lemma isort_perm {A} (le : A -> A -> bool) l : isort le l ≡ₚ l.
Proof. induction l as [|x l IH]; cbn; [reflexivity|]. rewrite ins_sorted_perm, IH. reflexivity. Qed.
Lemma isort_length {A} (le : A -> A -> bool) l : length (isort le l) = length l.
Proof. apply Permutation_length, isort_perm. Qed.

Lemma ventries_perm v : ventries v ≡ₚ map_to_list v.
Proof. apply isort_perm. Qed.
Lemma ventries_length v : length (ventries v) = size v.
Proof. apply isort_length. Qed.

Definition ins_entry (acc : vv) (p : list N * N) : vv := <[fst p := snd p]> acc.

Lemma fold_ins_nodup (l : list (list N * N)) (acc : vv) :
  NoDup (l.*1) -> foldl ins_entry acc l = list_to_map l ∪ acc.
Proof.
  revert acc. induction l as [|[k c] l IH]; intros acc Hnd; cbn [foldl].
  - symmetry. apply (left_id ∅ (∪)).
  - cbn in Hnd. apply NoDup_cons in Hnd as [Hk Hnd].
    rewrite IH by exact Hnd. unfold ins_entry; cbn [fst snd list_to_map foldr].
    change (foldr (λ p, <[p.1:=p.2]>) ∅ l) with (list_to_map (M:=vv) l).
    rewrite <- insert_union_l, insert_union_r; [reflexivity|].
    apply not_elem_of_list_to_map_1. exact Hk.
Qed.

Lemma foldl_ins_perm (es : list (list N * N)) (m : vv) : es ≡ₚ map_to_list m -> foldl ins_entry ∅ es = m.
Proof.
  intros Hp. assert (Hnd : NoDup (es.*1)) by (rewrite Hp; apply NoDup_fst_map_to_list).
  rewrite fold_ins_nodup, (right_id ∅ (∪)) by exact Hnd.
  rewrite <- (list_to_map_to_list m). apply list_to_map_proper; assumption.
Qed.

Definition wf_vv (v : vv) : Prop :=
  N.of_nat (size v) <= max_entries /\
  forall k c, v !! k = Some c -> valid_addr k = true /\ c <= max_counter.

Lemma valid_addr_len32 k : valid_addr k = true -> N.of_nat (length k) < 4294967296.
Proof. unfold valid_addr, max_addr_len. intros H. apply andb_true_iff in H as [_ H]. apply N.leb_le in H. lia. Qed.

Lemma vwrite_entries_ok l :
  Forall (fun p => valid_addr (fst p) = true) l ->
  exists bs, vwrite_entries l = Ok bs /\
    forall acc rest, Forall (fun p => snd p <= max_counter) l ->
      vread_entries (length l) acc (bs ++ rest) = Ok (foldl ins_entry acc l, rest).
Proof.
  induction l as [|[k c] l IH]; intros Hv.
  - exists []. split; [reflexivity|]. intros acc rest _. reflexivity.
  - apply Forall_cons in Hv as [Hk Hv]. cbn [fst] in Hk. destruct (IH Hv) as (bs & Hbs & Hrd).
    exists (put_lp4 k ++ put_u64 c ++ bs). split.
    + cbn [vwrite_entries]. rewrite Hk, Hbs. reflexivity.
    + intros acc rest Hc. apply Forall_cons in Hc as [Hc1 Hc]. cbn [snd] in Hc1.
      cbn [vread_entries length].
      rewrite <- !app_assoc, rd_lp4_put by (apply valid_addr_len32, Hk).
      cbn [bind]. rewrite Hk. rewrite rd_u64_put by (unfold max_counter in Hc1; lia). cbn [bind].
      replace (max_counter <? c) with false by (symmetry; apply N.ltb_ge; exact Hc1).
      rewrite Hrd by exact Hc. reflexivity.
Qed.

Theorem vread_vwrite v rest :
  wf_vv v -> exists bs, vwrite v = Ok bs /\ vread (bs ++ rest) = Ok (v, rest).
Proof.
  intros [Hsz Hwf].
  assert (Hall : Forall (fun p => valid_addr (fst p) = true /\ snd p <= max_counter) (ventries v)).
  { apply Forall_forall. intros [k c] Hin. rewrite ventries_perm in Hin.
    apply elem_of_map_to_list in Hin. cbn. apply (Hwf k c Hin). }
  apply Forall_and in Hall as [Hvalid Hcap].
  destruct (vwrite_entries_ok (ventries v) Hvalid) as (body & Hbody & Hrd).
  assert (Hcnt : (max_entries <? N.of_nat (size v)) = false) by (apply N.ltb_ge; exact Hsz).
  exists (put_u32 (N.of_nat (size v)) ++ body). split.
  - unfold vwrite. rewrite ventries_length, Hcnt, Hbody. reflexivity.
  - unfold vread. rewrite <- app_assoc, rd_u32_put by (unfold max_entries in Hsz; lia).
    cbn [bind]. rewrite Hcnt, Nat2N.id, <- (ventries_length v), Hrd by exact Hcap.
    rewrite (foldl_ins_perm _ v (ventries_perm v)). reflexivity.
Qed.

Lemma lex_le_total a b : lex_le a b = true \/ lex_le b a = true.
Proof.
  revert b; induction a as [|x a IH]; intros [|y b]; cbn; auto.
  destruct (N.ltb_spec x y), (N.ltb_spec y x); auto; lia.
Qed.
Lemma lex_le_refl a : lex_le a a = true.
Proof. induction a as [|x a IH]; cbn; [reflexivity|]. rewrite N.ltb_irrefl. exact IH. Qed.
Lemma lex_le_antisym a b : lex_le a b = true -> lex_le b a = true -> a = b.
Proof.
  revert b; induction a as [|x a IH]; intros [|y b]; cbn; try discriminate; [reflexivity|].
  destruct (N.ltb_spec x y), (N.ltb_spec y x); try discriminate; try lia.
  intros H1 H2. assert (x = y) by lia. subst. f_equal. apply IH; assumption.
Qed.
Lemma lex_le_trans a b c : lex_le a b = true -> lex_le b c = true -> lex_le a c = true.
Proof.
  revert b c; induction a as [|x a IH]; intros [|y b] [|z c]; cbn; try discriminate; try reflexivity.
  destruct (N.ltb_spec x y), (N.ltb_spec y x), (N.ltb_spec y z), (N.ltb_spec z y); try discriminate;
    destruct (N.ltb_spec x z), (N.ltb_spec z x); try reflexivity; try lia. apply IH.
Qed.

Definition ent_le (p q : list N * N) : bool := lex_le (fst p) (fst q).

Section InsertionSort.
  Context {A : Type} (le : A -> A -> bool).
  Hypothesis le_total : forall a b, le a b = true \/ le b a = true.
  Hypothesis le_trans : forall a b c, le a b = true -> le b c = true -> le a c = true.
  Let R (a b : A) : Prop := le a b = true.

  Lemma ins_sorted_ssorted x l : StronglySorted R l -> StronglySorted R (ins_sorted le x l).
  Proof.
    induction l as [|y r IH]; intros Hs; cbn.
    - constructor; constructor.
    - apply StronglySorted_inv in Hs as [Hr Hy]. destruct (le x y) eqn:E.
      + constructor; [constructor; assumption|]. constructor; [exact E|].
        eapply Forall_impl; [exact Hy|]. intros z Hz. exact (le_trans _ _ _ E Hz).
      + constructor; [apply IH, Hr|]. rewrite ins_sorted_perm. constructor; [|exact Hy].
        destruct (le_total x y) as [H|H]; [congruence|exact H].
  Qed.
  Lemma isort_ssorted l : StronglySorted R (isort le l).
  Proof. induction l as [|x l IH]; cbn; [constructor|]. apply ins_sorted_ssorted, IH. Qed.
End InsertionSort.

Definition ent_lt (p q : list N * N) : Prop := lex_le (fst p) (fst q) = true /\ fst p <> fst q.
Global Instance ent_lt_antisym : AntiSymm (=) ent_lt.
Proof. intros p q [H1 Hn] [H2 _]. exfalso. apply Hn. apply lex_le_antisym; assumption. Qed.

Lemma ssorted_strict (l : list (list N * N)) :
  StronglySorted (fun p q => ent_le p q = true) l -> NoDup (l.*1) -> StronglySorted ent_lt l.
Proof.
  induction l as [|p l IH]; intros Hs Hnd; [constructor|].
  apply StronglySorted_inv in Hs as [Hl Hp]. cbn in Hnd. apply NoDup_cons in Hnd as [Hnin Hnd].
  constructor; [apply IH; assumption|].
  apply Forall_forall. intros q Hq. split; [exact (proj1 (Forall_forall _ _) Hp q Hq)|].
  intros E. apply Hnin. rewrite E. apply elem_of_list_fmap. exists q. split; [reflexivity|exact Hq].
Qed.

Lemma isort_ent_ssorted (l : list (list N * N)) : NoDup (l.*1) -> StronglySorted ent_lt (isort ent_le l).
Proof.
  intros Hnd. apply ssorted_strict.
  - apply isort_ssorted.
    + intros a b. apply lex_le_total.
    + intros a b c. apply lex_le_trans.
  - rewrite (isort_perm ent_le l). exact Hnd.
Qed.

Theorem ventries_sorted v : StronglySorted ent_lt (ventries v) /\ ventries v ≡ₚ map_to_list v.
Proof. split; [apply isort_ent_ssorted, NoDup_fst_map_to_list|apply ventries_perm]. Qed.

Lemma ventries_of_perm (es : list (list N * N)) (m : vv) : es ≡ₚ map_to_list m -> isort ent_le es = ventries m.
Proof.
  intros Hp. assert (Hnd : NoDup (es.*1)) by (rewrite Hp; apply NoDup_fst_map_to_list).
  apply (StronglySorted_unique ent_lt).
  - apply isort_ent_ssorted, Hnd.
  - apply ventries_sorted.
  - rewrite isort_perm, Hp. symmetry. apply ventries_perm.
Qed.

Theorem vprune_sub v act maxe k c :
  vprune_max v act maxe !! k = Some c -> v !! k = Some c /\ k ∈ act.
Proof.
  unfold vprune_max. destruct (_ || _); [rewrite lookup_empty; discriminate|].
  intros H. apply map_filter_lookup_Some in H as [H1 H2]. split; [exact H1|].
  cbn in H2. apply bool_decide_unpack in H2.
  destruct (_ <? N.of_nat (length act)); [|exact H2].
  apply elem_of_take in H2 as (i & H2 & _). apply elem_of_list_lookup_2 in H2.
  rewrite isort_perm in H2. exact H2.
Qed.
Theorem vprune_exact v act maxe k :
  N.of_nat (length act) <= (if (maxe <=? 0)%Z then max_entries else Z.to_N maxe) ->
  vprune_max v act maxe !! k = if bool_decide (k ∈ act) then v !! k else None.
Proof.
  intros Hlim. unfold vprune_max.
  destruct (bool_decide (size v = 0%nat)) eqn:E1; cbn [orb].
  { apply bool_decide_eq_true, map_size_empty_inv in E1. subst. rewrite !lookup_empty. destruct (bool_decide _); reflexivity. }
  destruct (bool_decide (length act = 0%nat)) eqn:E2.
  { apply bool_decide_eq_true in E2. destruct act; [|discriminate]. rewrite lookup_empty.
    rewrite bool_decide_eq_false_2 by (apply not_elem_of_nil). reflexivity. }
  rewrite (proj2 (N.ltb_ge _ _) Hlim). apply option_eq. intros c. rewrite map_filter_lookup_Some. cbn [fst].
  destruct (decide (k ∈ act)) as [Hin|Hin]; [rewrite (bool_decide_eq_true_2 _ Hin)|rewrite (bool_decide_eq_false_2 _ Hin)].
  - split; [tauto|split; [assumption|exact I]].
  - split; [intros [_ []]|discriminate].
Qed.
Theorem vprune_below v act maxe : vle (vprune_max v act maxe) v.
Proof.
  intros k. unfold vget. destruct (vprune_max v act maxe !! k) as [c|] eqn:E; cbn; [|lia].
  apply vprune_sub in E as [-> _]. cbn. lia.
Qed.
