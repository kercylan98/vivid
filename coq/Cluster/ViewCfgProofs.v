(** Proofs about the configurations of MergeFromWithOptions: what each VersionConcurrentStrategy and
    the clock-skew test decide (epoch / view timestamp), what they can NOT influence (members, version
    vector, counts, protocol version), and the order (in)sensitivity of the epoch per configuration.
    Model: Cluster/View.v, definitions: Cluster/ViewCfg.v. *)
From stdpp Require Import gmap.
From Vivid Require Import Cluster.VV Cluster.VVProofs Cluster.View Cluster.ViewProofs Cluster.ViewCfg.
Local Open Scope N_scope.

Lemma merge_epoch_ts_exact sk st now v o :
  vw_members o <> ∅ ->
  vw_epoch (fst (view_merge sk st now v o)) =
    (if adopts sk st now v o then Z.max (vw_epoch v) (vw_epoch o) else vw_epoch v) /\
  vw_ts (fst (view_merge sk st now v o)) =
    (if adopts sk st now v o then Z.max (vw_ts v) (vw_ts o) else vw_ts v).
Proof.
  intros Hne. destruct (view_merge_epoch_ts_proto sk st now v o) as (-> & -> & _).
  rewrite bool_decide_eq_false_2 by (apply map_size_non_empty_iff, Hne). split; reflexivity.
Qed.

Lemma skew_off sk now ots : (sk <= 0)%Z -> skew_skip sk now ots = false.
Proof. intros H. unfold skew_skip. replace (0 <? sk)%Z with false by lia. reflexivity. Qed.

Lemma adopts_cases sk st now v o :
  adopts sk st now v o =
  negb (skew_skip sk now (vw_ts o)) &&
  (if (st =? 1)%Z then negb (is_concurrent (vw_vv v) (vw_vv o)) else true).
Proof.
  unfold adopts. destruct (st =? 1)%Z, (is_concurrent (vw_vv v) (vw_vv o)), (skew_skip sk now (vw_ts o)); reflexivity.
Qed.

Lemma adopts_max_noskew sk st now v o : cfg_max_noskew sk st now -> adopts sk st now v o = true.
Proof.
  intros [Hs Hst]. rewrite adopts_cases, skew_off by exact Hs.
  replace (st =? 1)%Z with false by lia. reflexivity.
Qed.

Lemma view_merge_adopts sk st now sk' st' now' v o :
  adopts sk st now v o = adopts sk' st' now' v o -> view_merge sk st now v o = view_merge sk' st' now' v o.
Proof. unfold view_merge, view_merge_gen, adopts. intros ->. reflexivity. Qed.

Theorem strategy_collapse sk st now v o :
  st <> 1%Z -> view_merge sk st now v o = view_merge sk 0 now v o.
Proof. intros Hst. apply view_merge_adopts. rewrite !adopts_cases. replace (st =? 1)%Z with false by lia. reflexivity. Qed.

Theorem prefer_local_when_ordered sk now v o :
  is_concurrent (vw_vv v) (vw_vv o) = false -> view_merge sk 1 now v o = view_merge sk 0 now v o.
Proof. intros Hc. apply view_merge_adopts. rewrite !adopts_cases, Hc. reflexivity. Qed.

Theorem config_independent sk st now sk' st' now' v o :
  let r := fst (view_merge sk st now v o) in
  let r' := fst (view_merge sk' st' now' v o) in
  vw_members r = vw_members r' /\ vw_vv r = vw_vv r' /\
  vw_healthy r = vw_healthy r' /\ vw_unhealthy r = vw_unhealthy r' /\ vw_quorum r = vw_quorum r' /\
  vw_proto r = vw_proto r' /\ vw_maxent r = vw_maxent r'.
Proof.
  cbn zeta. unfold view_merge, view_merge_gen. destruct (bool_decide _); cbn [fst]; repeat split; reflexivity.
Qed.

Theorem changed_config_dependence sk st now sk' st' now' v o :
  let r := view_merge sk st now v o in
  let r' := view_merge sk' st' now' v o in
  vw_epoch (fst r) = vw_epoch (fst r') -> vw_ts (fst r) = vw_ts (fst r') -> snd r = snd r'.
Proof.
  cbn zeta. intros He Ht. apply eq_true_iff_eq. rewrite !merge_changed_exact. cbn zeta.
  destruct (config_independent sk st now sk' st' now' v o) as (Em & Ev & _ & _ & _ & Ep & _).
  cbn zeta in *. rewrite Em, Ev, Ep, He, Ht. reflexivity.
Qed.

Lemma merge_epoch_ts_choice sk st now v o :
  (vw_epoch (fst (view_merge sk st now v o)) = vw_epoch v \/
   vw_epoch (fst (view_merge sk st now v o)) = vw_epoch o /\ (vw_epoch v < vw_epoch o)%Z) /\
  (vw_ts (fst (view_merge sk st now v o)) = vw_ts v \/
   vw_ts (fst (view_merge sk st now v o)) = vw_ts o /\ (vw_ts v < vw_ts o)%Z).
Proof.
  destruct (view_merge_epoch_ts_proto sk st now v o) as (-> & -> & _). destruct (_ && _); [|auto].
  split; [destruct (Z.max_spec (vw_epoch v) (vw_epoch o))|destruct (Z.max_spec (vw_ts v) (vw_ts o))]; intuition lia.
Qed.

Lemma mleft_in e : mleft e ∈ mleaves e.
Proof.
  induction e as [v|sk st now l IHl r IHr]; cbn [mleft mleaves].
  - apply elem_of_list_singleton. reflexivity.
  - apply elem_of_app. left. exact IHl.
Qed.

Theorem meval_epoch_bounds e :
  (vw_epoch (mleft e) <= vw_epoch (meval e) <= mepoch_max e)%Z /\
  (vw_ts (mleft e) <= vw_ts (meval e) <= mts_max e)%Z.
Proof.
  induction e as [v|sk st now l IHl r IHr]; cbn [mleft meval mepoch_max mts_max]; [lia|].
  destruct IHl as [[L1 L2] [L3 L4]], IHr as [[R1 R2] [R3 R4]].
  pose proof (merge_epoch_mono sk st now (meval l) (meval r)) as (M1 & M2 & _).
  destruct (merge_epoch_ts_choice sk st now (meval l) (meval r)) as [C1 C2].
  split; split; lia.
Qed.

Theorem meval_epoch_is_a_leaf e :
  (exists v, v ∈ mleaves e /\ vw_epoch (meval e) = vw_epoch v) /\
  (exists v, v ∈ mleaves e /\ vw_ts (meval e) = vw_ts v).
Proof.
  induction e as [v|sk st now l IHl r IHr]; cbn [meval mleaves].
  - split; exists v; (split; [apply elem_of_list_singleton; reflexivity|reflexivity]).
  - destruct IHl as [(a & Ha & Ea) (a' & Ha' & Ea')], IHr as [(b & Hb & Eb) (b' & Hb' & Eb')].
    destruct (merge_epoch_ts_choice sk st now (meval l) (meval r)) as [C1 C2]. split.
    + destruct C1 as [->|[-> _]]; [exists a|exists b]; (split; [apply elem_of_app; auto|assumption]).
    + destruct C2 as [->|[-> _]]; [exists a'|exists b']; (split; [apply elem_of_app; auto|assumption]).
Qed.

Lemma merge_members_nonempty_l (a o : members) : a <> ∅ -> merge_members a o <> ∅.
Proof.
  intros Ha E. apply Ha. apply map_eq. intros k. rewrite lookup_empty.
  apply (f_equal (fun m => m !! k)) in E. rewrite merge_members_lookup, lookup_empty in E.
  destruct (a !! k); [destruct (o !! k); discriminate|reflexivity].
Qed.

Lemma meval_nonempty e : Forall (fun v => vw_members v <> ∅) (mleaves e) -> vw_members (meval e) <> ∅.
Proof.
  induction e as [v|sk st now l IHl r IHr]; cbn [meval mleaves]; intros H.
  - apply Forall_inv in H. exact H.
  - apply Forall_app in H as [Hl Hr]. rewrite view_merge_members. apply merge_members_nonempty_l. auto.
Qed.

Theorem meval_epoch_max e :
  mcfg cfg_max_noskew e -> Forall (fun v => vw_members v <> ∅) (mleaves e) ->
  vw_epoch (meval e) = mepoch_max e /\ vw_ts (meval e) = mts_max e.
Proof.
  induction e as [v|sk st now l IHl r IHr]; cbn [mcfg meval mleaves mepoch_max mts_max]; intros Hc H.
  - split; reflexivity.
  - destruct Hc as (Hc & Hcl & Hcr). apply Forall_app in H as [Hl Hr].
    destruct (IHl Hcl Hl) as [El Tl], (IHr Hcr Hr) as [Er Tr].
    destruct (merge_epoch_ts_exact sk st now (meval l) (meval r) (meval_nonempty r Hr)) as [E T].
    rewrite adopts_max_noskew in E, T by exact Hc. rewrite E, T, El, Er, Tl, Tr. split; reflexivity.
Qed.

Lemma zsup_app l1 l2 :
  zsup (l1 ++ l2) = match zsup l1, zsup l2 with
                    | Some x, Some y => Some (Z.max x y)
                    | Some x, None => Some x
                    | None, y => y
                    end.
Proof.
  induction l1 as [|a l1 IH].
  - reflexivity.
  - unfold zsup in *. cbn. rewrite IH.
    destruct (foldr _ None l1), (foldr _ None l2); f_equal; lia.
Qed.

Lemma zsup_perm l1 l2 : l1 ≡ₚ l2 -> zsup l1 = zsup l2.
Proof.
  apply (foldr_permutation_proper (=)); [solve_proper|]. intros x y [z|]; f_equal; lia.
Qed.

Lemma mepoch_max_zsup e :
  zsup (vw_epoch <$> mleaves e) = Some (mepoch_max e) /\ zsup (vw_ts <$> mleaves e) = Some (mts_max e).
Proof.
  induction e as [v|sk st now l [IHl IHl'] r [IHr IHr']]; cbn [mleaves mepoch_max mts_max].
  - split; reflexivity.
  - rewrite !fmap_app, !zsup_app, IHl, IHr, IHl', IHr'. split; reflexivity.
Qed.

Theorem epoch_order_insensitive_max_noskew e1 e2 :
  mcfg cfg_max_noskew e1 -> mcfg cfg_max_noskew e2 ->
  Forall (fun v => vw_members v <> ∅) (mleaves e1) -> mleaves e1 ≡ₚ mleaves e2 ->
  vw_epoch (meval e1) = vw_epoch (meval e2) /\ vw_ts (meval e1) = vw_ts (meval e2).
Proof.
  intros C1 C2 H1 Hp.
  assert (H2 : Forall (fun v => vw_members v <> ∅) (mleaves e2)) by (rewrite <- Hp; exact H1).
  destruct (meval_epoch_max e1 C1 H1) as [-> ->], (meval_epoch_max e2 C2 H2) as [-> ->].
  destruct (mepoch_max_zsup e1) as [A1 B1], (mepoch_max_zsup e2) as [A2 B2].
  assert (Pe : vw_epoch <$> mleaves e1 ≡ₚ vw_epoch <$> mleaves e2) by (rewrite Hp; reflexivity).
  assert (Pt : vw_ts <$> mleaves e1 ≡ₚ vw_ts <$> mleaves e2) by (rewrite Hp; reflexivity).
  rewrite (zsup_perm _ _ Pe), A2 in A1. rewrite (zsup_perm _ _ Pt), B2 in B1.
  split; congruence.
Qed.

(** a one-member view {id at (1,1)} with vector {id:1}, epoch [ep] and view timestamp [ts] *)
Definition w_ept (id : list N) (ep ts : Z) : view :=
  let v := view_inc (view_add (new_view ts 0) (mk id 1 1 st_up ts)) id in
  View ep ts (vw_members v) (vw_healthy v) (vw_unhealthy v) (vw_quorum v) (vw_vv v) (vw_proto v) (vw_maxent v).

Lemma w_ept_wf id ep ts : id <> [] -> WF (w_ept id ep ts) /\ VVin (w_ept id ep ts) /\ vw_members (w_ept id ep ts) <> ∅.
Proof.
  intros Hid. destruct (reach_wf _ (reach_one_member ts 0 (mk id 1 1 st_up ts) (wf_mk _ _ _) Hid)) as [W V].
  split; [exact W|]. split; [exact V|].
  unfold w_ept. cbn [vw_members]. rewrite view_inc_members. unfold view_add. cbn [vw_members new_view].
  rewrite lookup_empty. apply insert_non_empty.
Qed.

(** two such views of different nodes whose merges in the two orders end with different epochs: everything else
    the counterexamples below ask for holds of every such pair (the membership is the same, C17_merge_comm) *)
Lemma w_ept_pair sk st now ea ta eb tb :
  vw_epoch (fst (view_merge sk st now (w_ept ida ea ta) (w_ept idb eb tb))) <>
  vw_epoch (fst (view_merge sk st now (w_ept idb eb tb) (w_ept ida ea ta))) ->
  exists a b, WF a /\ WF b /\ VVin a /\ VVin b /\ vw_members a <> ∅ /\ vw_members b <> ∅ /\
    vw_epoch (fst (view_merge sk st now a b)) <> vw_epoch (fst (view_merge sk st now b a)) /\
    proj (fst (view_merge sk st now a b)) = proj (fst (view_merge sk st now b a)).
Proof.
  intros He. exists (w_ept ida ea ta), (w_ept idb eb tb).
  destruct (w_ept_wf ida ea ta) as (Wa & Va & Na); [discriminate|].
  destruct (w_ept_wf idb eb tb) as (Wb & Vb & Nb); [discriminate|].
  repeat (split; [assumption|]). apply proj_merge_comm; assumption.
Qed.

(** PreferLocal: two well-formed one-member views with concurrent vectors; the epoch of merge(a,b) is
    a's, the one of merge(b,a) is b's *)
Lemma epoch_order_sensitive_prefer_local :
  exists a b, WF a /\ WF b /\ VVin a /\ VVin b /\ vw_members a <> ∅ /\ vw_members b <> ∅ /\
    vw_epoch (fst (view_merge 0 1 0 a b)) <> vw_epoch (fst (view_merge 0 1 0 b a)) /\
    proj (fst (view_merge 0 1 0 a b)) = proj (fst (view_merge 0 1 0 b a)).
Proof. apply (w_ept_pair 0 1 0 1 100 2 100). vm_compute. discriminate. Qed.

(** clock-skew test on (MaxClockSkew = 10 ns, clock 100), TakeMax: b's view timestamp is far from the
    clock, a's is near: merge(a,b) skips b's epoch, merge(b,a) adopts the maximum *)
Lemma epoch_order_sensitive_skew :
  exists a b, WF a /\ WF b /\ VVin a /\ VVin b /\ vw_members a <> ∅ /\ vw_members b <> ∅ /\
    vw_epoch (fst (view_merge 10 0 100 a b)) <> vw_epoch (fst (view_merge 10 0 100 b a)) /\
    proj (fst (view_merge 10 0 100 a b)) = proj (fst (view_merge 10 0 100 b a)).
Proof. apply (w_ept_pair 10 0 100 1 100 2 1000). vm_compute. discriminate. Qed.

(** an argument view without members is ignored, epoch included: even under TakeMax without skew the
    epoch of merge(v, empty) and merge(empty, v) differ (hence the "has members" hypothesis above) *)
Lemma epoch_order_sensitive_empty :
  exists a b, WF a /\ WF b /\ VVin a /\ VVin b /\ vw_members a = ∅ /\
    vw_epoch (fst (view_merge 0 0 0 a b)) <> vw_epoch (fst (view_merge 0 0 0 b a)).
Proof.
  exists (View 5 100 ∅ 0 0 0 ∅ 1 0), (w_ept idb 2 100).
  destruct (w_ept_wf idb 2 100) as (Wb & Vb & Nb); [discriminate|].
  split; [intros k s H; cbn in H; rewrite lookup_empty in H; discriminate|].
  split; [assumption|].
  split; [intros k [c H]; cbn in H; rewrite lookup_empty in H; discriminate|].
  split; [assumption|]. split; [reflexivity|]. vm_compute. discriminate.
Qed.

Lemma wrap64_small z : (- two63 <= z < two63)%Z -> wrap64 z = z.
Proof. intros H. unfold wrap64. rewrite Z.mod_small; unfold two63 in *; lia. Qed.

Theorem skew_skip_exact skew now ots :
  (- two63 < now - ots < two63)%Z -> skew_skip skew now ots = skew_far skew now ots.
Proof.
  intros H. unfold skew_skip, skew_far. rewrite (wrap64_small (now - ots)) by lia.
  destruct (Z.ltb_spec (now - ots) 0).
  - rewrite wrap64_small by lia. replace (Z.abs (now - ots)) with (- (now - ots))%Z by lia. reflexivity.
  - replace (Z.abs (now - ots)) with (now - ots)%Z by lia. reflexivity.
Qed.

Lemma skew_wrap_example :
  skew_far 1000 1 (1 - two63) = true /\ skew_skip 1000 1 (1 - two63) = false.
Proof. vm_compute. auto. Qed.

Lemma isnewer_trichotomy a b :
  ns_id a = ns_id b -> wf_state a -> wf_state b ->
  (isnewer a b = true /\ isnewer b a = false /\ inc_of a <> inc_of b) \/
  (isnewer a b = false /\ isnewer b a = true /\ inc_of a <> inc_of b) \/
  (isnewer a b = false /\ isnewer b a = false /\ inc_of a = inc_of b).
Proof.
  intros Hid Wa Wb.
  rewrite (isnewer_wf a b), (isnewer_wf b a) by (assumption || congruence).
  destruct (inc_lt (inc_of b) (inc_of a)) eqn:A.
  - left. split; [reflexivity|]. split; [apply inc_lt_asym; exact A|].
    intros E. rewrite E, inc_lt_irrefl in A. discriminate.
  - destruct (inc_lt (inc_of a) (inc_of b)) eqn:B.
    + right; left. split; [reflexivity|]. split; [reflexivity|].
      intros E. rewrite E, inc_lt_irrefl in B. discriminate.
    + right; right. split; [reflexivity|]. split; [reflexivity|]. apply inc_lt_total; assumption.
Qed.

Lemma isnewer_neg_trans a b c :
  ns_id a = ns_id b -> ns_id b = ns_id c -> wf_state a -> wf_state b -> wf_state c ->
  isnewer a b = false -> isnewer b c = false -> isnewer a c = false.
Proof.
  intros H1 H2 Wa Wb Wc.
  rewrite (isnewer_wf a b), (isnewer_wf b c), (isnewer_wf a c) by (assumption || congruence).
  intros A B. exact (inc_lt_neg_trans _ _ _ A B).
Qed.

Lemma isnewer_cross_id_cycle :
  exists a b c, wf_state a /\ wf_state b /\ wf_state c /\ ns_id a = ns_id b /\ ns_id b <> ns_id c /\
    isnewer a b = true /\ isnewer b c = true /\ isnewer c a = true.
Proof.
  exists (NState ida [] 1 1 0 1 2 0), (NState ida [] 1 3 0 1 1 0), (NState idb [] 1 2 0 1 1 0).
  repeat split; cbn; try lia; try reflexivity. discriminate.
Qed.

Lemma count_up_perm l1 l2 : l1 ≡ₚ l2 -> count_up l1 = count_up l2.
Proof.
  induction 1 as [|x l l' _ IH|x y l|l l' l'' _ IH1 _ IH2]; cbn [count_up]; try lia.
Qed.

Lemma count_up_le l : count_up l <= N.of_nat (length l).
Proof. induction l as [|p l IH]; cbn [count_up length]; [lia|]. destruct (_ =? _)%Z; lia. Qed.

Lemma count_up_spec (m : members) : count_up (map_to_list m) = N.of_nat (size (up_members m)).
Proof.
  unfold up_members. induction m as [|k s m Hk IH] using map_ind.
  - rewrite map_filter_empty, map_to_list_empty, map_size_empty. reflexivity.
  - rewrite (count_up_perm _ _ (map_to_list_insert m k s Hk)). cbn [count_up snd]. rewrite IH.
    destruct (ns_status s =? st_up)%Z eqn:E.
    + rewrite map_filter_insert_True by (cbn; unfold is_up; exact E).
      rewrite map_size_insert_None by (apply map_filter_lookup_None_2; left; exact Hk). lia.
    + rewrite map_filter_insert_not' ; [lia| |].
      * cbn. unfold is_up. rewrite E. discriminate.
      * intros y Hy. rewrite Hk in Hy. discriminate.
Qed.

Theorem recompute_counts v :
  let r := recompute v in
  vw_healthy r = N.of_nat (size (up_members (vw_members v))) /\
  vw_healthy r + vw_unhealthy r = N.of_nat (size (vw_members v)) /\
  vw_quorum r = (if 0 <? vw_healthy r then vw_healthy r / 2 + 1 else 0) /\
  (0 < vw_healthy r -> vw_healthy r < 2 * vw_quorum r /\ vw_quorum r <= vw_healthy r).
Proof.
  cbn zeta. unfold recompute. cbn [vw_healthy vw_unhealthy vw_quorum].
  pose proof (count_up_le (map_to_list (vw_members v))) as Hle.
  rewrite count_up_spec in *.
  change (length (map_to_list (vw_members v))) with (size (vw_members v)) in *.
  set (h := N.of_nat (size (up_members (vw_members v)))) in *.
  set (n := N.of_nat (size (vw_members v))) in *.
  split; [reflexivity|]. split; [lia|]. split; [reflexivity|].
  intros Hpos. replace (0 <? h) with true by lia.
  pose proof (N.div_mod' h 2) as D. pose proof (N.mod_lt h 2 ltac:(lia)) as M. lia.
Qed.

Theorem merge_counts sk st now v o :
  vw_members o <> ∅ ->
  let r := fst (view_merge sk st now v o) in
  vw_healthy r = N.of_nat (size (up_members (vw_members r))) /\
  vw_healthy r + vw_unhealthy r = N.of_nat (size (vw_members r)) /\
  vw_quorum r = (if 0 <? vw_healthy r then vw_healthy r / 2 + 1 else 0) /\
  (0 < vw_healthy r -> vw_healthy r < 2 * vw_quorum r /\ vw_quorum r <= vw_healthy r).
Proof.
  intros Hne. cbn zeta. rewrite view_merge_members.
  unfold view_merge, view_merge_gen. rewrite bool_decide_eq_false_2 by (apply map_size_non_empty_iff, Hne).
  exact (recompute_counts (set_members v (merge_members (vw_members v) (vw_members o)))).
Qed.
