(** Lemmas about the gossip model (Cluster/Gossip.v).  The property statements are restated in
    Properties/C18.v. *)
From stdpp Require Import gmap.
From Vivid Require Import Cluster.VV Cluster.VVProofs Cluster.View Cluster.ViewProofs Cluster.Gossip.
Local Open Scope N_scope.

Lemma lmin_none l : lmin l = None <-> l = [].
Proof. destruct l as [|a r]; cbn; [tauto|]. destruct (lmin r); split; discriminate. Qed.

Lemma lmin_spec l m : lmin l = Some m -> m ∈ l /\ forall x, x ∈ l -> lex_le m x = true.
Proof.
  revert m. induction l as [|a r IH]; cbn; [discriminate|]. intros m.
  destruct (lmin r) as [m'|] eqn:E.
  - destruct (IH m' eq_refl) as [Hin Hle]. intros [= <-].
    destruct (lex_le a m') eqn:L.
    + split; [apply elem_of_cons; auto|]. intros x Hx. apply elem_of_cons in Hx as [->|Hx]; [apply lex_le_refl|].
      eapply lex_le_trans; [exact L|apply Hle; exact Hx].
    + split; [apply elem_of_cons; auto|]. intros x Hx. apply elem_of_cons in Hx as [->|Hx]; [|apply Hle; exact Hx].
      destruct (lex_le_total m' a) as [H|H]; [exact H|congruence].
  - apply lmin_none in E. subst r. intros [= <-]. split; [apply elem_of_cons; auto|].
    intros x Hx. apply elem_of_cons in Hx as [->|Hx]; [apply lex_le_refl|inversion Hx].
Qed.

Lemma lmin_same_set l1 l2 : same_set l1 l2 -> lmin l1 = lmin l2.
Proof.
  intros H. destruct (lmin l1) as [m1|] eqn:E1, (lmin l2) as [m2|] eqn:E2.
  - destruct (lmin_spec _ _ E1) as [I1 L1], (lmin_spec _ _ E2) as [I2 L2]. f_equal.
    apply lex_le_antisym; [apply L1, H, I2|apply L2, H, I1].
  - apply lmin_none in E2. subst l2. destruct (lmin_spec _ _ E1) as [I1 _]. apply H in I1. inversion I1.
  - apply lmin_none in E1. subst l1. destruct (lmin_spec _ _ E2) as [I2 _]. apply H in I2. inversion I2.
  - reflexivity.
Qed.

Theorem same_up_same_leader v1 v2 : same_set (up_addrs v1) (up_addrs v2) -> leader_of v1 = leader_of v2.
Proof. intros H. unfold leader_of. rewrite (lmin_same_set _ _ H). reflexivity. Qed.

Lemma up_addrs_nonempty v a : a ∈ up_addrs v -> a <> [].
Proof.
  unfold up_addrs. intros H. apply elem_of_list_fmap in H as (s & -> & Hs).
  apply elem_of_list_In, filter_In in Hs as [_ Hs]. unfold is_up_addr in Hs.
  apply andb_true_iff in Hs as [_ Hs]. apply negb_true_iff, bool_decide_eq_false in Hs. exact Hs.
Qed.

Lemma leader_in_up v : up_addrs v <> [] -> leader_of v ∈ up_addrs v.
Proof.
  intros Hne. unfold leader_of. destruct (lmin (up_addrs v)) as [m|] eqn:E.
  - cbn. apply (lmin_spec _ _ E).
  - apply lmin_none in E. contradiction.
Qed.

Lemma leader_least v a : a ∈ up_addrs v -> lex_le (leader_of v) a = true.
Proof.
  intros Ha. unfold leader_of. destruct (lmin (up_addrs v)) as [m|] eqn:E.
  - cbn. apply (lmin_spec _ _ E). exact Ha.
  - apply lmin_none in E. rewrite E in Ha. inversion Ha.
Qed.

Lemma iam_leader_spec n : iam_leader n = true <-> nd_addr n <> [] /\ leader_of (nd_view n) = nd_addr n.
Proof.
  unfold iam_leader. rewrite andb_true_iff, negb_true_iff, bool_decide_eq_false, bool_decide_eq_true. tauto.
Qed.

Theorem one_leader (nodes : list node) :
  nodes <> [] ->
  NoDup (map nd_addr nodes) ->
  (forall n, n ∈ nodes -> same_set (up_addrs (nd_view n)) (map nd_addr nodes)) ->
  exists l, (forall n, n ∈ nodes -> leader_of (nd_view n) = l) /\
            exists n, n ∈ nodes /\ iam_leader n = true /\
                      forall m, m ∈ nodes -> iam_leader m = true -> m = n.
Proof.
  intros Hne Hnd Hup.
  destruct nodes as [|n0 rest] eqn:En; [contradiction|]. rewrite <- En in *.
  assert (Hn0 : n0 ∈ nodes) by (rewrite En; apply elem_of_cons; auto).
  assert (Hsame : forall m, m ∈ nodes -> leader_of (nd_view m) = leader_of (nd_view n0)).
  { intros m Hm. apply same_up_same_leader. intros a. rewrite (Hup m Hm a), (Hup n0 Hn0 a). tauto. }
  exists (leader_of (nd_view n0)). split; [exact Hsame|].
  assert (Hl : leader_of (nd_view n0) ∈ up_addrs (nd_view n0)).
  { apply leader_in_up. intros E. apply (not_elem_of_nil (nd_addr n0)). rewrite <- E. apply Hup, elem_of_list_fmap_1; exact Hn0. }
  pose proof (up_addrs_nonempty _ _ Hl) as Hlne.
  apply (Hup n0 Hn0), elem_of_list_fmap in Hl as (n & Hna & Hn).
  exists n. split; [exact Hn|]. split.
  - apply iam_leader_spec. rewrite <- Hna. split; [exact Hlne|]. apply Hsame. exact Hn.
  - intros m Hm Hi. apply iam_leader_spec in Hi as [_ Hi]. rewrite (Hsame m Hm), Hna in Hi.
    (* equal addresses at two positions of a NoDup list *)
    apply elem_of_list_lookup in Hn as [i Hi'], Hm as [j Hj].
    assert (i = j) by (apply (NoDup_lookup _ i j (nd_addr n) Hnd); rewrite list_lookup_fmap, ?Hi', ?Hj; cbn; congruence).
    congruence.
Qed.

Lemma broadcast_payload n d v : (d, v) ∈ snd (broadcast n) -> v = nd_view n.
Proof.
  unfold broadcast. cbn [snd]. intros H. apply elem_of_list_fmap in H as (a & [= -> ->] & _). reflexivity.
Qed.

Lemma broadcast_dests n d v : (d, v) ∈ snd (broadcast n) -> d ∈ select_targets n /\ should_send (prune_last n) (vw_vv (nd_view n)) d = true.
Proof.
  unfold broadcast. cbn [snd]. intros H. apply elem_of_list_fmap in H as (a & [= -> ->] & Ha).
  apply elem_of_list_In, filter_In in Ha as [Ha1 Ha2]. split; [apply elem_of_list_In; exact Ha1|exact Ha2].
Qed.

(** PublishLeaderIfChanged, then the immediate broadcast: how every handler ends that changed the view.  The node
    that results differs from [n] in the publisher's memory and the pruned last-vector table only. *)
Definition finish (n : node) : node * list (addr * view) * list event :=
  (prune_last (fst (publish_leader n)), snd (broadcast (fst (publish_leader n))), snd (publish_leader n)).

Lemma finish_payload n d v : (d, v) ∈ snd (fst (finish n)) -> v = nd_view n.
Proof. exact (broadcast_payload _ d v). Qed.

Lemma gossip_tick_eq n : gossip_tick n = (prune_last n, snd (broadcast n), []).
Proof. reflexivity. Qed.

Lemma refresh_proj v id now :
  proj (set_members v (alter (fun s => ns_refresh s now) id (vw_members v))) = proj v.
Proof.
  apply map_eq. intros k. unfold proj. rewrite !lookup_fmap. destruct v as [ep ts ms h u q x pr mx]; cbn.
  destruct (decide (k = id)) as [->|Hne].
  - rewrite lookup_alter. destruct (ms !! id); reflexivity.
  - rewrite lookup_alter_ne by congruence. reflexivity.
Qed.
Lemma refresh_WF v id now : WF v -> WF (set_members v (alter (fun s => ns_refresh s now) id (vw_members v))).
Proof.
  intros Hv k x Hk. destruct v as [ep ts ms h u q vx pr mx]; cbn in *.
  destruct (decide (k = id)) as [->|Hne].
  - rewrite lookup_alter in Hk. destruct (ms !! id) as [s|] eqn:E; [|discriminate].
    cbn in Hk. injection Hk as <-. apply (Hv id s E).
  - rewrite lookup_alter_ne in Hk by congruence. apply (Hv k x Hk).
Qed.

(** the own view after the refresh of the sender's entry, before the merge *)
Definition gossip_pre (n : node) (src : addr) (now : Z) (choice : option (list N)) : view :=
  match choice with
  | Some id => if nonempty src
               then set_members (nd_view n) (alter (fun s => ns_refresh s now) id (vw_members (nd_view n)))
               else nd_view n
  | None => nd_view n
  end.

(** handleGossip: record the sender's vector, refresh, MergeFromWithOptions; publish and broadcast if that changed
    anything *)
Lemma handle_gossip_eq n src v now choice :
  handle_gossip n src v now choice =
  let m := view_merge 0 0 now (gossip_pre n src now choice) v in
  let n3 := set_view (if nonempty src then set_last n (<[src := vw_vv v]> (nd_last n)) else n) (fst m) in
  if snd m then finish n3 else (n3, [], []).
Proof.
  unfold handle_gossip, gossip_pre, finish. destruct choice, (nonempty src); cbv zeta;
    destruct (view_merge _ _ _ _ _) as [v' [|]]; exact eq_refl.
Qed.

Lemma handle_gossip_view n src v now choice :
  nd_view (fst (fst (handle_gossip n src v now choice))) = fst (view_merge 0 0 now (gossip_pre n src now choice) v).
Proof. rewrite handle_gossip_eq. cbv zeta. destruct (snd (view_merge _ _ _ _ _)); reflexivity. Qed.

Lemma handle_gossip_cfg n src v now choice : nd_cfg (fst (fst (handle_gossip n src v now choice))) = nd_cfg n.
Proof. rewrite handle_gossip_eq. cbv zeta. destruct (snd (view_merge _ _ _ _ _)), (nonempty src); reflexivity. Qed.

Lemma handle_gossip_payload n src v now choice d pv :
  (d, pv) ∈ snd (fst (handle_gossip n src v now choice)) ->
  pv = nd_view (fst (fst (handle_gossip n src v now choice))).
Proof.
  rewrite handle_gossip_eq. cbv zeta. destruct (snd (view_merge _ _ _ _ _)); intros H; [exact (finish_payload _ _ _ H)|inversion H].
Qed.

Lemma gossip_pre_proj n src now choice : proj (gossip_pre n src now choice) = proj (nd_view n).
Proof. unfold gossip_pre. destruct choice; [destruct (nonempty src)|]; try reflexivity. apply refresh_proj. Qed.
Lemma gossip_pre_WF n src now choice : WF (nd_view n) -> WF (gossip_pre n src now choice).
Proof. intros H. unfold gossip_pre. destruct choice; [destruct (nonempty src)|]; try exact H. apply refresh_WF. exact H. Qed.

(** handleGossip on the membership: the join (C17) *)
Theorem handle_gossip_proj n src v now choice :
  WF (nd_view n) -> WF v ->
  WF (nd_view (fst (fst (handle_gossip n src v now choice)))) /\
  proj (nd_view (fst (fst (handle_gossip n src v now choice)))) = pjoin (proj (nd_view n)) (proj v).
Proof.
  intros Hn Hv. rewrite handle_gossip_view. split.
  - apply WF_merge; [apply gossip_pre_WF; exact Hn|exact Hv].
  - rewrite proj_merge by (try apply gossip_pre_WF; assumption). rewrite gossip_pre_proj. reflexivity.
Qed.

(** The exchange round: information flow is tracked by annotating the world: every node carries the list of ORIGINS (addresses of
    running nodes) whose initial view has flowed into its view - initially just itself; a GossipMessage carries
    the origins of its sender at send time; a delivery adds the packet's origins to the receiver's.  [astep] is
    [step_world] on the annotated world for the steps of a round (gossip ticks, deliveries, losses). *)

Notation origins := (list (list N)).

Record aworld := AWorld {
  aw_nodes : gmap (list N) (node * origins);
  aw_net : list (packet * origins)
}.

Definition erase (aw : aworld) : world := World (fst <$> aw_nodes aw) (map fst (aw_net aw)).
Definition annotate (w : world) : aworld :=
  AWorld (map_imap (fun a n => Some (n, [a])) (w_nodes w)) (map (fun p => (p, [])) (w_net w)).

Definition round_step (s : step) : bool :=
  match s with SGossipTick _ | SDeliver _ _ | SDrop _ => true | _ => false end.

Definition astep (aw : aworld) (now : Z) (s : step) : option (aworld * evlog) :=
  match s with
  | SGossipTick a =>
      match aw_nodes aw !! a with
      | Some (n, o) =>
          if nd_gossip_on n then
            let '(n1, out, evs) := gossip_tick n in
            Some (AWorld (<[nd_addr n1 := (n1, o)]> (aw_nodes aw)) (aw_net aw ++ map (fun p => (p, o)) (stamp a out)), tag a evs)
          else None
      | None => None
      end
  | SDeliver k choice =>
      if N.of_nat (length (aw_net aw)) <=? k then None else
      match aw_net aw !! N.to_nat k with
      | None => None
      | Some (p, op) =>
          let net1 := remove_at k (aw_net aw) in
          match aw_nodes aw !! p_dst p with
          | None => match choice with None => Some (AWorld (aw_nodes aw) net1, []) | Some _ => None end
          | Some (n, o) =>
              let cands := refresh_candidates (nd_view n) (p_src p) in
              let valid := match choice with
                           | None => match cands with [] => true | _ :: _ => negb (nonempty (p_src p)) end
                           | Some id => bool_decide (id ∈ cands)
                           end in
              if valid then
                let '(n1, out, evs) := handle_gossip n (p_src p) (p_view p) now choice in
                Some (AWorld (<[nd_addr n1 := (n1, o ++ op)]> (aw_nodes aw))
                             (net1 ++ map (fun q => (q, o ++ op)) (stamp (p_dst p) out)), tag (p_dst p) evs)
              else None
          end
      end
  | SDrop k =>
      if N.of_nat (length (aw_net aw)) <=? k then None
      else Some (AWorld (aw_nodes aw) (remove_at k (aw_net aw)), [])
  | _ => None
  end.

Fixpoint arun (aw : aworld) (sc : list (Z * step)) : option (aworld * evlog) :=
  match sc with
  | [] => Some (aw, [])
  | (now, s) :: rest =>
      match astep aw now s with
      | None => None
      | Some (aw1, l1) => match arun aw1 rest with
                          | None => None
                          | Some (aw2, l2) => Some (aw2, l1 ++ l2)
                          end
      end
  end.

(** [erase] is stated with List.map: the stdpp lemmas about fmap, for it *)
Lemma list_lookup_map {A B} (f : A -> B) (l : list A) i : map f l !! i = f <$> l !! i.
Proof. exact (list_lookup_fmap f l i). Qed.

Lemma remove_at_map {A B} (f : A -> B) k (l : list A) : remove_at k (map f l) = map f (remove_at k l).
Proof. exact (eq_sym (list_fmap_delete f l (N.to_nat k))). Qed.

Lemma elem_of_remove_at {A} k (l : list A) x : x ∈ remove_at k l -> x ∈ l.
Proof. intros H. exact (elem_of_submseteq _ _ _ H (sublist_submseteq _ _ (sublist_delete l _))). Qed.

Lemma stamp_annot_erase (o : origins) ps : map fst (map (fun p : packet => (p, o)) ps) = ps.
Proof. rewrite map_map. cbn. apply map_id. Qed.

Lemma astep_erase aw now s :
  round_step s = true ->
  step_world (erase aw) now s = (fun r => (erase (fst r), snd r)) <$> astep aw now s.
Proof.
  destruct s as [c asks|a asks|a|a asks|k choice|k|a|a|a id]; try discriminate; intros _; cbn [step_world astep].
  - unfold erase at 1; cbn [w_nodes]. rewrite lookup_fmap.
    destruct (aw_nodes aw !! a) as [[n o]|]; [|reflexivity]. cbn [fmap option_fmap option_map fst].
    destruct (nd_gossip_on n); [|reflexivity].
    destruct (gossip_tick n) as [[n1 out] evs]. cbn [fmap option_fmap option_map fst snd].
    unfold add_net, put_node, erase; cbn [w_nodes w_net aw_nodes aw_net].
    rewrite fmap_insert, map_app, stamp_annot_erase. reflexivity.
  - unfold erase at 1 2 3 4; cbn [w_nodes w_net]. rewrite map_length.
    destruct (N.of_nat (length (aw_net aw)) <=? k); [reflexivity|].
    rewrite list_lookup_map.
    destruct (aw_net aw !! N.to_nat k) as [[p op]|]; [|reflexivity]. cbn [fmap option_fmap option_map fst].
    rewrite lookup_fmap.
    destruct (aw_nodes aw !! p_dst p) as [[n o]|]; cbn [fmap option_fmap option_map fst].
    + match goal with |- context [if ?b then _ else None] => destruct b end; [|reflexivity].
      destruct (handle_gossip n (p_src p) (p_view p) now choice) as [[n1 out] evs].
      cbn [fmap option_fmap option_map fst snd].
      unfold add_net, put_node, erase; cbn [w_nodes w_net aw_nodes aw_net].
      rewrite fmap_insert, map_app, stamp_annot_erase, remove_at_map. reflexivity.
    + destruct choice; [reflexivity|]. cbn [fmap option_fmap option_map fst snd].
      unfold erase; cbn [aw_nodes aw_net w_nodes w_net]. rewrite remove_at_map. reflexivity.
  - unfold erase at 1 2 3; cbn [w_nodes w_net]. rewrite map_length.
    destruct (N.of_nat (length (aw_net aw)) <=? k); [reflexivity|].
    cbn [fmap option_fmap option_map fst snd]. unfold erase; cbn [aw_nodes aw_net w_nodes w_net]. rewrite remove_at_map. reflexivity.
Qed.

Lemma arun_erase aw sc :
  forallb (fun p => round_step (snd p)) sc = true ->
  run (erase aw) sc = (fun r => (erase (fst r), snd r)) <$> arun aw sc.
Proof.
  revert aw. induction sc as [|[now s] rest IH]; intros aw H; cbn [run arun]; [reflexivity|].
  cbn [forallb snd] in H. apply andb_true_iff in H as [H1 H2].
  rewrite astep_erase by exact H1.
  destruct (astep aw now s) as [[aw1 l1]|]; cbn [fmap option_fmap option_map fst snd]; [|reflexivity].
  rewrite IH by exact H2.
  destruct (arun aw1 rest) as [[aw2 l2]|]; reflexivity.
Qed.

Lemma erase_annotate w : erase (annotate w) = w.
Proof.
  destruct w as [ns net]. unfold erase, annotate; cbn. f_equal.
  - apply map_eq. intros a. rewrite lookup_fmap, map_lookup_imap. destruct (ns !! a); reflexivity.
  - rewrite map_map. cbn. apply map_id.
Qed.

Lemma pjoin_all_set_eq l1 l2 : same_set l1 l2 -> pjoin_all l1 = pjoin_all l2.
Proof.
  intros H. apply map_eq. intros k.
  destruct (pjoin_all l1 !! k) as [p|] eqn:E1.
  - destruct (pjoin_all_some _ _ _ E1) as [(v & Hv & Hvk) Hmax1].
    destruct (pjoin_all l2 !! k) as [q|] eqn:E2.
    + destruct (pjoin_all_some _ _ _ E2) as [(u & Hu & Huk) Hmax2]. f_equal.
      apply inc_lt_total; [apply (Hmax1 u q); [apply H; exact Hu|exact Huk]|apply (Hmax2 v p); [apply H; exact Hv|exact Hvk]].
    + pose proof (proj1 (pjoin_all_none l2 k) E2 v (proj1 (H v) Hv)) as Hn. congruence.
  - symmetry. apply pjoin_all_none. intros v Hv. apply (proj1 (pjoin_all_none l1 k) E1). apply H. exact Hv.
Qed.

Section Round.
  Variable w0 : world.

  Definition view0 (a : list N) : option view := nd_view <$> w_nodes w0 !! a.
  Definition pj (o : origins) : pmap := pjoin_all (omap view0 o).
  Definition all_views0 : list view := map nd_view (map snd (map_to_list (w_nodes w0))).

  Lemma pj_app o1 o2 : pj (o1 ++ o2) = pjoin (pj o1) (pj o2).
  Proof. unfold pj. rewrite omap_app. apply pjoin_all_app. Qed.

  Definition known (o : origins) : Prop := forall b, b ∈ o -> is_Some (w_nodes w0 !! b).

  Definition AInv (aw : aworld) : Prop :=
    (forall a n o, aw_nodes aw !! a = Some (n, o) ->
       nd_addr n = a /\ WF (nd_view n) /\ proj (nd_view n) = pj o /\ known o) /\
    (forall p o, (p, o) ∈ aw_net aw -> WF (p_view p) /\ proj (p_view p) = pj o /\ known o).

  Hypothesis keyed : forall a n, w_nodes w0 !! a = Some n -> nd_addr n = a.
  Hypothesis wf0 : forall a n, w_nodes w0 !! a = Some n -> WF (nd_view n).
  Hypothesis net0 : w_net w0 = [].

  Lemma AInv_init : AInv (annotate w0).
  Proof.
    split.
    - intros a n o H. unfold annotate in H; cbn in H. rewrite map_lookup_imap in H.
      destruct (w_nodes w0 !! a) as [m|] eqn:E; [|discriminate]. cbn in H. injection H as <- <-.
      split; [apply keyed; exact E|]. split; [apply (wf0 _ _ E)|]. split.
      + unfold pj, view0. cbn. rewrite E. cbn. unfold pjoin_all; cbn. rewrite pjoin_empty_r. reflexivity.
      + intros b Hb. apply elem_of_list_singleton in Hb. subst. eexists; exact E.
    - intros p o H. unfold annotate in H; cbn in H. rewrite net0 in H. inversion H.
  Qed.

  Lemma AInv_step aw now s aw' l : AInv aw -> astep aw now s = Some (aw', l) -> AInv aw'.
  Proof.
    intros [Hn Hp] Hs. destruct s as [c asks|a asks|a|a asks|k choice|k|a|a|a id]; try discriminate; cbn [astep] in Hs.
    - (* gossip tick *)
      destruct (aw_nodes aw !! a) as [[n o]|] eqn:E; [|discriminate].
      destruct (nd_gossip_on n); [|discriminate]. rewrite gossip_tick_eq in Hs. cbv beta iota in Hs. injection Hs as <- <-.
      destruct (Hn a n o E) as (Ha & Hwf & Hpr & Hk). change (nd_addr (prune_last n)) with (nd_addr n). rewrite Ha.
      split; cbn [aw_nodes aw_net].
      + intros b m ob Hb. apply lookup_insert_Some in Hb as [(<- & [= <- <-])|[_ Hb]]; [auto|apply (Hn b m ob Hb)].
      + intros p ob Hin. apply elem_of_app in Hin as [Hin|Hin]; [apply (Hp p ob Hin)|].
        apply elem_of_list_fmap in Hin as (q & [= -> ->] & Hq).
        apply elem_of_list_fmap in Hq as ([d v] & -> & Hdv). apply broadcast_payload in Hdv as ->. auto.
    - (* deliver *)
      destruct (N.of_nat (length (aw_net aw)) <=? k); [discriminate|].
      destruct (aw_net aw !! N.to_nat k) as [[p op]|] eqn:Ek; [|discriminate].
      apply elem_of_list_lookup_2 in Ek. destruct (Hp p op Ek) as (Hpw & Hpp & Hpk).
      destruct (aw_nodes aw !! p_dst p) as [[n o]|] eqn:E.
      + match type of Hs with (if ?b then _ else None) = _ => destruct b end; [|discriminate].
        destruct (handle_gossip n (p_src p) (p_view p) now choice) as [[n1 out] evs] eqn:G. injection Hs as <- <-.
        destruct (Hn _ n o E) as (Ha & Hwf & Hpr & Hk).
        pose proof (handle_gossip_proj n (p_src p) (p_view p) now choice Hwf Hpw) as [W1 P1].
        rewrite G in W1, P1. cbn [fst] in W1, P1.
        assert (Hc1 : nd_addr n1 = p_dst p).
        { unfold nd_addr. change n1 with (fst (fst (n1, out, evs))). rewrite <- G, handle_gossip_cfg. exact Ha. }
        assert (Hk' : known (o ++ op)).
        { intros b Hb. apply elem_of_app in Hb as [Hb|Hb]; [apply Hk|apply Hpk]; exact Hb. }
        assert (P2 : proj (nd_view n1) = pj (o ++ op)) by (rewrite P1, pj_app, Hpr, Hpp; reflexivity).
        split; cbn [aw_nodes aw_net].
        * intros b m ob Hb. rewrite Hc1 in Hb. destruct (decide (b = p_dst p)) as [->|Hne].
          -- rewrite lookup_insert in Hb. injection Hb as <- <-. auto.
          -- rewrite lookup_insert_ne in Hb by congruence. apply (Hn b m ob Hb).
        * intros q ob Hin. apply elem_of_app in Hin as [Hin|Hin]; [apply elem_of_remove_at in Hin; apply (Hp q ob Hin)|].
          apply elem_of_list_fmap in Hin as (q' & [= -> ->] & Hq).
          unfold stamp in Hq. apply elem_of_list_fmap in Hq as ([d v] & -> & Hdv). cbn [p_view fst snd].
          assert (v = nd_view n1).
          { pose proof (handle_gossip_payload n (p_src p) (p_view p) now choice d v) as HP. rewrite G in HP. apply HP. exact Hdv. }
          subst v. auto.
      + destruct choice; [discriminate|]. injection Hs as <- <-. split; cbn [aw_nodes aw_net]; [exact Hn|].
        intros q ob Hin. apply elem_of_remove_at in Hin. apply (Hp q ob Hin).
    - (* drop *)
      destruct (N.of_nat (length (aw_net aw)) <=? k); [discriminate|]. injection Hs as <- <-.
      split; cbn [aw_nodes aw_net]; [exact Hn|].
      intros q ob Hin. apply elem_of_remove_at in Hin. apply (Hp q ob Hin).
  Qed.

  Lemma AInv_run sc : forall aw aw' l, AInv aw -> arun aw sc = Some (aw', l) -> AInv aw'.
  Proof.
    induction sc as [|[now s] rest IH]; intros aw aw' l Hi Hr; cbn [arun] in Hr.
    - injection Hr as <- <-. exact Hi.
    - destruct (astep aw now s) as [[aw1 l1]|] eqn:E; [|discriminate].
      destruct (arun aw1 rest) as [[aw2 l2]|] eqn:E2; [|discriminate]. injection Hr as <- <-.
      eapply IH; [eapply AInv_step; eassumption|exact E2].
  Qed.

  Lemma covered_is_join o :
    known o -> (forall b, is_Some (w_nodes w0 !! b) -> b ∈ o) -> pj o = pjoin_all all_views0.
  Proof.
    intros Hk Hc. unfold pj. apply pjoin_all_set_eq. intros v. unfold all_views0. split.
    - intros H. apply elem_of_list_omap in H as (b & Hb & Hv). unfold view0 in Hv.
      destruct (w_nodes w0 !! b) as [n|] eqn:E; [|discriminate]. cbn in Hv. injection Hv as <-.
      apply elem_of_list_fmap. exists n. split; [reflexivity|]. apply elem_of_list_fmap. exists (b, n).
      split; [reflexivity|]. apply elem_of_map_to_list. exact E.
    - intros H. apply elem_of_list_fmap in H as (n & -> & Hn). apply elem_of_list_fmap in Hn as ([b n'] & -> & Hbn).
      apply elem_of_map_to_list in Hbn. cbn. apply elem_of_list_omap. exists b. split.
      + apply Hc. eexists; exact Hbn.
      + unfold view0. rewrite Hbn. reflexivity.
  Qed.

  (** "every running node's view reaches every other": after the round every node's origins cover all *)
  Definition all_reached (aw : aworld) : Prop :=
    forall a n o, aw_nodes aw !! a = Some (n, o) -> forall b, is_Some (w_nodes w0 !! b) -> b ∈ o.

  Theorem exchange_round_annotated sc aw1 l :
    arun (annotate w0) sc = Some (aw1, l) -> all_reached aw1 ->
    forall a n, w_nodes (erase aw1) !! a = Some n ->
      WF (nd_view n) /\ proj (nd_view n) = pjoin_all all_views0.
  Proof.
    intros Hr Hall a n Ha. pose proof (AInv_run sc _ _ _ AInv_init Hr) as [Hn _].
    unfold erase in Ha; cbn in Ha. rewrite lookup_fmap in Ha.
    destruct (aw_nodes aw1 !! a) as [[m o]|] eqn:E; [|discriminate]. cbn in Ha. injection Ha as <-.
    destruct (Hn a m o E) as (_ & Hwf & Hpr & Hk). split; [exact Hwf|].
    rewrite Hpr. apply covered_is_join; [exact Hk|]. apply (Hall a m o E).
  Qed.
End Round.

(** the statement on the plain world: the annotated run exists whenever the plain one does *)
Theorem exchange_round w0 sc w1 l :
  (forall a n, w_nodes w0 !! a = Some n -> nd_addr n = a) ->
  (forall a n, w_nodes w0 !! a = Some n -> WF (nd_view n)) ->
  w_net w0 = [] ->
  forallb (fun p => round_step (snd p)) sc = true ->
  run w0 sc = Some (w1, l) ->
  exists aw1, arun (annotate w0) sc = Some (aw1, l) /\ erase aw1 = w1 /\
    (all_reached w0 aw1 ->
     forall a n, w_nodes w1 !! a = Some n ->
       WF (nd_view n) /\ proj (nd_view n) = pjoin_all (all_views0 w0)).
Proof.
  intros Hk Hwf Hnet Hsc Hr.
  pose proof (arun_erase (annotate w0) sc Hsc) as He. rewrite erase_annotate, Hr in He.
  destruct (arun (annotate w0) sc) as [[aw1 l1]|] eqn:Ea; [|discriminate].
  cbn [fmap option_fmap option_map fst snd] in He. injection He as -> ->. exists aw1. split; [reflexivity|]. split; [reflexivity|].
  intros Hall a n Ha. eapply exchange_round_annotated; eassumption.
Qed.

Lemma filter_nil_forall {A} (f : A -> bool) l : (forall x, x ∈ l -> f x = false) -> List.filter f l = [].
Proof.
  induction l as [|x l IH]; intros H; cbn; [reflexivity|].
  rewrite (H x) by (apply elem_of_cons; auto). apply IH. intros y Hy. apply H. apply elem_of_cons; auto.
Qed.

Lemma isort_elem {A} (le : A -> A -> bool) l x : x ∈ isort le l <-> x ∈ l.
Proof. rewrite (isort_perm le l). reflexivity. Qed.

Lemma select_targets_prune n : select_targets (prune_last n) = select_targets n.
Proof. reflexivity. Qed.

(** a target of the selection is a seed or a member address: its record survives pruneLastVersionVectors *)
Lemma prune_keeps_target n t : t ∈ select_targets n -> nd_last (prune_last n) !! t = nd_last n !! t.
Proof.
  intros Ht. unfold select_targets in Ht. apply isort_elem, elem_of_remove_dups, elem_of_list_In, filter_In in Ht as [Hin Hf].
  apply andb_true_iff in Hf as [Hne _].
  unfold prune_last. cbn [nd_last set_last].
  set (allowed := _ ++ _).
  assert (Ha : t ∈ allowed).
  { unfold allowed. apply in_app_or in Hin as [Hin|Hin].
    - apply elem_of_app. right. apply elem_of_list_In, filter_In. split; assumption.
    - apply elem_of_app. left. apply elem_of_list_In, filter_In. split; assumption. }
  destruct (nd_last n !! t) as [x|] eqn:E.
  - apply map_filter_lookup_Some. split; [exact E|exact Ha].
  - apply map_filter_lookup_None. left. exact E.
Qed.

Theorem gossip_sent_iff n t :
  (exists v, (t, v) ∈ snd (fst (gossip_tick n))) <->
  t ∈ select_targets n /\
  match nd_last n !! t with
  | None => True
  | Some theirs => vcompare (vw_vv (nd_view n)) theirs = VAfter \/ vcompare (vw_vv (nd_view n)) theirs = VConcurrent
  end.
Proof.
  rewrite gossip_tick_eq. unfold broadcast. cbn [fst snd]. split.
  - intros [v H]. apply elem_of_list_fmap in H as (a & [= -> ->] & Ha).
    apply elem_of_list_In, filter_In in Ha as [Ha1 Ha2]. apply elem_of_list_In in Ha1.
    rewrite select_targets_prune in Ha1. split; [exact Ha1|].
    unfold should_send in Ha2. rewrite (prune_keeps_target n a Ha1) in Ha2.
    destruct (nd_last n !! a) as [th|]; [|exact I]. cbn [nd_view prune_last set_last view_snapshot] in Ha2.
    destruct (vcompare (vw_vv (nd_view n)) th); try discriminate; auto.
  - intros [Ht Hc]. exists (view_snapshot (nd_view (prune_last n))). apply elem_of_list_fmap. exists t. split; [reflexivity|].
    apply elem_of_list_In, filter_In. split; [apply elem_of_list_In; rewrite select_targets_prune; exact Ht|].
    unfold should_send. rewrite (prune_keeps_target n t Ht).
    destruct (nd_last n !! t) as [th|]; [|reflexivity]. cbn [nd_view prune_last set_last view_snapshot].
    destruct Hc as [-> | ->]; reflexivity.
Qed.

Theorem gossip_fixpoint n :
  (forall t, t ∈ select_targets n -> exists theirs, nd_last n !! t = Some theirs /\
       (vcompare (vw_vv (nd_view n)) theirs = VEqual \/ vcompare (vw_vv (nd_view n)) theirs = VBefore)) ->
  snd (fst (gossip_tick n)) = [] /\ snd (gossip_tick n) = [] /\ nd_view (fst (fst (gossip_tick n))) = nd_view n.
Proof.
  intros H. split; [|split; reflexivity].
  destruct (snd (fst (gossip_tick n))) as [|[t v] r] eqn:E; [reflexivity|]. exfalso.
  assert (Hs : exists v', (t, v') ∈ snd (fst (gossip_tick n))) by (exists v; rewrite E; apply elem_of_cons; auto).
  apply gossip_sent_iff in Hs as [Ht Hc]. destruct (H t Ht) as (th & Hth & Hcmp). rewrite Hth in Hc.
  destruct Hc as [Hc|Hc], Hcmp as [Hq|Hq]; congruence.
Qed.

Theorem gossip_tick_silent n : snd (gossip_tick n) = [] /\ nd_view (fst (fst (gossip_tick n))) = nd_view n.
Proof. split; reflexivity. Qed.

Definition suppressed (n : node) : Prop :=
  forall t, t ∈ select_targets n -> exists theirs, nd_last n !! t = Some theirs /\
    (vcompare (vw_vv (nd_view n)) theirs = VEqual \/ vcompare (vw_vv (nd_view n)) theirs = VBefore).

Definition quiescent (w : world) : Prop :=
  w_net w = [] /\
  forall a n, w_nodes w !! a = Some n ->
    nd_addr n = a /\ nd_fd_on n = false /\ nd_retry_on n = false /\ suppressed n.

Lemma suppressed_prune n : suppressed n -> suppressed (prune_last n).
Proof.
  intros H t Ht. rewrite select_targets_prune in Ht. destruct (H t Ht) as (th & Hth & Hc).
  exists th. split; [rewrite prune_keeps_target by exact Ht; exact Hth|exact Hc].
Qed.

Theorem quiescent_stable w now s w' l :
  quiescent w -> fault_free s = true -> step_world w now s = Some (w', l) ->
  l = [] /\ quiescent w' /\ forall a, nd_view <$> (w_nodes w' !! a) = nd_view <$> (w_nodes w !! a).
Proof.
  intros [Hnet Hq] Hf Hs.
  destruct s as [c asks|a asks|a|a asks|k choice|k|a|a|a id]; try discriminate; cbn [step_world] in Hs.
  - (* join retry: not pending *)
    destruct (w_nodes w !! a) as [n|] eqn:E; [|discriminate].
    destruct (Hq a n E) as (_ & _ & Hr & _). rewrite Hr in Hs. discriminate.
  - (* gossip tick *)
    destruct (w_nodes w !! a) as [n|] eqn:E; [|discriminate].
    destruct (Hq a n E) as (Ha & Hfd & Hr & Hsup).
    destruct (nd_gossip_on n); [|discriminate].
    destruct (gossip_fixpoint n Hsup) as (Hout & _ & _). rewrite gossip_tick_eq in Hs, Hout. cbn [fst snd] in Hout.
    cbv beta iota in Hs. rewrite Hout in Hs. injection Hs as <- <-. split; [reflexivity|].
    assert (Hk : nd_addr (prune_last n) = a) by exact Ha.
    split; [split|].
    + cbn. rewrite Hnet. reflexivity.
    + intros b m Hb. cbn in Hb. rewrite Hk in Hb. destruct (decide (b = a)) as [->|Hne].
      * rewrite lookup_insert in Hb. injection Hb as <-. split; [exact Ha|]. split; [exact Hfd|]. split; [exact Hr|].
        apply suppressed_prune. exact Hsup.
      * rewrite lookup_insert_ne in Hb by congruence. apply (Hq b m Hb).
    + intros b. cbn. rewrite Hk. destruct (decide (b = a)) as [->|Hne].
      * rewrite lookup_insert, E. reflexivity.
      * rewrite lookup_insert_ne by congruence. reflexivity.
  - (* failure-detection tick: no loop *)
    destruct (w_nodes w !! a) as [n|] eqn:E; [|discriminate].
    destruct (Hq a n E) as (_ & Hfd & _ & _). rewrite Hfd in Hs. discriminate.
  - (* deliver: nothing in flight *)
    rewrite Hnet in Hs. cbn in Hs. destruct k; discriminate.
Qed.

(** boolean versions, to establish the hypotheses on concrete worlds by computation *)
Definition suppressed_b (n : node) : bool :=
  forallb (fun t => match nd_last n !! t with
                    | Some theirs => match vcompare (vw_vv (nd_view n)) theirs with VEqual | VBefore => true | _ => false end
                    | None => false
                    end) (select_targets n).
Definition quiescent_b (w : world) : bool :=
  match w_net w with [] => true | _ :: _ => false end &&
  forallb (fun p => bool_decide (nd_addr (snd p) = fst p) && negb (nd_fd_on (snd p)) && negb (nd_retry_on (snd p)) && suppressed_b (snd p))
          (map_to_list (w_nodes w)).

Lemma forallb_elem_of {A} (f : A -> bool) l : forallb f l = true <-> forall x, x ∈ l -> f x = true.
Proof. rewrite forallb_forall. split; intros H x Hx; apply H, elem_of_list_In, Hx. Qed.

Lemma forallb_map_to_list {A} (f : list N * A -> bool) (m : gmap (list N) A) :
  forallb f (map_to_list m) = true <-> forall k x, m !! k = Some x -> f (k, x) = true.
Proof.
  rewrite forallb_elem_of. split; [intros H k x Hk; apply H, elem_of_map_to_list, Hk|intros H [k x] Hx; apply H, elem_of_map_to_list, Hx].
Qed.

Lemma elem_of_nodes_of w n : n ∈ nodes_of w <-> exists a, w_nodes w !! a = Some n.
Proof.
  unfold nodes_of. rewrite elem_of_list_fmap. split.
  - intros ([a n'] & -> & H). exists a. apply elem_of_map_to_list, H.
  - intros [a H]. exists (a, n). split; [reflexivity|apply elem_of_map_to_list, H].
Qed.

Lemma forallb_nodes_of (f : node -> bool) w : forallb f (nodes_of w) = true <-> forall a n, w_nodes w !! a = Some n -> f n = true.
Proof.
  rewrite forallb_elem_of. split; [intros H a n Ha; apply H, elem_of_nodes_of; eauto|intros H n Hn; apply elem_of_nodes_of in Hn as [a Ha]; eauto].
Qed.

Lemma suppressed_b_sound n : suppressed_b n = true -> suppressed n.
Proof.
  unfold suppressed_b. rewrite forallb_elem_of. intros H t Ht. specialize (H t Ht).
  destruct (nd_last n !! t) as [th|]; [|discriminate]. exists th. split; [reflexivity|].
  destruct (vcompare (vw_vv (nd_view n)) th); try discriminate; auto.
Qed.

Lemma quiescent_b_sound w : quiescent_b w = true -> quiescent w.
Proof.
  unfold quiescent_b. rewrite andb_true_iff, forallb_map_to_list. intros [Hn H]. split.
  - destruct (w_net w); [reflexivity|discriminate].
  - intros a n Ha. specialize (H a n Ha). cbn [fst snd] in H.
    rewrite !andb_true_iff, !negb_true_iff, bool_decide_eq_true in H. destruct H as [[[H1 H2] H3] H4].
    split; [exact H1|]. split; [exact H2|]. split; [exact H3|]. apply suppressed_b_sound. exact H4.
Qed.

Lemma subset_b_spec {A} `{EqDecision A} (l1 l2 : list A) : subset_b l1 l2 = true <-> forall x, x ∈ l1 -> x ∈ l2.
Proof. unfold subset_b. rewrite forallb_elem_of. split; intros H x Hx; [exact (proj1 (bool_decide_eq_true _) (H x Hx))|apply bool_decide_eq_true, H, Hx]. Qed.

Lemma converged_b_spec w : converged_b w = true <-> converged w.
Proof.
  unfold converged_b, converged. change (map snd (map_to_list (w_nodes w))) with (nodes_of w). rewrite forallb_nodes_of.
  split; intros H a n Ha; specialize (H a n Ha).
  - rewrite !andb_true_iff, !subset_b_spec, forallb_nodes_of in H. destruct H as [[H1 H2] H3].
    split; [intros x; split; [apply H1|apply H2]|]. intros b m Hb. exact (proj1 (bool_decide_eq_true _) (H3 b m Hb)).
  - destruct H as [Hs Hl]. rewrite !andb_true_iff, !subset_b_spec, forallb_nodes_of.
    split; [split; intros x; apply Hs|]. intros b m Hb. apply bool_decide_eq_true, (Hl b m Hb).
Qed.

(** the executions the refutations exhibit: the scenario [ps] splits into a fault phase and [k] last rounds that are
    fair rounds of length [d] from clock [t]; [P] sees the two schedules, the world and log when the faults stop,
    and the world and per-round logs at the end *)
Definition witness (ps : list phase) (k : nat) (t d : Z)
    (P : sched -> list sched -> world -> evlog -> world -> list evlog -> bool) : Prop :=
  exists w1 l1 w2 logs,
    run empty_world (faults_of ps k) = Some (w1, l1) /\ fair_rounds w1 t d (rounds_of ps k) = Some (w2, logs) /\
    P (faults_of ps k) (rounds_of ps k) w1 l1 w2 logs = true.

Lemma run_app w s1 s2 :
  run w (s1 ++ s2) = match run w s1 with
                     | Some (w1, l1) => match run w1 s2 with Some (w2, l2) => Some (w2, l1 ++ l2) | None => None end
                     | None => None
                     end.
Proof.
  revert w. induction s1 as [|[now s] r IH]; intros w; cbn [run app].
  - destruct (run w s2) as [[w2 l2]|]; reflexivity.
  - destruct (step_world w now s) as [[w1 l1]|]; [|reflexivity]. rewrite IH.
    destruct (run w1 r) as [[w2 l2]|]; [|reflexivity]. destruct (run w2 s2) as [[w3 l3]|]; [|reflexivity].
    rewrite app_assoc. reflexivity.
Qed.

(** what [do_steps] and [drain] append to their accumulators *)
Definition replays (w : world) (acc : sched) (log : evlog) (r : world * sched * evlog) : Prop :=
  exists s lg, snd (fst r) = acc ++ s /\ snd r = log ++ lg /\ run w s = Some (fst (fst r), lg).

Lemma replays_nil w acc log : replays w acc log (w, acc, log).
Proof. exists [], []. rewrite !app_nil_r. auto. Qed.

Lemma replays_cons w t s w1 lg1 acc log r :
  step_world w t s = Some (w1, lg1) -> replays w1 (acc ++ [(t, s)]) (log ++ lg1) r -> replays w acc log r.
Proof.
  intros E (s2 & lg2 & E1 & E2 & Hr). exists ((t, s) :: s2), (lg1 ++ lg2). rewrite E1, E2, <- !app_assoc.
  split; [reflexivity|]. split; [reflexivity|]. cbn [run]. rewrite E, Hr. reflexivity.
Qed.

Lemma replays_trans w acc log w1 acc1 log1 r :
  replays w acc log (w1, acc1, log1) -> replays w1 acc1 log1 r -> replays w acc log r.
Proof.
  intros (s1 & g1 & E1 & E2 & R1) (s2 & g2 & E3 & E4 & R2). cbn [fst snd] in E1, E2, R1. subst acc1 log1.
  exists (s1 ++ s2), (g1 ++ g2). rewrite E3, E4, <- !app_assoc, run_app, R1, R2. auto.
Qed.

Lemma do_steps_run t mk l : forall w acc log r, do_steps t w mk l acc log = Some r -> replays w acc log r.
Proof.
  induction l as [|a l IH]; intros w acc log r H; cbn [do_steps] in H.
  - injection H as <-. apply replays_nil.
  - destruct (match w_nodes w !! a with Some n => mk n | None => None end) as [s|]; [|apply IH; exact H].
    destruct (step_world w t s) as [[w1 lg1]|] eqn:E; [|discriminate]. eapply replays_cons; [exact E|apply IH; exact H].
Qed.

Lemma drain_run t fuel : forall w acc log r,
  drain fuel t w acc log = Some r -> replays w acc log r /\ w_net (fst (fst r)) = [].
Proof.
  induction fuel as [|f IH]; intros w acc log r H; cbn [drain] in H; destruct (w_net w) eqn:En; try discriminate;
    try (injection H as <-; split; [apply replays_nil|exact En]).
  destruct (step_world w t _) as [[w1 lg1]|] eqn:E; [|discriminate].
  destruct (IH _ _ _ _ H) as [Hr Hn]. split; [eapply replays_cons; eassumption|exact Hn].
Qed.

Lemma auto_round_run t w w' s l : auto_round t w = Some (w', s, l) -> run w s = Some (w', l) /\ w_net w' = [].
Proof.
  unfold auto_round. intros H.
  destruct (do_steps t w _ _ [] []) as [[[w1 s1] l1]|] eqn:E1; [|discriminate]. apply do_steps_run in E1.
  destruct (drain _ t w1 s1 l1) as [[[w2 s2] l2]|] eqn:E2; [|discriminate]. apply drain_run in E2 as [E2 _].
  destruct (do_steps t w2 _ _ s2 l2) as [[[w3 s3] l3]|] eqn:E3; [|discriminate]. apply do_steps_run in E3.
  destruct (do_steps t w3 _ _ s3 l3) as [[[w4 s4] l4]|] eqn:E4; [|discriminate]. apply do_steps_run in E4.
  apply drain_run in H as [E5 Hn]. split; [|exact Hn].
  destruct (replays_trans _ _ _ _ _ _ _ E1 (replays_trans _ _ _ _ _ _ _ E2 (replays_trans _ _ _ _ _ _ _ E3
              (replays_trans _ _ _ _ _ _ _ E4 E5)))) as (s0 & l0 & Es & El & R).
  cbn [fst snd app] in Es, El, R. subst s l. exact R.
Qed.

Definition log_of (rs : list (sched * evlog)) : evlog := concat (map snd rs).

Lemma auto_rounds_run n : forall t d w w' rs,
  auto_rounds n t d w = Some (w', rs) -> run w (sched_of rs) = Some (w', log_of rs).
Proof.
  induction n as [|n IH]; intros t d w w' rs H; cbn [auto_rounds] in H.
  - injection H as <- <-. reflexivity.
  - destruct (auto_round t w) as [[[w1 s1] l1]|] eqn:E; [|discriminate]. apply auto_round_run in E as [E _].
    destruct (auto_rounds n (t + d) d w1) as [[w2 rs2]|] eqn:E2; [|discriminate]. injection H as <- <-.
    change (run w (s1 ++ sched_of rs2) = Some (w2, l1 ++ log_of rs2)). rewrite run_app, E, (IH _ _ _ _ _ E2). reflexivity.
Qed.

Lemma play_run ps : forall w w' rs, play w ps = Some (w', rs) -> run w (sched_of rs) = Some (w', log_of rs).
Proof.
  induction ps as [|[s|n t0 d] ps IH]; intros w w' rs H; cbn [play] in H.
  - injection H as <- <-. reflexivity.
  - destruct (run w s) as [[w1 l1]|] eqn:E; [|discriminate].
    destruct (play w1 ps) as [[w2 rs2]|] eqn:E2; [|discriminate]. injection H as <- <-.
    change (run w (s ++ sched_of rs2) = Some (w2, l1 ++ log_of rs2)). rewrite run_app, E, (IH _ _ _ E2). reflexivity.
  - destruct (auto_rounds n t0 d w) as [[w1 rs1]|] eqn:E; [|discriminate].
    destruct (play w1 ps) as [[w2 rs2]|] eqn:E2; [|discriminate]. injection H as <- <-.
    unfold sched_of, log_of. rewrite !map_app, !concat_app, run_app.
    fold (sched_of rs1) (log_of rs1) (sched_of rs2) (log_of rs2). rewrite (auto_rounds_run _ _ _ _ _ _ E), (IH _ _ _ E2). reflexivity.
Qed.

Lemma play_snoc ps ph : forall w w1 rs1 w2 rs2,
  play w ps = Some (w1, rs1) -> play w1 [ph] = Some (w2, rs2) -> play w (ps ++ [ph]) = Some (w2, rs1 ++ rs2).
Proof.
  induction ps as [|[s|n t0 d] ps IH]; intros w w1 rs1 w2 rs2 H H2; cbn [play app] in H |- *.
  - injection H as <- <-. exact H2.
  - destruct (run w s) as [[wa la]|]; [|discriminate]. destruct (play wa ps) as [[wb rsb]|] eqn:E; [|discriminate].
    injection H as <- <-. rewrite (IH _ _ _ _ _ E H2). reflexivity.
  - destruct (auto_rounds n t0 d w) as [[wa rsa]|]; [|discriminate]. destruct (play wa ps) as [[wb rsb]|] eqn:E; [|discriminate].
    injection H as <- <-. rewrite (IH _ _ _ _ _ E H2), app_assoc. reflexivity.
Qed.

(** the canonical rounds, checked for fairness as they are produced (the world each round starts from is at hand) *)
Fixpoint fair_auto_rounds (n : nat) (t d : Z) (w : world) : option (world * list (sched * evlog)) :=
  match n with
  | O => Some (w, [])
  | S n' =>
      match auto_round t w with
      | Some (w1, s1, l1) =>
          if forallb (fun x => fault_free (snd x)) s1 && clocks_from t s1 && ticks_everyone w s1 then
            match fair_auto_rounds n' (t + d) d w1 with
            | Some (w2, rs) => Some (w2, (s1, l1) :: rs)
            | None => None
            end
          else None
      | None => None
      end
  end.

Lemma fair_auto_rounds_sound n : forall t d w w2 rs,
  fair_auto_rounds n t d w = Some (w2, rs) ->
  auto_rounds n t d w = Some (w2, rs) /\ fair_rounds w t d (map fst rs) = Some (w2, map snd rs) /\ length rs = n.
Proof.
  induction n as [|n IH]; intros t d w w2 rs H; cbn [fair_auto_rounds auto_rounds] in H |- *.
  - injection H as <- <-. auto.
  - destruct (auto_round t w) as [[[w1 s1] l1]|] eqn:E; [|discriminate].
    destruct (_ && _ && _) eqn:Ef; [|discriminate].
    destruct (fair_auto_rounds n (t + d) d w1) as [[w3 rs3]|] eqn:E3; [|discriminate]. injection H as <- <-.
    destruct (IH _ _ _ _ _ E3) as (A & F & L). destruct (auto_round_run _ _ _ _ _ E) as [R Hn].
    rewrite A. split; [reflexivity|]. split; [|cbn [length]; rewrite L; reflexivity].
    cbn [map fst snd fair_rounds]. unfold fair_round. rewrite Ef, R, Hn, F. reflexivity.
Qed.

(** one evaluation decides a witness: the fault phase is played once, the last [k] rounds are produced once, and the
    replays that [faults_of] / [rounds_of] / [run] / [fair_rounds] ask for follow from the lemmas above *)
Lemma witness_intro ps0 ps k t d P :
  ps = ps0 ++ [PRounds k t d] ->
  match play empty_world ps0 with
  | Some (w1, rs1) => match fair_auto_rounds k t d w1 with
                      | Some (w2, rs2) => P (sched_of rs1) (map fst rs2) w1 (log_of rs1) w2 (map snd rs2)
                      | None => false
                      end
  | None => false
  end = true ->
  witness ps k t d P.
Proof.
  intros -> H. destruct (play empty_world ps0) as [[w1 rs1]|] eqn:E1; [|discriminate].
  destruct (fair_auto_rounds k t d w1) as [[w2 rs2]|] eqn:E2; [|discriminate].
  destruct (fair_auto_rounds_sound _ _ _ _ _ _ E2) as (A & F & L).
  assert (Ep : play empty_world (ps0 ++ [PRounds k t d]) = Some (w2, rs1 ++ rs2)).
  { apply (play_snoc _ _ _ _ _ _ _ E1). cbn [play]. rewrite A, app_nil_r. reflexivity. }
  assert (Es : split_last k (rs1 ++ rs2) = (rs1, rs2)).
  { unfold split_last. rewrite app_length, L, Nat.add_sub, take_app, drop_app. reflexivity. }
  exists w1, (log_of rs1), w2, (map snd rs2). unfold faults_of, rounds_of. rewrite Ep, Es. cbn [fst snd].
  split; [apply (play_run _ _ _ _ E1)|]. split; [exact F|exact H].
Qed.

(** (a) two healthy nodes, timeout 300, 40 fair rounds of length 50 *)
Lemma wa_check :
  witness wa_play 40 1050 50 (fun F R w1 l1 w2 logs =>
    only_clean_starts F && (length R =? 40)%nat &&
    (length (nodes_of w2) =? 2)%nat &&
    existsb (removal_of_running w2) (skipn 30 logs) &&
    negb (converged_b w2) && negb (same_members_everywhere w2)).
Proof. apply (witness_intro (removelast wa_play)); [reflexivity|vm_compute; reflexivity]. Qed.

Lemma unconditional_refuted_upto L : (L <= 40)%nat -> ~ C18_unconditional L 50.
Proof.
  intros HL40 HU.
  destruct wa_check as (w1 & l1 & w2 & logs & H1 & H2 & [[[[[_ HL]%andb_prop _]%andb_prop _]%andb_prop Hc]%andb_prop _]%andb_prop).
  apply Nat.eqb_eq in HL.
  destruct (HU _ _ _ _ _ _ _ H1 H2) as [Hcv _]; [lia|].
  rewrite (proj2 (converged_b_spec _) Hcv) in Hc. discriminate.
Qed.

Lemma unconditional_refuted : ~ C18_unconditional 40 50.
Proof. exact (unconditional_refuted_upto 40 (le_n 40)). Qed.

(** (c) the same two nodes with SuspectConfirmDuration 100000: both consider themselves leader *)
Lemma wc_check :
  witness wc_play 40 1050 50 (fun F R w1 l1 w2 logs =>
    only_clean_starts F && (length R =? 40)%nat &&
    (length (nodes_of w2) =? 2)%nat && same_members_everywhere w2 && (length (leaders_of w2) =? 2)%nat &&
    existsb (fun n => existsb (fun s => (ns_status s =? st_suspect)%Z && is_running w2 (ns_addr s)) (states (nd_view n))) (nodes_of w2)).
Proof. apply (witness_intro (removelast wc_play)); [reflexivity|vm_compute; reflexivity]. Qed.

(** (b) failure detection off; x crashed and was forced down at s (absent from s's view when the faults stop);
    30 fair rounds later both running nodes, s included, list x *)
Lemma wb_check :
  witness wb_play 30 1250 50 (fun F R w1 l1 w2 logs =>
    (length R =? 30)%nat &&
    negb (is_running w1 ad3) && negb (is_running w2 ad3) &&
    existsb (fun p => bool_decide (fst p = ad1) && match snd p with EMembers _ 0 [r] => bool_decide (r = ad3) | _ => false end) l1 &&
    match w_nodes w1 !! ad1 with Some s => negb (lists_id s [120]) | None => false end &&
    (length (nodes_of w2) =? 2)%nat && forallb (fun n => lists_id n [120]) (nodes_of w2) &&
    forallb quiet (skipn 5 logs)).
Proof. apply (witness_intro (removelast wb_play)); [reflexivity|vm_compute; reflexivity]. Qed.

(** (d) failure detection off; j left gracefully; 30 fair rounds later s still lists it, computes it as the leader,
    and no running node considers itself leader *)
Lemma wd_check :
  witness wd_play 30 1250 50 (fun F R w1 l1 w2 logs =>
    (length R =? 30)%nat &&
    existsb (fun p => bool_decide (fst p = ad1) && match snd p with ELeaveCompleted => true | _ => false end) l1 &&
    negb (is_running w2 ad1) &&
    match w_nodes w2 !! ad2 with
    | Some s => lists_id s [106] && bool_decide (leader_of (nd_view s) = ad1)
    | None => false
    end &&
    (length (nodes_of w2) =? 1)%nat && (length (leaders_of w2) =? 0)%nat && forallb quiet logs).
Proof. apply (witness_intro (removelast wd_play)); [reflexivity|vm_compute; reflexivity]. Qed.

(** (e) j restarted under the same NodeID and re-derived the incarnation number (2,2) its predecessor already had:
    30 fair rounds later s1 still holds the predecessor's entry (its timestamp) although all views "agree" *)
Definition entry_ts (n : node) (id : list N) : option (Z * N * Z) :=
  match vw_members (nd_view n) !! id with Some s => Some (ns_gen s, ns_lc s, ns_ts s) | None => None end.
Lemma we_check :
  witness we_play 30 1150 50 (fun F R w1 l1 w2 logs =>
    (length R =? 30)%nat && converged_b w2 && forallb quiet (skipn 5 logs) &&
    match w_nodes w2 !! ad1, w_nodes w2 !! ad3 with
    | Some s1, Some j =>
        bool_decide (entry_ts s1 [106] = Some (2%Z, 2, 1020%Z)) &&
        bool_decide ((ns_gen (nd_self j), ns_lc (nd_self j), ns_ts (nd_self j)) = (2%Z, 2, 1100%Z)) &&
        bool_decide (entry_ts j [106] = Some (2%Z, 2, 1100%Z))
    | _, _ => false
    end).
Proof. apply (witness_intro (removelast we_play)); [reflexivity|vm_compute; reflexivity]. Qed.

(** (e2) restart under a fresh NodeID, MemberByAddress yielding the predecessor's entry at every delivery *)
Lemma wg_check :
  witness wg_play 40 1150 50 (fun F R w1 l1 w2 logs =>
    (length R =? 40)%nat &&
    forallb (removal_of_running w2) (skipn 30 logs) &&
    match w_nodes w2 !! ad1, w_nodes w2 !! ad2 with
    | Some s, Some k =>
        bool_decide (nd_id k = [107]) && lists_id s [106] && lists_id k [106] &&
        bool_decide (ns_seen <$> (vw_members (nd_view s) !! [106]) = Some 3100%Z) &&
        bool_decide (ns_seen <$> (vw_members (nd_view s) !! [107]) = Some 1110%Z)
    | _, _ => false
    end).
Proof. apply (witness_intro (removelast wg_play)); [reflexivity|vm_compute; reflexivity]. Qed.

(** (c2) the new incarnation of a restarted node is never propagated once the vectors are equal *)
Lemma wh_check :
  witness wh_play 30 1250 50 (fun F R w1 l1 w2 logs =>
    (length R =? 30)%nat && forallb quiet logs &&
    match w_nodes w2 !! ad1, w_nodes w2 !! ad2 with
    | Some s, Some j =>
        bool_decide (inc_of (nd_self j) = (3%Z, 3)) &&
        bool_decide (proj (nd_view j) !! [106] = Some (3%Z, 3)) &&
        bool_decide (proj (nd_view s) !! [106] = Some (2%Z, 2)) &&
        bool_decide (vw_vv (nd_view s) = vw_vv (nd_view j))
    | _, _ => false
    end).
Proof. apply (witness_intro (removelast wh_play)); [reflexivity|vm_compute; reflexivity]. Qed.

(** (d) a leave tells the peers nothing: the view (the leaver's own entry included) is not touched, and every
    GossipMessage sent carries exactly that view *)
Theorem leave_not_announced n :
  nd_view (fst (fst (leave n))) = nd_view n /\
  forall d v, (d, v) ∈ snd (fst (leave n)) -> v = nd_view n.
Proof.
  unfold leave. destruct (_ =? st_joining)%Z; [split; [reflexivity|intros d v H; inversion H]|].
  destruct (_ || _); split; try reflexivity; intros d v H; [inversion H|exact (broadcast_payload _ d v H)].
Qed.

(** (f) a member learned through a merge is stored with the LastSeen of the sender's copy: an id the local view does
    not have is adopted verbatim from the received view.  (The first hypothesis makes [None] the choice a delivery
    accepts; the conclusion does not depend on it.) *)
Theorem learned_member_keeps_foreign_lastseen n src v now id s :
  refresh_candidates (nd_view n) src = [] ->
  vw_members (nd_view n) !! id = None -> vw_members v !! id = Some s ->
  vw_members (nd_view (fst (fst (handle_gossip n src v now None)))) !! id = Some s.
Proof.
  intros _ Hn Hv. rewrite handle_gossip_view. unfold gossip_pre.
  rewrite view_merge_members, merge_members_lookup, Hn, Hv. reflexivity.
Qed.

(** Boolean checkers for the hypotheses of the theorems (used by the Examples of Properties/C18.v) *)

Definition WF_b (v : view) : bool :=
  forallb (fun p => bool_decide (ns_id (snd p) = fst p) && (1 <=? ns_gen (snd p))%Z && (1 <=? ns_lc (snd p)))
          (map_to_list (vw_members v)).
Lemma WF_b_sound v : WF_b v = true -> WF v.
Proof.
  unfold WF_b. rewrite forallb_map_to_list. intros H k s Hk. specialize (H k s Hk). cbn [fst snd] in H.
  rewrite !andb_true_iff, bool_decide_eq_true in H. destruct H as [[H1 H2] H3]. split; [exact H1|split; lia].
Qed.

Definition world_ok_b (w : world) : bool :=
  match w_net w with [] => true | _ :: _ => false end &&
  forallb (fun p => bool_decide (nd_addr (snd p) = fst p) && WF_b (nd_view (snd p))) (map_to_list (w_nodes w)).
Lemma world_ok_b_sound w :
  world_ok_b w = true ->
  (forall a n, w_nodes w !! a = Some n -> nd_addr n = a) /\
  (forall a n, w_nodes w !! a = Some n -> WF (nd_view n)) /\ w_net w = [].
Proof.
  unfold world_ok_b. rewrite andb_true_iff, forallb_map_to_list. intros [Hn H].
  split; [|split; [|destruct (w_net w); [reflexivity|discriminate]]]; intros a n Ha; specialize (H a n Ha); cbn [fst snd] in H;
    apply andb_prop in H as [H1 H2]; [exact (proj1 (bool_decide_eq_true _) H1)|exact (WF_b_sound _ H2)].
Qed.

Definition all_reached_b (w0 : world) (aw : aworld) : bool :=
  forallb (fun p : list N * (node * origins) => forallb (fun b => bool_decide (b ∈ snd (snd p))) (map fst (map_to_list (w_nodes w0))))
          (map_to_list (aw_nodes aw)).
Lemma all_reached_b_sound w0 aw : all_reached_b w0 aw = true -> all_reached w0 aw.
Proof.
  unfold all_reached_b. rewrite forallb_map_to_list. intros H a n o Ha b [m Hb]. specialize (H a _ Ha). cbn [snd] in H.
  apply (proj1 (bool_decide_eq_true _)), (proj1 (forallb_elem_of _ _) H), elem_of_list_fmap. exists (b, m). split; [reflexivity|apply elem_of_map_to_list, Hb].
Qed.

Lemma same_set_b_sound {A} `{EqDecision A} (l1 l2 : list A) :
  subset_b l1 l2 && subset_b l2 l1 = true -> same_set l1 l2.
Proof. rewrite andb_true_iff, !subset_b_spec. intros [H1 H2] x. split; [apply H1|apply H2]. Qed.

(** three nodes (seeds s and a, member x), failure detection off, after three fair rounds *)
Definition ex_world : world :=
  match play empty_world [PSteps wb_prefix; PRounds 3 1050 50] with Some (w, _) => w | None => empty_world end.

(** three islands: s and a bootstrapped on their own, x joined s; every packet sent so far was lost *)
Definition ex_islands : world :=
  match run empty_world (wb_prefix ++ [(1030, SDrop 0); (1030, SDrop 0); (1030, SDrop 0); (1030, SDrop 0); (1030, SDrop 0)])%Z with
  | Some (w, _) => w | None => empty_world end.
Definition ex_round : list (Z * step) :=
  match auto_round 1050 ex_islands with Some (_, s, _) => s | None => [] end.

(** two seeds that bootstrapped on their own and found each other by gossip (failure detection off) *)
Definition ex_two : world :=
  match play empty_world [PSteps (firstn 2 wb_prefix); PRounds 3 1050 50] with Some (w, _) => w | None => empty_world end.

(** Invariants of every reachable world: keys are node addresses, every view (of a node, of a packet) is
    well-formed in the sense of C17 - so the hypotheses of the exchange-round theorem hold after any history *)

Definition node_ok (n : node) : Prop := WF (nd_view n) /\ wf_state (nd_self n).
Definition world_inv (w : world) : Prop :=
  (forall a n, w_nodes w !! a = Some n -> nd_addr n = a /\ node_ok n) /\
  (forall p, p ∈ w_net w -> WF (p_view p)).

Definition same_base (n n' : node) : Prop := nd_cfg n' = nd_cfg n.

Definition sends_ok (n' : node) (out : list (addr * view)) : Prop :=
  node_ok n' /\ forall d v, (d, v) ∈ out -> WF v.

Lemma sends_ok_nil n : node_ok n -> sends_ok n [].
Proof. intros H. split; [exact H|]. intros d v Hd. inversion Hd. Qed.

Lemma sends_ok_timers n out g f r : sends_ok n out -> sends_ok (set_timers n g f r) out.
Proof. intros H. exact H. Qed.

Lemma broadcast_ok n : node_ok n -> sends_ok (fst (broadcast n)) (snd (broadcast n)).
Proof. intros H. split; [exact H|]. intros d v Hd. apply broadcast_payload in Hd as ->. apply H. Qed.

Lemma finish_ok n : node_ok n -> sends_ok (fst (fst (finish n))) (snd (fst (finish n))).
Proof. exact (broadcast_ok (fst (publish_leader n))). Qed.

Lemma bootstrap_eq n :
  bootstrap n =
  let self := ns_set_status (nd_self n) st_up in
  let f := finish (set_view (set_self n self) (view_inc (view_add (nd_view n) self) (nd_id n))) in
  (start_loops (fst (fst f)), snd (fst f), snd f).
Proof. unfold bootstrap, finish. exact eq_refl. Qed.

Lemma bootstrap_ok n : node_ok n -> sends_ok (fst (fst (bootstrap n))) (snd (fst (bootstrap n))).
Proof.
  intros [Hv Hs]. assert (W : WF (nd_view (fst (fst (bootstrap n))))) by (apply WF_inc, WF_add; assumption).
  split; [split; [exact W|exact Hs]|]. intros d v H. apply broadcast_payload in H as ->. exact W.
Qed.

Lemma handle_join_request_Some n st n' resp out evs :
  handle_join_request n st = Some (n', resp, out, evs) ->
  let n1 := set_view n (view_inc (view_add (nd_view n) (ns_set_status st st_up)) (nd_id n)) in
  sat_quorum (nd_view n) = true /\ n' = fst (fst (finish n1)) /\ resp = nd_view n1 /\ out = snd (fst (finish n1)).
Proof.
  unfold handle_join_request. destruct (negb _); [discriminate|]. destruct (sat_quorum (nd_view n)); [|discriminate].
  intros H%(inj Some). split; [reflexivity|]. split; [|split]; symmetry.
  - exact (f_equal (fun x => fst (fst (fst x))) H).
  - exact (f_equal (fun x => snd (fst (fst x))) H).
  - exact (f_equal (fun x => snd (fst x)) H).
Qed.

Lemma join_request_ok n st n' resp out evs :
  node_ok n -> wf_state st -> handle_join_request n st = Some (n', resp, out, evs) -> sends_ok n' out /\ WF resp.
Proof.
  intros [Hv Hs] Hst H. apply handle_join_request_Some in H as (_ & -> & -> & ->).
  assert (W : WF (view_inc (view_add (nd_view n) (ns_set_status st st_up)) (nd_id n))) by (apply WF_inc, WF_add; assumption).
  split; [apply finish_ok; split; assumption|exact W].
Qed.

Lemma join_complete_eq n resp now :
  join_complete n resp now =
  let self1 := ns_set_status (nd_self n) st_up in
  let '(self2, v4) := view_rejoin self1 (fst (view_merge 0 0 now (view_inc (view_add (nd_view n) self1) (nd_id n)) resp)) now in
  let f := finish (set_view (set_self n self2) v4) in (start_loops (fst (fst f)), snd (fst f), snd f).
Proof. unfold join_complete, finish. destruct (view_rejoin _ _ _). exact eq_refl. Qed.

Lemma join_complete_ok n resp now :
  node_ok n -> WF resp -> sends_ok (fst (fst (join_complete n resp now))) (snd (fst (join_complete n resp now))).
Proof.
  intros [Hv Hs] Hr. rewrite join_complete_eq. cbv zeta.
  assert (W3 : WF (fst (view_merge 0 0 now (view_inc (view_add (nd_view n) (ns_set_status (nd_self n) st_up)) (nd_id n)) resp)))
    by (apply WF_merge; [apply WF_inc, WF_add|]; assumption).
  pose proof (WF_rejoin (ns_set_status (nd_self n) st_up) _ now W3 Hs) as W4.
  pose proof (wf_rejoin_state (ns_set_status (nd_self n) st_up) _ now W3 Hs) as S4.
  destruct (view_rejoin _ _ _) as [self2 v4]. cbn [fst snd] in *. apply sends_ok_timers, finish_ok. split; assumption.
Qed.

Lemma handle_gossip_ok n src v now choice :
  node_ok n -> WF v ->
  sends_ok (fst (fst (handle_gossip n src v now choice))) (snd (fst (handle_gossip n src v now choice))).
Proof.
  intros [Hv Hs] Hw. rewrite handle_gossip_eq. cbv zeta.
  assert (H3 : node_ok (set_view (if nonempty src then set_last n (<[src := vw_vv v]> (nd_last n)) else n)
                                 (fst (view_merge 0 0 now (gossip_pre n src now choice) v)))).
  { split; [apply WF_merge; [apply gossip_pre_WF|]; assumption|destruct (nonempty src); exact Hs]. }
  destruct (snd (view_merge _ _ _ _ _)); [apply finish_ok|apply sends_ok_nil]; exact H3.
Qed.

Lemma suspect_fold_WF self l v : WF v -> WF (fold_left (suspect_one self) l v).
Proof.
  revert v. induction l as [|id l IH]; intros v Hv; cbn; [exact Hv|]. apply IH.
  unfold suspect_one. destruct (vw_members v !! id); [|exact Hv]. apply WF_inc, WF_set_status. exact Hv.
Qed.
Lemma remove_fold_WF self l acc : WF (fst acc) -> WF (fst (fold_left (remove_one self) l acc)).
Proof.
  revert acc. induction l as [|id l IH]; intros acc Hv; cbn; [exact Hv|]. apply IH.
  unfold remove_one. cbn [fst]. apply WF_inc, WF_remove. exact Hv.
Qed.

(** runFailureDetection broadcasts after the suspicions and again after the removals, each time if there were any *)
Lemma cond_broadcast_ok {A} (l : list A) n (e : list event) :
  node_ok n ->
  let r := match l with [] => (n, [], []) | _ :: _ => let '(m, o) := broadcast n in (m, o, e) end in
  sends_ok (fst (fst r)) (snd (fst r)) /\ nd_view (fst (fst r)) = nd_view n /\ nd_self (fst (fst r)) = nd_self n.
Proof.
  intros H. destruct l; cbn zeta; [split; [apply sends_ok_nil, H|split; reflexivity]|].
  split; [apply (broadcast_ok n H)|split; reflexivity].
Qed.

Lemma out_wf_app (o1 o2 : list (addr * view)) :
  (forall d v, (d, v) ∈ o1 -> WF v) -> (forall d v, (d, v) ∈ o2 -> WF v) -> forall d v, (d, v) ∈ o1 ++ o2 -> WF v.
Proof. intros H1 H2 d v H. apply elem_of_app in H as [H|H]; [eapply H1|eapply H2]; exact H. Qed.

Lemma publish_dc_fields n : nd_view (fst (publish_dc n)) = nd_view n /\ nd_self (fst (publish_dc n)) = nd_self n.
Proof.
  unfold publish_dc. destruct (states (nd_view n)); [split; reflexivity|].
  destruct (nd_dch n) as [was|]; [destruct (eqb was _)|]; split; reflexivity.
Qed.

Lemma fd_tick_ok n now :
  node_ok n -> sends_ok (fst (fst (fst (fd_tick n now)))) (snd (fst (fst (fd_tick n now)))).
Proof.
  intros [Hv Hs]. unfold fd_tick. destruct (fd_detect n now) as [sus rem].
  set (v1 := fold_left (suspect_one (nd_id n)) sus (nd_view n)).
  assert (W1 : WF v1) by (apply suspect_fold_WF; exact Hv).
  destruct (cond_broadcast_ok sus (set_view n v1) [ev_view v1 0 []]) as ([_ P1] & V2 & S2); [split; assumption|].
  destruct (match sus with [] => _ | _ :: _ => _ end) as [[n2 out1] ev1]. cbn [fst snd] in P1, V2, S2.
  destruct (fold_left (remove_one (nd_id n)) rem (nd_view n2, [])) as [v2 removed] eqn:Ef.
  assert (W2 : WF v2).
  { change v2 with (fst (v2, removed)). rewrite <- Ef. apply remove_fold_WF. cbn [fst]. rewrite V2. exact W1. }
  destruct (cond_broadcast_ok (isort lex_le removed) (set_view n2 v2)
              [EMembers (member_addrs v2) 0 (isort lex_le removed); ev_view v2 0 (isort lex_le removed)])
    as ([_ P2] & V4 & S4); [split; [exact W2|cbn [nd_self set_view]; rewrite S2; exact Hs]|].
  destruct (match isort lex_le removed with [] => _ | _ :: _ => _ end) as [[n4 out2] ev2]. cbn [fst snd] in P2, V4, S4.
  destruct (publish_dc_fields (fst (publish_leader n4))) as [D1 D2].
  change (nd_view (fst (publish_leader n4))) with (nd_view n4) in D1. change (nd_self (fst (publish_leader n4))) with (nd_self n4) in D2.
  destruct (publish_leader n4) as [n5 ev3]. cbn [fst] in D1, D2. destruct (publish_dc n5) as [n6 ev4]. cbn [fst snd] in *.
  split; [split; [rewrite D1, V4; exact W2|rewrite D2, S4; cbn [nd_self set_view]; rewrite S2; exact Hs]|apply out_wf_app; assumption].
Qed.

Lemma recovery_merge_ok n resp now :
  node_ok n -> WF resp -> sends_ok (fst (recovery_merge n resp now)) (snd (recovery_merge n resp now)).
Proof.
  intros [Hv Hs] Hr. unfold recovery_merge.
  destruct (view_merge 0 0 now (nd_view n) resp) as [v' ch] eqn:Em.
  assert (H1 : node_ok (set_view n v')) by (split; [change v' with (fst (v', ch)); rewrite <- Em; apply WF_merge; assumption|exact Hs]).
  destruct ch; [apply broadcast_ok|apply sends_ok_nil]; exact H1.
Qed.

Lemma force_down_ok n id : node_ok n -> sends_ok (fst (fst (force_down n id))) (snd (fst (force_down n id))).
Proof.
  intros [Hv Hs]. unfold force_down. destruct id as [|b r]; [apply sends_ok_nil; split; assumption|].
  destruct (vw_members (nd_view n) !! (b :: r)) as [m|]; [|apply sends_ok_nil; split; assumption].
  apply (finish_ok (set_view n _)). split; [apply WF_inc, WF_remove; exact Hv|exact Hs].
Qed.

Lemma world_inv_empty : world_inv empty_world.
Proof. split; [intros a n H; cbn in H; rewrite lookup_empty in H; discriminate|intros p H; inversion H]. Qed.

Lemma inv_put_node w n : world_inv w -> node_ok n -> world_inv (put_node w n).
Proof.
  intros [Hn Hp] Hok. split; [|exact Hp]. intros a m Ha. cbn in Ha.
  apply lookup_insert_Some in Ha as [[<- <-]|[_ Ha]]; [split; [reflexivity|exact Hok]|apply (Hn a m Ha)].
Qed.

Lemma inv_add_net w src out : world_inv w -> (forall d v, (d, v) ∈ out -> WF v) -> world_inv (add_net w (stamp src out)).
Proof.
  intros [Hn Hp] Hout. split; [exact Hn|]. intros p H. apply elem_of_app in H as [H|H]; [apply (Hp p H)|].
  apply elem_of_list_fmap in H as ([d v] & -> & Hdv). apply (Hout d v Hdv).
Qed.

Lemma inv_update w n src out : world_inv w -> sends_ok n out -> world_inv (add_net (put_node w n) (stamp src out)).
Proof. intros Hw [Hok Hout]. apply inv_add_net; [apply inv_put_node|]; assumption. Qed.

Lemma new_node_ok c now : node_ok (new_node c now).
Proof. split; [apply WF_new|apply wf_new_node_state]. Qed.

(** tryJoinSeeds asks the seeds in turn and stops at the first that answers and accepts: that seed has run
    handleJoinRequest, the joiner the rest of tryJoinSeeds on its JoinResponse; otherwise nothing has changed *)
Definition join_outcome (w : world) (n : node) (now : Z) (asks : list (addr * bool)) (log : evlog)
    (r : world * node * bool * evlog) : Prop :=
  r = (w, n, false, log) \/
  exists s sd sd' resp out evs,
    (s, true) ∈ asks /\ s <> nd_addr n /\ w_nodes w !! s = Some sd /\
    handle_join_request sd (nd_self n) = Some (sd', resp, out, evs) /\
    let c := join_complete n resp now in
    r = (add_net (add_net (put_node w sd') (stamp s out)) (stamp (nd_addr n) (snd (fst c))), fst (fst c), true,
         log ++ tag s evs ++ tag (nd_addr n) (snd c)).

Lemma try_join_spec asks w n now log : join_outcome w n now asks log (try_join w n now asks log).
Proof.
  induction asks as [|[s ok] rest IH]; cbn [try_join]; [left; reflexivity|].
  assert (Hnext : join_outcome w n now ((s, ok) :: rest) log (try_join w n now rest log)).
  { destruct IH as [E|(s0 & sd & sd' & resp & out & evs & Hin & H)]; [left; exact E|right].
    exists s0, sd, sd', resp, out, evs. split; [apply elem_of_list_further, Hin|exact H]. }
  destruct ok; cbn [negb orb]; [|exact Hnext]. case bool_decide_reflect; intros Hs; [exact Hnext|].
  destruct (w_nodes w !! s) as [sd|] eqn:Es; [|exact Hnext].
  destruct (handle_join_request sd (nd_self n)) as [[[[sd' resp] out] evs]|] eqn:Ej; [|exact Hnext].
  right. exists s, sd, sd', resp, out, evs. split; [apply elem_of_list_here|]. cbv zeta.
  destruct (join_complete n resp now) as [[n' out'] evs']. auto.
Qed.

Lemma join_or_retry_inv w n now asks w' log :
  world_inv w -> node_ok n -> join_or_retry w n now asks = (w', log) -> world_inv w'.
Proof.
  intros Hw Hn H. unfold join_or_retry in H.
  destruct (try_join_spec asks w n now []) as [E|(s & sd & sd' & resp & out & evs & _ & _ & Es & Ej & E)];
    cbv zeta in E; rewrite E in H; injection H as <- _; [apply inv_put_node; assumption|].
  destruct (join_request_ok sd (nd_self n) sd' resp out evs (proj2 (proj1 Hw s sd Es)) (proj2 Hn) Ej) as [Hsd' Hresp].
  destruct (join_complete_ok n resp now Hn Hresp) as [Hn1 Hout1].
  apply inv_put_node; [apply inv_add_net; [apply inv_update; assumption|exact Hout1]|exact Hn1].
Qed.

Lemma try_recover_ok fuel : forall w n now seeds asks,
  world_inv w -> node_ok n ->
  sends_ok (fst (try_recover w n now seeds asks fuel)) (snd (try_recover w n now seeds asks fuel)).
Proof.
  induction fuel as [|fuel IH]; intros w n now seeds asks Hw Hn; cbn [try_recover].
  - destruct seeds; apply sends_ok_nil, Hn.
  - destruct seeds as [|s seeds']; cbn [try_recover]; [apply sends_ok_nil, Hn|].
    cbv zeta. match goal with |- context [if ?b then _ else _] => destruct b end; [apply IH; assumption|].
    destruct (w_nodes w !! s) as [sd|] eqn:Es; [|apply IH; assumption].
    apply recovery_merge_ok; [exact Hn|apply (proj1 Hw s sd Es)].
Qed.

Theorem step_world_inv w now s w' l : world_inv w -> step_world w now s = Some (w', l) -> world_inv w'.
Proof.
  intros Hw H. destruct s as [c asks|a asks|a|a asks|k choice|k|a|a|a id]; cbn [step_world] in H.
  - destruct (negb (nonempty (c_addr c))); [discriminate|].
    destruct (w_nodes w !! c_addr c); [discriminate|].
    destruct (launch_is_seed c).
    + pose proof (bootstrap_ok _ (new_node_ok c now)) as Hb.
      destruct (bootstrap (new_node c now)) as [[n1 out] evs]. injection H as <- _. apply inv_update; assumption.
    + destruct (join_or_retry w (new_node c now) now asks) as [w1 lg] eqn:Ej. injection H as <- _.
      eapply join_or_retry_inv; [exact Hw|apply new_node_ok|exact Ej].
  - destruct (w_nodes w !! a) as [n|] eqn:E; [|discriminate]. destruct (nd_retry_on n); [|discriminate].
    destruct (join_or_retry w _ now asks) as [w1 lg] eqn:Ej. injection H as <- _.
    eapply join_or_retry_inv; [exact Hw| |exact Ej]. exact (proj2 (proj1 Hw a n E)).
  - destruct (w_nodes w !! a) as [n|] eqn:E; [|discriminate]. destruct (nd_gossip_on n); [|discriminate].
    rewrite gossip_tick_eq in H. injection H as <- _. apply inv_update, broadcast_ok, (proj1 Hw a n E); exact Hw.
  - destruct (w_nodes w !! a) as [n|] eqn:E; [|discriminate]. destruct (nd_fd_on n); [|discriminate].
    destruct (fd_tick_ok n now (proj2 (proj1 Hw a n E))) as [H1 H2].
    destruct (fd_tick n now) as [[[n1 out] evs] rec]. cbn [fst snd] in H1, H2.
    assert (Hr : sends_ok (fst (if rec then try_recover w n1 now (c_seeds (nd_cfg n1)) asks max_get_view_targets else (n1, [])))
                          (snd (if rec then try_recover w n1 now (c_seeds (nd_cfg n1)) asks max_get_view_targets else (n1, []))))
      by (destruct rec; [apply try_recover_ok; assumption|apply sends_ok_nil, H1]).
    destruct (if rec then _ else _) as [n2 out2]. injection H as <- _.
    apply inv_update; [exact Hw|]. split; [apply Hr|apply out_wf_app; [exact H2|apply Hr]].
  - destruct (N.of_nat (length (w_net w)) <=? k); [discriminate|].
    destruct (w_net w !! N.to_nat k) as [p|] eqn:Ek; [|discriminate].
    assert (Hw1 : world_inv (World (w_nodes w) (remove_at k (w_net w)))).
    { split; [exact (proj1 Hw)|]. intros q Hq. apply elem_of_remove_at in Hq. apply (proj2 Hw q Hq). }
    destruct (w_nodes w !! p_dst p) as [n|] eqn:E.
    + match type of H with (if ?b then _ else None) = _ => destruct b end; [|discriminate].
      pose proof (handle_gossip_ok n (p_src p) (p_view p) now choice (proj2 (proj1 Hw _ n E))
                    (proj2 Hw p (elem_of_list_lookup_2 _ _ _ Ek))) as Hg.
      destruct (handle_gossip n (p_src p) (p_view p) now choice) as [[n1 out] evs]. injection H as <- _.
      apply inv_update; assumption.
    + destruct choice; [discriminate|]. injection H as <- _. exact Hw1.
  - destruct (N.of_nat (length (w_net w)) <=? k); [discriminate|]. injection H as <- _.
    split; [exact (proj1 Hw)|]. intros q Hq. apply elem_of_remove_at in Hq. apply (proj2 Hw q Hq).
  - destruct (w_nodes w !! a) as [n|] eqn:E; [|discriminate]. injection H as <- _.
    split; [|exact (proj2 Hw)]. intros b m Hb. cbn in Hb. apply lookup_delete_Some in Hb as [_ Hb]. apply (proj1 Hw b m Hb).
  - destruct (w_nodes w !! a) as [n|] eqn:E; [|discriminate].
    pose proof (proj2 (leave_not_announced n)) as Hl.
    destruct (leave n) as [[n1 out] evs]. injection H as <- _. split; cbn.
    + intros b m Hb. apply lookup_delete_Some in Hb as [_ Hb]. apply (proj1 Hw b m Hb).
    + intros q Hq. apply elem_of_app in Hq as [Hq|Hq]; [apply (proj2 Hw q Hq)|].
      apply elem_of_list_fmap in Hq as ([d v] & -> & Hdv). rewrite (Hl d v Hdv). apply (proj1 Hw a n E).
  - destruct (w_nodes w !! a) as [n|] eqn:E; [|discriminate].
    pose proof (force_down_ok n id (proj2 (proj1 Hw a n E))) as Hf.
    destruct (force_down n id) as [[n1 out] evs]. injection H as <- _. apply inv_update; assumption.
Qed.

Theorem run_inv sc : forall w w' l, world_inv w -> run w sc = Some (w', l) -> world_inv w'.
Proof.
  induction sc as [|[now s] rest IH]; intros w w' l Hw H; cbn [run] in H.
  - injection H as <- _. exact Hw.
  - destruct (step_world w now s) as [[w1 l1]|] eqn:E; [|discriminate].
    destruct (run w1 rest) as [[w2 l2]|] eqn:E2; [|discriminate]. injection H as <- _.
    eapply IH; [eapply step_world_inv; eassumption|exact E2].
Qed.

Theorem reachable_inv sc w l :
  run empty_world sc = Some (w, l) ->
  (forall a n, w_nodes w !! a = Some n -> nd_addr n = a) /\
  (forall a n, w_nodes w !! a = Some n -> WF (nd_view n)) /\
  (forall p, p ∈ w_net w -> WF (p_view p)).
Proof.
  intros H. destruct (run_inv sc empty_world w l world_inv_empty H) as [Hn Hp].
  split; [intros a n Ha; apply (Hn a n Ha)|]. split; [intros a n Ha; apply (Hn a n Ha)|exact Hp].
Qed.

Theorem exchange_round_reachable hist w0 l0 sc w1 l :
  run empty_world hist = Some (w0, l0) -> w_net w0 = [] ->
  forallb (fun p => round_step (snd p)) sc = true ->
  run w0 sc = Some (w1, l) ->
  exists aw1, arun (annotate w0) sc = Some (aw1, l) /\ erase aw1 = w1 /\
    (all_reached w0 aw1 ->
     forall a n, w_nodes w1 !! a = Some n ->
       WF (nd_view n) /\ proj (nd_view n) = pjoin_all (all_views0 w0)).
Proof.
  intros Hh Hnet Hsc Hr. destruct (reachable_inv hist w0 l0 Hh) as (H1 & H2 & _).
  exact (exchange_round w0 sc w1 l H1 H2 Hnet Hsc Hr).
Qed.
