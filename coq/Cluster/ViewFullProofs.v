(** Proofs about the complete NodeState / ClusterView (Cluster/ViewFull.v): [erase] commutes with every
    operation (so all theorems about the core model are theorems about the complete values), a merge
    moves complete states only, nil handling. *)
From stdpp Require Import gmap.
From Vivid Require Import Cluster.VV Cluster.View Cluster.ViewProofs Cluster.ViewFull.
Local Open Scope N_scope.

Lemma view_merge_body sk st now v o :
  view_merge sk st now v o =
  if bool_decide (size (vw_members o) = 0%nat) then (v, false) else merge_body sk st now v o.
Proof. reflexivity. Qed.

Lemma fv_map_Some v m : fv_members v = Some m -> fv_map v = m.
Proof. unfold fv_map. intros ->. reflexivity. Qed.

Lemma erase_members_lookup (m : fmembers) k : erase_members m !! k = m !! k ≫= fmap fs_core.
Proof. unfold erase_members. apply lookup_omap. Qed.

Lemma erase_members_empty : erase_members ∅ = ∅.
Proof. apply omap_empty. Qed.

Lemma erase_members_insert (m : fmembers) k s :
  erase_members (<[k := Some s]> m) = <[k := fs_core s]> (erase_members m).
Proof. apply (omap_insert_Some (fmap fs_core)). reflexivity. Qed.

Lemma erase_members_delete (m : fmembers) k : erase_members (delete k m) = delete k (erase_members m).
Proof. apply omap_delete. Qed.

Lemma erase_with_base v ms b :
  erase (f_with_base v ms b) =
  View (vw_epoch b) (vw_ts b) (erase_members (default ∅ ms)) (vw_healthy b) (vw_unhealthy b) (vw_quorum b)
       (vw_vv b) (vw_proto b) (vw_maxent b).
Proof. reflexivity. Qed.

Lemma erase_with_base_set v ms b :
  erase (f_with_base v ms b) = set_members b (erase_members (default ∅ ms)).
Proof. reflexivity. Qed.

(** no nil entry (a nil map is allowed) *)
Definition nonil_entries (v : fview) : Prop := forall k, fv_map v !! k <> Some None.

Lemma nonil_nonil_entries v : nonil v -> nonil_entries v.
Proof. intros (m & Hm & H) k. unfold fv_map. rewrite Hm. apply H. Qed.

Lemma erase_members_size_nonil (m : fmembers) :
  (forall k, m !! k <> Some None) -> size (erase_members m) = 0%nat -> size m = 0%nat.
Proof.
  intros Hn Hs. apply map_size_empty_inv in Hs. apply map_size_empty_iff. apply map_eq. intros k.
  rewrite lookup_empty. apply (f_equal (fun x => x !! k)) in Hs.
  rewrite erase_members_lookup, lookup_empty in Hs.
  destruct (m !! k) as [[s|]|] eqn:E; [discriminate|exfalso; apply (Hn k E)|reflexivity].
Qed.

Lemma erase_members_size_le (m : fmembers) : size m = 0%nat -> size (erase_members m) = 0%nat.
Proof. intros H. apply map_size_empty_inv in H. subst m. rewrite erase_members_empty. apply map_size_empty. Qed.

Lemma f_merge_members_lookup (a o : fmembers) k : f_merge_members a o !! k = f_pick (a !! k) (o !! k).
Proof. unfold f_merge_members. rewrite lookup_merge. destruct (a !! k), (o !! k); reflexivity. Qed.

Lemma erase_f_merge_members (a o : fmembers) :
  erase_members (f_merge_members a o) = merge_members (erase_members a) (erase_members o).
Proof.
  apply map_eq. intros k. rewrite merge_members_lookup, !erase_members_lookup, f_merge_members_lookup.
  destruct (a !! k) as [[es|]|], (o !! k) as [[xs|]|]; cbn; try reflexivity.
  destruct (isnewer (fs_core xs) (fs_core es)); reflexivity.
Qed.

Theorem f_recompute_erase v : erase (f_recompute v) = recompute (erase v).
Proof. unfold f_recompute. rewrite erase_with_base_set. destruct v as [i [m|] ? ? ? ? ? ? ? ?]; reflexivity. Qed.

Theorem f_snapshot_erase v : erase (f_snapshot v) = view_snapshot (erase v).
Proof.
  unfold f_snapshot, view_snapshot. rewrite erase_with_base_set. cbn [default from_option id].
  match goal with |- set_members _ ?m = _ => assert (Hm : m = erase_members (fv_map v)) end.
  { apply map_eq. intros k. rewrite !erase_members_lookup, lookup_omap.
    destruct (fv_map v !! k) as [[s|]|]; reflexivity. }
  rewrite Hm. reflexivity.
Qed.

Theorem f_snapshot_nonil v : nonil (f_snapshot v).
Proof.
  eexists. split; [reflexivity|]. intros k. rewrite lookup_omap.
  destruct (fv_map v !! k) as [[s|]|]; discriminate.
Qed.

Lemma set_members_erase v : set_members (erase v) (erase_members (fv_map v)) = erase v.
Proof. reflexivity. Qed.

Theorem f_add_erase v s : erase (f_add v s) = view_add (erase v) (fs_core s).
Proof.
  unfold f_add, view_add. cbn [vw_members erase]. rewrite erase_members_lookup.
  assert (Hins : erase (f_recompute (f_with_base v (Some (<[ns_id (fs_core s) := Some (f_clone s)]> (fv_map v))) (erase v))) =
                 recompute (set_members (erase v) (<[ns_id (fs_core s) := fs_core s]> (erase_members (fv_map v))))).
  { rewrite f_recompute_erase, erase_with_base_set. cbn [default from_option id]. rewrite erase_members_insert. reflexivity. }
  destruct (fv_map v !! ns_id (fs_core s)) as [[es|]|]; cbn [mbind option_bind fmap option_fmap option_map f_isnewer].
  - destruct (isnewer (fs_core s) (fs_core es)); [exact Hins|]. rewrite erase_with_base_set. reflexivity.
  - exact Hins.
  - exact Hins.
Qed.

Lemma erase_new_view i now mx : erase (f_new_view i now mx) = new_view now mx.
Proof. unfold erase, f_new_view, new_view, fv_map. cbn [fv_members default from_option id fv_epoch fv_ts fv_healthy fv_unhealthy fv_quorum fv_vv fv_proto fv_maxent]. rewrite erase_members_empty. reflexivity. Qed.

Lemma f_new_view_nonil i now mx : nonil (f_new_view i now mx).
Proof. exists ∅. split; [reflexivity|]. intros k. rewrite lookup_empty. discriminate. Qed.

Theorem f_add_nonil v s : nonil v -> nonil (f_add v s).
Proof.
  intros (m & Hm & H).
  assert (Em : fv_map v = m) by (unfold fv_map; rewrite Hm; reflexivity).
  assert (Hins : forall b, nonil (f_recompute (f_with_base v (Some (<[ns_id (fs_core s) := Some (f_clone s)]> m)) b))).
  { intros b. eexists. split; [reflexivity|]. intros j. destruct (decide (j = ns_id (fs_core s))) as [->|Hne].
    - rewrite lookup_insert. discriminate.
    - rewrite lookup_insert_ne by congruence. apply H. }
  unfold f_add. rewrite Em. destruct (m !! ns_id (fs_core s)) as [e|]; [destruct (f_isnewer s e)|]; try apply Hins.
  exists m. split; [reflexivity|exact H].
Qed.

Theorem f_remove_erase v nid :
  fv_map v !! nid <> Some None -> erase (f_remove v nid) = view_remove (erase v) nid.
Proof.
  intros Hn. unfold f_remove, view_remove. cbn [vw_members erase]. rewrite erase_members_lookup.
  destruct (fv_map v !! nid) as [[es|]|]; cbn; [|contradiction|reflexivity].
  rewrite f_recompute_erase, erase_with_base_set. cbn [default from_option id]. rewrite erase_members_delete. reflexivity.
Qed.

Theorem f_merge_erase sk st now v o :
  nonil_entries o ->
  erase (fst (f_merge sk st now v o)) = fst (view_merge sk st now (erase v) (erase o)) /\
  snd (f_merge sk st now v o) = snd (view_merge sk st now (erase v) (erase o)).
Proof.
  intros Hn. unfold f_merge. rewrite view_merge_body. unfold nonil_entries in Hn. cbn [erase vw_members].
  destruct (fv_members o) as [om|] eqn:Eo.
  - rewrite (fv_map_Some o om Eo) in *.
    assert (Es : bool_decide (size (erase_members om) = 0%nat) = bool_decide (size om = 0%nat))
      by (apply bool_decide_ext; split; [apply erase_members_size_nonil, Hn|apply erase_members_size_le]).
    rewrite Es. destruct (bool_decide (size om = 0%nat)); [split; reflexivity|]. cbn [fst snd]. split; [|reflexivity].
    rewrite erase_with_base_set. cbn [default from_option id]. rewrite erase_f_merge_members.
    unfold merge_body, erase. cbn [fst vw_members]. rewrite (fv_map_Some o om Eo). reflexivity.
  - assert (fv_map o = ∅) as -> by (unfold fv_map; rewrite Eo; reflexivity).
    rewrite erase_members_empty, map_size_empty. split; reflexivity.
Qed.

(** the member loop, key by key; total: an argument view that is ignored has no entry to offer *)
Lemma f_merge_lookup sk st now v o k :
  fv_map (fst (f_merge sk st now v o)) !! k = f_pick (fv_map v !! k) (fv_map o !! k).
Proof.
  unfold f_merge. destruct (fv_members o) as [om|] eqn:Eo.
  - rewrite (fv_map_Some o om Eo). destruct (decide (size om = 0%nat)) as [Hz|Hz].
    + rewrite bool_decide_eq_true_2 by exact Hz. apply map_size_empty_inv in Hz. subst om.
      cbn [fst]. rewrite lookup_empty. destruct (fv_map v !! k); reflexivity.
    + rewrite bool_decide_eq_false_2 by exact Hz. apply f_merge_members_lookup.
  - cbn [fst]. assert (fv_map o = ∅) as -> by (unfold fv_map; rewrite Eo; reflexivity).
    rewrite lookup_empty. destruct (fv_map v !! k); reflexivity.
Qed.

Theorem f_merge_whole_states sk st now v o k s :
  fv_map (fst (f_merge sk st now v o)) !! k = Some (Some s) ->
  fv_map v !! k = Some (Some s) \/ fv_map o !! k = Some (Some s).
Proof.
  rewrite f_merge_lookup.
  destruct (fv_map v !! k) as [[es|]|], (fv_map o !! k) as [[xs|]|]; cbn [f_pick f_isnewer f_clone];
    try destruct (isnewer _ _); intros [= <-]; auto.
Qed.

Theorem f_merge_keeps_entries sk st now v o k e :
  fv_map v !! k = Some e ->
  exists e', fv_map (fst (f_merge sk st now v o)) !! k = Some e' /\
    (e' = e \/ exists xs, e' = Some xs /\ fv_map o !! k = Some (Some xs) /\ f_isnewer xs e = true).
Proof.
  intros Hk. rewrite f_merge_lookup, Hk.
  destruct (fv_map o !! k) as [[xs|]|]; cbn [f_pick f_clone]; [|exists e; auto|exists e; auto].
  destruct (f_isnewer xs e) eqn:N; [|exists e; auto].
  exists (Some xs). split; [reflexivity|]. right. exists xs. auto.
Qed.

Theorem f_merge_nil_entries sk st now v o k :
  fv_map (fst (f_merge sk st now v o)) !! k = Some None -> fv_map v !! k = Some None.
Proof.
  rewrite f_merge_lookup.
  destruct (fv_map v !! k) as [[es|]|], (fv_map o !! k) as [[xs|]|]; cbn [f_pick f_isnewer f_clone];
    try destruct (isnewer _ _); try discriminate; reflexivity.
Qed.

Theorem f_merge_nonil sk st now v o : nonil v -> nonil (fst (f_merge sk st now v o)).
Proof.
  intros Hv. pose proof (nonil_nonil_entries v Hv) as Hn.
  assert (exists m, fv_members (fst (f_merge sk st now v o)) = Some m) as [m Hm].
  { unfold f_merge. destruct Hv as (mv & Hmv & _). destruct (fv_members o); [|exists mv; exact Hmv].
    destruct (bool_decide _); [exists mv; exact Hmv|]. eexists; reflexivity. }
  exists m. split; [exact Hm|]. intros k Hk.
  apply (Hn k), (f_merge_nil_entries sk st now v o k). rewrite (fv_map_Some _ m Hm). exact Hk.
Qed.

Theorem f_merge_id sk st now v o :
  fv_id (fst (f_merge sk st now v o)) = fv_id v /\ fv_maxent (fst (f_merge sk st now v o)) = fv_maxent v.
Proof.
  unfold f_merge. destruct (fv_members o); [|split; reflexivity].
  destruct (bool_decide _); split; reflexivity.
Qed.

Lemma f_merge_only_nil_entries :
  let o := FView [] (Some {[ [97] := None ]}) 7 0 0 0 0 ∅ 1 0 in
  let v := f_new_view [] 0 0 in
  vw_members (erase o) = ∅ /\
  fv_epoch (fst (f_merge 0 0 0 v o)) = 7%Z /\ snd (f_merge 0 0 0 v o) = true /\
  view_merge 0 0 0 (erase v) (erase o) = (erase v, false).
Proof.
  cbn zeta.
  assert (E : vw_members (erase (FView [] (Some {[ [97] := None ]}) 7 0 0 0 0 ∅ 1 0)) = ∅)
    by (apply map_size_empty_inv; vm_compute; reflexivity).
  split; [exact E|]. split; [vm_compute; reflexivity|]. split; [vm_compute; reflexivity|].
  apply view_merge_empty. exact E.
Qed.

Lemma ferase_leaves e : mleaves (ferase e) = erase <$> fleaves e.
Proof.
  induction e as [v|sk st now l IHl r IHr]; cbn [ferase mleaves fleaves]; [reflexivity|].
  rewrite IHl, IHr, fmap_app. reflexivity.
Qed.

Theorem feval_erase e :
  Forall nonil (fleaves e) -> erase (feval e) = meval (ferase e) /\ nonil (feval e).
Proof.
  induction e as [v|sk st now l IHl r IHr]; cbn [fleaves feval ferase meval]; intros H.
  - apply Forall_inv in H. split; [reflexivity|exact H].
  - apply Forall_app in H as [Hl Hr]. destruct (IHl Hl) as [El Nl], (IHr Hr) as [Er Nr].
    split; [|apply f_merge_nonil; exact Nl].
    destruct (f_merge_erase sk st now (feval l) (feval r) (nonil_nonil_entries _ Nr)) as [-> _].
    rewrite El, Er. reflexivity.
Qed.

Theorem f_merge_order_insensitive e1 e2 :
  Forall nonil (fleaves e1) -> Forall (fun v => WF (erase v)) (fleaves e1) -> fleaves e1 ≡ₚ fleaves e2 ->
  proj (erase (feval e1)) = proj (erase (feval e2)).
Proof.
  intros N1 W1 Hp.
  assert (N2 : Forall nonil (fleaves e2)) by (rewrite <- Hp; exact N1).
  rewrite (proj1 (feval_erase e1 N1)), (proj1 (feval_erase e2 N2)).
  apply merge_order_insensitive.
  - rewrite ferase_leaves. apply Forall_fmap. exact W1.
  - rewrite !ferase_leaves. rewrite Hp. reflexivity.
Qed.

Theorem f_merge_no_regression sk st now v o k s :
  nonil_entries o -> WF (erase v) -> WF (erase o) ->
  fv_map v !! k = Some (Some s) ->
  exists s', fv_map (fst (f_merge sk st now v o)) !! k = Some (Some s') /\
             inc_lt (inc_of (fs_core s')) (inc_of (fs_core s)) = false.
Proof.
  intros Hn Wv Wo Hk.
  destruct (f_merge_keeps_entries sk st now v o k (Some s) Hk) as (e' & He' & Hc).
  assert (Hp : proj (erase v) !! k = Some (inc_of (fs_core s))).
  { unfold proj. rewrite lookup_fmap. cbn [erase vw_members]. rewrite erase_members_lookup, Hk. reflexivity. }
  destruct (merge_no_regression sk st now (erase v) (erase o) k _ Wv Wo Hp) as (p' & Hp' & Hlt).
  destruct (f_merge_erase sk st now v o Hn) as [E _]. rewrite <- E in Hp'.
  unfold proj in Hp'. rewrite lookup_fmap in Hp'. cbn [erase vw_members] in Hp'.
  rewrite erase_members_lookup, He' in Hp'.
  destruct e' as [s'|].
  - exists s'. split; [exact He'|]. cbn in Hp'. injection Hp' as <-. exact Hlt.
  - destruct Hc as [Hc|(xs & Hc & _)]; discriminate.
Qed.

(** non-vacuity: two complete one-member views as the code builds them (newNodeState, Labels set,
    AddMember), nil-free, well formed; the merge adopts b with every field *)
Definition fx_state (id : list N) (dc : list N) : fstate :=
  let s := f_new_node_state id [120; 118] id 100 in
  FState (fs_core s) (fs_cluster s) (fs_unreach s) (fs_meta s) (Some {[ [100; 99] := dc ]}) (fs_checksum s).
Definition fx_a : fview := f_add (f_new_view [1] 100 0) (fx_state [97] [49]).
Definition fx_b : fview := f_add (f_new_view [2] 100 0) (fx_state [98] [50]).

Lemma fx_example :
  nonil fx_a /\ nonil fx_b /\ WF (erase fx_a) /\ WF (erase fx_b) /\
  fv_map (fst (f_merge 0 0 0 fx_a fx_b)) !! [98] = Some (Some (fx_state [98] [50])) /\
  fv_map (fst (f_merge 0 0 0 fx_a fx_b)) !! [97] = Some (Some (fx_state [97] [49])) /\
  fv_id (fst (f_merge 0 0 0 fx_a fx_b)) = [1] /\ snd (f_merge 0 0 0 fx_a fx_b) = true.
Proof.
  assert (Na : nonil fx_a) by (apply f_add_nonil, f_new_view_nonil).
  assert (Nb : nonil fx_b) by (apply f_add_nonil, f_new_view_nonil).
  assert (Wa : WF (erase fx_a)).
  { unfold fx_a. rewrite f_add_erase, erase_new_view. apply WF_add; [apply WF_new|split; cbn; lia]. }
  assert (Wb : WF (erase fx_b)).
  { unfold fx_b. rewrite f_add_erase, erase_new_view. apply WF_add; [apply WF_new|split; cbn; lia]. }
  repeat (split; [assumption|]). vm_compute. auto.
Qed.
