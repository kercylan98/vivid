(** Updating one node of a clean world (and sending the GossipMessages of its handler) preserves [cinv]. *)
From stdpp Require Import gmap.
From Vivid Require Import Cluster.VV Cluster.VVProofs Cluster.View Cluster.Gossip Cluster.GossipCleanOps
  Cluster.GossipCleanInv Cluster.GossipCleanStep.
Local Open Scope N_scope.

Definition upd (w : world) (n' : node) (out : list (addr * view)) : world :=
  add_net (put_node w n') (stamp (nd_addr n') out).

(** what a handler establishes about the node it leaves behind, stated against the world BEFORE the handler, in
    which the node [n] it started from is running *)
Record npre (G' : glog) (w : world) (n n' : node) : Prop := {
  np_cfg : nd_cfg n' = nd_cfg n;
  np_self_wf : wf_state (nd_self n');
  np_self_id : ns_id (nd_self n') = nd_id n;
  np_self_addr : ns_addr (nd_self n') = nd_addr n;
  np_fdoff : nd_fd_on n' = false;
  np_view : vinv0 G' w (nd_view n');
  np_own : vown' w (nd_id n) (nd_view n');
  np_vle : vle (vw_vv (nd_view n)) (vw_vv (nd_view n'));
  np_last : forall t q, nd_last n' !! t = Some q -> exists m, w_nodes w !! t = Some m /\ vle q (vw_vv (nd_view m));
  np_joined : nd_gossip_on n' = true -> nd_retry_on n' = false /\ is_Some (vw_members (nd_view n') !! nd_id n);
  np_cnt : forall k, vget (vw_vv (nd_view n')) k <= N.of_nat (length G')
}.

Lemma vinv0_mono G G' w w' v :
  vinv0 G w v -> wext w w' -> (forall e, e ∈ G -> e ∈ G') ->
  (forall e, e ∈ G' -> sel (vw_vv v) e -> e ∈ G) -> vinv0 G' w' v.
Proof.
  intros [Wv Iv Tv Jv Cv Ev Pv Mv CCv] Hx Hsub Hsel. split; try assumption.
  - eapply truthful_mono; eassumption.
  - intros m s Hs. destruct (Jv m s Hs) as (e & H1 & H2 & H3 & H4). exists e. split; [apply Hsub; exact H1|auto].
  - intros e He Hs. apply Cv; [apply Hsel; assumption|exact Hs].
Qed.

Lemma ninv_mono G G' w w' a n :
  ninv G w a n -> wext w w' -> log_ext w G G' -> ninv G' w' a n.
Proof.
  intros [N1 N2 N3 N4 N5 N6 N7 N8 N9 N10 N11 N12] Hx Hl. split; try assumption.
  - eapply vinv_mono; eassumption.
  - intros t q Hq. destruct (N10 t q Hq) as (m & Hm & Hle). destruct (Hx _ _ Hm) as (m' & Hm' & _ & L).
    exists m'. split; [exact Hm'|eapply vle_trans; eassumption].
Qed.

Lemma lookup_upd_nodes w n' out b : w_nodes (upd w n' out) !! b = if decide (b = nd_addr n') then Some n' else w_nodes w !! b.
Proof.
  unfold upd, add_net, put_node; cbn. destruct (decide (b = nd_addr n')) as [->|Hne]; [apply lookup_insert|apply lookup_insert_ne; congruence].
Qed.

Lemma elem_upd_net w n' out p :
  p ∈ w_net (upd w n' out) <-> p ∈ w_net w \/ exists d v, (d, v) ∈ out /\ p = Pkt (nd_addr n') d v.
Proof.
  unfold upd, add_net, put_node, stamp; cbn. rewrite elem_of_app. split; intros [H|H]; auto; right.
  - apply elem_of_list_fmap in H as ([d v] & -> & H). exists d, v. auto.
  - destruct H as (d & v & H & ->). apply elem_of_list_fmap. exists (d, v). auto.
Qed.

(** [n] is the node that runs at [a] before, or (when no node runs at [a] and its id is fresh) a node that has not
    started yet: then [n' = n] *)
Lemma cinv_put G G' w a n n' out :
  cinv G w -> nd_addr n = a -> a <> [] -> (c_fd (nd_cfg n) <=? 0)%Z = true -> valid_addr (nd_id n) = true ->
  (forall b m, w_nodes w !! b = Some m -> b = a \/ nd_id m = nd_id n -> b = a /\ m = n) ->
  npre G' w n n' -> pub_ok n' ->
  (forall e, e ∈ G -> e ∈ G') -> (length G <= length G')%nat ->
  (forall e, e ∈ G' -> e ∈ G \/
     (g_i e = nd_id n /\ vget (vw_vv (nd_view n)) (nd_id n) < g_c e /\ g_c e <= vget (vw_vv (nd_view n')) (nd_id n))) ->
  (forall d v, (d, v) ∈ out -> v = nd_view n') ->
  cinv G' (upd w n' out) /\ wext w (upd w n' out) /\ nd_addr n' = a.
Proof.
  intros Hc N1 N2 N6 N7 Honly Hp Hpub Hsub Hlen Hnew Hout.
  assert (Ea : nd_addr n' = a) by (unfold nd_addr; rewrite (np_cfg _ _ _ _ Hp); exact N1).
  assert (Eid : nd_id n' = nd_id n) by (unfold nd_id; rewrite (np_cfg _ _ _ _ Hp); reflexivity).
  set (w' := upd w n' out).
  assert (Hx : wext w w').
  { intros b m Hb. unfold w'. rewrite lookup_upd_nodes, Ea. destruct (decide (b = a)) as [->|Hne].
    - destruct (Honly a m Hb (or_introl eq_refl)) as [_ ->]. exists n'. split; [reflexivity|]. split; [exact Eid|apply (np_vle _ _ _ _ Hp)].
    - exists m. split; [exact Hb|]. split; [reflexivity|apply vle_refl]. }
  assert (Hl : log_ext w G G').
  { split; [exact Hsub|]. intros e He. destruct (Hnew e He) as [Ho|(Ei & Hlt & _)]; [left; exact Ho|right].
    split; [lia|]. intros b m Hb Hid. rewrite Ei in Hid |- *. destruct (Honly b m Hb (or_intror Hid)) as [_ ->]. exact Hlt. }
  assert (Hn' : w_nodes w' !! a = Some n') by (unfold w'; rewrite lookup_upd_nodes, Ea, decide_True by reflexivity; reflexivity).
  assert (Hv' : vinv G' w' (nd_view n')).
  { apply vinv0_vinv.
    - destruct (np_view _ _ _ _ Hp) as [Wv Iv Tv Jv Cv Ev Pv Mv CCv]. split; try assumption. eapply truthful_mono; eassumption.
    - intros k Hpos. destruct (np_own _ _ _ _ Hp k Hpos) as [->|(b & m & Hb & Hid & Hle)].
      + exists a, n'. split; [exact Hn'|]. split; [exact Eid|lia].
      + destruct (Hx _ _ Hb) as (m' & Hm' & Hid' & L). exists b, m'. split; [exact Hm'|]. split; [congruence|]. specialize (L k). lia. }
  split; [|split; [exact Hx|exact Ea]]. split.
  - intros b m Hb. unfold w' in Hb. rewrite lookup_upd_nodes, Ea in Hb. destruct (decide (b = a)) as [->|Hne].
    + injection Hb as <-. split; try assumption.
      * apply (np_self_wf _ _ _ _ Hp).
      * rewrite Eid. apply (np_self_id _ _ _ _ Hp).
      * rewrite (np_self_addr _ _ _ _ Hp). exact N1.
      * rewrite (np_cfg _ _ _ _ Hp). exact N6.
      * rewrite Eid. exact N7.
      * apply (np_fdoff _ _ _ _ Hp).
      * intros t q Hq. destruct (np_last _ _ _ _ Hp t q Hq) as (m & Hm & Hle). destruct (Hx _ _ Hm) as (m' & Hm' & _ & L).
        exists m'. split; [exact Hm'|eapply vle_trans; eassumption].
      * rewrite Eid. apply (np_joined _ _ _ _ Hp).
    + eapply ninv_mono; [apply (ci_nodes _ _ Hc); exact Hb|exact Hx|exact Hl].
  - intros p Hp'. apply elem_upd_net in Hp' as [Hold|(d & v & Hdv & ->)].
    + destruct (ci_net _ _ Hc p Hold) as (Hv & m & Hm & Hle). split; [eapply vinv_mono; eassumption|].
      destruct (Hx _ _ Hm) as (m' & Hm' & _ & L). exists m'. split; [exact Hm'|eapply vle_trans; eassumption].
    + cbn [p_view p_src]. rewrite (Hout d v Hdv). split; [exact Hv'|]. exists n'. rewrite Ea. split; [exact Hn'|apply vle_refl].
  - intros b1 b2 m1 m2 H1 H2 Hid. unfold w' in H1, H2. rewrite lookup_upd_nodes, Ea in H1, H2.
    destruct (decide (b1 = a)) as [->|E1], (decide (b2 = a)) as [->|E2]; try reflexivity.
    + injection H1 as <-. rewrite Eid in Hid. symmetry. apply (Honly b2 m2 H2). right. symmetry. exact Hid.
    + injection H2 as <-. rewrite Eid in Hid. apply (Honly b1 m1 H1). right. exact Hid.
    + eapply (ci_uniq _ _ Hc); eassumption.
  - intros e He. destruct (Hnew e He) as [Ho|(Ei & Hlt & Hle)].
    + destruct (ci_log _ _ Hc e Ho) as (Hpos & b & m & Hb & Hid & Hc').
      split; [exact Hpos|]. destruct (Hx _ _ Hb) as (m' & Hm' & Hid' & L). exists b, m'. split; [exact Hm'|].
      split; [congruence|]. specialize (L (g_i e)). lia.
    + split; [lia|]. exists a, n'. split; [exact Hn'|]. split; [congruence|]. rewrite Ei. exact Hle.
  - intros b m k Hb. unfold w' in Hb. rewrite lookup_upd_nodes, Ea in Hb. destruct (decide (b = a)) as [->|Hne].
    + injection Hb as <-. apply (np_cnt _ _ _ _ Hp).
    + pose proof (ci_cnt _ _ Hc b m k Hb). lia.
Qed.

Theorem cinv_upd G G' w a n n' out :
  cinv G w -> w_nodes w !! a = Some n -> npre G' w n n' -> pub_ok n' ->
  (forall e, e ∈ G -> e ∈ G') -> (length G <= length G')%nat ->
  (forall e, e ∈ G' -> e ∈ G \/
     (g_i e = nd_id n /\ vget (vw_vv (nd_view n)) (nd_id n) < g_c e /\ g_c e <= vget (vw_vv (nd_view n')) (nd_id n))) ->
  (forall d v, (d, v) ∈ out -> v = nd_view n') ->
  cinv G' (upd w n' out) /\ wext w (upd w n' out) /\ nd_addr n' = a.
Proof.
  intros Hc Ha. destruct (ci_nodes _ _ Hc a n Ha) as [N1 N2 N3 N4 N5 N6 N7 N8 N9 N10 N11 N12].
  apply (cinv_put G G' w a n n' out Hc N1 N2 N6 N7). intros b m Hb Hor.
  assert (b = a) by (destruct Hor as [E|E]; [exact E|exact (ci_uniq _ _ Hc b a m n Hb Ha E)]). subst b.
  rewrite Ha in Hb. injection Hb as <-. split; reflexivity.
Qed.

Lemma cinv_less_net G w net' :
  cinv G w -> (forall p, p ∈ net' -> p ∈ w_net w) -> cinv G (World (w_nodes w) net').
Proof.
  intros Hc Hsub.
  assert (Hx : wext w (World (w_nodes w) net')) by (intros a n Ha; exists n; split; [exact Ha|split; [reflexivity|apply vle_refl]]).
  split.
  - intros a n Ha. cbn in Ha. eapply ninv_mono; [apply (ci_nodes _ _ Hc); exact Ha|exact Hx|apply log_ext_refl].
  - intros p Hp. cbn in Hp. destruct (ci_net _ _ Hc p (Hsub p Hp)) as (Hv & m & Hm & Hle).
    split; [eapply vinv_mono; [exact Hv|exact Hx|apply log_ext_refl]|]. exists m. split; [exact Hm|exact Hle].
  - exact (ci_uniq _ _ Hc).
  - exact (ci_log _ _ Hc).
  - exact (ci_cnt _ _ Hc).
Qed.

Lemma wext_same_nodes w w' : w_nodes w' = w_nodes w -> wext w w'.
Proof. intros E a n Ha. exists n. rewrite E. split; [exact Ha|split; [reflexivity|apply vle_refl]]. Qed.

(** What a fair round accumulates.
    [covered w n t]: the node at [t] already has a vector that dominates [n]'s, or a GossipMessage that does is on
    its way to [t].  [rinv S w]: every node of [S] whose gossip loop runs has all its gossip targets covered. *)
Definition covered (w : world) (n : node) (t : addr) : Prop :=
  forall m, w_nodes w !! t = Some m ->
    vle (vw_vv (nd_view n)) (vw_vv (nd_view m)) \/
    exists p, p ∈ w_net w /\ p_dst p = t /\ vle (vw_vv (nd_view n)) (vw_vv (p_view p)).

Definition rinv (S : list addr) (w : world) : Prop :=
  forall a n, a ∈ S -> w_nodes w !! a = Some n -> nd_gossip_on n = true ->
    forall t, t ∈ select_targets n -> covered w n t.

Lemma rinv_nil w : rinv [] w.
Proof. intros a n H. inversion H. Qed.

Lemma select_targets_not_self n t : t ∈ select_targets n -> t <> nd_addr n.
Proof. intros H. apply select_targets_spec in H. tauto. Qed.

Lemma rinv_upd S S' w w1 a n n' out :
  w_nodes w1 = w_nodes w ->
  (forall q, q ∈ w_net w -> q ∈ w_net w1 \/ (p_dst q = a /\ vle (vw_vv (p_view q)) (vw_vv (nd_view n')))) ->
  w_nodes w !! a = Some n -> nd_addr n' = a -> vle (vw_vv (nd_view n)) (vw_vv (nd_view n')) ->
  (forall t q m, nd_last n' !! t = Some q -> w_nodes (upd w1 n' out) !! t = Some m -> vle q (vw_vv (nd_view m))) ->
  rinv S w ->
  (forall b, b ∈ S' -> b ∈ S \/ b = a) ->
  ((veq (vw_vv (nd_view n')) (vw_vv (nd_view n)) /\ (forall t, t ∈ select_targets n' -> t ∈ select_targets n) /\
    (nd_gossip_on n' = true -> nd_gossip_on n = true) /\ (a ∈ S' -> a ∈ S))
   \/ (forall t, t ∈ select_targets n' ->
         (t, nd_view n') ∈ out \/ exists q, nd_last n' !! t = Some q /\ vle (vw_vv (nd_view n')) q)) ->
  rinv S' (upd w1 n' out).
Proof.
  intros En Hnet Ha Ea Hle Hlast Hr Hsub Hmode b m Hb Hm Hg t Ht mt Hmt.
  rewrite lookup_upd_nodes, Ea in Hm, Hmt.
  assert (Hold : forall q, q ∈ w_net w1 -> q ∈ w_net (upd w1 n' out)) by (intros q Hq; apply elem_upd_net; left; exact Hq).
  destruct (decide (b = a)) as [->|Hnb].
  - injection Hm as <-. pose proof (select_targets_not_self _ _ Ht) as Hta. rewrite Ea in Hta.
    rewrite decide_False in Hmt by exact Hta. rewrite En in Hmt.
    destruct Hmode as [(Hveq & Htg & Hgo & HS)|Hbc].
    + destruct (Hr a n (HS Hb) Ha (Hgo Hg) t (Htg t Ht) mt Hmt) as [L|(p & Hp & Hd & L)].
      * left. eapply vle_trans; [apply veq_vle; exact Hveq|exact L].
      * right. exists p. split; [|split; [exact Hd|eapply vle_trans; [apply veq_vle; exact Hveq|exact L]]].
        destruct (Hnet p Hp) as [Hin|[Hd' _]]; [apply Hold; exact Hin|congruence].
    + destruct (Hbc t Ht) as [Hin|(q & Hq & L)].
      * right. exists (Pkt a t (nd_view n')). split; [|split; [reflexivity|apply vle_refl]].
        apply elem_upd_net. right. exists t, (nd_view n'). rewrite Ea. auto.
      * left. eapply vle_trans; [exact L|]. eapply Hlast; [exact Hq|]. rewrite lookup_upd_nodes, Ea, decide_False by exact Hta. rewrite En. exact Hmt.
  - rewrite En in Hm. destruct (Hsub b Hb) as [HbS|]; [|contradiction].
    destruct (decide (t = a)) as [->|Hta].
    + injection Hmt as <-. destruct (Hr b m HbS Hm Hg a Ht n Ha) as [L|(p & Hp & Hd & L)].
      * left. eapply vle_trans; eassumption.
      * destruct (Hnet p Hp) as [Hin|[_ L']].
        -- right. exists p. split; [apply Hold; exact Hin|]. split; [exact Hd|exact L].
        -- left. eapply vle_trans; eassumption.
    + rewrite En in Hmt. destruct (Hr b m HbS Hm Hg t Ht mt Hmt) as [L|(p & Hp & Hd & L)]; [left; exact L|].
      right. exists p. split; [|split; [exact Hd|exact L]].
      destruct (Hnet p Hp) as [Hin|[Hd' _]]; [apply Hold; exact Hin|congruence].
Qed.
