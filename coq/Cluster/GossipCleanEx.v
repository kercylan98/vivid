(** Concrete executions around the clean class: an instance of the hypotheses of the convergence theorem (self-seeded
    islands bridged by a node that lists both seeds), the two remaining excluded classes - a crash that nothing
    detects, seed lists that do not connect - and characterisations of the failure-detector thresholds and of the
    default quorum rule. *)
From stdpp Require Import gmap.
From Vivid Require Import Cluster.VV Cluster.View Cluster.Gossip Cluster.GossipProofs Cluster.GossipClean
  Cluster.GossipCleanConv.
Local Open Scope N_scope.

(** (i) self-seeded islands A = [A], B = [B]; C lists [A; B] and joins through A; D lists [B].  No fault at all.
    Before the round the views are {A,C}, {B,D}, {A,C}, {B,D}; nobody in A's island has a node of B's island in its view
    or among its seeds except C, whose seed B is NOT a member of its view: the islands meet only because the target
    selection keeps gossiping to configured seeds outside the view. *)
Definition ids_of (n : node) : list (list N) := map ns_id (states (nd_view n)).

Lemma wi_check :
  witness wi_play 1 1050 50 (fun F R w1 l1 w2 logs =>
    clean_history F && (length R =? 1)%nat &&
    (N.of_nat (size (w_nodes w1)) <=? max_entries) && (3 * N.of_nat (length F) + 3 <? max_counter) &&
    all_joined_b w1 && bool_decide (w_net w1 = []) && seed_connected_b w2 &&
    bool_decide (map ids_of (nodes_of w1) = [[[65]; [67]]; [[66]; [68]]; [[65]; [67]]; [[66]; [68]]]) &&
    bool_decide (map ids_of (nodes_of w2) = [[[65]; [66]; [67]; [68]]; [[65]; [66]; [67]; [68]]; [[65]; [66]; [67]; [68]]; [[65]; [66]; [67]; [68]]]) &&
    converged_b w2).
Proof. apply (witness_intro (removelast wi_play)); [reflexivity|vm_compute; reflexivity]. Qed.

(** (g) a crash that nothing detects: failure detection off, s and j converge, j crashes; 30 fair rounds later s still
    lists j - for ever (every round is quiet) *)
Lemma wj_check :
  witness wj_play 30 1250 50 (fun F R w1 l1 w2 logs =>
    (length R =? 30)%nat && negb (is_running w2 ad2) && (length (nodes_of w2) =? 1)%nat &&
    match w_nodes w2 !! ad1 with Some s => lists_id s [106] | None => false end &&
    negb (converged_b w2) && forallb quiet logs).
Proof. apply (witness_intro (removelast wj_play)); [reflexivity|vm_compute; reflexivity]. Qed.

(** (h) seed lists that do not connect: two self-seeded nodes, a clean history, everybody has joined - and nothing ever
    happens: the side condition [seed_connected] of the convergence theorem cannot be dropped *)
Lemma wk_check :
  witness wk_play 30 1050 50 (fun F R w1 l1 w2 logs =>
    clean_history F && (length R =? 30)%nat && all_joined_b w1 &&
    no_seed_edges_b w2 && is_running w2 ad1 && is_running w2 ad2 &&
    (length (nodes_of w2) =? 2)%nat && negb (converged_b w2) && forallb quiet logs &&
    bool_decide (map ids_of (nodes_of w2) = [[[65]]; [[66]]])).
Proof. apply (witness_intro (removelast wk_play)); [reflexivity|vm_compute; reflexivity]. Qed.

(** the same as propositions (what Properties/C18.v states) *)
Lemma fair_rounds_one w t d R w2 logs :
  (length R =? 1)%nat = true -> fair_rounds w t d R = Some (w2, logs) -> exists r l, fair_round w t r = Some (w2, l).
Proof.
  destruct R as [|r [|]]; try discriminate. intros _. cbn [fair_rounds].
  destruct (fair_round w t r) as [[wa la]|] eqn:E; [|discriminate]. intros [= <- _]. exists r, la. exact E.
Qed.

Lemma wi_example :
  exists w0 l0 r w1 l1,
    clean_history (faults_of wi_play 1) = true /\ run empty_world (faults_of wi_play 1) = Some (w0, l0) /\
    N.of_nat (size (w_nodes w0)) <= max_entries /\ 3 * N.of_nat (length (faults_of wi_play 1)) + 3 < max_counter /\
    all_joined w0 /\ fair_round w0 1050 r = Some (w1, l1) /\ seed_connected w1 /\
    map (fun n => map ns_id (states (nd_view n))) (nodes_of w0) = [[[65]; [67]]; [[66]; [68]]; [[65]; [67]]; [[66]; [68]]] /\
    map (fun n => map ns_id (states (nd_view n))) (nodes_of w1) =
      [[[65]; [66]; [67]; [68]]; [[65]; [66]; [67]; [68]]; [[65]; [66]; [67]; [68]]; [[65]; [66]; [67]; [68]]].
Proof.
  destruct wi_check as (w0 & l0 & w1 & logs & H1 & H2 &
    [[[[[[[[[Hc HR]%andb_prop Hn]%andb_prop Hl]%andb_prop Hj]%andb_prop _]%andb_prop Hs]%andb_prop I0]%andb_prop I1]%andb_prop _]%andb_prop).
  destruct (fair_rounds_one _ _ _ _ _ _ HR H2) as (r & la & Hf).
  exists w0, l0, r, w1, la. split; [exact Hc|]. split; [exact H1|]. split; [apply N.leb_le, Hn|]. split; [apply N.ltb_lt, Hl|].
  split; [apply all_joined_b_sound; exact Hj|]. split; [exact Hf|]. split; [apply seed_connected_b_sound; exact Hs|].
  split; [exact (proj1 (bool_decide_eq_true _) I0)|exact (proj1 (bool_decide_eq_true _) I1)].
Qed.

Lemma wk_example :
  exists w1 l1 w2 logs,
    run empty_world (faults_of wk_play 30) = Some (w1, l1) /\
    fair_rounds w1 1050 50 (rounds_of wk_play 30) = Some (w2, logs) /\
    clean_history (faults_of wk_play 30) = true /\ all_joined w1 /\ ~ seed_connected w2 /\
    ~ converged w2 /\ Forall (fun lg => quiet lg = true) logs /\
    map (fun n => map ns_id (states (nd_view n))) (nodes_of w2) = [[[65]]; [[66]]].
Proof.
  destruct wk_check as (w1 & l1 & w2 & logs & H1 & H2 &
    [[[[[[[[[Hc _]%andb_prop Hj]%andb_prop He]%andb_prop R1]%andb_prop R2]%andb_prop _]%andb_prop Hn]%andb_prop Hq]%andb_prop I2]%andb_prop).
  exists w1, l1, w2, logs.
  split; [exact H1|]. split; [exact H2|]. split; [exact Hc|]. split; [apply all_joined_b_sound; exact Hj|].
  split; [apply (no_seed_edges_apart w2 ad1 ad2); [exact He|exact (proj1 (bool_decide_eq_true _) R1)|exact (proj1 (bool_decide_eq_true _) R2)|discriminate]|].
  split; [intros Hcv; rewrite (proj2 (converged_b_spec _) Hcv) in Hn; discriminate|].
  split; [apply Forall_forall; intros lg Hlg; apply (proj1 (forallb_forall _ _) Hq), elem_of_list_In, Hlg|].
  exact (proj1 (bool_decide_eq_true _) I2).
Qed.

(** the failure detector's thresholds (failure_detector.go RunDetection, one datacenter) *)
Lemma elem_fd_detect n now id :
  (id ∈ fst (fd_detect n now) <-> exists s, vw_members (nd_view n) !! id = Some s /\ fd_class (nd_cfg n) (nd_addr n) now s = 1) /\
  (id ∈ snd (fd_detect n now) <-> exists s, vw_members (nd_view n) !! id = Some s /\ fd_class (nd_cfg n) (nd_addr n) now s = 2).
Proof.
  assert (H : forall i, id ∈ map fst (List.filter (fun p => fd_class (nd_cfg n) (nd_addr n) now (snd p) =? i) (map_to_list (vw_members (nd_view n)))) <->
                        exists s, vw_members (nd_view n) !! id = Some s /\ fd_class (nd_cfg n) (nd_addr n) now s = i).
  { intros i. rewrite elem_of_list_In, in_map_iff. split.
    - intros ([k s] & <- & Hin). apply filter_In in Hin as [Hin Hc]. apply elem_of_list_In, elem_of_map_to_list in Hin.
      exists s. split; [exact Hin|apply N.eqb_eq, Hc].
    - intros (s & Hs & Hc). exists (id, s). split; [reflexivity|]. apply filter_In.
      split; [apply elem_of_list_In, elem_of_map_to_list, Hs|apply N.eqb_eq, Hc]. }
  split; apply H.
Qed.

Lemma fd_class_remove c self now s :
  fd_class c self now s = 2 <->
  ns_addr s <> self /\ (0 < c_fd c)%Z /\ (ns_seen s < now - (c_fd c + Z.max (c_confirm c) 0))%Z.
Proof.
  unfold fd_class. case bool_decide_reflect; intros Ha; [split; [discriminate|tauto]|].
  destruct (Z.leb_spec (c_fd c) 0); [split; [discriminate|lia]|]. cbv zeta.
  destruct (Z.ltb_spec (ns_seen s) (now - (c_fd c + Z.max (c_confirm c) 0))); [tauto|].
  destruct (_ && _ && _); split; (discriminate || lia).
Qed.

Lemma fd_class_suspect c self now s :
  fd_class c self now s = 1 <->
  ns_addr s <> self /\ (0 < c_fd c)%Z /\ ns_status s = st_up /\ (0 < c_confirm c)%Z /\
  (now - (c_fd c + c_confirm c) <= ns_seen s < now - c_fd c)%Z.
Proof.
  unfold fd_class. case bool_decide_reflect; intros Ha; [split; [discriminate|tauto]|].
  destruct (Z.leb_spec (c_fd c) 0); [split; [discriminate|lia]|]. cbv zeta.
  destruct (Z.ltb_spec (ns_seen s) (now - (c_fd c + Z.max (c_confirm c) 0))); [split; [discriminate|lia]|].
  destruct (_ && _ && _) eqn:E.
  - apply andb_true_iff in E as [[E1 E2]%andb_true_iff E3]. apply Z.eqb_eq in E1. apply Z.ltb_lt in E2, E3.
    split; [intros _; repeat split; (assumption || lia)|reflexivity].
  - split; [discriminate|]. intros (_ & _ & Hu & Hc & Hs). enough (true = false) by discriminate.
    rewrite <- E. symmetry. rewrite !andb_true_iff, Z.eqb_eq, !Z.ltb_lt. lia.
Qed.

Theorem fd_removes_iff n now id :
  id ∈ snd (fd_detect n now) <->
  exists s, vw_members (nd_view n) !! id = Some s /\ ns_addr s <> nd_addr n /\ (0 < c_fd (nd_cfg n))%Z /\
            (ns_seen s < now - (c_fd (nd_cfg n) + Z.max (c_confirm (nd_cfg n)) 0))%Z.
Proof. rewrite (proj2 (elem_fd_detect n now id)). setoid_rewrite fd_class_remove. reflexivity. Qed.

Theorem fd_suspects_iff n now id :
  id ∈ fst (fd_detect n now) <->
  exists s, vw_members (nd_view n) !! id = Some s /\ ns_addr s <> nd_addr n /\ (0 < c_fd (nd_cfg n))%Z /\
            ns_status s = st_up /\ (0 < c_confirm (nd_cfg n))%Z /\
            (now - (c_fd (nd_cfg n) + c_confirm (nd_cfg n)) <= ns_seen s < now - c_fd (nd_cfg n))%Z.
Proof. rewrite (proj1 (elem_fd_detect n now id)). setoid_rewrite fd_class_suspect. reflexivity. Qed.

(** the default quorum rule: after recomputeCounts, SatisfiesQuorum holds exactly when at least one member is Up *)
Theorem default_quorum_trivial v : sat_quorum (recompute v) = (0 <? vw_healthy (recompute v)).
Proof. apply GossipCleanStep.sat_quorum_default. reflexivity. Qed.
