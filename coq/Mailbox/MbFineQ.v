(** Queue-level lemmas for the fine-grained mailbox model (Mailbox/MbFine.v): the two halves of Push / Pop compose
    to the sequential [ring_push] / [ring_pop] of Queue/Ring.v, and the per-queue invariant [QI] (who holds the mutex,
    what the buffer represents in the middle of a critical section, a consumer past its emptiness check finds an
    element) is preserved by every queue micro-step. *)
From Coq Require Import List ZArith Lia.
From Vivid Require Import Queue.Ring Queue.RingProofs.
From Vivid Require Import Mailbox.MbModel Mailbox.MbPool Mailbox.MbInv Mailbox.MbFine.
Import ListNotations.
Local Open Scope Z_scope.

(** case analysis on a fine pc; the queue flag of the pcs that have one is [sys] *)
Ltac fpc_cases p := destruct p as [k|sys m|sys m|sys| | | | |sys|sys|sys v|sys m|sys m| | | |u|u| | | ].

Lemma cnt_map_apc P l : cnt P (map apc l) = tally (fun p => P (apc p)) l.
Proof. rewrite cnt_tally. exact (sumz_map apc (fun a => b2z (P a)) l). Qed.

(** [q] (whatever its lock bit) represents the FIFO content [l] *)
Definition QR (q : cq) (l : list msg) : Prop :=
  qlen q = Z.of_nat (length l) /\ ring_repr (to_ring q) l.

Lemma push_split x q : 0 <= qlen q ->
  match q_push_pre q with
  | Some q1 => ring_push x (to_ring q) = inl (to_ring (q_push_fin x q1)) /\ qlen q1 = qlen q /\ qlock q1 = true
  | None => ring_push x (to_ring q) = inr PDivZero
  end.
Proof.
  intros Hl. unfold q_push_pre, ring_push, rmod, qmod, to_ring. cbn [rbuf rhead rtail rlen].
  destruct (Nat.eqb_spec (length (qbuf q)) 0) as [E|NE]; [reflexivity|].
  destruct (Nat.eqb_spec ((qtail q + 1) mod length (qbuf q)) (qhead q)) as [E2|NE2];
    unfold q_push_fin; cbn [qbuf qhead qtail qlen qlock]; (split; [|split; reflexivity]); f_equal; f_equal; lia.
Qed.

Lemma pop_split q : 0 < qlen q ->
  match q_pop_pre q with
  | Some (v, q1) => ring_pop (to_ring q) = inl (Some v, to_ring (q_pop_fin q1)) /\ qlen q1 = qlen q /\ qlock q1 = true
  | None => ring_pop (to_ring q) = inr PDivZero
  end.
Proof.
  intros Hl. unfold q_pop_pre, ring_pop, rmod, qmod, to_ring. cbn [rbuf rhead rtail rlen].
  destruct (Nat.eqb_spec (Z.to_nat (qlen q)) 0) as [E|NE]; [lia|].
  destruct (Nat.eqb_spec (length (qbuf q)) 0) as [E|NE']; [reflexivity|].
  unfold q_pop_fin; cbn [qbuf qhead qtail qlen qlock]. split; [|split; reflexivity]. f_equal. f_equal. f_equal. lia.
Qed.

Lemma QR_new n : (1 <= n)%nat -> QR (q_new n) [].
Proof.
  intros Hn. split; [reflexivity|].
  destruct (@new_repr msg (Z.of_nat n) ltac:(lia)) as (r & Hr & Hrep).
  unfold ring_new in Hr. destruct (Z.ltb_spec (Z.of_nat n) 0); [lia|]. inversion Hr; subst. clear Hr.
  rewrite Nat2Z.id in Hrep. exact Hrep.
Qed.

Lemma QR_push_pre q l : QR q l ->
  exists q1, q_push_pre q = Some q1 /\ qlen q1 = qlen q /\ qlock q1 = true /\ forall x, QR (q_push_fin x q1) (l ++ [x]).
Proof.
  intros [Hlen Hrep].
  assert (Hnn : 0 <= qlen q) by lia.
  destruct (q_push_pre q) as [q1|] eqn:E.
  - exists q1. split; [reflexivity|].
    pose proof (push_split 0%N q Hnn) as P0. rewrite E in P0. destruct P0 as (_ & Hl1 & Hk1).
    split; [exact Hl1|]. split; [exact Hk1|]. intros x. split.
    + unfold q_push_fin; cbn [qlen]. rewrite app_length; cbn [length]. lia.
    + pose proof (push_split x q Hnn) as P. rewrite E in P. destruct P as (P & _).
      destruct (push_refines x Hrep) as (r' & Hr' & Hrep'). rewrite P in Hr'. inversion Hr'; subst. exact Hrep'.
  - exfalso. pose proof (push_split 0%N q Hnn) as P. rewrite E in P.
    destruct (push_refines 0%N Hrep) as (r' & Hr' & _). rewrite P in Hr'. discriminate.
Qed.

Lemma QR_pop_pre q a l : QR q (a :: l) ->
  exists q1, q_pop_pre q = Some (Some a, q1) /\ qlen q1 = qlen q /\ qlock q1 = true /\ QR (q_pop_fin q1) l.
Proof.
  intros [Hlen Hrep]. cbn [length] in Hlen.
  assert (Hpos : 0 < qlen q) by lia.
  pose proof (pop_split q Hpos) as P.
  destruct (pop_refines_cons Hrep) as (r' & Hr' & Hrep').
  destruct (q_pop_pre q) as [[v q1]|] eqn:E.
  - destruct P as (P & Hl1 & Hk1). rewrite P in Hr'. inversion Hr'; subst.
    exists q1. split; [reflexivity|]. split; [exact Hl1|]. split; [exact Hk1|]. split; [|exact Hrep'].
    unfold q_pop_fin; cbn [qlen]. lia.
  - rewrite P in Hr'. discriminate.
Qed.

Lemma QR_nil_len q l : QR q l -> qlen q = 0 -> l = [].
Proof. intros [H _] E. destruct l; [reflexivity|]. cbn [length] in H. lia. Qed.

Lemma QR_content q l : QR q l -> qcontent q = map Some l.
Proof.
  intros [Hlen Hrep]. pose proof (abs_repr Hrep) as A. unfold ring_abs, to_ring, rmod in A. cbn [rbuf rhead rlen] in A.
  unfold qcontent, qmod. exact A.
Qed.

Notation holder := in_critical.
(** pcs whose meaning depends on queue [sys] *)
Definition qrel (sys : bool) (p : fpc) : bool :=
  match p with FPushAdd b _ | FQPopAdd b _ | FQLock b => Bool.eqb b sys | _ => false end.

(** what the pc of a thread says about queue [sys] with content [l]: inside Push the slot for the item is ready, inside
    Pop the first element has been taken out, a consumer past its emptiness check will find an element *)
Definition qthr (sys : bool) (q : cq) (l : list msg) (p : fpc) : Prop :=
  match p with
  | FPushAdd b _ => b = sys -> forall x, QR (q_push_fin x q) (l ++ [x])
  | FQPopAdd b v => b = sys -> exists a l', l = a :: l' /\ v = Some a /\ QR (q_pop_fin q) l'
  | FQLock b => b = sys -> l <> []
  | _ => True
  end.

Record QI (sys : bool) (q : cq) (T : list fpc) (l : list msg) : Prop := {
  qi_cnt : tally (holder sys) T = b2z (qlock q);
  qi_free : qlock q = false -> QR q l;
  qi_len : qlen q = Z.of_nat (length l);
  qi_thr : forall i p, nth_error T i = Some p -> qthr sys q l p
}.

Lemma qrel_holder sys p : qrel sys p = false -> holder sys p = false.
Proof. destruct p; try reflexivity; exact (fun H => H). Qed.

Lemma qthr_irrel sys q l p : qrel sys p = false -> qthr sys q l p.
Proof. destruct p; try exact (fun _ => I); cbn; intros E ->; rewrite Bool.eqb_reflx in E; discriminate E. Qed.

Lemma QI_len_zero sys q T l : QI sys q T l -> qlen q = 0 -> l = [].
Proof. intros H E. pose proof (qi_len _ _ _ _ H) as Hl. destruct l; [reflexivity|]. cbn [length] in Hl. lia. Qed.

Lemma QI_holder_locked sys q T l i p : QI sys q T l -> nth_error T i = Some p -> holder sys p = true -> qlock q = true.
Proof.
  intros H Hp Hh. pose proof (tally_pos Hp (holder sys) Hh) as N. rewrite (qi_cnt _ _ _ _ H) in N.
  destruct (qlock q); [reflexivity|destruct (N eq_refl)].
Qed.

Lemma QI_free sys q T l : QI sys q T l -> qlock q = false -> ring_repr (to_ring q) l /\ qcontent q = map Some l.
Proof. intros H Hf. pose proof (qi_free _ _ _ _ H Hf) as R. exact (conj (proj2 R) (QR_content _ _ R)). Qed.

Lemma QI_same sys q T l i p p' : QI sys q T l -> nth_error T i = Some p ->
  holder sys p' = holder sys p -> qthr sys q l p' -> QI sys q (upd T i p') l.
Proof.
  intros [Hc Hf Hl Ht] Hp Hh Hq. split; [rewrite (tally_upd Hp), Hh; lia | exact Hf | exact Hl |].
  apply (nth_error_upd_all _ _ _ _ _ Hp Hq). intros j x _. apply Ht.
Qed.

(** thread [i] takes the free lock or gives it back: nobody else is inside a critical section, so all that the other
    threads know about the queue is that the consumer past its emptiness check will find an element *)
Lemma QI_move sys q q' T l l' i p p' : QI sys q T l -> nth_error T i = Some p ->
  holder sys p = qlock q -> holder sys p' = qlock q' ->
  (qlock q' = false -> QR q' l') -> qlen q' = Z.of_nat (length l') -> qthr sys q' l' p' ->
  (forall j, j <> i -> nth_error T j = Some (FQLock sys) -> l <> [] -> l' <> []) ->
  QI sys q' (upd T i p') l'.
Proof.
  intros [Hc Hf Hl Ht] Hp Hh Hh' Hf' Hl' Hq Hlk. split; [rewrite (tally_upd Hp), Hc, Hh, Hh'; lia | exact Hf' | exact Hl' |].
  apply (nth_error_upd_all _ _ _ _ _ Hp Hq). intros j x Hne Hj.
  assert (Hx : holder sys x = false).
  { pose proof (tally_nth2 (holder sys) T i j p x (not_eq_sym Hne) Hp Hj) as N. rewrite Hc, Hh in N.
    destruct (holder sys x); [cbn [b2z] in N; lia|reflexivity]. }
  specialize (Ht j x Hj).
  destruct x; try exact I; cbn [qthr holder] in *; intros ->; try (rewrite Bool.eqb_reflx in Hx; discriminate Hx).
  exact (Hlk j Hne Hj (Ht eq_refl)).
Qed.

Lemma QI_app sys q T l x : QI sys q T l -> qrel sys x = false -> QI sys q (T ++ [x]) l.
Proof.
  intros [Hc Hf Hl Ht] Hr. split; [|exact Hf|exact Hl|].
  - rewrite tally_app, Hc. cbn [tally sumz]. destruct x; try (cbn; lia); cbn in Hr |- *; rewrite Hr; cbn; lia.
  - intros j y Hj. destruct (nth_error_app_inv _ _ _ _ Hj) as [Hy|[<-|[]]]; [exact (Ht j y Hy)|exact (qthr_irrel _ _ _ _ Hr)].
Qed.

Lemma QI_init sys n ths : (1 <= n)%nat -> forallb fenv_pc ths = true -> QI sys (q_new n) (map FStart ths) [].
Proof.
  intros Hn He. split; [|intros _; exact (QR_new n Hn)|reflexivity|].
  - apply tally_none. intros j x Hj. rewrite nth_error_map in Hj. destruct (nth_error ths j); inversion Hj. reflexivity.
  - intros j x Hj. apply qthr_irrel. rewrite nth_error_map in Hj. destruct (nth_error ths j); inversion Hj. reflexivity.
Qed.
