(** Thread pools.  The state of a machine holds a list of program counters; thread [i] moves by [upd]ating
    position [i]; a schedule is a list of thread numbers, a choice that cannot step is skipped
    (Mailbox/MbModel.v, Mailbox/MbFine.v).  What does not depend on the pc type is here: positions under [upd],
    sums over the pool, and schedules of any such machine. *)
From Coq Require Import List ZArith Lia.
From Vivid Require Import Mailbox.MbModel.
Import ListNotations.
Local Open Scope Z_scope.

Section Pool.
Context {A : Type}.
Implicit Types (l : list A) (f : A -> Z).

Lemma nth_error_upd_eq l i p x : nth_error l i = Some p -> nth_error (upd l i x) i = Some x.
Proof. revert i. induction l as [|h t IH]; intros [|i] H; cbn in *; try discriminate; auto. Qed.

Lemma nth_error_upd_ne l i j x : i <> j -> nth_error (upd l j x) i = nth_error l i.
Proof.
  revert i j. induction l as [|h t IH]; intros [|i] [|j] H; cbn; try reflexivity; try congruence.
  apply IH. congruence.
Qed.

Lemma length_upd l i x : length (upd l i x) = length l.
Proof. revert i. induction l as [|h t IH]; intros [|i]; cbn; auto. Qed.

Lemma nth_error_app_inv l1 l2 j y : nth_error (l1 ++ l2) j = Some y -> nth_error l1 j = Some y \/ In y l2.
Proof.
  intros H. destruct (lt_dec j (length l1)) as [Hl|Hl].
  - rewrite nth_error_app1 in H by exact Hl. left. exact H.
  - rewrite nth_error_app2 in H by lia. right. exact (nth_error_In _ _ H).
Qed.

Lemma nth_error_upd_app l j p q sp : nth_error l j = Some p ->
  nth_error (upd l j q ++ sp) j = Some q /\
  forall i x, i <> j -> nth_error (upd l j q ++ sp) i = Some x -> nth_error l i = Some x \/ In x sp.
Proof.
  intros H. split.
  - rewrite nth_error_app1 by (rewrite length_upd; apply nth_error_Some; congruence). exact (nth_error_upd_eq _ _ _ _ H).
  - intros i x Hij Hx. destruct (nth_error_app_inv _ _ _ _ Hx) as [Hi|Hi]; [left|right; exact Hi].
    rewrite nth_error_upd_ne in Hi by exact Hij. exact Hi.
Qed.

Lemma nth_error_upd_all (Q : A -> Prop) l i p x : nth_error l i = Some p -> Q x ->
  (forall j a, j <> i -> nth_error l j = Some a -> Q a) -> forall j a, nth_error (upd l i x) j = Some a -> Q a.
Proof.
  intros Hp Hx Ho j a Hj. destruct (Nat.eq_dec j i) as [->|Hne].
  - rewrite (nth_error_upd_eq _ _ _ _ Hp) in Hj. inversion Hj; subst. exact Hx.
  - rewrite nth_error_upd_ne in Hj by exact Hne. exact (Ho j a Hne Hj).
Qed.

Lemma map_upd {B} (g : A -> B) l i x : map g (upd l i x) = upd (map g l) i (g x).
Proof. revert i. induction l as [|h t IH]; intros [|i]; cbn [map upd]; try reflexivity. now rewrite IH. Qed.

Lemma flat_map_all_nil {B} (g : A -> list B) l : (forall i a, nth_error l i = Some a -> g a = []) -> flat_map g l = [].
Proof.
  induction l as [|h t IH]; intros H; cbn [flat_map]; [reflexivity|].
  rewrite (H 0%nat h eq_refl), IH; [reflexivity|]. intros i a Hi. exact (H (S i) a Hi).
Qed.

Lemma map_upd_same {B} (g : A -> B) l i p x : nth_error l i = Some p -> g x = g p -> map g (upd l i x) = map g l.
Proof.
  revert i. induction l as [|h t IH]; intros [|i] H E; cbn [map upd nth_error] in *; try discriminate.
  - inversion H; subst. now rewrite E.
  - now rewrite (IH i H E).
Qed.

Lemma flat_upd_same {B} (g : A -> list B) l i p x : nth_error l i = Some p -> g x = g p ->
  flat_map g (upd l i x) = flat_map g l.
Proof. intros H E. rewrite !flat_map_concat_map, (map_upd_same g l i p x H E). reflexivity. Qed.

Fixpoint sumz f l : Z := match l with [] => 0 | a :: t => f a + sumz f t end.

Lemma sumz_upd f l i a x : nth_error l i = Some a -> sumz f (upd l i x) = sumz f l - f a + f x.
Proof.
  revert i. induction l as [|h t IH]; intros [|j] H; cbn [sumz upd nth_error] in *; try discriminate.
  - inversion H; subst. lia.
  - specialize (IH j H). lia.
Qed.

Lemma sumz_app f l1 l2 : sumz f (l1 ++ l2) = sumz f l1 + sumz f l2.
Proof. induction l1 as [|h t IH]; cbn [sumz app]; lia. Qed.

Lemma sumz_le f g l : (forall a, f a <= g a) -> sumz f l <= sumz g l.
Proof. intros H. induction l as [|h t IH]; cbn [sumz]; [lia|]. specialize (H h). lia. Qed.

Lemma sumz_upd_le f g l i p x d : nth_error l i = Some p -> (forall a, g a <= f a) -> g x + d <= f p ->
  sumz g (upd l i x) + d <= sumz f l.
Proof.
  intros Hp Hm Hd. revert i Hp. induction l as [|h t IH]; intros [|j] Hp; cbn [nth_error upd sumz] in *; try discriminate.
  - inversion Hp; subst. pose proof (sumz_le g f t Hm). lia.
  - specialize (IH j Hp). specialize (Hm h). lia.
Qed.

Lemma sumz_all_zero f l : (forall i a, nth_error l i = Some a -> f a = 0) -> sumz f l = 0.
Proof.
  induction l as [|h t IH]; intros H; cbn [sumz]; [reflexivity|].
  rewrite (H 0%nat h eq_refl), IH; [reflexivity|]. intros i a Hi. exact (H (S i) a Hi).
Qed.

Section Nonneg.
Variable f : A -> Z.
Hypothesis f_nonneg : forall a, 0 <= f a.

Lemma sumz_nonneg l : 0 <= sumz f l.
Proof. induction l as [|h t IH]; cbn [sumz]; [lia|]. specialize (f_nonneg h). lia. Qed.

Lemma sumz_nth l i a : nth_error l i = Some a -> f a <= sumz f l.
Proof.
  revert i. induction l as [|h t IH]; intros [|j] H; cbn [sumz nth_error] in *; try discriminate.
  - inversion H; subst. pose proof (sumz_nonneg t). lia.
  - specialize (IH j H). specialize (f_nonneg h). lia.
Qed.

Lemma sumz_nth2 l i j a b : i <> j -> nth_error l i = Some a -> nth_error l j = Some b -> f a + f b <= sumz f l.
Proof.
  revert i j. induction l as [|h t IH]; intros [|i] [|j] Hij Hi Hj; cbn [sumz nth_error] in *; try discriminate; try congruence.
  - inversion Hi; subst. pose proof (sumz_nth t j b Hj). lia.
  - inversion Hj; subst. pose proof (sumz_nth t i a Hi). lia.
  - assert (Hne : i <> j) by congruence. specialize (IH i j Hne Hi Hj). specialize (f_nonneg h). lia.
Qed.

Lemma sumz_pos_ex l : 0 < sumz f l -> exists i a, nth_error l i = Some a /\ 0 < f a.
Proof.
  induction l as [|h t IH]; cbn [sumz]; intros H; [lia|].
  destruct (Z.ltb_spec 0 (f h)) as [Hh|Hh].
  - exists 0%nat, h. split; [reflexivity|exact Hh].
  - destruct IH as (i & a & Hi & Ha); [specialize (f_nonneg h); lia|]. exists (S i), a. split; assumption.
Qed.
End Nonneg.

Fixpoint sumi (u : nat -> A -> Z) l : Z :=
  match l with [] => 0 | a :: t => u 0%nat a + sumi (fun j => u (S j)) t end.

Lemma sumi_le (u v : nat -> A -> Z) l : (forall j a, nth_error l j = Some a -> v j a <= u j a) -> sumi v l <= sumi u l.
Proof.
  revert u v. induction l as [|h t IH]; intros u v H; cbn [sumi]; [lia|].
  specialize (IH (fun j => u (S j)) (fun j => v (S j)) (fun j => H (S j))). specialize (H 0%nat h eq_refl). lia.
Qed.

Lemma sumi_nonneg (u : nat -> A -> Z) l : (forall j a, 0 <= u j a) -> 0 <= sumi u l.
Proof.
  revert u. induction l as [|h t IH]; intros u H; cbn [sumi]; [lia|].
  specialize (IH (fun j => u (S j)) (fun j => H (S j))). specialize (H 0%nat h). lia.
Qed.

Lemma sumi_upd_le (u v : nat -> A -> Z) l i p x d : nth_error l i = Some p ->
  (forall j a, j <> i -> nth_error l j = Some a -> v j a <= u j a) -> v i x + d <= u i p ->
  sumi v (upd l i x) + d <= sumi u l.
Proof.
  revert u v i. induction l as [|h t IH]; intros u v [|i] Hp Ho Hi; cbn [nth_error upd sumi] in *; try discriminate.
  - inversion Hp; subst. pose proof (sumi_le (fun j => u (S j)) (fun j => v (S j)) t (fun j a => Ho (S j) a (Nat.neq_succ_0 j))). lia.
  - specialize (IH (fun j => u (S j)) (fun j => v (S j)) i Hp (fun j a Hj => Ho (S j) a (not_eq_S _ _ Hj)) Hi).
    specialize (Ho 0%nat h (Nat.neq_0_succ i) eq_refl). lia.
Qed.

Lemma sumi_app (u : nat -> A -> Z) l1 l2 : sumi u (l1 ++ l2) = sumi u l1 + sumi (fun j => u (length l1 + j)%nat) l2.
Proof. revert u. induction l1 as [|h t IH]; intros u; cbn [sumi app length]; [reflexivity|]. rewrite IH. apply Z.add_assoc. Qed.

Lemma all_or_nth (Q : A -> Prop) l : (forall a, {Q a} + {~ Q a}) ->
  (forall i a, nth_error l i = Some a -> Q a) \/ (exists i a, nth_error l i = Some a /\ ~ Q a).
Proof.
  intros dec. induction l as [|h t IH].
  - left. intros [|i] a H; discriminate H.
  - destruct (dec h) as [Hh|Hh]; [|right; exists 0%nat, h; split; [reflexivity|exact Hh]].
    destruct IH as [IH|(i & a & Hi & Ha)].
    + left. intros [|i] a H; [inversion H; subst; exact Hh|exact (IH i a H)].
    + right. exists (S i), a. split; assumption.
Qed.

End Pool.

Lemma sumz_map {A B} (g : B -> A) (f : A -> Z) l : sumz f (map g l) = sumz (fun b => f (g b)) l.
Proof. induction l as [|h t IH]; cbn [map sumz]; [reflexivity|]. rewrite IH. reflexivity. Qed.

Section Machine.
Variables (St P : Type) (thr : St -> list P) (step : nat -> St -> option St).
Hypothesis step_nth : forall i s, nth_error (thr s) i = None -> step i s = None.

Definition stay (s : St) (i : nat) : St := match step i s with Some s' => s' | None => s end.
Definition prun (sched : list nat) (s : St) : St := fold_left stay sched s.
(** [run_trace2] (Mailbox/MbSpec2.v) and [frun_trace] (Mailbox/MbFine.v) unfold to this *)
Fixpoint ptrace (sched : list nat) (s : St) : list (nat * P * St) :=
  match sched with
  | [] => []
  | i :: r =>
      match nth_error (thr s) i, step i s with
      | Some p, Some s' => (i, p, s) :: ptrace r s'
      | _, _ => ptrace r s
      end
  end.

Lemma prun_app a b s : prun (a ++ b) s = prun b (prun a s).
Proof. apply fold_left_app. Qed.

Lemma ptrace_app a : forall b s, ptrace (a ++ b) s = ptrace a s ++ ptrace b (prun a s).
Proof.
  induction a as [|i r IH]; intros b s; [reflexivity|]. cbn [app ptrace prun fold_left]. unfold stay at 2.
  destruct (nth_error (thr s) i) as [p|] eqn:Hp; [|rewrite (step_nth _ _ Hp); apply IH].
  destruct (step i s) as [s'|]; [cbn [app]; f_equal|]; apply IH.
Qed.

Lemma prun_inv (Q : St -> Prop) : (forall i s s', Q s -> step i s = Some s' -> Q s') ->
  forall sched s, Q s -> Q (prun sched s).
Proof.
  intros HQ. induction sched as [|i r IH]; intros s H; [exact H|].
  apply IH. unfold stay. destruct (step i s) as [s'|] eqn:E; [exact (HQ i s s' H E)|exact H].
Qed.

Lemma can_finish_bounded (D : St -> Prop) (B : nat) s0 :
  (forall sched, (length (ptrace sched s0) <= B)%nat) ->
  (forall sched, D (prun sched s0) \/ exists i s', step i (prun sched s0) = Some s') ->
  forall sched, exists more, D (prun (sched ++ more) s0).
Proof.
  intros Hb Hp.
  assert (G : forall k sched, (B - length (ptrace sched s0) <= k)%nat -> exists more, D (prun (sched ++ more) s0)).
  { induction k as [|k IH]; intros sc Hk; (destruct (Hp sc) as [Hd|(i & s' & Hs)]; [exists []; rewrite app_nil_r; exact Hd|]);
      (destruct (nth_error (thr (prun sc s0)) i) as [p|] eqn:Hi; [|rewrite (step_nth _ _ Hi) in Hs; discriminate Hs]);
      pose proof (Hb (sc ++ [i])) as Hi'; rewrite ptrace_app, app_length in Hi'; cbn [ptrace] in Hi'; rewrite Hi, Hs in Hi'; cbn [length] in Hi'.
    - pose proof (Hb sc). lia.
    - destruct (IH (sc ++ [i])) as (more & Hm).
      + rewrite ptrace_app, app_length. cbn [ptrace]. rewrite Hi, Hs. cbn [length]. lia.
      + exists (i :: more). rewrite <- app_assoc in Hm. exact Hm. }
  intros sched. exact (G B sched ltac:(lia)).
Qed.

End Machine.
