(** The model's side of the source-level inventory check.

    The translator harness/cmd/syncops extracts from the CURRENT internal/queues/ring.go and
    internal/mailbox/unbounded_mailbox.go the SET of operation classes of their synchronisation operations
    (Generated/MbSyncOps.v: [src_sync_classes], (class, kind) pairs; a class = kind of operation + field, without the
    enclosing function and the receiver variable - the same reduction the lock-step harness applies to the
    instrumenter's labels and [class_name] of Mailbox/MbClass.v gives for the model's pcs).

    [model_sync_classes] is what the models know: every class with its kind and the model step class ([opclass]) that
    performs it.  Properties/C01_fine.v states [inventory_report = ([], [])]:
      - [unknown_ops]: source classes of a kind other than "load" that are not in the table - a write, a CAS, a lock,
        a go statement, a channel operation, a call through a field (queue API), a sync-typed field the models have no
        step for;
      - [missing_ops]: classes of the table that the source no longer contains - an operation the models rely on.
    A new class of kind "load" (a read-only operation) is deliberately not an error here ([tolerated_loads] lists
    them): the lock-step run treats such a step as a stuttering step, only if the shared state is unchanged across
    it, and reports it; every later step must still match the model. *)
From Coq Require Import List String Bool ZArith.
From Vivid Require Import Mailbox.MbModel Mailbox.MbFine Mailbox.MbClass.
Import ListNotations.
Local Open Scope string_scope.

Inductive role : Type :=
| Step (c : opclass)     (* performed by the model steps of class c (a scheduling point of the lock-step run) *)
| Within (c : opclass)   (* no scheduling point of its own; runs at the end of the step of class c (a step lasts until the
                            goroutine's next scheduling point) and touches only data the goroutine owns at that moment *)
| Decl.                  (* a declaration the operations refer to *)

Definition model_sync_classes : list (string * string * role) := [
  ("Lock:lock", "lock", Step KLock);
  ("Unlock:lock", "unlock", Within KAddLen);
  ("atomic.AddInt32:num", "rmw", Step KAddNum);
  ("atomic.AddInt32:systemNum", "rmw", Step KAddSysNum);
  ("atomic.AddInt64:len", "rmw", Step KAddLen);
  ("atomic.CompareAndSwapUint32:paused", "rmw", Step KCasPaused);
  ("atomic.CompareAndSwapUint32:status", "rmw", Step KCasStatus);
  ("atomic.LoadInt32:num", "load", Step KLoadNum);
  ("atomic.LoadInt32:systemNum", "load", Step KLoadSysNum);
  ("atomic.LoadInt64:len", "load", Step KLoadLen);
  ("atomic.LoadUint32:paused", "load", Step KLoadPaused);
  ("atomic.StoreUint32:paused", "store", Step KStorePaused);
  ("atomic.StoreUint32:status", "store", Step KStoreStatus);
  ("call:buffer.Pop", "call", Step KPopUser);
  ("call:buffer.Push", "call", Step KPushUser);
  ("call:handler.HandleEnvelop", "call", Step KHandle);
  ("call:systemBuffer.Pop", "call", Step KPopSys);
  ("call:systemBuffer.Push", "call", Step KPushSys);
  ("field:lock:sync.Mutex", "field", Decl);
  ("go:process", "go", Step KStart)
].

Definition pair_eqb (a b : string * string) : bool := String.eqb (fst a) (fst b) && String.eqb (snd a) (snd b).
Definition mem (x : string * string) (l : list (string * string)) : bool := existsb (pair_eqb x) l.
Definition table_pairs : list (string * string) := map fst model_sync_classes.

Definition unknown_ops (src : list (string * string)) : list (string * string) :=
  filter (fun e => negb (String.eqb (snd e) "load") && negb (mem e table_pairs)) src.
Definition missing_ops (src : list (string * string)) : list (string * string) :=
  filter (fun e => negb (mem e src)) table_pairs.
Definition tolerated_loads (src : list (string * string)) : list (string * string) :=
  filter (fun e => String.eqb (snd e) "load" && negb (mem e table_pairs)) src.
Definition inventory_report (src : list (string * string)) := (unknown_ops src, missing_ops src).

(** the table is about the model: the class of every entry is [class_name] of its step class *)
Definition table_steps : list opclass :=
  flat_map (fun e => match snd e with Step c => [c] | _ => [] end) model_sync_classes.

Definition table_consistent : bool :=
  forallb (fun e => match snd e with
                    | Step c => String.eqb (fst (fst e)) (class_name c)
                    | _ => true
                    end) model_sync_classes.

Definition opclass_eqb (a b : opclass) : bool := N.eqb (class_code a) (class_code b).
Lemma opclass_eqb_eq a b : opclass_eqb a b = true -> a = b.
Proof. destruct a, b; cbn; intros H; try discriminate H; reflexivity. Qed.

Lemma table_names_are_class_names : table_consistent = true.
Proof. vm_compute. reflexivity. Qed.

Lemma class_in_table c : c = KNone \/ In c table_steps.
Proof.
  assert (H : c = KNone \/ existsb (opclass_eqb c) table_steps = true) by (destruct c; vm_compute; auto).
  destruct H as [E|E]; [left; exact E|right].
  apply existsb_exists in E as (x & Hin & Hx). apply opclass_eqb_eq in Hx. subst. exact Hin.
Qed.

Definition sample_fpcs : list fpc :=
  [FStart FDone; FPushLock true 0%N; FPushAdd true 0%N; FAdd true; FAdd false; FCas; FPStore; FRCas1; FQLoad true;
   FHandle true 0%N; FLoadPaused; FStoreIdle; FLoadNum; FLoadSys 0%Z].
Definition sample_pcs : list pc := [SPush true 0%N; SPush false 0%N; HSysPop; HUserPop].

Lemma every_table_step_is_a_pc c : In c table_steps ->
  (exists p : fpc, class_of_fpc p = c) \/ (exists p : pc, class_of_pc p = c).
Proof.
  intros Hin.
  assert (H : forallb (fun c => existsb (fun p => opclass_eqb (class_of_fpc p) c) sample_fpcs
                                || existsb (fun p => opclass_eqb (class_of_pc p) c) sample_pcs) table_steps = true)
    by (vm_compute; reflexivity).
  rewrite forallb_forall in H. specialize (H c Hin). apply orb_true_iff in H as [H|H];
    apply existsb_exists in H as (p & _ & Hp); [left|right]; exists p; exact (opclass_eqb_eq _ _ Hp).
Qed.
