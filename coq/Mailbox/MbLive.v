(** Wake-up / terminal-state / bounded-work theorems of the mailbox machine. *)
From Coq Require Import List ZArith Lia Permutation.
From Vivid Require Import Mailbox.MbModel Mailbox.MbSpec Mailbox.MbSpec2 Mailbox.MbPool Mailbox.MbInv.
Import ListNotations.
Local Open Scope Z_scope.

Lemma non_done_steps s i p : nth_error (thr s) i = Some p -> p <> Done -> exists s', step i s = Some s'.
Proof.
  intros Hp Hd. unfold step. rewrite Hp.
  destruct p as [k|sys m|sys| | | | | |m|m| | |m|m| | |u|u| | ]; try congruence; try destruct sys; cbv zeta;
    repeat match goal with
    | |- exists _, (if ?b then _ else _) = Some _ => destruct b
    | |- exists _, match ?l with [] => _ | _ :: _ => _ end = Some _ => destruct l
    end; eexists; reflexivity.
Qed.

Lemma terminal_all_done s : terminal s -> forall i p, nth_error (thr s) i = Some p -> p = Done.
Proof.
  intros Ht i p Hp. destruct p; try reflexivity;
    (destruct (non_done_steps s i _ Hp) as [s' Hs]; [discriminate|]; rewrite (Ht i) in Hs; discriminate Hs).
Qed.

Lemma all_done_terminal s : (forall i p, nth_error (thr s) i = Some p -> p = Done) -> terminal s.
Proof.
  intros H i. unfold step. destruct (nth_error (thr s) i) as [p|] eqn:Hp; [|reflexivity].
  rewrite (H i p Hp). reflexivity.
Qed.

Theorem Inv_terminal s : Inv s -> terminal s ->
  sq s = [] /\ (uq s = [] \/ paused s = true) /\ status s = false /\ held s = [] /\ unsent s = [].
Proof.
  intros [_ Ho _ _ Hws Hwu] Ht.
  pose proof (terminal_all_done _ Ht) as D.
  assert (N : forall P, P Done = false -> cnt P (thr s) = 0).
  { intros P HP. apply cnt_none. intros i p Hp. rewrite (D i p Hp). exact HP. }
  rewrite (N owner_pc eq_refl) in Ho.
  assert (Hst : status s = false) by (destruct (status s); [discriminate Ho|reflexivity]).
  rewrite (N sys_cover eq_refl) in Hws. rewrite (N user_cover eq_refl) in Hwu.
  repeat split.
  - destruct (sq s) as [|m l] eqn:Q; [reflexivity|]. exfalso. assert (H : m :: l <> []) by congruence. specialize (Hws Hst H). lia.
  - destruct (uq s) as [|m l] eqn:Q; [left; reflexivity|]. right. destruct (paused s) eqn:P; [reflexivity|].
    exfalso. assert (H : m :: l <> []) by congruence. specialize (Hwu Hst H eq_refl). lia.
  - exact Hst.
  - apply flat_map_all_nil. intros i p Hp. rewrite (D i p Hp). reflexivity.
  - apply flat_map_all_nil. intros i p Hp. rewrite (D i p Hp). reflexivity.
Qed.

Corollary resume_drains s : reachable s -> terminal s -> paused s = false -> uq s = [].
Proof.
  intros Hr Ht Hp. destruct (Inv_terminal s (reachable_inv _ Hr) Ht) as (_ & [H|H] & _); [exact H|congruence].
Qed.

Corollary terminal_all_handled ths sched : forallb env_pc ths = true ->
  let s := run sched (init ths) in
  terminal s -> Permutation (msgs_of ths) (map (pair false) (uq s) ++ log s) /\ (paused s = false -> uq s = []).
Proof.
  intros He s Ht. pose proof (reachable_run ths sched He) as Hr. fold s in Hr.
  destruct (Inv_terminal s (reachable_inv _ Hr) Ht) as (Hsq & _ & _ & Hh & Hun).
  pose proof (exactly_once ths sched He) as P. cbv zeta in P. fold s in P.
  unfold queued in P. rewrite Hsq, Hh, Hun in P. cbn [map app] in P. exact (conj P (resume_drains s Hr Ht)).
Qed.

Definition is_done (p : pc) : bool := match p with Done => true | _ => false end.
Definition is_proc (p : pc) : bool := negb (env_active p) && negb (is_done p).

(** a processor that has stored idle and is re-reading the counters will go round again: what it is about to read
    (or has read: [u]) tells it to *)
Definition stalep (sn n : Z) (pa : bool) (p : pc) : bool :=
  match p with
  | PCas => true
  | PLoadPaused _ => negb pa
  | PLoadSys u => (0 <? sn) || ((0 <? u) && negb pa)
  | PLoadNum => (0 <? sn) || ((0 <? n) && negb pa)
  | _ => false
  end.

Lemma stalep_mono sn n pa sn' n' pa' q : sn' <= sn -> n' <= n -> (pa' = pa \/ pa' = true) ->
  b2z (stalep sn' n' pa' q) <= b2z (stalep sn n pa q).
Proof. intros H1 H2 H3. destruct q; cbn [stalep]; try reflexivity; change b2z with Z.b2z; lia. Qed.

(** the steps a processor still takes when there is nothing to process: the rest of its round ([tailw]), and one more
    round of eight steps if its view is stale *)
Definition tailw (s : st) (p : pc) : Z :=
  match p with
  | Start _ => 8
  | HSysDec _ | HUserDec _ => 9
  | HSysHandle _ | HUserHandle _ => 8
  | HSysPop => 7
  | HLoadPaused => 6
  | HUserPop => match uq s with [] => 5 | _ :: _ => 10 end
  | PStoreIdle => 4
  | PLoadNum => 3
  | PLoadSys _ => 2
  | PLoadPaused _ => 1
  | _ => 0
  end.
Definition w (s : st) (p : pc) : Z := tailw s p + 8 * b2z (stalep (sysnum s) (num s) (paused s) p).
Definition potential (s : st) : Z := sumz (w s) (thr s).

Lemma w_nonneg s p : 0 <= w s p.
Proof. unfold w. pose proof (b2z_range (stalep (sysnum s) (num s) (paused s) p)). assert (0 <= tailw s p); [|lia]. destruct p; cbn [tailw]; try destruct (uq s); discriminate. Qed.

Lemma w_mono s s' : sysnum s' <= sysnum s -> num s' <= num s -> paused s' = paused s ->
  (uq s = [] -> uq s' = []) -> forall q, w s' q <= w s q.
Proof.
  intros H1 H2 H3 H4 q. unfold w. pose proof (stalep_mono _ _ _ _ _ _ q H1 H2 (or_introl H3)).
  assert (tailw s' q <= tailw s q); [|lia].
  destruct q; cbn [tailw]; try reflexivity. destruct (uq s); [rewrite (H4 eq_refl); lia|destruct (uq s'); lia].
Qed.

Lemma potential_bound s : cnt env_active (thr s) = 0 -> potential s <= 11 * cnt is_proc (thr s).
Proof.
  unfold potential. induction (thr s) as [|p t IH]; cbn [sumz cnt]; intros H; [lia|].
  pose proof (cnt_nonneg env_active t). pose proof (b2z_range (stalep (sysnum s) (num s) (paused s) p)).
  destruct (env_active p) eqn:Hp; cbn [b2z] in H; [lia|]. specialize (IH ltac:(lia)).
  assert (w s p <= 11 * b2z (is_proc p)); [|lia].
  unfold is_proc, w. rewrite Hp. destruct p; try discriminate Hp; cbn [tailw negb andb b2z stalep is_done] in *; try destruct (uq s); lia.
Qed.

Record Quiet (s : st) : Prop := {
  q_inv : Inv s;
  q_env : cnt env_active (thr s) = 0;
  q_sq : sq s = [];
  q_uq : uq s = [] \/ paused s = true
}.

Lemma dec_lt_owner b l i p : nth_error l i = Some p -> owner_pc p = true -> at_dec b p = false ->
  cnt (at_dec b) l <= cnt owner_pc l - 1.
Proof.
  intros Hp Ho Hd. pose proof (dec_le_owner b (upd l i Done)) as H.
  rewrite !(cnt_upd Hp), Ho, Hd in H. cbn [at_dec owner_pc b2z] in H. lia.
Qed.

Lemma quiet_step i s s' : Quiet s -> step i s = Some s' -> Quiet s' /\ potential s' + 1 <= potential s.
Proof.
  intros [HI He Hsq Huq] Hs.
  pose proof (step_inv _ _ _ HI Hs) as HI'.
  pose proof (Inv_bounds _ HI true) as B1. pose proof (Inv_bounds _ HI false) as B2.
  destruct HI as [Hwf Ho Hn Hy _ _]. rewrite Hsq in Hy. cbn [length] in Hy.
  (* no client thread is there to step, and the system queue is empty *)
  destruct (step_nth _ _ _ Hs) as [p Hp]. pose proof (cnt_zero_nth _ _ He _ _ Hp) as Hep.
  step_cases Hwf Hs Hp; try discriminate Hep; clear Hep; try congruence.
  all: split; [split; [exact HI' | cnt_step Hp; rewrite He; reflexivity | cbn [set_thr sq]; assumption
                      | cbn [set_thr uq paused]; rewrite ?E in *; destruct Huq; (left; congruence) || (right; congruence)]|].
  (* the stepping processor loses weight, nobody gains any *)
  all: unfold potential; cbn [thr set_thr]; apply (sumz_upd_le _ _ _ _ _ _ 1 Hp);
    [apply w_mono; cbn [set_thr sysnum num paused uq]; first [reflexivity | lia | congruence] | ].
  all: unfold w; cbn [tailw stalep set_thr sysnum num paused uq b2z]; rewrite ?E; change b2z with Z.b2z in *; try lia.
  all: try (pose proof (dec_lt_owner true _ _ _ Hp eq_refl eq_refl) as Hl1);
       try (pose proof (dec_lt_owner false _ _ _ Hp eq_refl eq_refl) as Hl2);
       destruct Huq as [Hu|Hu]; rewrite ?Hu in *; cbn [length] in *; try discriminate; lia.
Qed.

Lemma quiet_steps sched s : Quiet s -> Z.of_nat (effective_steps sched s) <= potential s.
Proof.
  unfold effective_steps. revert s. induction sched as [|i r IH]; intros s HQ; cbn [run_trace length].
  - apply sumz_nonneg, w_nonneg.
  - destruct (nth_error (thr s) i) as [p|] eqn:Hp; [|exact (IH s HQ)].
    destruct (step i s) as [s'|] eqn:Hs; [|exact (IH s HQ)].
    destruct (quiet_step _ _ _ HQ Hs) as [HQ' Hlt]. specialize (IH s' HQ'). cbn [length]. lia.
Qed.

Lemma env_done_cnt s : env_done s -> cnt env_active (thr s) = 0.
Proof. intros H. apply cnt_none. intros i p Hp. exact (H p (nth_error_In _ _ Hp)). Qed.

Theorem quiet_no_spin s : Quiet s -> forall sched, (effective_steps sched s <= 11 * processors s)%nat.
Proof.
  intros HQ sched. pose proof (quiet_steps sched s HQ) as H1. pose proof (potential_bound s (q_env _ HQ)) as H2.
  rewrite cnt_tally, tally_filter in H2. change (length (filter is_proc (thr s))) with (processors s) in H2. lia.
Qed.
