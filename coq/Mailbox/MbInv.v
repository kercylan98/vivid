(** Safety invariants of the mailbox micro-step machine (Mailbox/MbModel.v), for every population of
    environment threads and every schedule: well-formedness, single consumer, counter lemmas,
    wake-up cover, message accounting. *)
From Coq Require Import List ZArith Bool Lia Permutation ZifyBool.
From Vivid Require Import Mailbox.MbModel Mailbox.MbSpec Mailbox.MbSpec2 Mailbox.MbPool.
Import ListNotations.
Local Open Scope Z_scope.

Definition b2z (b : bool) : Z := if b then 1 else 0.
Fixpoint cnt (P : pc -> bool) (l : list pc) : Z :=
  match l with [] => 0 | h :: t => b2z (P h) + cnt P t end.

Lemma b2z_range b : 0 <= b2z b <= 1.
Proof. destruct b; cbn; lia. Qed.

Definition tally {A} (P : A -> bool) : list A -> Z := sumz (fun a => b2z (P a)).

Section Tally.
Context {A : Type}.
Implicit Types (P Q : A -> bool) (l : list A).

Lemma tally_upd {l i old} (H : nth_error l i = Some old) P x :
  tally P (upd l i x) = tally P l - b2z (P old) + b2z (P x).
Proof. exact (sumz_upd _ l i old x H). Qed.

Lemma tally_app P l1 l2 : tally P (l1 ++ l2) = tally P l1 + tally P l2.
Proof. apply sumz_app. Qed.

Lemma tally_nonneg P l : 0 <= tally P l.
Proof. apply sumz_nonneg. intros a. apply b2z_range. Qed.

Lemma tally_pos {l i p} (H : nth_error l i = Some p) P : P p = true -> 1 <= tally P l.
Proof.
  intros Hp. pose proof (sumz_nth (fun a => b2z (P a)) (fun a => proj1 (b2z_range _)) l i p H) as N.
  cbv beta in N. rewrite Hp in N. exact N.
Qed.

Lemma tally_nth2 P l i j p q : i <> j -> nth_error l i = Some p -> nth_error l j = Some q ->
  b2z (P p) + b2z (P q) <= tally P l.
Proof. exact (sumz_nth2 (fun a => b2z (P a)) (fun a => proj1 (b2z_range _)) l i j p q). Qed.

Lemma tally_le P Q l : (forall p, P p = true -> Q p = true) -> tally P l <= tally Q l.
Proof.
  intros H. apply sumz_le. intros a. cbv beta. specialize (H a). pose proof (b2z_range (Q a)).
  destruct (P a); [rewrite H by reflexivity|cbn [b2z]]; lia.
Qed.

Lemma tally_zero P l : tally P l = 0 -> forall i p, nth_error l i = Some p -> P p = false.
Proof. intros H i p Hp. destruct (P p) eqn:E; [|reflexivity]. pose proof (tally_pos Hp P E). lia. Qed.

Lemma tally_none P l : (forall i p, nth_error l i = Some p -> P p = false) -> tally P l = 0.
Proof. intros H. apply sumz_all_zero. intros i a Hi. rewrite (H i a Hi). reflexivity. Qed.

Lemma tally_exists P l : 1 <= tally P l -> exists i p, nth_error l i = Some p /\ P p = true.
Proof.
  intros H. destruct (sumz_pos_ex (fun a => b2z (P a)) (fun a => proj1 (b2z_range _)) l) as (i & p & Hi & Hp); [unfold tally in H; lia|].
  exists i, p. split; [exact Hi|]. destruct (P p); [reflexivity|discriminate Hp].
Qed.

Lemma tally_filter P l : tally P l = Z.of_nat (length (filter P l)).
Proof.
  induction l as [|h t IH]; cbn [tally sumz filter length]; [reflexivity|].
  fold (tally P t). destruct (P h); cbn [b2z length]; lia.
Qed.
End Tally.

Lemma cnt_tally P l : cnt P l = tally P l.
Proof. induction l as [|h t IH]; cbn [cnt tally sumz]; [reflexivity|]. rewrite IH. reflexivity. Qed.

Lemma cnt_upd {l i old} (H : nth_error l i = Some old) P x : cnt P (upd l i x) = cnt P l - b2z (P old) + b2z (P x).
Proof. rewrite !cnt_tally. apply (tally_upd H). Qed.
Lemma cnt_app P l1 l2 : cnt P (l1 ++ l2) = cnt P l1 + cnt P l2.
Proof. rewrite !cnt_tally. apply tally_app. Qed.
Lemma cnt_nonneg P l : 0 <= cnt P l.
Proof. rewrite cnt_tally. apply tally_nonneg. Qed.
Lemma cnt_pos {l i p} (H : nth_error l i = Some p) P : P p = true -> 1 <= cnt P l.
Proof. rewrite cnt_tally. apply (tally_pos H). Qed.
Lemma cnt_le (P Q : pc -> bool) l : (forall p, P p = true -> Q p = true) -> cnt P l <= cnt Q l.
Proof. rewrite !cnt_tally. apply tally_le. Qed.
Lemma cnt_none P l : (forall i p, nth_error l i = Some p -> P p = false) -> cnt P l = 0.
Proof. rewrite cnt_tally. apply tally_none. Qed.
Lemma cnt_exists P l : 1 <= cnt P l -> exists i p, nth_error l i = Some p /\ P p = true.
Proof. rewrite cnt_tally. apply tally_exists. Qed.

Lemma cnt_zero_nth P l : cnt P l = 0 -> forall i p, nth_error l i = Some p -> P p = false.
Proof. rewrite cnt_tally. apply tally_zero. Qed.
Lemma cnt_zero_all P l : cnt P l = 0 -> forall p, In p l -> P p = false.
Proof. intros H p Hin. destruct (In_nth_error _ _ Hin) as (i & Hi). exact (cnt_zero_nth P l H i p Hi). Qed.

Lemma cnt_count P s : cnt P (thr s) = count P s.
Proof. rewrite cnt_tally. apply tally_filter. Qed.

Definition bad_pc (p : pc) : bool :=
  match p with
  | Start (SPush _ _) | Start PStore | Start RCas1 | Start HSysPop => false
  | Start _ => true
  | _ => false
  end.
Definition is_sadd (sys : bool) := at_sadd sys.
Definition is_dec (sys : bool) := at_dec sys.

Record Inv (s : st) : Prop := {
  i_wf : cnt bad_pc (thr s) = 0;
  i_own : cnt owner_pc (thr s) = b2z (status s);
  i_num : num s = Z.of_nat (length (uq s)) - cnt (at_sadd false) (thr s) + cnt (at_dec false) (thr s);
  i_sys : sysnum s = Z.of_nat (length (sq s)) - cnt (at_sadd true) (thr s) + cnt (at_dec true) (thr s);
  i_ws : status s = false -> sq s <> [] -> 1 <= cnt sys_cover (thr s);
  i_wu : status s = false -> uq s <> [] -> paused s = false -> 1 <= cnt user_cover (thr s)
}.

Lemma dec_le_owner b l : cnt (at_dec b) l <= cnt owner_pc l.
Proof. apply cnt_le. intros p. destruct p, b; cbn; congruence. Qed.

Lemma saddT_le_scover l : cnt (at_sadd true) l <= cnt sys_cover l.
Proof. apply cnt_le. intros p. destruct p; cbn; congruence. Qed.
Lemma saddF_le_ucover l : cnt (at_sadd false) l <= cnt user_cover l.
Proof. apply cnt_le. intros p. destruct p; cbn; congruence. Qed.

Lemma Inv_bounds s : Inv s -> forall b,
  0 <= cnt (at_sadd b) (thr s) /\ 0 <= cnt (at_dec b) (thr s) <= b2z (status s) /\ b2z (status s) <= 1.
Proof.
  intros H b. pose proof (dec_le_owner b (thr s)) as D. rewrite (i_own _ H) in D.
  pose proof (cnt_nonneg (at_sadd b) (thr s)). pose proof (cnt_nonneg (at_dec b) (thr s)).
  pose proof (b2z_range (status s)). lia.
Qed.

Lemma step_nth i s s' : step i s = Some s' -> exists p, nth_error (thr s) i = Some p.
Proof. unfold step. destruct (nth_error (thr s) i) as [p|]; [exists p; reflexivity|discriminate]. Qed.

(** [step_cases Hwf Hs Hp], for [Hwf : cnt bad_pc (thr s) = 0] and [Hs : step i s = Some s']: one goal for each pc
    thread [i] can be at ([Hp : nth_error (thr s) i = Some pc], a hypothesis about a variable pc or a fresh name;
    a [Start k] only for the four [k] that occur) and each outcome of the test it makes there (an equation [E]);
    [s'] is replaced by the state that the step builds. *)
Ltac step_cases Hwf Hs Hp :=
  first [ let T := type of Hp in idtac | let p := fresh "p" in destruct (step_nth _ _ _ Hs) as [p Hp] ];
  let Hb := fresh "Hb" in pose proof (cnt_zero_nth _ _ Hwf _ _ Hp) as Hb;
  unfold step in Hs; rewrite Hp in Hs;
  match type of Hp with _ = Some ?p =>
    destruct p as [k|sys m|sys| | | | | |m|m| | |m|m| | |u|u| | ];
    [destruct k; try discriminate Hb|..]; clear Hb;
    try destruct sys; cbv zeta in Hs; cbn [set_thr status paused num sysnum sq uq log thr] in Hs;
    repeat match type of Hs with
    | (if ?b then _ else _) = Some _ => let E := fresh "E" in destruct b eqn:E
    | match ?l with [] => _ | _ :: _ => _ end = Some _ => let E := fresh "E" in destruct l eqn:E
    end;
    try discriminate Hs;
    injection Hs as <-
  end.

(** the counts over the new pool after [step_cases], in terms of the old ones *)
Ltac cnt_step Hp := cbn [thr set_thr status paused num sysnum sq uq log]; rewrite ?cnt_app, ?(cnt_upd Hp).

Lemma step_wf i s s' : cnt bad_pc (thr s) = 0 -> step i s = Some s' -> cnt bad_pc (thr s') = 0.
Proof. intros Hw Hs. step_cases Hw Hs Hp; cnt_step Hp; rewrite Hw; reflexivity. Qed.

Lemma step_own i s s' : cnt bad_pc (thr s) = 0 -> cnt owner_pc (thr s) = b2z (status s) ->
  step i s = Some s' -> cnt owner_pc (thr s') = b2z (status s').
Proof.
  intros Hw Ho Hs. pose proof (b2z_range (status s)) as Hb.
  step_cases Hw Hs Hp; pose proof (cnt_pos Hp owner_pc) as Hop; cnt_step Hp;
    cbn [cnt owner_pc b2z] in *; rewrite ?E in *; cbn [b2z] in *; try specialize (Hop eq_refl); lia.
Qed.

Lemma step_ctr i s s' : Inv s -> step i s = Some s' ->
  num s' = Z.of_nat (length (uq s')) - cnt (at_sadd false) (thr s') + cnt (at_dec false) (thr s') /\
  sysnum s' = Z.of_nat (length (sq s')) - cnt (at_sadd true) (thr s') + cnt (at_dec true) (thr s').
Proof.
  intros [Hw _ Hn Hy _ _] Hs. step_cases Hw Hs Hp; cnt_step Hp;
    cbn [cnt at_sadd at_dec b2z Bool.eqb negb]; rewrite ?E in *; rewrite ?app_length; cbn [length] in *; lia.
Qed.

Lemma length_pos_Z {A} (l : list A) : l <> [] <-> 1 <= Z.of_nat (length l).
Proof. destruct l; cbn [length]; split; try congruence; lia. Qed.

Lemma owner_status s i p : Inv s -> nth_error (thr s) i = Some p -> owner_pc p = true -> status s = true.
Proof.
  intros H Hp Ho. pose proof (cnt_pos Hp owner_pc Ho) as N. rewrite (i_own _ H) in N.
  destruct (status s); [reflexivity|destruct (N eq_refl)].
Qed.

Lemma step_cover i s s' : Inv s -> step i s = Some s' ->
  (status s' = false -> sq s' <> [] -> 1 <= cnt sys_cover (thr s')) /\
  (status s' = false -> uq s' <> [] -> paused s' = false -> 1 <= cnt user_cover (thr s')).
Proof.
  intros HI Hs. destruct (step_nth _ _ _ Hs) as [p Hp]. pose proof (owner_status _ _ _ HI Hp) as Hst.
  (* a thread that leaves the cover at PLoadNum / PLoadSys has seen a counter <= 0 although the queue is not empty:
     a sender is between its push and its add, and it is in the cover of the new pool *)
  pose proof (saddT_le_scover (thr s')) as Hc1. pose proof (saddF_le_ucover (thr s')) as Hc2.
  pose proof (cnt_nonneg sys_cover (thr s)) as Hc3. pose proof (cnt_nonneg user_cover (thr s)) as Hc4.
  pose proof (Inv_bounds _ HI true) as B1. pose proof (Inv_bounds _ HI false) as B2.
  destruct HI as [Hw Ho Hn Hy Hws Hwu]. rewrite !length_pos_Z in *.
  (* nothing to show while the step leaves the mailbox processing *)
  step_cases Hw Hs Hp; cbn [owner_pc] in Hst; cnt_step Hp; rewrite ?E; try rewrite (Hst eq_refl); try (split; discriminate); clear Hst.
  all: cbn [thr set_thr] in Hc1, Hc2; rewrite ?cnt_app, ?(cnt_upd Hp) in Hc1; rewrite ?cnt_app, ?(cnt_upd Hp) in Hc2;
    cbn [cnt at_sadd at_dec sys_cover user_cover owner_pc b2z Bool.eqb negb] in *;
    rewrite ?E in *; rewrite ?app_length; cbn [length] in *; change b2z with Z.b2z in *; lia.
Qed.

Theorem step_inv i s s' : Inv s -> step i s = Some s' -> Inv s'.
Proof.
  intros H Hs. destruct (step_ctr _ _ _ H Hs) as [Hn Hy]. destruct (step_cover _ _ _ H Hs) as [Hws Hwu].
  split; [exact (step_wf _ _ _ (i_wf _ H) Hs) | exact (step_own _ _ _ (i_wf _ H) (i_own _ H) Hs) | ..]; assumption.
Qed.

Lemma cnt_map_Start_env P ths :
  (forall k, env_pc k = true -> P (Start k) = false) ->
  forallb env_pc ths = true -> cnt P (map Start ths) = 0.
Proof.
  intros HP. induction ths as [|k t IH]; cbn [forallb map cnt]; intros H; [reflexivity|].
  apply andb_true_iff in H as [Hk Ht]. rewrite (HP k Hk), (IH Ht). reflexivity.
Qed.

Lemma init_inv ths : forallb env_pc ths = true -> Inv (init ths).
Proof.
  intros H. split; cbn [init thr status num sysnum sq uq paused length b2z]; try congruence;
    rewrite !cnt_map_Start_env; try exact H; try reflexivity; intros k Hk; destruct k; try reflexivity; discriminate Hk.
Qed.

Lemma run_inv sched s : Inv s -> Inv (run sched s).
Proof. exact (prun_inv st step Inv step_inv sched s). Qed.

Lemma reachable_inv s : reachable s -> Inv s.
Proof. intros (ths & sched & He & <-). apply run_inv, init_inv, He. Qed.

Lemma reachable_run ths sched : forallb env_pc ths = true -> reachable (run sched (init ths)).
Proof. intros H. exists ths, sched. split; [exact H|reflexivity]. Qed.

(** C01.1 single consumer *)
Lemma single_consumer s : reachable s -> count_owner s = (if status s then 1 else 0)%nat.
Proof.
  intros H. pose proof (i_own _ (reachable_inv _ H)) as Ho. rewrite cnt_count in Ho.
  unfold count_owner. unfold count, b2z in Ho. destruct (status s); lia.
Qed.

Lemma Inv_one_owner s i j p q : Inv s -> i <> j ->
  nth_error (thr s) i = Some p -> nth_error (thr s) j = Some q ->
  owner_pc p = true -> owner_pc q = true -> False.
Proof.
  intros H Hij Hi Hj Hp Hq. pose proof (tally_nth2 owner_pc _ _ _ _ _ Hij Hi Hj) as N.
  rewrite Hp, Hq, <- cnt_tally, (i_own _ H) in N. pose proof (b2z_range (status s)). cbn [b2z] in N. lia.
Qed.

Lemma handling_is_owner p : handling_pc p = true -> owner_pc p = true.
Proof. destruct p; cbn; congruence. Qed.

Lemma handlers_exclusive s i j p q : Inv s -> i <> j ->
  nth_error (thr s) i = Some p -> nth_error (thr s) j = Some q ->
  handling_pc p = true -> handling_pc q = true -> False.
Proof.
  intros H Hij Hi Hj Hp Hq. exact (Inv_one_owner s i j p q H Hij Hi Hj (handling_is_owner _ Hp) (handling_is_owner _ Hq)).
Qed.

(** a handler invocation = the interval between a thread's Handle step and its next step; during that
    interval the thread stays at an owner pc (HSysPop), so by [Inv_one_owner] no other thread is at
    any owner pc, in particular none can perform a Handle step *)
Lemma after_handle_owner i s s' p : nth_error (thr s) i = Some p -> handling_pc p = true ->
  step i s = Some s' -> nth_error (thr s') i = Some HSysPop.
Proof.
  intros Hp Hh Hs. unfold step in Hs. rewrite Hp in Hs.
  destruct p; try discriminate Hh; inversion Hs; cbn [thr set_thr]; exact (nth_error_upd_eq _ _ _ _ Hp).
Qed.

(** C01.3 counters *)
Lemma counters s : reachable s ->
  num s = Z.of_nat (length (uq s)) - count (at_sadd false) s + count (at_dec false) s /\
  sysnum s = Z.of_nat (length (sq s)) - count (at_sadd true) s + count (at_dec true) s.
Proof.
  intros H. pose proof (reachable_inv _ H) as [_ _ Hn Hy _ _]. rewrite <- !cnt_count. split; assumption.
Qed.

(** C01.4 no lost wake-up *)
Lemma no_lost_wakeup s : reachable s -> status s = false ->
  (sq s <> [] -> exists i p, nth_error (thr s) i = Some p /\ sys_cover p = true) /\
  (uq s <> [] -> paused s = false -> exists i p, nth_error (thr s) i = Some p /\ user_cover p = true).
Proof.
  intros H Hst. pose proof (reachable_inv _ H) as [_ _ _ _ Hs Hu]. split.
  - intros Hq. apply cnt_exists. exact (Hs Hst Hq).
  - intros Hq Hp. apply cnt_exists. exact (Hu Hst Hq Hp).
Qed.

(** C01.2 accounting: every message is in exactly one place *)
Definition pm_dec : forall x y : bool * msg, {x = y} + {x <> y}.
Proof. decide equality; [apply N.eq_dec | apply bool_dec]. Defined.
Definition co (e : bool * msg) (l : list (bool * msg)) : Z := Z.of_nat (count_occ pm_dec l e).

Lemma co_app e l1 l2 : co e (l1 ++ l2) = co e l1 + co e l2.
Proof. unfold co. rewrite count_occ_app. lia. Qed.
Lemma co_cons e x l : co e (x :: l) = co e [x] + co e l.
Proof. exact (co_app e [x] l). Qed.
Lemma co_flat e (f : pc -> list (bool * msg)) l : co e (flat_map f l) = sumz (fun p => co e (f p)) l.
Proof. induction l as [|h t IH]; cbn [flat_map sumz]; [reflexivity|]. rewrite co_app, IH. reflexivity. Qed.

Definition acct (e : bool * msg) (s : st) : Z :=
  sumz (fun p => co e (unsent_of p) + co e (held_of p)) (thr s) + co e (queued s) + co e (log s).

Lemma step_acct e i s s' : cnt bad_pc (thr s) = 0 -> step i s = Some s' -> acct e s' = acct e s.
Proof.
  intros Hw Hs. unfold acct, queued.
  step_cases Hw Hs Hp; cbn [thr set_thr sq uq log]; rewrite ?sumz_app, (sumz_upd _ _ _ _ _ Hp), ?E;
    cbn [sumz unsent_of held_of map]; rewrite ?map_app, ?co_app; cbn [map];
    rewrite ?(co_cons e _ (map _ _)); change (co e []) with 0; lia.
Qed.

Lemma init_acct e ths : forallb env_pc ths = true -> acct e (init ths) = co e (msgs_of ths).
Proof.
  intros H. unfold acct, queued, msgs_of. cbn [init thr sq uq log map app]. rewrite co_flat.
  induction ths as [|k t IH]; cbn [forallb map sumz] in *; [reflexivity|].
  apply andb_true_iff in H as [Hk Ht]. specialize (IH Ht). destruct k; try discriminate Hk; cbn [unsent_of held_of]; change (co e []) with 0 in *; lia.
Qed.

Lemma run_acct e sched s : Inv s -> acct e (run sched s) = acct e s.
Proof.
  intros H. refine (proj2 (prun_inv st step (fun s' => Inv s' /\ acct e s' = acct e s) _ sched s (conj H eq_refl))).
  intros i s1 s2 [H1 E1] Hs. split; [exact (step_inv _ _ _ H1 Hs)|]. rewrite <- E1. exact (step_acct e _ _ _ (i_wf _ H1) Hs).
Qed.

Theorem exactly_once ths sched : forallb env_pc ths = true ->
  let s := run sched (init ths) in
  Permutation (msgs_of ths) (unsent s ++ queued s ++ held s ++ log s).
Proof.
  intros H s. apply (Permutation_count_occ pm_dec). intros e. apply Nat2Z.inj. fold (co e (msgs_of ths)).
  rewrite <- (init_acct e _ H), <- (run_acct e sched _ (init_inv _ H)). fold s.
  fold (co e (unsent s ++ queued s ++ held s ++ log s)). unfold acct, unsent, held.
  rewrite !co_app, !co_flat. clear. induction (thr s) as [|p t IH]; cbn [sumz]; lia.
Qed.

Lemma NoDup_app_r {A} (l1 l2 : list A) : NoDup (l1 ++ l2) -> NoDup l2.
Proof. induction l1 as [|h t IH]; cbn [app]; intros H; [exact H|]. inversion H; subst. auto. Qed.

Corollary handled_at_most_once ths sched : forallb env_pc ths = true ->
  NoDup (msgs_of ths) -> NoDup (log (run sched (init ths))).
Proof.
  intros H Hnd. pose proof (Permutation_NoDup (exactly_once ths sched H) Hnd) as N.
  apply NoDup_app_r in N. apply NoDup_app_r in N. apply NoDup_app_r in N. exact N.
Qed.

Corollary handled_was_sent ths sched e : forallb env_pc ths = true ->
  In e (log (run sched (init ths))) -> In e (msgs_of ths).
Proof.
  intros H Hin. apply (Permutation_in e (Permutation_sym (exactly_once ths sched H))). rewrite !in_app_iff. auto.
Qed.
