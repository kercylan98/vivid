(** Theorems about the fine-grained machine (Mailbox/MbFine.v), obtained through the simulation of
    Mailbox/MbFineSim.v from the theorems about the coarse machine, plus what only exists at the fine level:
    mutual exclusion and representation invariant of the two rings at every micro-step, absence of the two crashes
    (nil slot handed out, modulus zero), deadlock freedom with the mutexes, the step bound including the ring's
    own steps, and a computed witness of what two overlapping Pops would do to a ring. *)
From Coq Require Import List ZArith Bool Lia Permutation.
From Vivid Require Import Queue.Ring.
From Vivid Require Import Mailbox.MbModel Mailbox.MbSpec Mailbox.MbSpec2 Mailbox.MbPool Mailbox.MbInv Mailbox.MbLive Mailbox.MbOrder Mailbox.MbTerm.
From Vivid Require Import Mailbox.MbFine Mailbox.MbFineQ Mailbox.MbFineSim.
Import ListNotations.
Local Open Scope Z_scope.

Lemma fowner_apc p : fowner_pc p = true -> owner_pc (apc p) = true.
Proof.
  fpc_cases p; cbn; try congruence;
    try (destruct sys; reflexivity).
  fpc_cases k; cbn; try congruence.
  destruct sys; cbn; congruence.
Qed.

Lemma fhandling_owner p : fhandling_pc p = true -> fowner_pc p = true.
Proof. destruct p; cbn; congruence. Qed.

Lemma fenv_active_apc p : fbad p = false -> env_active (apc p) = fenv_active p.
Proof.
  intros Hb.
  fpc_cases p; try reflexivity; try (destruct sys; reflexivity).
  fpc_cases k; try discriminate Hb; try reflexivity;
    destruct sys; try discriminate Hb; reflexivity.
Qed.

Lemma fone_owner f i j p q : freachable f -> i <> j ->
  nth_error (fthr f) i = Some p -> nth_error (fthr f) j = Some q ->
  fowner_pc p = true -> fowner_pc q = true -> False.
Proof.
  intros Hr Hij Hi Hj Hp Hq. destruct (freachable_SR f Hr) as (ls & lu & H & _).
  exact (Inv_one_owner (absl f ls lu) i j _ _ (sr_inv _ _ _ H) Hij (map_nth_error apc _ _ Hi) (map_nth_error apc _ _ Hj)
           (fowner_apc _ Hp) (fowner_apc _ Hq)).
Qed.

Lemma fno_crash f i : freachable f -> nth_error (fthr f) i <> Some FCrash.
Proof.
  intros Hr Hi. destruct (freachable_SR f Hr) as (ls & lu & [_ _ Hw] & _). discriminate (tally_zero _ _ Hw _ _ Hi).
Qed.

Lemma fpop_hands_out_element f i sys v : freachable f -> nth_error (fthr f) i = Some (FQPopAdd sys v) -> exists m, v = Some m.
Proof.
  intros Hr Hi. destruct (freachable_SR f Hr) as (ls & lu & H & _).
  destruct (qi_thr _ _ _ _ (sr_q _ _ _ H sys) i _ Hi eq_refl) as (a & l' & _ & -> & _). exists a. reflexivity.
Qed.

Lemma fring_safe f sys : freachable f ->
  exists l, qlen (getq sys f) = Z.of_nat (length l) /\
            (qlock (getq sys f) = false -> ring_repr (to_ring (getq sys f)) l /\ qcontent (getq sys f) = map Some l) /\
            Z.of_nat (length (filter (holder sys) (fthr f))) = (if qlock (getq sys f) then 1 else 0).
Proof.
  intros Hr. destruct (freachable_SR f Hr) as (ls & lu & H & _).
  pose proof (sr_q _ _ _ H sys) as Q. exists (lsel sys ls lu). split; [exact (qi_len _ _ _ _ Q)|]. split; [exact (QI_free _ _ _ _ Q)|].
  rewrite <- tally_filter, (qi_cnt _ _ _ _ Q). reflexivity.
Qed.

Definition blocked (p : fpc) (f : fstate) : bool :=
  match p with FPushLock s _ | FQLock s => qlock (getq s f) | _ => false end.

Lemma fnon_blocked_steps f i p : nth_error (fthr f) i = Some p -> p <> FDone -> p <> FCrash -> blocked p f = false ->
  exists f', fstep i f = Some f'.
Proof.
  intros Hp Hd Hc Hb. unfold fstep. rewrite Hp. cbv zeta.
  fpc_cases p; try congruence; cbn [blocked] in Hb;
    try rewrite Hb; try (destruct sys);
    repeat match goal with
    | |- exists _, (if ?b then _ else _) = Some _ => destruct b
    | |- exists _, match ?o with Some _ => _ | None => _ end = Some _ => destruct o
    | |- exists _, (let (_, _) := ?x in _) = Some _ => destruct x
    end; eexists; reflexivity.
Qed.

Lemma SR_no_deadlock f ls lu : SR f ls lu -> (exists i p, nth_error (fthr f) i = Some p /\ p <> FDone) ->
  exists i f', fstep i f = Some f'.
Proof.
  intros H (i & p & Hi & Hd).
  assert (Hc : p <> FCrash).
  { intros ->. discriminate (tally_zero _ _ (sr_wf _ _ _ H) _ _ Hi). }
  destruct (blocked p f) eqn:Hb.
  - (* waiting for a held mutex: its holder can step *)
    assert (Hs : exists s, qlock (getq s f) = true) by (destruct p; cbn [blocked] in Hb; try discriminate; eexists; exact Hb).
    destruct Hs as (s & Hl). pose proof (qi_cnt _ _ _ _ (sr_q _ _ _ H s)) as Hcn. rewrite Hl in Hcn. cbn [b2z] in Hcn.
    destruct (tally_exists (holder s) (fthr f) ltac:(lia)) as (j & q & Hj & Hq).
    exists j. apply (fnon_blocked_steps f j q Hj); destruct q; cbn in Hq; try discriminate; try reflexivity.
  - exists i. exact (fnon_blocked_steps f i p Hi Hd Hc Hb).
Qed.

Lemma fno_deadlock f : freachable f -> (exists i p, nth_error (fthr f) i = Some p /\ p <> FDone) ->
  exists i f', fstep i f = Some f'.
Proof. intros Hr He. destruct (freachable_SR f Hr) as (ls & lu & H & _). exact (SR_no_deadlock f ls lu H He). Qed.

Lemma fdone_or_not (l : list fpc) :
  (forall i p, nth_error l i = Some p -> p = FDone) \/ (exists i p, nth_error l i = Some p /\ p <> FDone).
Proof. apply all_or_nth. intros []; (left; reflexivity) || (right; discriminate). Qed.

Lemma fterminal_all_done f : freachable f -> fterminal f -> fall_done f.
Proof.
  intros Hr Ht. destruct (fdone_or_not (fthr f)) as [D|E]; [exact D|].
  destruct (fno_deadlock f Hr E) as (i & f' & Hs). rewrite (Ht i) in Hs. discriminate.
Qed.

Lemma all_done_map f : fall_done f -> forall i p, nth_error (map apc (fthr f)) i = Some p -> p = Done.
Proof.
  intros D i p Hp. rewrite nth_error_map in Hp. destruct (nth_error (fthr f) i) as [q|] eqn:Hq; [|discriminate].
  inversion Hp; subst. rewrite (D i q Hq). reflexivity.
Qed.

Lemma fmsgs_apc ths : forallb fenv_pc ths = true -> msgs_of (map apc ths) = fmsgs_of ths.
Proof.
  unfold msgs_of, fmsgs_of. induction ths as [|p t IH]; cbn [forallb map flat_map]; intros H; [reflexivity|].
  apply andb_true_iff in H as [Hp Ht]. rewrite (IH Ht). destruct p; try discriminate Hp; reflexivity.
Qed.

Theorem fterminal_thm size ths sched : (1 <= size)%nat -> forallb fenv_pc ths = true ->
  let f := frun sched (finit size ths) in
  fterminal f ->
  fall_done f /\ fstatus f = false /\
  qlock (fsq f) = false /\ qlock (fuq f) = false /\
  qlen (fsq f) = 0 /\ qcontent (fsq f) = [] /\
  exists lu, qcontent (fuq f) = map Some lu /\ qlen (fuq f) = Z.of_nat (length lu) /\
             (lu = [] \/ fpaused f = true) /\
             Permutation (fmsgs_of ths) (map (pair false) lu ++ flog f).
Proof.
  intros Hn He f Ht.
  assert (Hr : freachable f) by (exists size, ths, sched; repeat split; assumption).
  pose proof (fterminal_all_done f Hr Ht) as D.
  destruct (fsim size ths sched Hn He) as (ls & lu & H & Hrun & _). cbv zeta in Hrun. fold f in Hrun, H.
  assert (Hct : terminal (absl f ls lu)) by exact (all_done_terminal (absl f ls lu) (all_done_map f D)).
  destruct (Inv_terminal _ (sr_inv _ _ _ H) Hct) as (Hsq & Hu & Hst & _ & _). cbn [absl sq uq status paused] in Hsq, Hu, Hst. subst ls.
  rewrite <- Hrun in Hct. destruct (terminal_all_handled (map apc ths) _ (apc_env ths He) Hct) as (HP & _).
  rewrite Hrun, (fmsgs_apc ths He) in HP. cbn [absl uq log] in HP.
  pose proof (sr_q _ _ _ H true) as Qs. pose proof (sr_q _ _ _ H false) as Qu.
  assert (Lk : forall b, qlock (getq b f) = false).
  { intros b. pose proof (qi_cnt _ _ _ _ (sr_q _ _ _ H b)) as C.
    rewrite (tally_none _ _ (fun i p Hp => f_equal (holder b) (D i p Hp))) in C.
    destruct (qlock (getq b f)); [discriminate C|reflexivity]. }
  pose proof (Lk true) as Ls. pose proof (Lk false) as Lu. cbn [getq] in Ls, Lu.
  split; [exact D|]. split; [exact Hst|]. split; [exact Ls|]. split; [exact Lu|].
  split; [exact (qi_len _ _ _ _ Qs)|].
  split; [exact (QR_content _ _ (qi_free _ _ _ _ Qs Ls))|].
  exists lu. split; [exact (QR_content _ _ (qi_free _ _ _ _ Qu Lu))|]. split; [exact (qi_len _ _ _ _ Qu)|].
  split; [exact Hu|exact HP].
Qed.

Lemma flog_coarse size ths sched : (1 <= size)%nat -> forallb fenv_pc ths = true ->
  exists cs, forallb env_pc (map apc ths) = true /\ msgs_of (map apc ths) = fmsgs_of ths /\
             log (run cs (init (map apc ths))) = flog (frun sched (finit size ths)).
Proof.
  intros Hn He. destruct (fsim size ths sched Hn He) as (ls & lu & _ & Hrun & _). cbv zeta in Hrun.
  exists (csched_of sched (finit size ths)). rewrite Hrun. exact (conj (apc_env ths He) (conj (fmsgs_apc ths He) eq_refl)).
Qed.

Theorem fat_most_once size ths sched : (1 <= size)%nat -> forallb fenv_pc ths = true ->
  NoDup (fmsgs_of ths) -> NoDup (flog (frun sched (finit size ths))).
Proof. intros Hn He. destruct (flog_coarse size ths sched Hn He) as (cs & He' & <- & <-). exact (handled_at_most_once _ cs He'). Qed.

Theorem fhandled_was_sent size ths sched e : (1 <= size)%nat -> forallb fenv_pc ths = true ->
  In e (flog (frun sched (finit size ths))) -> In e (fmsgs_of ths).
Proof. intros Hn He. destruct (flog_coarse size ths sched Hn He) as (cs & He' & <- & <-). exact (handled_was_sent _ cs e He'). Qed.

Lemma push_order_ctrace b tr : push_order b (ctrace_of tr) = fpush_order b tr.
Proof.
  unfold push_order, fpush_order, ctrace_of. induction tr as [|[[i p] f] t IH]; [reflexivity|].
  cbn [flat_map fst snd]. rewrite flat_map_app, IH. f_equal.
  fpc_cases p; cbn [stutter apc flat_map snd app]; try reflexivity;
    try (destruct sys; reflexivity).
  all: try (rewrite app_nil_r; reflexivity).
  destruct (negb (qlen (getq sys f) =? 0)); [reflexivity|]. destruct sys; reflexivity.
Qed.

Theorem ffifo_prefix b size ths sched : (1 <= size)%nat -> forallb fenv_pc ths = true ->
  exists rest, fpush_order b (frun_trace sched (finit size ths)) = flog_of b (frun sched (finit size ths)) ++ rest.
Proof.
  intros Hn He. destruct (fsim size ths sched Hn He) as (ls & lu & _ & Hrun & Htr). cbv zeta in Hrun, Htr.
  destruct (fifo_prefix b (map apc ths) (csched_of sched (finit size ths)) (apc_env ths He)) as (rest & E).
  exists rest. rewrite Htr, push_order_ctrace, Hrun in E. exact E.
Qed.

(** the stuttering steps a thread has made inside its current coarse step: a stuttering step adds one, a coarse step
    takes away at most two, at most three are outstanding ([SR_debt_bound]) - hence the factor 3 (+3) of the step bounds *)
Definition debt (p : fpc) : Z := match p with FPushAdd _ _ | FQLock _ => 1 | FQPopAdd _ _ => 2 | _ => 0 end.

Lemma crash_bad T i p : nth_error T i = Some p -> tally fbad (upd T i FCrash) = 0 -> False.
Proof. intros Hp Hw. discriminate (tally_zero _ _ Hw i FCrash (nth_error_upd_eq _ _ _ _ Hp)). Qed.

Lemma debt_step i f f' p : nth_error (fthr f) i = Some p -> fstep i f = Some f' -> tally fbad (fthr f') = 0 ->
  if stutter p f then sumz debt (fthr f') = sumz debt (fthr f) + 1
  else sumz debt (fthr f) - 2 <= sumz debt (fthr f').
Proof.
  intros Hp Hs Hw. unfold fstep in Hs. rewrite Hp in Hs. cbv zeta in Hs.
  fpc_cases p; cbn [stutter];
    try discriminate Hs; try (destruct sys);
    repeat match type of Hs with
    | (if ?b then _ else _) = Some _ => let E := fresh "E" in destruct b eqn:E
    | match ?o with Some _ => _ | None => _ end = Some _ => let E := fresh "E" in destruct o eqn:E
    | (let (_, _) := ?x in _) = Some _ => destruct x
    end; try discriminate Hs; injection Hs as <-;
    cbn [fset_thr setq fthr negb] in *;
    try (exfalso; exact (crash_bad _ _ _ Hp Hw));
    rewrite ?sumz_app, (sumz_upd _ _ _ _ _ Hp); cbn [debt sumz];
    try lia.
  all: try (destruct v; cbn [debt]; lia).
  all: destruct k; cbn [debt]; lia.
Qed.

Lemma steps_debt sched : forall f ls lu, SR f ls lu ->
  Z.of_nat (length (frun_trace sched f)) + sumz debt (fthr f)
  <= 3 * Z.of_nat (length (ctrace_of (frun_trace sched f))) + sumz debt (fthr (frun sched f)).
Proof.
  induction sched as [|i r IH]; intros f ls lu H.
  - cbn. lia.
  - cbn [frun fold_left frun_trace]. fold (frun r (fstep_or_stay f i)). unfold fstep_or_stay.
    destruct (nth_error (fthr f) i) as [p|] eqn:Hp.
    + destruct (fstep i f) as [f1|] eqn:Hs.
      * destruct (sim_step _ _ _ _ _ _ H Hp Hs) as (ls1 & lu1 & H1 & _).
        pose proof (debt_step _ _ _ _ Hp Hs (sr_wf _ _ _ H1)) as Hd.
        specialize (IH f1 ls1 lu1 H1).
        unfold ctrace_of. cbn [flat_map fst snd length]. fold (ctrace_of (frun_trace r f1)).
        rewrite app_length. destruct (stutter p f); cbn [length]; lia.
      * exact (IH f ls lu H).
    + rewrite (fstep_none_nth _ _ Hp). exact (IH f ls lu H).
Qed.

Definition popwait (p : fpc) : bool := match p with FQLock _ | FQPopAdd _ _ => true | _ => false end.

Lemma debt_le T : sumz debt T <= tally (holder true) T + tally (holder false) T + tally popwait T.
Proof.
  induction T as [|p t IH]; cbn [sumz tally]; [lia|]. fold (tally (holder true) t) (tally (holder false) t) (tally popwait t).
  assert (debt p <= b2z (holder true p) + b2z (holder false p) + b2z (popwait p)); [|lia].
  fpc_cases p; cbn; try lia; destruct sys; cbn; lia.
Qed.

Lemma SR_debt_bound f ls lu : SR f ls lu -> 0 <= sumz debt (fthr f) <= 3.
Proof.
  intros H. split.
  - apply sumz_nonneg. intros p. destruct p; cbn [debt]; lia.
  - pose proof (debt_le (fthr f)) as D.
    pose proof (qi_cnt _ _ _ _ (sr_q _ _ _ H true)) as C1. pose proof (qi_cnt _ _ _ _ (sr_q _ _ _ H false)) as C2.
    pose proof (i_own _ (sr_inv _ _ _ H)) as Ho. cbn [absl thr status] in Ho. rewrite cnt_map_apc in Ho.
    assert (Hpw : tally popwait (fthr f) <= tally (fun p => owner_pc (apc p)) (fthr f)).
    { apply tally_le. intros p. destruct p; cbn; try congruence; destruct sys; reflexivity. }
    pose proof (b2z_range (qlock (getq true f))). pose proof (b2z_range (qlock (getq false f))).
    pose proof (b2z_range (fstatus f)). lia.
Qed.

Lemma fsteps_le_coarse sched f ls lu : SR f ls lu ->
  (feffective_steps sched f <= 3 * effective_steps (csched_of sched f) (absl f ls lu) + 3)%nat.
Proof.
  intros H. destruct (sim_run sched f ls lu H) as (ls' & lu' & H' & _ & Htr).
  pose proof (steps_debt sched f ls lu H) as D.
  pose proof (SR_debt_bound _ _ _ H) as B0. pose proof (SR_debt_bound _ _ _ H') as B1.
  unfold feffective_steps, effective_steps. rewrite Htr. lia.
Qed.

Theorem ftermination size ths sched : (1 <= size)%nat -> forallb fenv_pc ths = true ->
  (feffective_steps sched (finit size ths) <= 192 * (length ths + 1) * (length ths + 1) + 3)%nat.
Proof.
  intros Hn He. pose proof (fsteps_le_coarse sched _ _ _ (SR_init size ths Hn He)) as H.
  rewrite absl_init in H.
  pose proof (termination (map apc ths) (csched_of sched (finit size ths)) (apc_env ths He)) as T.
  rewrite map_length in T. lia.
Qed.

Lemma fprocessors_apc f ls lu : tally fbad (fthr f) = 0 -> processors (absl f ls lu) = fprocessors f.
Proof.
  intros Hw. pose proof (tally_zero _ _ Hw) as Hb. unfold processors, fprocessors. cbn [absl thr]. clear Hw.
  induction (fthr f) as [|p t IH]; cbn [map filter]; [reflexivity|].
  rewrite (fenv_active_apc p (Hb 0%nat p eq_refl)).
  assert (E : (match apc p with Done => true | _ => false end) = (match p with FDone | FCrash => true | _ => false end)).
  { fpc_cases p; try reflexivity; destruct sys; reflexivity. }
  rewrite E. specialize (IH (fun i => Hb (S i))).
  destruct (negb (fenv_active p) && negb (match p with FDone | FCrash => true | _ => false end)); cbn [length]; rewrite IH; reflexivity.
Qed.

Theorem fno_spin f : freachable f -> fenv_done f -> qlen (fsq f) = 0 -> (qlen (fuq f) = 0 \/ fpaused f = true) ->
  forall sched, (feffective_steps sched f <= 33 * fprocessors f + 3)%nat.
Proof.
  intros Hr He Hs Hu sched. destruct (freachable_SR f Hr) as (ls & lu & H & _).
  pose proof (fsteps_le_coarse sched f ls lu H) as B.
  assert (Els : ls = []) by exact (QI_len_zero _ _ _ _ (sr_q _ _ _ H true) Hs).
  assert (Elu : lu = [] \/ fpaused f = true).
  { destruct Hu as [Hu|Hu]; [left; exact (QI_len_zero _ _ _ _ (sr_q _ _ _ H false) Hu)|right; exact Hu]. }
  assert (Hed : env_done (absl f ls lu)).
  { intros p Hin. cbn [absl thr] in Hin. apply in_map_iff in Hin as (q & <- & Hq).
    destruct (In_nth_error _ _ Hq) as (i & Hi).
    rewrite (fenv_active_apc q (tally_zero _ _ (sr_wf _ _ _ H) _ _ Hi)). exact (He q Hq). }
  pose proof (quiet_no_spin _ (Build_Quiet (absl f ls lu) (sr_inv _ _ _ H) (env_done_cnt _ Hed) Els Elu) (csched_of sched f)) as N.
  rewrite (fprocessors_apc f ls lu (sr_wf _ _ _ H)) in N. lia.
Qed.

Lemma frun_app a b f : frun (a ++ b) f = frun b (frun a f).
Proof. exact (prun_app fstate fstep a b f). Qed.

Theorem fcan_finish size ths sched : (1 <= size)%nat -> forallb fenv_pc ths = true ->
  exists more, fall_done (frun (sched ++ more) (finit size ths)).
Proof.
  intros Hn He.
  apply (can_finish_bounded fstate fpc fthr fstep fstep_none_nth fall_done (192 * (length ths + 1) * (length ths + 1) + 3) (finit size ths)).
  - intros sc. exact (ftermination size ths sc Hn He).
  - intros sc. destruct (fdone_or_not (fthr (frun sc (finit size ths)))) as [D|E]; [left; exact D|right].
    apply fno_deadlock; [exists size, ths, sc; repeat split; assumption|exact E].
Qed.

(** what two overlapping Pops would do, computed on the queue's critical-section functions (not a run of [fstep]:
    by [fone_owner] the mailbox never has two consumers): New(2); Push(7); both emptiness checks see len = 1; the first critical
    section takes the element; the second one advances head past tail, hands out the nil slot with ok = true, and
    leaves len = -1. *)
Lemma two_consumers_refuted :
  exists q1 q2 qa qb va vb,
    q_push_pre (q_new 2) = Some q1 /\ q2 = q_push_fin 7%N q1 /\     (* New(2); Push(7) *)
    qlen q2 = 1 /\                                                  (* both Pops pass `if q.Empty()` *)
    q_pop_pre q2 = Some (va, qa) /\ va = Some 7%N /\                (* first critical section *)
    q_pop_pre (q_pop_fin qa) = Some (vb, qb) /\ vb = None /\        (* second one: (nil, true) *)
    qlen (q_pop_fin qb) = -1.
Proof. vm_compute. do 6 eexists. repeat split. Qed.

Lemma fcover_apc p : (sys_cover (apc p) = true -> fsys_cover p = true) /\ (user_cover (apc p) = true -> fuser_cover p = true).
Proof.
  fpc_cases p; cbn; split; try congruence;
    destruct sys; cbn; congruence.
Qed.

Theorem fno_lost_wakeup f : freachable f -> fstatus f = false ->
  (0 < qlen (fsq f) -> exists i p, nth_error (fthr f) i = Some p /\ fsys_cover p = true) /\
  (0 < qlen (fuq f) -> fpaused f = false -> exists i p, nth_error (fthr f) i = Some p /\ fuser_cover p = true).
Proof.
  intros Hr Hst. destruct (freachable_SR f Hr) as (ls & lu & H & _).
  pose proof (sr_inv _ _ _ H) as [_ _ _ _ Hws Hwu]. cbn [absl status sq uq paused thr] in Hws, Hwu.
  rewrite cnt_map_apc in Hws, Hwu. split.
  - intros Hl. pose proof (qi_len _ _ _ _ (sr_q _ _ _ H true)) as E. cbn [getq lsel] in E.
    assert (Hne : ls <> []) by (intros ->; cbn [length] in E; lia).
    destruct (tally_exists _ _ (Hws Hst Hne)) as (i & p & Hi & Hp). exists i, p. split; [exact Hi|]. exact (proj1 (fcover_apc p) Hp).
  - intros Hl Hpa. pose proof (qi_len _ _ _ _ (sr_q _ _ _ H false)) as E. cbn [getq lsel] in E.
    assert (Hne : lu <> []) by (intros ->; cbn [length] in E; lia).
    destruct (tally_exists _ _ (Hwu Hst Hne Hpa)) as (i & p & Hi & Hp). exists i, p. split; [exact Hi|]. exact (proj2 (fcover_apc p) Hp).
Qed.

Theorem frefines size ths sched : (1 <= size)%nat -> forallb fenv_pc ths = true ->
  let f0 := finit size ths in
  let f := frun sched f0 in
  exists ls lu,
    run (csched_of sched f0) (init (map apc ths)) = absl f ls lu /\
    run_trace (csched_of sched f0) (init (map apc ths)) = ctrace_of (frun_trace sched f0) /\
    qlen (fsq f) = Z.of_nat (length ls) /\ qlen (fuq f) = Z.of_nat (length lu) /\
    (qlock (fsq f) = false -> ring_repr (to_ring (fsq f)) ls /\ qcontent (fsq f) = map Some ls) /\
    (qlock (fuq f) = false -> ring_repr (to_ring (fuq f)) lu /\ qcontent (fuq f) = map Some lu).
Proof.
  intros Hn He f0 f. destruct (fsim size ths sched Hn He) as (ls & lu & H & Hrun & Htr).
  exists ls, lu. split; [exact Hrun|]. split; [exact Htr|].
  pose proof (sr_q _ _ _ H true) as Qs. pose proof (sr_q _ _ _ H false) as Qu.
  split; [exact (qi_len _ _ _ _ Qs)|]. split; [exact (qi_len _ _ _ _ Qu)|]. exact (conj (QI_free _ _ _ _ Qs) (QI_free _ _ _ _ Qu)).
Qed.
