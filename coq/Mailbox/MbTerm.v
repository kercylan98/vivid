(** General termination of the mailbox machine: every schedule of every population of client threads has
    at most quadratically many effective steps.  Potential-function proof with one ghost bit per thread. *)
From Coq Require Import List ZArith Bool Lia.
From Vivid Require Import Mailbox.MbModel Mailbox.MbSpec Mailbox.MbSpec2 Mailbox.MbPool Mailbox.MbInv Mailbox.MbOrder Mailbox.MbLive.
Import ListNotations.
Local Open Scope Z_scope.

Definition lenz {A} (l : list A) : Z := Z.of_nat (length l).

(** events still to come: client steps (weight 2) and counter decrements of messages already pushed *)
Definition evw (p : pc) : Z :=
  match p with
  | Start (SPush _ _) => 8 | Start PStore => 4 | Start RCas1 => 6
  | SPush _ _ => 6 | SAdd _ => 4 | SCas => 2 | PStore => 2 | RCas1 => 4 | RCas2 => 2
  | HSysDec _ | HUserDec _ => 1
  | _ => 0
  end.
Definition EV (s : st) : Z := sumz evw (thr s) + lenz (sq s) + lenz (uq s).
(** messages pushed and not yet handled *)
Definition is_held (p : pc) : bool :=
  match p with HSysDec _ | HSysHandle _ | HUserDec _ | HUserHandle _ => true | _ => false end.
Definition GM (s : st) : Z := 8 * (lenz (sq s) + lenz (uq s) + cnt is_held (thr s)).

Definition tenv (p : pc) : Z :=
  match p with
  | Start (SPush _ _) => 12 | SPush _ _ => 11 | Start RCas1 => 3 | Start PStore => 2
  | SAdd _ => 2 | SCas => 1 | PStore => 1 | RCas1 => 2 | RCas2 => 1
  | _ => 0
  end.
Definition tproc (p : pc) : Z :=
  match p with
  | Start _ => 9 | HSysPop => 8 | HLoadPaused => 7 | HUserPop => 6 | PStoreIdle => 5 | PLoadNum => 4
  | PLoadSys _ => 3 | PLoadPaused _ => 2 | PCas => 1
  | HSysDec _ | HUserDec _ => 2 | HSysHandle _ | HUserHandle _ => 1
  | _ => 0
  end.
(** a client pays for its remaining steps and for the processor it may start; a processor pays for the rest of its
    round, and for one more round per event still to come, per stale view, and for its ghost bit *)
Definition Wp (e sn n : Z) (pa : bool) (p : pc) (b : bool) : Z :=
  if env_active p then tenv p + 9 + 8 * (e + 1)
  else if is_done p then 0
  else tproc p + 8 * (e + b2z (stalep sn n pa p) + b2z b).
Definition W (s : st) (p : pc) (b : bool) : Z := Wp (EV s) (sysnum s) (num s) (paused s) p b.

Definition Phi (s : st) (g : nat -> bool) : Z := GM s + sumi (fun i p => W s p (g i)) (thr s).

(** ghost: [g i = false] iff no event (client step or counter decrement) has happened since thread i's last
    Store(status, idle) *)
Definition is_event (p : pc) : bool := env_active p || at_dec true p || at_dec false p.
Definition gnext (i : nat) (s : st) (g : nat -> bool) : nat -> bool :=
  match nth_error (thr s) i with
  | Some p => if is_event p then (fun _ => true)
              else match p with PStoreIdle => (fun k => if Nat.eqb k i then false else g k) | _ => g end
  | None => g
  end.

Lemma lenz_nonneg {A} (l : list A) : 0 <= lenz l.
Proof. unfold lenz. lia. Qed.
Lemma EV_nonneg s : 0 <= EV s.
Proof.
  unfold EV. pose proof (lenz_nonneg (sq s)). pose proof (lenz_nonneg (uq s)).
  assert (0 <= sumz evw (thr s)); [|lia].
  apply sumz_nonneg. intros p. destruct p as [k| | | | | | | | | | | | | | | | | | |]; try destruct k; discriminate.
Qed.
Lemma W_nonneg s p b : 0 <= W s p b.
Proof.
  unfold W, Wp. pose proof (EV_nonneg s). pose proof (b2z_range (stalep (sysnum s) (num s) (paused s) p)). pose proof (b2z_range b).
  assert (0 <= tenv p) by (destruct p as [k| | | | | | | | | | | | | | | | | | |]; try destruct k; discriminate).
  assert (0 <= tproc p) by (destruct p; discriminate).
  destruct (env_active p); [lia|]. destruct (is_done p); lia.
Qed.
Lemma Phi_nonneg s g : 0 <= Phi s g.
Proof.
  unfold Phi, GM. pose proof (lenz_nonneg (sq s)). pose proof (lenz_nonneg (uq s)). pose proof (cnt_nonneg is_held (thr s)).
  pose proof (sumi_nonneg (fun i p => W s p (g i)) (thr s) (fun j p => W_nonneg s p (g j))). lia.
Qed.

(** an event sets every ghost bit and may make views stale, and pays for both: eight for the bit, and eight more
    unless it makes no view stale *)
Lemma W_event s s' d : EV s' = EV s - d -> 1 <= d ->
  (2 <= d \/ (sysnum s' <= sysnum s /\ num s' <= num s /\ paused s' = paused s)) ->
  forall q b, W s' q true <= W s q b.
Proof.
  intros HE Hd Hc q b. unfold W, Wp.
  pose proof (b2z_range (stalep (sysnum s') (num s') (paused s') q)).
  pose proof (b2z_range (stalep (sysnum s) (num s) (paused s) q)). pose proof (b2z_range b).
  destruct (env_active q); [lia|]. destruct (is_done q); [lia|]. change (b2z true) with 1.
  destruct Hc as [Hc|(H2 & H3 & H4)]; [lia|]. pose proof (stalep_mono _ _ _ _ _ _ q H2 H3 (or_introl H4)). lia.
Qed.

Lemma phi_event s s' g i p p' sp : nth_error (thr s) i = Some p -> thr s' = upd (thr s) i p' ++ sp ->
  (forall q b, W s' q true <= W s q b) ->
  W s' p' true + sumi (fun _ q => W s' q true) sp + (GM s' - GM s) + 1 <= W s p (g i) ->
  Phi s' (fun _ => true) < Phi s g.
Proof.
  intros Hp Ht Ho Hi. unfold Phi. rewrite Ht, sumi_app.
  pose proof (sumi_upd_le (fun j q => W s q (g j)) (fun _ q => W s' q true) (thr s) i p p'
    (sumi (fun _ q => W s' q true) sp + (GM s' - GM s) + 1) Hp (fun j q _ _ => Ho q (g j)) ltac:(cbv beta; lia)). lia.
Qed.

Lemma phi_quiet s s' g g' i p p' : nth_error (thr s) i = Some p -> thr s' = upd (thr s) i p' ->
  EV s' = EV s -> sysnum s' = sysnum s -> num s' = num s -> paused s' = paused s ->
  (forall j, j <> i -> g' j = g j) ->
  W s p' (g' i) + (GM s' - GM s) + 1 <= W s p (g i) ->
  Phi s' g' < Phi s g.
Proof.
  intros Hp Ht H1 H2 H3 H4 Hg Hi. unfold Phi. rewrite Ht.
  assert (Ho : forall q b, W s' q b = W s q b) by (intros q b; unfold W; rewrite H1, H2, H3, H4; reflexivity).
  pose proof (sumi_upd_le (fun j q => W s q (g j)) (fun j q => W s' q (g' j)) (thr s) i p p' (GM s' - GM s + 1) Hp) as H.
  cbv beta in H. specialize (H ltac:(intros j q Hj _; rewrite (Hg j Hj), Ho; lia) ltac:(rewrite Ho; lia)). lia.
Qed.

(** what a step takes off [EV] - the events are the steps that take something - and adds to [GM] *)
Definition ev_drop (p : pc) (s : st) : Z :=
  match p with
  | Start k => if env_pc k then 2 else 0
  | SPush _ _ | HSysDec _ | HUserDec _ => 1
  | SAdd _ | SCas | PStore | RCas2 => 2
  | RCas1 => if paused s then 2 else 4
  | _ => 0
  end.
Definition gm_gain (p : pc) : Z :=
  match p with SPush _ _ => 8 | HSysHandle _ | HUserHandle _ => -8 | _ => 0 end.

Lemma step_EV i s s' p : cnt bad_pc (thr s) = 0 -> nth_error (thr s) i = Some p -> step i s = Some s' ->
  EV s' = EV s - ev_drop p s /\ GM s' = GM s + gm_gain p.
Proof.
  intros Hwf Hp Hs. unfold EV, GM, lenz.
  step_cases Hwf Hs Hp; cnt_step Hp; rewrite ?sumz_app, (sumz_upd _ _ _ _ _ Hp), ?E, ?app_length;
    cbn [sumz cnt evw is_held b2z ev_drop gm_gain env_pc length]; lia.
Qed.

Lemma phi_step i s s' g : cnt bad_pc (thr s) = 0 -> (nth_error (thr s) i = Some PStoreIdle -> g i = true) ->
  step i s = Some s' -> Phi s' (gnext i s g) < Phi s g.
Proof.
  intros Hwf HK Hs. destruct (step_nth _ _ _ Hs) as [p Hp].
  destruct (step_EV _ _ _ _ Hwf Hp Hs) as [HE HG]. pose proof (EV_nonneg s) as HEV. unfold gnext. rewrite Hp.
  step_cases Hwf Hs Hp; cbn [is_event env_active env_pc at_dec orb negb ev_drop gm_gain] in *; rewrite ?E in *.
  all: lazymatch goal with
       | |- Phi _ (fun _ => true) < _ =>
           (* an event: all ghost bits are set; the others are paid by [W_event], the stepping thread by what it took
              off [EV] and its shorter remaining program *)
           eapply (phi_event _ _ _ _ _ _ _ Hp);
           [cbn [thr set_thr]; (symmetry; apply app_nil_r) || reflexivity
           |apply (W_event _ _ _ HE); [discriminate|first [left; discriminate | right; cbn [set_thr sysnum num paused]; repeat split; lia]]
           |rewrite HG; unfold W; rewrite HE; cbn [sumi Wp set_thr sysnum num paused env_active env_pc is_done tenv tproc stalep]]
       | _ =>
           (* no event: nothing changes for the others; the stepping thread goes down its round (the store of idle
              spends its ghost bit, the pops and handles move a message within [GM]) *)
           eapply (phi_quiet _ _ _ _ _ _ _ Hp);
           [reflexivity | rewrite HE; apply Z.sub_0_r | reflexivity | reflexivity | reflexivity
           |intros j Hj; try reflexivity; rewrite (proj2 (Nat.eqb_neq j i) Hj); reflexivity
           |rewrite HG; unfold W; cbn [Wp env_active env_pc is_done tenv tproc stalep]; rewrite ?Nat.eqb_refl]
       end.
  all: try rewrite (HK Hp); rewrite ?E; change b2z with Z.b2z in *; lia.
Qed.

(** the ghost invariant: a thread with no event since its last store still has the reason of its
      wake-up decision in front of it *)
Definition Kc (s : st) (p : pc) : Prop :=
  match p with
  | PStoreIdle | HSysHandle _ | HUserHandle _ | Start HSysPop => False
  | HSysPop => 1 <= lenz (sq s) \/ (1 <= lenz (uq s) /\ paused s = false)
  | HLoadPaused => 1 <= lenz (uq s) /\ paused s = false
  | HUserPop => 1 <= lenz (uq s)
  | PLoadSys u => 0 < u -> 1 <= lenz (uq s) + cnt (at_dec false) (thr s)
  | PLoadPaused u => 1 <= lenz (uq s) + cnt (at_dec false) (thr s)
  | PCas => 1 <= lenz (sq s) + cnt (at_dec true) (thr s) \/
            (1 <= lenz (uq s) + cnt (at_dec false) (thr s) /\ paused s = false)
  | _ => True
  end.
Definition K (s : st) (g : nat -> bool) : Prop :=
  forall i p, nth_error (thr s) i = Some p -> g i = false -> Kc s p.

(** [Kc] reads the queues through (length + decrements in flight), and directly only at owner pcs *)
Lemma Kc_frame s s' r : paused s' = paused s ->
  lenz (sq s') + cnt (at_dec true) (thr s') = lenz (sq s) + cnt (at_dec true) (thr s) ->
  lenz (uq s') + cnt (at_dec false) (thr s') = lenz (uq s) + cnt (at_dec false) (thr s) ->
  (owner_pc r = true -> sq s' = sq s /\ uq s' = uq s) -> Kc s r -> Kc s' r.
Proof.
  intros Hp H1 H2 Ho. destruct r; cbn [Kc owner_pc] in *; try exact (fun H => H); rewrite ?Hp;
    try (destruct (Ho eq_refl) as [E1 E2]; rewrite ?E1, ?E2; exact (fun H => H)); lia.
Qed.

Lemma quiet_step_K j s s' p : Inv s -> nth_error (thr s) j = Some p -> is_event p = false -> step j s = Some s' ->
  exists q, thr s' = upd (thr s) j q /\ paused s' = paused s /\
    lenz (sq s') + cnt (at_dec true) (thr s') = lenz (sq s) + cnt (at_dec true) (thr s) /\
    lenz (uq s') + cnt (at_dec false) (thr s') = lenz (uq s) + cnt (at_dec false) (thr s) /\
    (owner_pc p = false -> sq s' = sq s /\ uq s' = uq s) /\
    (p = PStoreIdle \/ Kc s p -> Kc s' q).
Proof.
  intros HI Hp Hev Hs. pose proof (Inv_bounds _ HI true) as B1. pose proof (Inv_bounds _ HI false) as B2.
  destruct HI as [Hwf Ho Hn Hy _ _]. unfold lenz in *.
  step_cases Hwf Hs Hp; try discriminate Hev; eexists; (split; [reflexivity|]);
    cnt_step Hp; cbn [cnt at_dec b2z negb owner_pc Kc]; rewrite ?E; cbn [length].
  (* a pop moves one message from the queue to the decrements in flight; only owner steps touch the queues *)
  all: (split; [reflexivity|]); (split; [lia|]); (split; [lia|]); (split; [intros; try discriminate; split; reflexivity|]).
  (* the reason at the new pc: what the thread has just read, with the counter equations of [Inv] *)
  all: cbn [Kc]; unfold lenz; cnt_step Hp; cbn [cnt at_dec b2z negb]; rewrite ?E; cbn [length]; try exact (fun _ => I).
  all: change b2z with Z.b2z in *; (intros [Hx|Hk]; [try discriminate Hx|]); try lia.
Qed.

Lemma K_step j s s' g : Inv s -> K s g -> step j s = Some s' -> K s' (gnext j s g).
Proof.
  intros HI HK Hs i r Hi Hg. destruct (step_nth _ _ _ Hs) as [p Hp]. unfold gnext in Hg. rewrite Hp in Hg.
  destruct (is_event p) eqn:Hev; [discriminate Hg|].
  destruct (quiet_step_K _ _ _ _ HI Hp Hev Hs) as (q & Et & Hpa & H1 & H2 & Hq & Hown).
  rewrite Et in Hi. destruct (Nat.eq_dec i j) as [->|Hij].
  - rewrite (nth_error_upd_eq _ _ _ _ Hp) in Hi. inversion Hi; subst r. apply Hown.
    destruct p; try (right; exact (HK j _ Hp Hg)). left. reflexivity.
  - rewrite nth_error_upd_ne in Hi by exact Hij.
    assert (Hgi : g i = false) by (destruct p; try exact Hg; rewrite (proj2 (Nat.eqb_neq i j) Hij) in Hg; exact Hg).
    apply (Kc_frame s s' r Hpa H1 H2); [|exact (HK i r Hi Hgi)].
    intros Hr. destruct (owner_pc p) eqn:Hop; [|exact (Hq eq_refl)].
    destruct (Inv_one_owner s i j r p HI Hij Hi Hp Hr Hop).
Qed.

Lemma K_store s g i : K s g -> nth_error (thr s) i = Some PStoreIdle -> g i = true.
Proof.
  intros HK Hp. destruct (g i) eqn:E; [reflexivity|]. destruct (HK i _ Hp E).
Qed.

Lemma steps_le_phi sched s g : Inv s -> K s g -> Z.of_nat (effective_steps sched s) <= Phi s g.
Proof.
  unfold effective_steps. revert s g. induction sched as [|i r IH]; intros s g HI HK; cbn [run_trace length].
  - apply Phi_nonneg.
  - destruct (nth_error (thr s) i) as [p|] eqn:Hp; [|exact (IH s g HI HK)].
    destruct (step i s) as [s'|] eqn:Hs; [|exact (IH s g HI HK)].
    pose proof (phi_step i s s' g (i_wf _ HI) (K_store s g i HK) Hs) as Hlt.
    specialize (IH s' (gnext i s g) (step_inv _ _ _ HI Hs) (K_step _ _ _ _ HI HK Hs)). cbn [length]. lia.
Qed.

Theorem termination ths sched : forallb env_pc ths = true ->
  (effective_steps sched (init ths) <= 64 * (length ths + 1) * (length ths + 1))%nat.
Proof.
  intros He.
  assert (HK : K (init ths) (fun _ => true)) by (intros i p _ H; discriminate H).
  pose proof (steps_le_phi sched (init ths) (fun _ => true) (init_inv _ He) HK) as H.
  (* at the start every thread is a client about to begin: EV <= 8 n, no message is anywhere, each weight <= 29 + 8 EV *)
  assert (HE : EV (init ths) <= 8 * Z.of_nat (length ths) /\ GM (init ths) = 0).
  { unfold EV, GM, lenz. cbn [init thr sq uq length]. clear -He.
    induction ths as [|q t IH]; cbn [forallb map sumz cnt length] in *; [lia|].
    apply andb_true_iff in He as [Hq Ht]. specialize (IH Ht). destruct q; try discriminate Hq; cbn [evw is_held b2z]; lia. }
  assert (HW : sumi (fun _ p => W (init ths) p true) (map Start ths) <= Z.of_nat (length ths) * (29 + 8 * EV (init ths))).
  { generalize (init ths) as s. intros s. clear -He.
    induction ths as [|q t IH]; cbn [forallb map sumi length] in *; [lia|].
    apply andb_true_iff in He as [Hq Ht]. specialize (IH Ht).
    assert (W s (Start q) true <= 29 + 8 * EV s); [|lia].
    unfold W, Wp. cbn [env_active]. rewrite Hq. destruct q; try discriminate Hq; cbn [tenv]; lia. }
  unfold Phi in H. cbn [init thr] in H. pose proof (EV_nonneg (init ths)). nia.
Qed.

Theorem can_finish s : reachable s -> exists sched, terminal (run sched s).
Proof.
  intros (ths & sched & He & <-).
  destruct (can_finish_bounded st pc thr step step_none_of_nth terminal (64 * (length ths + 1) * (length ths + 1)) (init ths))
    with (sched := sched) as (more & Hm).
  - intros sc. pose proof (termination ths sc He) as T. unfold effective_steps in T.
    rewrite <- run_trace2_fst, map_length in T. exact T.
  - intros sc. destruct (all_or_nth (fun p => p = Done) (thr (run sc (init ths)))) as [D|(i & p & Hi & Hp)].
    + intros []; (left; reflexivity) || (right; discriminate).
    + left. exact (all_done_terminal _ D).
    + right. exists i. exact (non_done_steps _ i p Hi Hp).
  - exists more. rewrite <- run_app. exact Hm.
Qed.

Lemma reachable_continue s sched : reachable s -> reachable (run sched s).
Proof. intros (ths & sched0 & He & <-). exists ths, (sched0 ++ sched). split; [exact He|apply run_app]. Qed.
