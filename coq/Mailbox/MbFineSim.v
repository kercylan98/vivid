(** Forward simulation: every execution of the fine-grained machine (Mailbox/MbFine.v: mailbox atomics + ring-queue
    mutex / len micro-steps) is simulated step by step by the coarse machine (Mailbox/MbModel.v), whose queue
    operations are atomic.  The simulation relation [SR f ls lu] says: the coarse state [absl f ls lu] satisfies the
    coarse invariant, and each ring represents its abstract content ([QI]).  The single-consumer argument is circular
    only in appearance: "at most one thread inside Pop" is read off the COARSE invariant of the abstracted state
    ([i_own]), and is what makes the Pop whose emptiness check succeeded find an element ([no_second_consumer], the last case of [sim_step]). *)
From Coq Require Import List ZArith Bool Lia.
From Vivid Require Import Mailbox.MbModel Mailbox.MbSpec Mailbox.MbPool Mailbox.MbInv Mailbox.MbOrder Mailbox.MbFine Mailbox.MbFineQ.
Import ListNotations.
Local Open Scope Z_scope.

(** thread pcs that cannot occur: a goroutine is only ever started on Enqueue / Pause / Resume / process; a crash *)
Definition fbad (p : fpc) : bool :=
  match p with
  | FStart (FPushLock _ _) | FStart FPStore | FStart FRCas1 | FStart (FQLoad true) => false
  | FStart _ => true
  | FCrash => true
  | _ => false
  end.

Definition lsel (sys : bool) (ls lu : list msg) : list msg := if sys then ls else lu.

Record SR (f : fstate) (ls lu : list msg) : Prop := {
  sr_inv : Inv (absl f ls lu);
  sr_q : forall b, QI b (getq b f) (fthr f) (lsel b ls lu);
  sr_wf : tally fbad (fthr f) = 0
}.

Lemma fbad_upd T i p p' : tally fbad T = 0 -> nth_error T i = Some p -> fbad p' = false -> tally fbad (upd T i p') = 0.
Proof. intros H Hp Hb. rewrite (tally_upd Hp), H, Hb, (tally_zero _ _ H _ _ Hp). reflexivity. Qed.

Lemma getq_setq sys f q : getq sys (setq sys f q) = q.
Proof. destruct sys; reflexivity. Qed.

(** the coarse step of thread i at the abstraction of [p] *)
Ltac coarse_step Hp :=
  unfold step; cbn [absl thr]; rewrite (map_nth_error apc _ _ Hp); cbn [apc]; cbv zeta;
  cbn [absl status paused num sysnum sq uq log thr set_thr].

(** two threads inside Pop of the same queue: both at owner pcs of the coarse state - excluded by [i_own] *)
Lemma no_second_consumer f ls lu i j sys v : SR f ls lu -> nth_error (fthr f) i = Some (FQPopAdd sys v) -> j <> i ->
  nth_error (fthr f) j <> Some (FQLock sys).
Proof.
  intros [Hi _ _] Hp Hne Hj.
  apply (Inv_one_owner _ i j _ _ Hi (not_eq_sym Hne) (map_nth_error apc _ _ Hp) (map_nth_error apc _ _ Hj));
    destruct sys; reflexivity.
Qed.

Lemma SR_queue sys f q' i p p' ls lu ls' lu' :
  SR f ls lu -> nth_error (fthr f) i = Some p ->
  let f' := fset_thr (setq sys f q') (upd (fthr f) i p') in
  Inv (absl f' ls' lu') -> QI sys q' (upd (fthr f) i p') (lsel sys ls' lu') ->
  lsel (negb sys) ls' lu' = lsel (negb sys) ls lu ->
  holder (negb sys) p = false -> qrel (negb sys) p' = false -> fbad p' = false -> SR f' ls' lu'.
Proof.
  intros [_ Hq Hw] Hp f' HI HQ El Hh Hr Hb.
  assert (Ho : QI (negb sys) (getq (negb sys) f) (upd (fthr f) i p') (lsel (negb sys) ls' lu')).
  { rewrite El. apply (QI_same _ _ _ _ _ p _ (Hq (negb sys)) Hp); [|exact (qthr_irrel _ _ _ _ Hr)].
    rewrite Hh. exact (qrel_holder _ _ Hr). }
  split; [exact HI | | exact (fbad_upd _ _ _ _ Hw Hp Hb)].
  subst f'. destruct sys; intros [|]; assumption.
Qed.

Lemma absl_stutter sys f q' i p p' ls lu : nth_error (fthr f) i = Some p -> apc p' = apc p ->
  absl (fset_thr (setq sys f q') (upd (fthr f) i p')) ls lu = absl f ls lu.
Proof.
  intros Hp E. unfold absl. destruct sys; cbn [fset_thr setq fstatus fpaused fnum fsysnum flog fthr];
    rewrite (map_upd_same apc _ _ _ _ Hp E); reflexivity.
Qed.

(** steps that are not queue micro-steps commute with the abstraction *)
Definition plain (p : fpc) : bool :=
  match p with FPushLock _ _ | FPushAdd _ _ | FQLoad _ | FQLock _ | FQPopAdd _ _ => false | _ => true end.

(** the coarse state after the step, computed on both sides *)
Ltac absl_eq :=
  unfold absl; cbn [fset_thr fstatus fpaused fnum fsysnum fsq fuq flog fthr apc after_empty];
  rewrite ?map_app, ?map_upd; reflexivity.

Lemma plain_step i f f' p ls lu : plain p = true -> fbad p = false -> nth_error (fthr f) i = Some p -> fstep i f = Some f' ->
  step i (absl f ls lu) = Some (absl f' ls lu) /\ fsq f' = fsq f /\ fuq f' = fuq f /\
  exists p' sp, fthr f' = upd (fthr f) i p' ++ sp /\ qrel true p' = false /\ qrel false p' = false /\ fbad p' = false /\
    (sp = [] \/ sp = [FStart (FQLoad true)]).
Proof.
  intros Hpl Hb Hp Hs. unfold fstep in Hs. rewrite Hp in Hs. cbv zeta in Hs.
  fpc_cases p; try discriminate Hpl; try discriminate Hs;
    [fpc_cases k; try discriminate Hb; try destruct sys; try discriminate Hb|..];
    try destruct sys;
    repeat match type of Hs with (if ?b then _ else _) = Some _ => let E := fresh "E" in destruct b eqn:E end;
    injection Hs as <-;
    (split; [coarse_step Hp; rewrite ?E, ?E0; absl_eq|]); (split; [reflexivity|]); (split; [reflexivity|]);
    cbn [fset_thr fthr]; eexists _, _; (split; [(symmetry; apply app_nil_r) || reflexivity|]); repeat split; auto.
Qed.

Lemma SR_plain i f f' p ls lu : SR f ls lu -> plain p = true -> nth_error (fthr f) i = Some p -> fstep i f = Some f' ->
  SR f' ls lu /\ step i (absl f ls lu) = Some (absl f' ls lu).
Proof.
  intros [Hi Hq Hw] Hpl Hp Hs.
  destruct (plain_step i f f' p ls lu Hpl (tally_zero _ _ Hw _ _ Hp) Hp Hs) as (Hc & Es & Eu & p' & sp & Et & R1 & R2 & Hb & Hsp).
  split; [|exact Hc]. split; [exact (step_inv _ _ _ Hi Hc)| |].
  - assert (Q : forall b, qrel b p' = false -> QI b (getq b f) (upd (fthr f) i p') (lsel b ls lu)).
    { intros b R. apply (QI_same _ _ _ _ _ p _ (Hq b) Hp); [|exact (qthr_irrel _ _ _ _ R)].
      rewrite (qrel_holder _ _ R). destruct p; try discriminate Hpl; reflexivity. }
    intros b. rewrite Et. replace (getq b f') with (getq b f) by (destruct b; cbn [getq]; congruence).
    assert (Qb : QI b (getq b f) (upd (fthr f) i p') (lsel b ls lu)) by (apply Q; destruct b; assumption).
    destruct Hsp as [->| ->]; [rewrite app_nil_r; exact Qb|apply QI_app; [exact Qb|reflexivity]].
  - rewrite Et, tally_app, (fbad_upd _ _ _ _ Hw Hp Hb). destruct Hsp as [->| ->]; reflexivity.
Qed.

Lemma sim_step i f f' p ls lu : SR f ls lu -> nth_error (fthr f) i = Some p -> fstep i f = Some f' ->
  exists ls' lu', SR f' ls' lu' /\
    (if stutter p f then absl f' ls' lu' = absl f ls lu else step i (absl f ls lu) = Some (absl f' ls' lu')).
Proof.
  intros H Hp Hs. destruct (plain p) eqn:Hpl.
  { exists ls, lu. replace (stutter p f) with false by (destruct p; try reflexivity; discriminate Hpl).
    exact (SR_plain _ _ _ _ _ _ H Hpl Hp Hs). }
  pose proof H as [Hi Hq Hw]. unfold fstep in Hs. rewrite Hp in Hs. cbv zeta in Hs.
  fpc_cases p; try discriminate Hpl; cbn [stutter];
    pose proof (Hq sys) as Q; pose proof Q as [Qc Qf Ql Qt];
    assert (Hn : forall b : bool, Bool.eqb b (negb b) = false) by (intros [|]; reflexivity).
  - (* Push: Lock *)
    destruct (qlock (getq sys f)) eqn:Hfree; [discriminate|].
    destruct (QR_push_pre _ _ (Qf eq_refl)) as (q1 & E & Hl1 & Hk1 & Hfin). rewrite E in Hs. inversion Hs; subst; clear Hs.
    exists ls, lu. pose proof (absl_stutter sys f q1 i _ (FPushAdd sys m) ls lu Hp eq_refl) as Ea. split; [|exact Ea].
    apply (SR_queue sys f q1 i _ _ ls lu ls lu H Hp); cbn [holder qrel fbad]; auto. { rewrite Ea. exact Hi. }
    apply (QI_move _ _ _ _ _ _ _ _ _ Q Hp); cbn [holder qthr]; rewrite ?Bool.eqb_reflx; auto; lia.
  - (* Push: the atomic add = the coarse SPush step *)
    inversion Hs; subst; clear Hs. pose proof (Qt i _ Hp eq_refl m) as HQR.
    pose proof (QI_holder_locked _ _ _ _ _ _ Q Hp (Bool.eqb_reflx sys)) as Hlock.
    exists (if sys then ls ++ [m] else ls), (if sys then lu else lu ++ [m]).
    assert (Hstep : step i (absl f ls lu) =
                    Some (absl (fset_thr (setq sys f (q_push_fin m (getq sys f))) (upd (fthr f) i (FAdd sys)))
                               (if sys then ls ++ [m] else ls) (if sys then lu else lu ++ [m]))).
    { coarse_step Hp. destruct sys; unfold absl; cbn [fset_thr setq fstatus fpaused fnum fsysnum flog fthr];
        rewrite map_upd; reflexivity. }
    split; [|exact Hstep].
    apply (SR_queue sys f _ i _ _ ls lu _ _ H Hp); cbn [holder qrel fbad]; auto; try (destruct sys; reflexivity).
    { exact (step_inv _ _ _ Hi Hstep). }
    replace (lsel sys (if sys then ls ++ [m] else ls) (if sys then lu else lu ++ [m])) with (lsel sys ls lu ++ [m])
      by (destruct sys; reflexivity).
    apply (QI_move _ _ _ _ _ _ _ _ _ Q Hp); cbn [holder qthr q_push_fin qlock]; rewrite ?Bool.eqb_reflx; auto.
    + exact (proj1 HQR).
    + intros j _ _ _. destruct (lsel sys ls lu); discriminate.
  - (* Pop: the emptiness check *)
    destruct (Z.eqb_spec (qlen (getq sys f)) 0) as [E|E]; inversion Hs; subst; clear Hs; cbn [negb]; exists ls, lu.
    + pose proof (QI_len_zero _ _ _ _ Q E) as El.
      assert (Hstep : step i (absl f ls lu) = Some (absl (fset_thr f (upd (fthr f) i (after_empty sys))) ls lu)).
      { destruct sys; cbn [lsel] in El; subst; coarse_step Hp; absl_eq. }
      split; [|exact Hstep]. split; [exact (step_inv _ _ _ Hi Hstep)| |apply (fbad_upd _ _ _ _ Hw Hp); destruct sys; reflexivity].
      intros b. apply (QI_same _ _ _ _ _ _ _ (Hq b) Hp); destruct sys; try reflexivity; exact I.
    + pose proof (absl_stutter sys f (getq sys f) i _ (FQLock sys) ls lu Hp ltac:(destruct sys; reflexivity)) as Ea.
      replace (setq sys f (getq sys f)) with f in Ea by (destruct f, sys; reflexivity).
      split; [|exact Ea]. split; [rewrite Ea; exact Hi| |exact (fbad_upd _ _ _ (FQLock sys) Hw Hp eq_refl)].
      intros b. apply (QI_same _ _ _ _ _ _ _ (Hq b) Hp); [reflexivity|]. cbn [qthr]. intros <- El.
      rewrite El in Ql. cbn [length] in Ql. lia.
  - (* Pop: Lock *)
    destruct (qlock (getq sys f)) eqn:Hfree; [discriminate|].
    pose proof (Qt i _ Hp eq_refl) as Hne. destruct (lsel sys ls lu) as [|a l'] eqn:El; [congruence|].
    destruct (QR_pop_pre _ _ _ (Qf eq_refl)) as (q1 & E & Hl1 & Hk1 & Hfin). rewrite E in Hs. inversion Hs; subst; clear Hs.
    exists ls, lu. pose proof (absl_stutter sys f q1 i _ (FQPopAdd sys (Some a)) ls lu Hp ltac:(destruct sys; reflexivity)) as Ea.
    split; [|exact Ea].
    apply (SR_queue sys f q1 i _ _ ls lu ls lu H Hp); cbn [holder qrel fbad]; auto. { rewrite Ea. exact Hi. }
    rewrite El. apply (QI_move _ _ _ _ _ _ _ _ _ Q Hp); cbn [holder qthr]; rewrite ?Bool.eqb_reflx; auto; try lia.
    intros _. exists a, l'. auto.
  - (* Pop: the atomic add = the coarse HSysPop / HUserPop step on a non-empty queue *)
    inversion Hs; subst; clear Hs. destruct (Qt i _ Hp eq_refl) as (a & l' & El & -> & HQR).
    pose proof (QI_holder_locked _ _ _ _ _ _ Q Hp (Bool.eqb_reflx sys)) as Hlock.
    exists (if sys then l' else ls), (if sys then lu else l').
    assert (Hstep : step i (absl f ls lu) =
                    Some (absl (fset_thr (setq sys f (q_pop_fin (getq sys f))) (upd (fthr f) i (FDec sys a)))
                               (if sys then l' else ls) (if sys then lu else l'))).
    { coarse_step Hp. destruct sys; cbn [lsel] in El; subst; unfold absl;
        cbn [fset_thr setq fstatus fpaused fnum fsysnum flog fthr apc]; rewrite map_upd; reflexivity. }
    split; [|exact Hstep].
    apply (SR_queue sys f _ i _ _ ls lu _ _ H Hp); cbn [holder qrel fbad]; auto; try (destruct sys; reflexivity).
    { exact (step_inv _ _ _ Hi Hstep). }
    replace (lsel sys (if sys then l' else ls) (if sys then lu else l')) with l' by (destruct sys; reflexivity).
    apply (QI_move _ _ _ _ _ _ _ _ _ Q Hp); cbn [holder qthr q_pop_fin qlock]; rewrite ?Bool.eqb_reflx; auto.
    + exact (proj1 HQR).
    + intros j Hne Hj. destruct (no_second_consumer _ _ _ _ _ _ _ H Hp Hne Hj).
Qed.

Lemma apc_env ths : forallb fenv_pc ths = true -> forallb env_pc (map apc ths) = true.
Proof.
  induction ths as [|p t IH]; cbn [forallb map]; intros H; [reflexivity|].
  apply andb_true_iff in H as [Hp Ht]. rewrite (IH Ht), andb_true_r. destruct p; try discriminate Hp; reflexivity.
Qed.

Lemma absl_init size ths : absl (finit size ths) [] [] = init (map apc ths).
Proof. unfold absl, finit, init. cbn [fstatus fpaused fnum fsysnum flog fthr]. rewrite !map_map. reflexivity. Qed.

Lemma SR_init size ths : (1 <= size)%nat -> forallb fenv_pc ths = true -> SR (finit size ths) [] [].
Proof.
  intros Hn He. split.
  - rewrite absl_init. apply init_inv, apc_env, He.
  - intros [|]; exact (QI_init _ size ths Hn He).
  - apply tally_none. intros i p Hi. cbn [finit fthr] in Hi. rewrite nth_error_map in Hi.
    destruct (nth_error ths i) as [k|] eqn:Hk; inversion Hi.
    pose proof (proj1 (forallb_forall _ _) He k (nth_error_In _ _ Hk)) as Hf. destruct k; try discriminate Hf; reflexivity.
Qed.

Lemma fstep_none_nth i f : nth_error (fthr f) i = None -> fstep i f = None.
Proof. intros H. unfold fstep. rewrite H. reflexivity. Qed.

Lemma sim_run sched : forall f ls lu, SR f ls lu ->
  exists ls' lu', SR (frun sched f) ls' lu' /\
    run (csched_of sched f) (absl f ls lu) = absl (frun sched f) ls' lu' /\
    run_trace (csched_of sched f) (absl f ls lu) = ctrace_of (frun_trace sched f).
Proof.
  induction sched as [|i r IH]; intros f ls lu H.
  - exists ls, lu. cbn. split; [exact H|]. split; reflexivity.
  - cbn [frun fold_left csched_of frun_trace]. fold (frun r (fstep_or_stay f i)). unfold fstep_or_stay.
    destruct (nth_error (fthr f) i) as [p|] eqn:Hp.
    + destruct (fstep i f) as [f1|] eqn:Hs.
      * destruct (sim_step _ _ _ _ _ _ H Hp Hs) as (ls1 & lu1 & H1 & Hc).
        destruct (IH f1 ls1 lu1 H1) as (ls' & lu' & HSR & Hrun & Htr).
        exists ls', lu'. split; [exact HSR|].
        unfold ctrace_of. cbn [flat_map fst snd]. fold (ctrace_of (frun_trace r f1)).
        destruct (stutter p f) eqn:St.
        -- cbn [app]. rewrite <- Hc. split; assumption.
        -- cbn [app]. rewrite run_cons. unfold step_or_stay. rewrite Hc. split; [exact Hrun|].
           cbn [run_trace]. rewrite Hc.
           assert (Hn : nth_error (thr (absl f ls lu)) i = Some (apc p)) by (cbn [absl thr]; exact (map_nth_error apc _ _ Hp)).
           rewrite Hn. f_equal. exact Htr.
      * exact (IH f ls lu H).
    + rewrite (fstep_none_nth _ _ Hp). exact (IH f ls lu H).
Qed.

Theorem fsim size ths sched : (1 <= size)%nat -> forallb fenv_pc ths = true ->
  let f0 := finit size ths in
  exists ls lu, SR (frun sched f0) ls lu /\
    run (csched_of sched f0) (init (map apc ths)) = absl (frun sched f0) ls lu /\
    run_trace (csched_of sched f0) (init (map apc ths)) = ctrace_of (frun_trace sched f0).
Proof.
  intros Hn He f0. destruct (sim_run sched f0 [] [] (SR_init size ths Hn He)) as (ls & lu & H & Hr & Ht).
  unfold f0 in *. rewrite absl_init in Hr, Ht. exists ls, lu. split; [exact H|]. split; assumption.
Qed.

Lemma freachable_SR f : freachable f -> exists ls lu, SR f ls lu /\ reachable (absl f ls lu).
Proof.
  intros (size & ths & sched & Hn & He & <-). destruct (fsim size ths sched Hn He) as (ls & lu & H & Hr & _).
  exists ls, lu. split; [exact H|]. rewrite <- Hr. apply reachable_run, apc_env, He.
Qed.
