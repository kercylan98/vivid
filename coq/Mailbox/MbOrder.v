(** Order theorems of the mailbox machine: FIFO per kind, system-before-user. *)
From Coq Require Import List ZArith Lia.
From Vivid Require Import Mailbox.MbModel Mailbox.MbSpec Mailbox.MbSpec2 Mailbox.MbPool Mailbox.MbInv.
Import ListNotations.
Local Open Scope Z_scope.

Lemma not_owner_no_held p : owner_pc p = false -> held_of p = [].
Proof. destruct p; cbn; congruence. Qed.

Lemma no_owner_no_held l : cnt owner_pc l = 0 -> flat_map held_of l = [].
Proof. intros H. apply flat_map_all_nil. intros i p Hp. exact (not_owner_no_held p (cnt_zero_nth _ _ H i p Hp)). Qed.

Lemma held_single l i p x : nth_error l i = Some p -> owner_pc p = true -> cnt owner_pc l = 1 ->
  flat_map held_of l = held_of p /\ flat_map held_of (upd l i x) = held_of x.
Proof.
  revert i. induction l as [|h t IH]; intros [|i] H Ho Hc; cbn [nth_error upd flat_map cnt] in *; try discriminate.
  - inversion H; subst. rewrite Ho in Hc. cbn [b2z] in Hc. rewrite no_owner_no_held by lia.
    rewrite !app_nil_r. split; reflexivity.
  - pose proof (cnt_pos H owner_pc Ho). unfold b2z in Hc. destruct (owner_pc h) eqn:E; [lia|].
    rewrite (not_owner_no_held h E). cbn [app]. apply IH; [exact H|exact Ho|lia].
Qed.

(** C02.6 FIFO *)
Definition qof (b : bool) (s : st) : list msg := if b then sq s else uq s.
Definition ksel (b : bool) (e : bool * msg) : list msg := if Bool.eqb (fst e) b then [snd e] else [].
Definition L (b : bool) (s : st) : list msg := flat_map (ksel b) (log s) ++ flat_map (ksel b) (held s) ++ qof b s.
Definition pushed (b : bool) (p : pc) : list msg :=
  match p with SPush b' m => if Bool.eqb b' b then [m] else [] | _ => [] end.

Lemma step_fifo b i s s' p : Inv s -> nth_error (thr s) i = Some p -> step i s = Some s' ->
  L b s' = L b s ++ pushed b p.
Proof.
  intros [Hwf Ho _ _ _ _] Hp Hs.
  pose proof (b2z_range (status s)) as Hb.
  step_cases Hwf Hs Hp.
  all: pose proof (cnt_pos Hp owner_pc) as Hop; cbn [owner_pc] in Hop.
  (* [L] = delivered ++ in the owner's hands ++ queued: a pop or a delivery only moves a border, a push appends. In order: the
     steps whose thread holds the same messages before and after ([flat_upd_same]); the owner's steps, the owner being the only
     thread that holds any ([held_single]); then the queue equations the step gave, and the two kinds *)
  all: unfold L, held, qof; cbn [thr set_thr sq uq log pushed]; rewrite ?flat_map_app; cbn [flat_map held_of app].
  all: try (rewrite (flat_upd_same held_of _ _ _ _ Hp) by reflexivity).
  all: try (specialize (Hop eq_refl);
            match goal with |- context [upd _ _ ?x] =>
              destruct (held_single _ _ _ x Hp eq_refl ltac:(lia)) as [Hh1 Hh2]; rewrite ?Hh1, ?Hh2 end).
  all: repeat match goal with H : _ = _ :> list _ |- _ => rewrite H in * end.
  all: destruct b; cbn [held_of flat_map ksel fst snd Bool.eqb app]; rewrite ?app_nil_r, <- ?app_assoc; cbn [app]; try reflexivity.
Qed.

Lemma run_fifo b sched s : Inv s -> L b (run sched s) = L b s ++ push_order b (run_trace sched s).
Proof.
  revert s. induction sched as [|i r IH]; intros s H; cbn [run fold_left run_trace].
  - cbn [push_order flat_map]. rewrite app_nil_r. reflexivity.
  - fold (run r (step_or_stay s i)). unfold step_or_stay.
    destruct (nth_error (thr s) i) as [p|] eqn:Hp.
    + destruct (step i s) as [s'|] eqn:Hs; [|exact (IH s H)].
      rewrite (IH s' (step_inv _ _ _ H Hs)), (step_fifo b _ _ _ _ H Hp Hs).
      unfold push_order. cbn [flat_map snd]. fold (pushed b p). rewrite <- app_assoc. reflexivity.
    + assert (Hs : step i s = None) by (unfold step; rewrite Hp; reflexivity). rewrite Hs. exact (IH s H).
Qed.

Theorem fifo b ths sched : forallb env_pc ths = true ->
  let s := run sched (init ths) in
  log_of b s ++ held_kind b s ++ (if b then sq s else uq s) = push_order b (run_trace sched (init ths)).
Proof.
  intros He s. pose proof (run_fifo b sched _ (init_inv _ He)) as H. fold s in H.
  assert (L0 : L b (init ths) = []).
  { unfold L, held. rewrite (no_owner_no_held _ (i_own _ (init_inv _ He))). destruct b; reflexivity. }
  rewrite L0 in H. cbn [app] in H. rewrite <- H. unfold L, qof, log_of, held_kind, ksel. reflexivity.
Qed.

Lemma run_trace2_fst sched s : map fst (run_trace2 sched s) = run_trace sched s.
Proof.
  revert s. induction sched as [|i r IH]; intros s; cbn [run_trace2 run_trace map]; [reflexivity|].
  destruct (nth_error (thr s) i); [|apply IH]. destruct (step i s); [|apply IH].
  cbn [map fst]. rewrite IH. reflexivity.
Qed.

Lemma step_none_of_nth i s : nth_error (thr s) i = None -> step i s = None.
Proof. intros H. unfold step. rewrite H. reflexivity. Qed.

Lemma run_cons i r s : run (i :: r) s = run r (step_or_stay s i).
Proof. reflexivity. Qed.
Lemma run_app a b s : run (a ++ b) s = run b (run a s).
Proof. exact (prun_app st step a b s). Qed.

Lemma run_trace2_split sched s A B : run_trace2 sched s = A ++ B ->
  exists sa sb, sched = sa ++ sb /\ run_trace2 sa s = A /\ run_trace2 sb (run sa s) = B.
Proof.
  revert s A. induction sched as [|i r IH]; intros s A H.
  - cbn [run_trace2] in H. symmetry in H. apply app_eq_nil in H as [-> ->]. exists [], []. repeat split.
  - destruct A as [|e A']; [exists [], (i :: r); repeat split; exact H|].
    cbn [run_trace2] in H. destruct (step i s) as [s'|] eqn:Hs.
    + destruct (step_nth _ _ _ Hs) as [p Hp]. rewrite Hp in H. inversion H as [[He Ht]].
      destruct (IH s' A' Ht) as (sa & sb & -> & Ha & Hb). exists (i :: sa), sb.
      rewrite run_cons. unfold step_or_stay. cbn [run_trace2]. rewrite Hp, Hs, Ha. repeat split. exact Hb.
    + assert (H' : run_trace2 r s = e :: A' ++ B) by (destruct (nth_error (thr s) i); exact H).
      destruct (IH s (e :: A') H') as (sa & sb & -> & Ha & Hb). exists (i :: sa), sb.
      rewrite run_cons. unfold step_or_stay. cbn [run_trace2]. rewrite Hs. repeat split; [|exact Hb].
      destruct (nth_error (thr s) i); exact Ha.
Qed.

Lemma run_trace2_head sb s0 i p s post : run_trace2 sb s0 = (i, p, s) :: post ->
  s = s0 /\ nth_error (thr s0) i = Some p /\ exists s' sb', step i s0 = Some s' /\ post = run_trace2 sb' s'.
Proof.
  induction sb as [|j r IH]; cbn [run_trace2]; intros H; [discriminate|].
  destruct (nth_error (thr s0) j) as [q|] eqn:Hq; [|exact (IH H)].
  destruct (step j s0) as [s'|] eqn:Hs; [|exact (IH H)].
  inversion H; subst. repeat split; [exact Hq|]. exists s', r. split; [exact Hs|reflexivity].
Qed.

Lemma run_trace2_app a b s : run_trace2 (a ++ b) s = run_trace2 a s ++ run_trace2 b (run a s).
Proof. exact (ptrace_app st pc thr step step_none_of_nth a b s). Qed.

Lemma trace_prefix sched s0 A e B : run_trace2 sched s0 = A ++ e :: B ->
  exists sa, run_trace2 sa s0 = A /\ run sa s0 = snd e /\ nth_error (thr (snd e)) (fst (fst e)) = Some (snd (fst e)) /\
  exists s' sb, step (fst (fst e)) (snd e) = Some s' /\ B = run_trace2 sb s'.
Proof.
  intros H. destruct (run_trace2_split _ _ _ _ H) as (sa & sb & -> & Ha & Hb).
  destruct e as [[i p] s]. destruct (run_trace2_head _ _ _ _ _ _ Hb) as (-> & Hp & s' & sb' & Hs & HB).
  exists sa. cbn [fst snd]. repeat split; try assumption. exists s', sb'. split; assumption.
Qed.

Lemma steps_of_snoc i tr j p s :
  steps_of i (tr ++ [(j, p, s)]) = steps_of i tr ++ (if Nat.eqb j i then [(p, s)] else []).
Proof. unfold steps_of. rewrite flat_map_app. cbn [flat_map fst snd]. rewrite app_nil_r. reflexivity. Qed.

(** the stepping thread moves to some [q], at most the processor is started, and the only ways into the window
    between the "system queue empty" observation and the user pop are these *)
Lemma step_thr j s s' p : cnt bad_pc (thr s) = 0 -> nth_error (thr s) j = Some p -> step j s = Some s' ->
  exists q sp, thr s' = upd (thr s) j q ++ sp /\ (forall x, In x sp -> x = Start HSysPop) /\
    (q = HLoadPaused -> p = HSysPop /\ sq s = []) /\ (q = HUserPop -> p = HLoadPaused /\ paused s = false).
Proof.
  intros Hwf Hp Hs. step_cases Hwf Hs Hp; cbn [thr set_thr];
    (eexists _, _; split; [(symmetry; apply app_nil_r) || reflexivity|]);
    (split; [intros x Hx; repeat destruct Hx as [Hx|Hx]; now subst|]); split; intros Hq; try discriminate Hq; auto.
Qed.

(** C02.7 system first *)
Definition SF (tr : list (nat * pc * st)) (s : st) : Prop :=
  forall i,
    (nth_error (thr s) i = Some HLoadPaused ->
       exists pre s1, steps_of i tr = pre ++ [(HSysPop, s1)] /\ sq s1 = []) /\
    (nth_error (thr s) i = Some HUserPop ->
       exists pre s1 s2, steps_of i tr = pre ++ [(HSysPop, s1); (HLoadPaused, s2)] /\ sq s1 = [] /\ paused s2 = false).

Lemma run_SF ths sched : forallb env_pc ths = true -> SF (run_trace2 sched (init ths)) (run sched (init ths)).
Proof.
  intros He. induction sched as [|j r IH] using rev_ind.
  - intros i. cbn [run fold_left init thr]. split; intros Hi; exfalso;
      apply nth_error_In in Hi; apply in_map_iff in Hi as (k & Hk & _); discriminate Hk.
  - pose proof (run_inv r _ (init_inv _ He)) as HI. rewrite run_trace2_app, run_app.
    set (s := run r (init ths)) in *. cbn [run_trace2 run fold_left]. unfold step_or_stay.
    destruct (nth_error (thr s) j) as [p|] eqn:Hp; [|rewrite (step_none_of_nth _ _ Hp), app_nil_r; exact IH].
    destruct (step j s) as [s'|] eqn:Hs; [|rewrite app_nil_r; exact IH].
    destruct (step_thr _ _ _ _ (i_wf _ HI) Hp Hs) as (q & sp & Et & Hsp & Hq1 & Hq2).
    destruct (nth_error_upd_app _ _ _ q sp Hp) as [Hj Ho]. rewrite <- Et in Hj, Ho.
    intros i. rewrite steps_of_snoc. destruct (Nat.eqb_spec j i) as [->|Hji].
    + split; intros Hi; rewrite Hj in Hi; inversion Hi; subst q.
      * destruct (Hq1 eq_refl) as [-> Hq]. exists (steps_of i (run_trace2 r (init ths))), s. split; [reflexivity|exact Hq].
      * destruct (Hq2 eq_refl) as [-> Hq]. destruct (proj1 (IH i) Hp) as (pre & s1 & E & Hs1).
        exists pre, s1, s. rewrite E, <- app_assoc. repeat split; assumption.
    + rewrite app_nil_r.
      split; intros Hi; (destruct (Ho i _ (not_eq_sym Hji) Hi) as [Hi'|Hin]; [|discriminate (Hsp _ Hin)]).
      * exact (proj1 (IH i) Hi').
      * exact (proj2 (IH i) Hi').
Qed.

Theorem system_first ths sched pre i s post : forallb env_pc ths = true ->
  run_trace2 sched (init ths) = pre ++ (i, HUserPop, s) :: post ->
  exists pre0 s1 s2, steps_of i pre = pre0 ++ [(HSysPop, s1); (HLoadPaused, s2)] /\ sq s1 = [] /\ paused s2 = false.
Proof.
  intros He H. destruct (trace_prefix _ _ _ _ _ H) as (sa & <- & Hr & Hp & _). cbn [fst snd] in *.
  rewrite <- Hr in Hp. exact (proj2 (run_SF ths sa He i) Hp).
Qed.

(** the window between the "system queue empty" observation and the user pop *)
Definition in_window (p : pc) : bool := match p with HLoadPaused | HUserPop => true | _ => false end.

Lemma window_le_owner l : cnt in_window l <= cnt owner_pc l.
Proof. apply cnt_le. intros p. destruct p; cbn; congruence. Qed.

Lemma step_window i s s' p : cnt bad_pc (thr s) = 0 -> nth_error (thr s) i = Some p -> step i s = Some s' ->
  sq s <> [] ->
  cnt in_window (thr s') + (if is_user_pop (i, p, s) then 1 else 0) <= cnt in_window (thr s).
Proof.
  intros Hwf Hp Hs Hne. unfold is_user_pop. cbn [fst snd].
  step_cases Hwf Hs Hp; try congruence;
    cnt_step Hp; cbn [cnt in_window b2z]; rewrite ?E; try destruct (uq s); lia.
Qed.

Lemma window_trace sb s : Inv s -> Forall (fun e => sq (snd e) <> []) (run_trace2 sb s) ->
  Z.of_nat (user_pops (run_trace2 sb s)) + cnt in_window (thr (run sb s)) <= cnt in_window (thr s).
Proof.
  revert s. induction sb as [|i r IH]; intros s HI HF; cbn [run_trace2] in *.
  - cbn. lia.
  - rewrite run_cons. unfold step_or_stay.
    destruct (nth_error (thr s) i) as [p|] eqn:Hp.
    + destruct (step i s) as [s'|] eqn:Hs; [|exact (IH s HI HF)].
      inversion HF as [|e l Hne HF']; subst. cbn [snd] in Hne.
      specialize (IH s' (step_inv _ _ _ HI Hs) HF').
      pose proof (step_window _ _ _ _ (i_wf _ HI) Hp Hs Hne) as Hw.
      unfold user_pops in *. cbn [filter]. destruct (is_user_pop (i, p, s)); cbn [length]; lia.
    + rewrite (step_none_of_nth _ _ Hp). exact (IH s HI HF).
Qed.

Theorem window_one_pop ths sched A B C : forallb env_pc ths = true ->
  run_trace2 sched (init ths) = A ++ B ++ C ->
  (forall e, In e B -> sq (snd e) <> []) -> (user_pops B <= 1)%nat.
Proof.
  intros He H HB.
  destruct (run_trace2_split _ _ _ _ H) as (sa & sb & -> & Ha & Hb).
  destruct (run_trace2_split _ _ _ _ Hb) as (sb1 & sb2 & -> & Hb1 & _).
  pose proof (run_inv sa _ (init_inv _ He)) as HI.
  assert (HF : Forall (fun e => sq (snd e) <> []) (run_trace2 sb1 (run sa (init ths)))).
  { rewrite Hb1. apply Forall_forall. exact HB. }
  pose proof (window_trace sb1 _ HI HF) as Hw. rewrite Hb1 in Hw.
  pose proof (window_le_owner (thr (run sa (init ths)))) as H1.
  pose proof (cnt_nonneg in_window (thr (run sb1 (run sa (init ths))))) as H2.
  pose proof (i_own _ HI) as Ho. unfold b2z in Ho. destruct (status (run sa (init ths))); lia.
Qed.

Theorem kill_overtakes ths sched A j m s0 B C : forallb env_pc ths = true ->
  run_trace2 sched (init ths) = A ++ (j, SPush true m, s0) :: B ++ C ->
  (forall e, In e B -> In m (sq (snd e))) -> (user_pops B <= 1)%nat.
Proof.
  intros He H HB. apply (window_one_pop ths sched (A ++ [(j, SPush true m, s0)]) B C He).
  - rewrite <- app_assoc. exact H.
  - intros e Hin Hnil. specialize (HB e Hin). rewrite Hnil in HB. destruct HB.
Qed.

Lemma pushed_is_queued ths sched A j m s0 e1 C :
  run_trace2 sched (init ths) = A ++ (j, SPush true m, s0) :: e1 :: C -> In m (sq (snd e1)).
Proof.
  intros H. destruct (trace_prefix _ _ _ _ _ H) as (_ & _ & _ & Hp & s' & sb & Hs & HB). cbn [fst snd] in *.
  destruct e1 as [[i1 p1] s1]. symmetry in HB. destruct (run_trace2_head _ _ _ _ _ _ HB) as (-> & _).
  cbn [snd]. unfold step in Hs. rewrite Hp in Hs. inversion Hs. cbn [sq set_thr]. apply in_or_app. right. left. reflexivity.
Qed.

Corollary fifo_prefix b ths sched : forallb env_pc ths = true ->
  exists rest, push_order b (run_trace sched (init ths)) = log_of b (run sched (init ths)) ++ rest.
Proof. intros He. eexists. symmetry. apply (fifo b ths sched He). Qed.
