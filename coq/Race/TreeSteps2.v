(** Race/TreeSteps2.v — preservation of the tree invariant by the life-cycle steps of an actor's own goroutine
    (kill, count, mark killed, resurrect, zombie, zombie release): each moves the goroutine of [a] on and rewrites at
    most the state word and the zombie flag of [a] ([inv_own]). *)
From Coq Require Import List NArith.
From Vivid Require Import Race.Tree Race.TreeInv.
Import ListNotations.
Local Open Scope N_scope.

Section Steps.
  Variable root : aid.
  Variable par : aid -> option aid.
  Variable path_of : aid -> apath.

  Notation Inv := (Inv root par path_of).
  Notation thr_ok := (thr_ok root par path_of).
  Notation tables := (tables root par path_of).
  Notation dead := (dead path_of).

  Section Own.
    Variables (s : tstate) (a : aid) (st' : aid -> ast) (zo' : aid -> bool) (pc' : thr -> tpc).
    Hypothesis Hst : forall b, b <> a -> st' b = t_st s b.
    Hypothesis Hzo : forall b, b <> a -> zo' b = t_zombie s b.
    Let s' := mkT (t_created s) (t_pub s) st' zo' (t_reg s) (t_children s) (t_notices s) pc' (t_lock s).

    Lemma dead_own b : dead s b -> b <> a -> dead s' b.
    Proof. intros (B1 & B2 & B3) Hb. unfold dead. cbn. rewrite Hst, Hzo by exact Hb. auto. Qed.

    (** another thread reads the state word of [a] only while spawning under [a], and then [a] is the root *)
    Lemma thr_ok_own rel x y : thr_ok s rel x y -> x <> Own a -> thr_ok s' rel x y.
    Proof.
      intros T Hx.
      assert (P : forall p c, spawning root par s x p c -> spawning root par s' x p c).
      { intros p c (A & B & C & D). repeat split; auto. intros Hp. cbn. rewrite Hst; [auto|]. intros ->.
        unfold lock_ok in C. destruct (N.eqb_spec a root); congruence. }
      destruct y as [|p c|p c|b|b|b]; cbn in *; try exact T.
      - destruct T as (A & B). auto.
      - destruct T as (A & B). auto.
      - destruct T as (-> & B & C & D & E). assert (b <> a) by congruence. rewrite Hst, Hzo by assumption. auto.
      - destruct T as (-> & B & C). split; [reflexivity|]. split; [exact B|]. apply dead_own; congruence.
    Qed.

    Lemma tables_own rel ins :
      tables s rel ins -> t_pub s a = true -> ~ dead s a ->
      (zo' a = true -> st' a = Killed) ->
      (a <> root -> st' a = Killed -> t_children s a = []) ->
      (a = root -> st' a <> Killed -> t_st s a <> Killed) ->
      tables s' rel ins.
    Proof.
      intros [Breg Bzom Bpub Bnot Bup Bdown Bdead] Hpub Hnd Hz Hk Hr.
      assert (ND : forall b, dead s b -> dead s' b) by (intros b Hb; apply dead_own; [exact Hb|intros ->; exact (Hnd Hb)]).
      split; try assumption; cbn.
      - intros b Hb. destruct (N.eq_dec b a) as [->|Hne]; [auto|]. rewrite Hst by exact Hne. rewrite Hzo in Hb by exact Hne. auto.
      - intros b Hb. destruct (Bpub b Hb) as [X1 X2]. split; [exact X1|]. intros Hbr. destruct (X2 Hbr); auto.
      - intros p c Hc. destruct (Bnot p c Hc) as (X1 & X2 & X3). auto.
      - intros p q c Hc. destruct (Bdown p q c Hc) as (X1 & X2 & X3). refine (conj X1 (conj X2 (fun Hp => X3 _))).
        destruct Hp as [Hp|Hp]; [left; exact Hp|]. destruct (N.eq_dec p a) as [->|Hne]; [|rewrite Hst in Hp by exact Hne; auto].
        destruct (N.eq_dec a root); auto.
      - intros p Hp Hk'. destruct (N.eq_dec p a) as [->|Hne]; [auto|]. rewrite Hst in Hk' by exact Hne. auto.
    Qed.
  End Own.

  (** the goroutine of [a], which is not dead, moves on from [x] to [v] and rewrites at most the state word and the zombie flag
      of [a]: what is left to show is what a zombie, a dead parent and a dead root must satisfy, and the obligation of [v] *)
  Lemma inv_own s a st' zo' pc' x v :
    Inv s ->
    (forall b, b <> a -> st' b = t_st s b) -> (forall b, b <> a -> zo' b = t_zombie s b) ->
    (forall y, y <> Own a -> pc' y = t_pc s y) -> pc' (Own a) = v ->
    t_pc s (Own a) = x -> stays x -> t_pub s a = true -> ~ dead s a ->
    (zo' a = true -> st' a = Killed) ->
    (a <> root -> st' a = Killed -> t_children s a = []) ->
    (a = root -> st' a <> Killed -> t_st s a <> Killed) ->
    let s' := mkT (t_created s) (t_pub s) st' zo' (t_reg s) (t_children s) (t_notices s) pc' (t_lock s) in
    thr_ok s' (released pc') (Own a) v -> Inv s'.
  Proof.
    intros [T B] Hst Hzo Hpc Hv Hx St Hpub Hnd Hz Hk Hr s' Ta.
    pose proof (released_keep _ _ _ _ Hx St Hpc) as R. pose proof (inserting_keep _ _ _ _ Hx St Hpc) as N.
    split.
    - intros y. cbn [t_pc s']. destruct (thr_eqb_spec y (Own a)) as [->|Hne]; [rewrite Hv; exact Ta|]. rewrite (Hpc y Hne).
      apply thr_ok_own with (a := a); [exact Hst|exact Hzo| |exact Hne]. exact (thr_ok_mono _ _ _ _ _ _ _ _ R (T y)).
    - apply tables_own with (a := a); try assumption. exact (tables_mono _ _ _ _ _ _ _ _ R N B).
  Qed.

  Lemma inv_LKill a s :
    Inv s -> t_pc s (Own a) = Idle -> t_pub s a = true -> t_st s a = Running ->
    Inv (mkT (t_created s) (t_pub s) (upd (t_st s) a Killing) (t_zombie s) (t_reg s) (t_children s) (t_notices s)
             (t_pc s) (t_lock s)).
  Proof.
    intros HI EI EP ES.
    apply (inv_own s a _ _ _ _ _ HI (upd_neq _ _ _) (fun _ _ => eq_refl) (fun _ _ => eq_refl) EI EI I EP); cbn; rewrite ?upd_eq.
    - intros (D & _). congruence.
    - intros Z. destruct (tb_zombie (inv_tab HI) a Z). congruence.
    - discriminate.
    - congruence.
    - exact I.
  Qed.

  Lemma inv_LCount a s :
    Inv s -> t_pc s (Own a) = Idle -> t_pub s a = true -> t_st s a <> Killed -> t_children s a = [] ->
    Inv (set_pc s (Own a) (Counted a)).
  Proof.
    intros HI EI EP EK EC. apply (inv_pc _ _ _ s (Own a) _ _ HI EI I).
    split; [reflexivity|]. split; [exact EP|]. intros Ha. split; [|exact EC].
    destruct (proj2 (tb_pub (inv_tab HI) a EP) Ha) as [R|(D & _)]; [exact R|contradiction].
  Qed.

  Lemma inv_LMark t a s :
    Inv s -> t_pc s t = Counted a -> t_st s a = Killing ->
    Inv (mkT (t_created s) (t_pub s) (upd (t_st s) a Killed) (t_zombie s) (t_reg s) (t_children s) (t_notices s)
             (updt (t_pc s) t (Releasing a)) (t_lock s)).
  Proof.
    intros HI EPC ES. pose proof (inv_thr HI t) as T. rewrite EPC in T. destruct T as (-> & Hpub & Ha).
    apply (inv_own s a _ _ _ _ _ HI (upd_neq _ _ _) (fun _ _ => eq_refl) (updt_neq _ _ _) (updt_eq _ _ _) EPC I Hpub); cbn; rewrite ?upd_eq.
    - intros (D & _). congruence.
    - reflexivity.
    - intros Hr _. apply Ha, Hr.
    - congruence.
    - repeat split; try tauto. destruct (t_zombie s a) eqn:Z; [|reflexivity]. destruct (tb_zombie (inv_tab HI) a Z). congruence.
  Qed.

  Lemma inv_LResurrect t a s :
    Inv s -> t_pc s t = Releasing a -> a <> root ->
    Inv (mkT (t_created s) (t_pub s) (upd (t_st s) a Running) (t_zombie s) (t_reg s) (t_children s) (t_notices s)
             (updt (t_pc s) t Idle) (t_lock s)).
  Proof.
    intros HI EPC HP. pose proof (inv_thr HI t) as T. rewrite EPC in T. destruct T as (-> & Hpub & Hreg & ES & EZ).
    apply (inv_own s a _ _ _ _ _ HI (upd_neq _ _ _) (fun _ _ => eq_refl) (updt_neq _ _ _) (updt_eq _ _ _) EPC I Hpub); cbn; rewrite ?upd_eq.
    - intros (_ & _ & D). exact (D (Hreg HP)).
    - congruence.
    - discriminate.
    - contradiction.
    - exact I.
  Qed.

  Lemma inv_LZombie t a s :
    Inv s -> t_pc s t = Releasing a -> a <> root ->
    Inv (mkT (t_created s) (t_pub s) (t_st s) (upd (t_zombie s) a true) (t_reg s) (t_children s) (t_notices s)
             (updt (t_pc s) t Idle) (t_lock s)).
  Proof.
    intros HI EPC HP. pose proof (inv_thr HI t) as T. rewrite EPC in T. destruct T as (-> & Hpub & Hreg & ES & EZ).
    apply (inv_own s a _ _ _ _ _ HI (fun _ _ => eq_refl) (upd_neq _ _ _) (updt_neq _ _ _) (updt_eq _ _ _) EPC I Hpub); cbn; rewrite ?upd_eq.
    - intros (_ & _ & D). exact (D (Hreg HP)).
    - intros _. exact ES.
    - exact (tb_dead (inv_tab HI) a).
    - exact (fun _ E => E).
    - exact I.
  Qed.

  Lemma inv_LZombieRelease a s :
    Inv s -> t_pc s (Own a) = Idle -> t_zombie s a = true ->
    Inv (mkT (t_created s) (t_pub s) (t_st s) (upd (t_zombie s) a false) (t_reg s) (t_children s) (t_notices s)
             (updt (t_pc s) (Own a) (Releasing a)) (t_lock s)).
  Proof.
    intros HI EI EZ. destruct (tb_zombie (inv_tab HI) a EZ) as [ES Hpub].
    apply (inv_own s a _ _ _ _ _ HI (fun _ _ => eq_refl) (upd_neq _ _ _) (updt_neq _ _ _) (updt_eq _ _ _) EI I Hpub); cbn; rewrite ?upd_eq.
    - intros (_ & D & _). congruence.
    - discriminate.
    - exact (tb_dead (inv_tab HI) a).
    - exact (fun _ E => E).
    - repeat split; try assumption. intros Ha. destruct (proj2 (tb_pub (inv_tab HI) a Hpub) Ha) as [R|(_ & D & _)]; [exact R|congruence].
  Qed.
End Steps.
