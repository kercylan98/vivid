(** C10 (actor tree): the tree invariant holds in every reachable state of the actor-tree machine (Race/Tree.v);
    what it says about the tables of the real code; the former witness of the stale root entry, now harmless. *)
From Coq Require Import List NArith Bool Lia.
From Vivid Require Import Race.Tree Race.TreeInv Race.TreeSteps1 Race.TreeSteps2 Race.TreeSteps3.
Import ListNotations.
Local Open Scope N_scope.

Section Main.
  Variable root : aid.
  Variable par : aid -> option aid.
  Variable path_of : aid -> apath.
  Hypothesis path_root : forall c, c <> root -> path_of c <> path_of root.
  Hypothesis par_root : par root = None.

  Notation step := (step_fn root par path_of).
  Notation Inv := (Inv root par path_of).
  Notation reachable := (treachable root par path_of).
  Notation reg' := (registered path_of).

  Lemma has_parent_not_root a : has_parent par a = true -> a <> root.
  Proof. intros H ->. unfold has_parent in H. rewrite par_root in H. discriminate. Qed.

  Lemma spawn_guard s t p :
    (if N.eqb p root then holds_lock s t else thr_eqb t (Own p) && t_pub s p) = true -> lock_ok root s t p.
  Proof.
    unfold lock_ok. destruct (N.eqb p root); [apply holds_lock_true|].
    destruct (thr_eqb_spec t (Own p)); [trivial|discriminate].
  Qed.

  (** by cases on the label and on every guard [step_fn] evaluates: each way to succeed is one of the steps of
      Race/TreeSteps*.v (or moves a thread back to [Idle] and writes nothing), with the guards read as propositions *)
  Lemma inv_step t l s s' : Inv s -> step t l s = Some s' -> Inv s'.
  Proof.
    intros HI H. destruct l; cbn [step_fn] in H;
      repeat match type of H with
             | match ?x with _ => _ end = _ => destruct x eqn:?; try discriminate H
             end;
      injection H as <-;
      repeat match goal with
             | E : _ && _ = true |- _ => apply andb_prop in E as [? ?]
             | E : negb _ = true |- _ => apply negb_true_iff in E
             | E : negb _ = false |- _ => apply negb_false_iff in E
             end.
    (* ErrorActorAlreadyExists, and the failed CAS of checkAndMarkKilled *)
    4, 10: eapply inv_pc; [exact HI|eassumption|exact I|exact I].
    (* every other label has its own lemma [inv_L<label>] (Race/TreeSteps1-3.v); the names after them only turn the boolean
       tests of [step_fn] into the premises of those lemmas *)
    all: eauto 6 using inv_LAcq, inv_LRel, inv_LSpCheck, inv_LSpRegister, inv_LSpInsert, inv_LKill, inv_LCount, inv_LMark,
      inv_LResurrect, inv_LZombie, inv_LZombieRelease, inv_LDereg, inv_LNotify, inv_LHandle, inv_LDrop,
      idle_eq, opt_aid_eqb_true, mem_In, killed_false, killed_true, running_true, killing_true, ch_empty_true, holds_lock_true,
      spawn_guard, has_parent_not_root.
  Qed.

  Lemma inv_run sched : forall s s', Inv s -> trun root par path_of sched s = Some s' -> Inv s'.
  Proof.
    induction sched as [|[t l] r IH]; cbn; intros s s' Hi H.
    - injection H as <-. exact Hi.
    - destruct (step t l s) as [s1|] eqn:E; [|discriminate]. eapply IH; [|exact H]. eapply inv_step; eassumption.
  Qed.

  Theorem inv_reachable s : reachable s -> Inv s.
  Proof. intros [sched H]. eapply inv_run; [apply inv_init|exact H]. Qed.

  (** the root is included since /repo b0e210b: the insertion into the child table re-checks the registration inside the
      same critical section *)
  Theorem tree_live_parent_always s p :
    reachable s -> p <> root \/ t_st s p <> Killed ->
    (forall q c, child_of s p q c ->
        path_of c = q /\ par c = Some p /\
        (reg' s c \/ t_pc s (Own c) = Released c \/ In c (t_notices s p))) /\
    (forall c, reg' s c -> par c = Some p ->
        child_of s p (path_of c) c \/ exists t, t_pc s t = SpRegistered p c).
  Proof.
    intros Hr Hp. destruct (inv_reachable s Hr) as [_ B]. split.
    - intros q c H. destruct (tb_down B p q c H) as (X1 & X2 & X3). exact (conj X1 (conj X2 (X3 Hp))).
    - intros c. exact (tb_up B c p).
  Qed.

  Theorem tree_nonroot_always s p :
    reachable s -> p <> root ->
    (forall q c, child_of s p q c ->
        path_of c = q /\ par c = Some p /\
        (reg' s c \/ t_pc s (Own c) = Released c \/ In c (t_notices s p))) /\
    (forall c, reg' s c -> par c = Some p ->
        child_of s p (path_of c) c \/ t_pc s (Own p) = SpRegistered p c) /\
    (forall c, reg' s c -> par c = Some p -> t_st s p <> Killed).
  Proof.
    intros Hr Hp. destruct (tree_live_parent_always s p Hr (or_introl Hp)) as [A B]. pose proof (inv_reachable s Hr) as [T Tb].
    assert (S : forall t c, t_pc s t = SpRegistered p c -> t = Own p /\ t_st s p <> Killed).
    { intros t c E. specialize (T t). rewrite E in T. destruct T as ((_ & _ & L & K) & _). unfold lock_ok in L.
      destruct (N.eqb_spec p root); [contradiction|auto]. }
    split; [exact A|]. split.
    - intros c H1 H2. destruct (B c H1 H2) as [D|[t D]]; [left; exact D|right]. destruct (S t c D) as [<- _]. exact D.
    - intros c H1 H2 HK. destruct (B c H1 H2) as [D|[t D]].
      + unfold child_of in D. rewrite (tb_dead Tb p Hp HK) in D. discriminate.
      + exact (proj2 (S t c D) HK).
  Qed.

  (** at quiescence nobody is [released] or [inserting]: the tables satisfy their invariant on their own *)
  Theorem tree_quiescent s : reachable s -> quiescent s -> tables root par path_of s (fun _ => False) (fun _ _ => False).
  Proof.
    intros Hr [Q1 _]. apply (tables_mono _ _ _ _ _ _ _ _) with (3 := inv_tab (inv_reachable s Hr)).
    - intros a R. unfold released in R. rewrite Q1 in R. discriminate.
    - intros p c [t R]. rewrite Q1 in R. discriminate.
  Qed.

  Theorem tree_live_parent_quiescent s p :
    reachable s -> quiescent s -> p <> root \/ t_st s p <> Killed -> tables_agree_at par path_of s p.
  Proof.
    intros Hr Q Hp. pose proof (tree_quiescent s Hr Q) as B. split.
    - intros q c H. destruct (tb_down B p q c H) as (X1 & X2 & X3). destruct (X3 Hp) as [F|[[]|F]]; [auto|].
      rewrite (proj2 Q) in F. destruct F.
    - intros c H1 H2. destruct (tb_up B c p H1 H2) as [D|[]]. exact D.
  Qed.

  Theorem tree_nonroot_quiescent s p :
    reachable s -> quiescent s -> p <> root -> tree_consistent_at par path_of s p.
  Proof.
    intros Hr Q Hp. destruct (tree_live_parent_quiescent s p Hr Q (or_introl Hp)) as [A B]. split; [exact A|]. split; [exact B|].
    intros HK c H1 H2. exact (proj2 (proj2 (tree_nonroot_always s p Hr Hp)) c H1 H2 HK).
  Qed.

  Theorem tree_all_always s :
    reachable s ->
    (forall q a, t_reg s q = Some a -> path_of a = q /\ a <> root) /\
    (forall c p, reg' s c -> par c = Some p ->
        child_of s p (path_of c) c \/ exists t, t_pc s t = SpRegistered p c) /\
    (forall p q c, child_of s p q c -> path_of c = q /\ par c = Some p).
  Proof.
    intros Hr. destruct (inv_reachable s Hr) as [_ B]. split; [exact (tb_reg B)|]. split; [exact (tb_up B)|].
    intros p q c H. destruct (tb_down B p q c H) as (X1 & X2 & _). auto.
  Qed.

  Theorem tree_root_quiescent_half s :
    reachable s -> quiescent s -> forall c, reg' s c -> par c = Some root -> child_of s root (path_of c) c.
  Proof.
    intros Hr Q c H1 H2. destruct (tb_up (tree_quiescent s Hr Q) c root H1 H2) as [D|[]]. exact D.
  Qed.

  Theorem tree_root_spawns_serialised s t t' c c' :
    reachable s ->
    t_pc s t = SpChecked root c \/ t_pc s t = SpRegistered root c ->
    t_pc s t' = SpChecked root c' \/ t_pc s t' = SpRegistered root c' -> t = t'.
  Proof.
    intros Hr H1 H2. destruct (inv_reachable s Hr) as [T _].
    assert (L : forall x d, t_pc s x = SpChecked root d \/ t_pc s x = SpRegistered root d -> lock_ok root s x root).
    { intros x d H. specialize (T x). destruct H as [H|H]; rewrite H in T; apply T. }
    exact (lock_ok_inj root s t t' root (L t c H1) (L t' c' H2)).
  Qed.

  Theorem tree_registration_stable s a :
    reachable s -> t_pub s a = true -> a <> root ->
    reg' s a \/ (t_st s a = Killed /\ t_zombie s a = false /\ ~ reg' s a).
  Proof. intros Hr H1 H2. destruct (inv_reachable s Hr) as [_ B]. exact (proj2 (tb_pub B a H1) H2). Qed.

  Theorem tree_registration_unique s c c' :
    reachable s ->
    t_pub s c = true -> t_pub s c' = true -> c <> root -> c' <> root -> path_of c = path_of c' -> c <> c' ->
    (t_st s c = Killed /\ ~ reg' s c) \/ (t_st s c' = Killed /\ ~ reg' s c').
  Proof.
    intros Hr P1 P2 R1 R2 Hp Hne.
    destruct (tree_registration_stable s c Hr P1 R1) as [A|(A1 & _ & A2)]; [|left; auto].
    destruct (tree_registration_stable s c' Hr P2 R2) as [B|(B1 & _ & B2)]; [|right; auto].
    exfalso. unfold registered in A, B. rewrite Hp in A. congruence.
  Qed.
End Main.

(** [w1_sched]: the schedule that used to leave a dead context in the root's table (finding C10-root-stale-child,
    repaired in /repo b0e210b), on the concrete instance of Race/Tree.v (root 0, contexts 1..15 top-level): external thread 1 is inside
    System.ActorOf between appendActorContext and the insertion; the new actor 1 is found through the registry and killed,
    terminates, deletes its registration and tells the root, which finds nothing to remove; then the spawner runs its
    critical section: insert, registration re-check, delete. *)

Lemma x_path_root : forall c, c <> x_root -> x_path c <> x_path x_root.
Proof.
  intros c Hc. unfold x_path, x_root in *. destruct (N.eqb_spec c 0); [contradiction|].
  rewrite N.eqb_refl. generalize (N.modulo (c - 1) 4095). intros m. lia.
Qed.

Definition w_run (sched : list (thr * lbl)) : tstate :=
  match trun x_root x_par x_path sched (tinit x_root) with Some s => s | None => tinit x_root end.
Definition w_ok (sched : list (thr * lbl)) : bool :=
  match trun x_root x_par x_path sched (tinit x_root) with Some _ => true | None => false end.
Lemma w_run_some sched : w_ok sched = true -> trun x_root x_par x_path sched (tinit x_root) = Some (w_run sched).
Proof. unfold w_ok, w_run. destruct (trun x_root x_par x_path sched (tinit x_root)); [reflexivity|discriminate]. Qed.

Definition w1_sched : list (thr * lbl) :=
  [ (Ext 1, LAcq); (Ext 1, LSpCheck 0 1); (Ext 1, LSpRegister);
    (Own 1, LKill); (Own 1, LCount); (Own 1, LMark); (Own 1, LDereg); (Own 1, LNotify);
    (Own 0, LHandle 1);
    (Ext 1, LSpInsert); (Ext 1, LRel) ].

Lemma w1_reachable : treachable x_root x_par x_path (w_run w1_sched).
Proof. exists w1_sched. apply w_run_some. vm_compute. reflexivity. Qed.

Ltac crush_var := repeat (match goal with |- context [match ?x with _ => _ end] => is_var x; destruct x end); reflexivity.

Lemma w1_quiescent : quiescent (w_run w1_sched).
Proof.
  split.
  - intros [n|a]; lazy.
    + crush_var.
    + crush_var.
  - intros p. lazy. crush_var.
Qed.

Lemma w1_repaired :
  ch_get 1 (t_children (w_run w1_sched) x_root) = None /\ t_reg (w_run w1_sched) (x_path 1) = None /\
  t_st (w_run w1_sched) 1 = Killed /\ t_st (w_run w1_sched) x_root = Running.
Proof. repeat split; vm_compute; reflexivity. Qed.

(** a non-trivial quiescent reachable state with a three-level tree (root 0 - 1 - 16), for the Examples *)
Definition e_sched : list (thr * lbl) :=
  [ (Ext 7, LAcq); (Ext 7, LSpCheck 0 1); (Ext 7, LSpRegister); (Ext 7, LSpInsert); (Ext 7, LRel);
    (Own 1, LSpCheck 1 16); (Own 1, LSpRegister); (Own 1, LSpInsert) ].
Definition e_state : tstate := w_run e_sched.
Lemma e_reachable : treachable x_root x_par x_path e_state.
Proof. exists e_sched. apply w_run_some. vm_compute. reflexivity. Qed.
Lemma e_quiescent : quiescent e_state.
Proof.
  split.
  - intros [n|a]; lazy.
    + crush_var.
    + crush_var.
  - intros p. lazy. crush_var.
Qed.
