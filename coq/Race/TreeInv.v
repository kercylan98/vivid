(** The inductive invariant of the actor-tree machine (Race/Tree.v), for EVERY root, parent function, path
    function, number of actors and threads and EVERY schedule, with the facts about the machine's tables that its
    preservation (Race/TreeSteps*.v) rests on.

    Shape of the invariant. A program counter is an obligation of its own thread ([thr_ok]: what the thread has established
    and will rely on at its next step). The tables ([tables]) need to know of the program counters only which contexts have
    deleted their registration and not yet told the parent ([released]) and which are registered and not yet inserted into
    the parent's table ([inserting]); both occur positively only, so [tables] is stated over two predicates in their place
    and is monotone in them. A step that moves a thread on without leaving one of those two positions therefore keeps
    [tables] as it is, and every other thread's obligation ([inv_move]). *)
From Coq Require Import List NArith Bool.
From Vivid Require Import Race.Tree.
Import ListNotations.
Local Open Scope N_scope.

Lemma thr_eqb_spec x y : reflect (x = y) (thr_eqb x y).
Proof.
  destruct x as [n|a], y as [m|b]; cbn; try (constructor; discriminate).
  - destruct (N.eqb_spec n m); constructor; congruence.
  - destruct (N.eqb_spec a b); constructor; congruence.
Qed.

Lemma upd_eq {A} (f : N -> A) k v : upd f k v k = v.
Proof. unfold upd. rewrite N.eqb_refl. reflexivity. Qed.
Lemma upd_neq {A} (f : N -> A) k v x : x <> k -> upd f k v x = f x.
Proof. unfold upd. intros H. destruct (N.eqb_spec x k); congruence. Qed.
Lemma upd_true f k x : f x = true -> upd f k true x = true.
Proof. intros H. unfold upd. destruct (N.eqb x k); [reflexivity|exact H]. Qed.
Lemma updt_eq f t v : updt f t v t = v.
Proof. unfold updt. destruct (thr_eqb_spec t t); congruence. Qed.
Lemma updt_neq f t v x : x <> t -> updt f t v x = f x.
Proof. unfold updt. intros H. destruct (thr_eqb_spec x t); congruence. Qed.
Lemma updt_all (P : thr -> tpc -> Prop) f t v : P t v -> (forall x, x <> t -> P x (f x)) -> forall x, P x (updt f t v x).
Proof.
  intros Ht Ho x. destruct (thr_eqb_spec x t) as [->|Hx]; [rewrite updt_eq; exact Ht|rewrite updt_neq by exact Hx; exact (Ho x Hx)].
Qed.

Lemma ch_get_nil q : ch_get q [] = None.
Proof. reflexivity. Qed.

Lemma find_filter_neq q q' (l : ctab) :
  q <> q' ->
  find (fun e => N.eqb (fst e) q) (filter (fun e => negb (N.eqb (fst e) q')) l) = find (fun e => N.eqb (fst e) q) l.
Proof.
  intros Hne. induction l as [|[k v] r IH]; cbn [filter find fst]; [reflexivity|].
  destruct (N.eqb_spec k q'); cbn [negb].
  - subst. destruct (N.eqb_spec q' q); [congruence|]. exact IH.
  - cbn [find fst]. rewrite IH. reflexivity.
Qed.

Lemma ch_get_del_eq q l : ch_get q (ch_del q l) = None.
Proof.
  unfold ch_get, ch_del. induction l as [|[k v] r IH]; cbn [filter find fst]; [reflexivity|].
  destruct (N.eqb_spec k q); cbn [negb]; [exact IH|]. cbn [find fst].
  destruct (N.eqb_spec k q); [congruence|]. exact IH.
Qed.
Lemma ch_get_del_neq q q' l : q <> q' -> ch_get q (ch_del q' l) = ch_get q l.
Proof. intros H. unfold ch_get, ch_del. rewrite find_filter_neq by exact H. reflexivity. Qed.
Lemma ch_get_set_eq q c l : ch_get q (ch_set q c l) = Some c.
Proof. unfold ch_get, ch_set. cbn [find fst]. rewrite N.eqb_refl. reflexivity. Qed.
Lemma ch_get_set_neq q q' c l : q <> q' -> ch_get q (ch_set q' c l) = ch_get q l.
Proof.
  intros H. unfold ch_get, ch_set. cbn [find fst]. destruct (N.eqb_spec q' q); [congruence|].
  fold (ch_del q' l). fold (ch_get q (ch_del q' l)). fold (ch_get q l). apply ch_get_del_neq. exact H.
Qed.

Lemma opt_aid_eqb_true o a : opt_aid_eqb o a = true -> o = Some a.
Proof. destruct o as [x|]; cbn; [|discriminate]. intros H. apply N.eqb_eq in H. congruence. Qed.
Lemma opt_aid_eqb_some a : opt_aid_eqb (Some a) a = true.
Proof. cbn. apply N.eqb_refl. Qed.

Lemma mem_In c l : mem c l = true -> In c l.
Proof. unfold mem. rewrite existsb_exists. intros [x [Hin H]]. apply N.eqb_eq in H. subst. exact Hin. Qed.
Lemma In_mem c l : In c l -> mem c l = true.
Proof. intros H. unfold mem. rewrite existsb_exists. exists c. split; [exact H|apply N.eqb_refl]. Qed.
Lemma In_remove1 x c l : In x (remove1 c l) -> In x l.
Proof. induction l as [|y r IH]; cbn; [tauto|]. destruct (N.eqb y c); cbn; tauto. Qed.
Lemma In_remove1_neq x c l : In x l -> x <> c -> In x (remove1 c l).
Proof. induction l as [|y r IH]; cbn; [tauto|]. destruct (N.eqb_spec y c); cbn; intuition congruence. Qed.

Section Tables.
  Variable path_of : aid -> apath.

  Lemma rmch_get_sub c l q x : ch_get q (remove_child path_of c l) = Some x -> ch_get q l = Some x.
  Proof.
    unfold remove_child. destruct (opt_aid_eqb (ch_get (path_of c) l) c) eqn:E; [|tauto].
    destruct (N.eq_dec q (path_of c)) as [->|Hne].
    - rewrite ch_get_del_eq. discriminate.
    - rewrite ch_get_del_neq by exact Hne. tauto.
  Qed.
  Lemma rmch_get_self c l : ch_get (path_of c) (remove_child path_of c l) <> Some c.
  Proof.
    unfold remove_child. destruct (opt_aid_eqb (ch_get (path_of c) l) c) eqn:E.
    - rewrite ch_get_del_eq. discriminate.
    - intros H. rewrite H, opt_aid_eqb_some in E. discriminate.
  Qed.
  Lemma rmch_get_other c l q x : ch_get q l = Some x -> x <> c -> ch_get q (remove_child path_of c l) = Some x.
  Proof.
    intros H Hne. unfold remove_child. destruct (opt_aid_eqb (ch_get (path_of c) l) c) eqn:E; [|exact H].
    apply opt_aid_eqb_true in E. destruct (N.eq_dec q (path_of c)) as [->|Hq].
    - congruence.
    - rewrite ch_get_del_neq by exact Hq. exact H.
  Qed.

  Lemma insert_child_other c r l q : q <> path_of c -> ch_get q (insert_child path_of c r l) = ch_get q l.
  Proof. intros H. unfold insert_child. destruct (opt_aid_eqb r c); [apply ch_get_set_neq|apply ch_get_del_neq]; exact H. Qed.
  Lemma insert_child_self c r l x : ch_get (path_of c) (insert_child path_of c r l) = Some x -> x = c /\ r = Some c.
  Proof.
    unfold insert_child. destruct (opt_aid_eqb r c) eqn:E.
    - rewrite ch_get_set_eq. apply opt_aid_eqb_true in E. split; congruence.
    - rewrite ch_get_del_eq. discriminate.
  Qed.
  Lemma insert_child_reg c l : ch_get (path_of c) (insert_child path_of c (Some c) l) = Some c.
  Proof. unfold insert_child. rewrite opt_aid_eqb_some. apply ch_get_set_eq. Qed.

  Lemma reg_add_old (rg : apath -> option aid) c b :
    rg (path_of c) = None -> rg (path_of b) = Some b -> upd rg (path_of c) (Some c) (path_of b) = Some b.
  Proof. intros Hc Hb. rewrite upd_neq; [exact Hb|]. intros E. rewrite E in Hb. congruence. Qed.
  Lemma reg_add_inv (rg : apath -> option aid) c b :
    upd rg (path_of c) (Some c) (path_of b) = Some b -> b = c \/ rg (path_of b) = Some b.
  Proof. unfold upd. destruct (N.eqb (path_of b) (path_of c)); [left; congruence|right; assumption]. Qed.
  Lemma reg_del_inv (rg : apath -> option aid) a b : upd rg (path_of a) None (path_of b) = Some b -> rg (path_of b) = Some b.
  Proof. unfold upd. destruct (N.eqb (path_of b) (path_of a)); [discriminate|trivial]. Qed.
End Tables.

Lemma idle_eq x : is_idle x = true -> x = Idle.
Proof. destruct x; try discriminate; reflexivity. Qed.
Lemma killed_true x : is_killed x = true -> x = Killed.
Proof. destruct x; try discriminate; reflexivity. Qed.
Lemma killed_false x : is_killed x = false -> x <> Killed.
Proof. intros H ->. discriminate. Qed.
Lemma running_true x : is_running x = true -> x = Running.
Proof. destruct x; try discriminate; reflexivity. Qed.
Lemma killing_true x : is_killing x = true -> x = Killing.
Proof. destruct x; try discriminate; reflexivity. Qed.
Lemma ch_empty_true l : ch_empty l = true -> l = [].
Proof. destruct l; [reflexivity|discriminate]. Qed.
Lemma holds_lock_true s t : holds_lock s t = true -> t_lock s = Some t.
Proof. unfold holds_lock. destruct (t_lock s) as [h|]; [|discriminate]. destruct (thr_eqb_spec h t); [congruence|discriminate]. Qed.

Section Proofs.
  Variable root : aid.
  Variable par : aid -> option aid.
  Variable path_of : aid -> apath.

  Notation reg' := (registered path_of).

  Definition dead (s : tstate) (a : aid) : Prop := t_st s a = Killed /\ t_zombie s a = false /\ ~ reg' s a.
  (** Context.ActorOf of the root runs under actorOfLock, that of any other parent on the parent's goroutine *)
  Definition lock_ok (s : tstate) (t : thr) (p : aid) : Prop := if N.eqb p root then t_lock s = Some t else t = Own p.

  Definition released (pc : thr -> tpc) (a : aid) : Prop := pc (Own a) = Released a.
  Definition inserting (pc : thr -> tpc) (p c : aid) : Prop := exists t, pc t = SpRegistered p c.

  (** the entry [c] of [p]'s table is not garbage: [c] is still registered, or has released its path and is about to tell [p]
      ([rel], the pc [Released]), or its notice waits at [p], whose [LHandle] removes the entry *)
  Definition backed (s : tstate) (rel : aid -> Prop) (p c : aid) : Prop := reg' s c \/ rel c \/ In c (t_notices s p).

  (** last clause: a parent other than the root spawns on its own goroutine, so it cannot be marked [Killed] under a spawn in
      flight; the root's spawn runs on the caller's goroutine under actorOfLock and the root may die meanwhile *)
  Definition spawning (s : tstate) (t : thr) (p c : aid) : Prop :=
    par c = Some p /\ c <> root /\ lock_ok s t p /\ (p <> root -> t_st s p <> Killed).

  (** [SpRegistered], last clause: the slot that [LSpInsert] writes or clears holds no other registered child of [p].
      [Counted]: the table was seen empty and only [Own a] could refill it. [Releasing]/[Released]: before / after the Delete *)
  Definition thr_ok (s : tstate) (rel : aid -> Prop) (t : thr) (x : tpc) : Prop :=
    match x with
    | Idle => True
    | SpChecked p c => spawning s t p c /\ t_created s c = true /\ t_pub s c = false
    | SpRegistered p c =>
        spawning s t p c /\ (p <> root -> backed s rel p c) /\
        (forall c', reg' s c' -> par c' = Some p -> path_of c' = path_of c -> c' = c)
    | Counted a => t = Own a /\ t_pub s a = true /\ (a <> root -> reg' s a /\ t_children s a = [])
    | Releasing a => t = Own a /\ t_pub s a = true /\ (a <> root -> reg' s a) /\ t_st s a = Killed /\ t_zombie s a = false
    | Released a => t = Own a /\ t_pub s a = true /\ dead s a
    end.

  (** [tb_up]/[tb_down] tie registry and child tables in both directions. The guard of [tb_down] and the [p <> root] of
      [tb_dead] leave out the dead root only: a spawn under actorOfLock can insert after the root died, and a killed parent
      consumes notices without removeChild ([LDrop]), so that entry may stay unbacked (Properties/C10.v, "_partial") *)
  Record tables (s : tstate) (rel : aid -> Prop) (ins : aid -> aid -> Prop) : Prop := mkTables {
    tb_reg : forall q a, t_reg s q = Some a -> path_of a = q /\ a <> root;
    tb_zombie : forall a, t_zombie s a = true -> t_st s a = Killed /\ t_pub s a = true;
    tb_pub : forall a, t_pub s a = true -> t_created s a = true /\ (a <> root -> reg' s a \/ dead s a);
    tb_notice : forall p c, In c (t_notices s p) -> par c = Some p /\ t_pub s c = true /\ dead s c;
    tb_up : forall c p, reg' s c -> par c = Some p -> child_of s p (path_of c) c \/ ins p c;
    tb_down : forall p q c, child_of s p q c ->
                path_of c = q /\ par c = Some p /\ (p <> root \/ t_st s p <> Killed -> backed s rel p c);
    tb_dead : forall p, p <> root -> t_st s p = Killed -> t_children s p = [] }.

  Record Inv (s : tstate) : Prop := mkInv {
    inv_thr : forall t, thr_ok s (released (t_pc s)) t (t_pc s t);
    inv_tab : tables s (released (t_pc s)) (inserting (t_pc s)) }.

  Lemma inv_init : Inv (tinit root).
  Proof.
    split; [exact (fun _ => I)|]. split; cbn; try discriminate; try contradiction.
    intros a H. split; [exact H|]. intros Ha. apply N.eqb_eq in H. contradiction.
  Qed.

  Lemma lock_ok_inj s t t' p : lock_ok s t p -> lock_ok s t' p -> t = t'.
  Proof. unfold lock_ok. destruct (N.eqb p root); congruence. Qed.

  Lemma backed_mono s (rel rel' : aid -> Prop) p c : (forall a, rel a -> rel' a) -> backed s rel p c -> backed s rel' p c.
  Proof. intros R [F|[F|F]]; [left; exact F|right; left; exact (R c F)|right; right; exact F]. Qed.
  Lemma thr_ok_mono s (rel rel' : aid -> Prop) t x : (forall a, rel a -> rel' a) -> thr_ok s rel t x -> thr_ok s rel' t x.
  Proof.
    intros R. destruct x; try exact (fun H => H). intros (A & B & C). split; [exact A|]. split; [|exact C].
    intros Hp. exact (backed_mono _ _ _ _ _ R (B Hp)).
  Qed.
  Lemma tables_mono s (rel rel' : aid -> Prop) (ins ins' : aid -> aid -> Prop) :
    (forall a, rel a -> rel' a) -> (forall p c, ins p c -> ins' p c) -> tables s rel ins -> tables s rel' ins'.
  Proof.
    intros R N [Breg Bzom Bpub Bnot Bup Bdown Bdead]. split; try assumption.
    - intros c p H1 H2. destruct (Bup c p H1 H2); auto.
    - intros p q c H. destruct (Bdown p q c H) as (X1 & X2 & X3). split; [exact X1|]. split; [exact X2|].
      intros Hp. exact (backed_mono _ _ _ _ _ R (X3 Hp)).
  Qed.

  Definition stays (x : tpc) : Prop := match x with Released _ | SpRegistered _ _ => False | _ => True end.

  Section Move.
    Variables (pc pc' : thr -> tpc) (t : thr) (x : tpc).
    Hypothesis Hx : pc t = x.
    Hypothesis St : stays x.
    Hypothesis Hpc : forall y, y <> t -> pc' y = pc y.

    Lemma released_keep a : released pc a -> released pc' a.
    Proof. unfold released. intros R. rewrite Hpc; [exact R|]. intros E. rewrite <- Hx, <- E, R in St. exact St. Qed.
    Lemma inserting_keep p c : inserting pc p c -> inserting pc' p c.
    Proof. intros [y R]. exists y. rewrite Hpc; [exact R|]. intros E. rewrite <- Hx, <- E, R in St. exact St. Qed.
  End Move.

  Lemma inv_move s t x v :
    Inv s -> t_pc s t = x -> stays x ->
    (forall y, thr_ok s (released (updt (t_pc s) t v)) y (t_pc s y)) /\
    tables s (released (updt (t_pc s) t v)) (inserting (updt (t_pc s) t v)).
  Proof.
    intros [T B] Hx St.
    pose proof (fun a => released_keep _ _ t x Hx St (updt_neq _ t v) a) as R. split.
    - intros y. exact (thr_ok_mono _ _ _ _ _ R (T y)).
    - exact (tables_mono _ _ _ _ _ R (fun p c => inserting_keep _ _ t x Hx St (updt_neq _ t v) p c) B).
  Qed.

  Lemma inv_pc s t x v :
    Inv s -> t_pc s t = x -> stays x -> thr_ok s (released (updt (t_pc s) t v)) t v -> Inv (set_pc s t v).
  Proof.
    intros HI Hx St Tt. destruct (inv_move s t x v HI Hx St) as [T [Breg Bzom Bpub Bnot Bup Bdown Bdead]]. split.
    - cbn [t_pc set_pc]. apply updt_all; [exact Tt|]. intros y _. exact (T y).
    - split; assumption.
  Qed.
End Proofs.

Arguments tb_reg {root par path_of s rel ins}.
Arguments tb_zombie {root par path_of s rel ins}.
Arguments tb_pub {root par path_of s rel ins}.
Arguments tb_notice {root par path_of s rel ins}.
Arguments tb_up {root par path_of s rel ins}.
Arguments tb_down {root par path_of s rel ins}.
Arguments tb_dead {root par path_of s rel ins}.
Arguments inv_thr {root par path_of s}.
Arguments inv_tab {root par path_of s}.
