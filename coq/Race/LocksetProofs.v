(** C10: soundness of the lock-set discipline for the access machine of
    Race/Lockset.v: for EVERY table and EVERY population of threads (thread ids, object instances
    and schedules are universally quantified; a thread's program is any sequence of enabled steps). *)
From Coq Require Import List NArith Bool.
From Vivid Require Import Race.Lockset.
Import ListNotations.
Local Open Scope N_scope.

Lemma has_lock_In l m a : has_lock l m a = true -> In (l, m) (a_locks a).
Proof.
  unfold has_lock. rewrite existsb_exists. intros [[l' m'] [Hin H]]. cbn in H.
  apply andb_true_iff in H as [H1 H2]. apply N.eqb_eq in H1. subst l'.
  destruct m, m'; cbn in H2; try discriminate; exact Hin.
Qed.

Lemma at_loc_In x T a : In a T -> a_loc a = x -> In a (at_loc x T).
Proof. intros Hin He. unfold at_loc. apply filter_In. split; [exact Hin|]. apply N.eqb_eq. exact He. Qed.

Definition inv (T : list access) (s : state) : Prop :=
  (forall t t' l i, st_locks s t l i = Some Excl -> t' <> t -> st_locks s t' l i = None) /\
  (forall t i a, st_flight s t = Some (i, a) -> In a T /\ annotations_hold s t i a).

Lemma inv_init T : inv T init.
Proof. split; cbn; intros; discriminate. Qed.

Lemma upd_locks_cases f t l i v t' l' i' :
  t' = t /\ l' = l /\ i' = i /\ upd_locks f t l i v t' l' i' = v \/
  (t' <> t \/ l' <> l \/ i' <> i) /\ upd_locks f t l i v t' l' i' = f t' l' i'.
Proof. unfold upd_locks. destruct (N.eqb_spec t' t), (N.eqb_spec l' l), (N.eqb_spec i' i); cbn; auto 7. Qed.

(** one lemma for the three lock steps: [v = Some Excl] (Lock), [Some Shared] (RLock), [None] (release) *)
Lemma excl_upd (L : tid -> N -> inst -> option lmode) t l i v :
  (forall t1 t' l1 i1, L t1 l1 i1 = Some Excl -> t' <> t1 -> L t' l1 i1 = None) ->
  (v = Some Excl -> forall t', L t' l i = None) -> (v = Some Shared -> forall t', L t' l i <> Some Excl) ->
  forall t1 t' l1 i1, upd_locks L t l i v t1 l1 i1 = Some Excl -> t' <> t1 -> upd_locks L t l i v t' l1 i1 = None.
Proof.
  intros I1 Hx Hs t1 t' l1 i1 H Hne.
  destruct (upd_locks_cases L t l i v t' l1 i1) as [(-> & -> & -> & E')|[_ E']]; rewrite E'.
  - destruct (upd_locks_cases L t l i v t1 l i) as [(E1 & _)|[_ E]]; [congruence|]. rewrite E in H.
    destruct v as [[|]|]; [destruct (Hs eq_refl t1 H)|rewrite (Hx eq_refl t1) in H; discriminate|reflexivity].
  - destruct (upd_locks_cases L t l i v t1 l1 i1) as [(-> & -> & -> & E)|[_ E]]; rewrite E in H; [exact (Hx H t')|].
    exact (I1 t1 t' l1 i1 H Hne).
Qed.

Section Frame.
  Variables (s : state) (t1 : tid) (i1 : inst) (a : access).

  Lemma ann_locks t l i v :
    t1 <> t -> annotations_hold s t1 i1 a ->
    annotations_hold (mkState (upd_locks (st_locks s) t l i v) (st_owner s) (st_event s) (st_flight s)) t1 i1 a.
  Proof.
    intros Hne (A & B). split; [|exact B]. intros l1 m H. specialize (A l1 m H). unfold holds in *. cbn [st_locks].
    destruct (upd_locks_cases (st_locks s) t l i v t1 l1 i1) as [(E & _)|[_ E]]; [contradiction|rewrite E; exact A].
  Qed.

  Lemma ann_owner i v :
    st_owner s i <> Some t1 -> annotations_hold s t1 i1 a ->
    annotations_hold (mkState (st_locks s) (upd_owner (st_owner s) i v) (st_event s) (st_flight s)) t1 i1 a.
  Proof.
    intros Hne (A & B & C). split; [exact A|]. split; [|exact C]. intros H. specialize (B H). cbn. unfold upd_owner.
    destruct (N.eqb_spec i1 i) as [->|]; [contradiction|exact B].
  Qed.

  Lemma ann_event e i v :
    (st_event s e i = EClaimed t1 \/ st_event s e i = EFired -> v = st_event s e i) -> annotations_hold s t1 i1 a ->
    annotations_hold (mkState (st_locks s) (st_owner s) (upd_event (st_event s) e i v) (st_flight s)) t1 i1 a.
  Proof.
    intros Hv (A & B & C). split; [exact A|]. split; [exact B|]. cbn. unfold upd_event.
    destruct (a_phase a) as [|e1|e1]; [exact I|..]; destruct (N.eqb_spec e1 e) as [->|]; cbn; try exact C;
      destruct (N.eqb_spec i1 i) as [->|]; try exact C; rewrite Hv; auto.
  Qed.
End Frame.

Lemma flight_frame T s t L O E :
  (forall t1 i a, st_flight s t1 = Some (i, a) -> In a T /\ annotations_hold s t1 i a) -> st_flight s t = None ->
  (forall t1 i a, t1 <> t -> annotations_hold s t1 i a -> annotations_hold (mkState L O E (st_flight s)) t1 i a) ->
  forall t1 i a, st_flight s t1 = Some (i, a) -> In a T /\ annotations_hold (mkState L O E (st_flight s)) t1 i a.
Proof.
  intros I2 Hfl Ha t1 i a H. destruct (I2 t1 i a H) as [Hin Hann]. split; [exact Hin|].
  apply Ha; [|exact Hann]. intros ->. congruence.
Qed.

Lemma inv_step T s s' t : inv T s -> step T t s s' -> inv T s'.
Proof.
  intros [I1 I2] Hst. destruct Hst as
    [s l i Hfl Hfree | s l i Hfl Hnox | s l i Hfl | s i Hfl Hnone | s i Hfl Hown
     | s e i Hfl Hun | s e i Hfl Hcl | s i a Hin Hfl Hann | s Hfl].
  - split; [apply excl_upd; [exact I1|intros _; exact Hfree|discriminate]|].
    apply (flight_frame T s t _ _ _ I2 Hfl). intros t1 i1 a. apply ann_locks.
  - split; [apply excl_upd; [exact I1|discriminate|intros _; exact Hnox]|].
    apply (flight_frame T s t _ _ _ I2 Hfl). intros t1 i1 a. apply ann_locks.
  - split; [apply excl_upd; [exact I1|discriminate..]|].
    apply (flight_frame T s t _ _ _ I2 Hfl). intros t1 i1 a. apply ann_locks.
  - split; [exact I1|]. apply (flight_frame T s t _ _ _ I2 Hfl). intros t1 i1 a _. apply ann_owner. congruence.
  - split; [exact I1|]. apply (flight_frame T s t _ _ _ I2 Hfl). intros t1 i1 a Hne. apply ann_owner. congruence.
  - split; [exact I1|]. apply (flight_frame T s t _ _ _ I2 Hfl). intros t1 i1 a _. apply ann_event.
    rewrite Hun. intros [H|H]; discriminate.
  - split; [exact I1|]. apply (flight_frame T s t _ _ _ I2 Hfl). intros t1 i1 a Hne. apply ann_event.
    rewrite Hcl. intros [H|H]; [congruence|discriminate].
  - split; [exact I1|]. intros t1 i1 a1 H. cbn in H. unfold upd_flight in H. destruct (N.eqb_spec t1 t) as [->|].
    + injection H as -> ->. exact (conj Hin Hann).
    + exact (I2 t1 i1 a1 H).
  - split; [exact I1|]. intros t1 i1 a1 H. cbn in H. unfold upd_flight in H. destruct (N.eqb t1 t); [discriminate|].
    exact (I2 t1 i1 a1 H).
Qed.

Lemma inv_reachable T s : reachable T s -> inv T s.
Proof. induction 1; [apply inv_init|eapply inv_step; eassumption]. Qed.

Lemma holds_enough_locked s t l i a :
  (forall l' m, In (l', m) (a_locks a) -> holds s t l' i m) ->
  holds_enough l a = true -> st_locks s t l i <> None.
Proof.
  intros Hl H. unfold holds_enough in H.
  assert (has_lock l Excl a = true \/ has_lock l Shared a = true) as [H1|H1].
  { destruct (is_wr a); [left; exact H|apply orb_true_iff in H; exact H]. }
  - apply has_lock_In in H1. specialize (Hl _ _ H1). cbn in Hl. rewrite Hl. discriminate.
  - apply has_lock_In in H1. exact (Hl _ _ H1).
Qed.

Lemma holds_enough_wr_excl s t l i a :
  (forall l' m, In (l', m) (a_locks a) -> holds s t l' i m) ->
  is_wr a = true -> holds_enough l a = true -> st_locks s t l i = Some Excl.
Proof.
  intros Hl Hw H. unfold holds_enough in H. rewrite Hw in H.
  apply has_lock_In in H. exact (Hl _ _ H).
Qed.

Theorem lockset_sound_at T s t1 t2 i a1 a2 :
  loc_ok T (a_loc a1) = true -> inv T s -> t1 <> t2 ->
  st_flight s t1 = Some (i, a1) -> st_flight s t2 = Some (i, a2) -> conflicting a1 a2 = false.
Proof.
  intros Hd [I1 I2] Hne F1 F2. destruct (conflicting a1 a2) eqn:Hc; [exfalso|reflexivity].
  destruct (I2 _ _ _ F1) as [In1 [L1 [O1 P1]]]. destruct (I2 _ _ _ F2) as [In2 [L2 [O2 P2]]].
  unfold conflicting in Hc. apply andb_true_iff in Hc as [Hc Hna]. apply andb_true_iff in Hc as [Hloc Hw].
  apply N.eqb_eq in Hloc.
  set (A := at_loc (a_loc a1) T) in *.
  assert (A1 : In a1 A) by (apply at_loc_In; [exact In1|reflexivity]).
  assert (A2 : In a2 A) by (apply at_loc_In; [exact In2|symmetry; exact Hloc]).
  unfold loc_ok in Hd. fold A in Hd.
  repeat (apply orb_true_iff in Hd as [Hd|Hd]).
  - unfold all_atomic in Hd. rewrite forallb_forall in Hd.
    rewrite (Hd _ A1), (Hd _ A2) in Hna. discriminate.
  - unfold common_lock in Hd. apply existsb_exists in Hd as [l [_ Hd]]. rewrite forallb_forall in Hd.
    pose proof (Hd _ A1) as H1. pose proof (Hd _ A2) as H2.
    apply orb_true_iff in Hw as [Hw|Hw].
    + pose proof (holds_enough_wr_excl s t1 l i a1 L1 Hw H1) as E.
      pose proof (holds_enough_locked s t2 l i a2 L2 H2) as N2.
      apply N2. eapply I1; [exact E|]. intros ->. apply Hne. reflexivity.
    + pose proof (holds_enough_wr_excl s t2 l i a2 L2 Hw H2) as E.
      pose proof (holds_enough_locked s t1 l i a1 L1 H1) as N1.
      apply N1. eapply I1; [exact E|]. exact Hne.
  - unfold owner_only in Hd. rewrite forallb_forall in Hd.
    pose proof (Hd _ A1) as H1. pose proof (Hd _ A2) as H2. unfold is_owner in H1, H2.
    destruct (a_role a1) eqn:R1; [discriminate|]. destruct (a_role a2) eqn:R2; [discriminate|].
    specialize (O1 eq_refl). specialize (O2 eq_refl). rewrite O1 in O2. injection O2 as ->. apply Hne. reflexivity.
  - unfold once_published in Hd. apply existsb_exists in Hd as [e [_ Hd]]. rewrite forallb_forall in Hd.
    pose proof (Hd _ A1) as H1. pose proof (Hd _ A2) as H2. unfold phase_ok in H1, H2.
    destruct (a_phase a1) as [|e1|e1]; [discriminate|..]; destruct (a_phase a2) as [|e2|e2]; try discriminate.
    + apply N.eqb_eq in H1, H2. subst. rewrite P1 in P2. injection P2 as ->. apply Hne. reflexivity.
    + apply N.eqb_eq in H1. apply andb_true_iff in H2 as [H2 _]. apply N.eqb_eq in H2. subst.
      rewrite P1 in P2. discriminate.
    + apply N.eqb_eq in H2. apply andb_true_iff in H1 as [H1 _]. apply N.eqb_eq in H1. subst.
      rewrite P1 in P2. discriminate.
    + apply andb_true_iff in H1 as [_ H1]. apply andb_true_iff in H2 as [_ H2].
      apply negb_true_iff in H1, H2. rewrite H1, H2 in Hw. discriminate.
  - unfold read_only in Hd. rewrite forallb_forall in Hd.
    pose proof (Hd _ A1) as H1. pose proof (Hd _ A2) as H2.
    apply negb_true_iff in H1, H2. rewrite H1, H2 in Hw. discriminate.
Qed.

Theorem lockset_sound_inv T s :
  discipline_ok T = true -> inv T s -> ~ race s.
Proof.
  intros Hd I (t1 & t2 & i & a1 & a2 & Hne & F1 & F2 & Hc). unfold discipline_ok in Hd. rewrite forallb_forall in Hd.
  rewrite (lockset_sound_at T s t1 t2 i a1 a2 (Hd a1 (proj1 (proj2 I _ _ _ F1))) I Hne F1 F2) in Hc. discriminate.
Qed.

Theorem lockset_sound T : discipline_ok T = true -> forall s, reachable T s -> ~ race s.
Proof. intros Hd s Hr. apply (lockset_sound_inv T s Hd). apply inv_reachable. exact Hr. Qed.

Theorem inflight_annotations T s t i a :
  reachable T s -> st_flight s t = Some (i, a) -> In a T /\ annotations_hold s t i a.
Proof. intros Hr H. exact (proj2 (inv_reachable T s Hr) t i a H). Qed.

Theorem lock_exclusion T s t t' l i :
  reachable T s -> st_locks s t l i = Some Excl -> t' <> t -> st_locks s t' l i = None.
Proof. intros Hr. exact (proj1 (inv_reachable T s Hr) t t' l i). Qed.

(** the shapes of vivid's protections: location 1 under lock 1 (a writer with Lock, a reader with RLock), location 2
    owner-only, location 3 atomic, location 4 once-published *)
Definition ex_table : list access :=
  [ mkAccess 0 1 Wr false [(1, Excl)] RAny PNone;
    mkAccess 1 1 Rd false [(1, Shared)] ROwner PNone;
    mkAccess 2 2 Wr false [] ROwner PNone;
    mkAccess 3 2 Rd false [] ROwner PNone;
    mkAccess 4 3 Wr true [] RAny PNone;
    mkAccess 5 4 Wr false [] RAny (PClaimed 1);
    mkAccess 6 4 Rd false [] RAny (PFired 1) ].

Example ex_table_ok : discipline_ok ex_table = true.
Proof. vm_compute. reflexivity. Qed.

Example ex_two_readers :
  exists s, reachable ex_table s /\
            st_flight s 1 = Some (7, mkAccess 1 1 Rd false [(1, Shared)] ROwner PNone) /\
            st_flight s 2 <> None /\ ~ race s.
Proof.
  set (r := mkAccess 1 1 Rd false [(1, Shared)] ROwner PNone).
  set (r2 := mkAccess 6 4 Rd false [] RAny (PFired 1)).
  (* t1: RLock, become owner, begin r;  t3: claim + fire event 1;  t2: begin the post-fire read *)
  assert (R : exists s, reachable ex_table s /\ st_flight s 1 = Some (7, r) /\ st_flight s 2 <> None).
  { pose proof (reach_init ex_table) as R.
    eapply reach_step with (t := 1) in R; [|apply SAcquireShared with (l := 1) (i := 7); [reflexivity|intros t'; cbn; discriminate]].
    (* a step writes its state with four copies of the one before: reduce the projections as they arise *)
    simpl in R.
    eapply reach_step with (t := 1) in R; [|apply SBecome with (i := 7); reflexivity].
    simpl in R.
    eapply reach_step with (t := 1) in R; [|apply SBegin with (i := 7) (a := r); [cbn; auto|reflexivity|]].
    2:{ split; [|split; [reflexivity|exact I]]. intros l m [H|[]]. injection H as <- <-. cbn. discriminate. }
    simpl in R.
    eapply reach_step with (t := 3) in R; [|apply SClaim with (e := 1) (i := 7); reflexivity].
    simpl in R.
    eapply reach_step with (t := 3) in R; [|apply SFire with (e := 1) (i := 7); reflexivity].
    simpl in R.
    eapply reach_step with (t := 2) in R; [|apply SBegin with (i := 7) (a := r2); [cbn; auto 8|reflexivity|]].
    2:{ split; [|split; [cbn; discriminate|reflexivity]]. intros l m []. }
    simpl in R.
    eexists. split; [exact R|]. split; [reflexivity|cbn; discriminate]. }
  destruct R as (s & R & F1 & F2). exists s. split; [exact R|]. split; [exact F1|]. split; [exact F2|].
  exact (lockset_sound ex_table ex_table_ok s R).
Qed.

(** the shape of the historical defect: the root's children map written under [actorOfLock] by API callers and with
    no lock by the root's own goroutine *)
Definition bad_table : list access :=
  [ mkAccess 0 1 Wr false [(3, Excl)] RAny PNone;
    mkAccess 1 1 Wr false [] ROwner PNone ].

Example bad_table_rejected : discipline_ok bad_table = false /\ bad_locs bad_table = [1].
Proof. vm_compute. split; reflexivity. Qed.

Example bad_table_races : exists s, reachable bad_table s /\ race s.
Proof.
  set (w1 := mkAccess 0 1 Wr false [(3, Excl)] RAny PNone).
  set (w2 := mkAccess 1 1 Wr false [] ROwner PNone).
  pose proof (reach_init bad_table) as R.
  eapply reach_step with (t := 1) in R; [|apply SAcquireExcl with (l := 3) (i := 0); reflexivity].
  simpl in R.
  eapply reach_step with (t := 1) in R; [|apply SBegin with (i := 0) (a := w1); [cbn; auto|reflexivity|]].
  2:{ split; [|split; [cbn; discriminate|exact I]]. intros l m [H|[]]. injection H as <- <-. reflexivity. }
  simpl in R.
  eapply reach_step with (t := 2) in R; [|apply SBecome with (i := 0); reflexivity].
  simpl in R.
  eapply reach_step with (t := 2) in R; [|apply SBegin with (i := 0) (a := w2); [cbn; auto|reflexivity|]].
  2:{ split; [|split; [reflexivity|exact I]]. intros l m []. }
  simpl in R.
  eexists. split; [exact R|]. exists 1, 2, 0, w1, w2. split; [discriminate|]. split; [reflexivity|]. split; reflexivity.
Qed.

From Vivid Require Import Race.Report.

Lemma plain_annotations s t i a : plain a = true -> annotations_hold s t i a.
Proof.
  unfold plain. destruct (a_locks a) eqn:L; [|discriminate]. destruct (a_role a) eqn:R; [|discriminate].
  destruct (a_phase a) eqn:P; try discriminate. intros _. split; [|split].
  - rewrite L. intros l m [].
  - rewrite R. discriminate.
  - rewrite P. exact I.
Qed.

Lemma plain_pair_inflight T a b :
  In a T -> In b T -> plain a = true -> plain b = true ->
  exists s, reachable T s /\ st_flight s 1 = Some (0, a) /\ st_flight s 2 = Some (0, b).
Proof.
  intros Ha Hb Pa Pb. pose proof (reach_init T) as R.
  eapply reach_step with (t := 1) in R; [|apply SBegin with (i := 0) (a := a); [exact Ha|reflexivity|exact (plain_annotations _ 1 0 a Pa)]].
  simpl in R.
  eapply reach_step with (t := 2) in R; [|apply SBegin with (i := 0) (a := b); [exact Hb|reflexivity|exact (plain_annotations _ 2 0 b Pb)]].
  simpl in R.
  eexists. split; [exact R|]. split; reflexivity.
Qed.

Lemma find_plain_In T a : find plain T = Some a -> In a T /\ plain a = true.
Proof. intros H. apply find_some in H. exact H. Qed.

Lemma without_loc_In x T a : In a (without_loc x T) -> In a T /\ a_loc a <> x.
Proof.
  unfold without_loc. rewrite filter_In. intros [H1 H2]. split; [exact H1|].
  apply negb_true_iff in H2. apply N.eqb_neq in H2. exact H2.
Qed.
