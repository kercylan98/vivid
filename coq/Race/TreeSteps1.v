(** Race/TreeSteps1.v — preservation of the tree invariant by the actorOfLock steps and the spawn steps. *)
From Coq Require Import List NArith.
From Vivid Require Import Race.Tree Race.TreeInv.
Import ListNotations.
Local Open Scope N_scope.

Section Steps.
  Variable root : aid.
  Variable par : aid -> option aid.
  Variable path_of : aid -> apath.
  Hypothesis par_root : par root = None.

  Notation Inv := (Inv root par path_of).
  Notation spawning := (spawning root par).
  Notation dead := (dead path_of).

  (** actorOfLock changes hands between idle threads *)
  Lemma inv_lock s l' :
    Inv s -> (forall x, t_pc s x <> Idle -> t_lock s = Some x -> l' = Some x) ->
    Inv (mkT (t_created s) (t_pub s) (t_st s) (t_zombie s) (t_reg s) (t_children s) (t_notices s) (t_pc s) l').
  Proof.
    intros [T [Breg Bzom Bpub Bnot Bup Bdown Bdead]] Hl. split; [|split; assumption].
    intros x. specialize (T x). cbn [t_pc]. destruct (t_pc s x) eqn:E; try exact T;
      destruct T as [(A & B & C & D) R]; refine (conj (conj A (conj B (conj _ D))) R);
      unfold lock_ok in *; cbn; (destruct (N.eqb _ root); [apply (Hl x); [congruence|exact C]|exact C]).
  Qed.

  Lemma inv_LAcq t s :
    Inv s -> t_lock s = None ->
    Inv (mkT (t_created s) (t_pub s) (t_st s) (t_zombie s) (t_reg s) (t_children s) (t_notices s) (t_pc s) (Some t)).
  Proof.
    intros HI EL. apply (inv_lock s _ HI). intros x _ E. rewrite EL in E. discriminate.
  Qed.

  Lemma inv_LRel t s :
    Inv s -> t_lock s = Some t -> t_pc s t = Idle ->
    Inv (mkT (t_created s) (t_pub s) (t_st s) (t_zombie s) (t_reg s) (t_children s) (t_notices s) (t_pc s) None).
  Proof.
    intros HI EL EI. apply (inv_lock s _ HI). intros x Hx E. rewrite EL in E. injection E as <-. contradiction.
  Qed.

  Lemma inv_LSpCheck t p c s :
    Inv s -> t_pc s t = Idle -> t_created s c = false -> par c = Some p -> t_st s p <> Killed -> lock_ok root s t p ->
    Inv (mkT (upd (t_created s) c true) (t_pub s) (t_st s) (t_zombie s) (t_reg s) (t_children s) (t_notices s)
             (updt (t_pc s) t (SpChecked p c)) (t_lock s)).
  Proof.
    intros HI EI ECc EP EK Hlk.
    destruct (inv_move root par path_of s t _ (SpChecked p c) HI EI I) as [T [Breg Bzom Bpub Bnot Bup Bdown Bdead]].
    split; [cbn [t_pc]; apply updt_all|split; try assumption; cbn].
    - (* the spawner: [c] is new, so it is neither the root nor published *)
      assert (Hpc : t_pub s c = false) by (destruct (t_pub s c) eqn:E; [destruct (Bpub c E); congruence|reflexivity]).
      cbn. rewrite upd_eq. repeat split; auto. intros ->. congruence.
    - intros x _. pose proof (T x) as Tx. destruct (t_pc s x); try exact Tx. cbn in Tx |- *. intuition auto using upd_true.
    - intros a Ha. destruct (Bpub a Ha). auto using upd_true.
  Qed.

  Lemma inv_LSpRegister t p c s :
    Inv s -> t_pc s t = SpChecked p c -> t_reg s (path_of c) = None ->
    Inv (mkT (t_created s) (upd (t_pub s) c true) (t_st s) (t_zombie s) (upd (t_reg s) (path_of c) (Some c))
             (t_children s) (t_notices s) (updt (t_pc s) t (SpRegistered p c)) (t_lock s)).
  Proof.
    intros HI EPC ER. pose proof (inv_thr HI t) as Tt. rewrite EPC in Tt. destruct Tt as (Sp & Hcr & Hpub).
    set (s' := mkT _ _ _ _ _ _ _ _ _).
    destruct (inv_move root par path_of s t _ (SpRegistered p c) HI EPC I) as [T [Breg Bzom Bpub Bnot Bup Bdown Bdead]].
    pose proof Sp as (Hpar & Hc & Hlk & _).
    (* another thread spawning the same child, or under the same parent, would be this one *)
    assert (Hme : forall x q d, spawning s x q d -> d = c \/ q = p -> x = t).
    { intros x q d (Y1 & _ & Y3 & _) E. apply (lock_ok_inj root s x t p); [|exact Hlk]. destruct E; congruence. }
    (* [c] was not published: it is none of the contexts known to be dead *)
    assert (Hd : forall b, t_pub s b = true -> dead s b -> dead s' b).
    { intros b Hb (D1 & D2 & D3). repeat split; auto. intros E. destruct (reg_add_inv _ _ _ _ E); [congruence|auto]. }
    pose proof (fun b => reg_add_old path_of (t_reg s) c b ER) as Hr.
    split; [cbn [t_pc s']; apply updt_all|split; cbn].
    - split; [exact Sp|]. split.
      + intros _. left. apply upd_eq.
      + intros c' E _ Ep. unfold registered in E. cbn in E. rewrite Ep, upd_eq in E. congruence.
    - intros x Hx. pose proof (T x) as Tx. destruct (t_pc s x) as [|p' c'|p' c'|b|b|b]; cbn in Tx |- *.
      + exact I.
      + destruct Tx as (X1 & X2 & X3). refine (conj X1 (conj X2 _)). rewrite upd_neq; [exact X3|].
        intros ->. exact (Hx (Hme x p' c X1 (or_introl eq_refl))).
      + destruct Tx as (X1 & X2 & X3). split; [exact X1|]. split.
        * intros Hp. destruct (X2 Hp) as [F|F]; [left; apply Hr, F|right; exact F].
        * intros d E Hd' Ep. destruct (reg_add_inv _ _ _ _ E) as [->|E']; [|auto].
          assert (p' = p) by congruence. destruct (Hx (Hme x p' c' X1 (or_intror H))).
      + unfold registered in *. cbn. intuition auto using upd_true.
      + unfold registered in *. cbn. intuition auto using upd_true.
      + intuition auto using upd_true.
    - intros q a E. unfold upd in E. destruct (N.eqb_spec q (path_of c)) as [->|Hq]; [|exact (Breg q a E)].
      injection E as <-. auto.
    - intros a Z. destruct (Bzom a Z). auto using upd_true.
    - intros a Ha. destruct (N.eq_dec a c) as [->|Hne].
      + split; [exact Hcr|]. intros _. left. apply upd_eq.
      + rewrite upd_neq in Ha by exact Hne. destruct (Bpub a Ha) as [X1 X2]. split; [exact X1|].
        intros Ha'. destruct (X2 Ha'); [left; apply Hr|right]; auto.
    - intros q d Hin. destruct (Bnot q d Hin) as (X1 & X2 & X3). auto using upd_true.
    - intros d q E Hq. destruct (reg_add_inv _ _ _ _ E) as [->|E']; [|exact (Bup d q E' Hq)].
      right. exists t. rewrite updt_eq. congruence.
    - intros q k d E. destruct (Bdown q k d E) as (X1 & X2 & X3). refine (conj X1 (conj X2 (fun Hq => _))).
      destruct (X3 Hq) as [F|F]; [left; apply Hr, F|right; exact F].
    - exact Bdead.
  Qed.

  Lemma inv_LSpInsert t p c s :
    Inv s -> t_pc s t = SpRegistered p c ->
    Inv (mkT (t_created s) (t_pub s) (t_st s) (t_zombie s) (t_reg s)
             (upd (t_children s) p (insert_child path_of c (t_reg s (path_of c)) (t_children s p))) (t_notices s)
             (updt (t_pc s) t Idle) (t_lock s)).
  Proof.
    intros [T B] EPC. pose proof (T t) as Tt. rewrite EPC in Tt. destruct Tt as (Sp & Hbk & Huq).
    pose proof Sp as (Hpar & Hc & Hlk & Hst).
    assert (R : forall b, released (t_pc s) b -> released (updt (t_pc s) t Idle) b).
    { unfold released. intros b Hb. rewrite updt_neq; [exact Hb|]. intros E. rewrite E in Hb. congruence. }
    destruct (tables_mono _ _ _ _ _ _ _ _ R (fun _ _ H => H) B) as [Breg Bzom Bpub Bnot Bup Bdown Bdead].
    split; [cbn [t_pc]; apply updt_all|split; try assumption; cbn].
    - exact I.
    - (* only the goroutine of [p], if [p] is not the root, could be counting the children of [p]: it is the spawner *)
      intros x Hx. pose proof (thr_ok_mono _ _ _ _ _ _ _ _ R (T x)) as Tx. destruct (t_pc s x) as [|p' c'|p' c'|b|b|b]; try exact Tx.
      destruct Tx as (-> & X2 & X3). split; [reflexivity|]. split; [exact X2|]. intros Hb. cbn. rewrite upd_neq; [exact (X3 Hb)|].
      intros ->. apply Hx. unfold lock_ok in Hlk. destruct (N.eqb_spec p root); congruence.
    - (* upward: the spawner is no longer a witness of [inserting], but only for [c], which is in the table now *)
      intros d q Hd Hq. unfold child_of, registered in *. cbn in *. destruct (N.eq_dec q p) as [->|Hqp]; [rewrite upd_eq|rewrite upd_neq by exact Hqp].
      + destruct (N.eq_dec (path_of d) (path_of c)) as [E|E].
        * left. assert (d = c) as -> by (apply Huq; assumption). rewrite Hd. apply insert_child_reg.
        * rewrite insert_child_other by exact E. destruct (Bup d p Hd Hq) as [F|[x F]]; [left; exact F|].
          right. exists x. rewrite updt_neq; [exact F|]. intros ->. congruence.
      + destruct (Bup d q Hd Hq) as [F|[x F]]; [left; exact F|].
        right. exists x. rewrite updt_neq; [exact F|]. intros ->. congruence.
    - (* downward: the new entry is there only if [c] is registered *)
      intros q k d. unfold child_of. cbn. destruct (N.eq_dec q p) as [->|Hqp]; [rewrite upd_eq|rewrite upd_neq by exact Hqp; apply Bdown].
      destruct (N.eq_dec k (path_of c)) as [->|E].
      + intros F. apply insert_child_self in F as [-> F]. repeat split; auto. intros _. left. exact F.
      + rewrite insert_child_other by exact E. apply Bdown.
    - intros q Hq Hk. rewrite upd_neq; [exact (Bdead q Hq Hk)|]. intros ->. exact (Hst Hq Hk).
  Qed.
End Steps.
