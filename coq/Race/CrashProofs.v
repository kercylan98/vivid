(** C10 (panics): a channel whose close sites are all the fire of one once-event is never closed twice and never
    sent on after the close, for every table, every number of threads and objects, every schedule. *)
From Coq Require Import List NArith Bool.
From Vivid Require Import Race.Lockset Race.Crash.
Import ListNotations.
Local Open Scope N_scope.

Lemma same_event_spec T p q e e' :
  same_event T = true -> In p T -> In q T -> is_chan_site p = true -> is_chan_site q = true ->
  ps_class p = ps_class q -> ps_phase p = PClaimed e -> ps_phase q = PClaimed e' -> e = e'.
Proof.
  intros H Hp Hq Cp Cq Hc Pp Pq. unfold same_event in H. rewrite forallb_forall in H.
  specialize (H p Hp). rewrite forallb_forall in H. specialize (H q Hq).
  rewrite Cp, Cq, Hc, N.eqb_refl in H. cbn in H. unfold claimed_event in H. rewrite Pp, Pq in H.
  apply N.eqb_eq in H. exact H.
Qed.

(** the invariant: no crash so far, and a closed channel's event (the event of any channel site of its class) is fired *)
Definition cinv (T : list psite) (s : cstate) : Prop :=
  cm_crashed s = false /\
  forall p e i, In p T -> is_chan_site p = true -> ps_phase p = PClaimed e ->
                cm_closed s (ps_class p) i = true -> cm_event s e i = EFired.

Lemma cinv_init T : cinv T cinit.
Proof. split; [reflexivity|]. cbn. intros. discriminate. Qed.

Lemma upd2_eq {A} (f : N -> inst -> A) a i v : upd2 f a i v a i = v.
Proof. unfold upd2. rewrite !N.eqb_refl. reflexivity. Qed.

Lemma cinv_step T s s' t : same_event T = true -> cinv T s -> cstep T t s s' -> cinv T s'.
Proof.
  intros HS [I1 I2] Hst. destruct Hst as [s e i Hun|s p e i Hin Hk Hph Hev|s p e i Hin Hk Hph Hev]; unfold cinv; cbn [cm_crashed cm_closed cm_event].
  - (* claim: the event was unclaimed, so no channel of it is closed *)
    split; [exact I1|]. intros q e' i' Hq Cq Pq Hc. specialize (I2 q e' i' Hq Cq Pq Hc).
    unfold upd2. destruct (N.eqb e' e && N.eqb i' i) eqn:E; [|exact I2].
    apply andb_true_iff in E as [E1 E2]. apply N.eqb_eq in E1, E2. subst. rewrite Hun in I2. discriminate.
  - assert (Cp : is_chan_site p = true) by (unfold is_chan_site; rewrite Hk; reflexivity).
    split.
    + rewrite I1. cbn. destruct (cm_closed s (ps_class p) i) eqn:C; [|reflexivity].
      specialize (I2 p e i Hin Cp Hph C). rewrite Hev in I2. discriminate.
    + intros q e' i' Hq Cq Pq Hc. unfold upd2 in *.
      destruct (N.eqb (ps_class q) (ps_class p) && N.eqb i' i) eqn:E.
      * apply andb_true_iff in E as [E1 E2]. apply N.eqb_eq in E1, E2. subst i'.
        assert (e' = e) by (eapply (same_event_spec T q p); eauto). subst e'. rewrite !N.eqb_refl. reflexivity.
      * specialize (I2 q e' i' Hq Cq Pq Hc). destruct (N.eqb e' e && N.eqb i' i) eqn:E'; [reflexivity|exact I2].
  - assert (Cp : is_chan_site p = true) by (unfold is_chan_site; rewrite Hk; reflexivity).
    split; [|exact I2]. rewrite I1. cbn. destruct (cm_closed s (ps_class p) i) eqn:C; [|reflexivity].
    specialize (I2 p e i Hin Cp Hph C). rewrite Hev in I2. discriminate.
Qed.

Theorem close_discipline_sound T :
  panic_discipline_ok T = true -> forall s, creachable T s -> cm_crashed s = false.
Proof.
  intros H s Hr. apply andb_true_iff in H as [_ HS].
  assert (I : cinv T s) by (induction Hr; [apply cinv_init|eapply cinv_step; eassumption]). exact (proj1 I).
Qed.

Definition bad_close_table : list psite :=
  [ mkPsite 0 KClose 1 false (PClaimed 1); mkPsite 1 KClose 1 false (PClaimed 2) ].

Example bad_close_rejected : panic_discipline_ok bad_close_table = false /\
                             panic_discipline_ok [mkPsite 0 KClose 1 false PNone] = false.
Proof. split; vm_compute; reflexivity. Qed.

Example bad_close_crashes : exists s, creachable bad_close_table s /\ cm_crashed s = true.
Proof.
  eexists. split.
  - eapply creach_step with (t := 2); [|eapply CClose with (p := mkPsite 1 KClose 1 false (PClaimed 2)) (e := 2) (i := 0)].
    + eapply creach_step with (t := 2); [|apply CClaim with (e := 2) (i := 0)].
      * eapply creach_step with (t := 1); [|eapply CClose with (p := mkPsite 0 KClose 1 false (PClaimed 1)) (e := 1) (i := 0)].
        -- eapply creach_step with (t := 1); [apply creach_init|apply CClaim with (e := 1) (i := 0)]. reflexivity.
        -- cbn. left. reflexivity.
        -- reflexivity.
        -- reflexivity.
        -- reflexivity.
      * reflexivity.
    + cbn. right. left. reflexivity.
    + reflexivity.
    + reflexivity.
    + reflexivity.
  - reflexivity.
Qed.

(** the shape of future.Future: close(done) after the winning CAS *)
Definition ok_close_table : list psite := [ mkPsite 0 KClose 18 false (PClaimed 1); mkPsite 1 KUnlock 0 true PNone ].
Example ok_close_table_ok : panic_discipline_ok ok_close_table = true.
Proof. vm_compute. reflexivity. Qed.
Example ok_close_happens : exists s, creachable ok_close_table s /\ cm_closed s 18 0 = true /\ cm_crashed s = false.
Proof.
  eexists. split; [|split].
  - eapply creach_step with (t := 1); [|eapply CClose with (p := mkPsite 0 KClose 18 false (PClaimed 1)) (e := 1) (i := 0)].
    + eapply creach_step with (t := 1); [apply creach_init|apply CClaim with (e := 1) (i := 0)]. reflexivity.
    + cbn. left. reflexivity.
    + reflexivity.
    + reflexivity.
    + reflexivity.
  - reflexivity.
  - reflexivity.
Qed.
