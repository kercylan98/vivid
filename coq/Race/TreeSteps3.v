(** Race/TreeSteps3.v — preservation of the tree invariant by the release of an actor (registry delete, notice to the
    parent) and by the parent's handling / dropping of the notice. *)
From Coq Require Import List NArith.
From Vivid Require Import Race.Tree Race.TreeInv.
Import ListNotations.
Local Open Scope N_scope.

Section Steps.
  Variable root : aid.
  Variable par : aid -> option aid.
  Variable path_of : aid -> apath.

  Hypothesis path_root : forall c, c <> root -> path_of c <> path_of root.

  Notation Inv := (Inv root par path_of).
  Notation dead := (dead path_of).
  Notation reg' := (registered path_of).

  Lemma inv_LDereg t a s :
    Inv s -> t_pc s t = Releasing a ->
    Inv (mkT (t_created s) (t_pub s) (t_st s) (t_zombie s) (upd (t_reg s) (path_of a) None) (t_children s) (t_notices s)
             (updt (t_pc s) t (Released a)) (t_lock s)).
  Proof.
    intros HI EPC. pose proof (inv_thr HI t) as Tt. rewrite EPC in Tt. destruct Tt as (-> & Hpub & Hreg & ES & EZ).
    set (s' := mkT _ _ _ _ _ _ _ _ _).
    destruct (inv_move root par path_of s (Own a) _ (Released a) HI EPC I) as [T [Breg Bzom Bpub Bnot Bup Bdown Bdead]].
    (* the path deleted is still the deleter's own: nobody else loses a registration *)
    assert (Hx : forall b, reg' s b -> b = a \/ reg' s' b).
    { intros b Hb. unfold registered, s'. cbn. unfold upd. destruct (N.eqb_spec (path_of b) (path_of a)) as [E|E]; [left|right; exact Hb].
      destruct (N.eq_dec a root) as [->|Ha].
      - destruct (N.eq_dec b root) as [Hb'|Hb']; [exact Hb'|]. destruct (path_root b Hb' E).
      - unfold registered in Hb. rewrite E, (Hreg Ha) in Hb. congruence. }
    assert (Hr : forall b, reg' s' b -> reg' s b) by (intros b; apply reg_del_inv).
    assert (Hd : forall b, dead s b -> dead s' b) by (intros b (D1 & D2 & D3); repeat split; auto).
    assert (Hda : dead s' a). { repeat split; auto. unfold registered. cbn. rewrite upd_eq. discriminate. }
    (* and [a] itself is [released] from now on *)
    assert (Hb : forall p c, backed path_of s (released (t_pc s')) p c -> backed path_of s' (released (t_pc s')) p c).
    { intros p c [F|F]; [|right; exact F]. destruct (Hx c F) as [->|F']; [right; left; apply updt_eq|left; exact F']. }
    split; [cbn [t_pc s']; apply updt_all|split; try assumption; cbn].
    - exact (conj eq_refl (conj Hpub Hda)).
    - (* another thread's context is not [a]: it keeps its registration *)
      intros x Hne. pose proof (T x) as Tx. destruct (t_pc s x) as [|p c|p c|b|b|b]; try exact Tx.
      + destruct Tx as (X1 & X2 & X3). exact (conj X1 (conj (fun Hp => Hb p c (X2 Hp)) (fun c' E => X3 c' (Hr c' E)))).
      + destruct Tx as (-> & X2 & X3). refine (conj eq_refl (conj X2 (fun Hb' => _))). destruct (X3 Hb') as [R C].
        destruct (Hx b R) as [->|R']; [destruct (Hne eq_refl)|exact (conj R' C)].
      + destruct Tx as (-> & X2 & X3 & X4). refine (conj eq_refl (conj X2 (conj (fun Hb' => _) X4))).
        destruct (Hx b (X3 Hb')) as [->|R']; [destruct (Hne eq_refl)|exact R'].
      + destruct Tx as (-> & X2 & X3). exact (conj eq_refl (conj X2 (Hd b X3))).
    - intros q b E. apply Breg. unfold upd in E. destruct (N.eqb q (path_of a)); [discriminate|exact E].
    - intros b Hb'. destruct (Bpub b Hb') as [X1 X2]. split; [exact X1|]. intros Hbr. destruct (X2 Hbr) as [F|F]; [|right; auto].
      destruct (Hx b F) as [->|F']; [right; exact Hda|left; exact F'].
    - intros p c Hin. destruct (Bnot p c Hin) as (X1 & X2 & X3). auto.
    - intros c p E. apply Bup, Hr, E.
    - intros p q c E. destruct (Bdown p q c E) as (X1 & X2 & X3). auto.
  Qed.

  Lemma inv_LNotify t a s :
    Inv s -> t_pc s t = Released a ->
    Inv (mkT (t_created s) (t_pub s) (t_st s) (t_zombie s) (t_reg s) (t_children s)
             (match par a with Some p => upd (t_notices s) p (t_notices s p ++ [a]) | None => t_notices s end)
             (updt (t_pc s) t Idle) (t_lock s)).
  Proof.
    intros [T B] EPC. pose proof (T t) as Tt. rewrite EPC in Tt. destruct Tt as (-> & Hpub & Hd).
    set (s' := mkT _ _ _ _ _ _ _ _ _).
    assert (Hn : forall p c, In c (t_notices s' p) -> In c (t_notices s p) \/ c = a /\ par a = Some p).
    { intros p c. cbn. destruct (par a) as [q|]; [|auto]. unfold upd. destruct (N.eqb_spec p q) as [->|]; [|auto].
      intros Hin. apply in_app_or in Hin as [Hin|[<-|[]]]; auto. }
    (* [a] is no longer [released]: its notice is in the mailbox of its parent *)
    assert (Hb : forall p c, par c = Some p -> backed path_of s (released (t_pc s)) p c -> backed path_of s' (released (t_pc s')) p c).
    { intros p c Hp [F|[F|F]]; [left; exact F| |right; right; cbn].
      - destruct (N.eq_dec c a) as [->|Hne]; [right; right; cbn|right; left; unfold released; cbn; rewrite updt_neq; [exact F|congruence]].
        rewrite Hp, upd_eq. apply in_or_app. right. left. reflexivity.
      - destruct (par a) as [q|]; [|exact F]. unfold upd. destruct (N.eqb_spec p q) as [->|]; [apply in_or_app; left|]; exact F. }
    assert (N : forall p c, inserting (t_pc s) p c -> inserting (t_pc s') p c).
    { intros p c [x Hx]. exists x. cbn. rewrite updt_neq; [exact Hx|]. intros ->. congruence. }
    destruct B as [Breg Bzom Bpub Bnot Bup Bdown Bdead].
    split; [cbn [t_pc s']; apply updt_all|split; try assumption].
    - exact I.
    - intros x Hne. pose proof (T x) as Tx. destruct (t_pc s x) as [|p c|p c|b|b|b]; try exact Tx.
      destruct Tx as (X1 & X2 & X3). exact (conj X1 (conj (fun Hp => Hb p c (proj1 X1) (X2 Hp)) X3)).
    - intros p c Hin. destruct (Hn p c Hin) as [F|[-> F]]; [exact (Bnot p c F)|]. auto.
    - intros c p Hc Hp. destruct (Bup c p Hc Hp); auto.
    - intros p q c E. destruct (Bdown p q c E) as (X1 & X2 & X3). exact (conj X1 (conj X2 (fun Hp => Hb p c X2 (X3 Hp)))).
  Qed.

  Lemma inv_LDrop p c s :
    Inv s -> t_st s p = Killed ->
    Inv (mkT (t_created s) (t_pub s) (t_st s) (t_zombie s) (t_reg s) (t_children s)
             (upd (t_notices s) p (remove1 c (t_notices s p))) (t_pc s) (t_lock s)).
  Proof.
    intros [T B] ES. set (s' := mkT _ _ _ _ _ _ _ _ _).
    destruct B as [Breg Bzom Bpub Bnot Bup Bdown Bdead].
    (* the mailbox of [p] backs no entry: nobody spawns under a dead [p] other than the root, and its table is empty *)
    assert (Hb : forall q d, q <> p -> backed path_of s (released (t_pc s)) q d -> backed path_of s' (released (t_pc s')) q d).
    { intros q d Hq [F|[F|F]]; [left; exact F|right; left; exact F|right; right; cbn; rewrite upd_neq; assumption]. }
    split; [|split; try assumption].
    - intros x. pose proof (T x) as Tx. cbn [t_pc s']. destruct (t_pc s x) as [|q d|q d|b|b|b] eqn:E; try exact Tx.
      destruct Tx as (X1 & X2 & X3). refine (conj X1 (conj (fun Hq => Hb q d _ (X2 Hq)) X3)).
      intros ->. exact (proj2 (proj2 (proj2 X1)) Hq ES).
    - intros q d Hin. apply Bnot. cbn in Hin. unfold upd in Hin. destruct (N.eqb_spec q p) as [->|]; [apply In_remove1 in Hin|]; exact Hin.
    - intros q k d E. destruct (Bdown q k d E) as (X1 & X2 & X3). refine (conj X1 (conj X2 (fun Hq => Hb q d _ (X3 Hq)))).
      intros ->. destruct Hq as [Hq|Hq]; [|contradiction]. unfold child_of in E. cbn in E. rewrite (Bdead p Hq ES) in E. discriminate.
  Qed.

  Lemma inv_LHandle p c s :
    Inv s -> t_pc s (Own p) = Idle -> t_st s p <> Killed -> In c (t_notices s p) ->
    Inv (mkT (t_created s) (t_pub s) (t_st s) (t_zombie s) (t_reg s)
             (upd (t_children s) p (remove_child path_of c (t_children s p)))
             (upd (t_notices s) p (remove1 c (t_notices s p))) (t_pc s) (t_lock s)).
  Proof.
    intros [T B] EI EK EM. set (s' := mkT _ _ _ _ _ _ _ _ _).
    destruct B as [Breg Bzom Bpub Bnot Bup Bdown Bdead]. destruct (Bnot p c EM) as (_ & _ & _ & _ & Hnr).
    split; [|split; try assumption; cbn].
    - (* a thread counting the children of [p] or, if [p] is not the root, spawning under it would be [p]'s own, which is idle *)
      intros x. pose proof (T x) as Tx. cbn [t_pc s']. destruct (t_pc s x) as [|q d|q d|b|b|b] eqn:E; try exact Tx.
      + destruct Tx as (X1 & X2 & X3). refine (conj X1 (conj (fun Hq => _) X3)).
        destruct (X2 Hq) as [F|[F|F]]; [left; exact F|right; left; exact F|right; right].
        cbn. rewrite upd_neq; [exact F|]. intros ->. destruct X1 as (_ & _ & Y & _). unfold lock_ok in Y.
        destruct (N.eqb_spec p root); congruence.
      + destruct Tx as (-> & X2 & X3). refine (conj eq_refl (conj X2 (fun Hb => _))). cbn. rewrite upd_neq; [exact (X3 Hb)|].
        intros ->. congruence.
    - intros q d Hin. apply Bnot. unfold upd in Hin. destruct (N.eqb_spec q p) as [->|]; [apply In_remove1 in Hin|]; exact Hin.
    - (* upward: a registered child is not the sender of the notice, which is dead *)
      intros d q Hd Hq. unfold child_of. cbn. destruct (Bup d q Hd Hq) as [F|F]; [left|right; exact F].
      unfold upd. destruct (N.eqb_spec q p) as [->|]; [|exact F]. apply rmch_get_other; [exact F|]. intros ->. exact (Hnr Hd).
    - (* downward: the entry of the sender is gone with its notice *)
      intros q k d. unfold child_of, backed. cbn. unfold upd. destruct (N.eqb_spec q p) as [->|]; [|apply Bdown].
      intros E. destruct (Bdown p k d (rmch_get_sub _ _ _ _ _ E)) as (X1 & X2 & X3). refine (conj X1 (conj X2 (fun Hp => _))).
      destruct (X3 Hp) as [F|[F|F]]; [left; exact F|right; left; exact F|right; right].
      apply In_remove1_neq; [exact F|]. intros ->. rewrite <- X1 in E. exact (rmch_get_self _ _ _ E).
    - intros q Hq Hk. rewrite upd_neq; [exact (Bdead q Hq Hk)|]. intros ->. exact (EK Hk).
  Qed.
End Steps.
