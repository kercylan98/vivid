(** Executable entry point of the ring-queue model for the correspondence check.
    input  = ( size  ( cmd ... ) )      size : signed (tz)
             cmd = (0 v) Push v | (1) Pop | (2 z) PopMany z | (3) Length | (4) Empty
                 | (5) dump of the representation (head tail mod len buffer), an accessor on the Go side
    output = ( result ... ), one per command, cut after the first panic. *)
From Coq Require Import List ZArith.
From Vivid Require Import Base.Tm Queue.Ring.
Import ListNotations.
Local Open Scope N_scope.

Inductive rcmd : Type :=
| COp (o : rop N)
| CDump.

Definition get_rcmd (t : tm) : option rcmd :=
  match t with
  | TL [TN 0; TN v] => Some (COp (OPush v))
  | TL [TN 1] => Some (COp OPop)
  | TL [TN 2; z] => match get_z z with Some c => Some (COp (OPopMany c)) | None => None end
  | TL [TN 3] => Some (COp OLength)
  | TL [TN 4] => Some (COp OEmpty)
  | TL [TN 5] => Some CDump
  | _ => None
  end.

Definition t_slot (s : option N) : tm := topt TN s.

Definition t_rres (x : rres N) : tm :=
  match x with
  | RPush => TN 0
  | RPop v => topt t_slot v
  | RPopMany v => topt (tlist t_slot) v
  | RLength n => tz n
  | REmpty b => tbool b
  | RPanic p n => TL [TN 999; TN (match p with PDivZero => 1 | PMakeSlice => 2 end); tz n]
  end.

Definition t_dump (r : ring N) : tm :=
  TL [TN (N.of_nat (rhead r)); TN (N.of_nat (rtail r)); TN (N.of_nat (rmod r));
      tz (Z.of_nat (rlen r)); tlist t_slot (rbuf r)].

Fixpoint run_rcmds (r : ring N) (cs : list rcmd) : list tm :=
  match cs with
  | [] => []
  | CDump :: cs' => t_dump r :: run_rcmds r cs'
  | COp o :: cs' =>
      match ring_step o r with
      | (Some r', x) => t_rres x :: run_rcmds r' cs'
      | (None, x) => [t_rres x]
      end
  end.

Definition run_ring (t : tm) : tm :=
  match t with
  | TL [sz; cs] =>
      match get_z sz, get_list get_rcmd cs with
      | Some n, Some cs =>
          match ring_new n with
          | Some r => TL (run_rcmds r cs)
          | None => TL [t_rres (RPanic PMakeSlice 0 : rres N)]
          end
      | _, _ => tm_err 1
      end
  | _ => tm_err 0
  end.

(** the entry point runs exactly the [ring_run] the theorems are about (dumps aside) *)
Lemma run_rcmds_ops (ops : list (rop N)) : forall r,
  run_rcmds r (map COp ops) = map t_rres (ring_run r ops).
Proof.
  induction ops as [|o ops IH]; intros r; cbn; auto.
  destruct (ring_step o r) as [[r'|] x]; cbn; [now rewrite IH|reflexivity].
Qed.
