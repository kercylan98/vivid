From Coq Require Import List ZArith Lia.
From Vivid Require Import Queue.Stash.
Import ListNotations.

Set Implicit Arguments.

Section Proofs.
Context {A : Type}.
Implicit Types (s : list A) (evs : list (A * sop)).

Lemma stash_step_conserves cur o s :
  snd (stash_step cur o s) ++ fst (stash_step cur o s) =
  s ++ match o with SStash => [cur] | SUnstash _ => [] end.
Proof.
  destruct o as [|arg]; cbn.
  - reflexivity.
  - destruct s as [|a s']; [reflexivity|]. destruct arg as [n|]; cbn [fst snd].
    + now rewrite firstn_skipn, app_nil_r.
    + now rewrite app_nil_r.
Qed.

Lemma stash_run_order evs : forall s,
  concat (fst (stash_run s evs)) ++ snd (stash_run s evs) = s ++ stashed_of evs.
Proof.
  induction evs as [|[cur o] evs IH]; intros s; cbn [stash_run stashed_of flat_map].
  - cbn. now rewrite app_nil_r.
  - pose proof (stash_step_conserves cur o s) as HC.
    destruct (stash_step cur o s) as [s' enq]. specialize (IH s').
    destruct (stash_run s' evs) as [bs sf]. cbn [fst snd concat] in *.
    rewrite <- app_assoc, IH, app_assoc, HC, <- app_assoc. reflexivity.
Qed.

Lemma stash_appends cur s : stash_step cur SStash s = (s ++ [cur], []).
Proof. reflexivity. Qed.

Lemma unstash_noarg cur s :
  stash_step cur (SUnstash None) s = (skipn 1 s, firstn 1 s).
Proof. destruct s; reflexivity. Qed.

Lemma unstash_n cur n s :
  let k := Z.to_nat (Z.min (Z.max n 0) (Z.of_nat (length s))) in
  stash_step cur (SUnstash (Some n)) s = (skipn k s, firstn k s).
Proof.
  intros k. destruct s as [|a s'].
  - cbn. now rewrite skipn_nil, firstn_nil.
  - cbn [stash_step].
    replace (Z.to_nat (Z.max (Z.min n (Z.of_nat (length (a :: s')))) 0)) with k by (unfold k; lia).
    reflexivity.
Qed.

Lemma unstash_nonpositive cur n s : (n <= 0)%Z -> stash_step cur (SUnstash (Some n)) s = (s, []).
Proof.
  intros Hn. rewrite unstash_n. replace (Z.to_nat _) with 0 by lia. reflexivity.
Qed.

Lemma unstash_all cur n s : (Z.of_nat (length s) <= n)%Z -> stash_step cur (SUnstash (Some n)) s = ([], s).
Proof.
  intros Hn. rewrite unstash_n. replace (Z.to_nat _) with (length s) by lia.
  now rewrite skipn_all, firstn_all.
Qed.

End Proofs.

(** each Stash call is matched by exactly one position of (batches ++ final stash): with position tags
    the enqueued envelopes are pairwise distinct, so none is enqueued twice *)
Lemma stashed_tag_bound {A} (evs : list (A * sop)) : forall k x,
  In x (stashed_of (tag_from k evs)) -> k <= fst x.
Proof.
  induction evs as [|[c o] evs IH]; intros k x; cbn; [tauto|].
  unfold tag_from in *. cbn [length seq combine map stashed_of flat_map]. cbn [fst snd].
  rewrite in_app_iff. intros [H|H].
  - destruct o; cbn in H; [|tauto]. destruct H as [<-|[]]. cbn. lia.
  - apply IH in H. lia.
Qed.

Lemma stashed_tag_nodup {A} (evs : list (A * sop)) : forall k, NoDup (stashed_of (tag_from k evs)).
Proof.
  induction evs as [|[c o] evs IH]; intros k; [constructor|].
  unfold tag_from in *. cbn [length seq combine map stashed_of flat_map]. cbn [fst snd].
  destruct o; cbn [app]; [|apply IH].
  constructor; [|apply IH]. intros H. apply (stashed_tag_bound evs (S k)) in H. cbn in H. lia.
Qed.

Lemma stash_run_once {A} (evs : list (A * sop)) :
  NoDup (concat (fst (stash_run [] (tag_from 0 evs))) ++ snd (stash_run [] (tag_from 0 evs))).
Proof. rewrite stash_run_order. cbn [app]. apply stashed_tag_nodup. Qed.

Lemma stash_step_map {A B} (f : A -> B) cur o (s : list A) :
  stash_step (f cur) o (map f s) = (map f (fst (stash_step cur o s)), map f (snd (stash_step cur o s))).
Proof.
  destruct o as [|arg]; cbn [stash_step].
  - cbn [fst snd map]. now rewrite map_app.
  - destruct s as [|a s']; [reflexivity|]. cbn [map]. destruct arg as [n|]; cbn [map fst snd]; [|reflexivity].
    change (f a :: map f s') with (map f (a :: s')).
    now rewrite map_length, skipn_map, firstn_map.
Qed.

Lemma stash_run_untag {A} (evs : list (A * sop)) : forall k (s : list (nat * A)),
  stash_run (map snd s) evs =
  (map (map snd) (fst (stash_run s (tag_from k evs))), map snd (snd (stash_run s (tag_from k evs)))).
Proof.
  induction evs as [|[c o] evs IH]; intros k s; [reflexivity|].
  unfold tag_from in *. cbn [length seq combine map stash_run]. cbn [fst snd].
  change c with (snd (k, c)) at 1. rewrite stash_step_map.
  destruct (stash_step (k, c) o s) as [s' enq]. cbn [fst snd].
  rewrite (IH (S k) s').
  destruct (stash_run s' _) as [bs sf]. reflexivity.
Qed.
