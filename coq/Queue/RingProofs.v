(** Proofs about the ring-queue model: the representation relation is established by [New(n)], n >= 1,
    preserved by every call, and every call returns what the list FIFO returns. *)
From Coq Require Import List ZArith Lia.
From Vivid Require Import Queue.Ring.
Import ListNotations.

Set Implicit Arguments.

Lemma upd_length {B} n (x : B) l : length (upd n x l) = length l.
Proof. revert n; induction l as [|h t IH]; intros [|n]; cbn; auto. Qed.

Lemma nth_upd_eq {B} n (x d : B) l : n < length l -> nth n (upd n x l) d = x.
Proof. revert n; induction l as [|h t IH]; intros [|n] H; cbn in *; try lia; auto. apply IH; lia. Qed.

Lemma nth_upd_neq {B} n k (x d : B) l : n <> k -> nth k (upd n x l) d = nth k l d.
Proof.
  revert n k; induction l as [|h t IH]; intros [|n] [|k] H; cbn; auto; try lia.
Qed.

Lemma nth_error_app_last {B} (l : list B) x i :
  nth_error (l ++ [x]) i = if i =? length l then Some x else nth_error l i.
Proof.
  destruct (Nat.eqb_spec i (length l)) as [->|Hn].
  - rewrite nth_error_app2 by lia. now rewrite Nat.sub_diag.
  - destruct (Nat.lt_ge_cases i (length l)).
    + now rewrite nth_error_app1.
    + rewrite (proj2 (nth_error_None l i)) by lia.
      apply nth_error_None. rewrite app_length; cbn; lia.
Qed.

Lemma nth_map_seq {B} (f : nat -> B) n i d : i < n -> nth i (map f (seq 0 n)) d = f i.
Proof.
  intros H. rewrite (nth_indep _ d (f 0)) by (rewrite map_length, seq_length; lia).
  rewrite map_nth. now rewrite seq_nth.
Qed.

Lemma nth_map_some {B} (l : list B) i : nth i (map Some l) None = nth_error l i.
Proof. revert i; induction l; intros [|i]; cbn; auto. Qed.

Lemma mod_inj_offset a m i j : i < m -> j < m -> (a + i) mod m = (a + j) mod m -> i = j.
Proof.
  intros Hi Hj E.
  assert (Hm : m <> 0) by lia.
  pose proof (Nat.div_mod (a + i) m Hm) as D1.
  pose proof (Nat.div_mod (a + j) m Hm) as D2.
  pose proof (Nat.mod_upper_bound (a + j) m Hm) as U.
  rewrite E in D1.
  set (q1 := (a + i) / m) in *. set (q2 := (a + j) / m) in *. set (r := (a + j) mod m) in *.
  assert (q1 = q2) by nia. subst q1. lia.
Qed.

Lemma mod_succ_l h m i : m <> 0 -> ((h + i) mod m + 1) mod m = (h + 1 + i) mod m.
Proof. intros Hm. rewrite Nat.add_mod_idemp_l by auto. f_equal; lia. Qed.

Lemma mod_idemp3 a b c m : m <> 0 -> (a mod m + b + c) mod m = (a + b + c) mod m.
Proof. intros Hm. rewrite <- Nat.add_assoc, Nat.add_mod_idemp_l by auto. f_equal; lia. Qed.

Lemma mod_add_self a m : m <> 0 -> (a + m) mod m = a mod m.
Proof. intros Hm. replace (a + m) with (a + 1 * m) by lia. now rewrite Nat.mod_add. Qed.

(** the slot after the last element is the head exactly when all slots but one are taken *)
Lemma wrap_iff h n m : h < m -> n < m -> ((h + 1 + n) mod m = h <-> S n = m).
Proof.
  intros Hh Hn. assert (Hm : m <> 0) by lia. split; intros E.
  - assert (E' : (h + 1 + n) mod m = (h + 1 + (m - 1)) mod m).
    { rewrite E. replace (h + 1 + (m - 1)) with (h + m) by lia. rewrite mod_add_self by exact Hm. symmetry. apply Nat.mod_small, Hh. }
    apply mod_inj_offset in E'; lia.
  - replace (h + 1 + n) with (h + m) by lia. rewrite mod_add_self by exact Hm. apply Nat.mod_small, Hh.
Qed.

Section Proofs.
Context {A : Type}.
Implicit Types (b : list (option A)) (l : list A) (r : ring A).

(** the relation on the components that matter: buffer [b] of length [m] with head [h] holds [l] *)
Definition R b m h l : Prop :=
  m = length b /\ 1 <= m /\ h < m /\ length l < m /\
  forall i, i < m -> slot b ((h + 1 + i) mod m) = nth_error l i.

Lemma repr_R r l :
  ring_repr r l <->
  R (rbuf r) (rmod r) (rhead r) l /\ rlen r = length l /\ rtail r = (rhead r + length l) mod rmod r.
Proof. unfold ring_repr, R, rmod; cbn zeta. tauto. Qed.

Lemma repr_mk b m h t n l : R b m h l -> n = length l -> t = (h + n) mod m ->
  ring_repr {| rbuf := b; rhead := h; rtail := t; rlen := n |} l.
Proof.
  intros HR -> ->. apply repr_R. unfold rmod. cbn [rbuf rhead rtail rlen].
  destruct HR as (Hb & HR). subst m. split; [split; [reflexivity|exact HR]|split; reflexivity].
Qed.

Lemma R_new n : 1 <= n -> R (repeat (@None A) n) n 0 [].
Proof.
  intros Hn. unfold R. rewrite repeat_length. repeat split; cbn; try lia.
  intros i _. unfold slot. rewrite nth_repeat. now destruct i.
Qed.

Lemma R_head_empty b m h l : R b m h l -> slot b h = None.
Proof.
  intros (-> & Hm & Hh & Hl & Hs).
  specialize (Hs (length b - 1) ltac:(lia)).
  replace (h + 1 + (length b - 1)) with (h + length b) in Hs by lia.
  rewrite mod_add_self, Nat.mod_small in Hs by lia.
  rewrite Hs. apply nth_error_None. lia.
Qed.

Lemma R_pop b m h a l :
  R b m h (a :: l) ->
  slot b ((h + 1) mod m) = Some a /\ R (upd ((h + 1) mod m) None b) m ((h + 1) mod m) l.
Proof.
  intros (Hb & Hm & Hh & Hl & Hs). cbn [length] in Hl.
  assert (Hm0 : m <> 0) by lia.
  split.
  - specialize (Hs 0 ltac:(lia)). now rewrite Nat.add_0_r in Hs.
  - unfold R. rewrite upd_length. split; [exact Hb|]. split; [exact Hm|]. split; [exact (Nat.mod_upper_bound _ _ Hm0)|]. split; [lia|].
    intros i Hi. rewrite mod_idemp3 by auto. unfold slot.
    destruct (Nat.eq_dec (S i) m) as [E|NE].
    + (* the walk has come back to the new head: cleared *)
      replace (h + 1 + 1 + i) with (h + 1 + m) by lia. rewrite mod_add_self by auto.
      rewrite nth_upd_eq by (rewrite <- Hb; exact (Nat.mod_upper_bound _ _ Hm0)). symmetry. apply nth_error_None. lia.
    + replace (h + 1 + 1 + i) with (h + 1 + S i) by lia.
      rewrite nth_upd_neq.
      * apply (Hs (S i)). lia.
      * intros E. replace (h + 1) with (h + 1 + 0) in E at 1 by lia.
        apply mod_inj_offset in E; lia.
Qed.

Lemma R_push_nogrow b m h l x :
  R b m h l -> S (length l) < m ->
  R (upd ((h + 1 + length l) mod m) (Some x) b) m h (l ++ [x]).
Proof.
  intros (Hb & Hm & Hh & Hl & Hs) Hroom.
  assert (Hm0 : m <> 0) by lia.
  unfold R. rewrite upd_length, app_length. cbn [length]. repeat split; try lia.
  intros i Hi. rewrite nth_error_app_last. unfold slot.
  destruct (Nat.eqb_spec i (length l)) as [->|NE].
  - apply nth_upd_eq. rewrite <- Hb. now apply Nat.mod_upper_bound.
  - rewrite nth_upd_neq; [now apply Hs|].
    intros E. apply mod_inj_offset in E; lia.
Qed.

Lemma R_push_grow b m h l x :
  R b m h l -> S (length l) = m ->
  R (upd m (Some x) (grow_copy b h)) (m + m) 0 (l ++ [x]).
Proof.
  intros HR Hfull. pose proof (R_head_empty HR) as Hhe.
  destruct HR as (Hb & Hm & Hh & Hl & Hs).
  assert (Hm0 : m <> 0) by lia.
  assert (Hgl : length (grow_copy b h) = m + m).
  { unfold grow_copy. rewrite app_length, map_length, seq_length, repeat_length. lia. }
  unfold R. rewrite upd_length, Hgl, app_length. cbn [length]. repeat split; try lia.
  intros i Hi. rewrite nth_error_app_last. unfold slot.
  destruct (Nat.eqb_spec i (length l)) as [->|NE].
  - (* the new item at position m *)
    replace (0 + 1 + length l) with m by lia. rewrite Nat.mod_small by lia.
    apply nth_upd_eq. lia.
  - destruct (Nat.eq_dec (S i) (m + m)) as [E|NE2].
    + (* position 0 = old slot at head: nil *)
      replace (0 + 1 + i) with (0 + 1 * (m + m)) by lia. rewrite Nat.mod_add by lia.
      rewrite Nat.mod_0_l by lia. rewrite nth_upd_neq by lia.
      unfold grow_copy. rewrite app_nth1 by (rewrite map_length, seq_length; lia).
      rewrite nth_map_seq by lia. rewrite <- Hb, Nat.add_0_r, Nat.mod_small by lia.
      rewrite Hhe. symmetry. apply nth_error_None. lia.
    + rewrite Nat.mod_small by lia. rewrite nth_upd_neq by lia.
      unfold grow_copy.
      destruct (Nat.lt_ge_cases (S i) m) as [Hlow|Hhigh].
      * rewrite app_nth1 by (rewrite map_length, seq_length; lia).
        rewrite nth_map_seq by lia. rewrite <- Hb.
        replace (h + (0 + 1 + i)) with (h + 1 + i) by lia. apply Hs. lia.
      * rewrite app_nth2 by (rewrite map_length, seq_length; lia).
        rewrite nth_repeat. symmetry. apply nth_error_None. lia.
Qed.

Lemma pm_loop_spec k : forall b m h i l,
  R b m ((h + i) mod m) l -> k <= length l ->
  exists b', pm_loop b m h i k = (map Some (firstn k l), b') /\
             R b' m ((h + i + k) mod m) (skipn k l).
Proof.
  induction k as [|k IH]; intros b m h i l HR Hk.
  - exists b. cbn. split; auto. now rewrite Nat.add_0_r.
  - destruct l as [|a l]; [cbn in Hk; lia|]. cbn [length] in Hk.
    assert (Hm0 : m <> 0) by (destruct HR as (_ & ? & _); lia).
    destruct (R_pop HR) as [Hv HR'].
    rewrite mod_succ_l in Hv, HR' by auto.
    replace (h + 1 + i) with (h + S i) in HR' at 2 by lia.
    destruct (IH _ _ _ _ _ HR' ltac:(lia)) as (b' & E & HR'').
    exists b'. cbn [pm_loop firstn skipn map]. rewrite E, Hv. split; auto.
    replace (h + i + S k) with (h + S i + k) by lia. exact HR''.
Qed.

Lemma push_refines r l x :
  ring_repr r l -> exists r', ring_push x r = inl r' /\ ring_repr r' (l ++ [x]).
Proof.
  intros H. apply repr_R in H. destruct H as (HR & Hlen & Htail).
  pose proof HR as (Hb & Hm & Hh & Hl & _).
  assert (Hm0 : rmod r <> 0) by lia.
  unfold ring_push. destruct (Nat.eqb_spec (rmod r) 0) as [?|_]; [lia|].
  rewrite Htail, mod_succ_l by exact Hm0.
  destruct (Nat.eqb_spec ((rhead r + 1 + length l) mod rmod r) (rhead r)) as [E|NE];
    (eexists; split; [reflexivity|]); rewrite (wrap_iff Hh Hl) in *.
  - (* full: grow *)
    rewrite (proj2 (wrap_iff Hh Hl) E). apply (repr_mk (R_push_grow x HR E)).
    + rewrite app_length. cbn [length]. lia.
    + rewrite Hlen, Nat.mod_small; lia.
  - apply (repr_mk (R_push_nogrow x HR ltac:(lia))).
    + rewrite app_length. cbn [length]. lia.
    + rewrite Hlen. f_equal. lia.
Qed.

Lemma pop_refines_empty r : ring_repr r [] -> ring_pop r = inl (None, r).
Proof.
  intros H. apply repr_R in H. destruct H as (_ & Hlen & _). unfold ring_pop.
  cbn in Hlen. now rewrite Hlen.
Qed.

Lemma pop_refines_cons r a l :
  ring_repr r (a :: l) -> exists r', ring_pop r = inl (Some (Some a), r') /\ ring_repr r' l.
Proof.
  intros H. apply repr_R in H. destruct H as (HR & Hlen & Htail).
  pose proof HR as (Hb & Hm & _). cbn [length] in *.
  destruct (R_pop HR) as [Hv HR'].
  unfold ring_pop. rewrite Hlen. cbn [Nat.eqb].
  destruct (Nat.eqb_spec (rmod r) 0) as [?|_]; [lia|].
  rewrite Hv. eexists. split; [reflexivity|]. apply (repr_mk HR'); [lia|].
  rewrite Htail, Nat.add_mod_idemp_l by lia. f_equal. lia.
Qed.

Lemma popmany_refines r l c :
  ring_repr r l -> l <> [] -> (0 <= c)%Z ->
  let k := Z.to_nat (Z.min c (Z.of_nat (length l))) in
  exists r', ring_popmany c r = PMOk (map Some (firstn k l)) r' /\ ring_repr r' (skipn k l).
Proof.
  intros H Hne Hc k. apply repr_R in H. destruct H as (HR & Hlen & Htail).
  revert Htail. (* [mod] makes [lia] slow: the cursor equation comes back when it is needed *)
  pose proof HR as (Hb & Hm & Hh & _).
  assert (Hpos : length l <> 0) by (destruct l; cbn; congruence).
  unfold ring_popmany.
  destruct (Nat.eqb_spec (rlen r) 0) as [?|_]; [lia|].
  destruct (Z.ltb_spec c 0) as [?|_]; [lia|].
  replace (if (Z.of_nat (rlen r) <=? c)%Z then rlen r else Z.to_nat c) with k
    by (unfold k; rewrite Hlen; destruct (Z.leb_spec (Z.of_nat (length l)) c); lia).
  destruct (Nat.eqb_spec (rmod r) 0) as [?|_]; [lia|].
  assert (Hk : k <= length l) by (unfold k; lia).
  assert (HR0 : R (rbuf r) (rmod r) ((rhead r + 0) mod rmod r) l) by (rewrite Nat.add_0_r, Nat.mod_small by lia; exact HR).
  destruct (pm_loop_spec (rhead r) 0 HR0 Hk) as (b' & E & HR').
  rewrite E. intros Htail. eexists. split; [reflexivity|]. rewrite Nat.add_0_r in HR'. apply (repr_mk HR').
  - rewrite skipn_length. clear Htail. lia.
  - rewrite Htail, Nat.add_mod_idemp_l by lia. f_equal. clear Htail. lia.
Qed.

Lemma popmany_empty r c : ring_repr r [] -> ring_popmany c r = PMEmpty.
Proof.
  intros H. apply repr_R in H. destruct H as (_ & Hlen & _). unfold ring_popmany.
  cbn in Hlen. now rewrite Hlen.
Qed.

Lemma popmany_negative r l c :
  ring_repr r l -> l <> [] -> (c < 0)%Z ->
  ring_popmany c r = PMPanic PMakeSlice (Z.of_nat (length l) - c).
Proof.
  intros H Hne Hc. apply repr_R in H. destruct H as (_ & Hlen & _). unfold ring_popmany.
  rewrite Hlen. destruct l; [congruence|]. cbn [length Nat.eqb].
  destruct (Z.ltb_spec c 0); [reflexivity|lia].
Qed.

Definition step_rel (x : option (ring A) * rres A) (y : option (list A) * rres A) : Prop :=
  snd x = snd y /\
  match fst x, fst y with
  | Some r', Some l' => ring_repr r' l'
  | None, None => True
  | _, _ => False
  end.

Lemma step_refines o r l : ring_repr r l -> step_rel (ring_step o r) (fifo_step o l).
Proof.
  intros H. pose proof (proj1 (repr_R r l) H) as (_ & Hlen & _).
  destruct o as [x| |c| |]; unfold step_rel; cbn [ring_step fifo_step].
  - destruct (push_refines x H) as (r' & -> & H'). cbn. auto.
  - destruct l as [|a l].
    + rewrite (pop_refines_empty H). cbn. auto.
    + destruct (pop_refines_cons H) as (r' & -> & H'). cbn. auto.
  - destruct l as [|a l].
    + rewrite (popmany_empty c H). cbn. auto.
    + destruct (Z.ltb_spec c 0) as [Hneg|Hnn].
      * rewrite (popmany_negative H ltac:(discriminate) Hneg). cbn. auto.
      * destruct (popmany_refines (l := a :: l) H ltac:(discriminate) Hnn) as (r' & -> & H').
        cbn. auto.
  - cbn. unfold ring_length. rewrite Hlen. auto.
  - cbn. unfold ring_empty, ring_length. rewrite Hlen. split; auto.
    destruct l; cbn; auto.
Qed.

Lemma run_refines ops : forall r l, ring_repr r l -> ring_run r ops = fifo_run l ops.
Proof.
  induction ops as [|o ops IH]; intros r l H; cbn; auto.
  pose proof (step_refines o H) as (E & HS).
  destruct (ring_step o r) as [[r'|] x], (fifo_step o l) as [[l'|] y]; cbn in *; subst; try tauto.
  f_equal. now apply IH.
Qed.

Lemma exec_refines ops : forall r l, ring_repr r l ->
  match ring_exec r ops, fifo_exec l ops with
  | Some r', Some l' => ring_repr r' l'
  | None, None => True
  | _, _ => False
  end.
Proof.
  induction ops as [|o ops IH]; intros r l H; cbn; auto.
  pose proof (step_refines o H) as (E & HS).
  destruct (ring_step o r) as [[r'|] x], (fifo_step o l) as [[l'|] y]; cbn in *; try tauto.
  now apply IH.
Qed.

Lemma new_repr n : (1 <= n)%Z -> exists r, ring_new n = Some r /\ ring_repr r ([] : list A).
Proof.
  intros Hn. unfold ring_new. destruct (Z.ltb_spec n 0); [lia|].
  eexists. split; [reflexivity|]. apply repr_R. unfold rmod. cbn [rbuf rhead rtail rlen length].
  rewrite repeat_length. split; [apply R_new; lia|]. split; auto.
  rewrite Nat.add_0_r, Nat.mod_small; lia.
Qed.

(** (1) invariant: established by New(n), n >= 1, preserved by every call that returns *)
Lemma new_inv n r : (1 <= n)%Z -> ring_new n = Some r -> ring_inv r.
Proof. intros Hn E. destruct (new_repr Hn) as (r0 & E0 & H). exists []. congruence. Qed.

Lemma step_inv o r r' : ring_inv r -> fst (ring_step o r) = Some r' -> ring_inv r'.
Proof.
  intros [l H] E. pose proof (step_refines o H) as (_ & HS). rewrite E in HS.
  destruct (fst (fifo_step o l)) as [l'|]; [now exists l'|tauto].
Qed.

Lemma exec_inv ops n r' :
  (1 <= n)%Z -> match ring_new n with Some r => ring_exec r ops | None => None end = Some r' -> ring_inv r'.
Proof.
  intros Hn E. destruct (new_repr Hn) as (r0 & E0 & H). rewrite E0 in E.
  pose proof (exec_refines ops H) as HX. rewrite E in HX.
  destruct (fifo_exec [] ops) as [l'|]; [now exists l'|tauto].
Qed.

(** (2) refinement of whole sessions *)
Lemma session_refines n ops : (1 <= n)%Z -> ring_session n ops = fifo_run ([] : list A) ops.
Proof.
  intros Hn. unfold ring_session. destruct (new_repr Hn) as (r0 & -> & H). now apply run_refines.
Qed.

Lemma abs_repr r l : ring_repr r l -> ring_abs r = map Some l.
Proof.
  intros H. apply repr_R in H. destruct H as ((Hb & Hm & Hh & Hl & Hs) & Hlen & _).
  unfold ring_abs. rewrite Hlen. apply nth_ext with (d := None) (d' := None).
  - now rewrite !map_length, seq_length.
  - intros i Hi. rewrite map_length, seq_length in Hi.
    rewrite nth_map_seq by lia. rewrite Hs by lia. symmetry. apply nth_map_some.
Qed.

Lemma fifo_step_spec (o : rop A) l :
  match fifo_step o l with
  | (Some l', x) => map Some (l ++ pushed_of [o]) = popped_of [x] ++ map Some l' /\ is_panic x = false
  | (None, x) => popped_of [x] = [] /\ ~ counts_nonneg [o]
  end.
Proof.
  destruct o as [y| |c| |]; cbn [fifo_step pushed_of popped_of flat_map app is_panic]; rewrite ?app_nil_r; auto.
  - destruct l; auto.
  - destruct l as [|a l]; [auto|]. destruct (Z.ltb_spec c 0) as [Hc|Hc].
    + split; [reflexivity|]. intros H. inversion H. lia.
    + cbn [flat_map]. rewrite app_nil_r, <- map_app, firstn_skipn. auto.
Qed.

Lemma fifo_run_spec ops : forall l,
  exists rest, map Some (l ++ pushed_of ops) = popped_of (fifo_run l ops) ++ rest /\
    (counts_nonneg ops -> exists l', rest = map Some l' /\ fifo_exec l ops = Some l' /\
       length (fifo_run l ops) = length ops /\ existsb (@is_panic A) (fifo_run l ops) = false).
Proof.
  induction ops as [|o ops IH]; intros l.
  - exists (map Some l). cbn. rewrite app_nil_r. split; [reflexivity|]. intros _. exists l. auto.
  - pose proof (fifo_step_spec o l) as C. cbn [fifo_run fifo_exec]. destruct (fifo_step o l) as [[l'|] x].
    + destruct C as [C Hx]. destruct (IH l') as (rest & E & F). exists rest. split.
      * change (o :: ops) with ([o] ++ ops). change (x :: fifo_run l' ops) with ([x] ++ fifo_run l' ops).
        unfold pushed_of, popped_of in *. rewrite !flat_map_app, app_assoc, map_app, C, <- !app_assoc, <- E, map_app. reflexivity.
      * intros Hnn. inversion Hnn as [|? ? _ Hnn']; subst. destruct (F Hnn') as (lf & -> & E1 & E3 & E4).
        exists lf. cbn [fst length existsb]. rewrite Hx, E3, E4. auto.
    + exists (map Some (l ++ pushed_of (o :: ops))). split; [rewrite (proj1 C); reflexivity|].
      intros Hnn. destruct (proj2 C). inversion Hnn. repeat constructor. assumption.
Qed.

Lemma fifo_prefix ops l : exists rest, map Some (l ++ pushed_of ops) = popped_of (fifo_run l ops) ++ rest.
Proof. destruct (fifo_run_spec ops l) as (rest & E & _). exists rest. exact E. Qed.

Lemma fifo_complete ops l : counts_nonneg ops ->
  exists l', fifo_exec l ops = Some l' /\
             map Some (l ++ pushed_of ops) = popped_of (fifo_run l ops) ++ map Some l' /\
             length (fifo_run l ops) = length ops /\
             existsb (@is_panic A) (fifo_run l ops) = false.
Proof. intros Hnn. destruct (fifo_run_spec ops l) as (rest & E & F). destruct (F Hnn) as (l' & -> & H). exists l'. tauto. Qed.

Lemma ring_order n (ops : list (rop A)) : (1 <= n)%Z ->
  exists rest, map Some (pushed_of ops) = popped_of (ring_session n ops) ++ rest.
Proof. intros Hn. rewrite (session_refines ops Hn). exact (fifo_prefix ops []). Qed.

Lemma ring_order_complete n (ops : list (rop A)) : (1 <= n)%Z -> counts_nonneg ops ->
  exists r l, match ring_new n with Some r0 => ring_exec r0 ops | None => None end = Some r /\
              ring_repr r l /\
              map Some (pushed_of ops) = popped_of (ring_session n ops) ++ map Some l /\
              length (ring_session n ops) = length ops /\
              existsb (@is_panic A) (ring_session n ops) = false.
Proof.
  intros Hn Hnn. rewrite (session_refines ops Hn).
  destruct (fifo_complete [] Hnn) as (l & E1 & E2 & E3 & E4).
  destruct (new_repr Hn) as (r0 & -> & H0).
  pose proof (exec_refines ops H0) as HX. rewrite E1 in HX.
  destruct (ring_exec r0 ops) as [r|]; [|tauto].
  exists r, l. auto.
Qed.

Lemma new_zero_push_panics x :
  exists r0, ring_new 0 = Some r0 /\ ring_step (OPush x) r0 = (None, RPanic PDivZero 0).
Proof. eexists. split; reflexivity. Qed.

Lemma new_negative n : (n < 0)%Z -> @ring_new A n = None.
Proof. intros H. unfold ring_new. destruct (Z.ltb_spec n 0); [reflexivity|lia]. Qed.

End Proofs.
