(** C02 - per-sender FIFO, system-before-user priority, stash order.
    Parts in this file: the ring queue under every mailbox (internal/queues/ring.go) and the stash
    (internal/actor/context.go Stash/Unstash).  Statements only; every proof is [exact <lemma>]
    (lemmas in Queue/RingProofs.v, Queue/StashProofs.v). *)
From Coq Require Import List ZArith.
From Vivid Require Import Queue.Ring Queue.RingProofs Queue.Stash Queue.StashProofs.
Import ListNotations.

(** ================================ ring queue ================================ *)

(** (1) the representation invariant.  [ring_repr r l] (Queue/Ring.v): the buffer has m >= 1 slots, the
    cursors are inside it, fewer than m elements are stored, [len] is their number, tail = head + len
    (mod m), and walking cyclically from the slot after head one reads the elements of [l] in order and
    then only nil slots.  [ring_inv r := exists l, ring_repr r l].
    New(n) establishes it for every n >= 1, every call that returns preserves it. *)
Theorem C02_ring_new_invariant {A} n (r : ring A) :
  (1 <= n)%Z -> ring_new n = Some r -> ring_inv r.
Proof. exact (@new_inv A n r). Qed.

Theorem C02_ring_new_is_empty {A} n :
  (1 <= n)%Z -> exists r : ring A, ring_new n = Some r /\ ring_repr r [].
Proof. exact (@new_repr A n). Qed.

Theorem C02_ring_invariant_preserved {A} (o : rop A) r r' :
  ring_inv r -> fst (ring_step o r) = Some r' -> ring_inv r'.
Proof. exact (@step_inv A o r r'). Qed.

Theorem C02_ring_invariant_reachable {A} (ops : list (rop A)) n r' :
  (1 <= n)%Z ->
  match ring_new n with Some r => ring_exec r ops | None => None end = Some r' ->
  ring_inv r'.
Proof. exact (@exec_inv A ops n r'). Qed.

(** (2) refinement.  Every call commutes with the abstraction: on a ring that represents [l] it returns
    exactly what the list FIFO returns on [l], and the new ring represents the new list - whether or
    not the call made the buffer grow.  (The list FIFO [fifo_step] is in Queue/Ring.v: Push appends,
    Pop takes the first element, PopMany c takes the first min(c,length) elements, Length/Empty.) *)
Theorem C02_ring_call_refines_fifo {A} (o : rop A) r l :
  ring_repr r l ->
  snd (ring_step o r) = snd (fifo_step o l) /\
  match fst (ring_step o r), fst (fifo_step o l) with
  | Some r', Some l' => ring_repr r' l'
  | None, None => True
  | _, _ => False
  end.
Proof. exact (@step_refines A o r l). Qed.

Theorem C02_ring_abstraction {A} (r : ring A) l : ring_repr r l -> ring_abs r = map Some l.
Proof. exact (@abs_repr A r l). Qed.

(** for EVERY call sequence and every initial size >= 1 the results of New(n); calls are those of
    the list FIFO started empty *)
Theorem C02_ring_refines_fifo {A} n (ops : list (rop A)) :
  (1 <= n)%Z -> ring_session n ops = fifo_run [] ops.
Proof. exact (@session_refines A n ops). Qed.

(** hence order: what Pop/PopMany hand out, concatenated in call order, is a prefix of what was pushed,
    in push order - nothing duplicated, nothing reordered, nothing skipped - for every call sequence *)
Theorem C02_ring_fifo_order {A} n (ops : list (rop A)) :
  (1 <= n)%Z ->
  exists rest, map Some (pushed_of ops) = popped_of (ring_session n ops) ++ rest.
Proof. exact (@ring_order A n ops). Qed.

(** and nothing lost: if no PopMany count is negative, no call panics, every call is answered, and
    the pushed values are exactly the popped ones followed by the content still represented *)
Theorem C02_ring_fifo_complete {A} n (ops : list (rop A)) :
  (1 <= n)%Z -> counts_nonneg ops ->
  exists r l,
    match ring_new n with Some r0 => ring_exec r0 ops | None => None end = Some r /\
    ring_repr r l /\
    map Some (pushed_of ops) = popped_of (ring_session n ops) ++ map Some l /\
    length (ring_session n ops) = length ops /\
    existsb (@is_panic A) (ring_session n ops) = false.
Proof. exact (@ring_order_complete A n ops). Qed.

(** (3) PopMany as the code has it: the first min(count, length) elements in order, count > length
    clamped, count = 0 gives an empty slice and true; empty queue gives (nil,false) for every count;
    a NEGATIVE count on a non-empty queue panics (makeslice) after len was increased by |count| and
    with the mutex still held *)
Theorem C02_ring_popmany {A} (r : ring A) l c :
  ring_repr r l -> l <> [] -> (0 <= c)%Z ->
  let k := Z.to_nat (Z.min c (Z.of_nat (length l))) in
  exists r', ring_popmany c r = PMOk (map Some (firstn k l)) r' /\ ring_repr r' (skipn k l).
Proof. exact (@popmany_refines A r l c). Qed.

Theorem C02_ring_popmany_empty {A} (r : ring A) c : ring_repr r [] -> ring_popmany c r = PMEmpty.
Proof. exact (@popmany_empty A r c). Qed.

Theorem C02_ring_popmany_negative_panics {A} (r : ring A) l c :
  ring_repr r l -> l <> [] -> (c < 0)%Z ->
  ring_popmany c r = PMPanic PMakeSlice (Z.of_nat (length l) - c).
Proof. exact (@popmany_negative A r l c). Qed.

(** the guard initialSize >= 1: New(0) succeeds and the first Push panics (integer divide by zero);
    New(n) itself panics for n < 0 *)
Theorem C02_ring_new_zero_push_panics {A} (x : A) :
  exists r0, ring_new 0 = Some r0 /\ ring_step (OPush x) r0 = (None, RPanic PDivZero 0).
Proof. exact (@new_zero_push_panics A x). Qed.

Theorem C02_ring_new_negative {A} n : (n < 0)%Z -> @ring_new A n = None.
Proof. exact (@new_negative A n). Qed.

(** ================================ stash ================================ *)

(** (4) Stash appends the current envelope; Unstash() re-enqueues the oldest one; Unstash(n) re-enqueues
    the oldest min(max(n,0), length) in order and keeps the rest ([stash_step] returns
    (new stash, enqueued)) *)
Theorem C02_stash_appends {A} (cur : A) s : stash_step cur SStash s = (s ++ [cur], []).
Proof. exact (@stash_appends A cur s). Qed.

Theorem C02_unstash_noarg {A} (cur : A) s :
  stash_step cur (SUnstash None) s = (skipn 1 s, firstn 1 s).
Proof. exact (@unstash_noarg A cur s). Qed.

Theorem C02_unstash_n {A} (cur : A) n s :
  let k := Z.to_nat (Z.min (Z.max n 0) (Z.of_nat (length s))) in
  stash_step cur (SUnstash (Some n)) s = (skipn k s, firstn k s).
Proof. exact (@unstash_n A cur n s). Qed.

(** n <= 0 re-enqueues nothing (the interface comment in actor_context.go says "num <= 0 restores all":
    the code does not) *)
Theorem C02_unstash_nonpositive_is_noop {A} (cur : A) n s :
  (n <= 0)%Z -> stash_step cur (SUnstash (Some n)) s = (s, []).
Proof. exact (@unstash_nonpositive A cur n s). Qed.

Theorem C02_unstash_all {A} (cur : A) n s :
  (Z.of_nat (length s) <= n)%Z -> stash_step cur (SUnstash (Some n)) s = ([], s).
Proof. exact (@unstash_all A cur n s). Qed.

(** stash order: for every history of Stash / Unstash() / Unstash(n) calls, starting from any stash,
    the batches re-enqueued by the calls, concatenated in call order, followed by what is still
    stashed, are exactly the initial stash followed by the stashed envelopes in stashing order *)
Theorem C02_stash_order {A} (evs : list (A * sop)) s :
  concat (fst (stash_run s evs)) ++ snd (stash_run s evs) = s ++ stashed_of evs.
Proof. exact (@stash_run_order A evs s). Qed.

(** each exactly once: tag every call with its position (so two Stash calls of the same envelope are
    different stash entries); then no entry occurs twice among the re-enqueued batches and the
    remaining stash; and the tags do not influence the run *)
Theorem C02_stash_at_most_once {A} (evs : list (A * sop)) :
  NoDup (concat (fst (stash_run [] (tag_from 0 evs))) ++ snd (stash_run [] (tag_from 0 evs))).
Proof. exact (@stash_run_once A evs). Qed.

Theorem C02_stash_tags_are_inert {A} (evs : list (A * sop)) k (s : list (nat * A)) :
  stash_run (map snd s) evs =
  (map (map snd) (fst (stash_run s (tag_from k evs))), map snd (snd (stash_run s (tag_from k evs)))).
Proof. exact (@stash_run_untag A evs k s). Qed.

(** ================================ non-vacuity ================================ *)

(** a session that crosses two growth boundaries (1 -> 2 -> 4 -> 8 slots) with wrap-around in between *)
Example C02_ring_two_growths :
  ring_session 1 [OPush 1; OPush 2; OPop; OPush 3; OPush 4; OPush 5; OLength; OPopMany 2; OPush 6;
                  OPopMany 0; OPopMany 10; OPop; OEmpty]
  = [RPush; RPush; RPop (Some (Some 1)); RPush; RPush; RPush; RLength 4;
     RPopMany (Some [Some 2; Some 3]); RPush; RPopMany (Some []);
     RPopMany (Some [Some 4; Some 5; Some 6]); RPop None; REmpty true] /\
  option_map (fun r => (length (rbuf r), rhead r, rtail r))
    (ring_exec {| rbuf := [None]; rhead := 0; rtail := 0; rlen := 0 |}
       [OPush 1; OPush 2; OPop; OPush 3; OPush 4; OPush 5]) = Some (8, 0, 4).
Proof. split; reflexivity. Qed.

(** the hypotheses [ring_repr r l], [l <> []] are met by a wrapped-around ring *)
Example C02_ring_repr_example :
  ring_repr {| rbuf := [Some 3; None; Some 1; Some 2]; rhead := 1; rtail := 0; rlen := 3 |} [1; 2; 3]
  /\ [1; 2; 3] <> [].
Proof.
  split; [|discriminate]. unfold ring_repr, rmod; cbn. repeat split; auto.
  intros i Hi. do 4 (destruct i as [|i]; [reflexivity|]). exfalso.
  do 4 apply Nat.succ_lt_mono in Hi. inversion Hi.
Qed.

Example C02_counts_nonneg_example : counts_nonneg [OPush 1; OPopMany 0; OPopMany 5; OPop].
Proof. repeat constructor; discriminate. Qed.

(** the panic is real in the model of the unchanged code: New(1); Push; PopMany(-1) *)
Example C02_ring_popmany_negative_witness :
  ring_session 1 [OPush 7; OPopMany (-1); OLength] = [RPush; RPanic PMakeSlice 2].
Proof. reflexivity. Qed.

Example C02_stash_history_example :
  stash_run [] [(10, SStash); (11, SStash); (11, SStash); (12, SStash); (13, SUnstash (Some 2%Z));
                (14, SStash); (15, SUnstash None); (16, SUnstash (Some (-1)%Z)); (17, SUnstash (Some 100%Z));
                (18, SUnstash None)]
  = ([[]; []; []; []; [10; 11]; []; [11]; []; [12; 14]; []], []).
Proof. reflexivity. Qed.

Print Assumptions C02_ring_new_invariant.
Print Assumptions C02_ring_new_is_empty.
Print Assumptions C02_ring_invariant_preserved.
Print Assumptions C02_ring_invariant_reachable.
Print Assumptions C02_ring_call_refines_fifo.
Print Assumptions C02_ring_abstraction.
Print Assumptions C02_ring_refines_fifo.
Print Assumptions C02_ring_fifo_order.
Print Assumptions C02_ring_fifo_complete.
Print Assumptions C02_ring_popmany.
Print Assumptions C02_ring_popmany_empty.
Print Assumptions C02_ring_popmany_negative_panics.
Print Assumptions C02_ring_new_zero_push_panics.
Print Assumptions C02_ring_new_negative.
Print Assumptions C02_stash_appends.
Print Assumptions C02_unstash_noarg.
Print Assumptions C02_unstash_n.
Print Assumptions C02_unstash_nonpositive_is_noop.
Print Assumptions C02_unstash_all.
Print Assumptions C02_stash_order.
Print Assumptions C02_stash_at_most_once.
Print Assumptions C02_stash_tags_are_inert.
