(** C17 — Cluster view merge is order-insensitive and never regresses a member.
    Statements; every theorem is closed by [exact] from the lemmas of Cluster/ViewProofs.v (model in
    Cluster/View.v); the Examples (non-vacuity) are proved here.

    Reading guide.  [view_merge skew strat now v o] is v.MergeFromWithOptions(o, {MaxClockSkew: skew,
    VersionConcurrentStrategy: strat}) executed at wall-clock [now]; [fst] is the new v, [snd] is
    `changed`.  [proj v] is the membership the property talks about: member id -> (generation,
    logical clock); [inc_lt] is the lexicographic order on incarnations, [inc_max] its maximum.
      WF v    : every key equals its state's ID, generation >= 1, logical clock >= 1
      VVin v  : every version-vector key is a member id
      CapOK v : the member count is within MaxVersionVectorEntries (default 65535)
                (VVin / CapOK only guard the version-vector monotonicity theorems; `changed` needs neither)
      reach v : v is built by newClusterView, AddMember of well-formed states (joins), IncrementVersion
                of a member, in-place status changes, the restart bump of tryJoinSeeds, Snapshot and
                merges of such views (the property's quantifier; no removals).
    [view_merge_before_fix] is the same function with `changed` computed as the code did before commit
    53b1085 (merged vector compared with the already pruned one); it only occurs in the regression Example.
    All theorems are for every skew / strategy / clock value unless a value is written out. *)
From Coq Require Import List NArith ZArith Lia.
From stdpp Require Import gmap.
From Vivid Require Import Codec.Prim Cluster.VV Cluster.VVProofs Cluster.View Cluster.ViewProofs.
Local Open Scope N_scope.

(** ** IsNewerThan: the interplay of its three criteria *)

(** on well-formed states of one node it is exactly "strictly newer incarnation"
    (higher generation wins, then higher logical clock); the timestamp is never consulted *)
Theorem C17_isnewer_is_incarnation_order n o :
  ns_id n = ns_id o -> wf_state n -> wf_state o ->
  isnewer n o = inc_lt (inc_of o) (inc_of n).
Proof. exact (isnewer_wf n o). Qed.

(** irreflexive and asymmetric on all states; transitive on well-formed states of one node *)
Theorem C17_isnewer_strict_order :
  (forall s, isnewer s s = false) /\
  (forall n o, isnewer n o = true -> isnewer o n = false) /\
  (forall a b c, ns_id a = ns_id b -> ns_id b = ns_id c -> wf_state a -> wf_state b -> wf_state c ->
                 isnewer a b = true -> isnewer b c = true -> isnewer a c = true).
Proof. exact (conj isnewer_irrefl (conj isnewer_asym isnewer_wf_trans)). Qed.

(** without well-formedness (a logical clock of 0, which only a wire-decoded state can have) the three
    criteria form a 3-cycle on states of the same node and generation *)
Theorem C17_isnewer_cycle_example :
  exists a b c, ns_id a = ns_id b /\ ns_id b = ns_id c /\
    isnewer a b = true /\ isnewer b c = true /\ isnewer c a = true.
Proof. exact (ex_intro _ cyc_a (ex_intro _ cyc_b (ex_intro _ cyc_c (conj eq_refl (conj eq_refl isnewer_cycle))))). Qed.

(** ** WF and VVin are invariants of everything the code can build *)

Theorem C17_reachable_wf v : reach v -> WF v /\ VVin v.
Proof. exact (reach_wf v). Qed.

(** operation by operation (RemoveMember included) *)
Theorem C17_wf_invariant :
  (forall id addr now, wf_state (new_node_state id addr now)) /\
  (forall s st, wf_state s -> wf_state (ns_set_status s st)) /\
  (forall now maxent, WF (new_view now maxent) /\ VVin (new_view now maxent)) /\
  (forall v s, WF v -> wf_state s -> WF (view_add v s)) /\
  (forall v s, VVin v -> VVin (view_add v s)) /\
  (forall v id, WF v -> WF (view_remove v id)) /\
  (forall v id, VVin v -> vw_members (view_remove v id) <> ∅ -> VVin (view_remove v id)) /\
  (forall v id, WF v -> WF (view_inc v id)) /\
  (forall v id, VVin v -> is_Some (vw_members v !! id) -> VVin (view_inc v id)) /\
  (forall v id st, WF v -> WF (view_set_status v id st)) /\
  (forall v id st, VVin v -> VVin (view_set_status v id st)) /\
  (forall self v now, WF v -> wf_state self ->
      wf_state (fst (view_rejoin self v now)) /\ WF (snd (view_rejoin self v now))) /\
  (forall self v now, VVin v -> VVin (snd (view_rejoin self v now))) /\
  (forall sk st now v o, WF v -> WF o -> WF (fst (view_merge sk st now v o))) /\
  (forall sk st now v o, VVin v -> VVin o -> VVin (fst (view_merge sk st now v o))).
Proof.
  exact (conj wf_new_node_state (conj wf_set_status (conj (fun now maxent => conj (WF_new now maxent) (VVin_new now maxent))
        (conj WF_add (conj VVin_add (conj WF_remove (conj VVin_remove (conj WF_inc (conj VVin_inc
        (conj WF_set_status (conj VVin_set_status
        (conj (fun self v now Hv Hs => conj (wf_rejoin_state self v now Hv Hs) (WF_rejoin self v now Hv Hs))
        (conj VVin_rejoin (conj WF_merge VVin_merge)))))))))))))).
Qed.

(** ** The membership of a merge = union of members, each at its newest incarnation *)

Theorem C17_proj_merge sk st now v o k :
  WF v -> WF o ->
  proj (fst (view_merge sk st now v o)) !! k =
  match proj v !! k, proj o !! k with
  | Some x, Some y => Some (inc_max x y)
  | Some x, None => Some x
  | None, Some y => Some y
  | None, None => None
  end.
Proof. exact (proj_merge_pointwise sk st now v o k). Qed.

(** commutative, associative, idempotent on the membership — each merge with its own options/clock *)
Theorem C17_merge_comm sk st now sk' st' now' a b :
  WF a -> WF b ->
  proj (fst (view_merge sk st now a b)) = proj (fst (view_merge sk' st' now' b a)).
Proof. exact (proj_merge_comm sk st now sk' st' now' a b). Qed.

Theorem C17_merge_assoc sk1 st1 n1 sk2 st2 n2 sk3 st3 n3 sk4 st4 n4 a b c :
  WF a -> WF b -> WF c ->
  proj (fst (view_merge sk1 st1 n1 (fst (view_merge sk2 st2 n2 a b)) c)) =
  proj (fst (view_merge sk3 st3 n3 a (fst (view_merge sk4 st4 n4 b c)))).
Proof. exact (proj_merge_assoc sk1 st1 n1 sk2 st2 n2 sk3 st3 n3 sk4 st4 n4 a b c). Qed.

Theorem C17_merge_idem sk st now a : WF a -> proj (fst (view_merge sk st now a a)) = proj a.
Proof. exact (proj_merge_idem sk st now a). Qed.

(** whatever order: two merge expressions (any tree shape, any options and clock at every node) over
    the same multiset of well-formed views produce the same membership ... *)
Theorem C17_any_merge_order e1 e2 :
  Forall WF (mleaves e1) -> mleaves e1 ≡ₚ mleaves e2 -> proj (meval e1) = proj (meval e2).
Proof. exact (merge_order_insensitive e1 e2). Qed.

(** ... namely: an id is absent iff it is absent from every view; otherwise its incarnation is one
    that some view has and no view has a newer one *)
Theorem C17_union_at_newest_incarnation e k :
  Forall WF (mleaves e) ->
  (proj (meval e) !! k = None <-> (forall v, v ∈ mleaves e -> proj v !! k = None)) /\
  (forall p, proj (meval e) !! k = Some p ->
     (exists v, v ∈ mleaves e /\ proj v !! k = Some p) /\
     (forall v q, v ∈ mleaves e -> proj v !! k = Some q -> inc_lt p q = false)).
Proof. exact (meval_union_newest e k). Qed.

(** commutativity does NOT extend to the full member states: two reachable views holding the same
    incarnation with a different Status (status flips are in place and do not touch the logical
    clock) each keep their own state, and neither merge reports a change *)
Theorem C17_full_state_comm_refuted :
  exists a b, reach a /\ reach b /\
    vw_members (fst (view_merge 0 0 0 a b)) <> vw_members (fst (view_merge 0 0 0 b a)) /\
    snd (view_merge 0 0 0 a b) = false /\ snd (view_merge 0 0 0 b a) = false.
Proof. exact full_state_comm_refuted. Qed.

(** ** A merge never removes a member, never regresses one *)

(** no WF needed: the stored state is the old one or one of [o] that IsNewerThan it *)
Theorem C17_no_member_removed sk st now v o k s :
  vw_members v !! k = Some s ->
  exists s', vw_members (fst (view_merge sk st now v o)) !! k = Some s' /\
             (s' = s \/ (vw_members o !! k = Some s' /\ isnewer s' s = true)).
Proof. exact (merge_keeps_member sk st now v o k s). Qed.

Theorem C17_no_regression sk st now v o k p :
  WF v -> WF o -> proj v !! k = Some p ->
  exists p', proj (fst (view_merge sk st now v o)) !! k = Some p' /\ inc_lt p' p = false.
Proof. exact (merge_no_regression sk st now v o k p). Qed.

(** WF is needed: a state with logical clock 0 replaces a newer incarnation on timestamp *)
Theorem C17_no_regression_without_wf_refuted :
  WF w_lc5 /\ ~ WF w_lc0 /\
  proj w_lc5 !! ida = Some (1%Z, 5) /\ proj (fst (view_merge 0 0 0 w_lc5 w_lc0)) !! ida = Some (1%Z, 0).
Proof. exact regression_without_wf. Qed.

(** ** Epoch (and view timestamp, protocol version) never lowered — all views, all options *)
Theorem C17_epoch_monotone sk st now v o :
  (vw_epoch v <= vw_epoch (fst (view_merge sk st now v o)))%Z /\
  (vw_ts v <= vw_ts (fst (view_merge sk st now v o)))%Z /\
  vw_proto v <= vw_proto (fst (view_merge sk st now v o)).
Proof. exact (merge_epoch_mono sk st now v o). Qed.

(** TakeMax / PreferRemote without the skew test: the maximum *)
Theorem C17_epoch_max st now v o :
  st <> 1%Z -> vw_members o <> ∅ ->
  vw_epoch (fst (view_merge 0 st now v o)) = Z.max (vw_epoch v) (vw_epoch o).
Proof. exact (merge_epoch_max st now v o). Qed.

(** ** Version vector *)

(** no entry of a member (of the result, hence of the old view) is lowered — guard: the member count
    of the result is within MaxVersionVectorEntries *)
Theorem C17_vv_entry_monotone_partial sk st now v o k :
  CapOK (fst (view_merge sk st now v o)) ->
  is_Some (vw_members (fst (view_merge sk st now v o)) !! k) ->
  vget (vw_vv v) k <= vget (vw_vv (fst (view_merge sk st now v o))) k.
Proof. exact (merge_vv_member_mono sk st now v o k). Qed.

(** with VVin no entry at all is lowered *)
Theorem C17_vv_monotone_partial sk st now v o :
  VVin v -> CapOK (fst (view_merge sk st now v o)) ->
  forall k, vget (vw_vv v) k <= vget (vw_vv (fst (view_merge sk st now v o))) k.
Proof. exact (merge_vv_mono sk st now v o). Qed.

(** the guard can be violated by reachable views: with MaxVersionVectorEntries = 1 and two members the
    prune in recomputeCounts drops a member's entry and the next merge lowers it (that merge reports
    changed = true, see C17_changed_sound_regression; the entry is lowered all the same) *)
Theorem C17_vv_entry_monotone_refuted :
  exists v o k, reach v /\ reach o /\ is_Some (vw_members v !! k) /\
    vget (vw_vv (fst (view_merge 0 0 0 v o))) k < vget (vw_vv v) k.
Proof. exact vv_entry_monotone_refuted. Qed.

(** under the guards the resulting vector is the pointwise maximum, whatever the order, strategy, skew *)
Theorem C17_vv_order_independent sk st now sk' st' now' a b :
  VVin a -> VVin b ->
  CapOK (fst (view_merge sk st now a b)) -> CapOK (fst (view_merge sk' st' now' b a)) ->
  vw_vv (fst (view_merge sk st now a b)) = vw_vv (fst (view_merge sk' st' now' b a)).
Proof. exact (merge_vv_comm sk st now sk' st' now' a b). Qed.

(** ** changed *)

(** sound, for EVERY pair of views (no guard, not even well-formedness): the members map (full states)
    or any version-vector counter differs => changed.  The merged vector is compared with the vector
    as it was before recomputeCounts pruned it, so entries dropped by the prune (keys that are no
    members; truncation to MaxVersionVectorEntries) are reported. *)
Theorem C17_changed_sound sk st now v o :
  vw_members (fst (view_merge sk st now v o)) <> vw_members v \/
  (exists k, vget (vw_vv (fst (view_merge sk st now v o))) k <> vget (vw_vv v) k) ->
  snd (view_merge sk st now v o) = true.
Proof. exact (merge_changed_sound sk st now v o). Qed.

(** and exact, for every pair of views: changed iff members, version vector (as a function id -> counter),
    epoch, view timestamp or protocol version differ.  In particular an entry that the prune drops and
    the argument view brings back with the same counter is, correctly, no change. *)
Theorem C17_changed_exact sk st now v o :
  snd (view_merge sk st now v o) = true <->
  (vw_members (fst (view_merge sk st now v o)) <> vw_members v \/
   ~ (forall k, vget (vw_vv (fst (view_merge sk st now v o))) k = vget (vw_vv v) k) \/
   vw_epoch (fst (view_merge sk st now v o)) <> vw_epoch v \/
   vw_ts (fst (view_merge sk st now v o)) <> vw_ts v \/
   vw_proto (fst (view_merge sk st now v o)) <> vw_proto v).
Proof. exact (merge_changed_exact sk st now v o). Qed.

(** the hypothesis of C17_changed_sound is met by the two views on which the code before commit 53b1085
    failed (regression): [view_merge_before_fix] builds the same view but returned changed = false
    (a) on reachable views when the prune truncates (MaxVersionVectorEntries = 1, two members) and
    (b) for a version-vector key that is no member (RemoveMember(b); IncrementVersion(b)): the entry of
    the NON-member b is dropped - no member's entry is lowered - and the merge now says so. *)
Example C17_changed_sound_regression :
  (forall sk st now v o, fst (view_merge_before_fix sk st now v o) = fst (view_merge sk st now v o)) /\
  (exists v o k, reach v /\ reach o /\
     vget (vw_vv (fst (view_merge 0 0 0 v o))) k <> vget (vw_vv v) k /\
     snd (view_merge 0 0 0 v o) = true /\ snd (view_merge_before_fix 0 0 0 v o) = false) /\
  (WF w_nm /\ WF w_nm_o /\ ~ VVin w_nm /\ vw_members w_nm !! idb = None /\
   vget (vw_vv (fst (view_merge 0 0 0 w_nm w_nm_o))) idb < vget (vw_vv w_nm) idb /\
   snd (view_merge 0 0 0 w_nm w_nm_o) = true /\ snd (view_merge_before_fix 0 0 0 w_nm w_nm_o) = false).
Proof. exact changed_unsound_before_fix. Qed.

(** merging a view with its own snapshot changes neither members, vector, epoch nor timestamp *)
Theorem C17_self_merge sk st now v :
  vw_members (fst (view_merge sk st now v (view_snapshot v))) = vw_members v /\
  (forall k, vget (vw_vv (fst (view_merge sk st now v (view_snapshot v)))) k = vget (vw_vv v) k) /\
  vw_epoch (fst (view_merge sk st now v (view_snapshot v))) = vw_epoch v /\
  vw_ts (fst (view_merge sk st now v (view_snapshot v))) = vw_ts v.
Proof. exact (merge_self sk st now v). Qed.

(** ** Non-vacuity: the hypotheses are met by non-trivial reachable views *)

(** ex_a = {a(1,1), b(1,1)} with vector {a:2}; ex_b = {b restarted to (2,2)} with vector {b:1}:
    reachable, concurrent vectors, within the cap; the merge takes b's newer incarnation and reports it *)
Example C17_hypotheses_satisfiable :
  reach ex_a /\ reach ex_b /\ WF ex_a /\ WF ex_b /\ VVin ex_a /\ VVin ex_b /\
  CapOK (fst (view_merge 0 0 0 ex_a ex_b)) /\
  proj (fst (view_merge 0 0 0 ex_a ex_b)) !! idb = Some (2%Z, 2) /\
  proj (fst (view_merge 0 0 0 ex_a ex_b)) !! ida = Some (1%Z, 1) /\
  snd (view_merge 0 0 0 ex_a ex_b) = true /\
  is_concurrent (vw_vv ex_a) (vw_vv ex_b) = true.
Proof.
  destruct ex_reach as [Ra Rb]. destruct (reach_wf _ Ra) as [Wa Va]. destruct (reach_wf _ Rb) as [Wb Vb].
  destruct ex_merge_values as (H1 & H2 & H3 & H4).
  split; [exact Ra|]. split; [exact Rb|]. split; [exact Wa|]. split; [exact Wb|]. split; [exact Va|]. split; [exact Vb|].
  split; [exact ex_capok|]. auto.
Qed.

(** a three-leaf merge expression and a permutation of it with other options *)
Example C17_any_merge_order_example :
  proj (meval (MNode 0 0 0 (MNode 0 1 5 (MLeaf ex_a) (MLeaf ex_b)) (MLeaf w_suspect))) =
  proj (meval (MNode 7 2 9 (MLeaf w_suspect) (MNode 0 0 0 (MLeaf ex_b) (MLeaf ex_a)))).
Proof.
  apply merge_order_insensitive.
  - cbn [mleaves app]. destruct ex_reach as [Ra Rb]. destruct w_reach as [_ Rs].
    repeat (apply Forall_cons; split; [apply reach_wf; assumption|]). apply Forall_nil. exact I.
  - cbn [mleaves app]. etransitivity; [apply perm_swap|]. symmetry.
    exact (Permutation_cons_append [ex_b; ex_a] w_suspect).
Qed.

(** PreferLocal on concurrent vectors: the epoch (not part of the membership) depends on the order *)
Example C17_epoch_prefer_local_depends_on_order :
  vw_epoch (fst (view_merge 0 1 0 (w_ep ida 1) (w_ep idb 2))) = 1%Z /\
  vw_epoch (fst (view_merge 0 1 0 (w_ep idb 2) (w_ep ida 1))) = 2%Z /\
  vw_epoch (fst (view_merge 0 0 0 (w_ep ida 1) (w_ep idb 2))) = 2%Z.
Proof. exact epoch_not_commutative_prefer_local. Qed.

(** the skew branch: a view timestamp further than MaxClockSkew from now blocks epoch adoption *)
Example C17_skew_blocks_epoch :
  vw_epoch (fst (view_merge 10 0 1000 (w_ep ida 1) (w_ep idb 2))) = 1%Z /\
  vw_epoch (fst (view_merge 10 0 105 (w_ep ida 1) (w_ep idb 2))) = 2%Z.
Proof. vm_compute. auto. Qed.

Print Assumptions C17_isnewer_is_incarnation_order.
Print Assumptions C17_isnewer_strict_order.
Print Assumptions C17_isnewer_cycle_example.
Print Assumptions C17_reachable_wf.
Print Assumptions C17_wf_invariant.
Print Assumptions C17_proj_merge.
Print Assumptions C17_merge_comm.
Print Assumptions C17_merge_assoc.
Print Assumptions C17_merge_idem.
Print Assumptions C17_any_merge_order.
Print Assumptions C17_union_at_newest_incarnation.
Print Assumptions C17_full_state_comm_refuted.
Print Assumptions C17_no_member_removed.
Print Assumptions C17_no_regression.
Print Assumptions C17_no_regression_without_wf_refuted.
Print Assumptions C17_epoch_monotone.
Print Assumptions C17_epoch_max.
Print Assumptions C17_vv_entry_monotone_partial.
Print Assumptions C17_vv_monotone_partial.
Print Assumptions C17_vv_entry_monotone_refuted.
Print Assumptions C17_vv_order_independent.
Print Assumptions C17_changed_sound.
Print Assumptions C17_changed_exact.
Print Assumptions C17_self_merge.
