(** C15 — Location transparency: Kill, Watch, Ping, Ask/Reply, PipeTo (and Tell, Unwatch, scheduler firings) work
    on remote refs: every operation of the actor API that takes an ActorRef puts into the REMOTE target's
    mailbox the envelope a local call puts into a local target's mailbox.

    Statements only; every proof is [exact <lemma>] (Remoting/TransparencyProofs.v).  Model: Remoting/Transparency.v.
    The theorems COMPOSE C12 (Codec/EnvelopeProofs.envelope_rt = C12_envelope, which contains the round trip of every
    registered message kind and of a user payload through the Codec) with C11 (Remoting/FrameProofs: exactly once,
    in order, for every chunking of the byte stream); Properties/C15_remote.v keeps the two wire-level theorems
    about raw envelopes.

    Reading guide.
    - [op] lists the operations; [op_envelope o] is the envelope Context.tell / Context.ask builds for [o]
      (system flag, sender ref, receiver ref, message).  A ref is the (address, path) pair of a [*Ref]; the model
      has no ref identity, so "the same envelope modulo ref identity" ([env_equiv]: system flag, message, sender
      address/path, receiver address/path) is equality of envelopes with present refs ([C15_equiv_is_equality]).
    - [wire_bytes e] = what the sender's remoting mailbox writes for [e] (EncodeEnvelopWithRemoting, 4-byte length);
      [remote_receive own chunks] = what the receiving system (advertised address [own]) enqueues when its conn.Read
      calls return [chunks] (frame reader as coded, DecodeEnvelopWithRemoting, HandleRemotingEnvelop's NewRef on both
      refs, the receiver re-addressed to [own] when the wire carries another address string of the system);
      [remote_transport own e] = the same for the unsplit frame.
    - [find_mailbox addr r] = System.findMailbox of a cache-less ref on the system whose address is [addr].

    TRUSTED BASE / explicit hypotheses (each appears in the statements):
    - M5  TCP on a healthy link is a reliable FIFO byte stream that may split and coalesce arbitrarily: the
          hypothesis [concat chunks = wire_bytes ...] (the reads concatenate to exactly the written bytes).
    - M9  the user Codec round-trips the payload: the [M_Outside] clause of [valid_msg]
          ([cenc u = MOk d /\ len32 d /\ cdec d = MOk u]); only OpTell / OpAsk / OpReply / nested messages use it.
    - NewRef idempotence on the refs used: [valid_aref newref r] ([newref a p = MOk (a, p)], strings fit their
          length prefix, not two empty strings); [C15_newref_made_refs_valid] derives it for every ref NewRef made
          from idempotence of NewRef; the remoting harness tests idempotence on the implementation every run.
    - M7  agent (future) paths are unique: [table (snd agent) = Some fut] in [C15_remote_ask_reply] (the entry
          registered by appendFuture before the send is still the one under that path when the reply arrives).
    - the two size conditions [fits] (message body below 4 GiB) and [frame_ok] (envelope at most 4 MiB) are part of
          [valid_op]; for the flat built-in operations they are PROVED from [small_op] (strings up to 64 KiB).
    Normalisations of C12 that the validity predicates exclude (the received message equals the sent one only
    outside them): typed-nil / two-empty-string ActorRef fields read back as nil, instants outside int64
    nanoseconds wrap, PipeResult.Error is mapped by [perr_of_wire] (see [C15_remote_pipe_failure_any_error]). *)
From Coq Require Import List NArith ZArith Lia.
Import ListNotations.
From Vivid Require Import Codec.Prim Codec.MsgPrim Cluster.VV Codec.ClusterMsgs Codec.Msgs Codec.MsgsWitnesses
  Remoting.Frame Codec.Envelope Remoting.Transparency Remoting.TransparencyProofs.
From Vivid Require Actor.Core.
From Vivid Require Remoting.Churn Remoting.ChurnProofs.
Local Open Scope N_scope.

(** * the transparency theorem *)
(** [own] = the advertised address of the system that hosts the target.  For every operation, every wire-valid
    instance, every chunking of the byte stream and WHATEVER address string of that system the caller's ref
    carries ([valid_aref newref (own, path)]: the target's path is a valid path under the system's own address -
    for a ref that already carries [own] this is part of [valid_op]): the target system enqueues exactly one
    envelope, under the target's path, with the system flag, the message, the sender (address, path) and the
    receiver path of the caller's envelope and the system's own address as receiver address - the envelope a call
    on the target system itself enqueues ([localized]) *)
Theorem C15_transparent U hc cenc cdec qerr newref (own : bytes) (o : op U) :
  valid_op U hc cenc cdec qerr newref o -> valid_aref newref (own, snd (op_receiver U o)) ->
  exists e',
    remote_transport U hc cenc cdec qerr newref own (op_envelope U o) = Some e' /\
    env_equiv U e' (localized U own (op_envelope U o)) /\
    (forall chunks, concat chunks = wire_bytes U hc cenc (op_envelope U o) ->
                    remote_receive U hc cdec qerr newref own chunks = [Some e']) /\
    find_mailbox own (e_receiver U e') = ToLocal (snd (op_receiver U o)).
Proof. exact (transparent U hc cenc cdec qerr newref own o). Qed.

(** [localized own] only replaces the receiver's address by [own]; for a ref with the system's own address it is
    the identity: the enqueued envelope is then literally the one a local call enqueues *)
Theorem C15_localized U (own : bytes) (o : op U) :
  localized U own (op_envelope U o) =
  {| e_system := e_system U (op_envelope U o); e_sender := to_eref (op_sender U o);
     e_receiver := RRef own (snd (op_receiver U o)); e_msg := e_msg U (op_envelope U o) |}.
Proof. exact (localized_op U own o). Qed.
Theorem C15_localized_canonical U (o : op U) : localized U (fst (op_receiver U o)) (op_envelope U o) = op_envelope U o.
Proof. exact (localized_op_canonical U o). Qed.

(** in this model the equivalence is equality (no ref identity) *)
Theorem C15_equiv_is_equality U (e1 e2 : envelope U) :
  env_equiv U e1 e2 ->
  (exists a p, e_sender U e1 = RRef a p) -> (exists a p, e_receiver U e1 = RRef a p) ->
  (exists a p, e_sender U e2 = RRef a p) -> (exists a p, e_receiver U e2 = RRef a p) -> e1 = e2.
Proof. exact (env_equiv_eq U e1 e2). Qed.

(** any number of operations over one connection: each is enqueued exactly once, in the order of the calls *)
Theorem C15_transparent_stream U hc cenc cdec qerr newref (own : bytes) (os : list (op U)) (chunks : list bytes) :
  Forall (fun o => valid_op U hc cenc cdec qerr newref o /\ valid_aref newref (own, snd (op_receiver U o))) os ->
  concat chunks = concat (map (fun o => wire_bytes U hc cenc (op_envelope U o)) os) ->
  remote_receive U hc cdec qerr newref own chunks = map (fun o => Some (localized U own (op_envelope U o))) os.
Proof. exact (transparent_stream U hc cenc cdec qerr newref own os chunks). Qed.

(** the same at the level of envelopes, whatever built them *)
Theorem C15_envelope_transport U hc cenc cdec qerr newref (own : bytes) (e : envelope U) :
  wire_valid U hc cenc cdec qerr newref e -> present_ref newref (e_receiver U (localized U own e)) ->
  remote_transport U hc cenc cdec qerr newref own e = Some (localized U own e) /\
  forall chunks, concat chunks = wire_bytes U hc cenc e ->
                 remote_receive U hc cdec qerr newref own chunks = [Some (localized U own e)].
Proof. exact (fun HV HP => transport_one U hc cenc cdec qerr newref own e (conj HV HP)). Qed.

(** the receiver is a function of the concatenation of its reads (no hypothesis on the bytes) *)
Theorem C15_chunking_independent U hc cdec qerr newref (own : bytes) (chunks1 chunks2 : list bytes) :
  concat chunks1 = concat chunks2 ->
  remote_receive U hc cdec qerr newref own chunks1 = remote_receive U hc cdec qerr newref own chunks2.
Proof. exact (transport_chunking U hc cdec qerr newref own chunks1 chunks2). Qed.

(** routing on the calling system: findMailbox picks the remoting mailbox of the address string in the ref *)
Theorem C15_routing U (here : bytes) (o : op U) :
  fst (op_receiver U o) <> here ->
  find_mailbox here (e_receiver U (op_envelope U o)) = ToRemote (fst (op_receiver U o)).
Proof. exact (routing U here o). Qed.

(** the size conditions of the flat built-in operations follow from string bounds *)
Theorem C15_builtin_sizes U hc cenc (o : op U) :
  small_op U o -> fits U hc cenc (e_msg U (op_envelope U o)) /\ frame_ok U hc cenc (op_envelope U o).
Proof. exact (builtin_sizes U hc cenc o). Qed.

(** every ref NewRef made is a valid ref, if NewRef is idempotent *)
Theorem C15_newref_made_refs_valid (newref : bytes -> bytes -> mres (bytes * bytes)) :
  (forall a p a' p', newref a p = MOk (a', p') -> newref a' p' = MOk (a', p')) ->
  forall a0 p0 a p, newref a0 p0 = MOk (a, p) -> len32 a -> len32 p -> (a <> [] \/ p <> []) ->
  valid_aref newref (a, p).
Proof. exact (fun Hi a0 p0 a p Hn La Lp Hne => conj La (conj Lp (conj Hne (Hi a0 p0 a p Hn)))). Qed.

(** * per operation.  [own] / [ownT] = the advertised address of the target's system, [ownW] / [ownA] = that of the
    watcher's / asker's system.  The ref the caller holds ([target]) may carry [own] or an alias of it. *)
(** Kill: OnKill{Killer, Reason, Poison} arrives as a system message iff the kill is not a poison kill, names the
    killer's address and path, and is enqueued under the target's path *)
Theorem C15_remote_kill U hc cenc cdec qerr newref (own : bytes) (killer target : bytes * bytes) (reason : bytes) (poison : bool) :
  valid_aref newref killer -> valid_aref newref target -> valid_aref newref (own, snd target) ->
  small_aref killer -> small_aref target -> small reason ->
  exists e',
    remote_transport U hc cenc cdec qerr newref own (op_envelope U (OpKill killer target reason poison)) = Some e' /\
    (forall chunks, concat chunks = wire_bytes U hc cenc (op_envelope U (OpKill killer target reason poison)) ->
                    remote_receive U hc cdec qerr newref own chunks = [Some e']) /\
    e_system U e' = negb poison /\
    e_msg U e' = M_OnKill (RRef (fst killer) (snd killer)) reason poison /\
    e_sender U e' = RRef (fst killer) (snd killer) /\
    e_receiver U e' = RRef own (snd target) /\
    find_mailbox own (e_receiver U e') = ToLocal (snd target).
Proof. exact (remote_kill U hc cenc cdec qerr newref own killer target reason poison). Qed.

(** Watch: WatchMessage arrives as a system message whose sender has the watcher's address and path; the key
    onWatch files it under is "address@path" of the watcher *)
Theorem C15_remote_watch U hc cenc cdec qerr newref (own : bytes) (watcher target : bytes * bytes) :
  valid_aref newref watcher -> valid_aref newref target -> valid_aref newref (own, snd target) ->
  small_aref watcher -> small_aref target ->
  exists e',
    remote_transport U hc cenc cdec qerr newref own (op_envelope U (OpWatch watcher target)) = Some e' /\
    (forall chunks, concat chunks = wire_bytes U hc cenc (op_envelope U (OpWatch watcher target)) ->
                    remote_receive U hc cdec qerr newref own chunks = [Some e']) /\
    e_system U e' = true /\ e_msg U e' = M_Empty E_Watch /\
    e_sender U e' = RRef (fst watcher) (snd watcher) /\
    watcher_key (e_sender U e') = fst watcher ++ [64] ++ snd watcher /\
    find_mailbox own (e_receiver U e') = ToLocal (snd target).
Proof. exact (remote_watch U hc cenc cdec qerr newref own watcher target). Qed.

Theorem C15_remote_unwatch U hc cenc cdec qerr newref (own : bytes) (watcher target : bytes * bytes) :
  valid_aref newref watcher -> valid_aref newref target -> valid_aref newref (own, snd target) ->
  small_aref watcher -> small_aref target ->
  exists e',
    remote_transport U hc cenc cdec qerr newref own (op_envelope U (OpUnwatch watcher target)) = Some e' /\
    (forall chunks, concat chunks = wire_bytes U hc cenc (op_envelope U (OpUnwatch watcher target)) ->
                    remote_receive U hc cdec qerr newref own chunks = [Some e']) /\
    e_system U e' = true /\ e_msg U e' = M_Empty E_Unwatch /\
    watcher_key (e_sender U e') = fst watcher ++ [64] ++ snd watcher /\
    find_mailbox own (e_receiver U e') = ToLocal (snd target).
Proof. exact (remote_unwatch U hc cenc cdec qerr newref own watcher target). Qed.

(** the whole Watch round: the terminated target sends OnKilled{Ref: its own ref (ownT, path)} to the ref onWatch
    stored (the sender of the received request); that envelope reaches the watcher's system, is enqueued under
    the watcher's path, and its OnKilled.Ref has the terminated actor's (own) address and path *)
Theorem C15_remote_onkilled_names_target U hc cenc cdec qerr newref (ownW ownT : bytes) (watcher target : bytes * bytes) :
  valid_aref newref watcher -> valid_aref newref (ownW, snd watcher) ->
  valid_aref newref target -> valid_aref newref (ownT, snd target) ->
  small_aref watcher -> small_aref target -> small ownT ->
  exists e1 e2,
    remote_transport U hc cenc cdec qerr newref ownT (op_envelope U (OpWatch watcher target)) = Some e1 /\
    killed_notice U (ownT, snd target) (e_sender U e1) = op_envelope U (OpKilledNotice (ownT, snd target) watcher) /\
    remote_transport U hc cenc cdec qerr newref ownW (killed_notice U (ownT, snd target) (e_sender U e1)) = Some e2 /\
    (forall chunks, concat chunks = wire_bytes U hc cenc (killed_notice U (ownT, snd target) (e_sender U e1)) ->
                    remote_receive U hc cdec qerr newref ownW chunks = [Some e2]) /\
    e_system U e2 = true /\
    e_msg U e2 = M_OnKilled (RRef ownT (snd target)) /\
    find_mailbox ownW (e_receiver U e2) = ToLocal (snd watcher).
Proof. exact (remote_onkilled_names_target U hc cenc cdec qerr newref ownW ownT watcher target). Qed.

(** Ping / Pong: onPing on the target's system replies to the agent ref of the asker's future; the PongMessage is
    enqueued under the agent's path on the asker's system with both instants intact *)
Theorem C15_remote_ping_pong U hc cenc cdec qerr newref (ownA ownT : bytes) (agent target : bytes * bytes) (t now : Z) :
  valid_aref newref agent -> valid_aref newref (ownA, snd agent) ->
  valid_aref newref target -> valid_aref newref (ownT, snd target) ->
  small_aref agent -> small_aref target -> small ownT -> in_i64 t -> in_i64 now ->
  exists e1 pong e2,
    remote_transport U hc cenc cdec qerr newref ownT (op_envelope U (OpPing agent target t)) = Some e1 /\
    e_msg U e1 = M_Ping t /\ find_mailbox ownT (e_receiver U e1) = ToLocal (snd target) /\
    on_ping U (ownT, snd target) e1 now = Some pong /\ pong = op_envelope U (OpPong (ownT, snd target) agent t now) /\
    remote_transport U hc cenc cdec qerr newref ownA pong = Some e2 /\
    (forall chunks, concat chunks = wire_bytes U hc cenc pong -> remote_receive U hc cdec qerr newref ownA chunks = [Some e2]) /\
    e_system U e2 = false /\ e_msg U e2 = M_PongMessage (Some t) now /\
    find_mailbox ownA (e_receiver U e2) = ToLocal (snd agent).
Proof. exact (remote_ping_pong U hc cenc cdec qerr newref ownA ownT agent target t now). Qed.

(** Ask / Reply: the reply is addressed to the asker's agent path on the asker's system (routing by address, then
    path); M7 = the table entry under the agent path is this Ask's future *)
Theorem C15_remote_ask_reply U hc cenc cdec qerr newref (ownA ownT : bytes) (agent target : bytes * bytes) (m m' : msg U) :
  valid_op U hc cenc cdec qerr newref (OpAsk agent target m) -> valid_aref newref (ownT, snd target) ->
  valid_op U hc cenc cdec qerr newref (OpReply (ownT, snd target) agent m') -> valid_aref newref (ownA, snd agent) ->
  exists e1 e2,
    remote_transport U hc cenc cdec qerr newref ownT (op_envelope U (OpAsk agent target m)) = Some e1 /\
    e_system U e1 = false /\ e_msg U e1 = m /\ e_sender U e1 = RRef (fst agent) (snd agent) /\
    find_mailbox ownT (e_receiver U e1) = ToLocal (snd target) /\
    reply_envelope U (ownT, snd target) e1 m' = op_envelope U (OpReply (ownT, snd target) agent m') /\
    remote_transport U hc cenc cdec qerr newref ownA (reply_envelope U (ownT, snd target) e1 m') = Some e2 /\
    (forall chunks, concat chunks = wire_bytes U hc cenc (reply_envelope U (ownT, snd target) e1 m') ->
                    remote_receive U hc cdec qerr newref ownA chunks = [Some e2]) /\
    e_system U e2 = false /\ e_msg U e2 = m' /\
    find_mailbox ownA (e_receiver U e2) = ToLocal (snd agent) /\
    forall (X : Type) (table : bytes -> option X) (fut : X),
      table (snd agent) = Some fut ->
      lookup_local table (find_mailbox ownA (e_receiver U e2)) = Some fut.
Proof. exact (remote_ask_reply U hc cenc cdec qerr newref ownA ownT agent target m m'). Qed.

(** PipeTo, success result *)
Theorem C15_remote_pipe_success U hc cenc cdec qerr newref (own : bytes) (self forwarder : bytes * bytes) (id : bytes) (m : msg U) (e : perr) :
  valid_op U hc cenc cdec qerr newref (OpPipeSuccess self forwarder id m e) -> valid_aref newref (own, snd forwarder) ->
  exists e',
    remote_transport U hc cenc cdec qerr newref own (op_envelope U (OpPipeSuccess self forwarder id m e)) = Some e' /\
    (forall chunks, concat chunks = wire_bytes U hc cenc (op_envelope U (OpPipeSuccess self forwarder id m e)) ->
                    remote_receive U hc cdec qerr newref own chunks = [Some e']) /\
    e_system U e' = false /\ e_msg U e' = M_PipeResult id m e /\
    e_sender U e' = RRef (fst self) (snd self) /\
    find_mailbox own (e_receiver U e') = ToLocal (snd forwarder).
Proof. exact (remote_pipe_success U hc cenc cdec qerr newref own self forwarder id m e). Qed.

(** PipeTo, failure result (Message nil): uses C12_rt_PipeResult_nil_message; an error that is nil or a
    *vivid.Error with a non-zero registered code and a non-empty (or the registered) text arrives unchanged *)
Theorem C15_remote_pipe_failure U hc cenc cdec qerr newref (own : bytes) (self forwarder : bytes * bytes) (id : bytes) (e : perr) :
  valid_aref newref self -> valid_aref newref forwarder -> valid_aref newref (own, snd forwarder) ->
  small_aref self -> small_aref forwarder ->
  small id -> ty_perr e -> valid_perr qerr e -> match e with PEVivid _ t => small t | _ => True end ->
  exists e',
    remote_transport U hc cenc cdec qerr newref own (op_envelope U (OpPipeFailure self forwarder id e)) = Some e' /\
    (forall chunks, concat chunks = wire_bytes U hc cenc (op_envelope U (OpPipeFailure self forwarder id e)) ->
                    remote_receive U hc cdec qerr newref own chunks = [Some e']) /\
    e_system U e' = false /\ e_msg U e' = M_PipeResultNil id e /\
    find_mailbox own (e_receiver U e') = ToLocal (snd forwarder).
Proof. exact (remote_pipe_failure U hc cenc cdec qerr newref own self forwarder id e). Qed.

(** ... and for ANY error value the writer accepts ([perr_wire e = MOk (code, text)]: everything except a typed nil
    *Error): the forwarder sees [perr_of_wire qerr code text], i.e. (theorems C12_PipeResult_error_..._refuted): code 0 -> no error,
    unregistered code -> ErrorException(-1) "exception: error code <c> not found, message: <text>", empty text ->
    the registered text, a foreign error type -> ErrorException(-1) "exception: <err.Error()>" *)
Theorem C15_remote_pipe_failure_any_error U hc cenc cdec qerr newref (own : bytes) (self forwarder : bytes * bytes) (id : bytes)
        (e : perr) (c : Z) (t : bytes) :
  valid_aref newref self -> valid_aref newref forwarder -> valid_aref newref (own, snd forwarder) ->
  small_aref self -> small_aref forwarder -> small id ->
  perr_wire e = MOk (c, t) -> in_i32 c -> small t ->
  exists e',
    remote_transport U hc cenc cdec qerr newref own (op_envelope U (OpPipeFailure self forwarder id e)) = Some e' /\
    (forall chunks, concat chunks = wire_bytes U hc cenc (op_envelope U (OpPipeFailure self forwarder id e)) ->
                    remote_receive U hc cdec qerr newref own chunks = [Some e']) /\
    e_system U e' = false /\ e_msg U e' = M_PipeResultNil id (perr_of_wire qerr c t) /\
    e_sender U e' = RRef (fst self) (snd self) /\
    find_mailbox own (e_receiver U e') = ToLocal (snd forwarder).
Proof. exact (remote_pipe_failure_any_error U hc cenc cdec qerr newref own self forwarder id e c t). Qed.

(** a scheduler firing to a remote receiver: onScheduler runs the behaviour on the scheduled message with the
    scheduling actor as sender *)
Theorem C15_remote_scheduled U hc cenc cdec qerr newref (own : bytes) (self receiver : bytes * bytes) (reference : bytes) (m : msg U) :
  valid_op U hc cenc cdec qerr newref (OpScheduled self receiver reference m) -> valid_aref newref (own, snd receiver) ->
  exists e' seen,
    remote_transport U hc cenc cdec qerr newref own (op_envelope U (OpScheduled self receiver reference m)) = Some e' /\
    (forall chunks, concat chunks = wire_bytes U hc cenc (op_envelope U (OpScheduled self receiver reference m)) ->
                    remote_receive U hc cdec qerr newref own chunks = [Some e']) /\
    e_system U e' = false /\ e_msg U e' = M_Scheduler reference m /\
    find_mailbox own (e_receiver U e') = ToLocal (snd receiver) /\
    on_scheduler U e' = Some seen /\ e_msg U seen = m /\ e_sender U seen = RRef (fst self) (snd self).
Proof. exact (remote_scheduled U hc cenc cdec qerr newref own self receiver reference m). Qed.

(** * address aliases (finding repaired by the fix commit "resolve the receiver of an inbound remote envelope locally") *)
(** findMailbox treats a ref whose address string is not the system's own address as remote *)
Theorem C15_alias_address_forwarded (local a p : bytes) : a <> local -> find_mailbox local (RRef a p) = ToRemote a.
Proof. exact (alias_address_forwarded local a p). Qed.
(** with the repaired HandleRemotingEnvelop an operation through a ref that carries ANY address string reaching the
    system (localhost for 127.0.0.1, a DNS name, a NAT address) is delivered exactly as through the ref with the
    system's own address: the same envelope is enqueued, under the target's path, and nothing is sent again *)
Theorem C15_alias_address_delivered U hc cenc cdec qerr newref (own : bytes) (o : op U) :
  valid_op U hc cenc cdec qerr newref o -> valid_aref newref (own, snd (op_receiver U o)) ->
  wire_valid U hc cenc cdec qerr newref (localized U own (op_envelope U o)) ->
  exists e',
    remote_transport U hc cenc cdec qerr newref own (op_envelope U o) = Some e' /\
    remote_transport U hc cenc cdec qerr newref own (localized U own (op_envelope U o)) = Some e' /\
    (forall chunks, concat chunks = wire_bytes U hc cenc (op_envelope U o) ->
                    remote_receive U hc cdec qerr newref own chunks = [Some e']) /\
    find_mailbox own (e_receiver U e') = ToLocal (snd (op_receiver U o)) /\
    forall a, find_mailbox own (e_receiver U e') <> ToRemote a.
Proof. exact (alias_address_delivered U hc cenc cdec qerr newref own o). Qed.
(** regression: the handler before the fix enqueued the envelope with the wire's address string, which findMailbox
    routes to the remoting mailbox of that string again, and what that mailbox sends is the same envelope once
    more: the system sent the envelope to itself for ever and never delivered it (reproduced on the code before
    the fix: > 60000 frames in 1.5 s, delivered = 0) *)
Theorem C15_alias_loop_before_fix U hc cenc cdec qerr newref (own : bytes) (o : op U) :
  valid_op U hc cenc cdec qerr newref o -> fst (op_receiver U o) <> own ->
  (forall chunks, concat chunks = wire_bytes U hc cenc (op_envelope U o) ->
                  remote_receive_before_fix U hc cdec qerr newref chunks = [Some (op_envelope U o)]) /\
  find_mailbox own (e_receiver U (op_envelope U o)) = ToRemote (fst (op_receiver U o)).
Proof. exact (alias_loop_before_fix U hc cenc cdec qerr newref own o). Qed.

(** * where a remote target is not served like a local one (limits of the wire, not of the ref handling) *)
(** an unregistered user payload needs a Codec: without one the remote Tell is an encode failure on the sender's
    side (dead letter), while a local Tell delivers the value as it is *)
Theorem C15_tell_outside_needs_codec U hc cenc (sys : bool) (s t : bytes * bytes) (u : U) :
  hc = false -> wire U hc cenc (mk_env U sys s t (M_Outside u)) = None.
Proof. exact (tell_outside_needs_codec U hc cenc sys s t u). Qed.
(** an envelope above 4 MiB is refused by the sender (a local Tell has no size limit) *)
Theorem C15_oversize_not_sent U hc cenc (e : envelope U) (w : bytes) :
  enc_envelope U hc cenc e = MOk w -> max_frame < N.of_nat (length w) -> wire U hc cenc e = None.
Proof. exact (oversize_not_sent U hc cenc e w). Qed.
(** an envelope without sender (no operation above builds one) is dropped by HandleRemotingEnvelop *)
Theorem C15_absent_sender_dropped U newref (own : bytes) (o : envelope_out U) (er : merr) :
  o_saddr U o = [] -> o_spath U o = [] -> newref [] [] = MErr er -> handle U newref own o = None.
Proof. exact (absent_sender_dropped U newref own o er). Qed.

(** * link to the local semantics (Actor/Core.v: [deliver] = Enqueue into the looked-up mailbox, [dispatch] =
    Context.HandleEnvelop, [resolve] = findMailbox with ref caches).  Core.v is a one-system model: a locally
    sent envelope carries the sender's ref object [RObj b], the same envelope received through remoting carries
    a rebuilt ref [RFresh path]. *)
(** HandleEnvelop uses the sender ref only through its path: same instruction list, same state up to the
    identity of the sender ref stored in the current envelope and in the watcher table *)
Theorem C15_dispatch_sender_path_only (s : Core.state) (a : nat) (x : Core.actor) (sy : bool) (r1 r2 : Core.rref) (m : Core.msg) :
  Core.ref_path s r1 = Core.ref_path s r2 ->
  snd (Core.dispatch s a x (CoreView.mk sy r1 m)) = snd (Core.dispatch s a x (CoreView.mk sy r2 m)) /\
  CoreView.erase_state s (fst (Core.dispatch s a x (CoreView.mk sy r1 m))) =
  CoreView.erase_state s (fst (Core.dispatch s a x (CoreView.mk sy r2 m))).
Proof. exact (CoreLink.dispatch_sender_path_only s a x sy r1 r2 m). Qed.

Theorem C15_dispatch_remote_like_local (s : Core.state) (a b : nat) (x y : Core.actor) (sy : bool) (m : Core.msg) :
  Core.get s b = Some y ->
  snd (Core.dispatch s a x (CoreView.mk sy (Core.RObj b) m)) =
  snd (Core.dispatch s a x (CoreView.mk sy (Core.RFresh (Core.a_path y)) m)) /\
  CoreView.erase_state s (fst (Core.dispatch s a x (CoreView.mk sy (Core.RObj b) m))) =
  CoreView.erase_state s (fst (Core.dispatch s a x (CoreView.mk sy (Core.RFresh (Core.a_path y)) m))).
Proof. exact (CoreLink.dispatch_remote_like_local s a b x y sy m). Qed.

(** Enqueue: mailbox, queue and position do not depend on the sender ref *)
Theorem C15_deliver_sender_irrelevant (s : Core.state) (mb : Core.mbox) (sy : bool) (r1 r2 : Core.rref) (m : Core.msg) :
  snd (Core.deliver s mb (CoreView.mk sy r1 m)) = snd (Core.deliver s mb (CoreView.mk sy r2 m)) /\
  (mb = Core.MbDead -> fst (Core.deliver s mb (CoreView.mk sy r1 m)) = fst (Core.deliver s mb (CoreView.mk sy r2 m))) /\
  (forall r, fst (Core.deliver s mb (CoreView.mk sy r m)) =
             Core.push_mb s (snd (Core.deliver s mb (CoreView.mk sy r m)))
               (match mb with
                | Core.MbDead => {| Core.e_sys := false; Core.e_sender := Core.root_ref; Core.e_msg := Core.MDeadLetter sy m |}
                | _ => CoreView.mk sy r m
                end)).
Proof. exact (CoreLink.deliver_sender_irrelevant s mb sy r1 r2 m). Qed.

(** findMailbox of the stored ref (Reply, OnKilled to a watcher): object and rebuilt ref agree while the object's
    mailbox cache agrees with the registry ... *)
Theorem C15_resolve_obj_fresh_agree (s : Core.state) (a : nat) (x : Core.actor) :
  Core.get s a = Some x ->
  (forall y, Core.a_cache x = Some y -> Core.alookup (Core.reg s) (Core.a_path x) = Some y) ->
  fst (Core.resolve s (Core.RObj a)) = fst (Core.resolve s (Core.RFresh (Core.a_path x))).
Proof. exact (CoreLink.resolve_obj_fresh_agree s a x). Qed.
(** ... and THIS is where ref identity matters: once the path has been released and registered again, the cached
    ref object still reaches the old mailbox, a rebuilt ref reaches the new context *)
Theorem C15_resolve_identity_witness :
  Core.get CoreView.reuse_state 1 = Some CoreView.old_ctx /\
  fst (Core.resolve CoreView.reuse_state (Core.RObj 1)) = Core.MbActor 1 /\
  fst (Core.resolve CoreView.reuse_state (Core.RFresh (Core.a_path CoreView.old_ctx))) = Core.MbActor 2.
Proof. exact CoreLink.resolve_identity_witness. Qed.
(** an OnKilled that names a rebuilt ref never removes a child entry (removeChild compares ref objects) *)
Theorem C15_onkilled_fresh_keeps_children (s : Core.state) (t : Core.tid) (held : list nat) (x : Core.actor) (p : list N) :
  Core.get s (Core.self_of t) = Some x -> Core.a_zombie x = false ->
  Core.ref_eq s (Core.RFresh p) (Core.RObj (Core.self_of t)) = false ->
  Core.exec1 s t held (Core.IOnKilled (Core.RFresh p)) =
  (Core.set_actor s (Core.self_of t) x,
   [Core.IBeh (Core.MKilled (Core.RFresh p)) (Core.sp_killed (Core.a_spec x)) (Core.RecKilled (Core.RFresh p)); Core.ICheckMark]).
Proof. exact (CoreLink.onkilled_fresh_keeps_children s t held x p). Qed.

(** * non-vacuity *)
(** a remote non-poison Kill from a:1/w to b:1/t is a valid operation (no Codec, the accept-all ref factory) *)
Example C15_ex_kill_valid :
  valid_op wU false w_cenc w_cdec w_qerr w_newref (OpKill ([97; 58; 49], [47; 119]) ([98; 58; 49], [47; 116]) [120] false).
Proof.
  apply small_valid.
  - cbn. split; [vm_compute; reflexivity|split; [vm_compute; reflexivity|split; [left; discriminate|reflexivity]]].
  - cbn. split; [vm_compute; reflexivity|split; [vm_compute; reflexivity|split; [left; discriminate|reflexivity]]].
  - vm_compute. reflexivity.
  - unfold small_op, small_aref, small. cbn. lia.
Qed.
(** ... and its frame, cut after two bytes, is enqueued on b:1 as the OnKill system envelope naming a:1/w *)
Example C15_ex_kill_received :
  let e := op_envelope wU (OpKill ([97; 58; 49], [47; 119]) ([98; 58; 49], [47; 116]) [120] false) in
  let fr := wire_bytes wU false w_cenc e in
  remote_receive wU false w_cdec w_qerr w_newref [98; 58; 49] [firstn 2 fr; skipn 2 fr] = [Some e] /\
  e_system wU e = true /\ e_msg wU e = M_OnKill (RRef [97; 58; 49] [47; 119]) [120] false.
Proof. cbn zeta. split; [vm_compute; reflexivity|split; reflexivity]. Qed.
(** the same Kill through the alias "c:1" of the system advertised as "b:1": delivered under /t with the system's own
    address, whereas the handler before the fix enqueued an envelope that findMailbox sends out again *)
Example C15_ex_alias :
  let e := op_envelope wU (OpKill ([97; 58; 49], [47; 119]) ([99; 58; 49], [47; 116]) [120] false) in
  let fr := wire_bytes wU false w_cenc e in
  remote_receive wU false w_cdec w_qerr w_newref [98; 58; 49] [firstn 2 fr; skipn 2 fr] = [Some (localized wU [98; 58; 49] e)] /\
  find_mailbox [98; 58; 49] (e_receiver wU (localized wU [98; 58; 49] e)) = ToLocal [47; 116] /\
  remote_receive_before_fix wU false w_cdec w_qerr w_newref [firstn 2 fr; skipn 2 fr] = [Some e] /\
  find_mailbox [98; 58; 49] (e_receiver wU e) = ToRemote [99; 58; 49].
Proof. cbn zeta. repeat split; vm_compute; reflexivity. Qed.
(** a user payload through a Codec that round-trips it (M9): U = byte strings, the identity Codec *)
Example C15_ex_tell_codec_valid :
  valid_op bytes true (fun u => MOk u) (fun d => MOk d) w_qerr w_newref
           (OpTell ([97; 58; 49], [47; 119]) ([98; 58; 49], [47; 116]) (M_Outside [1; 2; 3])).
Proof.
  split; [|split; [|split; [|split]]].
  - cbn. split; [vm_compute; reflexivity|split; [vm_compute; reflexivity|split; [left; discriminate|reflexivity]]].
  - cbn. split; [vm_compute; reflexivity|split; [vm_compute; reflexivity|split; [left; discriminate|reflexivity]]].
  - cbn. split; [exact I|]. split; [reflexivity|]. exists [1; 2; 3]. split; [reflexivity|split; [vm_compute; reflexivity|reflexivity]].
  - intros b Hb. discriminate.
  - intros w Hw. vm_compute in Hw. injection Hw as <-. unfold max_frame. cbn. lia.
Qed.
(** the M7 hypothesis of the Ask / Reply theorem is satisfiable: a table with the agent path registered *)
Example C15_ex_table : (fun p : bytes => if bytes_eqb p [47; 119; 47; 102] then Some 7%nat else None) [47; 119; 47; 102] = Some 7%nat.
Proof. reflexivity. Qed.

(** * name reuse on the target system (model: Remoting/Churn.v, shared with C11)
    HandleRemotingEnvelop builds a fresh receiver ref for EVERY inbound envelope and resolves it against the table
    of live contexts at arrival time.  In a history of spawn / kill / restart steps of the target system interleaved
    with inbound traffic, the routing of the envelopes of a phase (to the incarnation registered at the path then, or
    to the dead letters) is a function of the registry changes before it alone: two histories that differ only in
    the envelopes received earlier - how many, to which path, to which earlier incarnation - route the phase
    identically.  In particular nothing an earlier envelope resolved to is remembered (a remote reference keeps
    behaving like the local one after the actor was re-created under the same name). *)
Theorem C15_routing_history_independent :
  forall (D : Type) (dec : bytes -> option D) (rpath : D -> bytes)
         (pre1 pre2 : list Churn.step) (chunks : list bytes) (r : list (bytes * Churn.inst)),
    Churn.strip_traffic pre1 = Churn.strip_traffic pre2 ->
    exists routed,
      routed = map (Churn.dispatch rpath (Churn.reg_after (Churn.strip_traffic pre1) r)) (delivered (receive dec chunks)) /\
      Churn.run_churn dec rpath (pre1 ++ [Churn.STraffic chunks]) r = Churn.run_churn dec rpath pre1 r ++ routed /\
      Churn.run_churn dec rpath (pre2 ++ [Churn.STraffic chunks]) r = Churn.run_churn dec rpath pre2 r ++ routed.
Proof. exact (@ChurnProofs.routing_history_independent). Qed.

(** the incarnation a remote operation reaches after "kill P; spawn P as i" is i, whatever was sent to P before *)
Theorem C15_respawned_registered :
  forall (p : bytes) (i : N) (r : list (bytes * Churn.inst)),
    Churn.lookup p (Churn.reg_after [Churn.SKill p; Churn.SSpawn p i] r) = Some {| Churn.i_inc := i; Churn.i_epoch := 0 |}.
Proof. exact ChurnProofs.lookup_respawn. Qed.

(** non-vacuity: two histories of the path [47] that differ in the traffic received by incarnation 1 *)
Example C15_ex_history :
  Churn.strip_traffic [Churn.SSpawn [47] 1; Churn.STraffic [[0; 0; 0; 1; 7]]; Churn.SKill [47]; Churn.SSpawn [47] 2] =
  Churn.strip_traffic [Churn.SSpawn [47] 1; Churn.SKill [47]; Churn.SSpawn [47] 2] /\
  Churn.run_churn (fun b => Some b) (fun _ : bytes => [47])
    ([Churn.SSpawn [47] 1; Churn.STraffic [[0; 0; 0; 1; 7]]; Churn.SKill [47]; Churn.SSpawn [47] 2] ++ [Churn.STraffic [[0; 0; 0; 1; 8]]]) [] =
  [Churn.ODeliver [47] {| Churn.i_inc := 1; Churn.i_epoch := 0 |} [7]; Churn.ODeliver [47] {| Churn.i_inc := 2; Churn.i_epoch := 0 |} [8]].
Proof. split; reflexivity. Qed.

Print Assumptions C15_transparent.
Print Assumptions C15_localized.
Print Assumptions C15_localized_canonical.
Print Assumptions C15_equiv_is_equality.
Print Assumptions C15_transparent_stream.
Print Assumptions C15_envelope_transport.
Print Assumptions C15_chunking_independent.
Print Assumptions C15_routing.
Print Assumptions C15_builtin_sizes.
Print Assumptions C15_newref_made_refs_valid.
Print Assumptions C15_remote_kill.
Print Assumptions C15_remote_watch.
Print Assumptions C15_remote_unwatch.
Print Assumptions C15_remote_onkilled_names_target.
Print Assumptions C15_remote_ping_pong.
Print Assumptions C15_remote_ask_reply.
Print Assumptions C15_remote_pipe_success.
Print Assumptions C15_remote_pipe_failure.
Print Assumptions C15_remote_pipe_failure_any_error.
Print Assumptions C15_remote_scheduled.
Print Assumptions C15_alias_address_forwarded.
Print Assumptions C15_alias_address_delivered.
Print Assumptions C15_alias_loop_before_fix.
Print Assumptions C15_tell_outside_needs_codec.
Print Assumptions C15_oversize_not_sent.
Print Assumptions C15_absent_sender_dropped.
Print Assumptions C15_dispatch_sender_path_only.
Print Assumptions C15_dispatch_remote_like_local.
Print Assumptions C15_deliver_sender_irrelevant.
Print Assumptions C15_resolve_obj_fresh_agree.
Print Assumptions C15_resolve_identity_witness.
Print Assumptions C15_onkilled_fresh_keeps_children.
Print Assumptions C15_routing_history_independent.
Print Assumptions C15_respawned_registered.
