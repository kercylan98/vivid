(** C13 (registered-message half) — the codec is total: decoding an arbitrary byte string as an
    envelope, a registered message, a nested message or a handshake returns a value or an error; it
    never crashes, never loops and never allocates out of proportion to the input (at most 10 — envelope
    11 — bytes per input byte plus one capped 2 MiB map).  Encoding any value of the message universe returns bytes or an error.  A failed decode
    leaves the caller's state untouched.

    Statements only; every proof is [exact <lemma>].  Reading guide:
    - the model's decoders are total Gallina functions, so "never loops" is termination of the model
      PLUS the absence of the artificial outcome [MEFuel] (the nesting budget is never exhausted);
      "never panics" is the absence of the outcome [MECrash] (a panic nothing recovers);
    - [fst (d bs)] is the number of bytes the Go reader allocates from wire-supplied sizes while decoding
      [bs] (copies made by ReadBytes; [make(map, n)] weighted by a lower bound of the slot size);
    - user code (Codec, ActorRef factory) is universally quantified and assumed to return a value or an
      error ([*_total] hypotheses). *)
From Coq Require Import List NArith ZArith Lia.
From stdpp Require Import gmap.
From Vivid Require Import Codec.Prim Codec.MsgPrim Codec.MsgPrimProofs Cluster.VV
  Codec.ClusterMsgs Codec.ClusterMsgsProofs Codec.Msgs Codec.MsgsProofs Codec.MsgsTotalProofs
  Codec.Envelope Codec.EnvelopeProofs Codec.MsgsWitnesses.
Local Open Scope N_scope.

(** * decoding: every byte string, every entry point *)
Theorem C13_decode_total_message U hc (cenc : U -> mres bytes) (cdec : bytes -> mres U) qerr (newref : bytes -> bytes -> mres (bytes * bytes)) :
  (forall (u : U) e, cenc u = MErr e -> ~ (e = MECrash \/ e = MEFuel)) ->
  (forall d e, cdec d = MErr e -> ~ (e = MECrash \/ e = MEFuel)) ->
  (forall a p e, newref a p = MErr e -> ~ (e = MECrash \/ e = MEFuel)) ->
  forall (k : kind) (bs : bytes) e,
    drun (deserialize_remoting U hc cdec qerr newref k) bs = MErr e -> ~ (e = MECrash \/ e = MEFuel).
Proof. exact (fun _ => deserialize_safe U hc cdec qerr newref). Qed.
Theorem C13_decode_total_read_message U hc (cenc : U -> mres bytes) (cdec : bytes -> mres U) qerr (newref : bytes -> bytes -> mres (bytes * bytes)) :
  (forall (u : U) e, cenc u = MErr e -> ~ (e = MECrash \/ e = MEFuel)) ->
  (forall d e, cdec d = MErr e -> ~ (e = MECrash \/ e = MEFuel)) ->
  (forall a p e, newref a p = MErr e -> ~ (e = MECrash \/ e = MEFuel)) ->
  forall (bs : bytes) e,
    drun (read_message U hc cdec qerr newref) bs = MErr e -> ~ (e = MECrash \/ e = MEFuel).
Proof. exact (fun _ => read_message_safe U hc cdec qerr newref). Qed.
Theorem C13_decode_total_envelope U hc (cenc : U -> mres bytes) (cdec : bytes -> mres U) qerr (newref : bytes -> bytes -> mres (bytes * bytes)) :
  (forall (u : U) e, cenc u = MErr e -> ~ (e = MECrash \/ e = MEFuel)) ->
  (forall d e, cdec d = MErr e -> ~ (e = MECrash \/ e = MEFuel)) ->
  (forall a p e, newref a p = MErr e -> ~ (e = MECrash \/ e = MEFuel)) ->
  forall (bs : bytes) e,
    drun (dec_envelope U hc cdec qerr newref) bs = MErr e -> ~ (e = MECrash \/ e = MEFuel).
Proof. exact (fun _ => dec_envelope_safe U hc cdec qerr newref). Qed.
Theorem C13_decode_total_handshake (bs : bytes) e :
  drun dec_handshake bs = MErr e -> ~ (e = MECrash \/ e = MEFuel).
Proof. exact (safe_handshake bs e). Qed.
(** with any budget larger than the input, whatever the nesting depth *)
Theorem C13_fuel_sufficient U hc (cenc : U -> mres bytes) (cdec : bytes -> mres U) qerr (newref : bytes -> bytes -> mres (bytes * bytes)) :
  (forall (u : U) e, cenc u = MErr e -> ~ (e = MECrash \/ e = MEFuel)) ->
  (forall d e, cdec d = MErr e -> ~ (e = MECrash \/ e = MEFuel)) ->
  (forall a p e, newref a p = MErr e -> ~ (e = MECrash \/ e = MEFuel)) ->
  forall fuel (k : kind) (bs : bytes) e, (length bs < fuel)%nat ->
    drun (dec_body U hc cdec qerr newref fuel k) bs = MErr e -> ~ (e = MECrash \/ e = MEFuel).
Proof. exact (fun _ => dec_body_safe U hc cdec qerr newref). Qed.
(** the cluster view reader on its own (its member loop is bounded by the input, not by the count) *)
Theorem C13_decode_total_view (bs : bytes) e : drun dec_view bs = MErr e -> ~ (e = MECrash \/ e = MEFuel).
Proof. exact (safe_view bs e). Qed.

(** * allocation *)
(** flat entry points (every registered type except the three nesting ones and the three that carry a
    ClusterView): on success the bytes allocated are covered by the bytes consumed plus 4 MiB (two
    65536-entry maps), on failure by the whole input plus 4 MiB *)
Theorem C13_alloc_flat U hc cdec qerr newref fuel k :
  match k with
  | K_PipeResult | K_Scheduler | K_SingletonFwd | K_JoinResponse | K_Gossip | K_GetViewResponse => false
  | _ => true
  end = true ->
  forall bs : bytes,
    match dec_body U hc cdec qerr newref (S fuel) k bs with
    | (a, MOk (_, bs')) => (length bs' <= length bs)%nat /\ a + N.of_nat (length bs') <= N.of_nat (length bs) + 4194304
    | (a, MErr _) => a <= N.of_nat (length bs) + 4194304
    end.
Proof. exact (alloc_flat U hc cdec qerr newref fuel k). Qed.
Theorem C13_alloc_handshake (bs : bytes) :
  match dec_handshake bs with
  | (a, MOk (_, bs')) => (length bs' <= length bs)%nat /\ a + N.of_nat (length bs') <= N.of_nat (length bs) + 4100
  | (a, MErr _) => a <= N.of_nat (length bs) + 4100
  end.
Proof. exact (addb_handshake bs). Qed.
Theorem C13_alloc_mapss (bs : bytes) :
  match dec_mapss bs with
  | (a, MOk (_, bs')) => (length bs' <= length bs)%nat /\ a + N.of_nat (length bs') <= N.of_nat (length bs) + 2097152
  | (a, MErr _) => a <= N.of_nat (length bs) + 2097152
  end.
Proof. exact (addb_mapss bs). Qed.
(** every decoder of the universe, nested messages and cluster views included: on success at most 10
    bytes are allocated per byte consumed; on failure at most 10 per input byte plus 2 MiB (the one
    capped map or version vector whose announced entries the input did not deliver).  The member count of
    a ClusterView is checked against the remaining input before the map is allocated; nested message
    bodies are decoded in place. *)
Theorem C13_alloc_message U hc cdec qerr newref (k : kind) (bs : bytes) :
  match deserialize_remoting U hc cdec qerr newref k bs with
  | (a, MOk (_, bs')) => (length bs' <= length bs)%nat /\ a + 10 * N.of_nat (length bs') <= 10 * N.of_nat (length bs)
  | (a, MErr _) => a <= 10 * N.of_nat (length bs) + 2097152
  end.
Proof. exact (deserialize_linb U hc cdec qerr newref k bs). Qed.
Theorem C13_alloc_read_message U hc cdec qerr newref (bs : bytes) :
  match read_message U hc cdec qerr newref bs with
  | (a, MOk (_, bs')) => (length bs' <= length bs)%nat /\ a + 10 * N.of_nat (length bs') <= 10 * N.of_nat (length bs)
  | (a, MErr _) => a <= 10 * N.of_nat (length bs) + 2097152
  end.
Proof. exact (read_message_linb U hc cdec qerr newref bs). Qed.
Theorem C13_alloc_envelope U hc cdec qerr newref (bs : bytes) :
  match dec_envelope U hc cdec qerr newref bs with
  | (a, MOk (_, bs')) => (length bs' <= length bs)%nat /\ a + 11 * N.of_nat (length bs') <= 11 * N.of_nat (length bs)
  | (a, MErr _) => a <= 11 * N.of_nat (length bs) + 2097152
  end.
Proof. exact (dec_envelope_linb U hc cdec qerr newref bs). Qed.
Theorem C13_alloc_view (bs : bytes) :
  match dec_view bs with
  | (a, MOk (_, bs')) => (length bs' <= length bs)%nat /\ a + 10 * N.of_nat (length bs') <= 10 * N.of_nat (length bs)
  | (a, MErr _) => a <= 10 * N.of_nat (length bs) + 2097152
  end.
Proof. exact (linb_view bs). Qed.

(** * encoding: every value of the universe, nil / typed-nil / non-pointer messages and nil fields
    included, gives bytes or an error *)
Theorem C13_encode_total U hc (cenc : U -> mres bytes) :
  (forall (u : U) e, cenc u = MErr e -> ~ (e = MECrash \/ e = MEFuel)) ->
  forall (m : msg U) e, enc_body U hc cenc m = MErr e -> ~ (e = MECrash \/ e = MEFuel).
Proof. exact (enc_body_safe U hc cenc). Qed.
Theorem C13_encode_total_write_message U hc (cenc : U -> mres bytes) :
  (forall (u : U) e, cenc u = MErr e -> ~ (e = MECrash \/ e = MEFuel)) ->
  forall (m : msg U) e, write_message U hc cenc m = MErr e -> ~ (e = MECrash \/ e = MEFuel).
Proof. exact (write_message_safe U hc cenc). Qed.
Theorem C13_encode_total_envelope U hc (cenc : U -> mres bytes) :
  (forall (u : U) e, cenc u = MErr e -> ~ (e = MECrash \/ e = MEFuel)) ->
  forall (e : envelope U) er, enc_envelope U hc cenc e = MErr er -> ~ (er = MECrash \/ er = MEFuel).
Proof. exact (enc_envelope_safe U hc cenc). Qed.
(** the nil fields the property names are errors, not crashes *)
Theorem C13_encode_nil_fields :
  (forall r, enc_PongMessage None r = MErr MERecovered) /\
  w_enc (M_TypedNil K_Ping) = MErr MERecovered /\
  (forall u ref, enc_body wU false w_cenc (M_Scheduler ref (M_Outside u)) = MErr MENoCodec) /\
  perr_wire PETypedNil = MErr MERecovered.
Proof. exact (conj (fun _ => eq_refl) (conj eq_refl (conj (fun u ref => eq_refl) eq_refl))). Qed.

(** * a failed decode leaves the caller's values untouched *)
(** Handshake.Wait decodes into its receiver: after a failure the address is the old one *)
Theorem C13_no_clobber_handshake old stream e :
  drun dec_handshake stream = MErr e -> handshake_wait old stream = (old, Some e).
Proof. exact (handshake_no_clobber old stream e). Qed.
(** message decoders write into a fresh instance that is dropped on error: the entry points return
    EITHER a message OR an error (in the model by construction of [mres]; on the real code the harness
    checks that no entry point returns an error together with a message) *)
Theorem C13_no_clobber_result U hc cdec qerr newref k bs :
  (exists m rest, drun (deserialize_remoting U hc cdec qerr newref k) bs = MOk (m, rest)) \/
  (exists e, drun (deserialize_remoting U hc cdec qerr newref k) bs = MErr e).
Proof. exact (match drun (deserialize_remoting U hc cdec qerr newref k) bs as r return (exists m rest, r = MOk (m, rest)) \/ (exists e, r = MErr e) with MOk (m, rest) => or_introl (ex_intro _ m (ex_intro _ rest eq_refl)) | MErr e => or_intror (ex_intro _ e eq_refl) end). Qed.

(** a failed decode does not poison the next one: immediate in the functional model (a decode is a
    function of its input); the real decoders draw Readers from a sync.Pool, and that a failed decode
    leaves no sticky error / position / buffer behind is DECIDED ON THE IMPLEMENTATION by the harness's
    decode histories (monitor decode-after-failed-decode) *)
Theorem C13_decode_history_independent U hc cdec qerr newref (pre : list bytes) (bs : bytes) d :
  List.last (map (fun b => drun (read_message U hc cdec qerr newref) b) (pre ++ [bs])) d =
  drun (read_message U hc cdec qerr newref) bs.
Proof. exact (last_of_history (fun b => drun (read_message U hc cdec qerr newref) b) pre bs d). Qed.

(** * non-vacuity *)
Example C13_ex_codec_total :
  (forall (u : wU) e, w_cenc u = MErr e -> ~ (e = MECrash \/ e = MEFuel)) /\
  (forall d e, w_cdec d = MErr e -> ~ (e = MECrash \/ e = MEFuel)) /\
  (forall a p e, w_newref a p = MErr e -> ~ (e = MECrash \/ e = MEFuel)).
Proof.
  repeat split; intros; try discriminate.
  - injection H as <-. intros [X|X]; discriminate.
  - injection H as <-. intros [X|X]; discriminate.
Qed.
Example C13_ex_decode_error :
  drun (deserialize_remoting wU false w_cdec w_qerr w_newref K_JoinResponse) [0; 0; 0; 1; 255] = MErr (ME EEOF).
Proof. vm_compute. reflexivity. Qed.

Print Assumptions C13_decode_total_message.
Print Assumptions C13_decode_total_read_message.
Print Assumptions C13_decode_total_envelope.
Print Assumptions C13_decode_total_handshake.
Print Assumptions C13_fuel_sufficient.
Print Assumptions C13_decode_total_view.
Print Assumptions C13_alloc_flat.
Print Assumptions C13_alloc_handshake.
Print Assumptions C13_alloc_mapss.
Print Assumptions C13_alloc_message.
Print Assumptions C13_alloc_read_message.
Print Assumptions C13_alloc_envelope.
Print Assumptions C13_alloc_view.
Print Assumptions C13_encode_total.
Print Assumptions C13_encode_total_write_message.
Print Assumptions C13_encode_total_envelope.
Print Assumptions C13_encode_nil_fields.
Print Assumptions C13_no_clobber_handshake.
Print Assumptions C13_no_clobber_result.
Print Assumptions C13_decode_history_independent.
