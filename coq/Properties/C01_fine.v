(** C01 at the granularity of the ring queue's own synchronisation steps.

    Properties/C01.v is about Mailbox/MbModel.v, where a RingQueue Push / Pop is ONE atomic step - the former
    modelling assumption M4 ("RingQueue is linearizable because every access is under its mutex").  The code does not
    literally satisfy the reason given: [Pop] decides emptiness with [atomic.LoadInt64(&q.len)] outside the mutex, and
    len is changed in the middle of the critical sections.  This file is about Mailbox/MbFine.v, in which NOTHING about
    the queue is assumed: internal/queues/ring.go is inside the model with its exact index arithmetic (head/tail/mod,
    doubling with the rotated copy), its mutex (a Lock step is blocked while the mutex is held), and its len word;
    one step = one synchronisation operation of one goroutine in unbounded_mailbox.go OR ring.go.
    [freachable f] = f is the state after SOME schedule of SOME population of client threads (Enqueue user/system,
    Pause, Resume) on a mailbox created with SOME initial size >= 1; so every theorem holds for all populations, all
    interleavings - including preemptions inside Push and Pop - and all sizes (every growth boundary).

    (0) is the bridge: every execution of the fine machine is an execution of the coarse machine (same threads, the
    schedule with the stuttering steps removed), so M4 is now a theorem - under exactly the discipline the mailbox
    provides (one consumer at a time; see C02_ring_two_consumers_refuted in Properties/C02_mailbox.v for what
    happens without it) - and everything in Properties/C01.v / C02_mailbox.v carries over.  (1)-(9) are those
    consequences stated on the fine machine itself, plus what only exists at this level.
    The model is tied to the real code by lock-step replay of BOTH instrumented files (bin/check C01, component mbfine).
    Statements only; proofs in Mailbox/MbFineQ.v, MbFineSim.v, MbFineThm.v. *)
From Coq Require Import List ZArith Permutation.
From Vivid Require Import Queue.Ring Mailbox.MbModel Mailbox.MbSpec Mailbox.MbFine Mailbox.MbFineThm.
From Vivid Require Import Generated.MbSyncOps Mailbox.MbClass Mailbox.MbInventory.
Import ListNotations.
Local Open Scope Z_scope.

(** ============================ (0) refinement: M4 discharged ============================ *)

(** For every size, client population and schedule of the fine machine there are queue contents [ls], [lu] such that
    the coarse machine, started with the abstracted threads ([apc], Mailbox/MbFine.v) and run under the schedule
    [csched_of] (the non-stuttering effective steps), ends in the state with the same status / paused / counters /
    log / abstracted pcs and queues [ls], [lu]; its trace is the fine trace with the stuttering steps removed; each
    ring's len is the length of its content at EVERY micro-step, and whenever a ring's mutex is free the ring
    satisfies the representation invariant of Properties/C02.v for that content. *)
Theorem C01_fine_refines_coarse size ths sched :
  (1 <= size)%nat -> forallb fenv_pc ths = true ->
  let f0 := finit size ths in
  let f := frun sched f0 in
  exists ls lu,
    run (csched_of sched f0) (init (map apc ths)) = absl f ls lu /\
    run_trace (csched_of sched f0) (init (map apc ths)) = ctrace_of (frun_trace sched f0) /\
    qlen (fsq f) = Z.of_nat (length ls) /\ qlen (fuq f) = Z.of_nat (length lu) /\
    (qlock (fsq f) = false -> ring_repr (to_ring (fsq f)) ls /\ qcontent (fsq f) = map Some ls) /\
    (qlock (fuq f) = false -> ring_repr (to_ring (fuq f)) lu /\ qcontent (fuq f) = map Some lu).
Proof. exact (frefines size ths sched). Qed.

(** ============================ (1) one consumer, one handler - also inside Pop ============================ *)

(** [fowner_pc]: from the processing goroutine's creation / the successful CAS up to Store(status, idle), INCLUDING
    the three steps of each Pop (load of len, Lock, the atomic add).  Never two threads there. *)
Theorem C01_fine_one_owner f i j p q :
  freachable f -> i <> j ->
  nth_error (fthr f) i = Some p -> nth_error (fthr f) j = Some q ->
  fowner_pc p = true -> fowner_pc q = true -> False.
Proof. exact (fone_owner f i j p q). Qed.

Theorem C01_fine_one_handler f i j p q :
  freachable f -> i <> j ->
  nth_error (fthr f) i = Some p -> nth_error (fthr f) j = Some q ->
  fhandling_pc p = true -> fhandling_pc q = true -> False.
Proof. exact (fun Hr Hij Hi Hj Hp Hq => fone_owner f i j p q Hr Hij Hi Hj (fhandling_owner p Hp) (fhandling_owner q Hq)). Qed.

(** ============================ (2) the queue never crashes the mailbox ============================ *)

(** [FCrash] = the process dies: [msg.(vivid.Envelop)] on a nil slot that Pop handed out with ok = true, or
    [% c.mod] with mod = 0.  No thread is ever there. *)
Theorem C01_fine_no_crash f i : freachable f -> nth_error (fthr f) i <> Some FCrash.
Proof. exact (fno_crash f i). Qed.

(** a Pop that passed its emptiness check always reads a real element under the mutex - although other threads ran
    between the check (outside the mutex) and the Lock *)
Theorem C01_fine_pop_hands_out_element f i sys v :
  freachable f -> nth_error (fthr f) i = Some (FQPopAdd sys v) -> exists m, v = Some m.
Proof. exact (fpop_hands_out_element f i sys v). Qed.

(** ============================ (3) the rings at every micro-step ============================ *)

(** for each of the two queues: len is the length of a content list [l] at every moment (so it is never negative and
    [Length()] / [Empty()] never lie by more than the operations in flight); whenever the mutex is free the ring
    represents [l] ([ring_repr], Queue/Ring.v: cursors in range, tail = head + len mod m, cyclic walk reads [l] then
    only nil slots); and the mutex is a mutex: exactly one thread is between Lock and Unlock when it is held, none
    when it is free *)
Theorem C01_fine_ring_safe f sys :
  freachable f ->
  exists l, qlen (getq sys f) = Z.of_nat (length l) /\
            (qlock (getq sys f) = false -> ring_repr (to_ring (getq sys f)) l /\ qcontent (getq sys f) = map Some l) /\
            Z.of_nat (length (filter (in_critical sys) (fthr f))) = (if qlock (getq sys f) then 1 else 0).
Proof. exact (fring_safe f sys). Qed.

(** ============================ (4) no deadlock on the queue mutexes ============================ *)

Theorem C01_fine_no_deadlock f :
  freachable f -> (exists i p, nth_error (fthr f) i = Some p /\ p <> FDone) ->
  exists i f', fstep i f = Some f'.
Proof. exact (fno_deadlock f). Qed.

(** ============================ (5) exactly once ============================ *)

Theorem C01_fine_at_most_once size ths sched :
  (1 <= size)%nat -> forallb fenv_pc ths = true ->
  NoDup (fmsgs_of ths) -> NoDup (flog (frun sched (finit size ths))).
Proof. exact (fat_most_once size ths sched). Qed.

Theorem C01_fine_handled_was_sent size ths sched e :
  (1 <= size)%nat -> forallb fenv_pc ths = true ->
  In e (flog (frun sched (finit size ths))) -> In e (fmsgs_of ths).
Proof. exact (fhandled_was_sent size ths sched e). Qed.

(** ============================ (6) no lost wake-up ============================ *)

(** "accepted" at this granularity = the Push's atomic add has happened (len > 0); the cover thread is one that will
    still attempt CAS(status, idle, processing) unless it sees that it is not needed ([fsys_cover], [fuser_cover]) *)
Theorem C01_fine_no_lost_wakeup f :
  freachable f -> fstatus f = false ->
  (0 < qlen (fsq f) -> exists i p, nth_error (fthr f) i = Some p /\ fsys_cover p = true) /\
  (0 < qlen (fuq f) -> fpaused f = false -> exists i p, nth_error (fthr f) i = Some p /\ fuser_cover p = true).
Proof. exact (fno_lost_wakeup f). Qed.

(** when no thread can step - none is blocked at a mutex either - every goroutine has finished, both mutexes are free,
    the mailbox is idle, the system ring is empty, the user ring is empty unless the mailbox is paused, and the handled
    log is, as a multiset, everything given to Enqueue minus what the paused mailbox still holds: nothing dropped,
    nothing duplicated, no later send needed *)
Theorem C01_fine_terminal size ths sched :
  (1 <= size)%nat -> forallb fenv_pc ths = true ->
  let f := frun sched (finit size ths) in
  fterminal f ->
  fall_done f /\ fstatus f = false /\
  qlock (fsq f) = false /\ qlock (fuq f) = false /\
  qlen (fsq f) = 0 /\ qcontent (fsq f) = [] /\
  exists lu, qcontent (fuq f) = map Some lu /\ qlen (fuq f) = Z.of_nat (length lu) /\
             (lu = [] \/ fpaused f = true) /\
             Permutation (fmsgs_of ths) (map (pair false) lu ++ flog f).
Proof. exact (fterminal_thm size ths sched). Qed.

(** ============================ (7) no spinning, termination ============================ *)

(** every execution - whatever the clients, the schedule and the initial size - has at most
    192 (n+1)^2 + 3 effective steps, the queue's own steps included (3 x the coarse bound of C01_termination + 3) *)
Theorem C01_fine_termination size ths sched :
  (1 <= size)%nat -> forallb fenv_pc ths = true ->
  (feffective_steps sched (finit size ths) <= 192 * (length ths + 1) * (length ths + 1) + 3)%nat.
Proof. exact (ftermination size ths sched). Qed.

(** with no client call in progress, an empty system ring, and an empty user ring or a paused mailbox, at most
    33 steps per live processor goroutine (+3) remain, whatever the schedule *)
Theorem C01_fine_no_spin f :
  freachable f -> fenv_done f -> qlen (fsq f) = 0 -> (qlen (fuq f) = 0 \/ fpaused f = true) ->
  forall sched, (feffective_steps sched f <= 33 * fprocessors f + 3)%nat.
Proof. exact (fno_spin f). Qed.

(** every execution can be continued until every goroutine has finished (then [C01_fine_terminal] applies) *)
Theorem C01_fine_can_finish size ths sched :
  (1 <= size)%nat -> forallb fenv_pc ths = true ->
  exists more, fall_done (frun (sched ++ more) (finit size ths)).
Proof. exact (fcan_finish size ths sched). Qed.

(** ============================ (8) a step for every synchronisation operation of the source ============================ *)

(** [src_sync_classes] (Generated/MbSyncOps.v) is extracted on every run from the CURRENT internal/queues/ring.go and
    internal/mailbox/unbounded_mailbox.go by the translator harness/cmd/syncops: the SET of operation classes (kind of
    operation + field, without the enclosing function and the receiver variable: a refactoring does not change it) of
    every atomic.* call, Lock/Unlock, go statement, channel operation, call through a struct field (queue API,
    handler), method of a sync-typed field, and sync-typed field declaration, each with its kind.
    [inventory_report] (Mailbox/MbInventory.v) = (source classes of a kind other than "load" that the model's table
    [model_sync_classes] does not have, table classes that the source does not have).  Both must be empty: an operation
    the model has no step for (a write, a CAS, a lock, ...) or the disappearance of one it relies on breaks THIS example -
    coqc prints the offending classes - instead of being silently merged into a neighbouring step of the replay.
    (A new read-only class, kind "load", is not an error: the lock-step run treats it as a stuttering step and reports it.) *)
Open Scope string_scope.   (* so that coqc prints the offending classes as "..." when this example breaks *)
Example C01_fine_sync_inventory : inventory_report src_sync_classes = ([], []).
Proof. vm_compute. reflexivity. Qed.
Close Scope string_scope.

(** the table's class names are the names [class_name] of the model's operation classes ... *)
Theorem C01_fine_inventory_table_consistent : table_consistent = true.
Proof. exact table_names_are_class_names. Qed.

(** ... every kind of step of either model is the step of an operation class of the table ... *)
Theorem C01_fine_every_step_has_a_source_op (p : fpc) (q : pc) :
  (class_of_fpc p = KNone \/ In (class_of_fpc p) table_steps) /\ (class_of_pc q = KNone \/ In (class_of_pc q) table_steps).
Proof. exact (conj (class_in_table (class_of_fpc p)) (class_in_table (class_of_pc q))). Qed.

(** ... and every step class of the table is the class of a pc of one of the two models *)
Theorem C01_fine_every_scheduling_point_is_a_step c :
  In c table_steps -> (exists p : fpc, class_of_fpc p = c) \/ (exists p : pc, class_of_pc p = c).
Proof. exact (every_table_step_is_a_pc c). Qed.

(** ============================ non-vacuity ============================ *)

(** two senders on a mailbox of initial size 1.  Sender 0 finishes its Enqueue (the ring grows 1 -> 2) and starts the
    processor (thread 2), which finds the system ring empty, loads paused = 0, loads len(user) = 1 and is about to
    lock; sender 1 takes the user ring's mutex first and sits between its Lock (the ring has grown 2 -> 4 with the
    rotated copy) and its atomic add.  The consumer is blocked, the sender is not. *)
Definition ex_contended : fstate :=
  frun [0;0;0;0;0; 2;2;2;2; 1;1]%nat (finit 1 [FPushLock false 1%N; FPushLock false 2%N]).
Example C01_fine_ex_contended :
  freachable ex_contended /\
  nth_error (fthr ex_contended) 1 = Some (FPushAdd false 2%N) /\ nth_error (fthr ex_contended) 2 = Some (FQLock false) /\
  qlock (fuq ex_contended) = true /\ qmod (fuq ex_contended) = 4%nat /\ qlen (fuq ex_contended) = 1 /\
  fstep 2 ex_contended = None /\ (exists f', fstep 1 ex_contended = Some f').
Proof.
  split; [exists 1%nat, [FPushLock false 1%N; FPushLock false 2%N], [0;0;0;0;0; 2;2;2;2; 1;1]%nat;
          split; [apply le_n|]; split; [reflexivity|]; unfold ex_contended; reflexivity|].
  vm_compute. repeat split. eexists. reflexivity.
Qed.

(** the same run continued: the consumer gets the mutex, is inside its critical section holding message 1 *)
Example C01_fine_ex_pop_in_progress :
  let f := frun [1; 2]%nat ex_contended in
  freachable f /\ nth_error (fthr f) 2 = Some (FQPopAdd false (Some 1%N)) /\ qlock (fuq f) = true /\ qlen (fuq f) = 2.
Proof.
  cbv zeta. split; [|vm_compute; repeat split].
  exists 1%nat, [FPushLock false 1%N; FPushLock false 2%N], ([0;0;0;0;0; 2;2;2;2; 1;1] ++ [1; 2])%nat.
  split; [apply le_n|]. split; [reflexivity|]. unfold ex_contended. apply MbFineThm.frun_app.
Qed.

(** Pause(); Enqueue(user 7) on a mailbox of size 2: every goroutine finishes, the message stays in the ring *)
Example C01_fine_ex_terminal_paused :
  let f := frun [0;0; 1;1;1;1;1; 2;2;2;2;2;2;2]%nat (finit 2 [FPStore; FPushLock false 7%N]) in
  fterminal f /\ fpaused f = true /\ qcontent (fuq f) = [Some 7%N] /\ flog f = [].
Proof.
  cbv zeta. split; [|vm_compute; repeat split].
  intros i. destruct i as [|[|[|i]]]; vm_compute; try reflexivity. destruct i; reflexivity.
Qed.

(** a quiet state with a live processor (hypotheses of C01_fine_no_spin): one user message handled, the processor has
    stored idle and is about to re-read the counters *)
Example C01_fine_ex_quiet :
  let f := frun [0;0;0;0;0; 1;1;1;1;1;1;1;1;1;1;1]%nat (finit 2 [FPushLock false 1%N]) in
  freachable f /\ fenv_done f /\ qlen (fsq f) = 0 /\ qlen (fuq f) = 0 /\ fprocessors f = 1%nat /\ flog f = [(false, 1%N)].
Proof.
  cbv zeta. split; [exists 2%nat, [FPushLock false 1%N], [0;0;0;0;0; 1;1;1;1;1;1;1;1;1;1;1]%nat;
                    split; [apply le_S, le_n|]; split; reflexivity|].
  split; [|vm_compute; repeat split].
  intros p Hp. vm_compute in Hp. repeat (destruct Hp as [<-|Hp]; [reflexivity|]). destruct Hp.
Qed.

Print Assumptions C01_fine_refines_coarse.
Print Assumptions C01_fine_one_owner.
Print Assumptions C01_fine_one_handler.
Print Assumptions C01_fine_no_crash.
Print Assumptions C01_fine_pop_hands_out_element.
Print Assumptions C01_fine_ring_safe.
Print Assumptions C01_fine_no_deadlock.
Print Assumptions C01_fine_at_most_once.
Print Assumptions C01_fine_handled_was_sent.
Print Assumptions C01_fine_no_lost_wakeup.
Print Assumptions C01_fine_terminal.
Print Assumptions C01_fine_termination.
Print Assumptions C01_fine_no_spin.
Print Assumptions C01_fine_can_finish.
Print Assumptions C01_fine_inventory_table_consistent.
Print Assumptions C01_fine_every_step_has_a_source_op.
Print Assumptions C01_fine_every_scheduling_point_is_a_step.
