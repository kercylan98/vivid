(** C15 (remoting part) — location transparency of system messages: a remote Kill / Watch / OnKilled travels in
    the same envelopes over the same frames as a user message.
    Statements only; proofs in Remoting/FrameProofs.v.  What is ASSUMED here and proved elsewhere: the payload
    codecs of OnKill / OnKilled / Watch (message-level round trips, including the (address, path) encoding of the
    ActorRef fields introduced by the fix cecf3e1) are C12's theorems; this file covers the envelope and the wire. *)
From Coq Require Import List NArith Lia.
From Vivid Require Import Codec.Prim Remoting.Frame Remoting.FrameProofs.
Import ListNotations.
Local Open Scope N_scope.

(** any sequence of envelopes — user or system ([e_system]), any message name, any payload, any sender/receiver
    address and path strings — written by one system is handed to the other system's HandleRemotingEnvelop exactly
    once, in order, with every field intact, for every way TCP cuts the stream *)
Theorem C15_envelopes_exactly_once_in_order :
  forall (es : list env) (chunks : list bytes),
    Forall env_len32 es ->
    Forall (fun e => N.of_nat (length (env_encode e)) <= max_frame) es ->
    concat chunks = concat (map (fun e => frame (env_encode e)) es) ->
    receive env_dec chunks = map RMsg es ++ [REof] /\ delivered (receive env_dec chunks) = es.
Proof. exact envelopes_exactly_once. Qed.

(** the killer / watcher reference the remote actor sees is the one that was written (Reply, OnKilled and the
    dead-watch notification reach the right actor); normaliser idempotence as in C11_sender_ref *)
Theorem C15_system_message_refs :
  forall norm_addr norm_path : bytes -> option bytes,
    (forall a a', norm_addr a = Some a' -> norm_addr a' = Some a') ->
    (forall p p', norm_path p = Some p' -> norm_path p' = Some p') ->
    forall (e : env) (junk a1 p1 a2 p2 : bytes) (s r : bytes * bytes),
      e_system e = true ->
      new_ref norm_addr norm_path a1 p1 = Some s ->
      new_ref norm_addr norm_path a2 p2 = Some r ->
      e_saddr e = fst s -> e_spath e = snd s -> e_raddr e = fst r -> e_rpath e = snd r ->
      env_len32 e ->
      exists e', env_parse (env_encode e ++ junk) = Ok e' /\ e_system e' = true /\
                 handle_refs norm_addr norm_path e' = Some (s, r).
Proof.
  exact (fun na np Ha Hp e junk a1 p1 a2 p2 s r Hsys Hs Hr E1 E2 E3 E4 HL =>
           ex_intro _ e (conj (env_roundtrip e junk HL)
                              (conj Hsys (handle_refs_made na np Ha Hp e a1 p1 a2 p2 s r Hs Hr E1 E2 E3 E4)))).
Qed.

(** non-vacuity: a system envelope (an OnKill-like message from a:1/w to b:1/t), its frame cut after two bytes *)
Example C15_example :
  let kill := {| e_payload := [0; 0; 0; 1; 97]; e_name := [79; 110; 75; 105; 108; 108]; e_system := true;
                 e_saddr := [97; 58; 49]; e_spath := [47; 119]; e_raddr := [98; 58; 49]; e_rpath := [47; 116] |} in
  env_len32 kill /\ N.of_nat (length (env_encode kill)) <= max_frame /\
  receive env_dec [firstn 2 (frame (env_encode kill)); skipn 2 (frame (env_encode kill))] = [RMsg kill; REof].
Proof. cbn zeta. split; [unfold env_len32; cbn; lia|]. split; [unfold max_frame; cbn; lia|reflexivity]. Qed.

Print Assumptions C15_envelopes_exactly_once_in_order.
Print Assumptions C15_system_message_refs.
