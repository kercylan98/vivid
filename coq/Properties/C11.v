(** C11 — Remote delivery over a healthy link: exactly once and in order.
    Statements only; every proof is [exact <lemma>] (Remoting/FrameProofs.v).  Model: Remoting/Frame.v.

    [receive dec chunks] is the receiver as coded: a buffer refilled by an ARBITRARY list of reads
    ([chunks] = what successive conn.Read calls return), io.ReadFull of the 4-byte big-endian length, the
    zero-length close marker, the > 4 MiB discard, decode-failure-continues.  [conn_receive] puts
    Handshake.Wait in front of it.  [frame b = u32be(len b) ++ b] is what the sender writes. *)
From Coq Require Import List NArith Lia.
From Vivid Require Import Codec.Prim Remoting.Frame Remoting.FrameProofs Remoting.Churn Remoting.ChurnProofs.
Import ListNotations.
Local Open Scope N_scope.

(** the receiver depends only on the concatenation of the reads (proved, not assumed) *)
Theorem C11_chunking_independent :
  forall (D : Type) (dec : bytes -> option D) (chunks : list bytes),
    receive dec chunks = receive_stream dec (concat chunks).
Proof. exact (@receive_chunking_independent). Qed.

Theorem C11_handshake_chunking_independent :
  forall (D : Type) (dec : bytes -> option D) (chunks : list bytes),
    conn_receive dec chunks = conn_receive_stream dec (concat chunks).
Proof. exact (@conn_receive_chunking_independent). Qed.

(** the fuel of the model's loop never runs out *)
Theorem C11_model_fuel_suffices :
  forall (D : Type) (dec : bytes -> option D) (chunks : list bytes), ~ In RFuel (receive dec chunks).
Proof. exact (@receive_no_fuel). Qed.

(** exactly once, in order, intact: every message list whose envelopes have 1 .. 4 MiB bytes, EVERY way of
    cutting the byte stream into reads.  [codec round trip] is the hypothesis (C12 / user codec contract). *)
Theorem C11_exactly_once_in_order :
  forall (M : Type) (enc : M -> bytes) (dec : bytes -> option M),
    (forall m, dec (enc m) = Some m) ->
    forall (ms : list M) (chunks : list bytes),
      Forall (fun m => 1 <= N.of_nat (length (enc m)) <= max_frame) ms ->
      concat chunks = concat (map (fun m => frame (enc m)) ms) ->
      receive dec chunks = map RMsg ms ++ [REof] /\ delivered (receive dec chunks) = ms.
Proof. exact (@exactly_once_in_order). Qed.

(** the same for a whole connection: handshake then frames, any chunking (a read may end inside the
    handshake, or carry the handshake together with the first frames) *)
Theorem C11_exactly_once_in_order_with_handshake :
  forall (M : Type) (enc : M -> bytes) (dec : bytes -> option M),
    (forall m, dec (enc m) = Some m) ->
    forall (addr : bytes) (ms : list M) (chunks : list bytes),
      N.of_nat (length addr) <= hs_max ->
      Forall (fun m => 1 <= N.of_nat (length (enc m)) <= max_frame) ms ->
      concat chunks = handshake addr ++ concat (map (fun m => frame (enc m)) ms) ->
      conn_receive dec chunks = CConn addr (map RMsg ms ++ [REof]).
Proof. exact (@conn_exactly_once). Qed.

(** non-vacuity: two messages (one byte and three bytes), the stream cut inside the first length prefix,
    inside a body and across the frame boundary *)
Example C11_exactly_once_example :
  let enc := fun b : bytes => b in
  let ms := [[7]; [1; 2; 3]] in
  let chunks := [[0; 0]; [0; 1; 7; 0]; [0; 0; 3; 1]; [2; 3]] in
  (forall m, Some (enc m) = Some m) /\
  Forall (fun m => 1 <= N.of_nat (length (enc m)) <= max_frame) ms /\
  concat chunks = concat (map (fun m => frame (enc m)) ms) /\
  receive (fun b => Some b) chunks = map RMsg ms ++ [REof].
Proof.
  cbn zeta. split; [reflexivity|].
  split; [constructor; [unfold max_frame; cbn; lia|constructor; [unfold max_frame; cbn; lia|constructor]]|].
  split; reflexivity.
Qed.

(** an empty body IS the close handshake: the reader stops there and never looks at what follows ... *)
Theorem C11_empty_body_is_close :
  forall (D : Type) (dec : bytes -> option D) (f : nat) (rest : bytes),
    parse dec (S f) (frame [] ++ rest) = [RClose].
Proof. exact (@parse_close_step). Qed.

(** ... but no envelope is empty: at least 25 bytes (4+4+1+4*4 of lengths and the system flag), so a message
    frame is never mistaken for the close marker; and the sender refuses an empty body anyway *)
Theorem C11_envelope_never_empty :
  forall e : env, 25 <= N.of_nat (length (env_encode e)).
Proof. exact env_encode_min. Qed.

Theorem C11_envelope_frame_is_not_close :
  forall (f : nat) (e : env) (rest : bytes),
    N.of_nat (length (env_encode e)) <= max_frame ->
    exists ev, parse env_dec (S f) (frame (env_encode e) ++ rest) = ev :: parse env_dec f rest /\ ev <> RClose.
Proof. exact envelope_frame_not_close. Qed.

Theorem C11_sender_writes_only_legal_frames :
  forall b fr : bytes, send_frame b = Some fr -> (1 <= N.of_nat (length b) <= max_frame) /\ fr = frame b.
Proof. exact send_frame_legal. Qed.

(** envelope layout round trip (payload, message name, system flag, four address/path strings); trailing
    bytes are ignored by the reader *)
Theorem C11_envelope_roundtrip :
  forall (e : env) (junk : bytes), env_len32 e -> env_parse (env_encode e ++ junk) = Ok e.
Proof. exact env_roundtrip. Qed.

(** the sender reference seen by the receiver designates the original sender (so Reply reaches it): the
    receiver rebuilds, with NewRef, exactly the refs whose GetAddress()/GetPath() the encoder wrote.
    Hypotheses: NormalizeAddress / NormalizePath are idempotent (checked on the implementation each run). *)
Theorem C11_sender_ref :
  forall norm_addr norm_path : bytes -> option bytes,
    (forall a a', norm_addr a = Some a' -> norm_addr a' = Some a') ->
    (forall p p', norm_path p = Some p' -> norm_path p' = Some p') ->
    forall (e : env) (junk a1 p1 a2 p2 : bytes) (s r : bytes * bytes),
      new_ref norm_addr norm_path a1 p1 = Some s ->
      new_ref norm_addr norm_path a2 p2 = Some r ->
      e_saddr e = fst s -> e_spath e = snd s -> e_raddr e = fst r -> e_rpath e = snd r ->
      env_len32 e ->
      exists e', env_parse (env_encode e ++ junk) = Ok e' /\ handle_refs norm_addr norm_path e' = Some (s, r).
Proof.
  exact (fun na np Ha Hp e junk a1 p1 a2 p2 s r Hs Hr E1 E2 E3 E4 HL =>
           ex_intro _ e (conj (env_roundtrip e junk HL) (handle_refs_made na np Ha Hp e a1 p1 a2 p2 s r Hs Hr E1 E2 E3 E4))).
Qed.

(** non-vacuity: a normaliser that strips leading blanks and rejects the empty string is idempotent *)
Fixpoint ltrim (b : bytes) : bytes := match b with 32 :: r => ltrim r | _ => b end.
Definition norm_ex (b : bytes) : option bytes := match ltrim b with [] => None | t => Some t end.
Example C11_sender_ref_example :
  (forall a a', norm_ex a = Some a' -> norm_ex a' = Some a') /\
  new_ref norm_ex norm_ex [32; 32; 97; 58; 49] [32; 47; 120] = Some ([97; 58; 49], [47; 120]).
Proof.
  split; [|reflexivity].
  assert (I : forall b, ltrim (ltrim b) = ltrim b).
  { induction b as [|x r IH]; [reflexivity|]. cbn [ltrim]. destruct x as [|p]; [reflexivity|].
    repeat (destruct p as [p|p|]; try reflexivity). exact IH. }
  intros a a'. unfold norm_ex. destruct (ltrim a) eqn:E; [discriminate|]. intros [= <-].
  rewrite <- E, I, E. reflexivity.
Qed.

(** ---- receiver churn (model: Remoting/Churn.v; proofs: Remoting/ChurnProofs.v) ----
    The receiving system resolves the receiver of every inbound envelope AT ARRIVAL TIME against the actors
    registered then ([registry]: path -> (incarnation, restart epoch)).  A script interleaves spawn / kill /
    restart steps of the receiving system with the reads of one healthy connection ([STraffic chunks]).
    [run_churn] lists, in order, what happens to every decoded message: [ODeliver p a m] (enqueued into the
    mailbox of the actor [a] registered at p) or [ODead p m] (dead letter on the receiving system). *)

(** every message of a traffic phase, anywhere in a script, is dispatched exactly once and in order against the
    registry as it is when the phase begins, for every chunking of the phase's bytes *)
Theorem C11_churn_phase_exactly_once :
  forall (M : Type) (enc : M -> bytes) (dec : bytes -> option M) (rpath : M -> bytes),
    (forall m, dec (enc m) = Some m) ->
    forall (pre post : list step) (ms : list M) (chunks : list bytes) (r : registry),
      Forall (fun m => 1 <= N.of_nat (length (enc m)) <= max_frame) ms ->
      concat chunks = concat (map (fun m => frame (enc m)) ms) ->
      run_churn dec rpath (pre ++ STraffic chunks :: post) r =
        run_churn dec rpath pre r ++ map (dispatch rpath (reg_after pre r)) ms
          ++ run_churn dec rpath post (reg_after pre r).
Proof. exact (@churn_phase). Qed.

(** name reuse: after "the actor at p was killed; a new actor i was spawned at p" - whatever the history [pre],
    in particular earlier remote traffic to p and earlier incarnations - the messages sent to p are delivered to
    incarnation i exactly once, in order, and none is dead-lettered *)
Theorem C11_respawned_actor_receives :
  forall (M : Type) (enc : M -> bytes) (dec : bytes -> option M) (rpath : M -> bytes),
    (forall m, dec (enc m) = Some m) ->
    forall (pre : list step) (p : bytes) (i : N) (ms : list M) (chunks : list bytes) (r : registry),
      Forall (fun m => 1 <= N.of_nat (length (enc m)) <= max_frame) ms ->
      Forall (fun m => rpath m = p) ms ->
      concat chunks = concat (map (fun m => frame (enc m)) ms) ->
      run_churn dec rpath (pre ++ [SKill p; SSpawn p i; STraffic chunks]) r =
        run_churn dec rpath pre r ++ map (ODeliver p {| i_inc := i; i_epoch := 0 |}) ms.
Proof. exact (@churn_respawn_delivers). Qed.

(** a supervision restart keeps the registration: same incarnation, next epoch *)
Theorem C11_restarted_actor_receives :
  forall (M : Type) (enc : M -> bytes) (dec : bytes -> option M) (rpath : M -> bytes),
    (forall m, dec (enc m) = Some m) ->
    forall (pre : list step) (p : bytes) (a : inst) (ms : list M) (chunks : list bytes) (r : registry),
      lookup p (reg_after pre r) = Some a ->
      Forall (fun m => 1 <= N.of_nat (length (enc m)) <= max_frame) ms ->
      Forall (fun m => rpath m = p) ms ->
      concat chunks = concat (map (fun m => frame (enc m)) ms) ->
      run_churn dec rpath (pre ++ [SRestart p; STraffic chunks]) r =
        run_churn dec rpath pre r ++ map (ODeliver p {| i_inc := i_inc a; i_epoch := i_epoch a + 1 |}) ms.
Proof. exact (@churn_restart_delivers). Qed.

(** while nobody is registered at p the messages are dead letters on the receiving system, in order *)
Theorem C11_killed_actor_dead_letters :
  forall (M : Type) (enc : M -> bytes) (dec : bytes -> option M) (rpath : M -> bytes),
    (forall m, dec (enc m) = Some m) ->
    forall (pre : list step) (p : bytes) (ms : list M) (chunks : list bytes) (r : registry),
      Forall (fun m => 1 <= N.of_nat (length (enc m)) <= max_frame) ms ->
      Forall (fun m => rpath m = p) ms ->
      concat chunks = concat (map (fun m => frame (enc m)) ms) ->
      run_churn dec rpath (pre ++ [SKill p; STraffic chunks]) r =
        run_churn dec rpath pre r ++ map (ODead p) ms.
Proof. exact (@churn_killed_dead_letters). Qed.

(** non-vacuity: path [47] ("/"), messages are their own encoding and all go to that path; incarnation 1 gets
    [7], is killed, incarnation 2 is spawned under the same name and gets [8] and [9] (the stream cut inside a
    length prefix), is restarted and gets [5] *)
Example C11_churn_example :
  let enc := fun b : bytes => b in
  let rp := fun _ : bytes => [47] in
  let script := [SSpawn [47] 1; STraffic [[0; 0; 0; 1; 7]]; SKill [47]; SSpawn [47] 2;
                 STraffic [[0; 0]; [0; 1; 8; 0; 0; 0; 1; 9]]; SRestart [47]; STraffic [[0; 0; 0; 1; 5]]] in
  (forall m, Some (enc m) = Some m) /\
  Forall (fun m => 1 <= N.of_nat (length (enc m)) <= max_frame) [[8]; [9]] /\
  concat [[0; 0]; [0; 1; 8; 0; 0; 0; 1; 9]] = concat (map (fun m => frame (enc m)) [[8]; [9]]) /\
  lookup [47] (reg_after [SSpawn [47] 1; STraffic [[0; 0; 0; 1; 7]]; SKill [47]; SSpawn [47] 2] []) =
    Some {| i_inc := 2; i_epoch := 0 |} /\
  run_churn (fun b => Some b) rp script [] =
    [ODeliver [47] {| i_inc := 1; i_epoch := 0 |} [7];
     ODeliver [47] {| i_inc := 2; i_epoch := 0 |} [8]; ODeliver [47] {| i_inc := 2; i_epoch := 0 |} [9];
     ODeliver [47] {| i_inc := 2; i_epoch := 1 |} [5]].
Proof.
  cbn zeta. split; [reflexivity|].
  split; [constructor; [unfold max_frame; cbn; lia|constructor; [unfold max_frame; cbn; lia|constructor]]|].
  split; [reflexivity|]. split; reflexivity.
Qed.

Print Assumptions C11_chunking_independent.
Print Assumptions C11_handshake_chunking_independent.
Print Assumptions C11_model_fuel_suffices.
Print Assumptions C11_exactly_once_in_order.
Print Assumptions C11_exactly_once_in_order_with_handshake.
Print Assumptions C11_empty_body_is_close.
Print Assumptions C11_envelope_never_empty.
Print Assumptions C11_envelope_frame_is_not_close.
Print Assumptions C11_sender_writes_only_legal_frames.
Print Assumptions C11_envelope_roundtrip.
Print Assumptions C11_sender_ref.
Print Assumptions C11_churn_phase_exactly_once.
Print Assumptions C11_respawned_actor_receives.
Print Assumptions C11_restarted_actor_receives.
Print Assumptions C11_killed_actor_dead_letters.
