(** C07 - System Start/Stop is a clean one-way state machine that never hangs.

    Model: System/Lifecycle.v - a micro-step machine of internal/actor/system.go (Start, Stop/stop, the
    context-guard goroutine) and the first link of system_chains.go: one step = one access to state shared
    between goroutines (statusLock, the status switch, system.Context, clusterContext, Kill(root), cancel,
    the select on guardClosedSignal / time.After, scheduler.Stop).  Threads: ANY number of Start() callers,
    Stop(timeout...) callers and cancellations of the context given to NewSystem; the guard goroutine is
    created by the model's `go` step.  Environment events: ETreeDone (the actor tree terminated and the guard
    actor closed guardClosedSignal; only possible after Kill(root); a run without it = a tree that never
    terminates), ELeaveDone (cluster leave completed), ETick (virtual time).
    [reachable c s] = s is the state after SOME event sequence of SOME population of client threads, so every
    theorem below holds for all call multisets and all interleavings.  Ghost components: [lin] (the
    linearisation log of the status switch executions, newest first), [skipped], [spawned]; the final pc
    [Done kind result] keeps the return value.  Proofs: System/LifecycleProofs.v.  The model is tied to the
    code by bin/check C07 (lock-step replay of the instrumented system.go under the controlled scheduler +
    real-time differential runs on real systems).

    HISTORY: in the code before /repo commit 0843af8 Start released statusLock between its status switch and the
    assignment of system.Context; a Stop landing in that window read s.Context == nil, skipped Kill(root) and
    s.cancel() and returned nil, leaving a running system that could never be stopped (reproduced by this
    check, monitor stop-skipped-kill-and-cancel). Start now runs the switch and the whole chain in ONE critical
    section; the model follows the code and C07_stop_terminates is proved at full strength: the kill is skipped
    only when the creation of the root itself failed (there is nothing to kill; Start returns start-failed). *)
From Coq Require Import List NArith Bool.
From Vivid Require Import System.Lifecycle System.LifecycleProofs System.LifecycleStop.
From Vivid Require System.LockOrder System.LockOrderProofs.
From Vivid Require System.LifeLock System.LifeLockProofs System.LifeLockCluster System.RootSpawn System.RootSpawnProofs.
Import ListNotations.
Local Open Scope N_scope.

(** ============================ (1) no deadlock ============================ *)

(** statusLock is a mutual-exclusion lock in the model: two different threads are never both inside *)
Theorem C07_mutex c s i j p q :
  reachable c s -> nth_error (thr s) i = Some p -> nth_error (thr s) j = Some q ->
  holder_pc p = true -> holder_pc q = true -> i = j.
Proof. exact (mutex c s i j p q). Qed.

(** whoever holds statusLock is never blocked and releases it within four of its OWN default steps (Start: the
    switch, root creation, the rest of the chain, the deferred Unlock - none of them waits for another thread;
    stop: the switch, the deferred Unlock): no thread ever waits for a lock held by a blocked thread *)
Theorem C07_lock_released c s j :
  reachable c s -> lock s = Some j ->
  (exists s1, step c (EStep j 0) s = Some s1) /\
  exists k s', (1 <= k <= 4)%nat /\ steps_of c j k s = Some s' /\ lock s' = None.
Proof. exact (lock_released c s j). Qed.

(** in every reachable state every unfinished thread either can take a step, or waits for statusLock whose
    holder can take a step, or waits for the environment only:
      the guard goroutine for the context to be cancelled,
      the effective stop for leave-completed (clustered systems; NO timeout in the code),
      the effective stop for tree-done-or-timeout, with the kill already issued and the clock before the deadline *)
Theorem C07_no_deadlock c s i p :
  reachable c s -> nth_error (thr s) i = Some p -> is_done p = false ->
  (exists alt s', step c (EStep i alt) s = Some s')
  \/ (lock_pc p = true /\ exists j, j <> i /\ lock s = Some j /\ exists s', step c (EStep j 0) s = Some s')
  \/ env_wait s p.
Proof. exact (progress c s i p). Qed.

(** consequently a state in which no thread can step, however far the clock is advanced, consists of
    finished threads, possibly the guard goroutine waiting for a cancellation that never came (by design:
    neither Stop nor cancel was ever effective), and possibly a stop waiting for the cluster leave *)
Theorem C07_quiescent c s :
  reachable c s -> quiescent c s ->
  forall i p, nth_error (thr s) i = Some p ->
    is_done p = true \/ (p = GWait /\ ctxDone s = false) \/
    (exists w d, p = TLeaveWait w d /\ leaveDone s = false /\ leaveReq s = true).
Proof. exact (quiescent_final c s). Qed.

(** every step of a thread strictly decreases its own rank (at most 20) and leaves the other threads where
    they are: a call finishes within a bounded number of its OWN steps ... *)
Theorem C07_own_steps c i alt s s' p :
  step c (EStep i alt) s = Some s' -> nth_error (thr s) i = Some p ->
  exists p', nth_error (thr s') i = Some p' /\ (rank p' < rank p)%nat /\
             (forall j, j <> i -> (j < length (thr s))%nat -> nth_error (thr s') j = nth_error (thr s) j).
Proof. exact (own_step_rank c i alt s s' p). Qed.

(** ... and whatever the clients and the schedule, an execution contains at most 20 thread steps per call
    (the guard goroutine included): no livelock *)
Theorem C07_termination c ths evs :
  forallb env_pc ths = true -> (thread_steps c evs (init ths) <= 20 * length ths)%nat.
Proof. exact (termination c ths evs). Qed.

(** ============================ (2) return values ============================ *)

(** the linearisation log is well formed: every execution of the status switch saw exactly the status produced
    by the executions before it ([status_after]: Ready until the first Start switch, Started until the first
    stop switch after it, Stopped for ever), and the current status is the one after the whole log *)
Theorem C07_linearisation c s :
  reachable c s -> lin_wf (lin s) /\ status s = status_after (lin s).
Proof. exact (lin_ok c s). Qed.

(** the value a call returns is a function of what its switch saw:
    Start: saw ready -> nil, or start-failed(inner) when the start-up chain failed, inner being the result of
    the Stop it then runs (itself a function of what THAT switch saw); saw start -> already-started;
    saw stop -> already-stopped.
    Stop (and the guard's stop(false)): saw ready -> not-started; saw stop -> already-stopped; saw start ->
    this is the effective stop: nil or stop-failed *)
Theorem C07_returns c s i k r :
  reachable c s -> nth_error (thr s) i = Some (Done k r) ->
  match k with
  | KStart => exists seen, In (i, true, seen) (lin s) /\ start_res_ok seen r /\
                (forall inner, r = RStartFailed inner -> exists seen2, In (i, false, seen2) (lin s) /\ stop_res_ok seen2 inner)
  | KStop | KGuard => exists seen, In (i, false, seen) (lin s) /\ stop_res_ok seen r
  | KCancel => True
  end.
Proof. exact (returns c s i k r). Qed.

(** only one Start ever sees ready, only one stop ever sees start *)
Theorem C07_first_start_unique c s i j :
  reachable c s -> In (i, true, Ready) (lin s) -> In (j, true, Ready) (lin s) -> i = j.
Proof. exact (first_start_unique c s i j). Qed.

Theorem C07_effective_stop_unique c s i j :
  reachable c s -> In (i, false, Started) (lin s) -> In (j, false, Started) (lin s) -> i = j.
Proof. exact (effective_stop_unique c s i j). Qed.

(** the effective stop takes the nil branch only when guardClosedSignal is closed and the stop-failed branch
    only when its deadline (armed when the select was entered: now + timeout) has passed *)
Theorem C07_select c s i w dl :
  nth_error (thr s) i = Some (TSelect w dl) ->
  ((exists s', step c (EStep i 0) s = Some s') <-> guardClosed s = true) /\
  ((exists s', step c (EStep i 1) s = Some s') <-> dl <= now s).
Proof. exact (select_branches c s i w dl). Qed.

(** ============================ (3) one-way ============================ *)

(** a step never moves the status except ready -> start and start -> stop *)
Theorem C07_one_way c e s s' :
  step c e s = Some s' ->
  status s' = status s \/ (status s = Ready /\ status s' = Started) \/ (status s = Started /\ status s' = Stopped).
Proof. exact (one_way_step c e s s'). Qed.

Theorem C07_one_way_run c evs s :
  (st_rank (status s) <= st_rank (status (run c evs s)))%nat.
Proof. exact (one_way_run c evs s). Qed.

(** Stop before Start returns not-started WITHOUT touching the status (there is no ready -> stop edge) *)
Theorem C07_stop_before_start c i alt s s' w d :
  nth_error (thr s) i = Some (TCheck w d) -> status s = Ready -> step c (EStep i alt) s = Some s' ->
  status s' = Ready /\ nth_error (thr s') i = Some (TUnlock w d RNotStarted) /\ kills s' = kills s /\ ctxDone s' = ctxDone s.
Proof. exact (stop_before_start c i alt s s' w d). Qed.

(** ============================ (4) cancel = Stop ============================ *)

(** Kill(root) is issued at most once, whoever stops the system *)
Theorem C07_one_kill c s : reachable c s -> kills s <= 1.
Proof. exact (kills_le_1 c s). Qed.

(** once the context is cancelled and a guard goroutine exists (= some Start got through), a state in which
    nothing can move any more has status stop, exactly one effective stop in its log (uniqueness:
    C07_effective_stop_unique - a Stop racing the cancel gives ONE effective stop), and the guard goroutine
    has returned from stop(false) with nil / stop-failed / already-stopped *)
Theorem C07_cancel_is_stop c s g p :
  reachable c s -> quiescent c s -> ctxDone s = true -> (leaveReq s = true -> leaveDone s = true) ->
  nth_error (thr s) g = Some p -> guard_pc p = true ->
  status s = Stopped /\ (exists j, In (j, false, Started) (lin s)) /\ exists r, p = Done KGuard r /\ r <> RNotStarted.
Proof. exact (cancel_stops c s g p). Qed.

(** Stop terminates the system: whoever ran a stop() that returned nil (Stop(), the guard goroutine after a
    cancel, Start's failure path), if the root context exists - in particular after any successful Start, next
    theorem - then the status is stop, the scheduler is stopped, exactly one Kill(root) was issued, the context
    is cancelled and guardClosedSignal was seen closed *)
Theorem C07_stop_terminates c s i k r :
  reachable c s -> nth_error (thr s) i = Some (Done k r) -> stop_nil k r = true -> hasCtx s = true ->
  status s = Stopped /\ schedStopped s = true /\ kills s = 1 /\ guardClosed s = true /\ ctxDone s = true.
Proof. exact (stop_terminates c s i k r). Qed.

Theorem C07_stop_terminates_after_start c s i k r i0 :
  reachable c s -> nth_error (thr s) i0 = Some (Done KStart RNil) ->
  nth_error (thr s) i = Some (Done k r) -> stop_nil k r = true ->
  status s = Stopped /\ schedStopped s = true /\ kills s = 1 /\ guardClosed s = true /\ ctxDone s = true.
Proof. exact (fun R H0 Hp Hn => stop_terminates c s i k r R Hp Hn (start_returned_hasCtx c s i0 R H0)). Qed.

(** the precise general form: the only other way a stop() returns nil is that the creation of the root failed
    (system.Context is nil for ever, no Kill was ever issued, the failing Start is in / has left its failure path
    and returns start-failed): there is nothing to terminate *)
Theorem C07_stop_effect c s i k r :
  reachable c s -> nth_error (thr s) i = Some (Done k r) -> stop_nil k r = true ->
  status s = Stopped /\ schedStopped s = true /\
  ((hasCtx s = true /\ kills s = 1 /\ guardClosed s = true /\ ctxDone s = true)
   \/ (hasCtx s = false /\ kills s = 0 /\ skipped s = true /\ exists j p, nth_error (thr s) j = Some p /\ failing p = true)).
Proof. exact (stop_effect_full c s i k r). Qed.

(** a stop that is inside its select (and may therefore time out) has issued the kill and cancelled the context *)
Theorem C07_stop_failed_effect c s i w dl :
  reachable c s -> nth_error (thr s) i = Some (TSelect w dl) ->
  kills s = 1 /\ ctxDone s = true /\ hasCtx s = true /\ status s = Stopped.
Proof. exact (stop_failed_effect c s i w dl). Qed.

(** ============================ (5) goroutines ============================ *)

(** the only goroutine the state machine creates is the guard goroutine, at most one per system *)
Theorem C07_created c ths evs :
  forallb env_pc ths = true ->
  let s := run c evs (init ths) in
  length (thr s) = (length ths + N.to_nat (spawned s))%nat /\ spawned s <= 1 /\
  forall j p, nth_error (thr s) j = Some p -> (length ths <= j)%nat -> guard_pc p = true.
Proof. exact (created c ths evs). Qed.

(** if the context is (eventually) cancelled - by Stop's own s.cancel() or from outside - then in every state
    in which nothing can move any more EVERY thread, the guard goroutine included, has finished *)
Theorem C07_goroutines c s :
  reachable c s -> quiescent c s -> ctxDone s = true -> (leaveReq s = true -> leaveDone s = true) ->
  forall i p, nth_error (thr s) i = Some p -> is_done p = true.
Proof. exact (all_done c s). Qed.

(** ============================ (6) Start's critical section ============================ *)

(** the Start that got through holds statusLock from its switch until the chain has finished (successfully or
    not), and the status is start all that time: no stop can run its switch in between *)
Theorem C07_start_holds_lock c s i p :
  reachable c s -> nth_error (thr s) i = Some p -> start_hold p = true -> lock s = Some i /\ status s = Started.
Proof. exact (start_holds_lock c s i p). Qed.

(** whenever the status is not ready and system.Context is still nil, either the Start that got through is
    about to create the root - inside its critical section - or root creation failed ([failing]: that Start is
    in / has left its failure path) *)
Theorem C07_root_nil_only_in_start_or_failed c s :
  reachable c s -> status s <> Ready -> hasCtx s = false ->
  exists i p, nth_error (thr s) i = Some p /\
    ((p = SSpawnRoot /\ lock s = Some i /\ status s = Started) \/ failing p = true).
Proof. exact (root_nil_only_in_start_or_failed c s). Qed.

(** the kill is skipped only if root creation failed *)
Theorem C07_skip_only_if_root_failed c s :
  reachable c s -> skipped s = true ->
  hasCtx s = false /\ kills s = 0 /\ exists i p, nth_error (thr s) i = Some p /\ failing p = true.
Proof. exact (skip_only_if_root_failed c s). Qed.

(** ============================ (7) lock order: statusLock before actorOfLock ============================

    The lock view of the same code (System/LockOrder.v; proofs in System/LockOrderProofs.v).  system.go has a
    second mutex, actorOfLock (System.ActorOf).  The start-up chain that Start runs UNDER statusLock spawns
    "@metrics" / "@remoting" / "@cluster" ... through System.ActorOf, i.e. takes actorOfLock while holding
    statusLock; stop takes statusLock alone (and, on a clustered system, actorOfLock later - in Leave() -
    holding nothing); any goroutine may call System.ActorOf.  A thread is a straight-line program of
    Acq / Rel / Wait (for the environment) / Work operations - one program per branch of the code
    ([LockOrder.shape] / [LockOrder.prog_of]; the chain is refined into its k ActorOf calls, k arbitrary) - and
    the machine interleaves ANY population of them.  [LockOrder.reachable progs s]: s is the state after SOME
    interleaving of the threads running [progs].  Locks are numbered by rank: statusLock 0 < actorOfLock 1.
    The lock-step harness checks, per thread of every controlled run (metrics-enabled systems included), that
    the sequence of lock operations it really performed is one of these programs (case kind 3). *)

(** the lock-hierarchy theorem, for EVERY population of programs that respect the hierarchy ([ordered [] p]: p
    acquires only locks ranked strictly above everything it holds, releases only what it holds, never waits for
    the environment while holding a lock, ends holding nothing) and every interleaving: whenever some thread
    wants to run (is neither finished nor waiting for the environment), some thread can execute its next
    operation - no deadlock on locks *)
Theorem C07_lock_hierarchy_sound (progs : list (list LockOrder.op)) (s : list LockOrder.thread) :
  forallb (LockOrder.ordered []) progs = true -> LockOrder.reachable progs s ->
  (exists i t, nth_error s i = Some t /\ LockOrder.wants_cpu t = true) ->
  exists j s', LockOrder.step (LockOrder.EStep j) s = Some s'.
Proof. exact (LockOrderProofs.lo_progress progs s). Qed.

(** every program of system.go respects the hierarchy: first / repeated Start with a chain of k ActorOf calls
    (k arbitrary) succeeding or failing after k calls, effective / repeated stop on plain and clustered systems,
    the guard goroutine, external System.ActorOf callers, cancellation *)
Theorem C07_lock_programs_ordered (sh : LockOrder.shape) :
  LockOrder.ordered [] (LockOrder.prog_of sh) = true.
Proof. exact (LockOrderProofs.prog_ordered sh). Qed.

(** hence, for all populations of Start / Stop / guard / ActorOf / cancel threads and all interleavings:
    deadlock freedom ... *)
Theorem C07_lock_no_deadlock (shapes : list LockOrder.shape) (s : list LockOrder.thread) :
  LockOrder.reachable (map LockOrder.prog_of shapes) s ->
  (exists i t, nth_error s i = Some t /\ LockOrder.wants_cpu t = true) ->
  exists j s', LockOrder.step (LockOrder.EStep j) s = Some s'.
Proof. exact (LockOrderProofs.lo_progress _ s (LockOrderProofs.progs_ordered shapes)). Qed.

(** ... mutual exclusion of both locks ... *)
Theorem C07_lock_mutex (shapes : list LockOrder.shape) (s : list LockOrder.thread) i j ti tj l :
  LockOrder.reachable (map LockOrder.prog_of shapes) s ->
  nth_error s i = Some ti -> nth_error s j = Some tj ->
  LockOrder.holds ti l = true -> LockOrder.holds tj l = true -> i = j.
Proof. exact (LockOrderProofs.lo_mutex _ s i j ti tj l (LockOrderProofs.progs_ordered shapes)). Qed.

(** ... lock-order acyclicity: a thread standing in front of a lock holds only locks of strictly lower rank
    (along "waits for the holder of" the rank strictly increases: no cycle) ... *)
Theorem C07_lock_order_acyclic (shapes : list LockOrder.shape) (s : list LockOrder.thread) i t l' r l :
  LockOrder.reachable (map LockOrder.prog_of shapes) s ->
  nth_error s i = Some t -> LockOrder.todo t = LockOrder.Acq l' :: r -> LockOrder.holds t l = true -> l < l'.
Proof. exact (LockOrderProofs.lo_acyclic _ s i t l' r l (LockOrderProofs.progs_ordered shapes)). Qed.

(** ... in particular whoever waits for statusLock (every stop, every Start) holds nothing, not actorOfLock either *)
Theorem C07_status_waiter_holds_nothing (shapes : list LockOrder.shape) (s : list LockOrder.thread) i t r :
  LockOrder.reachable (map LockOrder.prog_of shapes) s ->
  nth_error s i = Some t -> LockOrder.todo t = LockOrder.Acq LockOrder.statusLock :: r -> LockOrder.held t = [].
Proof. exact (LockOrderProofs.lo_lowest_waiter_holds_nothing _ s i t r (LockOrderProofs.progs_ordered shapes)). Qed.

(** sharpness: the seeded inversion (stop takes actorOfLock BEFORE statusLock) is rejected by [ordered], and
    against a Start whose chain spawns one system actor it reaches a state in which both threads want to run and
    nothing - no thread step, no environment event - is possible any more: Start holds statusLock and stands in
    front of actorOfLock, the stop holds actorOfLock and stands in front of statusLock *)
Theorem C07_lock_inversion_deadlocks :
  LockOrder.ordered [] LockOrder.stop_mutant = false /\
  LockOrder.reachable LockOrderProofs.mutant_progs LockOrderProofs.mutant_dead /\
  (forall t, In t LockOrderProofs.mutant_dead -> LockOrder.wants_cpu t = true) /\
  (forall e, LockOrder.step e LockOrderProofs.mutant_dead = None) /\
  (exists t0 t1 r0 r1,
      nth_error LockOrderProofs.mutant_dead 0 = Some t0 /\ nth_error LockOrderProofs.mutant_dead 1 = Some t1 /\
      LockOrder.held t0 = [LockOrder.statusLock] /\ LockOrder.todo t0 = LockOrder.Acq LockOrder.actorOfLock :: r0 /\
      LockOrder.held t1 = [LockOrder.actorOfLock] /\ LockOrder.todo t1 = LockOrder.Acq LockOrder.statusLock :: r1).
Proof. exact (conj LockOrderProofs.mutant_not_ordered LockOrderProofs.mutant_deadlock). Qed.


(** ============================ (8) ONE machine: life cycle + statusLock + actorOfLock ============================

    System/LifeLock.v merges the micro-step model with the lock view: its state is a Lifecycle state ([LifeLock.base])
    plus actorOfLock; the start-up chain behind the root is refined into its System.ActorOf calls ("@metrics",
    "@remoting", "@cluster", the singleton proxy manager, the singleton manager - [LifeLock.links], from the
    configuration), each of them  actorOfLock.Lock(); Context.ActorOf (may fail); deferred Unlock  executed by the Start
    thread while it holds statusLock; stop's Leave() is refined into its entry, the System.ActorOf call of the helper actor
    (the only one that can ever close leaveWait) and the step to the blocking wait; any number of external goroutines
    call System.ActorOf.  [LifeLock.reachable2 c s]: s is the state after SOME event sequence of SOME population of
    Start / Stop(timeout) / cancel callers and SOME number of external System.ActorOf callers.  The lock-step harness
    replays every controlled run of the real code on THIS machine (every actorOfLock.Lock() is a scheduling point; after
    every step the holders of both locks are compared). *)

(** refinement: every step of the merged machine is a stutter or one step of the micro-step machine on [base], hence the
    abstract part of every reachable state is reachable there - EVERY theorem above holds of [base s] *)
Theorem C07_merged_refines (c : LifeLock.cfg2) (s : LifeLock.st2) :
  LifeLock.reachable2 c s -> reachable (LifeLock.c_base c) (LifeLock.base s).
Proof. exact (LifeLockProofs.refines c s). Qed.

Theorem C07_merged_step_refines (c : LifeLock.cfg2) e (s s' : LifeLock.st2) :
  LifeLock.step2 c e s = Some s' ->
  LifeLock.base s' = LifeLock.base s \/ exists e', step (LifeLock.c_base c) e' (LifeLock.base s) = Some (LifeLock.base s').
Proof. exact (LifeLockProofs.step2_base c e s s'). Qed.

(** for instance: Stop terminates the system, on the merged machine *)
Theorem C07_merged_stop_terminates (c : LifeLock.cfg2) (s : LifeLock.st2) i k r :
  LifeLock.reachable2 c s -> nth_error (thr (LifeLock.base s)) i = Some (Done k r) -> stop_nil k r = true ->
  hasCtx (LifeLock.base s) = true ->
  status (LifeLock.base s) = Stopped /\ schedStopped (LifeLock.base s) = true /\ kills (LifeLock.base s) = 1 /\
  guardClosed (LifeLock.base s) = true /\ ctxDone (LifeLock.base s) = true.
Proof. exact (fun R => stop_terminates (LifeLock.c_base c) (LifeLock.base s) i k r (LifeLockProofs.refines c s R)). Qed.

(** both mutexes are mutual-exclusion locks; [alock] (the lock word) and the program counters agree *)
Theorem C07_merged_actorOf_mutex (c : LifeLock.cfg2) (s : LifeLock.st2) t t' :
  LifeLock.reachable2 c s -> LifeLock.holds_actorOf s t = true -> LifeLock.holds_actorOf s t' = true -> t = t'.
Proof. exact (LifeLockProofs.actorOf_mutex c s t t'). Qed.

Theorem C07_merged_actorOf_holder (c : LifeLock.cfg2) (s : LifeLock.st2) t :
  LifeLock.reachable2 c s -> (LifeLock.alock s = Some t <-> LifeLock.holds_actorOf s t = true).
Proof. exact (fun R => LifeLockProofs.l_own c s (LifeLockProofs.reachable2_inv c s R) t). Qed.

Theorem C07_merged_status_mutex (c : LifeLock.cfg2) (s : LifeLock.st2) i j :
  LifeLock.reachable2 c s -> LifeLock.holds_status s i = true -> LifeLock.holds_status s j = true -> i = j.
Proof. exact (LifeLockProofs.status_mutex c s i j). Qed.

(** the hierarchy statusLock < actorOfLock: a life-cycle thread inside System.ActorOf is either in the start-up chain -
    then it holds statusLock, taken BEFORE - or in Leave() - then it holds nothing else *)
Theorem C07_merged_lock_hierarchy (c : LifeLock.cfg2) (s : LifeLock.st2) i :
  LifeLock.reachable2 c s -> LifeLock.holds_actorOf s (LifeLock.OLife i) = true ->
  exists p, nth_error (thr (LifeLock.base s)) i = Some p /\
    ((p = SChain /\ lock (LifeLock.base s) = Some i) \/ (exists w d, p = TLeaveReq w d /\ LifeLock.holds_status s i = false)).
Proof. exact (LifeLockProofs.life_holder_where c s i). Qed.

(** whoever stands in front of statusLock holds nothing - not actorOfLock either (no ABBA) ... *)
Theorem C07_merged_status_waiter_holds_nothing (c : LifeLock.cfg2) (s : LifeLock.st2) i :
  LifeLock.reachable2 c s -> LifeLock.wants_status s i = true ->
  LifeLock.holds_actorOf s (LifeLock.OLife i) = false /\ LifeLock.holds_status s i = false.
Proof. exact (LifeLockProofs.status_waiter_holds_nothing c s i). Qed.

(** ... and so does whoever waits for the environment (context cancel / leave / tree-or-timeout) *)
Theorem C07_merged_env_waiter_holds_nothing (c : LifeLock.cfg2) (s : LifeLock.st2) i p :
  LifeLock.reachable2 c s -> nth_error (thr (LifeLock.base s)) i = Some p -> env_wait (LifeLock.base s) p ->
  LifeLock.holds_actorOf s (LifeLock.OLife i) = false /\ LifeLock.holds_status s i = false.
Proof. exact (LifeLockProofs.env_waiter_holds_nothing c s i p). Qed.

(** DEADLOCK FREEDOM with both locks, one theorem about one model: in every reachable state every unfinished thread - a
    Start / Stop / cancel caller, the guard goroutine, an external System.ActorOf caller - can take a step, or stands in
    front of actorOfLock whose holder can take a step, or stands in front of statusLock whose holder can take a step or
    stands in front of actorOfLock whose holder can take a step, or waits for the environment only *)
Theorem C07_merged_no_deadlock (c : LifeLock.cfg2) (s : LifeLock.st2) t :
  LifeLock.reachable2 c s -> LifeLock.unfinished s t ->
  LifeLock.can_step c s t
  \/ LifeLockProofs.blocked_on_actorOf c s t
  \/ (exists i j, t = LifeLock.OLife i /\ LifeLock.wants_status s i = true /\ lock (LifeLock.base s) = Some j /\ j <> i /\
        (LifeLock.can_step c s (LifeLock.OLife j) \/ LifeLockProofs.blocked_on_actorOf c s (LifeLock.OLife j)))
  \/ LifeLock.env_wait2 s t.
Proof. exact (LifeLockProofs.no_deadlock2 c s t). Qed.

(** hence: while some thread is unfinished and does not wait for the environment only, SOME thread can step *)
Theorem C07_merged_some_thread_can_step (c : LifeLock.cfg2) (s : LifeLock.st2) t :
  LifeLock.reachable2 c s -> LifeLock.unfinished s t -> ~ LifeLock.env_wait2 s t -> exists t', LifeLock.can_step c s t'.
Proof. exact (LifeLockProofs.some_thread_can_step c s t). Qed.

(** the holder of actorOfLock is never blocked; the holder of statusLock is blocked at most by the holder of actorOfLock *)
Theorem C07_merged_actorOf_holder_progress (c : LifeLock.cfg2) (s : LifeLock.st2) o :
  LifeLock.reachable2 c s -> LifeLock.alock s = Some o -> LifeLock.can_step c s o.
Proof. exact (fun R => LifeLockProofs.holder_can_step c s o (LifeLockProofs.reachable2_inv c s R)). Qed.

Theorem C07_merged_status_holder_progress (c : LifeLock.cfg2) (s : LifeLock.st2) j :
  LifeLock.reachable2 c s -> lock (LifeLock.base s) = Some j ->
  LifeLock.can_step c s (LifeLock.OLife j) \/ LifeLockProofs.blocked_on_actorOf c s (LifeLock.OLife j).
Proof. exact (LifeLockProofs.status_holder_progress c s j). Qed.

(** every step of a thread strictly decreases its own rank ([LifeLock.rank2]: at most 20 * (3 * #chain calls + 8) + 3 * #chain calls + 4 for a
    life-cycle call, 4 for an external caller): bounded number of own steps, chain and Leave() included *)
Theorem C07_merged_own_steps (c : LifeLock.cfg2) (s : LifeLock.st2) t alt s' :
  LifeLock.reachable2 c s -> LifeLock.step2 c (LifeLock.ev_of t alt) s = Some s' ->
  (LifeLock.rank2 c s' t < LifeLock.rank2 c s t)%nat.
Proof. exact (LifeLockProofs.own_steps2 c s t alt s'). Qed.


(** the unsynchronised read `if s.clusterContext != nil` of stop: the start-up chain assigns the field in the MIDDLE of
    Start's critical section ([LifeLock.clusterNow]: the field as the code writes it; the lock-step harness compares it with
    the real field after every step); whenever no thread is inside the chain it has its final value ([clusterCtx] of the
    micro-step model) - in particular whenever some stop stands at its read *)
Theorem C07_merged_cluster_field_settled (c : LifeLock.cfg2) (s : LifeLock.st2) :
  LifeLock.reachable2 c s -> (forall i, nth_error (thr (LifeLock.base s)) i <> Some SChain) ->
  LifeLock.clusterNow s = clusterCtx (LifeLock.base s).
Proof. exact (fun R => LifeLockCluster.k_out c s (LifeLockCluster.reachable2_invK c s R)). Qed.

Theorem C07_merged_cluster_read_consistent (c : LifeLock.cfg2) (s : LifeLock.st2) i w d :
  LifeLock.reachable2 c s -> nth_error (thr (LifeLock.base s)) i = Some (TReadCluster w d) ->
  LifeLock.clusterNow s = clusterCtx (LifeLock.base s).
Proof. exact (LifeLockCluster.cluster_read_consistent c s i w d). Qed.

(** ============================ (9) every stop that gets through cancels the context ============================

    s.cancel() stands BEFORE the select on guardClosedSignal / time.After, whose timeout arm returns early.  (A cancel
    placed after the select is skipped by a timed-out Stop: the status is `stop`, every later Stop answers
    already-stopped, the guard goroutine stays parked for ever - seeded change C07-r3-cancel-after-wait.) *)

(** once an effective stop has RETURNED - nil or stop-failed, from Stop(), the guard's stop(false), Start's failure path -
    the context is cancelled (if a root exists at all; otherwise root creation failed and no guard goroutine exists) *)
Theorem C07_returned_stop_cancelled c s i k r :
  reachable c s -> nth_error (thr s) i = Some (Done k r) -> eff_returned k r = true -> hasCtx s = true -> ctxDone s = true.
Proof. exact (returned_stop_cancelled c s i k r). Qed.

Theorem C07_select_after_cancel c s i w dl :
  reachable c s -> nth_error (thr s) i = Some (TSelect w dl) -> ctxDone s = true.
Proof. exact (fun R H => proj1 (proj2 (stop_failed_effect c s i w dl R H))). Qed.

(** every state with status `stop` in which nothing can move any more (whatever the clock; the cluster leave, if requested,
    completed): EVERY thread has finished - the context-guard goroutine included - and the context is cancelled *)
Theorem C07_stopped_system_quiesces c s :
  reachable c s -> quiescent c s -> status s = Stopped -> (leaveReq s = true -> leaveDone s = true) ->
  (forall i p, nth_error (thr s) i = Some p -> is_done p = true) /\ (hasCtx s = true -> ctxDone s = true).
Proof. exact (stopped_system_quiesces c s). Qed.

(** the same in terms of the linearisation log: some stop passed its status switch having seen `start` *)
Theorem C07_effective_stop_quiesces c s j :
  reachable c s -> quiescent c s -> In (j, false, Started) (lin s) -> (leaveReq s = true -> leaveDone s = true) ->
  (forall i p, nth_error (thr s) i = Some p -> is_done p = true) /\ (hasCtx s = true -> ctxDone s = true).
Proof. exact (effective_stop_quiesces c s j). Qed.

(** ============================ (10) System.ActorOf racing Stop ============================

    System/RootSpawn.v: the micro-steps of Context.ActorOf on the root (read of the state; registration of the child; the
    final check that kills the new child when the parent is no longer running) against the root's handling of the OnKill of
    stop's Kill(root) (CAS running -> killing; kill the children of a snapshot of the table; die when the table is empty),
    any number of callers, any interleaving, the OnKill taken at any moment.  [rreachable true]: the code since /repo 6438ab6
    (the final check RE-READS the state after the registration); [rreachable false]: the code before (it used the value
    read at the top) - found by this check: Stop ran into its timeout on an idle system / returned nil with an actor alive. *)

(** once the root has collected its children and every ActorOf call has returned, every child in its table has been sent a kill *)
Theorem C07_actorof_registered_child_is_killed (s : RootSpawn.rs) :
  RootSpawn.rreachable true s -> RootSpawnProofs.all_callers_done s ->
  RootSpawn.rp s = RootSpawn.RWait \/ RootSpawn.rp s = RootSpawn.RDead ->
  forall ch, In ch (RootSpawn.children s) -> In ch (RootSpawn.killSent s).
Proof. exact (RootSpawnProofs.registered_child_is_killed s). Qed.

(** Stop does not wait for a child nobody kills: while the root waits, it dies (empty table) or a child of the table terminates *)
Theorem C07_actorof_root_wait_progress (s : RootSpawn.rs) :
  RootSpawn.rreachable true s -> RootSpawnProofs.all_callers_done s -> RootSpawn.rp s = RootSpawn.RWait ->
  exists e s', RootSpawn.rstep true e s = Some s' /\
    (e = RootSpawn.ERoot \/ exists ch, e = RootSpawn.EDie ch /\ (length (RootSpawn.children s') < length (RootSpawn.children s))%nat).
Proof. exact (RootSpawnProofs.root_wait_progress s). Qed.

(** in every state in which nothing can move any more: every ActorOf call has returned, the root is dead and its table is
    empty - every actor whose ActorOf succeeded has terminated *)
Theorem C07_actorof_quiescent_all_terminated (s : RootSpawn.rs) :
  RootSpawn.rreachable true s -> RootSpawn.rquiescent true s ->
  RootSpawnProofs.all_callers_done s /\ RootSpawn.rp s = RootSpawn.RDead /\ RootSpawn.rst s = RootSpawn.RKilled /\ RootSpawn.children s = [].
Proof. exact (RootSpawnProofs.quiescent_all_terminated s). Qed.

(** sharpness - the stale read: a reachable state in which nothing can move any more, the root waits (killing) for child 0
    that was never sent a kill ... *)
Theorem C07_actorof_stale_read_orphans :
  RootSpawn.rreachable false RootSpawnProofs.stale_orphan /\ RootSpawn.rquiescent false RootSpawnProofs.stale_orphan /\
  RootSpawn.rp RootSpawnProofs.stale_orphan = RootSpawn.RWait /\ RootSpawn.rst RootSpawnProofs.stale_orphan = RootSpawn.RKilling /\
  RootSpawn.children RootSpawnProofs.stale_orphan = [0%nat] /\ RootSpawn.killSent RootSpawnProofs.stale_orphan = [] /\
  RootSpawn.callers RootSpawnProofs.stale_orphan = [RootSpawn.ADone (Some 0%nat)].
Proof. exact RootSpawnProofs.stale_orphan_facts. Qed.

(** ... and one in which the root is dead and child 0 is alive, never sent a kill *)
Theorem C07_actorof_stale_read_survivor :
  RootSpawn.rreachable false RootSpawnProofs.stale_survivor /\ RootSpawn.rquiescent false RootSpawnProofs.stale_survivor /\
  RootSpawn.rp RootSpawnProofs.stale_survivor = RootSpawn.RDead /\ RootSpawn.rst RootSpawnProofs.stale_survivor = RootSpawn.RKilled /\
  RootSpawn.children RootSpawnProofs.stale_survivor = [0%nat] /\ RootSpawn.killSent RootSpawnProofs.stale_survivor = [] /\
  RootSpawn.callers RootSpawnProofs.stale_survivor = [RootSpawn.ADone (Some 0%nat)].
Proof. exact RootSpawnProofs.stale_survivor_facts. Qed.

(** ============================ non-vacuity ============================ *)

Definition ex_cfg : cfg := {| cfg_cluster := false; cfg_timeout := 5 |}.
Fixpoint rep (n : nat) (e : ev) : list ev := match n with O => [] | S k => e :: rep k e end.

(** Start; Stop; Stop; Start, one after the other, the tree terminating in time: nil, nil, already-stopped,
    already-stopped; everything finished, guard goroutine included; hypotheses of C07_goroutines /
    C07_cancel_is_stop / C07_stop_terminates(_after_start) hold *)
Definition ex_seq : st :=
  run ex_cfg (rep 7 (EStep 0 0) ++ rep 8 (EStep 1 0) ++ [ETreeDone] ++ rep 2 (EStep 1 0) ++ rep 5 (EStep 4 0)
              ++ rep 5 (EStep 2 0) ++ rep 4 (EStep 3 0))%nat
      (init [SLock; TLock ByStop None; TLock ByStop (Some 3); SLock]).
Example C07_ex_sequential :
  reachable ex_cfg ex_seq /\
  thr ex_seq = [Done KStart RNil; Done KStop RNil; Done KStop RAlreadyStopped; Done KStart RAlreadyStopped; Done KGuard RAlreadyStopped] /\
  status ex_seq = Stopped /\ kills ex_seq = 1 /\ ctxDone ex_seq = true /\ guardClosed ex_seq = true /\
  schedStopped ex_seq = true /\ skipped ex_seq = false /\ lock ex_seq = None.
Proof. split; [apply reachable_run; reflexivity|vm_compute; repeat split]. Qed.

Example C07_ex_sequential_quiescent : quiescent ex_cfg ex_seq.
Proof.
  intros i alt dt. destruct i as [|[|[|[|[|i]]]]]; vm_compute; try reflexivity. destruct i; reflexivity.
Qed.

(** Stop before Start: not-started, status untouched; then Start; then the tree never terminates and the
    Stop(3) times out after 3 ticks: stop-failed *)
Definition ex_timeout : st :=
  run ex_cfg (rep 5 (EStep 0 0) ++ rep 7 (EStep 1 0) ++ rep 8 (EStep 2 0) ++ [ETick 3; EStep 2 1])%nat
      (init [TLock ByStop None; SLock; TLock ByStop (Some 3)]).
Example C07_ex_timeout :
  reachable ex_cfg ex_timeout /\
  nth_error (thr ex_timeout) 0 = Some (Done KStop RNotStarted) /\ nth_error (thr ex_timeout) 1 = Some (Done KStart RNil) /\
  nth_error (thr ex_timeout) 2 = Some (Done KStop RStopFailed) /\
  status ex_timeout = Stopped /\ kills ex_timeout = 1 /\ guardClosed ex_timeout = false /\ schedStopped ex_timeout = false.
Proof. split; [apply reachable_run; reflexivity|vm_compute; repeat split]. Qed.

(** a state satisfying the hypotheses of C07_lock_released / C07_start_holds_lock / the lock-wait disjunct of
    C07_no_deadlock: thread 0 (Start) holds the lock and is about to create the root, thread 1 (Stop) waits *)
Example C07_ex_lock_wait :
  let s := run ex_cfg [EStep 0 0; EStep 0 0; EStep 0 0; EStep 1 0]%nat (init [SLock; TLock ByStop None]) in
  reachable ex_cfg s /\ lock s = Some 0%nat /\ nth_error (thr s) 0 = Some SSpawnRoot /\ nth_error (thr s) 1 = Some (TLock ByStop None) /\
  status s = Started /\ hasCtx s = false /\ step ex_cfg (EStep 1 0) s = None.
Proof. cbv zeta. split; [apply reachable_run; reflexivity|vm_compute; repeat split]. Qed.

(** the guard goroutine waits for ever, by design, when the system is started and neither stopped nor
    cancelled: a quiescent state with an unfinished thread (the second disjunct of C07_quiescent) *)
Example C07_ex_guard_waits_by_design :
  let s := run ex_cfg (rep 7 (EStep 0 0) ++ [EStep 1 0])%nat (init [SLock]) in
  reachable ex_cfg s /\ thr s = [Done KStart RNil; GWait] /\ ctxDone s = false /\ status s = Started /\
  (forall i alt dt, step ex_cfg (EStep i alt) (set_now s (now s + dt)) = None).
Proof.
  cbv zeta. split; [apply reachable_run; reflexivity|]. split; [vm_compute; reflexivity|]. split; [vm_compute; reflexivity|].
  split; [vm_compute; reflexivity|]. intros i alt dt. destruct i as [|[|i]]; vm_compute; try reflexivity. destruct i; reflexivity.
Qed.

(** external cancel after Start racing a Stop: exactly one effective stop (here the guard's), Stop returns
    already-stopped *)
Example C07_ex_cancel_race :
  let s := run ex_cfg (rep 7 (EStep 0 0) ++ rep 2 (EStep 2 0) ++ rep 9 (EStep 3 0) ++ [ETreeDone] ++ rep 2 (EStep 3 0) ++ rep 5 (EStep 1 0))%nat
               (init [SLock; TLock ByStop None; XCancel]) in
  reachable ex_cfg s /\ thr s = [Done KStart RNil; Done KStop RAlreadyStopped; Done KCancel RNil; Done KGuard RNil] /\
  kills s = 1 /\ status s = Stopped /\ skipped s = false.
Proof. cbv zeta. split; [apply reachable_run; reflexivity|vm_compute; repeat split]. Qed.

(** Start whose chain fails: it stops the system itself and returns start-failed(nil); no guard goroutine *)
Example C07_ex_start_fails :
  let s := run ex_cfg (rep 4 (EStep 0 0) ++ [EStep 0 1] ++ rep 8 (EStep 0 0) ++ [ETreeDone] ++ rep 2 (EStep 0 0))%nat (init [SLock]) in
  reachable ex_cfg s /\ thr s = [Done KStart (RStartFailed RNil)] /\ status s = Stopped /\ kills s = 1 /\ spawned s = 0.
Proof. cbv zeta. split; [apply reachable_run; reflexivity|vm_compute; repeat split]. Qed.

(** root creation fails (e.g. invalid advertise address): Start's own Stop finds nothing to kill and returns nil,
    Start returns start-failed(nil): the second disjunct of C07_stop_effect, the hypothesis of C07_skip_only_if_root_failed *)
Example C07_ex_root_fails :
  let s := run ex_cfg (rep 3 (EStep 0 0) ++ [EStep 0 1] ++ rep 7 (EStep 0 0))%nat (init [SLock]) in
  reachable ex_cfg s /\ thr s = [Done KStart (RStartFailed RNil)] /\ status s = Stopped /\ kills s = 0 /\ hasCtx s = false /\
  skipped s = true /\ schedStopped s = true.
Proof. cbv zeta. split; [apply reachable_run; reflexivity|vm_compute; repeat split]. Qed.

(** the call-level specification used by the differential check (Lifecycle.admissible) on a few vectors *)
Example C07_ex_admissible :
  let sq := {| sc_prefix := 9; sc_start_fails := false; sc_blocks := false |} in
  let cc := {| sc_prefix := 0; sc_start_fails := false; sc_blocks := false |} in
  let pc := {| sc_prefix := 1; sc_start_fails := false; sc_blocks := false |} in
  admissible sq [CStart; CStop false; CStop false] [0; 0; 2] = true /\
  admissible sq [CStart; CStop false; CStop false] [0; 0; 0] = false /\
  admissible sq [CStop false; CStart; CStart; CStop true] [3; 0; 1; 4] = true /\
  admissible cc [CStart; CStop false] [0; 3] = true /\
  admissible cc [CStart; CStop false] [2; 0] = false /\
  admissible sq [CStart; CCancel; CStop false] [0; 0; 2] = true /\
  admissible sq [CStart; CCancel; CStop false] [0; 0; 0] = true /\
  admissible pc [CStart; CStop false; CStop false; CStart] [0; 2; 0; 2] = true /\
  admissible pc [CStart; CStop false; CStop false; CStart] [0; 0; 0; 2] = false /\
  admissible pc [CStart; CStop false; CStop false; CStart] [0; 2; 0; 1] = true.
Proof. vm_compute. repeat split. Qed.

(** lock view: Start (metrics: one chain ActorOf) holds statusLock and stands in front of actorOfLock, which an
    external System.ActorOf caller holds, a Stop stands in front of statusLock - the hypotheses of
    C07_lock_no_deadlock / C07_lock_order_acyclic hold in a reachable state with two blocked threads; the
    ActorOf caller can go on *)
Example C07_ex_lock_order :
  LockOrder.reachable (map LockOrder.prog_of LockOrderProofs.ex_shapes) LockOrderProofs.ex_state /\
  (exists t0 r0, nth_error LockOrderProofs.ex_state 0 = Some t0 /\ LockOrder.held t0 = [LockOrder.statusLock] /\
                 LockOrder.todo t0 = LockOrder.Acq LockOrder.actorOfLock :: r0) /\
  LockOrder.step (LockOrder.EStep 0) LockOrderProofs.ex_state = None /\
  LockOrder.step (LockOrder.EStep 2) LockOrderProofs.ex_state = None /\
  exists s', LockOrder.step (LockOrder.EStep 1) LockOrderProofs.ex_state = Some s'.
Proof. exact LockOrderProofs.ex_state_facts. Qed.

(** what the lock-step harness observes on a metrics-enabled system conforms; the inverted stop does not *)
Example C07_ex_lock_conforms :
  LockOrder.conforms 0 true [LockOrder.Acq 0; LockOrder.Acq 1; LockOrder.Rel 1; LockOrder.Rel 0] = true /\
  LockOrder.conforms 1 true [LockOrder.Acq 0; LockOrder.Rel 0] = true /\
  LockOrder.conforms 0 false [LockOrder.Acq 0] = true /\
  LockOrder.conforms 1 true [LockOrder.Acq 1; LockOrder.Acq 0; LockOrder.Rel 0; LockOrder.Rel 1] = false /\
  LockOrder.ordered_prefix [] [LockOrder.Acq 1; LockOrder.Acq 0] = false.
Proof. vm_compute. repeat split. Qed.


(** merged machine: a metrics-enabled system (one System.ActorOf call in the chain). Start holds statusLock and stands in
    front of actorOfLock, which an external System.ActorOf caller holds; a Stop stands in front of statusLock: a reachable
    state meeting the hypotheses of C07_merged_no_deadlock (third disjunct for the Stop, second for the Start),
    C07_merged_lock_hierarchy / C07_merged_status_waiter_holds_nothing; the external caller can step *)
Definition ex_cfg2 : LifeLock.cfg2 :=
  {| LifeLock.c_base := ex_cfg; LifeLock.c_metrics := true; LifeLock.c_remoting := false; LifeLock.c_singletons := false |}.
Definition ex_blocked_evs : list LifeLock.ev2 :=
  [LifeLock.E2Life 0 0; LifeLock.E2Life 0 0; LifeLock.E2Life 0 0; LifeLock.E2Life 0 0; LifeLock.E2Life 0 0;
   LifeLock.E2Ext 0 0; LifeLock.E2Ext 0 0; LifeLock.E2Life 1 0].
Definition ex_merged_blocked : LifeLock.st2 := LifeLock.run2 ex_cfg2 ex_blocked_evs (LifeLock.init2 [SLock; TLock ByStop None] 1).
Example C07_ex_merged_blocked :
  LifeLock.reachable2 ex_cfg2 ex_merged_blocked /\
  nth_error (thr (LifeLock.base ex_merged_blocked)) 0 = Some SChain /\ LifeLock.getsub ex_merged_blocked 0 = LifeLock.AAcq 0 /\
  lock (LifeLock.base ex_merged_blocked) = Some 0%nat /\ LifeLock.alock ex_merged_blocked = Some (LifeLock.OExt 0) /\
  LifeLock.wants_status ex_merged_blocked 1 = true /\
  LifeLock.step2 ex_cfg2 (LifeLock.E2Life 0 0) ex_merged_blocked = None /\
  LifeLock.step2 ex_cfg2 (LifeLock.E2Life 1 0) ex_merged_blocked = None /\
  exists s', LifeLock.step2 ex_cfg2 (LifeLock.E2Ext 0 0) ex_merged_blocked = Some s'.
Proof.
  split; [apply LifeLockProofs.reachable2_run; reflexivity|].
  repeat (split; [vm_compute; reflexivity|]). eexists. vm_compute. reflexivity.
Qed.

(** ... and the whole run to the end on a single-node cluster with metrics (chain: @metrics, @remoting, @cluster, proxy
    manager; stop goes through Leave()): Start nil, Stop nil, guard already-stopped, both locks free *)
Definition ex_cfg3 : LifeLock.cfg2 :=
  {| LifeLock.c_base := {| cfg_cluster := true; cfg_timeout := 5 |}; LifeLock.c_metrics := true; LifeLock.c_remoting := true; LifeLock.c_singletons := false |}.
Fixpoint rep2 (n : nat) (e : LifeLock.ev2) : list LifeLock.ev2 := match n with O => [] | S k => e :: rep2 k e end.
Definition ex_cluster_evs : list LifeLock.ev2 :=
  (rep2 19 (LifeLock.E2Life 0 0) ++ rep2 9 (LifeLock.E2Life 1 0) ++ [LifeLock.E2Leave] ++
   rep2 4 (LifeLock.E2Life 1 0) ++ [LifeLock.E2Tree] ++ rep2 2 (LifeLock.E2Life 1 0) ++ rep2 5 (LifeLock.E2Life 2 0))%nat.
Definition ex_merged_cluster : LifeLock.st2 := LifeLock.run2 ex_cfg3 ex_cluster_evs (LifeLock.init2 [SLock; TLock ByStop None] 0).
Example C07_ex_merged_cluster :
  LifeLock.reachable2 ex_cfg3 ex_merged_cluster /\ length (LifeLock.links ex_cfg3) = 4%nat /\
  thr (LifeLock.base ex_merged_cluster) = [Done KStart RNil; Done KStop RNil; Done KGuard RAlreadyStopped] /\
  LifeLock.alock ex_merged_cluster = None /\ lock (LifeLock.base ex_merged_cluster) = None /\
  LifeLock.clusterNow ex_merged_cluster = true /\ clusterCtx (LifeLock.base ex_merged_cluster) = true /\
  LifeLock.leaveHelper ex_merged_cluster = true /\ status (LifeLock.base ex_merged_cluster) = Stopped /\
  ctxDone (LifeLock.base ex_merged_cluster) = true.
Proof.
  split; [apply LifeLockProofs.reachable2_run; reflexivity|]. vm_compute. repeat split.
Qed.

(** (9): ex_seq and ex_timeout are states with status stop in which an effective stop has returned (nil / stop-failed) *)
Example C07_ex_stop_cancelled :
  eff_returned KStop RNil = true /\ eff_returned KStop RStopFailed = true /\
  hasCtx ex_seq = true /\ ctxDone ex_seq = true /\ hasCtx ex_timeout = true /\ ctxDone ex_timeout = true /\
  status ex_seq = Stopped /\ (leaveReq ex_seq = true -> leaveDone ex_seq = true).
Proof. vm_compute. repeat split. intros H; discriminate H. Qed.

(** (10): two callers against the root's OnKill on the repaired code - a reachable state in which the root waits, every call
    has returned and both children have been sent a kill; the run goes on to the state in which everything is gone *)
Definition ex_race_evs : list RootSpawn.rsev :=
  [RootSpawn.ECall 0; RootSpawn.ECall 1; RootSpawn.ERoot; RootSpawn.ECall 0; RootSpawn.ERoot;
   RootSpawn.ECall 1; RootSpawn.ECall 0; RootSpawn.ECall 1].
Definition ex_race : RootSpawn.rs := RootSpawn.rrun true ex_race_evs (RootSpawn.rinit 2).
Example C07_ex_actorof_race :
  RootSpawn.rreachable true ex_race /\ RootSpawn.rp ex_race = RootSpawn.RWait /\ RootSpawn.children ex_race = [1; 0]%nat /\
  RootSpawn.callers ex_race = [RootSpawn.ADone (Some 0%nat); RootSpawn.ADone (Some 1%nat)] /\
  (forall ch, In ch (RootSpawn.children ex_race) -> In ch (RootSpawn.killSent ex_race)) /\
  RootSpawn.rp (RootSpawn.rrun true [RootSpawn.EDie 0; RootSpawn.EDie 1; RootSpawn.ERoot] ex_race) = RootSpawn.RDead /\
  RootSpawn.children (RootSpawn.rrun true [RootSpawn.EDie 0; RootSpawn.EDie 1; RootSpawn.ERoot] ex_race) = [].
Proof.
  split; [apply RootSpawnProofs.rreachable_run|]. vm_compute. repeat split.
  intros ch [<-|[<-|[]]]; auto.
Qed.

Print Assumptions C07_mutex.
Print Assumptions C07_lock_released.
Print Assumptions C07_no_deadlock.
Print Assumptions C07_quiescent.
Print Assumptions C07_own_steps.
Print Assumptions C07_termination.
Print Assumptions C07_linearisation.
Print Assumptions C07_returns.
Print Assumptions C07_first_start_unique.
Print Assumptions C07_effective_stop_unique.
Print Assumptions C07_select.
Print Assumptions C07_one_way.
Print Assumptions C07_one_way_run.
Print Assumptions C07_stop_before_start.
Print Assumptions C07_one_kill.
Print Assumptions C07_cancel_is_stop.
Print Assumptions C07_stop_terminates.
Print Assumptions C07_stop_terminates_after_start.
Print Assumptions C07_stop_effect.
Print Assumptions C07_stop_failed_effect.
Print Assumptions C07_created.
Print Assumptions C07_goroutines.
Print Assumptions C07_start_holds_lock.
Print Assumptions C07_root_nil_only_in_start_or_failed.
Print Assumptions C07_skip_only_if_root_failed.
Print Assumptions C07_lock_hierarchy_sound.
Print Assumptions C07_lock_programs_ordered.
Print Assumptions C07_lock_no_deadlock.
Print Assumptions C07_lock_mutex.
Print Assumptions C07_lock_order_acyclic.
Print Assumptions C07_status_waiter_holds_nothing.
Print Assumptions C07_lock_inversion_deadlocks.
Print Assumptions C07_merged_refines.
Print Assumptions C07_merged_step_refines.
Print Assumptions C07_merged_stop_terminates.
Print Assumptions C07_merged_actorOf_mutex.
Print Assumptions C07_merged_actorOf_holder.
Print Assumptions C07_merged_status_mutex.
Print Assumptions C07_merged_lock_hierarchy.
Print Assumptions C07_merged_status_waiter_holds_nothing.
Print Assumptions C07_merged_env_waiter_holds_nothing.
Print Assumptions C07_merged_no_deadlock.
Print Assumptions C07_merged_some_thread_can_step.
Print Assumptions C07_merged_actorOf_holder_progress.
Print Assumptions C07_merged_status_holder_progress.
Print Assumptions C07_merged_own_steps.
Print Assumptions C07_returned_stop_cancelled.
Print Assumptions C07_select_after_cancel.
Print Assumptions C07_stopped_system_quiesces.
Print Assumptions C07_effective_stop_quiesces.
Print Assumptions C07_actorof_registered_child_is_killed.
Print Assumptions C07_actorof_root_wait_progress.
Print Assumptions C07_actorof_quiescent_all_terminated.
Print Assumptions C07_actorof_stale_read_orphans.
Print Assumptions C07_actorof_stale_read_survivor.
Print Assumptions C07_merged_cluster_field_settled.
Print Assumptions C07_merged_cluster_read_consistent.
