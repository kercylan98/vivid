(** C17 (parts 2, 3 and 4; one file so that one coqc run checks them).

    PART 2 — every configuration of MergeFromWithOptions: the three VersionConcurrentStrategy
    values, the clock-skew test, the Epoch / Timestamp adoption; IsNewerThan as a strict weak order;
    the counts of recomputeCounts.  Statements only; proofs in Cluster/ViewCfgProofs.v.

    Reading guide (in addition to Properties/C17.v).
      adopts sk st now v o  =  negb (skew_skip sk now (vw_ts o)) &&
                               negb (is_concurrent (vw_vv v) (vw_vv o) && (st =? 1))
        is `!skipEpochTimestamp && adoptEpochTimestamp` of the code: the merge looks at other's
        Epoch/Timestamp at all.  st: 0 TakeMax, 1 PreferLocal, 2 PreferRemote, anything else = the
        `default:` arm.  sk = MaxClockSkew in ns, now = time.Now().UnixNano().
      skew_far sk now ots   =  (0 <? sk) && (sk <? |now - ots|)      the skew test without int64 wrap
      mcfg P e              :  every merge node of the expression e has a configuration satisfying P
      cfg_max_noskew sk st now  =  sk <= 0 /\ st <> 1
      mepoch_max e / mts_max e  :  the largest epoch / view timestamp among the leaves of e
      mleft e               :  the leftmost leaf (the view all others are merged into)
      up_members m          :  the members whose Status is Up
    "Never lowers the epoch" for EVERY configuration is C17_epoch_monotone (Properties/C17.v); here it is
    sharpened to the exact value per configuration. *)
From Coq Require Import List NArith ZArith Lia.
From stdpp Require Import gmap.
From Vivid Require Import Codec.Prim Cluster.VV Cluster.VVProofs Cluster.View Cluster.ViewProofs
  Cluster.ViewCfg Cluster.ViewCfgProofs Cluster.ViewFull Cluster.ViewFullProofs Cluster.ViewHeap Cluster.ViewHeapProofs
  Codec.MsgPrim Cluster.ViewWire.
From Vivid Require Codec.ClusterMsgs.
Local Open Scope N_scope.

(** ** Epoch and view timestamp: the exact result, every strategy, every skew setting, every clock *)

Theorem C17_epoch_exact sk st now v o :
  vw_members o <> ∅ ->
  vw_epoch (fst (view_merge sk st now v o)) =
    (if adopts sk st now v o then Z.max (vw_epoch v) (vw_epoch o) else vw_epoch v) /\
  vw_ts (fst (view_merge sk st now v o)) =
    (if adopts sk st now v o then Z.max (vw_ts v) (vw_ts o) else vw_ts v).
Proof. exact (merge_epoch_ts_exact sk st now v o). Qed.

(** an argument view without members is ignored altogether - epoch, timestamp, vector, flag *)
Theorem C17_empty_argument_ignored sk st now v o :
  vw_members o = ∅ -> view_merge sk st now v o = (v, false).
Proof. exact (view_merge_empty sk st now v o). Qed.

(** [adopts] per strategy: PreferLocal refuses on concurrent vectors; every other value never refuses *)
Theorem C17_adopts_per_strategy sk st now v o :
  adopts sk st now v o =
  negb (skew_skip sk now (vw_ts o)) &&
  (if (st =? 1)%Z then negb (is_concurrent (vw_vv v) (vw_vv o)) else true).
Proof. exact (adopts_cases sk st now v o). Qed.

(** PreferRemote (2) and every out-of-range strategy value ARE TakeMax: the whole result and the flag
    coincide.  In particular PreferRemote does not "force-adopt" a lower remote epoch - which is what
    keeps "never lowers the epoch" true for it. *)
Theorem C17_strategy_collapse sk st now v o :
  st <> 1%Z -> view_merge sk st now v o = view_merge sk 0 now v o.
Proof. exact (strategy_collapse sk st now v o). Qed.

(** PreferLocal is TakeMax unless the two vectors are concurrent *)
Theorem C17_prefer_local_when_ordered sk now v o :
  is_concurrent (vw_vv v) (vw_vv o) = false -> view_merge sk 1 now v o = view_merge sk 0 now v o.
Proof. exact (prefer_local_when_ordered sk now v o). Qed.

(** what NO configuration can influence: the complete member states, the whole version vector, the
    counts, the protocol version, MaxVersionVectorEntries of the result ... *)
Theorem C17_config_independent sk st now sk' st' now' v o :
  vw_members (fst (view_merge sk st now v o)) = vw_members (fst (view_merge sk' st' now' v o)) /\
  vw_vv (fst (view_merge sk st now v o)) = vw_vv (fst (view_merge sk' st' now' v o)) /\
  vw_healthy (fst (view_merge sk st now v o)) = vw_healthy (fst (view_merge sk' st' now' v o)) /\
  vw_unhealthy (fst (view_merge sk st now v o)) = vw_unhealthy (fst (view_merge sk' st' now' v o)) /\
  vw_quorum (fst (view_merge sk st now v o)) = vw_quorum (fst (view_merge sk' st' now' v o)) /\
  vw_proto (fst (view_merge sk st now v o)) = vw_proto (fst (view_merge sk' st' now' v o)) /\
  vw_maxent (fst (view_merge sk st now v o)) = vw_maxent (fst (view_merge sk' st' now' v o)).
Proof. exact (config_independent sk st now sk' st' now' v o). Qed.

(** ... and `changed` of two configurations differs only if the epoch or the view timestamp does *)
Theorem C17_changed_config_dependence sk st now sk' st' now' v o :
  vw_epoch (fst (view_merge sk st now v o)) = vw_epoch (fst (view_merge sk' st' now' v o)) ->
  vw_ts (fst (view_merge sk st now v o)) = vw_ts (fst (view_merge sk' st' now' v o)) ->
  snd (view_merge sk st now v o) = snd (view_merge sk' st' now' v o).
Proof. exact (changed_config_dependence sk st now sk' st' now' v o). Qed.

(** ** Order (in)sensitivity of the epoch, per kind of configuration *)

(** every configuration, every merge expression: the epoch (view timestamp) lies between the one of the
    view everything is merged into and the maximum over all views, and is the epoch of one of them *)
Theorem C17_epoch_bounds_any_config e :
  (vw_epoch (mleft e) <= vw_epoch (meval e) <= mepoch_max e)%Z /\
  (vw_ts (mleft e) <= vw_ts (meval e) <= mts_max e)%Z /\
  (exists v, v ∈ mleaves e /\ vw_epoch (meval e) = vw_epoch v) /\
  (exists v, v ∈ mleaves e /\ vw_ts (meval e) = vw_ts v).
Proof.
  exact (conj (proj1 (meval_epoch_bounds e)) (conj (proj2 (meval_epoch_bounds e)) (meval_epoch_is_a_leaf e))).
Qed.

(** TakeMax / PreferRemote / out-of-range strategies with the skew test off, views that have members:
    the epoch and the view timestamp of ANY merge expression are the maxima over its leaves ... *)
Theorem C17_epoch_is_max_takemax_noskew e :
  mcfg cfg_max_noskew e -> Forall (fun v => vw_members v <> ∅) (mleaves e) ->
  vw_epoch (meval e) = mepoch_max e /\ vw_ts (meval e) = mts_max e.
Proof. exact (meval_epoch_max e). Qed.

(** ... hence the same for every order and tree shape over the same views *)
Theorem C17_epoch_any_order_takemax_noskew e1 e2 :
  mcfg cfg_max_noskew e1 -> mcfg cfg_max_noskew e2 ->
  Forall (fun v => vw_members v <> ∅) (mleaves e1) -> mleaves e1 ≡ₚ mleaves e2 ->
  vw_epoch (meval e1) = vw_epoch (meval e2) /\ vw_ts (meval e1) = vw_ts (meval e2).
Proof. exact (epoch_order_insensitive_max_noskew e1 e2). Qed.

(** NOT so for PreferLocal (concurrent vectors), NOT so with the skew test on, NOT so when a view has
    no members - each with well-formed witnesses; the membership is order-independent all the same.
    (The property claims order-insensitivity of the membership only; these delimit the claim.) *)
Theorem C17_epoch_order_sensitive_prefer_local :
  exists a b, WF a /\ WF b /\ VVin a /\ VVin b /\ vw_members a <> ∅ /\ vw_members b <> ∅ /\
    vw_epoch (fst (view_merge 0 1 0 a b)) <> vw_epoch (fst (view_merge 0 1 0 b a)) /\
    proj (fst (view_merge 0 1 0 a b)) = proj (fst (view_merge 0 1 0 b a)).
Proof. exact epoch_order_sensitive_prefer_local. Qed.

Theorem C17_epoch_order_sensitive_skew :
  exists a b, WF a /\ WF b /\ VVin a /\ VVin b /\ vw_members a <> ∅ /\ vw_members b <> ∅ /\
    vw_epoch (fst (view_merge 10 0 100 a b)) <> vw_epoch (fst (view_merge 10 0 100 b a)) /\
    proj (fst (view_merge 10 0 100 a b)) = proj (fst (view_merge 10 0 100 b a)).
Proof. exact epoch_order_sensitive_skew. Qed.

Theorem C17_epoch_order_sensitive_empty_view :
  exists a b, WF a /\ WF b /\ VVin a /\ VVin b /\ vw_members a = ∅ /\
    vw_epoch (fst (view_merge 0 0 0 a b)) <> vw_epoch (fst (view_merge 0 0 0 b a)).
Proof. exact epoch_order_sensitive_empty. Qed.

(** ** The clock-skew test *)

(** MaxClockSkew <= 0 switches it off *)
Theorem C17_skew_off sk now ots : (sk <= 0)%Z -> skew_skip sk now ots = false.
Proof. exact (skew_off sk now ots). Qed.

(** without int64 overflow of `now - other.Timestamp` it is exactly 0 < skew < |now - other.Timestamp| *)
Theorem C17_skew_test_exact sk now ots :
  (- two63 < now - ots < two63)%Z -> skew_skip sk now ots = skew_far sk now ots.
Proof. exact (skew_skip_exact sk now ots). Qed.

(** with overflow the farthest possible timestamp counts as near (only a wire-decoded view timestamp
    can be 2^63 away from the clock; the epoch is then merely not protected by the skew test) *)
Theorem C17_skew_test_wraps :
  skew_far 1000 1 (1 - two63) = true /\ skew_skip 1000 1 (1 - two63) = false.
Proof. exact skew_wrap_example. Qed.

(** ** IsNewerThan on the well-formed states of one node: a strict weak order whose indifference is
    "same incarnation" (with C17_isnewer_strict_order: irreflexive, asymmetric, transitive) *)

Theorem C17_isnewer_trichotomy a b :
  ns_id a = ns_id b -> wf_state a -> wf_state b ->
  (isnewer a b = true /\ isnewer b a = false /\ inc_of a <> inc_of b) \/
  (isnewer a b = false /\ isnewer b a = true /\ inc_of a <> inc_of b) \/
  (isnewer a b = false /\ isnewer b a = false /\ inc_of a = inc_of b).
Proof. exact (isnewer_trichotomy a b). Qed.

Theorem C17_isnewer_negatively_transitive a b c :
  ns_id a = ns_id b -> ns_id b = ns_id c -> wf_state a -> wf_state b -> wf_state c ->
  isnewer a b = false -> isnewer b c = false -> isnewer a c = false.
Proof. exact (isnewer_neg_trans a b c). Qed.

(** across node ids it is no order even on well-formed states (the logical clock is skipped, the
    timestamp decides): a 3-cycle.  The merge never compares across ids (one key, and WF makes the key
    the id); IsNewerThan must not be used as an order on NodeState as such. *)
Theorem C17_isnewer_cross_id_cycle :
  exists a b c, wf_state a /\ wf_state b /\ wf_state c /\ ns_id a = ns_id b /\ ns_id b <> ns_id c /\
    isnewer a b = true /\ isnewer b c = true /\ isnewer c a = true.
Proof. exact isnewer_cross_id_cycle. Qed.

(** ** recomputeCounts: after a merge the counts are those of the resulting member map *)
Theorem C17_counts_after_merge sk st now v o :
  vw_members o <> ∅ ->
  vw_healthy (fst (view_merge sk st now v o)) =
    N.of_nat (size (up_members (vw_members (fst (view_merge sk st now v o))))) /\
  vw_healthy (fst (view_merge sk st now v o)) + vw_unhealthy (fst (view_merge sk st now v o)) =
    N.of_nat (size (vw_members (fst (view_merge sk st now v o)))) /\
  vw_quorum (fst (view_merge sk st now v o)) =
    (if 0 <? vw_healthy (fst (view_merge sk st now v o))
     then vw_healthy (fst (view_merge sk st now v o)) / 2 + 1 else 0) /\
  (0 < vw_healthy (fst (view_merge sk st now v o)) ->
     vw_healthy (fst (view_merge sk st now v o)) < 2 * vw_quorum (fst (view_merge sk st now v o)) /\
     vw_quorum (fst (view_merge sk st now v o)) <= vw_healthy (fst (view_merge sk st now v o))).
Proof. exact (merge_counts sk st now v o). Qed.

(** ** Non-vacuity *)

(** the hypotheses of the order-insensitivity theorem are met by a three-leaf expression with PreferRemote,
    TakeMax and an out-of-range strategy, negative and zero skew, and a permutation of it *)
Example C17_epoch_any_order_example :
  let a := w_ept ida 1 100 in let b := w_ept idb 2 300 in let c := w_ept [99] 0 200 in
  vw_epoch (meval (MNode 0 2 5 (MNode (-1) 0 9 (MLeaf a) (MLeaf b)) (MLeaf c))) = 2%Z /\
  vw_epoch (meval (MNode 0 7 1 (MLeaf c) (MNode 0 0 0 (MLeaf b) (MLeaf a)))) = 2%Z /\
  vw_ts (meval (MNode 0 7 1 (MLeaf c) (MNode 0 0 0 (MLeaf b) (MLeaf a)))) = 300%Z.
Proof.
  cbn zeta.
  assert (Hn : forall id ep ts, id <> [] -> vw_members (w_ept id ep ts) <> ∅) by (intros; apply w_ept_wf; assumption).
  destruct (meval_epoch_max (MNode 0 2 5 (MNode (-1) 0 9 (MLeaf (w_ept ida 1 100)) (MLeaf (w_ept idb 2 300))) (MLeaf (w_ept [99] 0 200))))
    as [E1 _]; [cbn; unfold cfg_max_noskew; repeat split; lia|repeat constructor; apply Hn; discriminate|].
  destruct (meval_epoch_max (MNode 0 7 1 (MLeaf (w_ept [99] 0 200)) (MNode 0 0 0 (MLeaf (w_ept idb 2 300)) (MLeaf (w_ept ida 1 100)))))
    as [E2 T2]; [cbn; unfold cfg_max_noskew; repeat split; lia|repeat constructor; apply Hn; discriminate|].
  rewrite E1, E2, T2. cbn. auto.
Qed.

(** well-formed states of one node in each of the three trichotomy cases *)
Example C17_isnewer_trichotomy_example :
  let s g l := NState ida [] g 5 0 1 l 0 in
  wf_state (s 2%Z 1) /\ wf_state (s 1%Z 3) /\
  isnewer (s 2%Z 1) (s 1%Z 3) = true /\ isnewer (s 1%Z 3) (s 2%Z 1) = false /\
  isnewer (s 1%Z 3) (s 1%Z 3) = false.
Proof. cbn zeta. split; [split; cbn; lia|]. split; [split; cbn; lia|]. vm_compute. auto. Qed.

(* ====================================================================================== *)

(** PART 3 — the COMPLETE ClusterView / NodeState (all fields, nil maps, nil entries) and the
    mechanism "stored states are clones" at the level of Go pointers.  Statements only; proofs in
    Cluster/ViewFullProofs.v and Cluster/ViewHeapProofs.v; models in Cluster/ViewFull.v, Cluster/ViewHeap.v.

    Reading guide - complete values (ViewFull.v).
      fstate  = NodeState with all 13 fields: fs_core (the 8 fields of View.nstate), ClusterName,
                Unreachable, Metadata, Labels (option smap: None = nil map, Some ∅ = empty non-nil map),
                Checksum.
      fview   = ClusterView with all 10 fields: ViewID, Members : option (gmap id (option fstate))
                (None = nil map, an entry Some None = a nil *NodeState), and the base fields.
      fv_map v          the Members map, ∅ for nil
      f_merge sk st now v o   v.MergeFromWithOptions(o, ..) on complete values, as the code runs it
                (`if otherState == nil {continue}`, IsNewerThan(nil) = true, `if v.Members == nil {make}`,
                 len(other.Members) counting nil entries); f_add / f_remove / f_snapshot / f_recompute likewise
      erase v           the core view of Properties/C17.v: non-nil entries, core fields
      nonil v           Members is a non-nil map without nil entries (what every operation produces from
                        such views, and what the wire reader produces); nonil_entries v allows the nil map
      feval / fleaves / ferase   merge expressions over complete views (as meval / mleaves)
    Pointer level (ViewHeap.v).
      heap              locations -> cells; a cell is a NodeState object (whose Metadata / Labels are
                        locations of map objects or nil) or a map[string]string object; h_next = allocation counter
      hview             a ClusterView whose Members hold locations
      abs_view h v      the complete value the view denotes in heap h
      h_clone / h_merge / h_add / h_snapshot    Clone / MergeFromWithOptions / AddMember / Snapshot on pointers
      hwf h             every allocated location is below h_next;  vclosed h v: every pointer of v is live in h
      hext h h'         h' has every cell of h with the same contents (nothing was written, only allocated)
      vlocs h v l       the view reaches cell l (a member's object, or a map of a member's object)
      vsep h v o        v and o reach no common cell;  vsep_but_empty_maps: only cells holding an empty map
      h_map_insert h l k x   `m[k] = x` on the map object l;  h_set_status h l st   `n.Status = st` on the object l
      no_empty_maps h o no state of o has an empty non-nil map *)

(** ** The complete merge IS the core merge on what recomputeCounts / IsNewerThan can see *)

(** for an argument view without nil entries (a nil Members map is fine): same core view, same `changed`.
    Every theorem of Properties/C17.v and C17_cfg.v about [view_merge] therefore speaks about the complete
    ClusterView, whatever ClusterName / Unreachable / Metadata / Labels / Checksum / ViewID hold and whether
    v has nil entries or a nil map. *)
Theorem C17_full_merge_is_core_merge sk st now v o :
  nonil_entries o ->
  erase (fst (f_merge sk st now v o)) = fst (view_merge sk st now (erase v) (erase o)) /\
  snd (f_merge sk st now v o) = snd (view_merge sk st now (erase v) (erase o)).
Proof. exact (f_merge_erase sk st now v o). Qed.

(** likewise AddMember, RemoveMember, Snapshot, recomputeCounts *)
Theorem C17_full_operations_are_core_operations :
  (forall v s, erase (f_add v s) = view_add (erase v) (fs_core s)) /\
  (forall v k, fv_map v !! k <> Some None -> erase (f_remove v k) = view_remove (erase v) k) /\
  (forall v, erase (f_snapshot v) = view_snapshot (erase v)) /\
  (forall v, erase (f_recompute v) = recompute (erase v)).
Proof. exact (conj f_add_erase (conj f_remove_erase (conj f_snapshot_erase f_recompute_erase))). Qed.

(** the hypothesis is needed: a view holding nothing but nil entries is not ignored by the code
    (len(other.Members) counts them) and its epoch is adopted.  No operation and no wire input builds one. *)
Theorem C17_full_nil_only_view_not_ignored :
  let o := FView [] (Some {[ [97] := None ]}) 7 0 0 0 0 ∅ 1 0 in
  let v := f_new_view [] 0 0 in
  vw_members (erase o) = ∅ /\
  fv_epoch (fst (f_merge 0 0 0 v o)) = 7%Z /\ snd (f_merge 0 0 0 v o) = true /\
  view_merge 0 0 0 (erase v) (erase o) = (erase v, false).
Proof. exact f_merge_only_nil_entries. Qed.

(** ** A merge moves complete states, never parts of them *)

(** every state stored after a merge is - with all 13 fields - the state v had under that id or the
    state the argument view has under that id *)
Theorem C17_full_merge_moves_whole_states sk st now v o k s :
  fv_map (fst (f_merge sk st now v o)) !! k = Some (Some s) ->
  fv_map v !! k = Some (Some s) \/ fv_map o !! k = Some (Some s).
Proof. exact (f_merge_whole_states sk st now v o k s). Qed.

(** every entry of v stays (a nil entry too); it is unchanged or replaced by the argument's complete
    state which IsNewerThan it (always, for a nil entry) *)
Theorem C17_full_merge_keeps_entries sk st now v o k e :
  fv_map v !! k = Some e ->
  exists e', fv_map (fst (f_merge sk st now v o)) !! k = Some e' /\
    (e' = e \/ exists xs, e' = Some xs /\ fv_map o !! k = Some (Some xs) /\ f_isnewer xs e = true).
Proof. exact (f_merge_keeps_entries sk st now v o k e). Qed.

(** a merge creates no nil entry; nil-free stays nil-free; ViewID and MaxVersionVectorEntries are v's *)
Theorem C17_full_merge_nil_and_identity sk st now v o :
  (forall k, fv_map (fst (f_merge sk st now v o)) !! k = Some None -> fv_map v !! k = Some None) /\
  (nonil v -> nonil (fst (f_merge sk st now v o))) /\
  fv_id (fst (f_merge sk st now v o)) = fv_id v /\ fv_maxent (fst (f_merge sk st now v o)) = fv_maxent v.
Proof.
  exact (conj (f_merge_nil_entries sk st now v o)
        (conj (f_merge_nonil sk st now v o) (f_merge_id sk st now v o))).
Qed.

(** Snapshot and AddMember produce / keep nil-free views *)
Theorem C17_full_nonil_invariant :
  (forall i now mx, nonil (f_new_view i now mx)) /\
  (forall v s, nonil v -> nonil (f_add v s)) /\
  (forall v, nonil (f_snapshot v)).
Proof. exact (conj f_new_view_nonil (conj f_add_nonil f_snapshot_nonil)). Qed.

(** ** The property for the complete ClusterView *)

(** whatever order: two merge expressions (any tree shape, options and clock per merge) over the same
    nil-free complete views with well-formed members produce the same membership *)
Theorem C17_full_any_merge_order e1 e2 :
  Forall nonil (fleaves e1) -> Forall (fun v => WF (erase v)) (fleaves e1) -> fleaves e1 ≡ₚ fleaves e2 ->
  proj (erase (feval e1)) = proj (erase (feval e2)).
Proof. exact (f_merge_order_insensitive e1 e2). Qed.

(** the erasure of a complete merge expression is the core merge expression of the erasures *)
Theorem C17_full_merge_expression e :
  Forall nonil (fleaves e) -> erase (feval e) = meval (ferase e) /\ nonil (feval e).
Proof. exact (feval_erase e). Qed.

(** never replaces a member's complete state by one of an older incarnation *)
Theorem C17_full_no_regression sk st now v o k s :
  nonil_entries o -> WF (erase v) -> WF (erase o) ->
  fv_map v !! k = Some (Some s) ->
  exists s', fv_map (fst (f_merge sk st now v o)) !! k = Some (Some s') /\
             inc_lt (inc_of (fs_core s')) (inc_of (fs_core s)) = false.
Proof. exact (f_merge_no_regression sk st now v o k s). Qed.

(** ** Pointers: Clone *)

(** n.Clone(): only allocates; the new object is fresh and denotes the same complete value; each of its
    two maps is a fresh object or - when the map of n is empty and non-nil - the very map object of n *)
Theorem C17_clone_spec h s :
  hwf h -> sclosed h s ->
  hext h (fst (h_clone h s)) /\ hwf (fst (h_clone h s)) /\
  h_next h <= snd (h_clone h s) /\ snd (h_clone h s) < h_next (fst (h_clone h s)) /\
  exists s', h_state (fst (h_clone h s)) (snd (h_clone h s)) = Some s' /\
    abs_state (fst (h_clone h s)) s' = abs_state h s /\ sclosed (fst (h_clone h s)) s' /\
    hs_core s' = hs_core s /\
    (forall l, smaps s' l ->
       (h_next h <= l /\ l < h_next (fst (h_clone h s))) \/ (smaps s l /\ h_map h l = Some ∅)).
Proof. exact (clone_spec h s). Qed.

(** ** Pointers: the three operations compute the value-level ones and write no existing cell *)

Theorem C17_ptr_merge_refines sk st now h v o :
  hwf h -> vclosed h v -> vclosed h o ->
  abs_view (fst (fst (h_merge sk st now h v o))) (snd (fst (h_merge sk st now h v o))) =
    fst (f_merge sk st now (abs_view h v) (abs_view h o)) /\
  snd (h_merge sk st now h v o) = snd (f_merge sk st now (abs_view h v) (abs_view h o)) /\
  hext h (fst (fst (h_merge sk st now h v o))) /\ hwf (fst (fst (h_merge sk st now h v o))) /\
  vclosed (fst (fst (h_merge sk st now h v o))) (snd (fst (h_merge sk st now h v o))).
Proof. exact (merge_refines sk st now h v o). Qed.

(** the argument view - and every other view or snapshot living in the heap - denotes the same complete
    value after the merge ("never modifies its argument", for all fields) *)
Theorem C17_ptr_merge_frame sk st now h v o w :
  hwf h -> vclosed h v -> vclosed h o -> vclosed h w ->
  abs_view (fst (fst (h_merge sk st now h v o))) w = abs_view h w.
Proof. exact (merge_frame sk st now h v o w). Qed.

Theorem C17_ptr_snapshot_refines h v :
  hwf h -> vclosed h v ->
  abs_view (fst (h_snapshot h v)) (snd (h_snapshot h v)) = f_snapshot (abs_view h v) /\
  hext h (fst (h_snapshot h v)) /\ hwf (fst (h_snapshot h v)) /\ vclosed (fst (h_snapshot h v)) (snd (h_snapshot h v)).
Proof. exact (snapshot_refines h v). Qed.

Theorem C17_ptr_add_refines h v l s :
  hwf h -> vclosed h v -> h_state h l = Some s -> sclosed h s ->
  abs_view (fst (h_add h v l)) (snd (h_add h v l)) = f_add (abs_view h v) (abs_state h s) /\
  hext h (fst (h_add h v l)) /\ hwf (fst (h_add h v l)) /\ vclosed (fst (h_add h v l)) (snd (h_add h v l)).
Proof. exact (add_refines h v l s). Qed.

(** ** The mechanism "stored states are clones" - as far as it holds
    (the [_partial] theorems are about this mechanism of the anchors, not about a clause of the property's
    statement; the clause "never modifies / never regresses" is C17_ptr_merge_frame and the value-level theorems) *)

(** after v.MergeFromWithOptions(o): views that shared no cell share nothing but EMPTY maps *)
Theorem C17_stored_states_are_clones_partial sk st now h v o :
  hwf h -> vclosed h v -> vclosed h o -> vsep h v o ->
  vsep_but_empty_maps (fst (fst (h_merge sk st now h v o))) (snd (fst (h_merge sk st now h v o))) o.
Proof. exact (merge_sharing sk st now h v o). Qed.

(** a Snapshot shares nothing but empty maps with the view it was taken from *)
Theorem C17_snapshot_is_deep_copy_partial h v :
  hwf h -> vclosed h v ->
  vsep_but_empty_maps (fst (h_snapshot h v)) (snd (h_snapshot h v)) v.
Proof. exact (snapshot_sharing h v). Qed.

(** after AddMember(member) the view reaches what it reached before, fresh cells, or an empty map of
    the caller's state - never the caller's object, never a non-empty map of it *)
Theorem C17_add_member_stores_clone_partial h v lc s l :
  hwf h -> vclosed h v -> h_state h lc = Some s -> sclosed h s ->
  vlocs (fst (h_add h v lc)) (snd (h_add h v lc)) l ->
  vlocs h v l \/ h_next h <= l \/ (h_map h l = Some ∅ /\ smaps s l).
Proof. exact (add_sharing h v lc s l). Qed.

(** a later write (a map entry, a Status set in place) to a cell a view does not reach does not change
    what the view denotes *)
Theorem C17_write_frame h v l k x st :
  ~ vlocs h v l ->
  abs_view (h_map_insert h l k x) v = abs_view h v /\ abs_view (h_set_status h l st) v = abs_view h v.
Proof. exact (write_frame h v l k x st). Qed.

(** hence: if no state of the argument view has an empty non-nil map, the two views are independent
    after the merge - whatever the owner of one writes later does not show in the other *)
Theorem C17_merge_independent_partial sk st now h v o :
  hwf h -> vclosed h v -> vclosed h o -> vsep h v o -> no_empty_maps h o ->
  vsep (fst (fst (h_merge sk st now h v o))) (snd (fst (h_merge sk st now h v o))) o /\
  forall l k x s,
    (vlocs (fst (fst (h_merge sk st now h v o))) o l ->
       abs_view (h_map_insert (fst (fst (h_merge sk st now h v o))) l k x) (snd (fst (h_merge sk st now h v o))) =
         abs_view (fst (fst (h_merge sk st now h v o))) (snd (fst (h_merge sk st now h v o))) /\
       abs_view (h_set_status (fst (fst (h_merge sk st now h v o))) l s) (snd (fst (h_merge sk st now h v o))) =
         abs_view (fst (fst (h_merge sk st now h v o))) (snd (fst (h_merge sk st now h v o)))) /\
    (vlocs (fst (fst (h_merge sk st now h v o))) (snd (fst (h_merge sk st now h v o))) l ->
       abs_view (h_map_insert (fst (fst (h_merge sk st now h v o))) l k x) o = abs_view (fst (fst (h_merge sk st now h v o))) o /\
       abs_view (h_set_status (fst (fst (h_merge sk st now h v o))) l s) o = abs_view (fst (fst (h_merge sk st now h v o))) o).
Proof. exact (merge_independent_partial sk st now h v o). Qed.

(** ** ... and where the MECHANISM fails (report-only observation, NOT a violation of C17)

    What follows refutes the mechanism "stored states are clones" for empty non-nil maps - a true
    statement about the pointer-level model and the code.  It does not refute the PROPERTY: C17 speaks
    of membership, incarnations, epoch, version-vector entries and `changed`, none of which reads
    Metadata / Labels, and no operation in the property's quantifier (joins, restarts, status changes,
    merges) writes a state's maps after the state entered a view; only user code doing so could
    observe the sharing.  The harness records in its report whether the observation still reproduces
    (info.observations.clone-shares-empty-map); it raises no monitor. *)

(** the guard of C17_merge_independent_partial is necessary and is not met by the very states newNodeState makes (both maps empty and
    non-nil): rx_h is the heap after `s := newNodeState("b", ..)`, rx_o a view holding s, rx_v an empty
    view; they share no cell.  After rx_v.MergeFrom(rx_o) the clone stored in rx_v has the SAME Labels map
    object (cell 1) as s: `Labels["k"] = "x"` on it changes what rx_o denotes. *)
Theorem C17_clone_shares_empty_map_refuted :
  hwf rx_h /\ vclosed rx_h rx_v /\ vclosed rx_h rx_o /\ vsep rx_h rx_v rx_o /\
  vlocs (fst (fst (h_merge 0 0 0 rx_h rx_v rx_o))) (snd (fst (h_merge 0 0 0 rx_h rx_v rx_o))) 1 /\
  vlocs (fst (fst (h_merge 0 0 0 rx_h rx_v rx_o))) rx_o 1 /\
  h_map (fst (fst (h_merge 0 0 0 rx_h rx_v rx_o))) 1 = Some ∅ /\
  rx_labels_size (fst (fst (h_merge 0 0 0 rx_h rx_v rx_o))) rx_o = Some 0%nat /\
  rx_labels_size (h_map_insert (fst (fst (h_merge 0 0 0 rx_h rx_v rx_o))) 1 [107] [120]) rx_o = Some 1%nat /\
  rx_labels_size (h_map_insert (fst (fst (h_merge 0 0 0 rx_h rx_v rx_o))) 1 [107] [120])
                 (snd (fst (h_merge 0 0 0 rx_h rx_v rx_o))) = Some 1%nat /\
  abs_view (h_map_insert (fst (fst (h_merge 0 0 0 rx_h rx_v rx_o))) 1 [107] [120]) rx_o <>
    abs_view (fst (fst (h_merge 0 0 0 rx_h rx_v rx_o))) rx_o.
Proof. exact merge_shares_empty_map. Qed.

(** ** Non-vacuity *)

(** two complete one-member views as the code builds them (newNodeState, Labels set, AddMember): nil-free,
    well formed; the merge adopts b with every field, keeps a, keeps the ViewID, reports the change *)
Example C17_full_hypotheses_satisfiable :
  nonil fx_a /\ nonil fx_b /\ WF (erase fx_a) /\ WF (erase fx_b) /\
  fv_map (fst (f_merge 0 0 0 fx_a fx_b)) !! [98] = Some (Some (fx_state [98] [50])) /\
  fv_map (fst (f_merge 0 0 0 fx_a fx_b)) !! [97] = Some (Some (fx_state [97] [49])) /\
  fv_id (fst (f_merge 0 0 0 fx_a fx_b)) = [1] /\ snd (f_merge 0 0 0 fx_a fx_b) = true.
Proof. exact fx_example. Qed.

(** the hypotheses of C17_merge_independent_partial: a state with nil Metadata and a one-entry Labels
    map; the merge adopts it (changed = true) and the adopted clone has its own one-entry Labels map *)
Example C17_merge_independent_hypotheses_satisfiable :
  hwf px_h /\ vclosed px_h rx_v /\ vclosed px_h px_o /\ vsep px_h rx_v px_o /\ no_empty_maps px_h px_o /\
  snd (h_merge 0 0 0 px_h rx_v px_o) = true /\
  rx_labels_size (fst (fst (h_merge 0 0 0 px_h rx_v px_o))) (snd (fst (h_merge 0 0 0 px_h rx_v px_o))) = Some 1%nat.
Proof. exact px_hyps. Qed.

(* ====================================================================================== *)

(** PART 4 — the serialised form (internal/cluster/serialize.go).  The wire model is C12's
    (Codec/ClusterMsgs.v: [ClusterMsgs.enc_view] = writeClusterView, [ClusterMsgs.dec_view] = readClusterView, byte for byte;
    round trip [ClusterMsgsProofs.view_rt]); Cluster/ViewWire.v converts between C17's complete view and
    the wire-side record ([to_wire] / [of_wire], field by field; the counts are N here, Z there).
      wire_ok o : what serialize.go needs to bring o back unchanged - string lengths below 2^32,
                  Generation / Status / the counts / MaxVersionVectorEntries within int32 (the writer
                  NARROWS them), epoch / timestamps within int64, vector keys valid and at most 65535,
                  Members a non-nil map without nil entries (a nil map comes back empty, a nil entry is
                  dropped), no EMPTY NON-NIL Metadata / Labels map (it comes back nil). *)

(** the bytes written for a wire_ok view are read back as that view, whatever follows in the frame *)
Theorem C17_wire_roundtrip v rest :
  wire_ok v ->
  exists b, ClusterMsgs.enc_view (Some (to_wire v)) = MOk b /\
            drun ClusterMsgs.dec_view (b ++ rest) = MOk (Some (to_wire v), rest).
Proof. exact (wire_roundtrip v rest). Qed.

(** merging commutes with the serialised form: the receiver, merging what it decoded, computes the merge
    with the sender's view - complete states, every configuration, `changed` included; and what it
    decoded is nil-free (the hypothesis of C17_full_merge_is_core_merge) *)
Theorem C17_merge_commutes_with_wire sk st now v o rest :
  wire_ok o ->
  exists b w, ClusterMsgs.enc_view (Some (to_wire o)) = MOk b /\
              drun ClusterMsgs.dec_view (b ++ rest) = MOk (Some w, rest) /\
              of_wire w = o /\
              f_merge sk st now v (of_wire w) = f_merge sk st now v o /\ nonil (of_wire w).
Proof. exact (merge_commutes_with_wire sk st now v o rest). Qed.

(** the conversion loses nothing *)
Theorem C17_wire_conversion_inverse v : of_wire (to_wire v) = v.
Proof. exact (of_to_wire v). Qed.

(** wire_ok is met by a one-member view with a one-entry Labels map and a nil Metadata map *)
Example C17_wire_ok_satisfiable : wire_ok wx_view.
Proof. exact wx_wire_ok. Qed.

Print Assumptions C17_epoch_exact.
Print Assumptions C17_empty_argument_ignored.
Print Assumptions C17_adopts_per_strategy.
Print Assumptions C17_strategy_collapse.
Print Assumptions C17_prefer_local_when_ordered.
Print Assumptions C17_config_independent.
Print Assumptions C17_changed_config_dependence.
Print Assumptions C17_epoch_bounds_any_config.
Print Assumptions C17_epoch_is_max_takemax_noskew.
Print Assumptions C17_epoch_any_order_takemax_noskew.
Print Assumptions C17_epoch_order_sensitive_prefer_local.
Print Assumptions C17_epoch_order_sensitive_skew.
Print Assumptions C17_epoch_order_sensitive_empty_view.
Print Assumptions C17_skew_off.
Print Assumptions C17_skew_test_exact.
Print Assumptions C17_skew_test_wraps.
Print Assumptions C17_isnewer_trichotomy.
Print Assumptions C17_isnewer_negatively_transitive.
Print Assumptions C17_isnewer_cross_id_cycle.
Print Assumptions C17_counts_after_merge.
Print Assumptions C17_full_merge_is_core_merge.
Print Assumptions C17_full_operations_are_core_operations.
Print Assumptions C17_full_nil_only_view_not_ignored.
Print Assumptions C17_full_merge_moves_whole_states.
Print Assumptions C17_full_merge_keeps_entries.
Print Assumptions C17_full_merge_nil_and_identity.
Print Assumptions C17_full_nonil_invariant.
Print Assumptions C17_full_any_merge_order.
Print Assumptions C17_full_merge_expression.
Print Assumptions C17_full_no_regression.
Print Assumptions C17_clone_spec.
Print Assumptions C17_ptr_merge_refines.
Print Assumptions C17_ptr_merge_frame.
Print Assumptions C17_ptr_snapshot_refines.
Print Assumptions C17_ptr_add_refines.
Print Assumptions C17_stored_states_are_clones_partial.
Print Assumptions C17_snapshot_is_deep_copy_partial.
Print Assumptions C17_add_member_stores_clone_partial.
Print Assumptions C17_write_frame.
Print Assumptions C17_merge_independent_partial.
Print Assumptions C17_clone_shares_empty_map_refuted.
Print Assumptions C17_wire_roundtrip.
Print Assumptions C17_merge_commutes_with_wire.
Print Assumptions C17_wire_conversion_inverse.
