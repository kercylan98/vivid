(** C05, restart clause, over whole histories: "A supervised restart starts a new incarnation under the same
    reference: it begins with an OnLaunch delivered to the restarted actor itself (and to nobody else), with the
    behaviour stack reset to the actor's OnReceive and, if a provider was configured, a fresh actor instance."

    Properties/C05.v has the one-instruction facts ([C05_restart_starts_with_launch]: what [IRestartFinish] does)
    and the history-level [C05_nothing_after_own_killed] (whatever an actor sees right after its own OnKilled is
    an OnLaunch).  Here the WHO is added, for every reachable state of the ActorCore machine (Actor/Core.v): the log
    [seen_full a (olog s)] (Actor/SpecLife.v) lists every invocation of actor [a]'s behaviour as (instance, mode,
    message) - instance = the provider's counter of the actor object whose method ran, mode = 0 for the actor's
    OnReceive and m for a behaviour installed by Become(m).  Between the completion of the restart and the OnLaunch
    call lie scheduling points (mailbox.Resume's two CASes, the insertions of the ActorRestarted / MailboxResumed
    events), so this is an invariant over all interleavings, not a property of one atomic phase.
    Statements only; proofs in Actor/ProofsRestartLog.v (on top of Actor/ProofsLifeLog.v). *)
From Coq Require Import List NArith ZArith Bool.
From Vivid Require Import Actor.Core Actor.SpecMail Actor.SpecLife Actor.SpecRestartLog Actor.ProofsRestartLog.
Import ListNotations.
Local Open Scope N_scope.

(** every reachable state, every actor but the guard: whatever directly follows the invocation for the actor's own
    OnKilled is the OnLaunch of the new incarnation, invoked on the behaviour the stack was reset to (mode 0: the
    actor's OnReceive - not a behaviour the previous incarnation had installed with Become) of the instance the
    restart put in charge ([next_inst]: a fresh one if a provider is configured, else the same one) - not of the
    instance that has just seen its own OnKilled *)
Theorem C05_restart_opens_with_launch_at_fresh_instance s a x pre i1 md1 i2 md2 m post :
  SpecLife.reachable s -> a <> 0%nat -> get s a = Some x ->
  seen_full a (olog s) = pre ++ (i1, md1, MKilled (RObj a)) :: (i2, md2, m) :: post ->
  m = MLaunch /\ md2 = 0 /\ i2 = next_inst x i1.
Proof. exact (restart_opens_with_launch s a x pre i1 md1 i2 md2 m post). Qed.

(** the same as a property of the whole log *)
Theorem C05_restart_log s a x :
  SpecLife.reachable s -> a <> 0%nat -> get s a = Some x -> restart_log_ok a x (seen_full a (olog s)).
Proof. exact (fun Hr Ha Hg pre i1 md1 i2 md2 m post E => proj2 (restart_opens_with_launch s a x pre i1 md1 i2 md2 m post Hr Ha Hg E)). Qed.

(** the instance in charge changes nowhere else: every instruction but the completion of a restart keeps it (so
    within an incarnation every invocation is by the same instance, [C05_behaviour_call_logged]) *)
Theorem C05_instance_changes_only_at_restart s t h i s1 front x x1 :
  exec1 s t h i = (s1, front) -> get s (self_of t) = Some x -> get s1 (self_of t) = Some x1 -> i <> IRestartFinish ->
  a_inst x1 = a_inst x.
Proof. exact (instance_changes_only_at_restart s t h i s1 front x x1). Qed.

(** ============================ example ============================ *)

(** a worker with a provider installs behaviour 2 with Become, fails, and is restarted by its one-for-one supervisor:
    instance 0 sees OnLaunch, 7, 9 (in mode 2), OnKill, its own OnKilled (all in mode 2); the new incarnation's
    OnLaunch and the next message are handled by instance 1 in mode 0 *)
Definition ex_w : spec := Spec 1 [] [] [] 0 [] true [] true.
Definition ex_p : spec := Spec 1 [ASpawn ex_w] [] [] 1 [DRestart] true [] false.
Definition ex_scs : list (list action) :=
  [[ASpawn ex_p]; [ATell (XPath [1;1]) 7 [ABecome 2 true]; ATell (XPath [1;1]) 9 [APanic]; ATell (XPath [1;1]) 10 []]].
Definition ex_s0 : state := SpecLife.init_with ex_scs.
Definition ex_evs1 : list event := Eval vm_compute in drive 400 [TX 0; TA 0; TA 1; TA 2] ex_s0.
Definition ex_evs : list event := Eval vm_compute in ex_evs1 ++ drive_all 600 (run_events ex_evs1 ex_s0).

Example C05_ex_restart_after_become_with_provider :
  let sf := run_events ex_evs ex_s0 in
  SpecLife.reachable sf /\
  seen_full 2 (olog sf) =
    [(0, 0, MLaunch); (0, 0, MUser 7 [ABecome 2 true]); (0, 2, MUser 9 [APanic]); (0, 2, MKill (RObj 2) false);
     (0, 2, MKilled (RObj 2)); (1, 0, MLaunch); (1, 0, MUser 10 [])] /\
  (exists x, get sf 2%nat = Some x /\ next_inst x 0 = 1 /\ a_inst x = 1 /\ a_modes x = [0]).
Proof.
  cbv zeta. split; [exists ex_scs, ex_evs; split; [reflexivity|vm_compute; reflexivity]|].
  split; [vm_compute; reflexivity|]. vm_compute. eexists. repeat split.
Qed.

Print Assumptions C05_restart_opens_with_launch_at_fresh_instance.
Print Assumptions C05_restart_log.
Print Assumptions C05_instance_changes_only_at_restart.
