(** C14 — Remoting under connection faults: never corrupt, duplicate or reorder; recover.
    Statements only; every proof is [exact <lemma>] (Remoting/LinkProofs.v, FrameProofs.v).
    Models: Remoting/Link.v (Mailbox.Enqueue / backoff.Try as a machine whose step is one iteration of Try's
    loop; the environment's decisions of an iteration are one [answers] record and the script is universally
    quantified: a connection may be cut after ANY number of bytes [COk (Some k)], dials refused, handshakes
    failed, the context stopped, a short write reported or not) and Remoting/Frame.v (the receiver).

    M5 as modelled ([write]): a Write delivers all its bytes, or a strict prefix after which the connection
    carries nothing more; only the second case can return an error (C14_failed_write_is_strict_prefix). *)
From Coq Require Import List NArith.
From Vivid Require Import Codec.Prim Remoting.Frame Remoting.FrameProofs Remoting.Link Remoting.LinkProofs
  Remoting.LinkPeers Remoting.LinkPeersProofs Remoting.FrameRoute Remoting.Accept Remoting.AcceptProofs.
Import ListNotations.
Local Open Scope N_scope.

(** SUBSEQUENCE (partial: under the stated assumption).  For every message list, every ReconnectLimit and every
    environment script, what the remote actor receives is a subsequence of what was sent (order-preserving
    embedding: no duplicate, nothing reordered, every element equal to a sent one) — PROVIDED the connections
    of the one sender mailbox do not overlap at the receiver: [concat (per_conn ...)] hands the remote actor
    connection 1's deliveries, then connection 2's, ...  Without that proviso the clause is false
    (C14_overlap_reorder_refuted). *)
Theorem C14_subsequence_partial :
  forall (M : Type) (encode : M -> option bytes) (limit : N) (dec : bytes -> option M),
    (forall m b, encode m = Some b -> dec b = Some m) ->
    forall (ms : list M) (script : list answers),
      subseq (concat (per_conn dec (fst (exec encode limit ms script init)))) ms.
Proof. exact (@subsequence). Qed.

(** every connection has its own reader actor; if the tail of an old connection is processed after the head
    of its successor the remote actor sees messages out of order.  Witness: messages 1 2 3, ReconnectLimit 0,
    connection 1 cut after exactly one frame: 1 arrives on connection 1, 2 is dead-lettered, 3 arrives on
    connection 2; the interleaving [3; 1] is not a subsequence of [1; 2; 3]. *)
Theorem C14_overlap_reorder_refuted :
  exists (ms : list bytes) (script : list answers) (r : list bytes),
    let s := fst (exec id_encode 0 ms script init) in
    merges (per_conn (fun b => Some b) s) r /\ ~ subseq r ms.
Proof. exact (ex_intro _ _ (ex_intro _ _ (ex_intro _ _ (proj2 (proj2 overlap_witness))))). Qed.

(** a frame cut anywhere (inside the length prefix, inside the body) is never delivered, and the complete
    frames before it are *)
Theorem C14_cut_frame_never_delivered :
  forall (D : Type) (dec : bytes -> option D) (bodies : list bytes) (b : bytes) (k : nat),
    Forall legal bodies -> legal b -> (k < length (frame b))%nat ->
    delivered (receive_stream dec (concat (map frame bodies) ++ firstn k (frame b))) = decodable dec bodies.
Proof. exact (@receive_stream_frames_partial). Qed.

Theorem C14_failed_write_is_strict_prefix :
  forall (c : conn) (data : bytes) (c' : conn),
    write c data = (c', false) ->
    exists k, (k < length data)%nat /\ c_wire c' = c_wire c ++ firstn k data /\ c_cap c' = Some 0.
Proof. exact write_incomplete_strict_prefix. Qed.

(** DEAD LETTERS.  Every Enqueue that returns ends in exactly one of: one RemotingMessageSentEvent and no dead
    letter, or exactly one HandleFailedRemotingEnvelop for that message and no Sent event; the caller slept
    at most [limit] times. *)
Theorem C14_dead_letter_exactly_once :
  forall (M : Type) (encode : M -> option bytes) (limit : N) (m : M) (script : list answers)
         (s s' : st) (rest : list answers),
    attempt s <= limit ->
    try_loop encode limit m script s = (s', rest, true) ->
    attempt s' = 0 /\
    exists tr, trace s' = trace s ++ tr /\ count_sleeps tr + attempt s <= limit /\
      ((dead s' = dead s /\ exists n tr0, tr = tr0 ++ [LSent n] /\ ~ In LDead tr0 /\ forall k, ~ In (LSent k) tr0) \/
       (dead s' = dead s ++ [m] /\ exists tr0, tr = tr0 ++ [LDead] /\ ~ In LDead tr0 /\ forall k, ~ In (LSent k) tr0)).
Proof. exact (@try_loop_spec). Qed.

(** limit+1 failed attempts: exactly one dead letter after exactly [limit] sleeps whose nominal durations are
    100 ms * 2^k capped at 3 s *)
Theorem C14_dead_letter_after_exhaustion :
  forall (M : Type) (encode : M -> option bytes) (limit : N) (m : M) (data : bytes) (n : nat)
         (script : list answers) (s : st),
    wire_of encode m = Some data ->
    attempt s + N.of_nat n = limit ->
    (n < length script)%nat -> Forall hard_fail (firstn (S n) script) ->
    exists s', try_loop encode limit m script s = (s', skipn (S n) script, true) /\
      dead s' = dead s ++ [m] /\ attempt s' = 0 /\
      exists tr, trace s' = trace s ++ tr /\ count_sleeps tr = N.of_nat n /\ sleeps_ms tr = nominal_ms (attempt s) n.
Proof. exact (@try_loop_exhaust). Qed.

Example C14_exhaustion_example :
  wire_of id_encode [7] = Some (frame [7]) /\ Forall hard_fail (firstn 3 [refuse_closed; refuse_closed; refuse_closed]) /\
  dead (fst (fst (try_loop id_encode 2 [7] [refuse_closed; refuse_closed; refuse_closed] init))) = [[7]].
Proof. repeat split; try reflexivity. repeat constructor. Qed.

(** a message the codec cannot encode, or whose envelope is empty or larger than 4 MiB, is dead-lettered at
    once (no retry, no sleep) as soon as a connection is at hand *)
Theorem C14_dead_letter_on_encode_failure :
  forall (M : Type) (encode : M -> option bytes) (limit : N) (m : M) (a : answers) (script : list answers) (s : st),
    wire_of encode m = None -> a_stopped a = false ->
    (cur s <> None \/ exists cap, a_connect a = COk cap) ->
    exists s', try_loop encode limit m (a :: script) s = (s', script, true) /\ dead s' = dead s ++ [m] /\
      exists tr, trace s' = trace s ++ tr /\ count_sleeps tr = 0.
Proof. exact (@try_loop_encode_fail). Qed.

Theorem C14_sender_refuses_empty_and_oversize :
  forall b : bytes, ~ (1 <= N.of_nat (length b) <= max_frame) -> send_frame b = None.
Proof. exact send_frame_refuses. Qed.

(** UNDECODABLE / OVERSIZE FRAMES DO NOT STOP LATER FRAMES.  Any stream of well-formed frames (decodable,
    undecodable, or with a length above 4 MiB as a foreign writer might send), any chunking: the stream stays
    aligned, every frame gets exactly one reaction, and the actor receives exactly the decodable bodies of
    accepted size, in order — nothing of a rejected frame's body is ever interpreted. *)
Theorem C14_undecodable_continues :
  forall (D : Type) (dec : bytes -> option D) (bodies chunks : list bytes),
    Forall (fun b => 1 <= N.of_nat (length b) < 4294967296) bodies ->
    concat chunks = concat (map frame bodies) ->
    receive dec chunks = map (on_frame dec) bodies ++ [REof] /\
    delivered (receive dec chunks) = decodable dec (accepted bodies).
Proof. exact (@receive_mixed). Qed.

(** ... AND NEITHER DOES A FRAME THAT DECODES BUT CANNOT BE HANDED TO ANYBODY.  [routable d] = System.HandleRemotingEnvelop
    returned nil for the decoded envelope d (actor.NewRef accepted the sender and the receiver strings; an absent sender
    is written as two empty strings and rejected; so are a bad port, a bare IP, a receiver path without '/').  Such a
    frame is "received" and reaches no mailbox; the reader is re-armed as after every frame.  Any stream of well-formed
    frames, any chunking: local mailboxes get exactly the bodies of accepted size that decode and can be routed, in order. *)
Theorem C14_unroutable_continues :
  forall (D : Type) (dec : bytes -> option D) (routable : D -> bool) (bodies chunks : list bytes),
    Forall (fun b => 1 <= N.of_nat (length b) < 4294967296) bodies ->
    concat chunks = concat (map frame bodies) ->
    receive dec chunks = map (on_frame dec) bodies ++ [REof] /\
    handed routable (receive dec chunks) = filter routable (decodable dec (accepted bodies)).
Proof. exact (@unroutable_continues). Qed.

(** m1 .. | BAD | m3 ..: the mailboxes get exactly what they would have got had the unroutable frame not been sent *)
Theorem C14_unroutable_frame_is_skipped :
  forall (D : Type) (dec : bytes -> option D) (routable : D -> bool) (pre : list bytes) (bad : bytes) (post chunks : list bytes) (d : D),
    Forall (fun b => 1 <= N.of_nat (length b) < 4294967296) (pre ++ bad :: post) ->
    dec bad = Some d -> routable d = false ->
    concat chunks = concat (map frame (pre ++ bad :: post)) ->
    handed routable (receive dec chunks) =
    filter routable (decodable dec (accepted pre)) ++ filter routable (decodable dec (accepted post)).
Proof. exact (@unroutable_frame_is_skipped). Qed.

Example C14_unroutable_example :
  let dec := fun b : bytes => Some b in
  let routable := fun b : bytes => match b with 66 :: _ => false | _ => true end in    (* bodies starting with 'B' cannot be routed *)
  handed routable (receive dec [[0; 0; 0; 1; 7; 0; 0]; [0; 2; 66; 1; 0; 0; 0; 1; 9]]) = [[7]; [9]].
Proof. vm_compute. reflexivity. Qed.

(** RECOVERY.  Once the peer is reachable and errors are reported ([fine]): with at least one retry configured a
    message sent from ANY reachable state (healthy connection, connection already cut, none) is delivered exactly
    once after everything delivered before, on a new connection that starts at a frame boundary if need be ... *)
Theorem C14_recovers :
  forall (M : Type) (encode : M -> option bytes) (limit : N) (dec : bytes -> option M),
    (forall m b, encode m = Some b -> dec b = Some m) ->
    forall (done : list M) (m : M) (a1 a2 : answers) (script : list answers) (s : st) (data : bytes),
      1 <= limit -> Inv encode done s -> attempt s = 0 ->
      wire_of encode m = Some data -> fine a1 -> fine a2 ->
      exists s' rest, try_loop encode limit m (a1 :: a2 :: script) s = (s', rest, true) /\
        received dec s' = received dec s ++ [m] /\ dead s' = dead s.
Proof. exact (@recovers_retry). Qed.

(** ... and for every limit (0 included): a reported failure drops the cached connection
    (C14_failure_drops_connection), and without a cached connection the next message is delivered *)
Theorem C14_recovers_after_reported_failure :
  forall (M : Type) (encode : M -> option bytes) (limit : N) (dec : bytes -> option M),
    (forall m b, encode m = Some b -> dec b = Some m) ->
    forall (m : M) (a : answers) (script : list answers) (s : st) (data : bytes),
      wire_of encode m = Some data -> fine a -> cur s = None ->
      exists s', try_loop encode limit m (a :: script) s = (s', script, true) /\
        received dec s' = received dec s ++ [m] /\ dead s' = dead s /\ old s' = old s.
Proof. exact (@recovers_after_drop). Qed.

Theorem C14_failure_drops_connection :
  forall (M : Type) (encode : M -> option bytes) (m : M) (a : answers) (s s1 : st),
    attempt_once encode m a s = (s1, ORetry) -> cur s1 = None.
Proof. exact (@retry_drops). Qed.

Theorem C14_reachable_states_satisfy_Inv :
  forall (M : Type) (encode : M -> option bytes) (limit : N) (ms done : list M) (script : list answers) (s : st),
    Inv encode done s -> Inv encode (done ++ ms) (fst (exec encode limit ms script s)).
Proof. exact (@exec_inv). Qed.

Example C14_recovers_example :
  Inv id_encode [] (@init bytes) /\ fine (ok_conn None) /\ wire_of id_encode [9] = Some (frame [9]).
Proof. split; [apply Inv_init|]. split; [repeat split|reflexivity]. Qed.

(** RECOVERY, RECEIVING SIDE (model: Remoting/Accept.v, the code since /repo c1a2e19: the reader actor of an accepted
    connection, registered as "accept-<peer ip:port>", terminates and releases its name at EVERY end of its stream - io.EOF
    after a plain FIN included; before that repair a FIN-closed connection kept the name for ever and every later
    connection from the same peer ip:port was accepted but never read: defect C14-accept-name-collision, fixed).
    Events: [AAccept p n] a connection from p is accepted, shakes hands and is registered (the dialler writes n frames),
    [AGone p] the kernel's connection is gone (a new one from the same ip:port can be accepted), [AReaderEnd p] the
    registered reader of p has worked through what was queued for it, seen the end of its stream and is deregistered.
    [accept_run evs []] lists per accepted connection (peer, frames written, frames read).
    EVERY ACCEPTED CONNECTION WHOSE PREDECESSOR'S READER HAS ENDED IS READ: for every history [pre] - any set of peer
    addresses, re-used ones included, FIN, RST, connections that were not read - and every future [post], a connection
    from p accepted when the last event of p in [pre] among accept / reader-end is not an accept is read completely. *)
Theorem C14_accepted_connection_read :
  forall (pre : list aev) (p : bytes) (n : N) (post : list aev),
    reader_pending p pre false = false ->
    exists a b, accept_run (pre ++ AAccept p n :: post) [] = a ++ (p, n, n) :: b /\ length a = accepts pre.
Proof. exact accepted_after_reader_end_is_read. Qed.

(** hence no accepted-but-unread connection in any history in which every connection is accepted after the reader of
    its predecessor from the same address has ended *)
Theorem C14_all_accepted_connections_read :
  forall (evs : list aev), prompt evs [] -> all_read (accept_run evs []).
Proof. exact (fun evs => prompt_all_read evs []). Qed.

Example C14_accept_example :
  prompt [AAccept peerP 3; AGone peerP; AReaderEnd peerP; AAccept peerP 5] [] /\
  accept_run [AAccept peerP 3; AGone peerP; AReaderEnd peerP; AAccept peerP 5] [] = [(peerP, 3, 3); (peerP, 5, 5)].
Proof. split; [cbn; repeat split; vm_compute; reflexivity|vm_compute; reflexivity]. Qed.

(** THE RESIDUAL WINDOW (FINDING C14-accept-name-window, reproduced on the repaired code).  [AGone] and [AReaderEnd] are
    independent: after a RST the kernel accepts a new connection from the same ip:port at once, while the reader actor
    of the old one may still be busy (user Codec.Decode runs inside it; frames already buffered) and has not seen the end
    of its stream.  A connection registered in that window finds the name taken and is never read - TCP allows the
    history ([tcp_ok]), the dialler's handshake succeeds, its writes succeed, nothing reaches a mailbox, no dead letter. *)
Theorem C14_accepted_before_reader_end_refuted :
  exists (evs : list aev),
    tcp_ok evs [] = true /\ ~ all_read (accept_run evs []) /\
    accept_run evs [] = [(peerP, 3, 3); (peerP, 5, 0)].
Proof. exact accepted_before_reader_end_unread. Qed.

(** TELL DOES NOT BLOCK THE CALLER: false.  All labels of [try_loop], [LSleep] included, are actions of the
    goroutine that called Tell (Enqueue runs synchronously under connectionLock).  Witness: ReconnectLimit 3, peer
    refuses: the caller sleeps 3 times, nominally 100+200+400 = 700 ms, before the dead letter. *)
Theorem C14_tell_nonblocking_refuted :
  exists (limit : N) (m : bytes) (script : list answers),
    let s := fst (fst (try_loop id_encode limit m script init)) in
    count_sleeps (trace s) = 3 /\ sleeps_ms (trace s) = 700 /\ dead s = [m].
Proof. exact (ex_intro _ 3 (ex_intro _ [7] (ex_intro _ (refuse :: refuse :: refuse :: refuse :: []) tell_blocks_witness))). Qed.

(** what does hold: one Enqueue sleeps at most [limit] times (C14_dead_letter_exactly_once), so with
    ReconnectLimit 0 Tell never sleeps *)
Theorem C14_tell_nonblocking_partial :
  forall (M : Type) (encode : M -> option bytes) (m : M) (script : list answers) (s s' : st) (rest : list answers),
    attempt s = 0 ->
    try_loop encode 0 m script s = (s', rest, true) ->
    exists tr, trace s' = trace s ++ tr /\ count_sleeps tr = 0.
Proof. exact (@try_loop_limit0_no_sleep). Qed.

(** SEVERAL PEERS (model: Remoting/LinkPeers.v).  One Mailbox per remote address, each with its own connection, lock
    and back-off counter; Enqueue calls to different mailboxes interleave at the granularity of one iteration of
    backoff.Try's loop ([iter]; [try_loop] is its iteration: C14_enqueue_is_iterated_step).  [pair_run] runs two
    mailboxes under an arbitrary schedule. *)
Theorem C14_enqueue_is_iterated_step :
  forall (M : Type) (encode : M -> option bytes) (limit : N) (m : M) (script : list answers) (s s' : st)
         (rest : list answers),
    try_loop encode limit m script s = (s', rest, true) ->
    exists used, script = used ++ rest /\ run_iters encode limit (map (fun a => (m, a)) used) s = s'.
Proof. exact (@try_loop_iters). Qed.

(** independence: under every schedule the run of each mailbox is the run of its own iterations alone; the
    iterations of the other one, interleaved anywhere, change nothing *)
Theorem C14_peers_independent :
  forall (M : Type) (encode : M -> option bytes) (limit : N) (evs : list (peer * (M * answers))) (sR sH : st),
    fst (pair_run encode limit evs (sR, sH)) = run_iters encode limit (proj PR evs) sR /\
    snd (pair_run encode limit evs (sR, sH)) = run_iters encode limit (proj PH evs) sH.
Proof. exact (@pair_run_independent). Qed.

(** hence the dead letter after limit+1 failed attempts (C14_dead_letter_after_exhaustion) holds for the refusing
    peer under ANY traffic to another peer interleaved with its retries: exactly [limit] sleeps, then the dead letter *)
Theorem C14_dead_letter_after_exhaustion_two_peers :
  forall (M : Type) (encode : M -> option bytes) (limit : N) (m : M) (data : bytes) (n : nat)
         (script : list answers) (evs : list (peer * (M * answers))) (sR sH : st),
    wire_of encode m = Some data ->
    attempt sR + N.of_nat n = limit ->
    (n < length script)%nat -> Forall hard_fail (firstn (S n) script) ->
    proj PR evs = map (fun a => (m, a)) (firstn (S n) script) ->
    let sR' := fst (pair_run encode limit evs (sR, sH)) in
    dead sR' = dead sR ++ [m] /\ attempt sR' = 0 /\
    exists tr, trace sR' = trace sR ++ tr /\ count_sleeps tr = N.of_nat n.
Proof. exact (@two_peers_dead_letter). Qed.

(** what the theorem excludes: if the two mailboxes shared ONE attempt counter ([shared_run]: not the code), then
    with ReconnectLimit >= 1, a peer that refuses and another mailbox whose Enqueue returns between any two retries
    (every return resets the counter), the message to the refusing peer is never dead-lettered, however many
    attempts fail ... *)
Theorem C14_shared_counter_never_dead_letters :
  forall (M : Type) (encode : M -> option bytes) (limit : N) (mr : M) (ar : answers) (mh : M) (ah : answers) (data : bytes),
    wire_of encode mr = Some data -> hard_fail ar -> 1 <= limit ->
    (forall s : st, snd (iter encode limit mh ah s) = true) ->
    forall (n : nat) (sR sH : st), attempt sR = 0 ->
      let p := shared_run encode limit (alternate n mr ar mh ah) (sR, sH) in
      dead (fst p) = dead sR /\ attempt (fst p) = 0.
Proof. exact (@shared_counter_never_dead_letters). Qed.

(** ... witness (also the non-vacuity of the hypotheses above): limit 1, R refuses, H's Enqueue returns at once;
    with a shared counter no dead letter after any number n of failed attempts, with separate counters the dead
    letter after the second one *)
Theorem C14_shared_counter_refuted :
  forall n : nat,
    dead (fst (shared_run id_encode 1 (alternate n [7] refuse_closed [8] stopped) (init, init))) = [] /\
    dead (fst (pair_run id_encode 1 (alternate 2 [7] refuse_closed [8] stopped) (init, init))) = [[7]].
Proof.
  exact (fun n => conj (proj1 (shared_counter_never_dead_letters id_encode 1 [7] refuse_closed [8] stopped (frame [7]) eq_refl
                                 (conj eq_refl (conj eq_refl I)) (N.le_refl 1) (stopped_always_returns id_encode 1 [8]) n init init eq_refl))
                       eq_refl).
Qed.

Example C14_two_peers_example :
  wire_of id_encode [7] = Some (frame [7]) /\ hard_fail refuse_closed /\ 1 <= 1 /\
  (forall s : @st bytes, snd (iter id_encode 1 [8] stopped s) = true) /\
  proj PR (alternate 2 [7] refuse_closed [8] stopped) = map (fun a => ([7], a)) (firstn 2 [refuse_closed; refuse_closed]).
Proof. repeat split; try reflexivity. Qed.

Print Assumptions C14_subsequence_partial.
Print Assumptions C14_overlap_reorder_refuted.
Print Assumptions C14_cut_frame_never_delivered.
Print Assumptions C14_failed_write_is_strict_prefix.
Print Assumptions C14_dead_letter_exactly_once.
Print Assumptions C14_dead_letter_after_exhaustion.
Print Assumptions C14_dead_letter_on_encode_failure.
Print Assumptions C14_sender_refuses_empty_and_oversize.
Print Assumptions C14_undecodable_continues.
Print Assumptions C14_unroutable_continues.
Print Assumptions C14_unroutable_frame_is_skipped.
Print Assumptions C14_recovers.
Print Assumptions C14_recovers_after_reported_failure.
Print Assumptions C14_failure_drops_connection.
Print Assumptions C14_reachable_states_satisfy_Inv.
Print Assumptions C14_accepted_connection_read.
Print Assumptions C14_all_accepted_connections_read.
Print Assumptions C14_accepted_before_reader_end_refuted.
Print Assumptions C14_tell_nonblocking_refuted.
Print Assumptions C14_tell_nonblocking_partial.
Print Assumptions C14_enqueue_is_iterated_step.
Print Assumptions C14_peers_independent.
Print Assumptions C14_dead_letter_after_exhaustion_two_peers.
Print Assumptions C14_shared_counter_never_dead_letters.
Print Assumptions C14_shared_counter_refuted.
