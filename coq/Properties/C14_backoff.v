(** C14 (second file) — the retry policy of Mailbox.Enqueue, exactly: internal/utils/backoff.go.
    Statements only; every proof is [exact <lemma>] (Remoting/BackoffProofs.v, LinkBackoff.v, LinkOverlap.v).

    Model: Remoting/Backoff.v.  Durations are nanoseconds in Z.  Every float64 operation of Next() is the exact
    result rounded to nearest-even at 53 significant bits ([rn53]); [bo_next c k r] is the value Next() returns when
    currentAttempt = k and the random source hands the 63-bit integer r to rand.Float64().  The real type is run
    against [bo_next] / [bo_try] bit for bit on every check (seeded global source, mirror generator).
    [cfg_ok c]: 0 < InitialDelay, MaxDelay < 2^52 ns (52 days); Factor = 2 (the only factor vivid uses). *)
From Coq Require Import List ZArith Bool Permutation.
From Vivid Require Import Codec.Prim Remoting.Frame Remoting.Link Remoting.LinkProofs
  Remoting.Backoff Remoting.BackoffProofs Remoting.LinkBackoff Remoting.LinkOverlap.
Import ListNotations.
Local Open Scope Z_scope.

(** FACTOR 2 IS EXACT.  float64(InitialDelay) * math.Pow(2, attempt), capped: the three float operations of the code
    compute exactly min(InitialDelay * 2^k, MaxDelay) for EVERY attempt number k - no rounding ever (an integer
    below 2^53 is a float64; multiplying by a power of two only changes the exponent). *)
Theorem C14_backoff_base_exact :
  forall (c : bo_cfg) (k : N), cfg_ok c -> bo_base_f c k = Z.min (bo_init c * 2 ^ Z.of_N k) (bo_max c).
Proof. exact bo_base_exact. Qed.

(** EVERY DELAY IN ITS INTERVAL, for every attempt number and every value of the random source: with jitter between
    75 % (rounded down) and 125 % (rounded up) of the capped exponential - through the four roundings of the jitter
    arithmetic and the final truncation; without jitter exactly the capped exponential. *)
Theorem C14_backoff_delay_in_interval :
  forall (c : bo_cfg) (k : N) (r : Z),
    cfg_ok c -> 0 <= r < 2 ^ 63 ->
    let d := Z.min (bo_init c * 2 ^ Z.of_N k) (bo_max c) in
    (bo_jitter c = true -> (3 * d) / 4 <= bo_next c k r <= - ((- (5 * d)) / 4)) /\
    (bo_jitter c = false -> bo_next c k r = d).
Proof. exact bo_next_interval. Qed.

(** the objects vivid constructs satisfy the side condition: remoting.newMailbox (100 ms .. 3 s, jitter) and
    remoting.NewServerActor (100 ms .. 10 s, jitter); e.g. the first retry of a remote mailbox waits 75 .. 125 ms,
    from the sixth on 2.25 .. 3.75 s *)
Example C14_backoff_vivid_configs :
  cfg_ok mailbox_cfg /\ cfg_ok server_cfg /\
  (bo_lo mailbox_cfg 0, bo_hi mailbox_cfg 0) = (75000000, 125000000) /\
  (bo_lo mailbox_cfg 5, bo_hi mailbox_cfg 5) = (2250000000, 3750000000) /\
  bo_next mailbox_cfg 0 3440579354231278675 = 93651418.
Proof. split; [exact mailbox_cfg_ok|]. split; [exact server_cfg_ok|]. vm_compute. auto. Qed.

(** NUMBER OF ATTEMPTS.  fn fails every time (no abort): from a fresh counter Try(limit >= 0) calls fn exactly
    limit + 1 times, with GetAttempt() = 0, 1, .., limit (the RetryCount of the connection-failed events), sleeps
    exactly limit times in between, returns an error and leaves the counter at 0. *)
Theorem C14_backoff_attempts_when_all_fail :
  forall (c : bo_cfg) (limit : Z) (outs : list fn_out),
    0 <= limit -> (Z.to_nat limit < length outs)%nat -> Forall fails (firstn (S (Z.to_nat limit)) outs) ->
    let t := bo_try c limit outs 0 in
    tr_returned t = true /\ tr_abort t = false /\ tr_err t = true /\
    tr_seen t = nseq 0 (S (Z.to_nat limit)) /\ length (tr_sleeps t) = Z.to_nat limit /\
    tr_rest t = skipn (S (Z.to_nat limit)) outs /\ tr_after t = 0%N.
Proof. exact (fun c limit outs Hl => bo_try_all_fail c limit (Z.to_nat limit) outs 0%N Hl (Z2Nat.id limit Hl)). Qed.

(** fn succeeds or aborts at its (n+1)-th call, within the limit (or limit < 0: unbounded): n sleeps, the result is
    fn's own, the counter is 0 *)
Theorem C14_backoff_try_stops_with_fn :
  forall (c : bo_cfg) (limit : Z) (n : nat) (outs : list fn_out) (o : fn_out),
    (limit < 0 \/ Z.of_nat n <= limit) ->
    Forall fails (firstn n outs) -> nth_error outs n = Some o -> fo_abort o || negb (fo_err o) = true ->
    let t := bo_try c limit outs 0 in
    tr_returned t = true /\ tr_abort t = fo_abort o /\ tr_err t = fo_err o /\
    tr_seen t = nseq 0 (S n) /\ length (tr_sleeps t) = n /\ tr_rest t = skipn (S n) outs /\ tr_after t = 0%N.
Proof. exact (fun c limit n outs => bo_try_stops c limit n outs 0%N). Qed.

Example C14_backoff_try_example :
  let fail := {| fo_abort := false; fo_err := true; fo_draw := 5 |} in
  Forall fails (firstn 3 [fail; fail; fail; fail]) /\
  tr_seen (bo_try mailbox_cfg 2 [fail; fail; fail; fail] 0) = [0; 1; 2]%N /\
  tr_sleeps (bo_try mailbox_cfg 2 [fail; fail; fail; fail] 0) = [75000000; 150000000].
Proof. cbn zeta. split; [repeat constructor|]. vm_compute. auto. Qed.

(** COUNTER RESET ON EVERY EXIT (history independence).  However Try returns - success, abort, exhaustion - and
    whatever the counter was when it started, the counter is 0 afterwards; so a Try on an object that served any
    earlier Try behaves exactly like a Try on a new object: no message inherits used-up attempts. *)
Theorem C14_backoff_reset_on_every_exit :
  forall (c : bo_cfg) (limit : Z) (outs : list fn_out) (att : N),
    tr_returned (bo_try c limit outs att) = true -> tr_after (bo_try c limit outs att) = 0%N.
Proof. exact bo_try_after. Qed.

Theorem C14_backoff_history_independent :
  forall (c : bo_cfg) (l1 : Z) (o1 : list fn_out) (att : N) (l2 : Z) (o2 : list fn_out),
    tr_returned (bo_try c l1 o1 att) = true ->
    bo_try c l2 o2 (tr_after (bo_try c l1 o1 att)) = bo_try c l2 o2 0%N.
Proof. exact (fun c l1 o1 att l2 o2 H => f_equal (bo_try c l2 o2) (bo_try_after c l1 o1 att H)). Qed.

(** what the reset prevents: with a counter left at or above the limit the very first failure is final *)
Theorem C14_backoff_stale_counter_loses_attempts :
  forall (c : bo_cfg) (limit : Z) (o : fn_out) (outs : list fn_out) (att : N),
    0 <= limit -> limit <= Z.of_N att -> fails o ->
    tr_seen (bo_try c limit (o :: outs) att) = [att] /\ tr_err (bo_try c limit (o :: outs) att) = true.
Proof. exact bo_try_stale_counter. Qed.

(** Reset forgets: the results of any sequence of Next / Reset / GetAttempt calls after a Reset do not depend on
    what was done to the object before it *)
Theorem C14_backoff_reset_forgets :
  forall (c : bo_cfg) (att att' : N) (h h' ops : list bo_op),
    snd (bo_run c (fst (bo_run c att (h ++ [BReset]))) ops) = snd (bo_run c (fst (bo_run c att' (h' ++ [BReset]))) ops).
Proof. exact bo_run_reset_forgets. Qed.

(** TOTAL SLEEP BOUNDED.  Every sleep of a Try lies in the interval of its attempt number; their sum in the sum of
    the intervals; never more than (number of sleeps) * 125 % of MaxDelay. *)
Theorem C14_backoff_total_sleep_bounded :
  forall (c : bo_cfg) (limit : Z) (outs : list fn_out) (att : N),
    cfg_ok c -> Forall (fun o => 0 <= fo_draw o < 2 ^ 63) outs ->
    let t := bo_try c limit outs att in
    let n := length (tr_sleeps t) in
    Forall2 (fun k d => bo_lo c k <= d <= bo_hi c k) (nseq att n) (tr_sleeps t) /\
    sum_lo c att n <= sum_z (tr_sleeps t) <= sum_hi c att n /\
    0 <= sum_lo c att n /\ sum_hi c att n <= Z.of_nat n * (- ((- (5 * bo_max c)) / 4)).
Proof.
  exact (fun c limit outs att Hc Hd =>
           let (A, B) := bo_try_sleeps_bounds c limit outs att Hc Hd in
           conj A (conj B (conj (sum_lo_nonneg c Hc _ att) (sum_hi_le_cap c Hc _ att)))).
Qed.

(** ENQUEUE = TRY.  The [LSleep k] labels of Remoting/Link.v's machine are the Next() calls of this object: in one
    Enqueue that returns, the calling goroutine sleeps n <= ReconnectLimit times, for the attempt numbers 0 .. n-1
    without gaps, and for EVERY random stream the time it spends asleep lies in the sum of the intervals - at most
    n * 3.75 s.  (This bounds the known finding C14-tell-blocks-caller from both sides.) *)
Theorem C14_enqueue_blocking_time_bounded :
  forall (M : Type) (encode : M -> option bytes) (limit : N) (m : M) (script : list answers) (s s' : st) (rest : list answers),
    attempt s = 0%N ->
    try_loop encode limit m script s = (s', rest, true) ->
    exists tr n, trace s' = trace s ++ tr /\ sleep_ks tr = nseq 0 n /\ (N.of_nat n <= limit)%N /\
      forall rs, length rs = n -> Forall (fun r => 0 <= r < 2 ^ 63) rs ->
        sum_lo mailbox_cfg 0 n <= sleep_ns mailbox_cfg (sleep_ks tr) rs <= sum_hi mailbox_cfg 0 n /\
        0 <= sum_lo mailbox_cfg 0 n /\ sum_hi mailbox_cfg 0 n <= Z.of_nat n * 3750000000.
Proof. exact (@enqueue_blocking_time). Qed.

(** the peer stays unreachable: exactly ReconnectLimit sleeps, then the dead letter; the caller was asleep for at
    least the sum of the lower ends; with vivid's default ReconnectLimit 10 that is 13.575 s .. 22.625 s *)
Theorem C14_enqueue_exhaustion_blocks_for :
  forall (M : Type) (encode : M -> option bytes) (limit : N) (m : M) (data : bytes) (script : list answers) (s : st),
    wire_of encode m = Some data -> attempt s = 0%N ->
    (N.to_nat limit < length script)%nat -> Forall hard_fail (firstn (S (N.to_nat limit)) script) ->
    exists s' tr, try_loop encode limit m script s = (s', skipn (S (N.to_nat limit)) script, true) /\
      dead s' = dead s ++ [m] /\ trace s' = trace s ++ tr /\ sleep_ks tr = nseq 0 (N.to_nat limit) /\
      forall rs, length rs = N.to_nat limit -> Forall (fun r => 0 <= r < 2 ^ 63) rs ->
        sum_lo mailbox_cfg 0 (N.to_nat limit) <= sleep_ns mailbox_cfg (sleep_ks tr) rs <= sum_hi mailbox_cfg 0 (N.to_nat limit).
Proof. exact (@enqueue_exhaustion_blocks). Qed.

Example C14_default_limit_blocking :
  sum_lo mailbox_cfg 0 10 = 13575000000 /\ sum_hi mailbox_cfg 0 10 = 22625000000.
Proof. vm_compute. auto. Qed.

(** OVERLAPPING CONNECTIONS (what remains of the subsequence clause without C14_subsequence_partial's proviso).
    For EVERY interleaving [r] of the deliveries of the connections of one sender mailbox - every message list, every
    fault script, every ReconnectLimit: [r] is a permutation of a subsequence of what was sent (nothing invented,
    corrupted or duplicated), and each single connection's deliveries keep their order inside [r].  The only thing
    an overlap can break is the order BETWEEN two connections (C14_overlap_reorder_refuted). *)
Theorem C14_any_overlap_no_corruption_no_duplicate :
  forall (M : Type) (encode : M -> option bytes) (limit : N) (dec : bytes -> option M),
    (forall m b, encode m = Some b -> dec b = Some m) ->
    forall (ms : list M) (script : list answers) (r : list M),
      merges (per_conn dec (fst (exec encode limit ms script init))) r ->
      (exists r', Permutation r r' /\ subseq r' ms) /\
      Forall (fun l => subseq l r) (per_conn dec (fst (exec encode limit ms script init))).
Proof. exact (@overlap_perm_of_subseq). Qed.

(** in particular no message is received more often than it was sent *)
Theorem C14_any_overlap_at_most_once :
  forall (M : Type) (encode : M -> option bytes) (limit : N) (dec : bytes -> option M) (eqb : M -> M -> bool),
    (forall m b, encode m = Some b -> dec b = Some m) ->
    forall (ms : list M) (script : list answers) (r : list M) (x : M),
      merges (per_conn dec (fst (exec encode limit ms script init))) r ->
      (length (filter (eqb x) r) <= length (filter (eqb x) ms))%nat.
Proof. exact (@overlap_no_duplicate). Qed.

Print Assumptions C14_backoff_base_exact.
Print Assumptions C14_backoff_delay_in_interval.
Print Assumptions C14_backoff_attempts_when_all_fail.
Print Assumptions C14_backoff_try_stops_with_fn.
Print Assumptions C14_backoff_reset_on_every_exit.
Print Assumptions C14_backoff_history_independent.
Print Assumptions C14_backoff_stale_counter_loses_attempts.
Print Assumptions C14_backoff_reset_forgets.
Print Assumptions C14_backoff_total_sleep_bounded.
Print Assumptions C14_enqueue_blocking_time_bounded.
Print Assumptions C14_enqueue_exhaustion_blocks_for.
Print Assumptions C14_any_overlap_no_corruption_no_duplicate.
Print Assumptions C14_any_overlap_at_most_once.
