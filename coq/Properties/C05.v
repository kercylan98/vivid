(** C05 - lifecycle order per incarnation: OnLaunch first, own OnKilled last; a supervised restart starts a
    new incarnation with an OnLaunch handled by the restarted actor itself; a prelaunch failure creates nothing.

    Model: Actor/Core.v (ActorCore: Context.HandleEnvelop and its handlers, ActorOf, kill / killed chain,
    restart, zombie), tied to the real runtime by lock-step replay (bin/check C05).  User code is data
    (action scripts, decisions, hook outcomes), so "for all s t held sp ..." / "reachable s" quantify over all
    user code, all supervision decisions, all hook outcomes and all schedules.
    Derived notions: Actor/SpecLife.v.  Statements only; proofs in Actor/ProofsLife*.v. *)
From Coq Require Import List NArith ZArith Bool.
From Vivid Require Import Actor.Core Actor.SpecLife Actor.ProofsMail Actor.ProofsLife Actor.ProofsLifeSum Actor.ProofsLifeTree Actor.ProofsLifeLog Actor.ProofsLifeFirst Actor.ProofsLifeEx.
Import ListNotations.
Local Open Scope N_scope.

(** ============================ (a) ActorOf ============================ *)

(** prelaunch failure: ActorOf returns an error (result code 2 in the caller's log); no context is created,
    nothing is registered, nothing is sent (the instruction list is empty): the actor never receives anything *)
Theorem C05_prelaunch_fail s t held sp x :
  get s (self_of t) = Some x -> a_state x <> Killed -> sp_prelaunch sp = false ->
  exec1 s t held (IAct (ASpawn sp)) = (add_obs s (OSpawn (self_of t) (sp_name sp) 2), []).
Proof. exact (exec1_spawn_prelaunch_fail s t held sp x). Qed.

(** ([add_obs] only appends to the caller-visible log) *)
Theorem C05_prelaunch_fail_creates_nothing s o :
  actors (add_obs s o) = actors s /\ reg (add_obs s o) = reg s /\ gens (add_obs s o) = gens s /\
  subs (add_obs s o) = subs s /\ exts (add_obs s o) = exts s.
Proof. exact (conj eq_refl (conj eq_refl (conj eq_refl (conj eq_refl eq_refl)))). Qed.

(** a successful ActorOf: exactly one new context (Running, behaviour stack [0], empty mailbox), registered under
    parent path ++ [name] with the next generation of that path, entered in the parent's children map; the
    caller's next instructions are: tell the child OnLaunch (system message), finish that Enqueue, publish
    ActorSpawnedEvent, (kill the child if the parent is already stopping,) return the reference *)
Theorem C05_spawn_ok_shape s t held sp x s' front :
  get s (self_of t) = Some x -> a_state x <> Killed -> sp_prelaunch sp = true ->
  alookup (reg s) (a_path x ++ [sp_name sp]) = None ->
  exec1 s t held (IAct (ASpawn sp)) = (s', front) ->
  let self := self_of t in
  let p := a_path x ++ [sp_name sp] in
  let c := length (actors s) in
  let g := match alookup (gens s) p with Some g => g | None => 0 end in
  length (actors s') = S c /\
  get s' c = Some (new_actor p g (Some self) sp) /\
  (forall b, b <> self -> b <> c -> get s' b = get s b) /\
  get s' self = Some (set_children x (aset (a_children x) p c)) /\
  reg s' = reg s ++ [(p, c)] /\ alookup (reg s') p = Some c /\
  gens s' = aset (gens s) p (g + 1) /\
  olog s' = olog s /\ subs s' = subs s /\ err s' = err s /\
  front = [IEnq true (RObj c) (RObj self) MLaunch; IEnqDone; IPub evSpawned (p ++ [g])]
          ++ (if match a_state x with Killing => true | _ => false end
              then [IEnq true (RObj c) (RObj self) (MKill (RObj self) false); IEnqDone] else [])
          ++ [IObs (OSpawn self (sp_name sp) 0)].
Proof. exact (exec1_spawn_ok s t held sp x s' front). Qed.

(** ============================ (c) restart ============================ *)

(** the restart completes (OnRestarted and OnPrelaunch succeed): the actor is Running again under the same
    context (same path, generation, parent, children, watchers, stash, mailbox), the behaviour stack is reset to
    [0] (the actor's OnReceive), the instance counter is incremented iff a provider is configured, the current
    envelope is an OnLaunch from the parent and the handler mode is 0; the remaining instructions are:
    mailbox.Resume, two publications, the behaviour call for OnLaunch BY THIS ACTOR, one publication.
    No instruction of the list sends an OnLaunch envelope to anybody ([IPub] only sends [MEvent], see
    [C05_publish_sends_events_only]) *)
Theorem C05_restart_starts_with_launch s t held x :
  get s (self_of t) = Some x -> hooks_ok x = true ->
  exists x',
    exec1 s t held IRestartFinish =
      (set_actor s (self_of t) x',
       [IResume1; IPub evRestarted (actor_key x); IPub evResumed (actor_key x);
        IBeh MLaunch (sp_launch (a_spec x)) RecFail; IPub evLaunched (actor_key x)]) /\
    a_state x' = Running /\ a_restarting x' = None /\ a_zombie x' = a_zombie x /\
    a_modes x' = [0] /\ a_inst x' = (if sp_provider (a_spec x) then a_inst x + 1 else a_inst x) /\
    a_hooks x' = tl (a_hooks x) /\ a_cons x' = CBusy 0 /\ a_cur x' = Some (launch_env x) /\
    a_path x' = a_path x /\ a_gen x' = a_gen x /\ a_parent x' = a_parent x /\ a_spec x' = a_spec x /\
    a_children x' = a_children x /\ a_watchers x' = a_watchers x /\ a_stash x' = a_stash x /\
    a_decisions x' = a_decisions x /\ a_sq x' = a_sq x /\ a_uq x' = a_uq x /\ a_paused x' = a_paused x /\ a_pend x' = a_pend x.
Proof. exact (exec1_restart_finish_ok s t held x). Qed.

(** the behaviour call of a non-zombie, non-root actor is observed as [OSeen self instance mode message], the mode
    being the one HandleEnvelop peeked ([CBusy mode]): after [C05_restart_starts_with_launch] that is
    [OSeen a (new instance) 0 MLaunch] *)
Theorem C05_behaviour_call_logged s t held x m acts r pa :
  get s (self_of t) = Some x -> a_zombie x = false -> a_parent x = Some pa ->
  fst (exec1 s t held (IBeh m acts r)) =
    add_obs s (OSeen (self_of t) (a_inst x) (match a_cons x with CBusy md => md | _ => mode_top x end) m).
Proof. exact (exec1_IBeh_logs s t held x m acts r pa). Qed.

Theorem C05_publish_sends_events_only s t held x ty pl :
  get s (self_of t) = Some x ->
  exec1 s t held (IPub ty pl) =
    (s, match subscribers s ty with
        | [] => []
        | l => [IEnqAny false (map (fun p => RObj (snd p)) l) root_ref (MEvent ty pl)]
        end).
Proof. exact (exec1_IPub s t held x ty pl). Qed.

(** OnRestarted or OnPrelaunch fails: the actor becomes a zombie (state unchanged = Killed, see C06), nothing
    but mailbox.Resume follows: no OnLaunch, no notification *)
Theorem C05_restart_failed_is_zombie s t held x :
  get s (self_of t) = Some x -> hooks_ok x = false ->
  exists x',
    exec1 s t held IRestartFinish = (set_actor s (self_of t) x', [IResume1]) /\
    a_zombie x' = true /\ a_state x' = a_state x /\ a_restarting x' = a_restarting x /\
    a_modes x' = [0] /\ a_hooks x' = tl (a_hooks x) /\ a_cons x' = a_cons x /\ a_children x' = a_children x /\
    a_path x' = a_path x /\ a_pend x' = a_pend x.
Proof. exact (exec1_restart_finish_fail s t held x). Qed.

(** a zombie's behaviour is never called *)
Theorem C05_zombie_sees_nothing s t held x m acts r :
  get s (self_of t) = Some x -> a_zombie x = true -> exec1 s t held (IBeh m acts r) = (s, []).
Proof. exact (exec1_beh_zombie s t held x m acts r). Qed.

(** ============================ (d) OnKill before the own OnKilled ============================ *)

(** doKill: (the kill is passed to the children,) the behaviour sees the current message (the OnKill), THEN
    onKilled(self) runs ... *)
Theorem C05_kill_before_killed s t held x poison :
  get s (self_of t) = Some x ->
  exec1 s t held (IDoKill poison) =
    (s, (match a_children x with
         | [] => []
         | l => [IEnqAny (negb poison) (map (fun p => RObj (snd p)) l) (RObj (self_of t)) (MKill (RObj (self_of t)) poison)]
         end)
        ++ [IBeh (match a_cur x with Some e => e_msg e | None => MKill RNone poison end) (sp_kill (a_spec x)) RecLog;
            IOnKilled (RObj (self_of t))]).
Proof. exact (exec1_dokill s t held x poison). Qed.

(** ... which only checks whether the actor can be marked Killed ... *)
Theorem C05_onkilled_self_checks s t held x :
  get s (self_of t) = Some x -> a_zombie x = false ->
  exec1 s t held (IOnKilled (RObj (self_of t))) = (s, [ICheckMark]).
Proof. exact (fun Hg Hz => exec1_IOnKilled_own s t held x _ Hg Hz (ref_eq_self s _ x Hg)). Qed.

(** ... and the behaviour call for the own OnKilled is issued by that check only, when the last child is gone
    and the state is Killing; it is followed by the cleanup or by the end of the restart *)
Theorem C05_own_killed_from_mark s t held x :
  get s (self_of t) = Some x -> a_children x = [] -> a_state x = Killing ->
  exists x',
    exec1 s t held ICheckMark =
      (set_actor s (self_of t) x',
       [IBeh (MKilled (RObj (self_of t))) (sp_killed (a_spec x)) RecLog]
       ++ match a_restarting x with None => [ICleanup] | Some _ => [IRestartFinish] end) /\
    a_state x' = Killed /\ a_children x' = [] /\ a_zombie x' = a_zombie x /\ a_restarting x' = a_restarting x /\
    a_cur x' = Some {| e_sys := true; e_sender := match a_cur x with Some e0 => e_sender e0 | None => RNone end;
                       e_msg := MKilled (RObj (self_of t)) |} /\
    a_pend x' = a_pend x /\ a_cons x' = a_cons x /\ a_path x' = a_path x /\ a_parent x' = a_parent x.
Proof. exact (exec1_ICheckMark_marks s t held x). Qed.

(** the OnKilled of another actor is shown to the behaviour with that actor's reference, which is NOT equal to
    the own one: [OSeen a _ _ (MKilled (RObj a))] always is the own OnKilled *)
Theorem C05_other_killed_is_not_own s a x who :
  get s a = Some x -> ref_eq s who (RObj a) = false -> who <> RObj a.
Proof. exact (other_killed_not_own s a x who). Qed.

(** ============================ (b) nothing after the own OnKilled ============================ *)

(** [seen_of a (olog s)]: the messages actor a's behaviour has seen so far, in order (Actor/SpecLife.v).
    For every actor but the guard (the root has no behaviour), in every reachable state: whatever the behaviour sees
    directly after its own OnKilled is the OnLaunch of a restart ... *)
Theorem C05_nothing_after_own_killed s a pre m post :
  reachable s -> a <> 0%nat -> seen_of a (olog s) = pre ++ MKilled (RObj a) :: m :: post -> m = MLaunch.
Proof. exact (nothing_after_own_killed s a pre m post). Qed.

(** ... and as long as the own OnKilled is the last thing it saw, the actor is Killed and either a zombie (whose
    behaviour is never called, [C05_zombie_sees_nothing]) or has no behaviour call pending at all - or, after a
    successful restart, the next significant pending instruction is the OnLaunch call.  A Killed non-zombie
    context handles nothing any more ([C05_killed_dead_letters]), so without a restart nothing follows at all *)
Theorem C05_after_own_killed_state s a pre :
  reachable s -> a <> 0%nat -> seen_of a (olog s) = pre ++ [MKilled (RObj a)] ->
  exists x, get s a = Some x /\
    ((a_state x = Killed /\ (a_zombie x = true \/ forallb (fun i => negb (is_beh i)) (a_pend x) = true)) \/
     (a_zombie x = false /\ exists ac r, filter sig (a_pend x) = [IBeh MLaunch ac r; IEndHandler])).
Proof. exact (after_own_killed_state s a pre). Qed.

Theorem C05_killed_dead_letters s a x e :
  a_state x = Killed -> a_zombie x = false ->
  dispatch s a x e =
    match a_parent x with
    | None => (add_ghost s (ODropped (e_msg e)), [IEndHandler])
    | Some _ => (s, [IEnqMb 0 {| e_sys := false; e_sender := root_ref; e_msg := MDeadLetter (e_sys e) (e_msg e) |}; IEnqDone; IEndHandler])
    end.
Proof. exact (dispatch_dead s a x e). Qed.

(** ============================ (e) OnLaunch first ============================ *)

(** "the first message every actor sees is OnLaunch" is FALSE of the model and of the code (known finding
    C05-spawn-race-first-message): ActorOf registers the path, then enqueues OnLaunch (two mailbox operations);
    a message sent through a parsed reference in between is handled first.  Witness: caller 0 spawns /1, caller 1
    tells /1 (by path) the user message 7 before caller 0's OnLaunch is enqueued. *)
Theorem C05_first_is_launch_refuted :
  exists scs evs a m rest,
    let s := run_events evs (init_with scs) in
    err s = false /\ seen_of a (olog s) = m :: rest /\ m <> MLaunch.
Proof. exact first_is_launch_refuted. Qed.

(** the strongest true statement we have: from the moment OnLaunch is first in line - it is at the head of the
    system queue of an actor that has handled nothing yet ([fresh]: Running, no handler active) and whose consumer is
    idle - the first message the behaviour sees is OnLaunch, whatever any thread does afterwards (tells, kills, pauses,
    further spawns; all schedules).  [launch_first] is defined in Actor/ProofsLifeFirst.v:
      launch_first c s := exists x e r, get s c = Some x /\ fresh x /\ a_cons x = C0 /\ a_sq x = e :: r /\
                                        e_msg e = MLaunch /\ seen_of c (olog s) = [].
    What is missing for the full property is exactly the window of the finding: between the registration of the path
    and the insertion of the OnLaunch envelope nothing else may be inserted into the new mailbox (and the consumer must
    not run) - [C05_launch_push_establishes] needs the queue to be still empty at that insertion. *)
Theorem C05_first_is_launch_partial c s evs :
  c <> 0%nat -> reachable s -> launch_first c s -> err (run_events evs s) = false ->
  forall m rest, seen_of c (olog (run_events evs s)) = m :: rest -> m = MLaunch.
Proof. exact (launch_first_stable c s evs). Qed.

(** ActorOf's tell of OnLaunch is addressed to the new context's own mailbox ... *)
Theorem C05_spawn_launch_resolves s c p g pa sp :
  get s c = Some (new_actor p g pa sp) -> alookup (reg s) p = Some c ->
  fst (resolve s (RObj c)) = MbActor c.
Proof. exact (spawn_launch_resolves s c p g pa sp). Qed.

(** ... and its insertion into the still untouched mailbox establishes [launch_first] *)
Theorem C05_launch_push_establishes s t c x sender rest :
  get s c = Some x -> fresh x -> a_cons x = C0 -> a_sq x = [] -> seen_of c (olog s) = [] ->
  pend_of s t = IEnqR true (MbActor c) sender MLaunch :: rest -> t <> TA c ->
  launch_first c (step s (EvPush t 0)).
Proof. exact (launch_push_establishes s t c x sender rest). Qed.

(** ============================ examples ============================ *)

(** a supervised restart (one-for-one, decision Restart, provider configured, all hooks succeed): the child /1/1
    (context 2) sees OnLaunch, the failing user message, OnKill, its own OnKilled, and then - same context, new
    instance 1, behaviour stack reset (mode 0 although it had become 9) - OnLaunch; nobody else sees a second OnLaunch *)
Example C05_ex_restart :
  err rs_final = false /\
  seen_full 2 (olog rs_final) =
    [(0, 0, MLaunch); (0, 0, MUser 5 [ABecome 9 true; APanic]); (0, 9, MKill (RObj 2) false); (0, 9, MKilled (RObj 2)); (1, 0, MLaunch)] /\
  seen_of 1 (olog rs_final) = [MLaunch] /\
  (exists x, get rs_final 2 = Some x /\ a_state x = Running /\ a_modes x = [0] /\ a_inst x = 1 /\ a_gen x = 0).
Proof. vm_compute. repeat split. eexists. repeat split. Qed.

(** the same with a failing OnRestarted: the child ends as a zombie, sees nothing after its own OnKilled *)
Example C05_ex_restart_failed :
  err rz_final = false /\
  seen_of 2 (olog rz_final) = [MLaunch; MUser 5 [APanic]; MKill (RObj 2) false; MKilled (RObj 2)] /\
  (exists x, get rz_final 2 = Some x /\ a_state x = Killed /\ a_zombie x = true).
Proof. vm_compute. repeat split. eexists. repeat split. Qed.

(** hypotheses of the one-step theorems are satisfiable: a prelaunch failure in the initial state *)
Example C05_ex_prelaunch_fail :
  let s := init_with [[]] in
  exists x, get s (self_of (TX 0)) = Some x /\ a_state x <> Killed /\
    fst (exec1 s (TX 0) [] (IAct (ASpawn (Spec 1 [] [] [] 0 [] false [] false)))) = add_obs s (OSpawn 0 1 2).
Proof. cbv zeta. eexists. split; [reflexivity|]. split; [discriminate|reflexivity]. Qed.

(** a reachable state in which an actor's last seen message is its own OnKilled (the killed tree of C06) *)
Example C05_ex_after_own_killed :
  reachable tree_final /\ seen_of 2 (olog tree_final) = [MLaunch; MKill (RObj 1) false] ++ [MKilled (RObj 2)].
Proof. split; [exists tree_scripts, tree_events; split; [reflexivity|vm_compute; reflexivity]|vm_compute; reflexivity]. Qed.

(** [launch_first] holds in a reachable state: right after the OnLaunch of /1 was inserted (no race) *)
Example C05_ex_launch_first :
  let s := run_events [EvStart 0; EvPush (TX 0) 0] (init_with [[ASpawn (leaf 1)]]) in
  reachable s /\ launch_first 1 s.
Proof.
  cbv zeta. split; [eexists _, _; split; [reflexivity|vm_compute; reflexivity]|].
  eexists _, _, _. split; [vm_compute; reflexivity|]. vm_compute. repeat split; try discriminate.
Qed.

Print Assumptions C05_prelaunch_fail.
Print Assumptions C05_prelaunch_fail_creates_nothing.
Print Assumptions C05_spawn_ok_shape.
Print Assumptions C05_restart_starts_with_launch.
Print Assumptions C05_behaviour_call_logged.
Print Assumptions C05_publish_sends_events_only.
Print Assumptions C05_restart_failed_is_zombie.
Print Assumptions C05_zombie_sees_nothing.
Print Assumptions C05_kill_before_killed.
Print Assumptions C05_onkilled_self_checks.
Print Assumptions C05_own_killed_from_mark.
Print Assumptions C05_other_killed_is_not_own.
Print Assumptions C05_nothing_after_own_killed.
Print Assumptions C05_after_own_killed_state.
Print Assumptions C05_killed_dead_letters.
Print Assumptions C05_first_is_launch_refuted.
Print Assumptions C05_first_is_launch_partial.
Print Assumptions C05_spawn_launch_resolves.
Print Assumptions C05_launch_push_establishes.
