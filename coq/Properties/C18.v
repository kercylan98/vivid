(** C18 — Gossip converges: same members, same leader, exactly the live nodes (PARTIAL).
    Statements only; every proof is [exact <lemma>] (lemmas in Cluster/GossipProofs.v, model in
    Cluster/Gossip.v, the view algebra of C17 in Cluster/View.v / ViewProofs.v).

    Reading guide.  A [node] is the state of one NodeActor (own NodeState, ClusterView, last version vector
    heard from each address, event-publisher memory, registered timers); a [world] is the running nodes by
    address plus the GossipMessages in flight; [step_world w now s] executes one step (process start with its
    join Asks, join retry, gossip tick, failure-detection tick, delivery or loss of one packet, crash, leave,
    force-down) at wall clock [now]; [run] executes a schedule.  [leader_of v] is ComputeLeaderAddr,
    [iam_leader n] the IAmLeader flag it publishes, [up_addrs v] the addresses of the members with status Up.
    [proj v] (C17) is the membership id -> (generation, logical clock); [pjoin_all] the join of C17.
    [fair_rounds w t d rounds] runs consecutive FAIR rounds of the fault-free phase: all Asks go through,
    nothing is lost, every registered timer of every node fires in every round, nothing is left in flight at
    the end of a round, round i starts at clock >= t + i*d.  [converged w]: every running node lists exactly
    the running nodes (by NodeID and address) and all compute the same leader; [quiet lg]: the log holds no
    ClusterMembersChanged / ClusterViewChanged / ClusterLeaderChanged event.

    The unconditional property [C18_unconditional] is FALSE of the code as it is; the defects are
    established by kernel-checked executions (replayed on the real NodeActors by the harness on every run),
    each with the strongest true statement next to it.

    Section 5 DECIDES the convergence clause by history class.  On the CLEAN histories (Cluster/GossipClean.v:
    failure detection off, every NodeID used once, no crash / leave / force-down, joins accepted by joined nodes
    only - any join order, seed lists, loss, delivery order, retries, for any number of nodes up to the 65535-entry
    cap of the version vector) it is PROVED: the order of the version vectors is the order of the memberships,
    so the suppression of shouldSendGossipTo is sound; one fair round after everybody has joined makes all views
    equal, provided the seed lists connect the nodes; exactly one node is leader; and from then on nothing is
    announced and nothing changes, for ever.  Every class outside is matched by a refutation:
      failure detection on -> (a) (c) (f);  crash + restart -> (c2) (e) (e2);  leave -> (d);  removal -> (b);
      a crash that nothing detects -> (g);  seed lists that do not connect -> (h).
    Undecided (neither proved nor refuted): histories in which a node whose own join is still pending accepts a
    JoinRequest ([ask_ok] in Cluster/GossipClean.v). *)
From Coq Require Import List NArith ZArith.
From stdpp Require Import gmap.
From Vivid Require Import Cluster.VV Cluster.VVProofs Cluster.View Cluster.Gossip Cluster.GossipProofs.
From Vivid Require Import Cluster.GossipClean Cluster.GossipCleanStep Cluster.GossipCleanRun Cluster.GossipCleanConv Cluster.GossipCleanEx.
Local Open Scope N_scope.

(** ** 1. Same Up members => same leader; exactly one IAmLeader *)

(** for ALL views: the leader depends only on the set of addresses of the Up members *)
Theorem C18_same_view_same_leader v1 v2 :
  (forall a, a ∈ up_addrs v1 <-> a ∈ up_addrs v2) -> leader_of v1 = leader_of v2.
Proof. exact (same_up_same_leader v1 v2). Qed.

(** any non-empty set of running nodes with distinct addresses whose views all have, as Up members, exactly
    these nodes: one leader address for all of them, and exactly one of them has IAmLeader *)
Theorem C18_exactly_one_leader (nodes : list node) :
  nodes <> [] ->
  NoDup (map nd_addr nodes) ->
  (forall n, n ∈ nodes -> forall a, a ∈ up_addrs (nd_view n) <-> a ∈ map nd_addr nodes) ->
  exists l, (forall n, n ∈ nodes -> leader_of (nd_view n) = l) /\
            exists n, n ∈ nodes /\ iam_leader n = true /\
                      forall m, m ∈ nodes -> iam_leader m = true -> m = n.
Proof. exact (one_leader nodes). Qed.

(** the leader is the least Up address in Go's string order *)
Theorem C18_leader_is_least v a : a ∈ up_addrs v -> lex_le (leader_of v) a = true.
Proof. exact (leader_least v a). Qed.

(** ** 2. Conditional convergence: the exchange round *)

(** handleGossip acts on the membership as the join of C17 (the LastSeen / Suspect refresh touches no incarnation) *)
Theorem C18_gossip_is_join n src v now choice :
  WF (nd_view n) -> WF v ->
  WF (nd_view (fst (fst (handle_gossip n src v now choice)))) /\
  proj (nd_view (fst (fst (handle_gossip n src v now choice)))) = pjoin (proj (nd_view n)) (proj v).
Proof. exact (handle_gossip_proj n src v now choice). Qed.

(** a round = any schedule of gossip ticks, deliveries (any order, any MemberByAddress choice) and losses, from a
    world with well-formed views and nothing in flight.  Information flow is tracked by [arun] on the annotated
    world: a node starts with the origin {itself}, a GossipMessage carries the origins of its sender at send
    time, a delivery adds them to the receiver's ([all_reached]: at the end every node's origins contain every
    node that was running = every view reached every node, directly or transitively; no failure-detector
    removal, leave or start occurs because such steps are not part of a round).  Then the annotated run
    is the plain run, and afterwards every node's membership is the join of all initial ones:
    by C17 the union of the members, each at the newest incarnation any node had. *)
Theorem C18_exchange_round w0 sc w1 l :
  (forall a n, w_nodes w0 !! a = Some n -> nd_addr n = a) ->
  (forall a n, w_nodes w0 !! a = Some n -> WF (nd_view n)) ->
  w_net w0 = [] ->
  forallb (fun p => round_step (snd p)) sc = true ->
  run w0 sc = Some (w1, l) ->
  exists aw1, arun (annotate w0) sc = Some (aw1, l) /\ erase aw1 = w1 /\
    (all_reached w0 aw1 ->
     forall a n, w_nodes w1 !! a = Some n ->
       WF (nd_view n) /\ proj (nd_view n) = pjoin_all (all_views0 w0)).
Proof. exact (exchange_round w0 sc w1 l). Qed.

(** the hypotheses on the world hold after ANY history: in every world reachable from the empty one by any schedule
    (starts, joins, losses, crashes, restarts, leaves, force-downs, failure detection ...) the nodes are keyed by
    their own address and every view - of a node, of a GossipMessage in flight - is well-formed in the sense of C17 *)
Theorem C18_reachable_well_formed sc w l :
  run empty_world sc = Some (w, l) ->
  (forall a n, w_nodes w !! a = Some n -> nd_addr n = a) /\
  (forall a n, w_nodes w !! a = Some n -> WF (nd_view n)) /\
  (forall p, p ∈ w_net w -> WF (p_view p)).
Proof. exact (reachable_inv sc w l). Qed.

(** ... so: after any history that leaves nothing in flight, any round in which every view reaches every node ends
    with every membership equal to the join of the memberships the round started with *)
Theorem C18_exchange_round_after_any_history hist w0 l0 sc w1 l :
  run empty_world hist = Some (w0, l0) -> w_net w0 = [] ->
  forallb (fun p => round_step (snd p)) sc = true ->
  run w0 sc = Some (w1, l) ->
  exists aw1, arun (annotate w0) sc = Some (aw1, l) /\ erase aw1 = w1 /\
    (all_reached w0 aw1 ->
     forall a n, w_nodes w1 !! a = Some n ->
       WF (nd_view n) /\ proj (nd_view n) = pjoin_all (all_views0 w0)).
Proof. exact (exchange_round_reachable hist w0 l0 sc w1 l). Qed.

(** ** 3. The fixpoint: gossip is suppressed when the vectors are Equal *)

(** exactly when a gossip round (= broadcastViewOnce) sends to [t]: t is a seed or a member address other than
    the own one, and either nothing was ever heard from t or the own vector is After / Concurrent to the last
    vector heard from it.  Equal (and Before) suppress the message. *)
Theorem C18_gossip_sent_iff n t :
  (exists v, (t, v) ∈ snd (fst (gossip_tick n))) <->
  t ∈ select_targets n /\
  match nd_last n !! t with
  | None => True
  | Some theirs => vcompare (vw_vv (nd_view n)) theirs = VAfter \/ vcompare (vw_vv (nd_view n)) theirs = VConcurrent
  end.
Proof. exact (gossip_sent_iff n t). Qed.

(** every target's last known vector is Equal to (or ahead of) the own one: the round sends nothing, publishes
    nothing (no members-changed event in particular) and leaves the view as it is *)
Theorem C18_fixpoint n :
  (forall t, t ∈ select_targets n -> exists theirs, nd_last n !! t = Some theirs /\
       (vcompare (vw_vv (nd_view n)) theirs = VEqual \/ vcompare (vw_vv (nd_view n)) theirs = VBefore)) ->
  snd (fst (gossip_tick n)) = [] /\ snd (gossip_tick n) = [] /\ nd_view (fst (fst (gossip_tick n))) = nd_view n.
Proof. exact (gossip_fixpoint n). Qed.

(** (the strongest true part of (a)) with failure detection off the fixpoint is stable for ever: in a world with
    nothing in flight, no failure-detection loop, no pending join retry and every gossip suppressed, every
    fault-free step is either not enabled or publishes nothing, changes no view and leads to such a world again *)
Theorem C18_fixpoint_stable_without_failure_detection_partial w now s w' l :
  (w_net w = [] /\
   forall a n, w_nodes w !! a = Some n ->
     nd_addr n = a /\ nd_fd_on n = false /\ nd_retry_on n = false /\
     forall t, t ∈ select_targets n -> exists theirs, nd_last n !! t = Some theirs /\
       (vcompare (vw_vv (nd_view n)) theirs = VEqual \/ vcompare (vw_vv (nd_view n)) theirs = VBefore)) ->
  fault_free s = true -> step_world w now s = Some (w', l) ->
  l = [] /\ quiescent w' /\ forall a, nd_view <$> (w_nodes w' !! a) = nd_view <$> (w_nodes w !! a).
Proof. exact (quiescent_stable w now s w' l). Qed.

(** ** 4. The unconditional property is false *)

(** [converged_b] decides [converged] *)
Theorem C18_converged_decided w : converged_b w = true <-> converged w.
Proof. exact (converged_b_spec w). Qed.

(** stated in full in Cluster/Gossip.v:
      C18_unconditional L d := forall faults t rounds w1 l1 w2 logs,
        run empty_world faults = Some (w1, l1) -> fair_rounds w1 t d rounds = Some (w2, logs) ->
        L <= length rounds -> converged w2 /\ (forall lg, last logs = Some lg -> quiet lg = true).
    It fails for L = 40 rounds of length d = 50 (and hence for every smaller L) with a timeout of 300. *)
Theorem C18_unconditional_refuted : ~ C18_unconditional 40 50.
Proof. exact unconditional_refuted. Qed.

(** (a) ENDLESS CHURN OF HEALTHY MEMBERS.  Two nodes (seed 127.0.0.1:1, joiner 127.0.0.1:2), FailureDetectionTimeout
    300, no fault at all: the fault phase consists of the two process starts with a successful join.  After 40 fair
    rounds of length 50: a ClusterMembersChangedEvent removing a RUNNING node is still published within the
    last 10 rounds, the two nodes do not list the same members and the world is not converged.  (Once the vectors
    are equal no gossip flows, LastSeen is never refreshed, the failure detector removes the healthy peer, the
    merge that re-adds it copies the sender's own stale LastSeen, and so on.) *)
Theorem C18_a_healthy_members_churn_refuted :
  exists w1 l1 w2 logs,
    run empty_world (faults_of wa_play 40) = Some (w1, l1) /\
    fair_rounds w1 1050 50 (rounds_of wa_play 40) = Some (w2, logs) /\
    (only_clean_starts (faults_of wa_play 40) && (length (rounds_of wa_play 40) =? 40)%nat &&
     (length (nodes_of w2) =? 2)%nat &&
     existsb (removal_of_running w2) (skipn 30 logs) &&
     negb (converged_b w2) && negb (same_members_everywhere w2)) = true.
Proof. exact wa_check. Qed.

(** (b) A REMOVED MEMBER IS RESURRECTED BY ANY PEER THAT STILL LISTS IT.  Failure detection off; seeds s, a and
    member x converge; x crashes; ForceMemberDown(x) at s publishes the removal and x is absent from s's view when
    the faults stop; 30 fair rounds later both running nodes list x again - for ever (all rounds after the fifth are
    quiet).  (RemoveMember also prunes x's version-vector entry, so s's vector becomes Concurrent with a's; a's
    answer carries x and MergeFrom never removes.) *)
Theorem C18_b_removed_member_resurrected_refuted :
  exists w1 l1 w2 logs,
    run empty_world (faults_of wb_play 30) = Some (w1, l1) /\
    fair_rounds w1 1250 50 (rounds_of wb_play 30) = Some (w2, logs) /\
    ((length (rounds_of wb_play 30) =? 30)%nat &&
     negb (is_running w1 ad3) && negb (is_running w2 ad3) &&
     existsb (fun p => bool_decide (fst p = ad1) && match snd p with EMembers _ 0 [r] => bool_decide (r = ad3) | _ => false end) l1 &&
     match w_nodes w1 !! ad1 with Some s => negb (lists_id s [120]) | None => false end &&
     (length (nodes_of w2) =? 2)%nat && forallb (fun n => lists_id n [120]) (nodes_of w2) &&
     forallb quiet (skipn 5 logs)) = true.
Proof. exact wb_check. Qed.

(** (c) A STATUS CHANGE IS NEVER PROPAGATED NOR CLEARED ONCE THE VECTORS ARE EQUAL: TWO LEADERS.  The two healthy
    nodes of (a) with SuspectConfirmDuration 100000: after 40 fair rounds both list the same two members, one of
    them holds the other (running) node as Suspect, and BOTH have IAmLeader. *)
Theorem C18_c_two_leaders_refuted :
  exists w1 l1 w2 logs,
    run empty_world (faults_of wc_play 40) = Some (w1, l1) /\
    fair_rounds w1 1050 50 (rounds_of wc_play 40) = Some (w2, logs) /\
    (only_clean_starts (faults_of wc_play 40) && (length (rounds_of wc_play 40) =? 40)%nat &&
     (length (nodes_of w2) =? 2)%nat && same_members_everywhere w2 && (length (leaders_of w2) =? 2)%nat &&
     existsb (fun n => existsb (fun s => (ns_status s =? st_suspect)%Z && is_running w2 (ns_addr s)) (states (nd_view n))) (nodes_of w2)) = true.
Proof. exact wc_check. Qed.

(** (c2) ... NOR IS A NEW INCARNATION: ONE LOST MESSAGE, PERMANENT DIVERGENCE.  Failure detection off.  j joins the seed
    s, crashes, restarts under the same NodeID and joins s again: s knew (2,2), the new process is at (3,3).  The view s
    broadcast while accepting the join reaches j; the one GossipMessage carrying (3,3) to s is lost.  The restarted j's
    own version-vector entry starts at 1 again, the value it already had, so both vectors are Equal: in 30 fair
    rounds nothing is published, j never sends, and s keeps j at (2,2) while j is at (3,3). *)
Theorem C18_c2_new_incarnation_not_propagated_refuted :
  exists w1 l1 w2 logs,
    run empty_world (faults_of wh_play 30) = Some (w1, l1) /\
    fair_rounds w1 1250 50 (rounds_of wh_play 30) = Some (w2, logs) /\
    ((length (rounds_of wh_play 30) =? 30)%nat && forallb quiet logs &&
     match w_nodes w2 !! ad1, w_nodes w2 !! ad2 with
     | Some s, Some j =>
         bool_decide (inc_of (nd_self j) = (3%Z, 3)) &&
         bool_decide (proj (nd_view j) !! [106] = Some (3%Z, 3)) &&
         bool_decide (proj (nd_view s) !! [106] = Some (2%Z, 2)) &&
         bool_decide (vw_vv (nd_view s) = vw_vv (nd_view j))
     | _, _ => false
     end) = true.
Proof. exact wh_check. Qed.

(** (d) A LEAVE IS NEVER ANNOUNCED.  For every node: handling the LeaveRequest does not touch the view (the Leaving
    status is set on the actor's own NodeState only), and every GossipMessage it sends carries exactly that view. *)
Theorem C18_d_leave_not_announced n :
  nd_view (fst (fst (leave n))) = nd_view n /\
  forall d v, (d, v) ∈ snd (fst (leave n)) -> v = nd_view n.
Proof. exact (leave_not_announced n). Qed.

(** ... hence, with failure detection off: j (127.0.0.1:1) joins the seed s (127.0.0.1:2), both converge, j leaves
    gracefully (ClusterLeaveCompletedEvent published); 30 quiet fair rounds later s still lists j, computes j's
    address as the leader, and no running node considers itself leader. *)
Theorem C18_d_left_node_stays_refuted :
  exists w1 l1 w2 logs,
    run empty_world (faults_of wd_play 30) = Some (w1, l1) /\
    fair_rounds w1 1250 50 (rounds_of wd_play 30) = Some (w2, logs) /\
    ((length (rounds_of wd_play 30) =? 30)%nat &&
     existsb (fun p => bool_decide (fst p = ad1) && match snd p with ELeaveCompleted => true | _ => false end) l1 &&
     negb (is_running w2 ad1) &&
     match w_nodes w2 !! ad2 with
     | Some s => lists_id s [106] && bool_decide (leader_of (nd_view s) = ad1)
     | None => false
     end &&
     (length (nodes_of w2) =? 1)%nat && (length (leaders_of w2) =? 0)%nat && forallb quiet logs) = true.
Proof. exact wd_check. Qed.

(** (e) RESTART SHADOWING.  Failure detection off, seeds s1 and s2.  j joins through s1 while s2 is cut off (s1 holds
    j at incarnation (2,2), timestamp 1020), crashes, restarts under the same NodeID and joins through s2, which
    never heard of it: the new process derives (2,2) again (timestamp 1100).  30 fair rounds later the world counts
    as converged, yet s1 still holds the PREDECESSOR's entry: equal incarnation numbers are never replaced. *)
Theorem C18_e_restart_shadowed_refuted :
  exists w1 l1 w2 logs,
    run empty_world (faults_of we_play 30) = Some (w1, l1) /\
    fair_rounds w1 1150 50 (rounds_of we_play 30) = Some (w2, logs) /\
    ((length (rounds_of we_play 30) =? 30)%nat && converged_b w2 && forallb quiet (skipn 5 logs) &&
     match w_nodes w2 !! ad1, w_nodes w2 !! ad3 with
     | Some s1, Some j =>
         bool_decide (entry_ts s1 [106] = Some (2%Z, 2, 1020%Z)) &&
         bool_decide ((ns_gen (nd_self j), ns_lc (nd_self j), ns_ts (nd_self j)) = (2%Z, 2, 1100%Z)) &&
         bool_decide (entry_ts j [106] = Some (2%Z, 2, 1100%Z))
     | _, _ => false
     end) = true.
Proof. exact we_check. Qed.

(** (e2) RESTART UNDER A FRESH NodeID (the default configuration draws a new uuid per process).  j joins the seed s
    (timeout 300), crashes, and the process restarts at the same address as "k".  s then lists two members with one
    address, and ClusterView.MemberByAddress returns whichever the Go map iteration yields.  In THIS execution it is
    always the predecessor's entry (the pick is the [choice] input of every SDeliver; on the real code it is made at
    random at every delivery, so this witness is not replayed deterministically - the harness observes the defect in
    generated scenarios): after 40 fair rounds the dead j is still listed by s with a LastSeen of the last round
    (3100), the running k (LastSeen 1110) is removed by s in every one of the last 10 rounds, and k itself lists its
    predecessor (a node never times out a member carrying its own address). *)
Theorem C18_e2_fresh_id_restart_refuted :
  exists w1 l1 w2 logs,
    run empty_world (faults_of wg_play 40) = Some (w1, l1) /\
    fair_rounds w1 1150 50 (rounds_of wg_play 40) = Some (w2, logs) /\
    ((length (rounds_of wg_play 40) =? 40)%nat &&
     forallb (removal_of_running w2) (skipn 30 logs) &&
     match w_nodes w2 !! ad1, w_nodes w2 !! ad2 with
     | Some s, Some k =>
         bool_decide (nd_id k = [107]) && lists_id s [106] && lists_id k [106] &&
         bool_decide (ns_seen <$> (vw_members (nd_view s) !! [106]) = Some 3100%Z) &&
         bool_decide (ns_seen <$> (vw_members (nd_view s) !! [107]) = Some 1110%Z)
     | _, _ => false
     end) = true.
Proof. exact wg_check. Qed.

(** (f) part of the mechanism of (a): a member learned through a merge is stored with the LastSeen of the sender's
    copy.  When the sender of a GossipMessage is not itself a member of the local view (so no LastSeen refresh
    happens) an id the local view lacks is adopted verbatim from the received view, LastSeen included - for the
    sender's own entry that is its process start time. *)
Theorem C18_f_learned_member_keeps_foreign_lastseen n src v now id s :
  refresh_candidates (nd_view n) src = [] ->
  vw_members (nd_view n) !! id = None -> vw_members v !! id = Some s ->
  vw_members (nd_view (fst (fst (handle_gossip n src v now None)))) !! id = Some s.
Proof. exact (learned_member_keeps_foreign_lastseen n src v now id s). Qed.

(** ** 5. The clean histories: convergence proved, for any number of nodes *)

(** [clean_history h]: every step of [h] is executed (from the empty world) and is clean where it is executed:
    process starts with FailureDetectionTimeout <= 0, a NodeID of 1..256 bytes that no running node has; join retries,
    gossip ticks, deliveries (any order, any MemberByAddress pick), losses of packets and of join Asks; no crash, leave,
    force-down; a join Ask that goes through reaches a node that has itself joined (or is refused for lack of quorum).
    [view_in w v]: v is the view of a running node or of a GossipMessage in flight.  [ple p q]: every member of p is a
    member of q at the same or a newer incarnation.

    In every world a clean history reaches, the ORDER OF THE VERSION VECTORS IS THE ORDER OF THE MEMBERSHIPS: a view
    whose vector is dominated lists nothing the dominating view does not list at the same or a newer incarnation.
    (This is exactly what fails in (c2): there two views have Equal vectors and different incarnations.) *)
Theorem C18_clean_vector_order_is_membership_order h w l :
  clean_history h = true -> run empty_world h = Some (w, l) ->
  N.of_nat (size (w_nodes w)) <= max_entries -> 3 * N.of_nat (length h) + 3 < max_counter ->
  forall u v, view_in w u -> view_in w v -> vle (vw_vv u) (vw_vv v) -> ple (proj u) (proj v).
Proof. exact (clean_vector_order h w l). Qed.

(** ... hence the gossip suppression is sound there: whenever shouldSendGossipTo says "do not send to t" and t is
    running, t's vector dominates the sender's and t already lists everything the sender lists *)
Theorem C18_clean_suppression_sound h w l a n t m :
  clean_history h = true -> run empty_world h = Some (w, l) ->
  N.of_nat (size (w_nodes w)) <= max_entries -> 3 * N.of_nat (length h) + 3 < max_counter ->
  w_nodes w !! a = Some n -> w_nodes w !! t = Some m ->
  should_send n (vw_vv (nd_view n)) t = false ->
  vle (vw_vv (nd_view n)) (vw_vv (nd_view m)) /\ ple (proj (nd_view n)) (proj (nd_view m)).
Proof. exact (clean_suppression_sound h w l a n t m). Qed.

(** GossipTargetSelector.SelectTargets (no datacenter labels, at most MaxDiscoveryTargetsPerTick candidates): the targets
    of a gossip round / of an immediate broadcast are exactly the non-empty addresses other than the own one that are a
    CONFIGURED SEED - whether or not that seed is a member of the view - or the address of a member of the view.  The
    seeds outside the view are the only rendezvous of groups that do not know each other: this is what [seed_connected]
    relies on. *)
Theorem C18_gossip_targets_exactly n t :
  t ∈ select_targets n <->
  t <> [] /\ t <> nd_addr n /\
  (t ∈ c_seeds (nd_cfg n) \/ exists k s, vw_members (nd_view n) !! k = Some s /\ ns_addr s = t).
Proof. exact (select_targets_spec n t). Qed.

(** CONVERGENCE.  [all_joined w0]: every running node has bootstrapped or completed its join.  [seed_connected w1]:
    the undirected graph "b is a running seed of the running node a" connects all running nodes (self-seeded islands are
    fine as long as some node lists seeds of both - it keeps gossiping to a configured seed that is no member of its
    view, which is how the islands meet).  After any clean history that ends with everybody joined, ONE fair round
    (every gossip timer fires, everything in flight is delivered, in any order) reaches a world in which
      - every running node lists exactly the running nodes and all compute the same leader ([converged]),
      - exactly one running node has IAmLeader,
      - and in all fair rounds that follow, of any number and length: the world stays converged, NO
        ClusterMembersChanged / ClusterViewChanged / ClusterLeaderChanged event is published, and no node's membership
        or version vector changes.
    Sizes: at most 65535 nodes (the entry cap of the version vector) and fewer than 2^61 steps (no counter overflow). *)
Theorem C18_clean_history_converges h w0 l0 t r w1 l1 :
  clean_history h = true -> run empty_world h = Some (w0, l0) ->
  N.of_nat (size (w_nodes w0)) <= max_entries -> 3 * N.of_nat (length h) + 3 < max_counter ->
  all_joined w0 -> fair_round w0 t r = Some (w1, l1) -> seed_connected w1 ->
  converged w1 /\
  (nodes_of w1 <> [] ->
   exists n, n ∈ nodes_of w1 /\ iam_leader n = true /\ forall m, m ∈ nodes_of w1 -> iam_leader m = true -> m = n) /\
  forall t' d rounds w2 logs, fair_rounds w1 t' d rounds = Some (w2, logs) ->
    converged w2 /\ Forall (fun lg => quiet lg = true) logs /\ same_memberships w1 w2.
Proof. exact (clean_convergence h w0 l0 t r w1 l1). Qed.

(** the same in the shape of [C18_unconditional]: on clean histories that end with everybody joined and connected seed
    lists the unconditional property holds with L = 2 rounds of any length d *)
Theorem C18_unconditional_on_clean_histories d faults t rounds w1 l1 w2 logs :
  clean_history faults = true -> run empty_world faults = Some (w1, l1) ->
  N.of_nat (size (w_nodes w1)) <= max_entries -> 3 * N.of_nat (length faults) + 3 < max_counter ->
  all_joined w1 -> seed_connected w1 ->
  fair_rounds w1 t d rounds = Some (w2, logs) -> (2 <= length rounds)%nat ->
  converged w2 /\ (forall lg, last logs = Some lg -> quiet lg = true).
Proof. exact (clean_unconditional d faults t rounds w1 l1 w2 logs). Qed.

(** (g) A CRASH THAT NOTHING DETECTS.  Failure detection off (FailureDetectionTimeout <= 0, "rely on an explicit
    leave"): s and j converge, j crashes; 30 quiet fair rounds later s still lists j.  The clause "a node that crashed
    is eventually absent from every view" needs a failure detector - and with one, (a) and (b) apply. *)
Theorem C18_g_crash_undetected_without_failure_detection_refuted :
  exists w1 l1 w2 logs,
    run empty_world (faults_of wj_play 30) = Some (w1, l1) /\
    fair_rounds w1 1250 50 (rounds_of wj_play 30) = Some (w2, logs) /\
    ((length (rounds_of wj_play 30) =? 30)%nat && negb (is_running w2 ad2) && (length (nodes_of w2) =? 1)%nat &&
     match w_nodes w2 !! ad1 with Some s => lists_id s [106] | None => false end &&
     negb (converged_b w2) && forallb quiet logs) = true.
Proof. exact wj_check. Qed.

(** (h) SEED LISTS THAT DO NOT CONNECT (a configuration, not a defect).  Two self-seeded nodes, a clean history,
    everybody has joined: no running node lists another one among its seeds, and after 30 quiet fair rounds each
    still lists only itself.  The hypothesis [seed_connected] of the convergence theorem cannot be dropped. *)
Theorem C18_h_unconnected_seed_lists_stay_apart :
  exists w1 l1 w2 logs,
    run empty_world (faults_of wk_play 30) = Some (w1, l1) /\
    fair_rounds w1 1050 50 (rounds_of wk_play 30) = Some (w2, logs) /\
    clean_history (faults_of wk_play 30) = true /\ all_joined w1 /\ ~ seed_connected w2 /\
    ~ converged w2 /\ Forall (fun lg => quiet lg = true) logs /\
    map (fun n => map ns_id (states (nd_view n))) (nodes_of w2) = [[[65]]; [[66]]].
Proof. exact wk_example. Qed.

(** ** 6. Thresholds of the failure detector and the default quorum rule, as they are *)

(** FailureDetector.RunDetection (one datacenter): exactly the members whose address is not the own one and whose
    LastSeen is older than FailureDetectionTimeout + max(SuspectConfirmDuration, 0) are removed ... *)
Theorem C18_failure_detector_removes_exactly n now id :
  id ∈ snd (fd_detect n now) <->
  exists s, vw_members (nd_view n) !! id = Some s /\ ns_addr s <> nd_addr n /\ (0 < c_fd (nd_cfg n))%Z /\
            (ns_seen s < now - (c_fd (nd_cfg n) + Z.max (c_confirm (nd_cfg n)) 0))%Z.
Proof. exact (fd_removes_iff n now id). Qed.

(** ... and exactly the Up members last seen in the window [now - timeout - confirm, now - timeout) are marked Suspect,
    when SuspectConfirmDuration > 0.  In particular a member seen within the timeout is never touched. *)
Theorem C18_failure_detector_suspects_exactly n now id :
  id ∈ fst (fd_detect n now) <->
  exists s, vw_members (nd_view n) !! id = Some s /\ ns_addr s <> nd_addr n /\ (0 < c_fd (nd_cfg n))%Z /\
            ns_status s = st_up /\ (0 < c_confirm (nd_cfg n))%Z /\
            (now - (c_fd (nd_cfg n) + c_confirm (nd_cfg n)) <= ns_seen s < now - c_fd (nd_cfg n))%Z.
Proof. exact (fd_suspects_iff n now id). Qed.

(** QuorumCalculator.SatisfiesQuorum, default strategy, on the counts recomputeCounts caches: QuorumSize is derived from
    HealthyCount itself (HealthyCount/2+1), so the test HealthyCount >= QuorumSize holds exactly when at least ONE member
    is Up - whatever the size of the membership.  (An observation about quorum.go, not a clause of C18: the rule cannot
    tell a minority partition from a majority one; a node that has removed or suspected everybody but itself is still
    "in quorum", accepts joins and publishes IAmLeader with InQuorum = true.) *)
Theorem C18_default_quorum_is_at_least_one_up v : sat_quorum (recompute v) = (0 <? vw_healthy (recompute v)).
Proof. exact (default_quorum_trivial v). Qed.

(** ** Non-vacuity *)

(** the hypotheses of C18_exactly_one_leader: the three nodes of [ex_world] (seeds s, a and member x after three
    fair rounds, failure detection off) *)
Example C18_exactly_one_leader_example :
  nodes_of ex_world <> [] /\ NoDup (map nd_addr (nodes_of ex_world)) /\ length (nodes_of ex_world) = 3%nat /\
  (forall n, n ∈ nodes_of ex_world -> forall a, a ∈ up_addrs (nd_view n) <-> a ∈ map nd_addr (nodes_of ex_world)) /\
  converged ex_world.
Proof.
  assert (H : (fun w => (length (nodes_of w) =? 3)%nat && bool_decide (NoDup (map nd_addr (nodes_of w))) &&
                        forallb (fun n => subset_b (up_addrs (nd_view n)) (map nd_addr (nodes_of w)) &&
                                          subset_b (map nd_addr (nodes_of w)) (up_addrs (nd_view n))) (nodes_of w) &&
                        converged_b w) ex_world = true) by (vm_compute; reflexivity).
  cbv beta in H. apply andb_prop in H as [[[H3 Hnd]%andb_prop Hup]%andb_prop Hc]. apply Nat.eqb_eq in H3.
  split; [intros E; rewrite E in H3; discriminate H3|].
  split; [exact (proj1 (bool_decide_eq_true _) Hnd)|]. split; [exact H3|]. split; [|apply converged_b_spec, Hc].
  intros n Hn. apply elem_of_list_In in Hn. exact (same_set_b_sound _ _ (proj1 (forallb_forall _ _) Hup n Hn)).
Qed.

(** the hypotheses of C18_exchange_round: three islands ([ex_islands]: s and a bootstrapped on their own, x joined s,
    every packet so far lost: the views list {s,x}, {a}, {s,x}); one canonical fair round [ex_round] makes every
    view reach every node, and all three then list s, a and x *)
Example C18_exchange_round_example :
  (forall a n, w_nodes ex_islands !! a = Some n -> nd_addr n = a) /\
  (forall a n, w_nodes ex_islands !! a = Some n -> WF (nd_view n)) /\
  w_net ex_islands = [] /\
  forallb (fun p => round_step (snd p)) ex_round = true /\
  map (fun n => map ns_id (states (nd_view n))) (nodes_of ex_islands) = [[[115]; [120]]; [[97]]; [[115]; [120]]] /\
  exists aw1 l, arun (annotate ex_islands) ex_round = Some (aw1, l) /\ all_reached ex_islands aw1 /\
    map (fun n => map ns_id (states (nd_view n))) (nodes_of (erase aw1)) = [[[97]; [115]; [120]]; [[97]; [115]; [120]]; [[97]; [115]; [120]]].
Proof.
  assert (Hc : (fun w r =>
      world_ok_b w && forallb (fun p => round_step (snd p)) r &&
      bool_decide (map (fun n => map ns_id (states (nd_view n))) (nodes_of w) = [[[115]; [120]]; [[97]]; [[115]; [120]]]) &&
      match arun (annotate w) r with
      | Some (aw, _) => all_reached_b w aw &&
          bool_decide (map (fun n => map ns_id (states (nd_view n))) (nodes_of (erase aw)) = [[[97]; [115]; [120]]; [[97]; [115]; [120]]; [[97]; [115]; [120]]])
      | None => false end) ex_islands ex_round = true) by (vm_compute; reflexivity).
  cbv beta in Hc. apply andb_prop in Hc as [[[Hw Hr]%andb_prop Hi]%andb_prop Hc].
  destruct (world_ok_b_sound ex_islands Hw) as (H1 & H2 & H3).
  split; [exact H1|]. split; [exact H2|]. split; [exact H3|]. split; [exact Hr|]. split; [exact (proj1 (bool_decide_eq_true _) Hi)|].
  destruct (arun (annotate ex_islands) ex_round) as [[aw1 l]|]; [|discriminate Hc].
  exists aw1, l. split; [reflexivity|]. apply andb_prop in Hc as [Ha Hb].
  split; [apply all_reached_b_sound; exact Ha|exact (proj1 (bool_decide_eq_true _) Hb)].
Qed.

(** the hypotheses of C18_fixpoint and of the stability theorem: two seeds that bootstrapped alone and found each
    other by gossip ([ex_two]) are converged and quiescent *)
Example C18_fixpoint_example : quiescent ex_two /\ converged ex_two /\ length (nodes_of ex_two) = 2%nat.
Proof.
  assert (H : (fun w => quiescent_b w && converged_b w && (length (nodes_of w) =? 2)%nat) ex_two = true) by (vm_compute; reflexivity).
  cbv beta in H. apply andb_prop in H as [[Hq Hc]%andb_prop H2].
  split; [apply quiescent_b_sound, Hq|]. split; [apply converged_b_spec, Hc|apply Nat.eqb_eq, H2].
Qed.

(** ... and the gossip tick of a node of that world is enabled, publishes nothing and leaves a quiescent world *)
Example C18_fixpoint_stable_example :
  fault_free (SGossipTick ad1) = true /\
  exists w' l, step_world ex_two 2000 (SGossipTick ad1) = Some (w', l) /\ l = [] /\ quiescent w'.
Proof.
  split; [reflexivity|].
  assert (Hc : match step_world ex_two 2000 (SGossipTick ad1) with
               | Some (w', l) => match l with [] => true | _ :: _ => false end && quiescent_b w'
               | None => false end = true) by (vm_compute; reflexivity).
  destruct (step_world ex_two 2000 (SGossipTick ad1)) as [[w' l]|]; [|discriminate Hc].
  exists w', l. split; [reflexivity|]. apply andb_true_iff in Hc as [H1 H2].
  split; [destruct l; [reflexivity|discriminate]|apply quiescent_b_sound; exact H2].
Qed.

(** the hypotheses of C18_gossip_is_join: the island of a ({a}) receives the view of s ({s,x}) *)
Example C18_gossip_is_join_example :
  exists n v, w_nodes ex_islands !! ad2 = Some n /\ (nd_view <$> w_nodes ex_islands !! ad1) = Some v /\
    WF (nd_view n) /\ WF v /\
    map ns_id (states (nd_view n)) = [[97]] /\ map ns_id (states v) = [[115]; [120]] /\
    map ns_id (states (nd_view (fst (fst (handle_gossip n ad1 v 1050 None))))) = [[97]; [115]; [120]].
Proof.
  assert (Hc : (fun w => match w_nodes w !! ad2, w_nodes w !! ad1 with
               | Some n, Some m => WF_b (nd_view n) && WF_b (nd_view m) &&
                   bool_decide (map ns_id (states (nd_view n)) = [[97]]) && bool_decide (map ns_id (states (nd_view m)) = [[115]; [120]]) &&
                   bool_decide (map ns_id (states (nd_view (fst (fst (handle_gossip n ad1 (nd_view m) 1050 None))))) = [[97]; [115]; [120]])
               | _, _ => false end) ex_islands = true) by (vm_compute; reflexivity).
  cbv beta in Hc.
  destruct (w_nodes ex_islands !! ad2) as [n|]; [|discriminate Hc]. destruct (w_nodes ex_islands !! ad1) as [m|]; [|discriminate Hc].
  exists n, (nd_view m). split; [reflexivity|]. split; [reflexivity|].
  apply andb_prop in Hc as [[[[H1 H2]%andb_prop H3]%andb_prop H4]%andb_prop H5].
  split; [apply WF_b_sound; exact H1|]. split; [apply WF_b_sound; exact H2|].
  split; [exact (proj1 (bool_decide_eq_true _) H3)|]. split; [exact (proj1 (bool_decide_eq_true _) H4)|exact (proj1 (bool_decide_eq_true _) H5)].
Qed.

(** the hypotheses of C18_clean_history_converges (and of the two theorems before it): the self-seeded islands
    A = [A], B = [B] with C = [A; B] joined through A and D = [B]; every GossipMessage of the start-up phase was lost, so
    when the faults stop the views are {A,C}, {B,D}, {A,C}, {B,D} and nothing is in flight.  The history is clean,
    everybody has joined, one canonical fair round follows, the seed lists connect the four nodes (A - C - B - D) -
    and after that round all four list A, B, C, D. *)
Example C18_clean_history_converges_example :
  exists w0 l0 r w1 l1,
    clean_history (faults_of wi_play 1) = true /\ run empty_world (faults_of wi_play 1) = Some (w0, l0) /\
    N.of_nat (size (w_nodes w0)) <= max_entries /\ 3 * N.of_nat (length (faults_of wi_play 1)) + 3 < max_counter /\
    all_joined w0 /\ fair_round w0 1050 r = Some (w1, l1) /\ seed_connected w1 /\
    map (fun n => map ns_id (states (nd_view n))) (nodes_of w0) = [[[65]; [67]]; [[66]; [68]]; [[65]; [67]]; [[66]; [68]]] /\
    map (fun n => map ns_id (states (nd_view n))) (nodes_of w1) =
      [[[65]; [66]; [67]; [68]]; [[65]; [66]; [67]; [68]]; [[65]; [66]; [67]; [68]]; [[65]; [66]; [67]; [68]]].
Proof. exact wi_example. Qed.

Print Assumptions C18_same_view_same_leader.
Print Assumptions C18_exactly_one_leader.
Print Assumptions C18_leader_is_least.
Print Assumptions C18_gossip_is_join.
Print Assumptions C18_exchange_round.
Print Assumptions C18_reachable_well_formed.
Print Assumptions C18_exchange_round_after_any_history.
Print Assumptions C18_gossip_sent_iff.
Print Assumptions C18_fixpoint.
Print Assumptions C18_fixpoint_stable_without_failure_detection_partial.
Print Assumptions C18_converged_decided.
Print Assumptions C18_unconditional_refuted.
Print Assumptions C18_a_healthy_members_churn_refuted.
Print Assumptions C18_b_removed_member_resurrected_refuted.
Print Assumptions C18_c_two_leaders_refuted.
Print Assumptions C18_c2_new_incarnation_not_propagated_refuted.
Print Assumptions C18_d_leave_not_announced.
Print Assumptions C18_d_left_node_stays_refuted.
Print Assumptions C18_e_restart_shadowed_refuted.
Print Assumptions C18_e2_fresh_id_restart_refuted.
Print Assumptions C18_f_learned_member_keeps_foreign_lastseen.
Print Assumptions C18_clean_vector_order_is_membership_order.
Print Assumptions C18_clean_suppression_sound.
Print Assumptions C18_clean_history_converges.
Print Assumptions C18_unconditional_on_clean_histories.
Print Assumptions C18_g_crash_undetected_without_failure_detection_refuted.
Print Assumptions C18_h_unconnected_seed_lists_stay_apart.
Print Assumptions C18_failure_detector_removes_exactly.
Print Assumptions C18_failure_detector_suspects_exactly.
Print Assumptions C18_default_quorum_is_at_least_one_up.
Print Assumptions C18_gossip_targets_exactly.
