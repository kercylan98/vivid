(** C02 (mailbox part) - messages of one kind are handled in the order they were pushed (hence per-sender
    FIFO); system messages have priority over user messages, exactly as far as the code gives it.

    Model: Mailbox/MbModel.v (the micro-step machine of internal/mailbox/unbounded_mailbox.go validated by
    the lock-step replay of C01); traces: [run_trace] (Mailbox/MbSpec.v) = the effective steps (thread, pc)
    of a schedule, [run_trace2] (Mailbox/MbSpec2.v) = the same with the state before each step.
    All theorems hold for every population of client threads and every schedule.
    Statements only; proofs in Mailbox/MbOrder.v. *)
From Coq Require Import List ZArith.
From Vivid Require Import Mailbox.MbModel Mailbox.MbSpec Mailbox.MbSpec2 Mailbox.MbOrder.
From Vivid Require Import Mailbox.MbFine Mailbox.MbFineThm.
Import ListNotations.

(** ============================ (6) FIFO ============================ *)

(** at every moment: (handled user messages, in handling order) ++ (the one in the consumer's hands) ++
    (user queue) is exactly the sequence of user pushes so far, in push order - whatever the queue length.
    So user messages are handled in push order.  Per-sender FIFO follows: the Enqueue calls of one sender are
    sequential, so its first push precedes its second push in every trace. *)
Theorem C02_fifo_user ths sched :
  forallb env_pc ths = true ->
  let s := run sched (init ths) in
  log_of false s ++ held_kind false s ++ uq s = push_order false (run_trace sched (init ths)).
Proof. exact (fifo false ths sched). Qed.

(** the same for system messages *)
Theorem C02_fifo_system ths sched :
  forallb env_pc ths = true ->
  let s := run sched (init ths) in
  log_of true s ++ held_kind true s ++ sq s = push_order true (run_trace sched (init ths)).
Proof. exact (fifo true ths sched). Qed.

(** the handled messages of a kind are always a prefix of the push order of that kind *)
Theorem C02_fifo_prefix b ths sched :
  forallb env_pc ths = true ->
  exists rest, push_order b (run_trace sched (init ths)) = log_of b (run sched (init ths)) ++ rest.
Proof. exact (fifo_prefix b ths sched). Qed.

(** ============================ (7) system before user ============================ *)

(** [run_trace2] is [run_trace] with the pre-state attached *)
Theorem C02_trace_projection sched s :
  map fst (run_trace2 sched s) = run_trace sched s.
Proof. exact (run_trace2_fst sched s). Qed.

(** A user message is popped only when the system queue was observed empty in the same iteration.
    Whenever thread i performs the user Pop (pc HUserPop), the two steps thread i performed immediately
    before it ([steps_of i pre] = the steps of thread i in the trace so far, oldest first) were
      - HSysPop in a state [s1] whose system queue was empty (the Pop that returned "nothing" and ended the
        inner loop - had the queue been non-empty the thread's next pc would be HSysDec), then
      - HLoadPaused in a state [s2] with paused = 0.
    Thread i is inside the processing region during all of this, so by C01_one_owner nobody else pops or
    handles anything in between; other threads may push. *)
Theorem C02_system_first ths sched pre i s post :
  forallb env_pc ths = true ->
  run_trace2 sched (init ths) = pre ++ (i, HUserPop, s) :: post ->
  exists pre0 s1 s2,
    steps_of i pre = pre0 ++ [(HSysPop, s1); (HLoadPaused, s2)] /\ sq s1 = [] /\ paused s2 = false.
Proof. exact (system_first ths sched pre i s post). Qed.

(** in any stretch B of an execution during which the system queue is never empty, at most one user
    message is taken out of the user queue ([user_pops] counts the HUserPop steps that found a message) *)
Theorem C02_system_pending_one_user_pop ths sched A B C :
  forallb env_pc ths = true ->
  run_trace2 sched (init ths) = A ++ B ++ C ->
  (forall e, In e B -> sq (snd e) <> []) ->
  (user_pops B <= 1)%nat.
Proof. exact (window_one_pop ths sched A B C). Qed.

(** a system message (e.g. the OnKill of an immediate Kill) overtakes all queued user messages but at most
    ONE: after its push (step SPush true m), as long as it has not been popped (it is in the system queue
    before every step of B), at most one user message is popped - the one whose "system queue empty"
    observation had already been made when the push happened *)
Theorem C02_kill_overtakes_at_most_one ths sched A j m s0 B C :
  forallb env_pc ths = true ->
  run_trace2 sched (init ths) = A ++ (j, SPush true m, s0) :: B ++ C ->
  (forall e, In e B -> In m (sq (snd e))) ->
  (user_pops B <= 1)%nat.
Proof. exact (kill_overtakes ths sched A j m s0 B C). Qed.

(** the hypothesis above holds from the push on: right after the push the message is in the system queue *)
Theorem C02_pushed_is_queued ths sched A j m s0 e1 C :
  run_trace2 sched (init ths) = A ++ (j, SPush true m, s0) :: e1 :: C -> In m (sq (snd e1)).
Proof. exact (pushed_is_queued ths sched A j m s0 e1 C). Qed.

(** ============================ (8) with the ring queue inside the model ============================ *)

(** Mailbox/MbFine.v: the same mailbox with internal/queues/ring.go modelled step by step (Lock, atomic add / load of
    len, index arithmetic, growth with the rotated copy) instead of atomic queue operations; by C01_fine_refines_coarse
    (Properties/C01_fine.v) everything above holds of it.  Stated on the fine machine itself: for every initial size
    >= 1, every population of senders and every schedule - preemptions inside Push and Pop, any number of growths -
    the messages of a kind are handled in the order of the atomic adds of their Pushes (the order in which the
    critical sections of Push ran).  One sender's Enqueue calls are sequential, hence per-sender FIFO. *)
Theorem C02_fine_fifo_prefix b size ths sched :
  (1 <= size)%nat -> forallb fenv_pc ths = true ->
  exists rest, fpush_order b (frun_trace sched (finit size ths)) = flog_of b (frun sched (finit size ths)) ++ rest.
Proof. exact (ffifo_prefix b size ths sched). Qed.

(** Why this needed a proof and not the sentence "every access is under the mutex" (the former assumption M4):
    WITHOUT the single-consumer discipline that the mailbox's status word provides (C01_fine_one_owner) the RingQueue
    is not linearizable.  New(2); Push(7); then two overlapping Pops: both emptiness checks (outside the mutex) see
    len = 1; the first critical section takes 7; the second advances head past tail, hands out the nil slot with
    ok = true - which [msg.(vivid.Envelop)] would turn into a crash - and leaves len = -1. *)
Theorem C02_ring_two_consumers_refuted :
  exists q1 q2 qa qb va vb,
    q_push_pre (q_new 2) = Some q1 /\ q2 = q_push_fin 7%N q1 /\
    qlen q2 = 1%Z /\
    q_pop_pre q2 = Some (va, qa) /\ va = Some 7%N /\
    q_pop_pre (q_pop_fin qa) = Some (vb, qb) /\ vb = None /\
    qlen (q_pop_fin qb) = (-1)%Z.
Proof. exact two_consumers_refuted. Qed.

(** ============================ non-vacuity / tightness ============================ *)

(** two user messages and one system message from three senders: handled system first, users in push order *)
Example C02_ex_order :
  let ths := [SPush false 1%N; SPush false 2%N; SPush true 9%N] in
  let sched := [1;1; 0;0; 2;2; 0;0; 3;3;3;3;3;3;3;3;3;3;3;3;3;3;3;3;3;3]%nat in
  push_order false (run_trace sched (init ths)) = [2%N; 1%N] /\
  log (run sched (init ths)) = [(true, 9%N); (false, 2%N); (false, 1%N)].
Proof. vm_compute. split; reflexivity. Qed.

(** "at most one" is exact, not zero: the consumer has observed the system queue empty and loaded paused = 0
    (it is at HUserPop); the system message 9 is pushed; the consumer still pops user message 1 first *)
Example C02_ex_one_overtake :
  let ths := [SPush false 1%N; SPush true 9%N] in
  let sched := [0;0;0;0; 2;2;2; 1;1; 2;2;2]%nat in
  exists A j s0 B,
    run_trace2 sched (init ths) = A ++ (j, SPush true 9%N, s0) :: B ++ [] /\
    (forall e, In e B -> In 9%N (sq (snd e))) /\ user_pops B = 1%nat /\
    log (run sched (init ths)) = [(false, 1%N)].
Proof.
  cbv zeta.
  set (tr := run_trace2 [0;0;0;0; 2;2;2; 1;1; 2;2;2]%nat (init [SPush false 1%N; SPush true 9%N])).
  exists (firstn 8 tr), 1%nat, (snd (nth 8 tr (0%nat, Done, init []))), (skipn 9 tr).
  vm_compute. repeat split.
  intros e [<-|[<-|[<-|[]]]]; cbn; auto.
Qed.

(** three senders, initial size 1 (the user ring grows 1 -> 2 -> 4 while the consumer is inside its first Pop):
    handled in the order of the adds, which is not the order of the Lock attempts *)
Example C02_fine_ex_growth_order :
  let ths := [FPushLock false 1%N; FPushLock false 2%N; FPushLock false 3%N] in
  let sched := [0;0;0;0;0; 3;3;3;3; 2;2;2; 3;3; 1;1;1; 3;3;3;3;3;3;3;3;3;3;3;3;3;3;3;3;3;3;3;3;3;3;3;3;3;3]%nat in
  fpush_order false (frun_trace sched (finit 1 ths)) = [1%N; 3%N; 2%N] /\
  flog (frun sched (finit 1 ths)) = [(false, 1%N); (false, 3%N); (false, 2%N)] /\
  qmod (fuq (frun sched (finit 1 ths))) = 4%nat.
Proof. vm_compute. repeat split. Qed.

Print Assumptions C02_fine_fifo_prefix.
Print Assumptions C02_ring_two_consumers_refuted.
Print Assumptions C02_fifo_user.
Print Assumptions C02_fifo_system.
Print Assumptions C02_fifo_prefix.
Print Assumptions C02_trace_projection.
Print Assumptions C02_system_first.
Print Assumptions C02_system_pending_one_user_pop.
Print Assumptions C02_kill_overtakes_at_most_one.
Print Assumptions C02_pushed_is_queued.
