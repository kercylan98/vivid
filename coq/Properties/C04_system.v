(** C04 at system level - every Ask completes exactly once, with its own reply, timeout, or death - for ANY number of
    concurrent Asks sharing the future tables of one actor system.

    Model: Future/SysModel.v - a micro-step machine of MANY Asks as the code is in /repo now: Context.ask (NewFuture - which
    arms the timer -, appendFuture, the Closed() re-check + conditional removeFuture, the send), future.Future (close =
    CAS(closed); assign err/message; close(done) + timer.Stop; closer() = removeFuture; f.mu section), and the tables of
    System at THEIR OWN granularity: appendFuture = [actorContexts.Store] then [futureLock section: insert into
    futureAgents[asker]]; removeFuture = [actorContexts.Delete] then [futureLock section: delete the entry, drop the asker's
    inner map when empty]; removeFuturesByAgentPath = [futureLock section: copy the asker's keys] then per key, in map
    iteration order, [actorContexts.Load] -> Close(ErrorActorDeaded); a reply = [actorContexts.Load] -> close(v) or dead letter.
    Futures are created dynamically (the n-th NewFuture creates future n, registered under a fresh agent path: M7); several
    futures may share an asker path (several Asks of one actor, System.Ask from many goroutines, successive incarnations of
    a re-used name).  Threads run scripts (lists of operations on one goroutine): [OAsk a t], [OReply k v], [OClose k e],
    [OWait k full], [OSync k], [ODeath a ord] (a clean-up removeFuturesByAgentPath(a) with map iteration order ord) - an
    actor goroutine is [incarnation a pre ord1 mid ord2] = Asks; doKill's clean-up; the Asks of the OnKill / OnKilled
    handlers; the clean-up after the last handler (/repo 3f0f6ad).
    [sreach progs s] = s is the state after SOME schedule (list of [SRun i] / [STick]) of the scripts [progs]: every theorem
    holds for all numbers of Asks, askers, repliers, Close / Result / Wait callers and kill clean-ups, all interleavings,
    all timeouts, all map iteration orders.  The model is tied to the real code by lock-step replay with system.go
    instrumented (bin/check C04, component futsys).  PipeTo / forwarders: Properties/C04.v (per future; they never touch the
    tables).  Statements only; proofs in Future/SysInv.v, Future/SysProofs.v. *)
From Coq Require Import List NArith Bool.
From Vivid Require Import Future.FutModel Future.SysModel Future.SysBase Future.SysInvDef Future.SysInv Future.SysProofs
  Future.SysCover Future.SysRun Future.SysRunProofs.
Import ListNotations.
Local Open Scope N_scope.

(** ============================ (1) exactly once, per future ============================ *)

(** at most one thread ever passes the CAS of a future; [closed] is set exactly when somebody did *)
Theorem C04_sys_one_shot_cas progs s k f :
  sreach progs s -> getf s k = Some f ->
  (length (f_winners f) <= 1)%nat /\ (f_closed f = true <-> f_winners f <> []).
Proof. exact (fun H => sys_one_winner progs s k f (sreach_inv progs s H)). Qed.

(** only that thread is ever inside the rest of close of that future (assign, close(done), closer's two table steps, f.mu) *)
Theorem C04_sys_one_shot_past_cas progs s i p sc k :
  sreach progs s -> nth_error (y_thr s) i = Some (p, sc) -> stage_of k p <> StFin ->
  exists f, getf s k = Some f /\ f_winners f = [i].
Proof. exact (fun H => sys_past_cas progs s i p sc k (sreach_inv progs s H)). Qed.

(** err/message of a future are written at most once, by the thread that won its CAS, while done is still open *)
Theorem C04_sys_one_shot_writes progs s k f :
  sreach progs s -> getf s k = Some f ->
  (length (f_wlog f) <= 1)%nat /\ forall i d, In (i, d) (f_wlog f) -> f_winners f = [i] /\ d = false.
Proof. exact (fun H => sys_writes_once progs s k f (sreach_inv progs s H)). Qed.

(** once done is closed the result is the value of the winning close ... *)
Theorem C04_sys_one_shot_result progs s k f :
  sreach progs s -> getf s k = Some f -> f_done f = true ->
  exists v, f_final f = Some v /\ fres f = vpair v /\ f_closed f = true.
Proof. exact (fun H => sys_done_final progs s k f (sreach_inv progs s H)). Qed.

(** ... and never changes again, whatever anybody does afterwards *)
Theorem C04_sys_one_shot_stable progs s k f sched :
  sreach progs s -> getf s k = Some f -> f_done f = true ->
  exists f', getf (srun sched s) k = Some f' /\ f_done f' = true /\ fres f' = fres f.
Proof. exact (fun H => srun_stable progs sched s k f (sreach_inv progs s H)). Qed.

(** every value Result / Wait ever returned is the final result of THAT future *)
Theorem C04_sys_readers progs s j k full r :
  sreach progs s -> In (j, k, full, r) (y_rets s) ->
  exists f, getf s k = Some f /\ f_done f = true /\ r = (if full then f_msg f else None, f_err f).
Proof. exact (fun H => i_rets progs s (sreach_inv progs s H) j k full r). Qed.

(** ============================ (2) completion ============================ *)

(** when nothing can move any more (however far the clock advances): a future is completed whenever a reply / Close /
    timeout / death reached it (somebody executed its CAS), it has a timer, or a kill clean-up copied its key *)
Theorem C04_sys_completes progs s k f :
  sreach progs s -> sterminal s -> getf s k = Some f ->
  (f_attempts f <> [] \/ f_armed f <> None \/ copied s k) -> f_done f = true.
Proof. exact (fun H => sys_completes progs s k f (sreach_inv progs s H)). Qed.

(** ... and nobody is blocked except holders waiting for an Ask that was never issued and Result/Wait callers of a
    future that nothing has completed: no deadlock on futureLock, no clean-up stuck in its loop *)
Theorem C04_sys_only_waiters_block progs s i p sc :
  sreach progs s -> sterminal s -> nth_error (y_thr s) i = Some (p, sc) ->
  (p = SIdle /\ sc = []) \/
  (exists k q, p = SAwait k q /\ getf s k = None) \/
  (exists k full f, p = SWRecv k full /\ getf s k = Some f /\ f_done f = false /\ f_closed f = false /\
                    f_attempts f = [] /\ f_armed f = None /\ ~ copied s k).
Proof. exact (fun H => sys_no_deadlock progs s i p sc (sreach_inv progs s H)). Qed.

(** the timer callback of a future never runs before that future's deadline *)
Theorem C04_sys_timeout_not_early progs s k f t :
  sreach progs s -> getf s k = Some f -> f_fired f = Some t -> exists t0, f_armed f = Some t0 /\ t0 + f_tmo f <= t.
Proof. exact (fun H Hg => f_fire progs s k f (i_fut progs s (sreach_inv progs s H) k f Hg) t). Qed.

(** ============================ (3) own reply, own timeout, own death ============================ *)

(** the completing value of future k is a reply addressed to ITS agent path, a holder's Close(err) of IT, the timeout error
    of ITS timer, or the actor-dead error of a kill clean-up of ITS asker's path that had copied ITS key - nothing else *)
Theorem C04_sys_completes_origin progs s k f v :
  sreach progs s -> getf s k = Some f -> f_final f = Some v -> sorigin progs s k f v.
Proof. exact (fun H Hg => f_orig progs s k f (i_fut progs s (sreach_inv progs s H) k f Hg) v). Qed.

(** the message a future holds is a reply to ITS request, never the reply to another one *)
Theorem C04_sys_own_reply progs s k f m :
  sreach progs s -> getf s k = Some f -> f_msg f = Some m -> In (OReply k (VMsg m)) (all_ops progs).
Proof. exact (fun H => sys_reply_value progs s k f m (sreach_inv progs s H)). Qed.

(** the error a future holds: an error-valued reply to it, a holder's Close, its own timer having fired (not early), or a
    kill clean-up of its own asker's path that had copied its key *)
Theorem C04_sys_error_origin progs s k f e :
  sreach progs s -> getf s k = Some f -> f_err f = Some e ->
  In (OReply k (VErr e)) (all_ops progs) \/ In (OClose k e) (all_ops progs) \/
  (e = E_TIMEOUT /\ exists t t0, f_fired f = Some t /\ f_armed f = Some t0 /\ t0 + f_tmo f <= t) \/
  (e = E_DEAD /\ exists d l, In (d, f_asker f, l) (y_dcopies s) /\ In k l).
Proof. exact (fun H => sys_error_origin progs s k f e (sreach_inv progs s H)). Qed.

(** ============================ (4) registrations ============================ *)

(** the registry is a map asker path -> non-empty set of futures OF THAT ASKER (no empty inner map is kept) *)
Theorem C04_sys_registry_wellformed progs s :
  sreach progs s ->
  ag_wf (y_agents s) /\
  forall a k, In k (ag_get a (y_agents s)) -> exists f, getf s k = Some f /\ f_asker f = a /\ f_stored f = true.
Proof. exact (fun H => i_ag progs s (sreach_inv progs s H)). Qed.

(** an Ask that has returned and is not being completed is in both tables (what the kill clean-up relies on) *)
Theorem C04_sys_registered_while_pending progs s k f :
  sreach progs s -> getf s k = Some f -> f_sent f = true -> f_closed f = false ->
  f_inctx f = true /\ In k (ag_get (f_asker f) (y_agents s)).
Proof. exact (fun H Hg => f_reg progs s k f (i_fut progs s (sreach_inv progs s H) k f Hg)). Qed.

(** in a terminal state a completed future has no entry in actorContexts and none in futureAgents (under any asker) *)
Theorem C04_sys_no_registration_left progs s k f :
  sreach progs s -> sterminal s -> getf s k = Some f -> f_done f = true ->
  f_inctx f = false /\ forall a, ~ In k (ag_get a (y_agents s)).
Proof. exact (fun H => sys_no_registration_left progs s k f (sreach_inv progs s H)). Qed.

(** when every future is completed both tables are empty - not even an asker key is left *)
Theorem C04_sys_tables_empty progs s :
  sreach progs s -> sterminal s -> (forall k f, getf s k = Some f -> f_done f = true) ->
  y_agents s = [] /\ forall k f, getf s k = Some f -> f_inctx f = false.
Proof. exact (fun H => sys_tables_empty progs s (sreach_inv progs s H)). Qed.

(** ============================ (5) death of the asking actor ============================ *)

(** the key copy of a kill clean-up of path a catches every Ask of that asker that has returned and is not yet being
    completed (the clean-up copies every key of the asker's inner map, in any order) *)
Theorem C04_sys_death_copies_returned progs s s' i a ord sc k f :
  sreach progs s -> nth_error (y_thr s) i = Some (SDCopy a ord, sc) -> sstep i s = Some s' ->
  getf s k = Some f -> f_asker f = a -> f_sent f = true ->
  f_closed f = true \/ copied s' k.
Proof. exact (fun H => sys_death_copy_step progs s s' i a ord sc k f (sreach_inv progs s H)). Qed.

(** ... and every such Ask is completed in every terminal state reached afterwards - whatever happens before, concurrently
    and afterwards (other Asks of the same path, replies, Close, timers, other clean-ups) *)
Theorem C04_sys_death_completes progs s s' i a ord sc k f sched :
  sreach progs s -> nth_error (y_thr s) i = Some (SDCopy a ord, sc) -> sstep i s = Some s' ->
  getf s k = Some f -> f_asker f = a -> f_sent f = true ->
  sterminal (srun sched s') ->
  exists f', getf (srun sched s') k = Some f' /\ f_done f' = true.
Proof. exact (fun H => sys_death_completes progs s s' i a ord sc k f sched (sreach_inv progs s H)). Qed.

(** THE KILL CHAIN OF AN INCARNATION (code since /repo 3f0f6ad: doKill's clean-up, the OnKill / child-OnKilled /
    own-OnKilled handlers, and a second clean-up after the last handler).  [incarnation a pre ord1 mid ord2] is the
    goroutine of one incarnation of the actor at path a: Asks from message handlers, the first clean-up, Asks from the
    handlers of the kill chain, the second clean-up.  Among ANY other threads (other incarnations of the same path,
    System.Ask goroutines, repliers, Close callers, timers ...) and for every interleaving: *)

(** when the incarnation's kill chain has finished, every Ask the incarnation ever issued - including those issued by its
    OnKill / OnKilled handlers - has been completed by somebody: its CAS is won, the result (own reply, own timeout, Close
    or actor-dead: [C04_sys_completes_origin]) is decided *)
Theorem C04_sys_incarnation_asks_completed progs j a pre ord1 mid ord2 s k f :
  nth_error progs j = Some (incarnation a pre ord1 mid ord2) -> sreach progs s ->
  nth_error (y_thr s) j = Some (SIdle, []) -> getf s k = Some f -> f_owner f = j ->
  f_closed f = true.
Proof.
  exact (fun Hj => covered_finished_closed progs j (incarnation a pre ord1 mid ord2) s k f Hj (incarnation_covered a pre ord1 mid ord2)).
Qed.

(** ... and at quiescence each of them is done with the decided value and registered in neither table *)
Theorem C04_sys_incarnation_quiescent progs j a pre ord1 mid ord2 s k f :
  nth_error progs j = Some (incarnation a pre ord1 mid ord2) -> sreach progs s -> sterminal s ->
  nth_error (y_thr s) j = Some (SIdle, []) -> getf s k = Some f -> f_owner f = j ->
  f_done f = true /\ f_inctx f = false /\ (forall a0, ~ In k (ag_get a0 (y_agents s))) /\
  exists v, f_final f = Some v /\ fres f = vpair v /\ sorigin progs s k f v.
Proof.
  exact (fun Hj => covered_finished_done progs j (incarnation a pre ord1 mid ord2) s k f Hj (incarnation_covered a pre ord1 mid ord2)).
Qed.

(** the same for any goroutine in whose script every Ask is followed by a clean-up of the same asker path *)
Theorem C04_sys_covered_goroutine_completed progs j sc0 s k f :
  nth_error progs j = Some sc0 -> covered_script sc0 -> sreach progs s ->
  nth_error (y_thr s) j = Some (SIdle, []) -> getf s k = Some f -> f_owner f = j -> f_closed f = true.
Proof. exact (covered_finished_closed progs j sc0 s k f). Qed.

(** the second clean-up is NEEDED (this was the code before 3f0f6ad, and is what reverting that repair gives): with the
    kill chain [ODeath 5; OAsk 5 (no timer)] - doKill's clean-up, then an Ask issued by the OnKill handler, no clean-up
    afterwards - the goroutine finishes, nothing can move any more, and the Ask is neither completed nor unregistered.
    (On the real system: bin/check C04, component ask, regression monitor c04-ask-during-kill-never-completed.) *)
Theorem C04_sys_second_cleanup_needed :
  sreach dying_asker_progs dying_asker_state /\ sterminal dying_asker_state /\ sfinished dying_asker_state /\
  exists f, getf dying_asker_state 0 = Some f /\ f_asker f = 5 /\ f_owner f = 0%nat /\ f_sent f = true /\
            f_done f = false /\ f_closed f = false /\ f_armed f = None /\
            f_inctx f = true /\ In 0%nat (ag_get 5 (y_agents dying_asker_state)) /\
            y_dcopies dying_asker_state = [(0%nat, 5, [])].
Proof. exact dying_asker_witness. Qed.

(** ============================ the tie ============================ *)

(** the lock-step replay that bin/check compares with the real code executes nothing but model actions: every replayed
    trace ends in a [sreach]able state, so all theorems above apply to every trace the correspondence check accepts *)
Theorem C04_sys_replay_reachable progs sched :
  sreach progs (snd (sreplay sched (sinit progs))).
Proof. exact (ex_intro _ _ (eq_sym (sreplay_is_run sched (sinit progs)))). Qed.

(** ============================ non-vacuity ============================ *)

Definition SR (l : list nat) : list sact := map SRun l.

(** two Asks of actor 5; a reply 7 to the first; then the actor dies (clean-up with iteration order [1;0]): terminal,
    future 0 = (7, nil), future 1 = (nil, actor-dead), both tables empty, the clean-up copied only key 1 *)
Definition exs1_progs : list (list sop) := [[OAsk 5 0; OAsk 5 0; ODeath 5 [1%nat; 0%nat]]; [OReply 0 (VMsg 7)]].
Definition exs1_sched : list sact := SR (repeat 0%nat 11) ++ SR (repeat 1%nat 10) ++ SR (repeat 0%nat 12).
Definition exs1 : sst := srun exs1_sched (sinit exs1_progs).
Example C04_sys_ex_reply_and_death :
  sreach exs1_progs exs1 /\ sterminal exs1 /\
  (exists f0 f1, getf exs1 0 = Some f0 /\ getf exs1 1 = Some f1 /\
                 f_done f0 = true /\ fres f0 = (Some 7, None) /\ f_done f1 = true /\ fres f1 = (None, Some E_DEAD) /\
                 f_winners f0 = [1%nat] /\ f_winners f1 = [0%nat]) /\
  y_agents exs1 = [] /\ y_dcopies exs1 = [(0%nat, 5, [1%nat])] /\ copied exs1 1.
Proof.
  split; [exists exs1_sched; unfold exs1; reflexivity|].
  split; [apply sfinished_terminal; apply sfinished_dec; vm_compute; reflexivity|].
  split; [vm_compute; eexists; eexists; repeat split; reflexivity|].
  split; [vm_compute; reflexivity|]. split; [vm_compute; reflexivity|].
  exists 0%nat, 5, [1%nat]. split; [vm_compute; auto|left; reflexivity].
Qed.

(** the state just before that clean-up copies the keys: Ask 1 has returned, is registered in both tables and not closed -
    the hypotheses of [C04_sys_death_copies_returned] / [C04_sys_death_completes] *)
Definition exs2 : sst := srun (SR (repeat 0%nat 11) ++ SR (repeat 1%nat 10) ++ SR [0%nat]) (sinit exs1_progs).
Example C04_sys_ex_before_copy :
  sreach exs1_progs exs2 /\ nth_error (y_thr exs2) 0 = Some (SDCopy 5 [1%nat; 0%nat], []) /\
  exists f1, getf exs2 1 = Some f1 /\ f_asker f1 = 5 /\ f_sent f1 = true /\ f_closed f1 = false /\
             f_inctx f1 = true /\ In 1%nat (ag_get 5 (y_agents exs2)).
Proof.
  split; [exists (SR (repeat 0%nat 11) ++ SR (repeat 1%nat 10) ++ SR [0%nat]); unfold exs2; reflexivity|].
  split; [vm_compute; reflexivity|].
  vm_compute. eexists. repeat split; auto.
Qed.

(** one incarnation of actor 5 with the whole kill chain: an Ask from a handler, doKill's clean-up, an Ask WITHOUT timer from
    the OnKill handler, the clean-up after the last handler: finished, both futures (nil, actor-dead), tables empty *)
Definition exs4_progs : list (list sop) := [incarnation 5 [0] [0%nat] [0] [1%nat]].
Definition exs4 : sst := srun (SR (repeat 0%nat 40)) (sinit exs4_progs).
Example C04_sys_ex_incarnation :
  sreach exs4_progs exs4 /\ sterminal exs4 /\ nth_error (y_thr exs4) 0 = Some (SIdle, []) /\
  (exists f0 f1, getf exs4 0 = Some f0 /\ getf exs4 1 = Some f1 /\ f_owner f0 = 0%nat /\ f_owner f1 = 0%nat /\
                 f_done f0 = true /\ fres f0 = (None, Some E_DEAD) /\ f_done f1 = true /\ fres f1 = (None, Some E_DEAD)) /\
  y_agents exs4 = [] /\ y_dcopies exs4 = [(0%nat, 5, [0%nat]); (0%nat, 5, [1%nat])].
Proof.
  split; [exists (SR (repeat 0%nat 40)); unfold exs4; reflexivity|].
  split; [apply sfinished_terminal; apply sfinished_dec; vm_compute; reflexivity|].
  split; [vm_compute; reflexivity|].
  split; [vm_compute; eexists; eexists; repeat split; reflexivity|].
  split; vm_compute; reflexivity.
Qed.

(** a timer (timeout 3) completes an Ask whose asker's clean-up ran BEFORE the Ask (the OnKill-handler Ask with a timer):
    fired at time 3 >= 0 + 3, result (nil, timeout), nothing left registered *)
Definition exs3_progs : list (list sop) := [[ODeath 5 [0%nat]; OAsk 5 3]].
Definition exs3 : sst := srun (SR (repeat 0%nat 10) ++ [STick; STick; STick] ++ SR (repeat 1%nat 9)) (sinit exs3_progs).
Example C04_sys_ex_timer_after_cleanup :
  sreach exs3_progs exs3 /\ sterminal exs3 /\
  exists f, getf exs3 0 = Some f /\ f_done f = true /\ fres f = (None, Some E_TIMEOUT) /\ f_fired f = Some 3 /\
            f_armed f = Some 0 /\ f_tmo f = 3 /\ f_inctx f = false /\ y_agents exs3 = [].
Proof.
  split; [exists (SR (repeat 0%nat 10) ++ [STick; STick; STick] ++ SR (repeat 1%nat 9)); unfold exs3; reflexivity|].
  split; [apply sfinished_terminal; apply sfinished_dec; vm_compute; reflexivity|].
  vm_compute. eexists. repeat split; reflexivity.
Qed.

Print Assumptions C04_sys_one_shot_cas.
Print Assumptions C04_sys_one_shot_past_cas.
Print Assumptions C04_sys_one_shot_writes.
Print Assumptions C04_sys_one_shot_result.
Print Assumptions C04_sys_one_shot_stable.
Print Assumptions C04_sys_readers.
Print Assumptions C04_sys_completes.
Print Assumptions C04_sys_only_waiters_block.
Print Assumptions C04_sys_timeout_not_early.
Print Assumptions C04_sys_completes_origin.
Print Assumptions C04_sys_own_reply.
Print Assumptions C04_sys_error_origin.
Print Assumptions C04_sys_registry_wellformed.
Print Assumptions C04_sys_registered_while_pending.
Print Assumptions C04_sys_no_registration_left.
Print Assumptions C04_sys_tables_empty.
Print Assumptions C04_sys_death_copies_returned.
Print Assumptions C04_sys_death_completes.
Print Assumptions C04_sys_incarnation_asks_completed.
Print Assumptions C04_sys_incarnation_quiescent.
Print Assumptions C04_sys_covered_goroutine_completed.
Print Assumptions C04_sys_second_cleanup_needed.
Print Assumptions C04_sys_replay_reachable.
