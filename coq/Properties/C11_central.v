(** C11 (second file) — first contact: the per-address table of outbound mailboxes (internal/remoting/
    mailbox_central.go) under any number of concurrent senders.  Statements only; every proof is [exact <lemma>]
    (Remoting/CentralProofs.v, CentralFrame.v).

    Model: Remoting/Central.v.  Sender threads run [GetOrCreate] (one atomic get-or-insert: the whole body holds
    rmc.lock) and then [Enqueue] on the mailbox they got (atomic per mailbox: connectionLock) under an ARBITRARY
    schedule ([run sched]); [init progs] = cold start: empty table, thread i has the program [nth i progs] (a list of
    (address, message) sends).  [cs_log] = all Enqueues in the order they happened, each tagged with the mailbox
    ([e_box], creation index) that served it; [log_of a s] = the frames on the one connection of address a, in wire
    order.  "Finished" = every thread has done all its sends. *)
From Coq Require Import List NArith PeanoNat.
From Vivid Require Import Codec.Prim Remoting.Frame Remoting.FrameProofs Remoting.Link Remoting.Central Remoting.CentralProofs
  Remoting.CentralFrame.
Import ListNotations.

(** ONE MAILBOX (= ONE CONNECTION CHAIN) PER PEER ADDRESS, for every number of senders, all programs, every
    interleaving of their GetOrCreate and Enqueue steps: two Enqueues went through the same mailbox iff they were
    addressed to the same address. *)
Theorem C11_one_mailbox_per_address :
  forall (A M : Type) (eqb : A -> A -> bool), (forall a b, eqb a b = true <-> a = b) ->
  forall (progs : list (list (A * M))) (sched : list nat) (e1 e2 : entry A M),
    let s := run eqb sched (init progs) in
    In e1 (cs_log s) -> In e2 (cs_log s) -> (e_addr e1 = e_addr e2 <-> e_box e1 = e_box e2).
Proof. exact (@one_mailbox_per_address). Qed.

(** PER-SENDER FIFO ON THE WIRE.  At every moment what sender i has on the wire of address a is a prefix of its
    program's messages to a, in program order ... *)
Theorem C11_first_contact_per_sender_prefix :
  forall (A M : Type) (eqb : A -> A -> bool), (forall a b, eqb a b = true <-> a = b) ->
  forall (progs : list (list (A * M))) (sched : list nat) (i : nat) (p : list (A * M)) (a : A),
    nth_error progs i = Some p ->
    exists rest, to_addr eqb a p = sent_by i (log_of eqb a (run eqb sched (init progs))) ++ rest.
Proof. exact (@per_sender_prefix). Qed.

(** ... and when all senders are done exactly those messages, once each *)
Theorem C11_first_contact_per_sender_fifo :
  forall (A M : Type) (eqb : A -> A -> bool), (forall a b, eqb a b = true <-> a = b) ->
  forall (progs : list (list (A * M))) (sched : list nat) (i : nat) (p : list (A * M)) (a : A),
    nth_error progs i = Some p ->
    finished (run eqb sched (init progs)) ->
    sent_by i (log_of eqb a (run eqb sched (init progs))) = to_addr eqb a p.
Proof. exact (@per_sender_fifo). Qed.

(** COMPOSED WITH THE FRAMING THEOREM (C11_exactly_once_in_order): cold start, any senders, any schedule, ANY chunking
    of the connection's byte stream: the remote system is handed exactly the wire log of the address, and of every
    sender exactly its messages to that address, once each, in the order sent. *)
Theorem C11_cold_start_exactly_once_in_order :
  forall (A M : Type) (eqb : A -> A -> bool), (forall a b, eqb a b = true <-> a = b) ->
  forall (enc : entry A M -> bytes) (dec : bytes -> option (entry A M)), (forall e, dec (enc e) = Some e) ->
  forall (progs : list (list (A * M))) (sched : list nat) (a : A) (i : nat) (p : list (A * M)) (chunks : list bytes),
    let s := run eqb sched (init progs) in
    nth_error progs i = Some p -> finished s ->
    Forall (fun e => (1 <= N.of_nat (length (enc e)) <= max_frame)%N) (log_of eqb a s) ->
    concat chunks = concat (map (fun e => frame (enc e)) (log_of eqb a s)) ->
    delivered (receive dec chunks) = log_of eqb a s /\
    sent_by i (delivered (receive dec chunks)) = to_addr eqb a p.
Proof. exact (@cold_start_delivery). Qed.

(** non-vacuity: two senders racing for their first contact with address 7 (GetOrCreate of sender 1 between
    GetOrCreate and Enqueue of sender 0), both finish, one mailbox, both sequences in order on its wire *)
Example C11_first_contact_example :
  let progs := [[(7, 10); (7, 11)]; [(7, 20); (7, 21)]] in
  let s := run Nat.eqb [0; 1; 1; 0; 1; 0; 1; 0] (init progs) in
  finished s /\ map (fun e => (e_box e, e_msg e)) (cs_log s) = [(0, 20); (0, 10); (0, 21); (0, 11)] /\
  sent_by 1 (log_of Nat.eqb 7 s) = [20; 21].
Proof. cbn zeta. split; [repeat constructor|]. vm_compute. auto. Qed.

(** what the theorems exclude.  If lookup and insert were two steps and the loser of a concurrent first contact kept
    the mailbox it had made for itself ([orun]: NOT the code), one address would be served by two connections with two
    independent reader actors, and the receiver could see a sender's second message before its first. *)
Theorem C11_orphan_mailbox_reorders_refuted :
  exists (progs : list (list (nat * nat))) (sched : list nat) (r : list (entry nat nat)),
    let s := orun Nat.eqb sched (oinit progs) in
    merges [box_log 0 (os_log s); box_log 1 (os_log s)] r /\
    nth_error progs 1 = Some [(7, 20); (7, 21)] /\ sent_by 1 r = [21; 20].
Proof. exact orphan_reorders. Qed.

Print Assumptions C11_one_mailbox_per_address.
Print Assumptions C11_first_contact_per_sender_prefix.
Print Assumptions C11_first_contact_per_sender_fifo.
Print Assumptions C11_cold_start_exactly_once_in_order.
Print Assumptions C11_orphan_mailbox_reorders_refuted.
