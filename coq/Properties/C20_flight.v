(** C20, second part - the firing of a job is NOT atomic, and the stop sequence of an actor has phases.
    Statements only; every proof is [exact <lemma>] (lemmas in Timer/SchedFlightProofs.v, witnesses in
    Timer/SchedFlightWitness.v).  The machine (Timer/SchedFlight.v) refines the atomic model of Properties/C20.v:

      [frun fops finit]    the state after the step sequence [fops]:
         [FBase o]         an op of the atomic model (any Once / Loop / Cron / Cancel / Clear / Exists, termination, restart,
                           clock step); what go-quartz POPS during a clock step goes into [flight] - the pop is the
                           firing instant ([f_time]); the job function (vivid's Tell) runs in a goroutine of its own
         [FLand n]         the n-th Tell in flight reaches its receiver's behaviour - or the dead-letter stream if the
                           receiver has terminated or is stopping at that moment; ANY Tell in flight may be the next one, at
                           any later time (goroutines and mailboxes are scheduled arbitrarily)
         [FStopping a]     the stop sequence of a begins (Context.doKill: state killing); NOTHING is cleared there; the
                           handlers of the sequence (OnKill, the children's OnKilled, the own OnKilled) are ordinary ops
                           of a that follow; the sequence ends with [FBase (ODied a)] = killedHandler.cleanupScheduler
                           (Clear) after the own OnKilled handler - a restart ends with [FBase (ORestarted a)] at the same
                           place of the chain
      [base s]             the atomic model's state ([fired (base s)] = all pops so far), [fnow s] its clock
      [flight s]           popped, not yet arrived; [landed s] what behaviours / the dead-letter stream have seen:
                           a [landing] has [l_fire] (the pop), [l_time] (arrival) and [l_dead]
      [landings_of x s] / [flight_of x s]   of scheduling call x;  [landed_by P s] / [flight_by P s]  of the pops satisfying P
      [bops fops]          the atomic ops inside fops. *)
From Coq Require Import List NArith ZArith Permutation.
From stdpp Require Import gmap.
From Vivid Require Import Timer.SchedModel Timer.SchedProofs Timer.SchedWitness
                          Timer.SchedFlight Timer.SchedFlightProofs Timer.SchedFlightWitness
                          Timer.SchedKey Timer.SchedKeyProofs.
Local Open Scope Z_scope.

(** ============================== the refinement ============================== *)

(** the atomic model is inside: for EVERY step sequence the base of the flight machine is the atomic model run on
    the atomic ops - every theorem of Properties/C20.v about [fired] is a theorem about the pops of this machine *)
Theorem C20_flight_base_is_atomic_model fops : base (frun fops finit) = run (bops fops) init.
Proof. exact (frun_base fops finit). Qed.

(** conservation: every pop is either in flight or has arrived exactly once; nothing arrives that was not popped *)
Theorem C20_flight_conservation fops :
  Permutation (map l_fire (landed (frun fops finit)) ++ flight (frun fops finit)) (fired (base (frun fops finit))).
Proof. exact (fi_cons _ (frun_finv fops finit finv_init)). Qed.

(** whatever arrives was popped, arrives not before its firing instant, and is a dead letter only if its receiver
    has terminated or is stopping *)
Theorem C20_flight_landing_sound fops l :
  In l (landed (frun fops finit)) ->
  In (l_fire l) (fired (base (frun fops finit))) /\ f_time (l_fire l) <= l_time l /\ l_time l <= fnow (frun fops finit) /\
  (l_dead l = true -> f_recv (l_fire l) ∈ dead (base (frun fops finit)) \/ f_recv (l_fire l) ∈ stopping (frun fops finit)).
Proof. exact (landing_sound finit finv_init fops l). Qed.

(** the atomic model IS the prompt schedule of this machine: when no receiver is busy and no goroutine is suspended,
    the driver (the scheduler the correspondence check runs against the code) lands every Tell in the step that pops it,
    and what arrives is exactly [fired] of the atomic model, with the same dead-letter flags *)
Theorem C20_atomic_is_prompt_flight ops :
  flight (fs (drun (map DBase ops) dinit)) = [] /\
  map l_fire (landed (fs (drun (map DBase ops) dinit))) = fired (run ops init) /\
  Forall (fun l => l_dead l = f_dead (l_fire l)) (landed (fs (drun (map DBase ops) dinit))).
Proof. exact (thm_atomic_is_prompt ops). Qed.

(** every run of the driver - long handlers ([DBlock]/[DUnblock]), suspended Tell goroutines ([DHold]/[DRelease]), stop
    sequences ([DStopping]) - is a run of the general machine: all theorems below hold of what the check compares *)
Theorem C20_driver_is_flight_run dops :
  exists fops, fs (drun dops dinit) = frun fops finit /\ bops fops = dbops dops.
Proof. exact (drun_is_frun dops). Qed.

(** ============================== Once ============================== *)

(** never twice - not even counting what is still in flight - and never before the delay, for EVERY step sequence
    before and after the call: at most one Tell of a Once is ever in flight *)
Theorem C20_flight_once_at_most_once pre a recv ref d p post :
  snd (step (OOnce a recv ref d p) (base (frun pre finit))) = ROk ->
  (length (landings_of (nid (base (frun pre finit))) (frun (pre ++ FBase (OOnce a recv ref d p) :: post) finit)) +
   length (flight_of (nid (base (frun pre finit))) (frun (pre ++ FBase (OOnce a recv ref d p) :: post) finit)) <= 1)%nat.
Proof. exact (fun H => proj1 (flight_once_safety finit finv_init pre a recv ref d p post H)). Qed.

Theorem C20_flight_once_not_early pre a recv ref d p post l :
  snd (step (OOnce a recv ref d p) (base (frun pre finit))) = ROk ->
  In l (landings_of (nid (base (frun pre finit))) (frun (pre ++ FBase (OOnce a recv ref d p) :: post) finit)) ->
  fnow (frun pre finit) + d <= f_time (l_fire l) /\ f_time (l_fire l) <= l_time l.
Proof. exact (fun H => proj2 (flight_once_safety finit finv_init pre a recv ref d p post H) l). Qed.

(** removed by its owner (Cancel, Clear, termination, restart) before the firing instant: nothing is ever popped, so
    nothing arrives - however late - and nothing is in flight *)
Theorem C20_flight_once_cancelled pre a recv ref d p mid c post :
  snd (step (OOnce a recv ref d p) (base (frun pre finit))) = ROk -> removes a ref c -> elapsed (bops mid) < d ->
  landings_of (nid (base (frun pre finit))) (frun (pre ++ FBase (OOnce a recv ref d p) :: mid ++ FBase c :: post) finit) = [] /\
  flight_of (nid (base (frun pre finit))) (frun (pre ++ FBase (OOnce a recv ref d p) :: mid ++ FBase c :: post) finit) = [].
Proof. exact (flight_once_cancelled finit finv_init pre a recv ref d p mid c post). Qed.

(** not removed before the instant, no stall of the quartz loop: popped exactly once, exactly at t0 + d; from then on
    the Tell is in flight or has arrived - exactly one of the two - with the scheduled payload for the scheduled
    receiver; it is delivered (not dead-lettered) if the receiver is neither dead nor stopping.  When the goroutine
    and the receiver's mailbox run is the only thing left open (Go's scheduler is fair; not modelled) *)
Theorem C20_flight_once pre a recv ref d p post1 dt post2 :
  snd (step (OOnce a recv ref d p) (base (frun pre finit))) = ROk ->
  no_stall (bops post1) -> Forall (fun o => ~ removes a ref o) (bops post1) ->
  d <= elapsed (bops post1) + Z.max dt 0 ->
  exists f,
    f_time f = fnow (frun pre finit) + d /\ f_payload f = p /\ f_recv f = recv /\ f_owner f = a /\ f_ref f = ref /\
    ((landings_of (nid (base (frun pre finit))) (frun (pre ++ FBase (OOnce a recv ref d p) :: post1 ++ FBase (OTick dt) :: post2) finit) = [] /\
      flight_of (nid (base (frun pre finit))) (frun (pre ++ FBase (OOnce a recv ref d p) :: post1 ++ FBase (OTick dt) :: post2) finit) = [f]) \/
     (exists l,
        landings_of (nid (base (frun pre finit))) (frun (pre ++ FBase (OOnce a recv ref d p) :: post1 ++ FBase (OTick dt) :: post2) finit) = [l] /\
        flight_of (nid (base (frun pre finit))) (frun (pre ++ FBase (OOnce a recv ref d p) :: post1 ++ FBase (OTick dt) :: post2) finit) = [] /\
        l_fire l = f /\ f_time f <= l_time l /\
        (recv ∉ dead (base (frun (pre ++ FBase (OOnce a recv ref d p) :: post1 ++ FBase (OTick dt) :: post2) finit)) ->
         recv ∉ stopping (frun (pre ++ FBase (OOnce a recv ref d p) :: post1 ++ FBase (OTick dt) :: post2) finit) ->
         l_dead l = false))).
Proof. exact (flight_once_delivered finit finv_init pre a recv ref d p post1 dt post2). Qed.

(** ============================== Loop ============================== *)

(** one Tell per interval, each either arrived or still in flight: the firing instants of what has arrived and of what
    is in flight are together exactly t0+i, t0+2i, ... up to now (not removed, no stall) *)
Theorem C20_flight_loop pre a recv ref i p post :
  snd (step (OLoop a recv ref i p) (base (frun pre finit))) = ROk ->
  no_stall (bops post) -> Forall (fun o => ~ removes a ref o) (bops post) ->
  Permutation
    (map (fun l => f_time (l_fire l)) (landings_of (nid (base (frun pre finit))) (frun (pre ++ FBase (OLoop a recv ref i p) :: post) finit)) ++
     map f_time (flight_of (nid (base (frun pre finit))) (frun (pre ++ FBase (OLoop a recv ref i p) :: post) finit)))
    (grid (fnow (frun pre finit)) i
          (Z.to_nat ((fnow (frun (pre ++ FBase (OLoop a recv ref i p) :: post) finit) - fnow (frun pre finit)) / i))).
Proof. exact (flight_loop_exact finit finv_init pre a recv ref i p post). Qed.

(** ... and an initial segment of them whatever the owner does (no stall) *)
Theorem C20_flight_loop_grid pre a recv ref i p post :
  snd (step (OLoop a recv ref i p) (base (frun pre finit))) = ROk -> no_stall (bops post) ->
  exists m : nat,
    Permutation
      (map (fun l => f_time (l_fire l)) (landings_of (nid (base (frun pre finit))) (frun (pre ++ FBase (OLoop a recv ref i p) :: post) finit)) ++
       map f_time (flight_of (nid (base (frun pre finit))) (frun (pre ++ FBase (OLoop a recv ref i p) :: post) finit)))
      (grid (fnow (frun pre finit)) i m) /\
    fnow (frun pre finit) + Z.of_nat m * i <= fnow (frun (pre ++ FBase (OLoop a recv ref i p) :: post) finit).
Proof. exact (flight_loop_grid finit finv_init pre a recv ref i p post). Qed.

(** "at most one Tell in flight per job" is FALSE of a Loop: after 250 ms without the goroutines running two are in
    flight; Cancel returns nil; both arrive afterwards, the later one first; the instants after the Cancel never fire *)
Theorem C20_loop_one_in_flight_refuted :
  frun_res wf_late_loop finit = [FR ROk; FR RUnit; FR ROk; FR RUnit; FLanded 0 false; FLanded 0 false; FR RUnit] /\
  map f_time (flight (frun [FBase (OLoop w_a w_a w_r 100 1); FBase (OTick 250)] finit)) = [100; 200] /\
  arrivals (frun wf_late_loop finit) = [(0%N, 200, 1250, false); (0%N, 100, 1250, false)] /\
  fired (base (frun wf_late_loop finit)) = fired (base (frun [FBase (OLoop w_a w_a w_r 100 1); FBase (OTick 250)] finit)).
Proof. exact wit_late_loop. Qed.

(** ============================== Cancel / Clear while a Tell is in flight ============================== *)

(** what Cancel(ref) / Clear / termination / restart by the owner guarantee, for Once, Loop and Cron alike and for EVERY
    step sequence: (1) no message whose firing instant lies after the removal ever arrives, or is ever in flight;
    (2) exactly the Tells that were in flight at the removal may still arrive - their number does not grow *)
Theorem C20_flight_removed pre o a recv ref p mid c post :
  is_sched o a recv ref p -> snd (step o (base (frun pre finit))) = ROk -> removes a ref c ->
  (forall l, In l (landings_of (nid (base (frun pre finit))) (frun (pre ++ FBase o :: mid ++ FBase c :: post) finit)) ->
             f_time (l_fire l) <= fnow (frun (pre ++ FBase o :: mid) finit)) /\
  (forall f, In f (flight_of (nid (base (frun pre finit))) (frun (pre ++ FBase o :: mid ++ FBase c :: post) finit)) ->
             f_time f <= fnow (frun (pre ++ FBase o :: mid) finit)) /\
  (length (landings_of (nid (base (frun pre finit))) (frun (pre ++ FBase o :: mid ++ FBase c :: post) finit)) +
   length (flight_of (nid (base (frun pre finit))) (frun (pre ++ FBase o :: mid ++ FBase c :: post) finit)) =
   length (landings_of (nid (base (frun pre finit))) (frun (pre ++ FBase o :: mid) finit)) +
   length (flight_of (nid (base (frun pre finit))) (frun (pre ++ FBase o :: mid) finit)))%nat.
Proof. exact (fun Hs Hok R => flight_removed finit finv_init pre o a recv ref p Hs Hok mid c post R). Qed.

(** REFUTED: "after Cancel has returned no message of the job arrives".  The Tell of a Once is in flight when Cancel is
    called: Exists says true, Cancel answers quartz's "job not found" - and the message arrives 300 ms later.  (The
    property as stated - no firing INSTANT after the Cancel - holds: C20_flight_removed.)  Reproduced on the code by
    the hold scenarios of the harness *)
Theorem C20_no_arrival_after_cancel_refuted :
  frun_res wf_late_once finit = [FR ROk; FR RUnit; FR (RBool true); FR RQuartzNotFound; FR RUnit; FLanded 0 false; FR RUnit] /\
  arrivals (frun wf_late_once finit) = [(0%N, 100, 400, false)] /\ flight (frun wf_late_once finit) = [].
Proof. exact wit_late_once. Qed.

(** whatever arrives carries the scheduled message for the scheduled receiver, also when it arrives late *)
Theorem C20_flight_payload pre o a recv ref p post l :
  is_sched o a recv ref p -> snd (step o (base (frun pre finit))) = ROk ->
  In l (landings_of (nid (base (frun pre finit))) (frun (pre ++ FBase o :: post) finit)) ->
  f_owner (l_fire l) = a /\ f_recv (l_fire l) = recv /\ f_ref (l_fire l) = ref /\ f_payload (l_fire l) = p /\
  f_time (l_fire l) <= l_time l /\
  (l_dead l = true -> recv ∈ dead (base (frun (pre ++ FBase o :: post) finit)) \/ recv ∈ stopping (frun (pre ++ FBase o :: post) finit)).
Proof. exact (fun Hs Hok => flight_payload finit finv_init pre o a recv ref p Hs Hok post l). Qed.

(** ============================== the stop sequence: termination ============================== *)

(** For EVERY step sequence [pre], every sequence [killing] of steps between the beginning of a's stop sequence and its
    end - in particular any Once / Loop / Cron / Cancel calls that a's OnKill handler, its handlers of the children's
    OnKilled, and its own OnKilled handler make - and every [post]:
    (1) no job of a - whenever it was scheduled, the killing phase included - fires at an instant after the termination:
        everything of a that ever arrives or is in flight was popped before;
    (2) exactly the Tells of a's jobs in flight at the termination may still arrive;
    (3) from the beginning of the sequence on, whatever arrives FOR a is a dead letter *)
Theorem C20_stop_sequence pre (a : bytes) killing post :
  (forall l, In l (landed_by (owned_by a) (frun (pre ++ FStopping a :: killing ++ FBase (ODied a) :: post) finit)) ->
             f_time (l_fire l) <= fnow (frun (pre ++ FStopping a :: killing) finit)) /\
  (forall f, In f (flight_by (owned_by a) (frun (pre ++ FStopping a :: killing ++ FBase (ODied a) :: post) finit)) ->
             f_time f <= fnow (frun (pre ++ FStopping a :: killing) finit)) /\
  (length (landed_by (owned_by a) (frun (pre ++ FStopping a :: killing ++ FBase (ODied a) :: post) finit)) +
   length (flight_by (owned_by a) (frun (pre ++ FStopping a :: killing ++ FBase (ODied a) :: post) finit)) =
   length (landed_by (owned_by a) (frun (pre ++ FStopping a :: killing) finit)) +
   length (flight_by (owned_by a) (frun (pre ++ FStopping a :: killing) finit)))%nat /\
  (exists new, landed (frun (pre ++ FStopping a :: killing ++ FBase (ODied a) :: post) finit) = landed (frun pre finit) ++ new /\
     forall l, In l new -> f_recv (l_fire l) = a -> l_dead l = true).
Proof. exact (flight_stop_sequence finit finv_init pre a killing post). Qed.

(** the same from the termination on, without the marker (a dies after any history) *)
Theorem C20_flight_death pre (a : bytes) post :
  (forall l, In l (landed_by (owned_by a) (frun (pre ++ FBase (ODied a) :: post) finit)) -> f_time (l_fire l) <= fnow (frun pre finit)) /\
  (forall f, In f (flight_by (owned_by a) (frun (pre ++ FBase (ODied a) :: post) finit)) -> f_time f <= fnow (frun pre finit)) /\
  (length (landed_by (owned_by a) (frun (pre ++ FBase (ODied a) :: post) finit)) +
   length (flight_by (owned_by a) (frun (pre ++ FBase (ODied a) :: post) finit)) =
   length (landed_by (owned_by a) (frun pre finit)) + length (flight_by (owned_by a) (frun pre finit)))%nat /\
  (exists new, landed (frun (pre ++ FBase (ODied a) :: post) finit) = landed (frun pre finit) ++ new /\
     forall l, In l new -> fnow (frun pre finit) <= l_time l /\ (f_recv (l_fire l) = a -> l_dead l = true)).
Proof. exact (flight_death finit finv_init pre a post). Qed.

(** the calls of the killing phase are real calls: accepted (refused on a live reference like any call), queued, the
    actor's jobs keep firing while it waits for its child (into dead letters when addressed to itself) - and at the end
    of the sequence the queue holds nothing of the actor and nothing fires any more *)
Theorem C20_stop_sequence_calls_are_real :
  frun_res wf_stop finit =
    [FR ROk; FR ROk; FR RUnit; FR RUnit; FR ROk; FR RExists; FR RUnit; FLanded 1 false; FLanded 0 true; FR ROk; FR ROk; FR ROk;
     FR (RDump [(w_a, [w_bc; w_l; w_r; w_w])] [(w_a, w_bc); (w_a, w_l); (w_a, w_r); (w_a, w_w)]);
     FR RUnit; FR (RDump [(w_a, [])] []); FR RUnit] /\
  arrivals (frun wf_stop finit) = [(1%N, 100, 150, false); (0%N, 100, 150, true)] /\
  flight (frun wf_stop finit) = [] /\ length (fired (base (frun wf_stop finit))) = 2%nat.
Proof. exact wit_stop. Qed.

(** ============================== the stop sequence: restart ============================== *)

(** For EVERY [pre], every [killing] (the steps of the restart's stop sequence, the scheduling calls of a's OnKill /
    children's OnKilled / own OnKilled handlers included) and every [post]: the jobs of the OLD incarnation - every
    successful scheduling call of a before the restart completed - never fire at an instant after the restart; exactly
    their Tells in flight at the restart may still arrive; after the restart the queue holds no job of a *)
Theorem C20_restart_sequence pre (a : bytes) killing post :
  (forall l, In l (landed_by (old_job_of a (nid (base (frun (pre ++ killing) finit)))) (frun (pre ++ killing ++ FBase (ORestarted a) :: post) finit)) ->
             f_time (l_fire l) <= fnow (frun (pre ++ killing) finit)) /\
  (forall f, In f (flight_by (old_job_of a (nid (base (frun (pre ++ killing) finit)))) (frun (pre ++ killing ++ FBase (ORestarted a) :: post) finit)) ->
             f_time f <= fnow (frun (pre ++ killing) finit)) /\
  (length (landed_by (old_job_of a (nid (base (frun (pre ++ killing) finit)))) (frun (pre ++ killing ++ FBase (ORestarted a) :: post) finit)) +
   length (flight_by (old_job_of a (nid (base (frun (pre ++ killing) finit)))) (frun (pre ++ killing ++ FBase (ORestarted a) :: post) finit)) =
   length (landed_by (old_job_of a (nid (base (frun (pre ++ killing) finit)))) (frun (pre ++ killing) finit)) +
   length (flight_by (old_job_of a (nid (base (frun (pre ++ killing) finit)))) (frun (pre ++ killing) finit)))%nat /\
  (forall k j, tbl (base (frun (pre ++ killing ++ [FBase (ORestarted a)]) finit)) !! k = Some j -> j_owner j <> a).
Proof. exact (flight_restart_sequence finit finv_init pre a killing post). Qed.

(** which messages "survive" a restart (observation, code as it is): a Tell of the old incarnation's job that was in
    flight at the restart - popped before, not yet handled - is DELIVERED to the new incarnation (same path, same
    mailbox); the reference is free again (Exists false, a new Once under it is accepted) *)
Theorem C20_in_flight_survives_restart :
  frun_res wf_restart finit = [FR ROk; FR ROk; FR RUnit; FR RUnit; FR (RBool false); FR ROk; FLanded 1 false; FLanded 0 false; FR RUnit] /\
  arrivals (frun wf_restart finit) = [(1%N, 100, 100, false); (0%N, 100, 100, false)] /\
  flight (frun wf_restart finit) = [(mkFiring 2 w_a w_a w_r 3 200 false)].
Proof. exact wit_restart. Qed.

(** in flight when the owner terminates: to the owner itself a dead letter, to another actor a delivery *)
Theorem C20_in_flight_at_death :
  map (fun e => (fst (fst (fst e)), snd (fst e), snd e)) (arrivals (frun wf_death finit)) = [(1%N, 150, false); (0%N, 150, true)] /\
  flight (frun wf_death finit) = [].
Proof. exact wit_death. Qed.

(** ============================== the job key as the code builds it ============================== *)

(** [unique_job_key path ref] = quartz.NewJobKeyWithGroup(ref, path) as the pair (group, name) the queue compares
    ([JobKey.Equals]); go-quartz replaces an EMPTY group by "default".  For every actor path (it begins with "/") the key
    is the pair (path, reference) of the model, for ALL byte strings as path remainder and reference - ':' and "::"
    included - so keys of different (actor, reference) pairs never coincide *)
Theorem C20_job_key_of_a_path a r : is_path a -> unique_job_key a r = job_key a r.
Proof. exact (unique_key_path a r). Qed.

Theorem C20_job_keys_injective_on_paths a1 r1 a2 r2 :
  is_path a1 -> is_path a2 -> unique_job_key a1 r1 = unique_job_key a2 r2 -> a1 = a2 /\ r1 = r2.
Proof. exact (unique_key_inj_paths a1 r1 a2 r2). Qed.

(** REFUTED for arbitrary strings (not reachable through an actor: no path is empty): the empty group and the group
    "default" give the same key; and the printed form group::name (log lines only) is not injective at all *)
Theorem C20_job_key_empty_group_refuted r :
  unique_job_key [] r = unique_job_key default_group r /\ [] <> default_group.
Proof. exact (unique_key_empty_group_collides r). Qed.

(** ============================== non-vacuity ============================== *)

(** hypotheses of C20_flight_once / C20_flight_removed / C20_flight_payload with landings in between *)
Example C20_flight_once_example :
  let pre := [FBase (OLoop w_a w_b w_r 70 7); FBase (OTick 100); FLand 0] in
  let post1 := [FBase (OTick 30); FBase (OOnce w_ab w_ab w_c 10 9); FLand 0; FBase (OCancel w_a w_bc); FBase (OTick 30); FStopping w_a; FBase (ODied w_a)] in
  snd (step (OOnce w_b w_b w_r 100 5) (base (frun pre finit))) = ROk /\
  no_stall (bops post1) /\ Forall (fun o => ~ removes w_b w_r o) (bops post1) /\ 100 <= elapsed (bops post1) + Z.max 50 0 /\
  map (fun l => (f_payload (l_fire l), f_time (l_fire l), l_time l, l_dead l))
      (landings_of 1 (frun (pre ++ FBase (OOnce w_b w_b w_r 100 5) :: post1 ++ FBase (OTick 50) :: [FBase (OTick 500); FLand 0; FLand 0; FLand 0]) finit)) = [(5%N, 200, 710, false)].
Proof.
  cbv zeta. split; [reflexivity|]. split; [vm_compute; repeat constructor|]. split.
  - vm_compute. repeat constructor; intros [H|[H|[H|H]]]; discriminate.
  - split; [vm_compute; discriminate|reflexivity].
Qed.

Example C20_job_key_example :
  is_path w_ab /\ is_path w_a /\ unique_job_key w_a w_bc <> unique_job_key w_ab w_c.
Proof. split; [eexists; reflexivity|]. split; [eexists; reflexivity|discriminate]. Qed.

Example C20_flight_removed_example :
  is_sched (OLoop w_a w_a w_r 100 1) w_a w_a w_r 1 /\ snd (step (OLoop w_a w_a w_r 100 1) (base (frun [] finit))) = ROk /\
  removes w_a w_r (OCancel w_a w_r) /\
  arrivals (frun ([] ++ FBase (OLoop w_a w_a w_r 100 1) :: [FBase (OTick 250); FLand 0] ++ FBase (OCancel w_a w_r) :: [FBase (OTick 500); FLand 0]) finit)
  = [(0%N, 100, 250, false); (0%N, 200, 750, false)].
Proof. split; [right; left; exists 100; reflexivity|]. split; [reflexivity|]. split; [left; reflexivity|reflexivity]. Qed.

(** the driver: a receiver in a long handler, a suspended Tell goroutine across Cancel and the owner's termination *)
Example C20_driver_example :
  drun_res wd_block dinit = [ROk; RUnit; RUnit; RUnit; ROk; RUnit; RUnit] /\
  arrivals (fs (drun wd_block dinit)) = [(0%N, 100, 250, false); (0%N, 200, 250, false)] /\
  drun_res wd_hold dinit = [RUnit; ROk; ROk; RUnit; RQuartzNotFound; RUnit; RUnit; RUnit; RUnit; RUnit] /\
  arrivals (fs (drun wd_hold dinit)) = [(1%N, 100, 150, false); (0%N, 100, 300, true)].
Proof. exact wit_driver. Qed.

Print Assumptions C20_flight_base_is_atomic_model.
Print Assumptions C20_flight_conservation.
Print Assumptions C20_flight_landing_sound.
Print Assumptions C20_atomic_is_prompt_flight.
Print Assumptions C20_driver_is_flight_run.
Print Assumptions C20_flight_once_at_most_once.
Print Assumptions C20_flight_once_not_early.
Print Assumptions C20_flight_once_cancelled.
Print Assumptions C20_flight_once.
Print Assumptions C20_flight_loop.
Print Assumptions C20_flight_loop_grid.
Print Assumptions C20_loop_one_in_flight_refuted.
Print Assumptions C20_flight_removed.
Print Assumptions C20_no_arrival_after_cancel_refuted.
Print Assumptions C20_flight_payload.
Print Assumptions C20_stop_sequence.
Print Assumptions C20_flight_death.
Print Assumptions C20_stop_sequence_calls_are_real.
Print Assumptions C20_restart_sequence.
Print Assumptions C20_in_flight_survives_restart.
Print Assumptions C20_in_flight_at_death.
Print Assumptions C20_job_key_of_a_path.
Print Assumptions C20_job_keys_injective_on_paths.
Print Assumptions C20_job_key_empty_group_refuted.
