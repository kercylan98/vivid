(** Concrete runs of the in-flight machine (closed by computation) for Properties/C20_flight.v. *)
From Coq Require Import List NArith ZArith.
From stdpp Require Import gmap.
From Vivid Require Import Timer.SchedModel Timer.SchedWitness Timer.SchedFlight.
Local Open Scope Z_scope.

Definition w_l : bytes := [108]%N.   (* "l" *)
Definition w_w : bytes := [119]%N.   (* "w" *)

(** what arrived, as (call, firing instant, arrival time, dead letter) *)
Definition arrivals (s : fsched) : list (N * Z * Z * bool) :=
  map (fun l => (f_id (l_fire l), f_time (l_fire l), l_time l, l_dead l)) (landed s).

(** a Once whose Tell is in flight when Cancel is called: Cancel answers quartz's "job not found" - and the message
    arrives 300 ms after Cancel returned *)
Definition wf_late_once : list fop :=
  [FBase (OOnce w_a w_a w_r 100 1); FBase (OTick 100); FBase (OExists w_a w_r); FBase (OCancel w_a w_r); FBase (OTick 300); FLand 0; FBase (OTick 1000)].
Lemma wit_late_once :
  frun_res wf_late_once finit = [FR ROk; FR RUnit; FR (RBool true); FR RQuartzNotFound; FR RUnit; FLanded 0 false; FR RUnit] /\
  arrivals (frun wf_late_once finit) = [(0%N, 100, 400, false)] /\ flight (frun wf_late_once finit) = [].
Proof. vm_compute. conj_refl. Qed.

(** a Loop: two Tells in flight at once; Cancel returns nil; both arrive afterwards (here: the later one first); the
    instants after the Cancel never fire *)
Definition wf_late_loop : list fop :=
  [FBase (OLoop w_a w_a w_r 100 1); FBase (OTick 250); FBase (OCancel w_a w_r); FBase (OTick 1000); FLand 1; FLand 0; FBase (OTick 1000)].
Lemma wit_late_loop :
  frun_res wf_late_loop finit = [FR ROk; FR RUnit; FR ROk; FR RUnit; FLanded 0 false; FLanded 0 false; FR RUnit] /\
  map f_time (flight (frun [FBase (OLoop w_a w_a w_r 100 1); FBase (OTick 250)] finit)) = [100; 200] /\
  arrivals (frun wf_late_loop finit) = [(0%N, 200, 1250, false); (0%N, 100, 1250, false)] /\
  fired (base (frun wf_late_loop finit)) = fired (base (frun [FBase (OLoop w_a w_a w_r 100 1); FBase (OTick 250)] finit)).
Proof. vm_compute. conj_refl. Qed.

(** in flight when the owner terminates: to the owner itself a dead letter, to another actor a delivery *)
Definition wf_death : list fop :=
  [FBase (OOnce w_a w_a w_r 100 1); FBase (OOnce w_a w_b w_c 100 2); FBase (OTick 100); FStopping w_a; FBase (ODied w_a);
   FBase (OTick 50); FLand 0; FLand 0; FBase (OTick 1000)].
Lemma wit_death :
  map (fun e => (fst (fst (fst e)), snd (fst e), snd e)) (arrivals (frun wf_death finit)) = [(1%N, 150, false); (0%N, 150, true)] /\
  flight (frun wf_death finit) = [].
Proof. vm_compute. conj_refl. Qed.

(** in flight across a restart: the message of the OLD incarnation's job is delivered to the NEW incarnation *)
Definition wf_restart : list fop :=
  [FBase (OOnce w_a w_a w_r 100 1); FBase (OLoop w_a w_a w_c 100 2); FBase (OTick 100); FBase (ORestarted w_a); FBase (OExists w_a w_r);
   FBase (OOnce w_a w_a w_r 100 3); FLand 0; FLand 0; FBase (OTick 1000)].
Lemma wit_restart :
  frun_res wf_restart finit = [FR ROk; FR ROk; FR RUnit; FR RUnit; FR (RBool false); FR ROk; FLanded 1 false; FLanded 0 false; FR RUnit] /\
  arrivals (frun wf_restart finit) = [(1%N, 100, 100, false); (0%N, 100, 100, false)] /\
  flight (frun wf_restart finit) = [(mkFiring 2 w_a w_a w_r 3 200 false)].
Proof. vm_compute. conj_refl. Qed.

(** a stop sequence: the handlers of the sequence still schedule (accepted, queued - the dump shows them), the actor's
    jobs keep firing (into dead letters when addressed to the stopping actor), and everything dies at the END *)
Definition wf_stop : list fop :=
  [FBase (OLoop w_a w_a w_l 100 1); FBase (OLoop w_a w_b w_c 100 2); FBase (OTick 50);
   FStopping w_a;
   FBase (OOnce w_a w_a w_w 200 3);         (* OnKill handler *)
   FBase (OOnce w_a w_a w_l 200 4);         (* ... on a live reference: refused *)
   FBase (OTick 100); FLand 0; FLand 0;     (* the actor waits for its child: its Loops fire *)
   FBase (OLoop w_a w_b w_r 100 5);         (* handler of the child's OnKilled *)
   FBase (OCancel w_a w_c);
   FBase (OOnce w_a w_b w_bc 100 6);        (* own OnKilled handler *)
   FBase (ODump [w_a]);
   FBase (ODied w_a);
   FBase (ODump [w_a]); FBase (OTick 5000)].
Lemma wit_stop :
  frun_res wf_stop finit =
    [FR ROk; FR ROk; FR RUnit; FR RUnit; FR ROk; FR RExists; FR RUnit; FLanded 1 false; FLanded 0 true; FR ROk; FR ROk; FR ROk;
     FR (RDump [(w_a, [w_bc; w_l; w_r; w_w])] [(w_a, w_bc); (w_a, w_l); (w_a, w_r); (w_a, w_w)]);
     FR RUnit; FR (RDump [(w_a, [])] []); FR RUnit] /\
  arrivals (frun wf_stop finit) = [(1%N, 100, 150, false); (0%N, 100, 150, true)] /\
  flight (frun wf_stop finit) = [] /\ length (fired (base (frun wf_stop finit))) = 2%nat.
Proof. vm_compute. conj_refl. Qed.

(** the driver: a receiver in a long handler (messages queue up), a suspended Tell goroutine *)
Definition wd_block : list dop :=
  [DBase (OLoop w_a w_a w_r 100 1); DBase (OTick 50); DBlock w_a; DBase (OTick 200); DBase (OCancel w_a w_r); DUnblock w_a; DBase (OTick 1000)].
Definition wd_hold : list dop :=
  [DHold w_a w_r; DBase (OOnce w_a w_a w_r 100 1); DBase (OOnce w_a w_b w_c 100 2); DBase (OTick 150); DBase (OCancel w_a w_r);
   DStopping w_a; DBase (ODied w_a); DBase (OTick 150); DRelease w_a w_r; DBase (OTick 1000)].
Lemma wit_driver :
  drun_res wd_block dinit = [ROk; RUnit; RUnit; RUnit; ROk; RUnit; RUnit] /\
  arrivals (fs (drun wd_block dinit)) = [(0%N, 100, 250, false); (0%N, 200, 250, false)] /\
  drun_res wd_hold dinit = [RUnit; ROk; ROk; RUnit; RQuartzNotFound; RUnit; RUnit; RUnit; RUnit; RUnit] /\
  arrivals (fs (drun wd_hold dinit)) = [(1%N, 100, 150, false); (0%N, 100, 300, true)].
Proof. vm_compute. conj_refl. Qed.
