(** Lemmas about Timer/SchedFlight.v (in-flight firings) for Properties/C20_flight.v.  [base] of a flight run is a run of
    the atomic model ([frun_base]) and the Tells are conserved ([Cons]: arrived ++ in flight is a permutation of the pops),
    so each theorem about a scheduling call is the atomic one about its pops (Timer/SchedProofs.v [thm_*]) read through [Cons]. *)
From Coq Require Import List NArith ZArith Bool Lia Permutation.
From stdpp Require Import gmap.
From Vivid Require Import Timer.SchedModel Timer.SchedProofs Timer.SchedFlight.
Local Open Scope Z_scope.

Lemma nth_error_split3 {A} (l : list A) n a :
  nth_error l n = Some a -> l = firstn n l ++ a :: skipn (S n) l.
Proof.
  revert n. induction l as [|x l IH]; intros [|n] H; cbn in H; try discriminate.
  - injection H as ->. reflexivity.
  - cbn [firstn skipn app]. f_equal. apply IH, H.
Qed.

Lemma perm_filter {A} (P : A -> bool) (l l' : list A) :
  Permutation l l' -> Permutation (List.filter P l) (List.filter P l').
Proof.
  induction 1 as [|x l l' _ IH|x y l|l l' l'' _ IH1 _ IH2]; cbn.
  - constructor.
  - destruct (P x); [constructor|]; exact IH.
  - destruct (P x), (P y); try apply Permutation_refl. constructor.
  - eapply Permutation_trans; eauto.
Qed.

Lemma filter_map_comm {A B} (P : B -> bool) (g : A -> B) (l : list A) :
  map g (List.filter (fun a => P (g a)) l) = List.filter P (map g l).
Proof. induction l as [|a l IH]; cbn; [reflexivity|]. destruct (P (g a)); cbn; rewrite IH; reflexivity. Qed.

Lemma bops_app l1 l2 : bops (l1 ++ l2) = bops l1 ++ bops l2.
Proof. unfold bops. apply flat_map_app. Qed.

Lemma bops_cons_base o l : bops (FBase o :: l) = o :: bops l.
Proof. reflexivity. Qed.

Lemma fstep_base o s :
  base (fst (fstep o s)) = match o with FBase o => fst (step o (base s)) | _ => base s end.
Proof. destruct o as [o|n|a]; cbn; [reflexivity| |reflexivity]. destruct (nth_error (flight s) n); reflexivity. Qed.

Lemma fstep_stopping_mono o s (z : bytes) : z ∈ stopping s -> z ∈ stopping (fst (fstep o s)).
Proof.
  destruct o as [o|n|a]; cbn; [auto| |apply elem_of_union_r]. destruct (nth_error (flight s) n); cbn; auto.
Qed.

Lemma frun_base fops : forall s, base (frun fops s) = run (bops fops) (base s).
Proof.
  induction fops as [|o fops IH]; intros s; cbn [frun]; [reflexivity|].
  rewrite IH, fstep_base. destruct o; reflexivity.
Qed.

Lemma frun_app l1 l2 s : frun (l1 ++ l2) s = frun l2 (frun l1 s).
Proof. revert s. induction l1 as [|o l1 IH]; intros s; cbn; [reflexivity|apply IH]. Qed.

Lemma base_finit : base finit = init.
Proof. reflexivity. Qed.

Definition Cons (s : fsched) : Prop :=
  Permutation (map l_fire (landed s) ++ flight s) (fired (base s)).

Definition LInv (s : fsched) : Prop :=
  forall l, In l (landed s) ->
    f_time (l_fire l) <= l_time l /\ l_time l <= now (base s) /\
    (l_dead l = true -> f_recv (l_fire l) ∈ dead (base s) \/ f_recv (l_fire l) ∈ stopping s).

Record FInv (s : fsched) : Prop := mkFInv {
  fi_inv : Inv (base s);
  fi_cons : Cons s;
  fi_land : LInv s;
}.

Lemma fstep_finv o s : FInv s -> FInv (fst (fstep o s)).
Proof.
  intros [I C L]. destruct o as [o|n|a0]; cbn.
  - constructor; cbn.
    + apply step_inv, I.
    + unfold Cons in *; cbn. rewrite step_fired, app_assoc. apply Permutation_app_tail, C.
    + intros l Hl. cbn [base landed flight] in *. destruct (L l Hl) as (H1 & H2 & H3). split; [exact H1|]. split.
      * pose proof (step_now_mono o (base s)). lia.
      * intros Hd. destruct (H3 Hd) as [H|H]; [left; apply step_dead_mono, H|right; exact H].
  - destruct (nth_error (flight s) n) as [f|] eqn:En; cbn; [|constructor; assumption].
    pose proof (nth_error_split3 _ _ _ En) as Es.
    assert (Hin : In f (flight s)) by (eapply nth_error_In; eauto).
    constructor; cbn.
    + exact I.
    + unfold Cons in *; cbn. rewrite map_app; cbn.
      eapply Permutation_trans; [|exact C]. rewrite <- app_assoc. apply Permutation_app_head.
      rewrite Es at 3. cbn. apply Permutation_middle.
    + intros l Hl. cbn [base landed flight] in *. apply in_app_iff in Hl as [Hl|[<-|[]]]; [apply L, Hl|]. cbn.
      assert (Hf : In f (fired (base s))) by (eapply Permutation_in; [exact C|apply in_app_iff; auto]).
      apply (inv_fired _ I) in Hf as [_ Hle].
      split; [exact Hle|]. split; [lia|]. unfold dead_letter, is_dead. intros Hd. apply orb_true_iff in Hd as [Hd|Hd]; apply bool_decide_eq_true in Hd; auto.
  - constructor; cbn; [exact I|exact C|].
    intros l Hl. cbn [base landed flight stopping] in *. destruct (L l Hl) as (H1 & H2 & H3). split; [exact H1|]. split; [exact H2|].
    intros Hd. destruct (H3 Hd) as [H|H]; [left; exact H|right; apply elem_of_union_r, H].
Qed.

Lemma finv_init : FInv finit.
Proof. constructor; [apply inv_init|unfold Cons; cbn; constructor|intros l []]. Qed.

Lemma frun_finv fops : forall s, FInv s -> FInv (frun fops s).
Proof. induction fops as [|o fops IH]; intros s H; cbn; [exact H|]. apply IH, fstep_finv, H. Qed.

Lemma cons_by (P : firing -> bool) s :
  Cons s -> Permutation (map l_fire (landed_by P s) ++ flight_by P s) (List.filter P (fired (base s))).
Proof.
  intros C. unfold landed_by, flight_by. rewrite filter_map_comm, <- List.filter_app. apply perm_filter, C.
Qed.

Lemma cons_by_length (P : firing -> bool) s :
  Cons s -> (length (landed_by P s) + length (flight_by P s) = length (List.filter P (fired (base s))))%nat.
Proof. intros C. apply cons_by with (P := P) in C. apply Permutation_length in C. rewrite app_length, map_length in C. exact C. Qed.

Lemma In_landed_by P s l : In l (landed_by P s) <-> In l (landed s) /\ P (l_fire l) = true.
Proof. unfold landed_by. rewrite filter_In. tauto. Qed.

(** a class of Tells of which nothing is popped between two states: what arrives or is in flight of it in the later
    state was popped before the earlier one, and it is as much as was in flight or had arrived then *)
Lemma frozen (P : firing -> bool) S1 S2 :
  FInv S1 -> FInv S2 -> List.filter P (fired (base S2)) = List.filter P (fired (base S1)) ->
  (forall l, In l (landed_by P S2) -> f_time (l_fire l) <= fnow S1) /\
  (forall f, In f (flight_by P S2) -> f_time f <= fnow S1) /\
  (length (landed_by P S2) + length (flight_by P S2) = length (landed_by P S1) + length (flight_by P S1))%nat.
Proof.
  intros [I1 C1 _] [_ C2 _] E.
  assert (T : forall f, In f (map l_fire (landed_by P S2) ++ flight_by P S2) -> f_time f <= fnow S1).
  { intros f Hf%(Permutation_in _ (cons_by P S2 C2)). rewrite E in Hf. apply filter_In in Hf as [[_ Hle]%(inv_fired _ I1) _]. exact Hle. }
  split; [|split].
  - intros l Hl. apply T, in_app_iff. left. apply in_map, Hl.
  - intros f Hf. apply T, in_app_iff. right. exact Hf.
  - rewrite !cons_by_length, E by assumption. reflexivity.
Qed.

Lemma frun_landed_app fops : forall s,
  exists new, landed (frun fops s) = landed s ++ new /\
    forall l, In l new -> now (base s) <= l_time l /\
                          (f_recv (l_fire l) ∈ dead (base s) \/ f_recv (l_fire l) ∈ stopping s -> l_dead l = true).
Proof.
  induction fops as [|o fops IH]; intros s; cbn [frun].
  - exists []. rewrite app_nil_r. split; [reflexivity|intros l []].
  - destruct (IH (fst (fstep o s))) as (new & E & Hn). destruct o as [o|n|a0]; cbn in *.
    + exists new. split; [exact E|]. intros l Hl. destruct (Hn l Hl) as [H1 H2]. split.
      * pose proof (step_now_mono o (base s)). lia.
      * intros [Hd|Hd]; apply H2; [left; apply step_dead_mono, Hd|right; exact Hd].
    + destruct (nth_error (flight s) n) as [f|]; cbn in *; [|exists new; auto].
      exists (land_rec (base s) (stopping s) f :: new). split; [rewrite E, <- app_assoc; reflexivity|].
      intros l [<-|Hl]; [|apply Hn, Hl]. cbn. split; [lia|].
      unfold dead_letter, is_dead. intros [Hd|Hd]; apply orb_true_iff; [left|right]; apply bool_decide_eq_true; exact Hd.
    + exists new. split; [exact E|]. intros l Hl. destruct (Hn l Hl) as [H1 H2]. split; [exact H1|].
      intros [Hd|Hd]; apply H2; [left; exact Hd|right; apply elem_of_union_r, Hd].
Qed.

Section from.
  Variable S0 : fsched.
  Hypothesis HS0 : FInv S0.

Lemma frun_base_split pre o post :
  base (frun (pre ++ FBase o :: post) S0) = run (bops pre ++ o :: bops post) (base S0).
Proof. rewrite frun_base, bops_app. reflexivity. Qed.

Lemma call_view pre o post x :
  base (frun pre S0) = run (bops pre) (base S0) /\
  base (frun (pre ++ FBase o :: post) S0) = run (bops pre ++ o :: bops post) (base S0) /\
  Permutation (map l_fire (landings_of x (frun (pre ++ FBase o :: post) S0)) ++ flight_of x (frun (pre ++ FBase o :: post) S0))
              (fires_of x (run (bops pre ++ o :: bops post) (base S0))).
Proof.
  split; [apply frun_base|]. split; [apply frun_base_split|].
  rewrite <- frun_base_split. apply (cons_by (is_id x)), frun_finv, HS0.
Qed.

Lemma landing_of_fired pre o post x l :
  In l (landings_of x (frun (pre ++ FBase o :: post) S0)) ->
  In (l_fire l) (fires_of x (run (bops pre ++ o :: bops post) (base S0))) /\ In l (landed (frun (pre ++ FBase o :: post) S0)).
Proof.
  intros Hl. split; [|apply In_landed_by in Hl; tauto].
  eapply Permutation_in; [apply call_view|]. apply in_app_iff. left. apply in_map, Hl.
Qed.

Section call.
  Variables (pre : list fop) (o : op) (a recv ref : bytes) (p : N).
  Hypothesis Hs : is_sched o a recv ref p.
  Hypothesis Hok : snd (step o (base (frun pre S0))) = ROk.

  Lemma flight_payload post l :
    In l (landings_of (nid (base (frun pre S0))) (frun (pre ++ FBase o :: post) S0)) ->
    f_owner (l_fire l) = a /\ f_recv (l_fire l) = recv /\ f_ref (l_fire l) = ref /\ f_payload (l_fire l) = p /\
    f_time (l_fire l) <= l_time l /\
    (l_dead l = true -> recv ∈ dead (base (frun (pre ++ FBase o :: post) S0)) \/
                        recv ∈ stopping (frun (pre ++ FBase o :: post) S0)).
  Proof.
    intros [Hf Hl]%landing_of_fired. rewrite (frun_base pre) in Hok, Hf.
    destruct (thm_payload (base S0) (bops pre) o a recv ref p (bops post) _ (fi_inv _ HS0) Hs Hok Hf) as (H1 & H2 & H3 & H4 & _).
    destruct (fi_land _ (frun_finv _ _ HS0) l Hl) as (G1 & _ & G3). rewrite <- H2. repeat split; auto.
  Qed.

  Lemma flight_removed mid c post :
    removes a ref c ->
    let x := nid (base (frun pre S0)) in
    let S1 := frun (pre ++ FBase o :: mid) S0 in
    let S2 := frun (pre ++ FBase o :: mid ++ FBase c :: post) S0 in
    (forall l, In l (landings_of x S2) -> f_time (l_fire l) <= fnow S1) /\
    (forall f, In f (flight_of x S2) -> f_time f <= fnow S1) /\
    (length (landings_of x S2) + length (flight_of x S2) = length (landings_of x S1) + length (flight_of x S1))%nat.
  Proof.
    intros R. apply frozen; [apply frun_finv, HS0..|]. rewrite !frun_base_split, bops_app, bops_cons_base. rewrite (frun_base pre) in *.
    exact (thm_cancel_stops (base S0) (bops pre) o a recv ref p (bops mid) c (bops post) (fi_inv _ HS0) Hs Hok R).
  Qed.
End call.

Lemma flight_once_safety pre a recv ref d p post :
  snd (step (OOnce a recv ref d p) (base (frun pre S0))) = ROk ->
  let x := nid (base (frun pre S0)) in
  let S := frun (pre ++ FBase (OOnce a recv ref d p) :: post) S0 in
  (length (landings_of x S) + length (flight_of x S) <= 1)%nat /\
  (forall l, In l (landings_of x S) -> fnow (frun pre S0) + d <= f_time (l_fire l) /\ f_time (l_fire l) <= l_time l).
Proof.
  intros Hok x S. destruct (call_view pre (OOnce a recv ref d p) post x) as (E0 & _ & P).
  unfold fnow, x, S in *. rewrite E0 in *.
  pose proof (thm_once_safety (base S0) (bops pre) a recv ref d p (bops post) (fi_inv _ HS0) Hok) as O. split.
  - apply Permutation_length in P. rewrite app_length, map_length in P. rewrite P. exact (oi_len _ _ O).
  - intros l [Hf Hl]%landing_of_fired. split; [exact (oi_time _ _ O _ Hf)|apply (fi_land _ (frun_finv _ _ HS0) l Hl)].
Qed.

Lemma flight_once_cancelled pre a recv ref d p mid c post :
  snd (step (OOnce a recv ref d p) (base (frun pre S0))) = ROk -> removes a ref c -> elapsed (bops mid) < d ->
  let x := nid (base (frun pre S0)) in
  let S := frun (pre ++ FBase (OOnce a recv ref d p) :: mid ++ FBase c :: post) S0 in
  landings_of x S = [] /\ flight_of x S = [].
Proof.
  intros Hok R Hel x S. destruct (call_view pre (OOnce a recv ref d p) (mid ++ FBase c :: post) x) as (E0 & _ & P).
  unfold x in *. rewrite E0, bops_app, bops_cons_base in *.
  rewrite (thm_once_cancelled (base S0) (bops pre) a recv ref d p (bops mid) c (bops post) (fi_inv _ HS0) Hok R Hel) in P.
  apply Permutation_sym, Permutation_nil, app_eq_nil in P as [P1%map_eq_nil P2]. auto.
Qed.

Lemma flight_once_delivered pre a recv ref d p post1 dt post2 :
  snd (step (OOnce a recv ref d p) (base (frun pre S0))) = ROk ->
  no_stall (bops post1) -> Forall (fun o => ~ removes a ref o) (bops post1) ->
  d <= elapsed (bops post1) + Z.max dt 0 ->
  let x := nid (base (frun pre S0)) in
  let S := frun (pre ++ FBase (OOnce a recv ref d p) :: post1 ++ FBase (OTick dt) :: post2) S0 in
  exists f,
    f_time f = fnow (frun pre S0) + d /\ f_payload f = p /\ f_recv f = recv /\ f_owner f = a /\ f_ref f = ref /\
    ((landings_of x S = [] /\ flight_of x S = [f]) \/
     (exists l, landings_of x S = [l] /\ flight_of x S = [] /\ l_fire l = f /\ f_time f <= l_time l /\
                (recv ∉ dead (base S) -> recv ∉ stopping S -> l_dead l = false))).
Proof.
  intros Hok Hns Hnr Hel x S.
  destruct (call_view pre (OOnce a recv ref d p) (post1 ++ FBase (OTick dt) :: post2) x) as (E0 & _ & P).
  unfold fnow, x in *. rewrite E0, bops_app, bops_cons_base in *.
  destruct (thm_once_delivered (base S0) (bops pre) a recv ref d p (bops post1) dt (bops post2) (fi_inv _ HS0) Hok Hns Hnr Hel)
    as (f & E & Ht & Hp & Hr & Ho & Hf & _).
  exists f. repeat (split; [assumption|]). rewrite E in P. fold S in P.
  destruct (landings_of _ S) as [|l ls] eqn:El; cbn [map app] in P.
  - left. split; [reflexivity|]. apply Permutation_sym, Permutation_length_1_inv in P. exact P.
  - right. apply Permutation_sym, Permutation_length_1_inv in P. injection P as Ef P. apply app_eq_nil in P as [->%map_eq_nil ->].
    assert (Hl : In l (landings_of (nid (run (bops pre) (base S0))) S)) by (rewrite El; left; reflexivity).
    apply In_landed_by in Hl as [Hl _].
    destruct (fi_land _ (frun_finv _ _ HS0) l Hl) as (H1 & _ & H3). subst f. exists l. repeat split; [exact H1|].
    intros Hnd Hns'. destruct (l_dead l); [|reflexivity]. rewrite <- Hr in Hnd, Hns'. destruct (H3 eq_refl); contradiction.
Qed.

Lemma flight_loop_exact pre a recv ref i p post :
  snd (step (OLoop a recv ref i p) (base (frun pre S0))) = ROk ->
  no_stall (bops post) -> Forall (fun o => ~ removes a ref o) (bops post) ->
  let x := nid (base (frun pre S0)) in
  let S := frun (pre ++ FBase (OLoop a recv ref i p) :: post) S0 in
  Permutation (map (fun l => f_time (l_fire l)) (landings_of x S) ++ map f_time (flight_of x S))
              (grid (fnow (frun pre S0)) i (Z.to_nat ((fnow S - fnow (frun pre S0)) / i))).
Proof.
  intros Hok Hns Hnr x S. destruct (call_view pre (OLoop a recv ref i p) post x) as (E0 & E & P).
  apply (Permutation_map f_time) in P. rewrite map_app, map_map in P.
  unfold fnow, x, S in *. rewrite E0, E in *.
  rewrite <- (thm_loop_exact (base S0) (bops pre) a recv ref i p (bops post) (fi_inv _ HS0) Hok Hns Hnr). exact P.
Qed.

Lemma flight_loop_grid pre a recv ref i p post :
  snd (step (OLoop a recv ref i p) (base (frun pre S0))) = ROk -> no_stall (bops post) ->
  let x := nid (base (frun pre S0)) in
  let S := frun (pre ++ FBase (OLoop a recv ref i p) :: post) S0 in
  exists m : nat,
    Permutation (map (fun l => f_time (l_fire l)) (landings_of x S) ++ map f_time (flight_of x S))
                (grid (fnow (frun pre S0)) i m) /\
    fnow (frun pre S0) + Z.of_nat m * i <= fnow S.
Proof.
  intros Hok Hns x S. destruct (call_view pre (OLoop a recv ref i p) post x) as (E0 & E & P).
  apply (Permutation_map f_time) in P. rewrite map_app, map_map in P.
  unfold fnow, x, S in *. rewrite E0, E in *.
  destruct (thm_loop_grid (base S0) (bops pre) a recv ref i p (bops post) (fi_inv _ HS0) Hok Hns) as (m & Em & Hle).
  exists m. rewrite <- Em. auto.
Qed.

Lemma flight_death pre (a : bytes) post :
  let S1 := frun pre S0 in
  let S2 := frun (pre ++ FBase (ODied a) :: post) S0 in
  (forall l, In l (landed_by (owned_by a) S2) -> f_time (l_fire l) <= fnow S1) /\
  (forall f, In f (flight_by (owned_by a) S2) -> f_time f <= fnow S1) /\
  (length (landed_by (owned_by a) S2) + length (flight_by (owned_by a) S2) =
   length (landed_by (owned_by a) S1) + length (flight_by (owned_by a) S1))%nat /\
  (exists new, landed S2 = landed S1 ++ new /\
     forall l, In l new -> fnow S1 <= l_time l /\ (f_recv (l_fire l) = a -> l_dead l = true)).
Proof.
  intros S1 S2.
  destruct (frozen (owned_by a) S1 S2) as (H1 & H2 & H3); [apply frun_finv, HS0..| |do 3 (split; [assumption|])].
  { unfold S1, S2. rewrite frun_base_split, frun_base, run_app. apply died_frozen, run_inv, HS0. }
  unfold S2. rewrite frun_app. fold S1.
  destruct (frun_landed_app post (fst (fstep (FBase (ODied a)) S1))) as (new & En & Hn).
  exists new. split; [exact En|]. intros l Hl. destruct (Hn l Hl) as [G1 G2]. cbn [fstep fst base] in G1, G2. split.
  - pose proof (step_now_mono (ODied a) (base S1)). unfold fnow. lia.
  - intros Hr. apply G2. left. rewrite Hr. apply died_is_dead.
Qed.

Lemma flight_stop_sequence pre (a : bytes) killing post :
  let Sp := frun pre S0 in
  let S1 := frun (pre ++ FStopping a :: killing) S0 in
  let S2 := frun (pre ++ FStopping a :: killing ++ FBase (ODied a) :: post) S0 in
  (forall l, In l (landed_by (owned_by a) S2) -> f_time (l_fire l) <= fnow S1) /\
  (forall f, In f (flight_by (owned_by a) S2) -> f_time f <= fnow S1) /\
  (length (landed_by (owned_by a) S2) + length (flight_by (owned_by a) S2) =
   length (landed_by (owned_by a) S1) + length (flight_by (owned_by a) S1))%nat /\
  (exists new, landed S2 = landed Sp ++ new /\ forall l, In l new -> f_recv (l_fire l) = a -> l_dead l = true).
Proof.
  intros Sp S1 S2.
  destruct (flight_death (pre ++ FStopping a :: killing) a post) as (H1 & H2 & H3 & _).
  rewrite <- app_assoc in H1, H2, H3. do 3 (split; [assumption|]).
  unfold S2. rewrite frun_app. fold Sp.
  destruct (frun_landed_app (killing ++ FBase (ODied a) :: post) (fst (fstep (FStopping a) Sp))) as (new & En & Hn).
  exists new. split; [exact En|]. intros l Hl Hr. apply (Hn l Hl). right. rewrite Hr. apply elem_of_union_l, elem_of_singleton. reflexivity.
Qed.

Lemma flight_restart_sequence pre (a : bytes) killing post :
  let S1 := frun (pre ++ killing) S0 in
  let S2 := frun (pre ++ killing ++ FBase (ORestarted a) :: post) S0 in
  let old := old_job_of a (nid (base S1)) in
  (forall l, In l (landed_by old S2) -> f_time (l_fire l) <= fnow S1) /\
  (forall f, In f (flight_by old S2) -> f_time f <= fnow S1) /\
  (length (landed_by old S2) + length (flight_by old S2) = length (landed_by old S1) + length (flight_by old S1))%nat /\
  (forall k j, tbl (base (frun (pre ++ killing ++ [FBase (ORestarted a)]) S0)) !! k = Some j -> j_owner j <> a).
Proof.
  intros S1 S2 old. unfold S2. rewrite !app_assoc. fold S1.
  destruct (frozen old S1 (frun ((pre ++ killing) ++ FBase (ORestarted a) :: post) S0)) as (H1 & H2 & H3);
    [apply frun_finv, HS0..| |do 3 (split; [assumption|])].
  - unfold old, S1. rewrite frun_base_split, frun_base, run_app. apply restarted_frozen, run_inv, HS0.
  - rewrite frun_base_split. cbn [bops flat_map]. rewrite run_app. apply restarted_clears, run_inv, HS0.
Qed.

Lemma landing_sound fops l :
  let S := frun fops S0 in
  In l (landed S) ->
  In (l_fire l) (fired (base S)) /\ f_time (l_fire l) <= l_time l /\ l_time l <= fnow S /\
  (l_dead l = true -> f_recv (l_fire l) ∈ dead (base S) \/ f_recv (l_fire l) ∈ stopping S).
Proof.
  intros S H. destruct (frun_finv fops _ HS0) as [_ C L]. split; [|apply (L l H)].
  eapply Permutation_in; [exact C|]. apply in_app_iff. left. apply in_map, H.
Qed.

End from.

Lemma frun_lands_base fops s : bops fops = [] -> base (frun fops s) = base s.
Proof. intros H. rewrite frun_base, H. reflexivity. Qed.

Lemma land_seq (rdy : firing -> bool) b st : forall l keep L,
  List.filter rdy keep = [] ->
  exists fops, bops fops = [] /\
    frun fops (mkF b (keep ++ l) L st) =
    mkF b (keep ++ List.filter (fun f => negb (rdy f)) l) (L ++ map (land_rec b st) (List.filter rdy l)) st.
Proof.
  induction l as [|x l IH]; intros keep L Hk.
  - exists []. split; [reflexivity|]. cbn. rewrite !app_nil_r. reflexivity.
  - cbn [List.filter]. destruct (rdy x) eqn:Ex; cbn [negb].
    + destruct (IH keep (L ++ [land_rec b st x]) Hk) as (fops & Hb & E).
      exists (FLand (length keep) :: fops). split; [exact Hb|].
      cbn [frun fstep flight base landed stopping].
      assert (Hn : nth_error (keep ++ x :: l) (length keep) = Some x).
      { rewrite nth_error_app2 by lia. rewrite Nat.sub_diag. reflexivity. }
      rewrite Hn. cbn [fst].
      assert (H1 : firstn (length keep) (keep ++ x :: l) = keep).
      { rewrite firstn_app, Nat.sub_diag, firstn_all. cbn. apply app_nil_r. }
      assert (H2 : skipn (S (length keep)) (keep ++ x :: l) = l).
      { rewrite skipn_app. rewrite skipn_all2 by lia. replace (S (length keep) - length keep)%nat with 1%nat by lia. reflexivity. }
      rewrite H1, H2, E. cbn [map]. rewrite <- app_assoc. reflexivity.
    + destruct (IH (keep ++ [x]) L) as (fops & Hb & E).
      { rewrite List.filter_app, Hk. cbn. rewrite Ex. reflexivity. }
      exists fops. split; [exact Hb|]. rewrite <- !app_assoc in E. cbn in E. exact E.
Qed.

Lemma land_ready_frun d :
  exists fops, bops fops = [] /\ fs (land_ready d) = frun fops (fs d).
Proof.
  destruct d as [[b fl L st] bl hd w]. unfold land_ready; cbn [fs blocked held waiting base flight landed stopping].
  destruct (land_seq (ready bl w) b st fl [] L eq_refl) as (fops & Hb & E).
  exists fops. split; [exact Hb|]. cbn [app] in E. symmetry. exact E.
Qed.

Lemma dstep_frun o d :
  exists fops, fs (fst (dstep o d)) = frun fops (fs d) /\
               bops fops = match o with DBase o => [o] | _ => [] end.
Proof.
  unfold dstep; cbn [fst].
  destruct (land_ready_frun (fst (dapply o d))) as (fops & Hb & E).
  destruct o as [o|a|a|a r|a r|a]; cbn [dapply fst] in *;
    [exists (FBase o :: fops)|exists fops..|exists (FStopping a :: fops)];
    (split; [rewrite E; reflexivity|]); [rewrite bops_cons_base, Hb; reflexivity|exact Hb..].
Qed.

Lemma drun_is_frun dops :
  exists fops, fs (drun dops dinit) = frun fops finit /\ bops fops = dbops dops.
Proof.
  change finit with (fs dinit). generalize dinit. induction dops as [|o dops IH]; intros d; cbn [drun].
  - exists []. split; reflexivity.
  - destruct (dstep_frun o d) as (f1 & E1 & B1). destruct (IH (fst (dstep o d))) as (f2 & E2 & B2).
    exists (f1 ++ f2). split; [rewrite frun_app, <- E1; exact E2|].
    rewrite bops_app, B1, B2. reflexivity.
Qed.

Definition Prompt (d : dsched) : Prop :=
  blocked d = ∅ /\ held d = ∅ /\ waiting d = [] /\ stopping (fs d) = ∅ /\ flight (fs d) = [] /\
  map l_fire (landed (fs d)) = fired (base (fs d)) /\
  Forall (fun l => l_dead l = f_dead (l_fire l)) (landed (fs d)).

Lemma ready_empty f : ready ∅ [] f = true.
Proof. unfold ready. rewrite (bool_decide_eq_false_2 (_ ∈ ∅)) by apply not_elem_of_empty. rewrite (bool_decide_eq_false_2 (_ ∈ [])) by apply not_elem_of_nil. reflexivity. Qed.

Lemma fetched_dead o b f : In f (fetched o b) -> f_dead f = dead_letter (fst (step o b)) ∅ (f_recv f).
Proof.
  destruct o; try intros []. intros (k & j & t & _ & -> & _)%(fetched_spec (OTick dt)).
  unfold dead_letter. rewrite (bool_decide_eq_false_2 (_ ∈ ∅)) by apply not_elem_of_empty. apply eq_sym, orb_false_r.
Qed.

Lemma dstep_prompt o d : Prompt d -> Prompt (fst (dstep (DBase o) d)).
Proof.
  intros (Hb & Hh & Hw & Hst & Hf & Hm & Hd). unfold dstep, land_ready; cbn [fst dapply fs blocked held waiting fstep base flight landed stopping].
  assert (E0 : List.filter (fun f => bool_decide (key_of f ∈ held d)) (fetched o (base (fs d))) = []).
  { apply filter_none. intros f _. rewrite Hh. apply bool_decide_eq_false_2, not_elem_of_empty. }
  rewrite Hb, Hh, Hf, Hst, Hw. rewrite Hh in E0. rewrite E0. cbn [app].
  assert (E1 : List.filter (ready ∅ []) (fetched o (base (fs d))) = fetched o (base (fs d))) by (apply filter_all; intros; apply ready_empty).
  assert (E2 : List.filter (fun f => negb (ready ∅ [] f)) (fetched o (base (fs d))) = []) by (apply filter_none; intros; rewrite ready_empty; reflexivity).
  rewrite E1, E2. repeat split; cbn [fs base landed flight blocked held waiting stopping].
  - rewrite map_app, map_map, Hm, step_fired. cbn. rewrite map_id. reflexivity.
  - apply Forall_app. split; [exact Hd|]. apply Coq.Lists.List.Forall_forall. intros l Hl. apply in_map_iff in Hl as (f & <- & Hin). cbn.
    symmetry. apply fetched_dead, Hin.
Qed.

Lemma thm_atomic_is_prompt ops :
  let d := drun (map DBase ops) dinit in
  flight (fs d) = [] /\
  map l_fire (landed (fs d)) = fired (run ops init) /\
  Forall (fun l => l_dead l = f_dead (l_fire l)) (landed (fs d)).
Proof.
  enough (H : forall d, Prompt d -> Prompt (drun (map DBase ops) d) /\ base (fs (drun (map DBase ops) d)) = run ops (base (fs d))).
  { destruct (H dinit) as [(_ & _ & _ & _ & Hf & Hm & Hd) E]; [repeat split; constructor|].
    split; [exact Hf|]. split; [|exact Hd]. rewrite Hm, E. reflexivity. }
  induction ops as [|o ops IH]; intros d H; cbn [map drun run]; [auto|]. apply IH, dstep_prompt, H.
Qed.
