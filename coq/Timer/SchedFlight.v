(** In-flight firings: the refinement of Timer/SchedModel.v in which a firing is NOT atomic.

    go-quartz v0.15.2, quartz/scheduler.go: at the firing instant the execution loop pops the job under the
    queue lock ([fetchAndReschedule]: Pop, validate, Push of the rescheduled job - a RunOnceTrigger has expired
    and is not pushed again) and then starts a NEW goroutine for the job ([executeAndReschedule]:
    [go executeWithRetries]).  That goroutine runs vivid's job function ([Scheduler.scheduleJob]:
    [s.tell(receiver, message, opts)] = [ctx.Tell] / [ctx.TellSelf] of a SchedulerMessage, internal/actor/scheduler.go),
    i.e. the enqueue into the receiver's mailbox; the receiver's mailbox goroutine hands the message to the
    behaviour later (or to the dead-letter stream if the receiver has terminated by then).  Between the pop and
    the behaviour anything can happen: Cancel / Clear (they only take the queue lock: [DeleteJob]), the owner's or the
    receiver's termination, a restart, further firings of the same Loop.

    The machine here has the two steps:
      [FBase o]   an op of the atomic model (Timer/SchedModel.v [step]); what the quartz loop POPS during an [OTick]
                  (the list the atomic model appends to [fired]) is appended to [flight] - a firing record's [f_time]
                  is the firing instant (the pop);
      [FLand n]   the n-th Tell in flight reaches its receiver's behaviour - or the dead-letter stream when the
                  receiver is dead or stopping AT THAT MOMENT ([l_dead]); any of the Tells in flight may be the
                  next one (goroutines and mailboxes are scheduled arbitrarily), at any later time;
      [FStopping a]  the stop sequence of actor a begins ([Context.doKill] for a termination: state killing): from
                  now on [HandleEnvelop] turns every user message for a into a dead letter.  NOTHING is cleared
                  here: the handlers of the stop sequence still run - the OnKill handler, the handlers of the
                  children's OnKilled while a waits for them, a's own OnKilled handler - and may call
                  Once / Loop / Cron / Cancel like any handler (ordinary ops of a); its jobs keep firing (into dead
                  letters when they are addressed to a itself).  The sequence ENDS with [FBase (ODied a)]: that is
                  [killedHandler.cleanupScheduler] = Clear, after the own OnKilled handler (a restart ends with
                  [FBase (ORestarted a)] at the same place of the chain, before the new incarnation is created).
    The goroutine's enqueue and the mailbox's dequeue are one step here: both are arbitrary delays of the same
    message and what the behaviour / the dead-letter stream sees is decided at the dequeue.

    [base] of a flight state is a state of the atomic model and evolves by exactly its [step]: every theorem of
    Properties/C20.v about [fired] is a theorem about the pops of this machine.

    The DRIVER ([dstep]) is the deterministic scheduler of this machine that the correspondence check runs
    against the real code: every Tell in flight lands at once, except while its receiver is BLOCKED (its mailbox
    goroutine sits in a long handler: the messages queue up behind it) or it WAITS AT THE GATE (it was popped while
    its job key was held: the goroutine quartz started is suspended before the Tell until the key is released; a Tell
    popped before the hold has passed the gate already).  [drun_is_frun] (SchedFlightProofs.v): every driver run is a run of
    the general machine. *)
From Coq Require Import List NArith ZArith Bool.
From stdpp Require Import gmap.
From Vivid Require Import Timer.SchedModel.
Local Open Scope Z_scope.

Record landing : Type := mkLanding {
  l_fire : firing;   (* the pop it belongs to; f_time (l_fire l) = the firing instant *)
  l_time : Z;        (* when the receiver's mailbox handed it to the behaviour / to the dead-letter stream *)
  l_dead : bool;     (* dead letter: the receiver had terminated by then *)
}.

Record fsched : Type := mkF {
  base : sched;            (* the atomic model's state: clock, quartz queue, jobKeys, dead actors, [fired] = all pops so far *)
  flight : list firing;    (* popped, the Tell has not reached the receiver's behaviour yet (oldest first) *)
  landed : list landing;   (* what behaviours and the dead-letter stream have seen so far (oldest first) *)
  stopping : gset (list N);  (* actors whose stop sequence has begun (state killing or later) *)
}.

Definition finit : fsched := mkF init [] [] ∅.

(** what the quartz loop pops during op [o] in state [b]: exactly what [step o b] appends to [fired b] *)
Definition fetched (o : op) (b : sched) : list firing :=
  match o with
  | OTick dt => flat_map (fun kj => fst (advance (dead b) (now b) (now b + Z.max dt 0) (snd kj))) (map_to_list (tbl b))
  | _ => []
  end.

Inductive fop : Type :=
| FBase (o : op)
| FLand (n : nat)
| FStopping (a : bytes).

Inductive fres : Type :=
| FR (r : res)
| FLanded (x : N) (dead : bool)   (* a Tell of scheduling call x arrived (dead: as a dead letter) *)
| FNone.                          (* there is no n-th Tell in flight *)

(** a user message for [r] becomes a dead letter: r has terminated, or its stop sequence has begun *)
Definition dead_letter (b : sched) (st : gset (list N)) (r : bytes) : bool := is_dead b r || bool_decide (r ∈ st).

Definition land_rec (b : sched) (st : gset (list N)) (f : firing) : landing :=
  mkLanding f (now b) (dead_letter b st (f_recv f)).

Definition fstep (o : fop) (s : fsched) : fsched * fres :=
  match o with
  | FBase o =>
      (mkF (fst (step o (base s))) (flight s ++ fetched o (base s)) (landed s) (stopping s), FR (snd (step o (base s))))
  | FLand n =>
      match nth_error (flight s) n with
      | Some f => (mkF (base s) (firstn n (flight s) ++ skipn (S n) (flight s))
                       (landed s ++ [land_rec (base s) (stopping s) f]) (stopping s),
                   FLanded (f_id f) (dead_letter (base s) (stopping s) (f_recv f)))
      | None => (s, FNone)
      end
  | FStopping a => (mkF (base s) (flight s) (landed s) ({[a]} ∪ stopping s), FR RUnit)
  end.

Fixpoint frun (ops : list fop) (s : fsched) : fsched :=
  match ops with
  | [] => s
  | o :: r => frun r (fst (fstep o s))
  end.

Fixpoint frun_res (ops : list fop) (s : fsched) : list fres :=
  match ops with
  | [] => []
  | o :: r => snd (fstep o s) :: frun_res r (fst (fstep o s))
  end.

(** the ops of the atomic model inside a flight run *)
Definition bops (l : list fop) : list op :=
  flat_map (fun o => match o with FBase o => [o] | _ => [] end) l.

Definition fnow (s : fsched) : Z := now (base s).

Definition landed_by (P : firing -> bool) (s : fsched) : list landing :=
  List.filter (fun l => P (l_fire l)) (landed s).
Definition flight_by (P : firing -> bool) (s : fsched) : list firing := List.filter P (flight s).

Definition is_id (x : N) (f : firing) : bool := (f_id f =? x)%N.
Definition owned_by (a : bytes) (f : firing) : bool := bool_decide (f_owner f = a).
(** a Tell of a job that actor [a] scheduled with one of its first [n] successful scheduling calls of the run *)
Definition old_job_of (a : bytes) (n : N) (f : firing) : bool := owned_by a f && (f_id f <? n)%N.

(** what has arrived / is still in flight of scheduling call [x] *)
Definition landings_of (x : N) (s : fsched) : list landing := landed_by (is_id x) s.
Definition flight_of (x : N) (s : fsched) : list firing := flight_by (is_id x) s.

Global Instance firing_eq_dec : EqDecision firing.
Proof. solve_decision. Defined.

Record dsched : Type := mkD {
  fs : fsched;
  blocked : gset (list N);             (* receivers whose mailbox goroutine is busy: messages queue up *)
  held : gset (list N * list N);       (* job keys (owner path, reference) whose Tell goroutines are stopped at the gate *)
  waiting : list firing;               (* the Tells that were popped while their key was held: they wait at the gate *)
}.

Definition dinit : dsched := mkD finit ∅ ∅ [].

(** a Tell is ready to arrive: it does not wait at the gate and its receiver's mailbox drains.  (A Tell popped BEFORE its
    key was held has passed the gate already: a later hold does not stop it.) *)
Definition ready (bl : gset (list N)) (w : list firing) (f : firing) : bool :=
  negb (bool_decide (f_recv f ∈ bl)) && negb (bool_decide (f ∈ w)).

(** every ready Tell in flight lands now, oldest first *)
Definition land_ready (d : dsched) : dsched :=
  let s := fs d in
  let rdy := ready (blocked d) (waiting d) in
  mkD (mkF (base s) (List.filter (fun f => negb (rdy f)) (flight s))
           (landed s ++ map (land_rec (base s) (stopping s)) (List.filter rdy (flight s))) (stopping s))
      (blocked d) (held d) (waiting d).

Inductive dop : Type :=
| DBase (o : op)
| DBlock (a : bytes)          (* a handler of actor a begins that does not return until DUnblock *)
| DUnblock (a : bytes)
| DHold (a ref : bytes)       (* from now on the Tell goroutines of the key (a, ref) stop before the Tell, until DRelease *)
| DRelease (a ref : bytes)
| DStopping (a : bytes).      (* the stop sequence of a begins *)

Definition key_of (f : firing) : list N * list N := (f_owner f, f_ref f).

Definition dapply (o : dop) (d : dsched) : dsched * res :=
  match o with
  | DBase o =>
      (mkD (fst (fstep (FBase o) (fs d))) (blocked d) (held d)
           (waiting d ++ List.filter (fun f => bool_decide (key_of f ∈ held d)) (fetched o (base (fs d)))),
       snd (step o (base (fs d))))
  | DBlock a => (mkD (fs d) ({[a]} ∪ blocked d) (held d) (waiting d), RUnit)
  | DUnblock a => (mkD (fs d) (blocked d ∖ {[a]}) (held d) (waiting d), RUnit)
  | DHold a r => (mkD (fs d) (blocked d) ({[(a, r)]} ∪ held d) (waiting d), RUnit)
  | DRelease a r => (mkD (fs d) (blocked d) (held d ∖ {[(a, r)]})
                         (List.filter (fun f => negb (bool_decide (key_of f = (a, r)))) (waiting d)), RUnit)
  | DStopping a => (mkD (fst (fstep (FStopping a) (fs d))) (blocked d) (held d) (waiting d), RUnit)
  end.

Definition dstep (o : dop) (d : dsched) : dsched * res :=
  (land_ready (fst (dapply o d)), snd (dapply o d)).

Fixpoint drun (ops : list dop) (d : dsched) : dsched :=
  match ops with
  | [] => d
  | o :: r => drun r (fst (dstep o d))
  end.

Fixpoint drun_res (ops : list dop) (d : dsched) : list res :=
  match ops with
  | [] => []
  | o :: r => snd (dstep o d) :: drun_res r (fst (dstep o d))
  end.

Definition dbops (l : list dop) : list op :=
  flat_map (fun o => match o with DBase o => [o] | _ => [] end) l.
