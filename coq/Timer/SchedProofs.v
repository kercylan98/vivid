(** Lemmas about Timer/SchedModel.v (C20).  A step is analysed through its [effect]; the Tells of one scheduling call are
    followed by its number ([Call], [OnceInv], [LoopInv]), classes of Tells that have stopped by [silent] / [closed].  The
    [thm_*] lemmas are the statements of Properties/C20.v for runs from ANY state that satisfies [Inv]: Timer/SchedFlightProofs.v
    starts them from the base of a flight state. *)
From Coq Require Import List NArith ZArith Bool Lia.
From stdpp Require Import gmap.
From Vivid Require Import Timer.SchedModel Timer.SchedFlight.
Local Open Scope Z_scope.

Lemma filter_all {A} (P : A -> bool) l : (forall a, In a l -> P a = true) -> List.filter P l = l.
Proof. induction l as [|a l IH]; cbn; intros H; [reflexivity|]. rewrite H by auto. f_equal. apply IH. auto. Qed.
Lemma filter_none {A} (P : A -> bool) l : (forall a, In a l -> P a = false) -> List.filter P l = [].
Proof. induction l as [|a l IH]; cbn; intros H; [reflexivity|]. rewrite H by auto. apply IH. auto. Qed.

Lemma job_key_inj a1 r1 a2 r2 : job_key a1 r1 = job_key a2 r2 -> a1 = a2 /\ r1 = r2.
Proof. intros [= -> ->]. auto. Qed.

Lemma delete_all_lookup_Some (ks : list key) (t : jobtbl) (k : key) j :
  delete_all ks t !! k = Some j <-> t !! k = Some j /\ k ∉ ks.
Proof.
  induction ks as [|x ks IH]; cbn.
  - rewrite elem_of_nil. tauto.
  - rewrite lookup_delete_Some, IH, not_elem_of_cons. intuition congruence.
Qed.

Lemma values_elem (m : keymap) (k : key) : k ∈ map snd (map_to_list m) <-> exists r, m !! r = Some k.
Proof.
  rewrite elem_of_list_In, in_map_iff. split.
  - intros ((r, k') & <- & Hin). exists r. apply elem_of_list_In, elem_of_map_to_list in Hin. exact Hin.
  - intros (r & Hr). exists (r, k). split; [reflexivity|]. apply elem_of_list_In, elem_of_map_to_list. exact Hr.
Qed.

Lemma jk_of_with_jk s a m b : jk_of (with_jk s a m) b = if decide (a = b) then m else jk_of s b.
Proof.
  unfold jk_of, with_jk; cbn. destruct (decide (a = b)) as [->|Hne].
  - rewrite lookup_insert. reflexivity.
  - rewrite lookup_insert_ne by assumption. reflexivity.
Qed.

Lemma jk_of_insert s a recv ref p tr nx b :
  jk_of (insert_job s a recv ref p tr nx) b =
  if decide (a = b) then <[ref := job_key a ref]> (jk_of s a) else jk_of s b.
Proof. exact (jk_of_with_jk s a _ b). Qed.

Lemma removes_cases a r o :
  removes a r o <->
  match o with
  | OCancel a' r' => a = a' /\ r = r'
  | OClear a' | ODied a' | ORestarted a' => a = a'
  | _ => False
  end.
Proof. unfold removes. destruct o; split; try tauto; intuition congruence. Qed.

Lemma loop_fires_spec dd j n i lo c f :
  In f (loop_fires dd j n i lo c) ->
  exists q : nat, (q < c)%nat /\ f = fire_of dd j (Z.max lo (n + Z.of_nat q * i)).
Proof.
  revert n. induction c as [|c IH]; intros n; cbn; [tauto|].
  intros [<-|H].
  - exists 0%nat. split; [lia|]. f_equal. lia.
  - apply IH in H as (q & Hq & ->). exists (S q). split; [lia|]. f_equal. lia.
Qed.

Lemma loop_fires_times dd j n i lo c :
  lo <= n -> 0 <= i ->
  map f_time (loop_fires dd j n i lo c) = map (fun q => n + Z.of_nat q * i) (seq 0 c).
Proof.
  revert n. induction c as [|c IH]; intros n Hn Hi; [reflexivity|].
  cbn [loop_fires map seq]. f_equal; [cbn; lia|].
  rewrite IH by lia. rewrite <- seq_shift, map_map. apply map_ext. intros q. lia.
Qed.

Lemma loop_fires_id dd j n i lo c f : In f (loop_fires dd j n i lo c) -> f_id f = j_id j.
Proof. intros H. apply loop_fires_spec in H as (q & _ & ->). reflexivity. Qed.

Lemma advance_early dd lo hi j : hi < j_next j -> advance dd lo hi j = ([], AKeep j).
Proof. intros H. unfold advance. rewrite (proj2 (Z.ltb_lt _ _) H). destruct (j_trig j); reflexivity. Qed.

Lemma advance_once_due dd lo hi j :
  j_trig j = TOnce -> j_next j <= hi ->
  advance dd lo hi j =
  (if j_next j <? lo - thr then [] else [fire_of dd j (Z.max lo (j_next j))], ADrop).
Proof.
  intros Ht H. unfold advance. rewrite Ht, (proj2 (Z.ltb_ge _ _) H). destruct (j_next j <? lo - thr); reflexivity.
Qed.

Lemma set_next_same j : set_next j (j_next j) = j.
Proof. destruct j; reflexivity. Qed.

Lemma advance_loop dd lo hi j i :
  j_trig j = TLoop i -> 0 < i -> lo - thr <= j_next j ->
  exists c : nat,
    advance dd lo hi j = (loop_fires dd j (j_next j) i lo c, AKeep (set_next j (j_next j + Z.of_nat c * i))) /\
    hi < j_next j + Z.of_nat c * i /\ (c = 0%nat \/ j_next j + Z.of_nat c * i - i <= hi).
Proof.
  intros Ht Hi Hlo. destruct (Z.lt_ge_cases hi (j_next j)) as [He|Hhi].
  - exists 0%nat. rewrite advance_early by exact He. cbn [loop_fires Z.of_nat]. rewrite Z.mul_0_l, Z.add_0_r, set_next_same. auto.
  - unfold advance.
    rewrite Ht, (proj2 (Z.ltb_ge _ _) Hhi), (proj2 (Z.leb_gt _ _) Hi), (proj2 (Z.ltb_ge _ _) Hlo), (proj2 (Z.ltb_ge _ _) Hhi).
    pose proof (Z.div_pos (hi - j_next j) i ltac:(lia) Hi).
    pose proof (Z.mul_div_le (hi - j_next j) i Hi). pose proof (Z.mul_succ_div_gt (hi - j_next j) i Hi).
    exists (Z.to_nat ((hi - j_next j) / i + 1)). rewrite Z2Nat.id by lia. split; [reflexivity|lia].
Qed.

Lemma advance_spec dd lo hi j :
  lo <= hi ->
  (forall f, In f (fst (advance dd lo hi j)) -> exists t, f = fire_of dd j t /\ lo <= t <= hi /\ j_next j <= t) /\
  (forall j', adv_keep (snd (advance dd lo hi j)) = Some j' -> exists n, j' = set_next j n /\ j_next j <= n).
Proof.
  intros Hle.
  assert (Hj : (forall f, In f [] -> exists t, f = fire_of dd j t /\ lo <= t <= hi /\ j_next j <= t) /\
               (forall j', Some j = Some j' -> exists n, j' = set_next j n /\ j_next j <= n)).
  { split; [intros f []|]. intros j' [= <-]. exists (j_next j). rewrite set_next_same. split; [reflexivity|lia]. }
  unfold advance. destruct (j_trig j) as [|i|]; [| |exact Hj].
  - destruct (Z.ltb_spec hi (j_next j)); [exact Hj|].
    destruct (Z.ltb_spec (j_next j) (lo - thr)); (split; [|discriminate]); [intros f []|].
    intros f [<-|[]]. eexists. split; [reflexivity|]. lia.
  - destruct (Z.ltb_spec hi (j_next j)); [exact Hj|]. destruct (Z.leb_spec i 0); [exact Hj|].
    set (n1 := if j_next j <? lo - thr then lo + i else j_next j).
    assert (Hn1 : j_next j <= n1 /\ lo - thr <= n1) by (subst n1; destruct (Z.ltb_spec (j_next j) (lo - thr)); unfold thr in *; lia).
    destruct (Z.ltb_spec hi n1); cbn [fst snd adv_keep].
    + split; [intros f []|]. intros j' [= <-]. eexists. split; [reflexivity|]. cbn. lia.
    + pose proof (Z.div_pos (hi - n1) i ltac:(lia) ltac:(lia)). pose proof (Z.mul_div_le (hi - n1) i ltac:(lia)).
      split.
      * intros f (q & Hq & ->)%loop_fires_spec. eexists. split; [reflexivity|]. nia.
      * intros j' [= <-]. eexists. split; [reflexivity|]. cbn. nia.
Qed.

Record Inv (s : sched) : Prop := mkInv {
  inv_key : forall k j, tbl s !! k = Some j -> k = job_key (j_owner j) (j_ref j);
  inv_own : forall k j, tbl s !! k = Some j -> jk_of s (j_owner j) !! j_ref j = Some k;
  inv_alive : forall k j, tbl s !! k = Some j -> j_owner j ∉ dead s;
  inv_idlt : forall k j, tbl s !! k = Some j -> (j_id j < nid s)%N;
  inv_uniq : forall k1 k2 j1 j2, tbl s !! k1 = Some j1 -> tbl s !! k2 = Some j2 -> j_id j1 = j_id j2 -> k1 = k2;
  inv_jk : forall a r k, jk_of s a !! r = Some k -> k = job_key a r;
  inv_fired : forall f, In f (fired s) -> (f_id f < nid s)%N /\ f_time f <= now s;
  inv_deadjk : forall a, a ∈ dead s -> jk_of s a = ∅;
}.

Lemma inv_init : Inv init.
Proof. constructor; unfold jk_of; cbn; set_solver. Qed.

Lemma insert_tbl_lookup s a recv ref p tr nx k0 j0 :
  tbl s !! job_key a ref = None ->
  (tbl (insert_job s a recv ref p tr nx) !! k0 = Some j0 <->
   tbl s !! k0 = Some j0 \/ (k0 = job_key a ref /\ j0 = mkJob (nid s) a recv ref p tr nx)).
Proof. intros E. cbn. rewrite lookup_insert_Some. intuition congruence. Qed.

Lemma insert_inv s a recv ref p tr nx :
  Inv s -> a ∉ dead s -> tbl s !! job_key a ref = None -> Inv (insert_job s a recv ref p tr nx).
Proof.
  intros I Ha Hfree. constructor.
  - intros k j [H|[-> ->]]%insert_tbl_lookup; [eapply inv_key; eauto|reflexivity|exact Hfree].
  - intros k j H. rewrite jk_of_insert. apply insert_tbl_lookup in H as [H|[-> ->]]; [| |exact Hfree]; cbn.
    + pose proof (inv_own _ I _ _ H) as Ho. case_decide as Ea; [subst a|exact Ho].
      (* the key of another reference: the key of [ref] itself is free *)
      rewrite lookup_insert_ne; [exact Ho|]. intros ->. pose proof (inv_key _ I _ _ H) as ->. congruence.
    + rewrite decide_True by reflexivity. apply lookup_insert.
  - intros k j [H|[-> ->]]%insert_tbl_lookup; [exact (inv_alive _ I _ _ H)|exact Ha|exact Hfree].
  - intros k j [H%(inv_idlt _ I)|[-> ->]]%insert_tbl_lookup; [cbn; lia..|exact Hfree].
  - intros k1 k2 j1 j2 [H1|[-> ->]]%insert_tbl_lookup [H2|[-> ->]]%insert_tbl_lookup Hid; try exact Hfree.
    + exact (inv_uniq _ I _ _ _ _ H1 H2 Hid).
    + pose proof (inv_idlt _ I _ _ H1). cbn in Hid. lia.
    + pose proof (inv_idlt _ I _ _ H2). cbn in Hid. lia.
    + reflexivity.
  - intros b r k. rewrite jk_of_insert. case_decide as Ea; [subst b|apply (inv_jk _ I)].
    intros [[<- <-]|[_ H]]%lookup_insert_Some; [reflexivity|exact (inv_jk _ I _ _ _ H)].
  - intros f [Hid Ht]%(inv_fired _ I). cbn. lia.
  - intros b Hb. rewrite jk_of_insert, decide_False by (intros ->; contradiction). exact (inv_deadjk _ I _ Hb).
Qed.

(** the frame of Cancel and Clear: actor [a] forgets some references, their jobs leave the queue *)
Lemma shrink_inv (s : sched) (a : bytes) (t : jobtbl) (m : keymap) :
  Inv s ->
  (forall k j, t !! k = Some j -> tbl s !! k = Some j) ->
  (forall r k, m !! r = Some k -> jk_of s a !! r = Some k) ->
  (forall k j, t !! k = Some j -> j_owner j = a -> m !! j_ref j = Some k) ->
  Inv (with_jk (with_tbl s t) a m).
Proof.
  intros I Ht Hm Ha. constructor; cbn [tbl dead fired nid now with_jk with_tbl].
  - intros k j H%Ht. exact (inv_key _ I _ _ H).
  - intros k j H. rewrite jk_of_with_jk. case_decide as Eo; [exact (Ha _ _ H (eq_sym Eo))|exact (inv_own _ I _ _ (Ht _ _ H))].
  - intros k j H%Ht. exact (inv_alive _ I _ _ H).
  - intros k j H%Ht. exact (inv_idlt _ I _ _ H).
  - intros k1 k2 j1 j2 H1%Ht H2%Ht. exact (inv_uniq _ I _ _ _ _ H1 H2).
  - intros b r k. rewrite jk_of_with_jk. case_decide as Eb; [subst b; intros H%Hm; exact (inv_jk _ I _ _ _ H)|apply (inv_jk _ I)].
  - apply (inv_fired _ I).
  - intros b Hb. rewrite jk_of_with_jk. case_decide as Eb; [subst b|exact (inv_deadjk _ I _ Hb)].
    apply map_empty. intros r. destruct (m !! r) as [k|] eqn:E; [|reflexivity].
    apply Hm in E. rewrite (inv_deadjk _ I _ Hb) in E. discriminate.
Qed.

Lemma cancel_tbl s a r k j :
  Inv s ->
  (tbl (fst (cancel s a r)) !! k = Some j <-> tbl s !! k = Some j /\ ~ (j_owner j = a /\ j_ref j = r)).
Proof.
  intros I. unfold cancel. destruct (jk_of s a !! r) as [k0|] eqn:E; cbn.
  - rewrite lookup_delete_Some. apply (inv_jk _ I) in E as ->.
    split; intros [H1 H2]; split; try assumption.
    + intros [<- <-]. apply H1. symmetry. exact (inv_key _ I _ _ H2).
    + intros <-. apply (inv_key _ I), job_key_inj in H1 as [-> ->]. tauto.
  - split; [|tauto]. intros H. split; [exact H|]. intros [<- <-]. rewrite (inv_own _ I _ _ H) in E. discriminate.
Qed.

Lemma clear_tbl s a k j :
  Inv s -> (tbl (clear s a) !! k = Some j <-> tbl s !! k = Some j /\ j_owner j <> a).
Proof.
  intros I. cbn. rewrite delete_all_lookup_Some, values_elem. split; intros [H Hn]; (split; [exact H|]).
  - intros <-. apply Hn. exists (j_ref j). exact (inv_own _ I _ _ H).
  - intros (r & Hr). apply Hn. apply (inv_jk _ I) in Hr. apply (inv_key _ I) in H. rewrite Hr in H.
    apply job_key_inj in H as [-> _]. reflexivity.
Qed.

Lemma clear_jk s a : jk_of (clear s a) a = ∅.
Proof. unfold clear. rewrite jk_of_with_jk, decide_True by reflexivity. reflexivity. Qed.

Lemma cancel_inv s a ref : Inv s -> Inv (fst (cancel s a ref)).
Proof.
  intros I. pose proof (cancel_tbl s a ref) as Ht. unfold cancel in *.
  destruct (jk_of s a !! ref) as [k|] eqn:E; [|exact I]. cbn [fst] in *. apply shrink_inv; [exact I|..].
  - intros k0 j H. apply (Ht k0 j I). exact H.
  - intros r k0 [_ H]%lookup_delete_Some. exact H.
  - intros k0 j H%(Ht k0 j I) Ho. rewrite lookup_delete_ne by (intros ->; apply H; auto). rewrite <- Ho. exact (inv_own _ I _ _ (proj1 H)).
Qed.

Lemma clear_inv s a : Inv s -> Inv (clear s a).
Proof.
  intros I. apply shrink_inv; [exact I|..].
  - intros k j H. apply (clear_tbl s a k j I). exact H.
  - intros r k. rewrite lookup_empty. discriminate.
  - intros k j H%(clear_tbl s a k j I). tauto.
Qed.

Lemma tick_tbl_lookup dt s k :
  tbl (tick dt s) !! k =
  tbl s !! k ≫= (fun j => adv_keep (snd (advance (dead s) (now s) (now s + Z.max dt 0) j))).
Proof. apply lookup_omap. Qed.

Lemma tick_tbl_Some dt s k j' :
  tbl (tick dt s) !! k = Some j' ->
  exists j n, tbl s !! k = Some j /\ j' = set_next j n.
Proof.
  rewrite tick_tbl_lookup. destruct (tbl s !! k) as [j|]; cbn; [|discriminate].
  intros H. apply advance_spec in H as (n & H & _); [|lia]. exists j, n. auto.
Qed.

Lemma fetched_spec o s f :
  In f (fetched o s) ->
  exists k j t, tbl s !! k = Some j /\ f = fire_of (dead s) j t /\ now s <= t <= now s + op_dt o /\ j_next j <= t.
Proof.
  destruct o; try intros []. cbn. intros ((k, j) & Hin & Hf)%in_flat_map.
  apply elem_of_list_In, elem_of_map_to_list in Hin. apply advance_spec in Hf as (t & Hf); [|lia].
  exists k, j, t. auto.
Qed.

Lemma tick_inv dt s : Inv s -> Inv (tick dt s).
Proof.
  intros I. constructor.
  - intros k j' (j & n & H & ->)%tick_tbl_Some. exact (inv_key _ I _ _ H).
  - intros k j' (j & n & H & ->)%tick_tbl_Some. exact (inv_own _ I _ _ H).
  - intros k j' (j & n & H & ->)%tick_tbl_Some. exact (inv_alive _ I _ _ H).
  - intros k j' (j & n & H & ->)%tick_tbl_Some. exact (inv_idlt _ I _ _ H).
  - intros k1 k2 j1' j2' (j1 & n1 & H1 & ->)%tick_tbl_Some (j2 & n2 & H2 & ->)%tick_tbl_Some.
    exact (inv_uniq _ I _ _ _ _ H1 H2).
  - apply (inv_jk _ I).
  - intros f [H|H]%in_app_iff.
    + apply (inv_fired _ I) in H. cbn. lia.
    + apply (fetched_spec (OTick dt)) in H as (k & j & t & Hj & -> & Ht & _). apply (inv_idlt _ I) in Hj. cbn in *. lia.
  - apply (inv_deadjk _ I).
Qed.

Definition is_tick (o : op) : bool := match o with OTick _ => true | _ => false end.

Definition call_trig (o : op) : trig :=
  match o with OOnce _ _ _ _ _ => TOnce | OLoop _ _ _ i _ => TLoop i | _ => TCron end.
Definition call_next (o : op) (s : sched) : Z :=
  match o with OOnce _ _ _ d _ => now s + d | OLoop _ _ _ i _ => now s + i | _ => 0 end.

Definition arg_ok (o : op) : Prop :=
  match o with OOnce _ _ _ d _ => 0 <= d | OLoop _ _ _ i _ => 0 < i | _ => True end.

Lemma schedule_cases s a recv ref p tr nx :
  (fst (schedule s a recv ref p tr nx) = s /\ snd (schedule s a recv ref p tr nx) <> ROk) \/
  (tbl s !! job_key a ref = None /\ ref <> [] /\
   schedule s a recv ref p tr nx = (insert_job s a recv ref p tr nx, ROk)).
Proof.
  unfold schedule. destruct ref as [|x ref]; [left; split; [reflexivity|discriminate]|].
  destruct (tbl s !! job_key a (x :: ref)) eqn:E; [left; split; [reflexivity|discriminate]|].
  right. split; [reflexivity|]. split; [discriminate|reflexivity].
Qed.

Lemma sched_step o a recv ref p s :
  is_sched o a recv ref p ->
  (fst (step o s) = s /\ snd (step o s) <> ROk) \/
  (step o s = (insert_job s a recv ref p (call_trig o) (call_next o s), ROk) /\
   a ∉ dead s /\ tbl s !! job_key a ref = None /\
   arg_ok o).
Proof.
  intros Hs. unfold step, if_alive, is_dead.
  destruct Hs as [(d & ->) | [(i & ->) | ->]]; (case_bool_decide as Ed; [left; split; [reflexivity|discriminate]|]);
    cbn [call_trig call_next].
  - destruct (Z.ltb_spec d 0); [left; split; [reflexivity|discriminate]|].
    destruct (schedule_cases s a recv ref p TOnce (now s + d)) as [Hfail|(Hf & _ & E)]; [left; exact Hfail|right; cbn; auto].
  - destruct (Z.leb_spec i 0); [left; split; [reflexivity|discriminate]|].
    destruct (schedule_cases s a recv ref p (TLoop i) (now s + i)) as [Hfail|(Hf & _ & E)]; [left; exact Hfail|right; cbn; auto].
  - destruct (schedule_cases s a recv ref p TCron 0) as [Hfail|(Hf & _ & E)]; [left; exact Hfail|right; cbn; auto].
Qed.

(** [ef_idle]: a refused or failed scheduling call, any call of a dead actor, Exists, Dump *)
(** its third premise: a removal that changes nothing comes from a dead actor, and a dead actor has no job ([inv_alive]); with it
    [step_tbl_nontick] can say of an unchanged state too that a job still in the table was not removed by [o] *)
Inductive effect (s : sched) : op -> sched -> Prop :=
| ef_idle o :
    is_tick o = false -> op_dt o = 0 ->
    (forall a r, removes a r o -> a ∈ dead s) -> effect s o s
| ef_insert o a recv ref p :
    is_sched o a recv ref p -> a ∉ dead s -> tbl s !! job_key a ref = None -> arg_ok o ->
    effect s o (insert_job s a recv ref p (call_trig o) (call_next o s))
| ef_cancel a ref : a ∉ dead s -> effect s (OCancel a ref) (fst (cancel s a ref))
| ef_clear o a : o = OClear a \/ o = ORestarted a -> a ∉ dead s -> effect s o (clear s a)
| ef_died a :
    a ∉ dead s ->
    effect s (ODied a) (mkSched (now s) (tbl (clear s a)) (jk (clear s a)) ({[a]} ∪ dead s) (fired s) (nid s))
| ef_tick dt : effect s (OTick dt) (tick dt s)
| ef_stall dt : effect s (OStall dt) (mkSched (now s + Z.max dt 0) (tbl s) (jk s) (dead s) (fired s) (nid s)).

Lemma step_effect o s : effect s o (fst (step o s)).
Proof.
  assert (Hsched : forall a recv ref p, is_sched o a recv ref p -> effect s o (fst (step o s))).
  { intros a recv ref p Hs.
    destruct (sched_step o a recv ref p s Hs) as [[-> _]|(-> & Ha & Hf & Harg)]; [|apply ef_insert; assumption].
    destruct Hs as [[d ->]|[[i ->]| ->]]; apply ef_idle; try reflexivity; intros ? ? []%removes_cases. }
  destruct o as [a recv ref d p|a recv ref i p|a recv ref v p|a ref|a|a ref|a|a|dt|dt|l].
  1: exact (Hsched a recv ref p (or_introl (ex_intro _ d eq_refl))).
  1: exact (Hsched a recv ref p (or_intror (or_introl (ex_intro _ i eq_refl)))).
  1: destruct v; [exact (Hsched a recv ref p (or_intror (or_intror eq_refl)))|].
  (* the sweep closes the dead-caller branch of every op by [ef_idle]; the selectors then pick the live branch of each op that
     writes, in constructor order (Cancel; Clear and Restarted; Died; Tick; Stall), and the last line is [ef_idle] for the ops
     that never write: a cron expression that does not parse, Exists, Dump *)
  all: clear Hsched; cbn -[cancel clear tick]; unfold if_alive, is_dead;
    try (case_bool_decide as Hd;
         [apply ef_idle; [reflexivity|reflexivity|intros a' r R%removes_cases; cbn in R; intuition (subst; assumption)]|]).
  2: apply ef_cancel, Hd.
  2,5: apply ef_clear; [auto|exact Hd].
  3: apply ef_died, Hd.
  3: apply ef_tick.
  3: apply ef_stall.
  all: apply ef_idle; [reflexivity|reflexivity|intros ? ? []%removes_cases].
Qed.

Lemma step_inv o s : Inv s -> Inv (fst (step o s)).
Proof.
  intros I. destruct (step_effect o s) as [| | |o a _ _|a _| |dt].
  - exact I.
  - apply insert_inv; assumption.
  - apply cancel_inv, I.
  - apply clear_inv, I.
  - pose proof (clear_inv s a I) as I'. constructor; try apply I'; cbn [dead].
    + intros k j H [Ho%elem_of_singleton|Hd]%elem_of_union; [|exact (inv_alive _ I' _ _ H Hd)].
      apply (clear_tbl s a k j I) in H. tauto.
    + intros b [->%elem_of_singleton|Hd]%elem_of_union; [|exact (inv_deadjk _ I' _ Hd)].
      apply clear_jk.
  - apply tick_inv, I.
  - constructor; cbn; try apply I. intros f H%(inv_fired _ I). lia.
Qed.

Lemma run_ind (P : sched -> Prop) :
  (forall o s, P s -> P (fst (step o s))) -> forall ops s, P s -> P (run ops s).
Proof. intros Hstep ops. induction ops as [|o ops IH]; intros s H; cbn; [exact H|]. apply IH, Hstep, H. Qed.

Lemma run_inv ops s : Inv s -> Inv (run ops s).
Proof. apply (run_ind Inv), step_inv. Qed.

Lemma run_app ops1 ops2 s : run (ops1 ++ ops2) s = run ops2 (run ops1 s).
Proof. revert s. induction ops1; intros s; cbn; auto. Qed.

Lemma step_fired o s : fired (fst (step o s)) = fired s ++ fetched o s.
Proof.
  destruct (step_effect o s) as [o Ht| o a recv ref p [[d ->]|[[i ->]| ->]]|a ref|o a [-> | ->]| | |];
    try (destruct o; try discriminate Ht); cbn; rewrite ?app_nil_r; try reflexivity.
  unfold cancel. destruct (jk_of s a !! ref); reflexivity.
Qed.

Lemma step_now o s : now (fst (step o s)) = now s + op_dt o.
Proof.
  destruct (step_effect o s) as [o _ Hdt| o a recv ref p [[d ->]|[[i ->]| ->]]|a ref|o a [-> | ->]| | |];
    rewrite ?Hdt; cbn; try lia.
  unfold cancel. destruct (jk_of s a !! ref); cbn; lia.
Qed.

Lemma step_nid_mono o s : (nid s <= nid (fst (step o s)))%N.
Proof.
  destruct (step_effect o s) as [| |a ref| | | |]; cbn; try lia.
  unfold cancel. destruct (jk_of s a !! ref); cbn; lia.
Qed.

Lemma step_dead_mono o s (z : bytes) : z ∈ dead s -> z ∈ dead (fst (step o s)).
Proof.
  destruct (step_effect o s) as [| |a ref| | | |]; cbn; auto.
  - unfold cancel. destruct (jk_of s a !! ref); cbn; auto.
  - apply elem_of_union_r.
Qed.

Lemma step_now_mono o s : now s <= now (fst (step o s)).
Proof. rewrite step_now. destruct o; cbn; lia. Qed.

Lemma elapsed_cons o ops : elapsed (o :: ops) = op_dt o + elapsed ops.
Proof. reflexivity. Qed.
Lemma elapsed_app l1 l2 : elapsed (l1 ++ l2) = elapsed l1 + elapsed l2.
Proof. induction l1 as [|o l1 IH]; [reflexivity|]. rewrite <- app_comm_cons, !elapsed_cons, IH. lia. Qed.

Lemma run_now ops : forall s, now (run ops s) = now s + elapsed ops.
Proof.
  induction ops as [|o ops IH]; intros s; [cbn; lia|]. rewrite elapsed_cons. cbn [run]. rewrite IH, step_now. lia.
Qed.

Lemma run_nid_mono ops s : (nid s <= nid (run ops s))%N.
Proof. apply (run_ind (fun s' => (nid s <= nid s')%N)); [|lia]. intros o s' H. pose proof (step_nid_mono o s'). lia. Qed.
Lemma run_dead_mono ops s a : a ∈ dead s -> a ∈ dead (run ops s).
Proof. apply (run_ind (fun s' => a ∈ dead s')). intros o s'. apply step_dead_mono. Qed.

Definition fresh_job (s : sched) (j : job) : Prop :=
  j_id j = nid s /\ j_owner j ∉ dead s /\ forall i, j_trig j = TLoop i -> 0 < i.

Lemma step_tbl_nontick o s k j :
  Inv s -> is_tick o = false ->
  (tbl (fst (step o s)) !! k = Some j ->
   tbl s !! k = Some j /\ ~ removes (j_owner j) (j_ref j) o \/ fresh_job s j) /\
  (tbl s !! k = Some j -> ~ removes (j_owner j) (j_ref j) o -> tbl (fst (step o s)) !! k = Some j).
Proof.
  intros I Hnt. destruct (step_effect o s) as [o _ _ Hrm|o a recv ref p Hs Ha Hfree Harg|a ref|o a Ho| | |].
  - split; [|auto]. intros H. left. split; [exact H|]. intros Hd%Hrm. exact (inv_alive _ I _ _ H Hd).
  - rewrite insert_tbl_lookup by exact Hfree. split; [|auto].
    destruct Hs as [[d ->]|[[i ->]| ->]]; (intros [H|[_ ->]]; [left; split; [exact H|intros []%removes_cases]|right]);
      (split; [reflexivity|]; split; [exact Ha|]); [discriminate|intros ? [= <-]; exact Harg|discriminate].
  - rewrite (cancel_tbl s a ref k j I), removes_cases. tauto.
  - rewrite (clear_tbl s a k j I), removes_cases. destruct Ho as [-> | ->]; tauto.
  - change (tbl (mkSched _ _ _ _ _ _)) with (tbl (clear s a)). rewrite (clear_tbl s a k j I), removes_cases. tauto.
  - discriminate.
  - rewrite removes_cases. cbn. tauto.
Qed.

Lemma step_tbl_origin o s k j' :
  Inv s -> tbl (fst (step o s)) !! k = Some j' ->
  (exists j n, tbl s !! k = Some j /\ j' = set_next j n) \/ fresh_job s j'.
Proof.
  intros I H. destruct (is_tick o) eqn:Et.
  - destruct o; try discriminate. left. exact (tick_tbl_Some _ _ _ _ H).
  - apply (step_tbl_nontick o s k j' I Et) in H as [[H _]|H]; [left|right; exact H].
    exists j', (j_next j'). rewrite set_next_same. auto.
Qed.

Definition Queued (j : job) (s : sched) : Prop := exists k, tbl s !! k = Some j.

(** no queued job can do a Tell of class [P] any more: nothing of that class is popped, now or later, provided that
    no later scheduling call can be of the class *)
Definition silent (P : firing -> bool) (s : sched) : Prop :=
  forall j dd t, Queued j s -> P (fire_of dd j t) = false.
Definition closed (P : firing -> bool) (s : sched) : Prop :=
  forall f, P f = true -> (f_id f < nid s)%N \/ f_owner f ∈ dead s.

Lemma step_silent P o s :
  Inv s -> closed P s -> silent P s ->
  closed P (fst (step o s)) /\ silent P (fst (step o s)) /\
  List.filter P (fired (fst (step o s))) = List.filter P (fired s).
Proof.
  intros I C S. split; [|split].
  - intros f [H|H]%C; [left; pose proof (step_nid_mono o s); lia|right; apply step_dead_mono, H].
  - intros j' dd t [k H]. apply (step_tbl_origin o s k j' I) in H as [(j & n & Hj & ->)|(Hid & Ho & _)].
    + exact (S j dd t (ex_intro _ k Hj)).
    + destruct (P (fire_of dd j' t)) eqn:E; [|reflexivity]. apply C in E as [E|E]; cbn in E; [lia|contradiction].
  - rewrite step_fired, List.filter_app, (filter_none P (fetched o s)); [apply app_nil_r|].
    intros f (k & j & t & Hj & -> & _)%fetched_spec. exact (S j _ t (ex_intro _ k Hj)).
Qed.

Lemma run_silent P ops s :
  Inv s -> closed P s -> silent P s ->
  silent P (run ops s) /\ List.filter P (fired (run ops s)) = List.filter P (fired s).
Proof.
  revert s. induction ops as [|o ops IH]; intros s I C S; cbn; [auto|].
  destruct (step_silent P o s I C S) as (C' & S' & E). rewrite <- E. apply IH; [apply step_inv, I|assumption..].
Qed.

Definition Gone (x : N) (s : sched) : Prop := forall j, Queued j s -> j_id j <> x.

Lemma gone_silent x s : Gone x s <-> silent (is_id x) s.
Proof.
  unfold Gone, silent, is_id; cbn. split; intros H j.
  - intros _ _ Hq. apply N.eqb_neq, H, Hq.
  - intros Hq. exact (proj1 (N.eqb_neq _ _) (H j ∅ 0 Hq)).
Qed.

Lemma run_gone x ops s : Inv s -> (x < nid s)%N -> Gone x s ->
  Gone x (run ops s) /\ fires_of x (run ops s) = fires_of x s.
Proof.
  rewrite !gone_silent. intros I Hx. apply run_silent; [exact I|].
  intros f ->%N.eqb_eq. left. exact Hx.
Qed.

Lemma step_gone x o s : Inv s -> (x < nid s)%N -> Gone x s ->
  Gone x (fst (step o s)) /\ fires_of x (fst (step o s)) = fires_of x s.
Proof. exact (run_gone x [o] s). Qed.

Lemma gone_dec x s : Gone x s \/ exists j, Queued j s /\ j_id j = x.
Proof.
  destruct (decide (Exists (fun kj : key * job => j_id (snd kj) = x) (map_to_list (tbl s)))) as [H|H].
  - right. apply Exists_exists in H as ((k, j) & Hin%elem_of_map_to_list & Hid). exists j. split; [exists k|]; assumption.
  - left. intros j [k Hj] Hid. apply H, Exists_exists. exists (k, j). split; [apply elem_of_map_to_list, Hj|exact Hid].
Qed.

Lemma fires_of_app x s l s' : fired s' = fired s ++ l -> fires_of x s' = fires_of x s ++ List.filter (is_id x) l.
Proof. unfold fires_of. intros ->. apply List.filter_app. Qed.

Lemma In_fires_of x s f : In f (fires_of x s) <-> In f (fired s) /\ f_id f = x.
Proof. unfold fires_of. rewrite filter_In, N.eqb_eq. tauto. Qed.

Lemma fires_of_fresh x s : Inv s -> (nid s <= x)%N -> fires_of x s = [].
Proof. intros I H. apply filter_none. intros f [Hf _]%(inv_fired _ I). apply N.eqb_neq. lia. Qed.

Lemma step_fires_nontick x o s : is_tick o = false -> fires_of x (fst (step o s)) = fires_of x s.
Proof.
  intros Hnt. rewrite (fires_of_app x s _ _ (step_fired o s)). destruct o; try apply app_nil_r. discriminate.
Qed.

Lemma step_queued_nontick o s j :
  Inv s -> is_tick o = false -> (j_id j < nid s)%N ->
  (Queued j (fst (step o s)) <-> Queued j s /\ ~ removes (j_owner j) (j_ref j) o).
Proof.
  intros I Hnt Hlt. split.
  - intros [k [[H R]|[Hid _]]%(step_tbl_nontick o s k j I Hnt)]; [split; [exists k|]; assumption|lia].
  - intros [[k H] R]. exists k. apply (step_tbl_nontick o s k j I Hnt); assumption.
Qed.

Lemma filter_flat_map {A B} (P : B -> bool) (F : A -> list B) l :
  List.filter P (flat_map F l) = flat_map (fun a => List.filter P (F a)) l.
Proof. induction l as [|a l IH]; cbn; [reflexivity|]. rewrite List.filter_app, IH. reflexivity. Qed.

Lemma flat_map_nil {A B} (G : A -> list B) l : (forall b, In b l -> G b = []) -> flat_map G l = [].
Proof. induction l as [|b l IH]; cbn; intros H; [reflexivity|]. rewrite H by auto. cbn. apply IH. auto. Qed.

Lemma flat_map_single {A B} (G : A -> list B) l a :
  List.NoDup l -> In a l -> (forall b, In b l -> b <> a -> G b = []) -> flat_map G l = G a.
Proof.
  induction l as [|b l IH]; cbn; [tauto|]. intros Hnd [->|Hin] H.
  - inversion Hnd; subst. rewrite flat_map_nil; [apply app_nil_r|].
    intros b Hb. apply H; [auto|]. intros ->. contradiction.
  - inversion Hnd; subst. rewrite (H b); [|auto|intros ->; contradiction]. cbn. apply IH; auto.
Qed.

Lemma advance_fires_id dd lo hi j f : lo <= hi -> In f (fst (advance dd lo hi j)) -> f_id f = j_id j.
Proof. intros Hle (t & -> & _)%(proj1 (advance_spec dd lo hi j Hle)). reflexivity. Qed.

(** a tick does to the Tells and to the queued job of a call what [advance] does with that job *)
Lemma tick_queued dt s j :
  Inv s -> Queued j s ->
  fires_of (j_id j) (tick dt s) = fires_of (j_id j) s ++ fst (advance (dead s) (now s) (now s + Z.max dt 0) j) /\
  (forall j', Queued j' (tick dt s) -> j_id j' = j_id j ->
              adv_keep (snd (advance (dead s) (now s) (now s + Z.max dt 0) j)) = Some j') /\
  (forall j', adv_keep (snd (advance (dead s) (now s) (now s + Z.max dt 0) j)) = Some j' -> Queued j' (tick dt s)).
Proof.
  intros I [k Hj]. split; [|split].
  - rewrite (fires_of_app _ s _ _ (step_fired (OTick dt) s)). f_equal. cbn [fetched].
    rewrite filter_flat_map, (flat_map_single _ _ (k, j)).
    + apply filter_all. intros f Hf%advance_fires_id; [|lia]. apply N.eqb_eq, Hf.
    + apply NoDup_ListNoDup, NoDup_map_to_list.
    + apply elem_of_list_In, elem_of_map_to_list, Hj.
    + intros (k', j') Hin%elem_of_list_In%elem_of_map_to_list Hne. apply filter_none.
      intros f Hf%advance_fires_id; [|lia]. apply N.eqb_neq. cbn in Hf. rewrite Hf. intros Hid.
      apply Hne. pose proof (inv_uniq _ I _ _ _ _ Hin Hj Hid) as ->. congruence.
  - intros j' [k' H] Hid. rewrite tick_tbl_lookup in H. destruct (tbl s !! k') as [j1|] eqn:E1; [|discriminate].
    cbn in H. pose proof H as (n & -> & _)%advance_spec; [|lia].
    pose proof (inv_uniq _ I _ _ _ _ E1 Hj Hid) as ->. congruence.
  - intros j' H. exists k. rewrite tick_tbl_lookup, Hj. exact H.
Qed.

(** the job of scheduling call [j_id j0] keeps its identity: whatever is queued or was told under that number is
    [j0] (at a later run time), and a Tell is flagged dead only for a receiver that is dead *)
Record Call (j0 : job) (s : sched) : Prop := mkCall {
  call_lt : (j_id j0 < nid s)%N;
  call_job : forall j, Queued j s -> j_id j = j_id j0 -> exists n, j = set_next j0 n;
  call_fired : forall f, In f (fired s) -> f_id f = j_id j0 ->
               exists dd t, f = fire_of dd j0 t /\ forall z : bytes, z ∈ dd -> z ∈ dead s;
}.

Lemma step_call j0 o s : Inv s -> Call j0 s -> Call j0 (fst (step o s)).
Proof.
  intros I [Hlt Hjob Hfir]. constructor.
  - pose proof (step_nid_mono o s). lia.
  - intros j' [k [(j & n & Hj & ->)|[Hid _]]%(step_tbl_origin o s k j' I)] Hx; [|lia].
    destruct (Hjob j (ex_intro _ k Hj) Hx) as (n' & ->). exists n. reflexivity.
  - intros f. rewrite step_fired. intros [H|H]%in_app_iff Hx.
    + destruct (Hfir f H Hx) as (dd & t & -> & Hdd). exists dd, t. split; [reflexivity|].
      intros z Hz%Hdd. apply step_dead_mono, Hz.
    + apply fetched_spec in H as (k & j & t & Hj & -> & _). destruct (Hjob j (ex_intro _ k Hj) Hx) as (n & ->).
      exists (dead s), t. split; [reflexivity|]. intros z. apply step_dead_mono.
Qed.

Lemma run_call j0 ops s : Inv s -> Call j0 s -> Inv (run ops s) /\ Call j0 (run ops s).
Proof.
  intros I C. apply (run_ind (fun s => Inv s /\ Call j0 s)); [|auto].
  intros o s' [I' C']. split; [apply step_inv, I'|apply step_call; assumption].
Qed.

Section new_call.
  Variables (s : sched) (a recv ref : bytes) (p : N) (tr : trig) (nx : Z).
  Hypotheses (I : Inv s) (Hfree : tbl s !! job_key a ref = None).

  Lemma new_queued : Queued (mkJob (nid s) a recv ref p tr nx) (insert_job s a recv ref p tr nx).
  Proof. exists (job_key a ref). apply insert_tbl_lookup; auto. Qed.

  Lemma new_only j :
    Queued j (insert_job s a recv ref p tr nx) -> j_id j = nid s -> j = mkJob (nid s) a recv ref p tr nx.
  Proof. intros [k [H%(inv_idlt _ I)|[_ ->]]%insert_tbl_lookup] Hid; [lia|reflexivity|exact Hfree]. Qed.

  Lemma new_fires : fires_of (nid s) (insert_job s a recv ref p tr nx) = [].
  Proof. apply (fires_of_fresh _ s I). lia. Qed.

  Lemma new_call : Call (mkJob (nid s) a recv ref p tr nx) (insert_job s a recv ref p tr nx).
  Proof.
    constructor; cbn.
    - lia.
    - intros j Hq ->%(new_only j Hq). exists nx. reflexivity.
    - intros f [Hlt _]%(inv_fired _ I). lia.
  Qed.
End new_call.

Section once.
  Variable j0 : job.
  Hypothesis Htr : j_trig j0 = TOnce.

  (** [oi_job] is the whole "at most once": while a job with j0's id is queued it is j0 itself and nothing was told for it; the
      tick that finds it due takes it out of the table in the same step ([advance_once_due]) and ids are not reused, so the premise
      never holds again and [oi_len] follows *)
  Record OnceInv (s : sched) : Prop := mkOnceInv {
    oi_job : forall j, Queued j s -> j_id j = j_id j0 -> j = j0 /\ fires_of (j_id j0) s = [];
    oi_len : (length (fires_of (j_id j0) s) <= 1)%nat;
    oi_time : forall f, In f (fires_of (j_id j0) s) -> j_next j0 <= f_time f;
  }.

  Lemma step_once_inv o s : Inv s -> (j_id j0 < nid s)%N -> OnceInv s -> OnceInv (fst (step o s)).
  Proof.
    intros I Hlt [Hjob Hlen Htime]. destruct (is_tick o) eqn:Et.
    - destruct o; try discriminate. destruct (gone_dec (j_id j0) s) as [G|(j & Hq & Hid)].
      + destruct (step_gone _ (OTick dt) s I Hlt G) as [G' E].
        split; rewrite ?E; try assumption. intros j Hq Hid. destruct (G' j Hq Hid).
      + change (fst (step (OTick dt) s)) with (tick dt s).
        destruct (Hjob j Hq Hid) as [-> E0]. destruct (tick_queued dt s j0 I Hq) as (Ef & Hk & _).
        rewrite E0 in Ef. cbn [app] in Ef.
        destruct (Z.ltb_spec (now s + Z.max dt 0) (j_next j0)) as [Hearly|Hdue].
        * rewrite advance_early in Ef, Hk by exact Hearly. cbn [fst snd adv_keep] in Ef, Hk.
          split; rewrite Ef; [|cbn; lia|intros f []]. intros j Hq' Hid'. pose proof (Hk j Hq' Hid') as [= <-]. auto.
        * rewrite advance_once_due in Ef, Hk by assumption. cbn [fst snd adv_keep] in Ef, Hk.
          split; rewrite Ef; [|destruct (_ <? _); cbn; lia|destruct (_ <? _); [intros f []|intros f [<-|[]]; cbn; lia]].
          intros j Hq' Hid'. discriminate (Hk j Hq' Hid').
    - split; rewrite (step_fires_nontick _ o s Et); [|assumption..].
      intros j Hq Hid. apply (step_queued_nontick o s j I Et) in Hq as [Hq _]; [auto|lia].
  Qed.

  Lemma run_once_inv ops : forall s, Inv s -> (j_id j0 < nid s)%N -> OnceInv s -> OnceInv (run ops s).
  Proof.
    induction ops as [|o ops IH]; intros s I Hlt O; cbn; [exact O|].
    apply IH; [apply step_inv, I|pose proof (step_nid_mono o s); lia|apply step_once_inv; assumption].
  Qed.

  (** the two states of the "exactly once" proof. [now s <= j_next j0] in [Pending] is what makes the time in [Done] exact:
      an overdue job is told at the time the tick starts from or, more than [thr] late, dropped untold ([advance_once_due]) *)
  Definition Pending (s : sched) : Prop := Queued j0 s /\ fires_of (j_id j0) s = [] /\ now s <= j_next j0.
  Definition Done (s : sched) : Prop :=
    Gone (j_id j0) s /\ exists f, fires_of (j_id j0) s = [f] /\ f_time f = j_next j0.

  Lemma step_once_progress o s :
    Inv s -> is_stall o = false -> ~ removes (j_owner j0) (j_ref j0) o -> Pending s ->
    (Pending (fst (step o s)) \/ Done (fst (step o s))) /\
    (forall dt, o = OTick dt -> j_next j0 <= now s + Z.max dt 0 -> Done (fst (step o s))).
  Proof.
    intros I Hst Hrm (Hq & E0 & Hnow). destruct (is_tick o) eqn:Et.
    - destruct o; try discriminate. cbn [step fst]. destruct (tick_queued dt s j0 I Hq) as (Ef & Hk & Hk').
      rewrite E0 in Ef. cbn [app] in Ef.
      destruct (Z.ltb_spec (now s + Z.max dt 0) (j_next j0)) as [Hearly|Hdue].
      + rewrite advance_early in Ef, Hk' by exact Hearly. cbn [fst snd adv_keep] in Ef, Hk'.
        split; [left|intros ? [= <-]; lia].
        split; [apply Hk'; reflexivity|]. split; [exact Ef|cbn; lia].
      + rewrite advance_once_due in Ef, Hk by assumption. cbn [fst snd adv_keep] in Ef, Hk.
        rewrite (proj2 (Z.ltb_ge _ _)) in Ef by (unfold thr; lia). rewrite Z.max_r in Ef by exact Hnow.
        assert (Dn : Done (tick dt s)).
        { split; [|eexists; split; [exact Ef|reflexivity]]. intros j Hq' Hid'. discriminate (Hk j Hq' Hid'). }
        auto.
    - split; [left|intros dt ->; discriminate]. destruct Hq as [k Hj].
      split; [|split].
      + apply (step_queued_nontick o s j0 I Et); [exact (inv_idlt _ I _ _ Hj)|]. split; [exists k|]; assumption.
      + rewrite (step_fires_nontick _ o s Et). exact E0.
      + rewrite step_now. destruct o; try discriminate; cbn; lia.
  Qed.

  Lemma done_stable ops s : Inv s -> (j_id j0 < nid s)%N -> Done s -> Done (run ops s).
  Proof. intros I Hx [G E]. destruct (run_gone _ ops s I Hx G) as [G' Ef]. split; [exact G'|rewrite Ef; exact E]. Qed.

  Lemma run_once_progress ops : forall s,
    Inv s -> (j_id j0 < nid s)%N -> no_stall ops -> Forall (fun o => ~ removes (j_owner j0) (j_ref j0) o) ops ->
    Pending s \/ Done s -> Pending (run ops s) \/ Done (run ops s).
  Proof.
    induction ops as [|o ops IH]; intros s I Hlt Hns Hnr H; cbn; [exact H|].
    inversion_clear Hns. inversion_clear Hnr.
    apply IH; [apply step_inv, I|pose proof (step_nid_mono o s); lia|assumption..|].
    destruct H as [P|Dn]; [apply step_once_progress; assumption|right; exact (done_stable [o] s I Hlt Dn)].
  Qed.

  Lemma once_delivered ops dt post s :
    Inv s -> no_stall ops -> Forall (fun o => ~ removes (j_owner j0) (j_ref j0) o) ops -> Pending s ->
    j_next j0 <= now s + elapsed ops + Z.max dt 0 -> Done (run (ops ++ OTick dt :: post) s).
  Proof.
    intros I Hns Hnr P Hel. pose proof P as [[k Hlt%(inv_idlt _ I)] _]. pose proof (run_inv ops s I) as I'.
    rewrite run_app. cbn [run]. pose proof (run_nid_mono ops s). pose proof (step_nid_mono (OTick dt) (run ops s)).
    apply done_stable; [apply step_inv, I'|lia|].
    destruct (run_once_progress ops s I Hlt Hns Hnr (or_introl P)) as [P'|D'].
    - apply (step_once_progress (OTick dt) _ I' eq_refl) with (dt := dt); [intros []%removes_cases|exact P'|reflexivity|].
      rewrite run_now. lia.
    - exact (done_stable [OTick dt] _ I' ltac:(lia) D').
  Qed.
End once.

Lemma map_seq_shift {A} (f : nat -> A) a c : map f (seq a c) = map (fun q => f (a + q)%nat) (seq 0 c).
Proof.
  revert a. induction c as [|c IH]; intros a; [reflexivity|]. cbn [seq map]. f_equal; [f_equal; lia|].
  rewrite IH. rewrite <- seq_shift, map_map. apply map_ext. intros q. f_equal. lia.
Qed.

Lemma grid_app t0 i m c :
  grid t0 i (m + c) = grid t0 i m ++ map (fun q => t0 + (Z.of_nat m + 1) * i + Z.of_nat q * i) (seq 0 c).
Proof.
  unfold grid. rewrite seq_app, map_app. f_equal. rewrite map_seq_shift. apply map_ext. intros q.
  rewrite !Nat2Z.inj_add. change (Z.of_nat 1) with 1. ring.
Qed.

Section loop.
  Variables (j0 : job) (t0 i : Z).
  Hypotheses (Htr : j_trig j0 = TLoop i) (Hi : 0 < i).

  (** without a stall: the Tells so far are the first [m] grid instants, none lies in the future, and while the job is
      queued its next run is the next grid instant, not yet due *)
  Definition LoopInv (s : sched) : Prop :=
    exists m : nat,
      map f_time (fires_of (j_id j0) s) = grid t0 i m /\ t0 + Z.of_nat m * i <= now s /\
      forall j, Queued j s -> j_id j = j_id j0 ->
                j = set_next j0 (t0 + (Z.of_nat m + 1) * i) /\ now s < t0 + (Z.of_nat m + 1) * i.

  Definition Present (s : sched) : Prop := exists j, Queued j s /\ j_id j = j_id j0.

  Lemma step_loop o s :
    Inv s -> (j_id j0 < nid s)%N -> is_stall o = false -> LoopInv s ->
    LoopInv (fst (step o s)) /\
    (~ removes (j_owner j0) (j_ref j0) o -> Present s -> Present (fst (step o s))).
  Proof.
    intros I Hlt Hst (m & Hf & Hle & Hjob). destruct (is_tick o) eqn:Et.
    - destruct o; try discriminate. destruct (gone_dec (j_id j0) s) as [G|(j & Hq & Hid)].
      + destruct (step_gone _ (OTick dt) s I Hlt G) as [G' E]. split; [|intros _ (j & Hq & Hid); destruct (G j Hq Hid)].
        exists m. rewrite E, step_now. cbn. split; [exact Hf|]. split; [lia|]. intros j Hq Hid. destruct (G' j Hq Hid).
      + change (fst (step (OTick dt) s)) with (tick dt s). destruct (Hjob j Hq Hid) as [-> Hlo].
        set (n1 := t0 + (Z.of_nat m + 1) * i) in *. destruct (tick_queued dt s _ I Hq) as (Ef & Hk & Hk'). cbn [j_id set_next] in Ef, Hk.
        destruct (advance_loop (dead s) (now s) (now s + Z.max dt 0) (set_next j0 n1) i Htr Hi) as (c & Ea & Hhi & Hc);
          [cbn; unfold thr; lia|]. cbn [j_next set_next] in Ea, Hhi, Hc.
        rewrite Ea in Ef, Hk, Hk'. cbn [fst snd adv_keep] in Ef, Hk, Hk'.
        split; [|intros _ _; eexists; split; [apply Hk'|]; reflexivity].
        exists (m + c)%nat. rewrite Ef, map_app, Hf, loop_fires_times, grid_app by lia. cbn [now tick].
        split; [reflexivity|]. split; [lia|].
        intros j Hq' Hid'. pose proof (Hk j Hq' Hid') as [= <-]. split; [|lia]. cbn. f_equal. lia.
    - split.
      + exists m. rewrite (step_fires_nontick _ o s Et), step_now.
        replace (op_dt o) with 0 by (destruct o; try discriminate; reflexivity). rewrite Z.add_0_r.
        split; [exact Hf|]. split; [exact Hle|].
        intros j Hq Hid. apply (step_queued_nontick o s j I Et) in Hq as [Hq _]; [auto|lia].
      + intros Hrm (j & Hq & Hid). exists j. split; [|exact Hid].
        destruct (Hjob j Hq Hid) as [-> _]. apply (step_queued_nontick o s _ I Et); [exact Hlt|auto].
  Qed.

  Lemma run_loop ops : forall s,
    Inv s -> (j_id j0 < nid s)%N -> no_stall ops -> LoopInv s ->
    LoopInv (run ops s) /\
    (Forall (fun o => ~ removes (j_owner j0) (j_ref j0) o) ops -> Present s -> Present (run ops s)).
  Proof.
    induction ops as [|o ops IH]; intros s I Hlt Hns L; cbn; [auto|]. inversion_clear Hns.
    destruct (step_loop o s I Hlt) as [L' P']; [assumption..|].
    destruct (IH (fst (step o s))) as [L'' P'']; [apply step_inv, I|pose proof (step_nid_mono o s); lia|assumption..|].
    split; [exact L''|]. intros Hnr. inversion_clear Hnr. auto.
  Qed.
End loop.

Definition PosInv (s : sched) : Prop := forall k j i, tbl s !! k = Some j -> j_trig j = TLoop i -> 0 < i.

Lemma step_pos o s : Inv s -> PosInv s -> PosInv (fst (step o s)).
Proof.
  intros I Hp k j' i [(j & n & Hj & ->)|(_ & _ & Hi)]%(step_tbl_origin o s k j' I); [exact (Hp k j i Hj)|exact (Hi i)].
Qed.

Lemma reach_inv ops : Inv (run ops init).
Proof. apply run_inv, inv_init. Qed.

Lemma call_start s0 pre o a recv ref p post :
  Inv s0 -> is_sched o a recv ref p -> snd (step o (run pre s0)) = ROk ->
  Inv (run pre s0) /\ tbl (run pre s0) !! job_key a ref = None /\
  Inv (insert_job (run pre s0) a recv ref p (call_trig o) (call_next o (run pre s0))) /\
  run (pre ++ o :: post) s0 = run post (insert_job (run pre s0) a recv ref p (call_trig o) (call_next o (run pre s0))) /\
  arg_ok o.
Proof.
  intros I0 Hs Hok. pose proof (run_inv pre s0 I0) as I.
  destruct (sched_step o a recv ref p (run pre s0) Hs) as [[_ Hne]|(E & Ha & Hfree & Harg)]; [contradiction|].
  rewrite run_app. cbn [run]. rewrite E. auto using insert_inv.
Qed.

Lemma thm_payload s0 pre o a recv ref p post f :
  Inv s0 -> is_sched o a recv ref p -> snd (step o (run pre s0)) = ROk ->
  In f (fires_of (nid (run pre s0)) (run (pre ++ o :: post) s0)) ->
  f_owner f = a /\ f_recv f = recv /\ f_ref f = ref /\ f_payload f = p /\
  (f_dead f = true -> recv ∈ dead (run (pre ++ o :: post) s0)).
Proof.
  intros I0 Hs Hok. destruct (call_start s0 pre o a recv ref p post I0 Hs Hok) as (I & Hfree & I1 & -> & _).
  destruct (run_call _ post _ I1 (new_call _ a recv ref p _ _ I Hfree)) as [_ C].
  intros [Hin Hid]%In_fires_of. destruct (call_fired _ _ C f Hin Hid) as (dd & t & -> & Hdd).
  repeat split. cbn. intros Hd%bool_decide_eq_true. apply Hdd, Hd.
Qed.

(** at most one Tell, not before the delay ([oi_len], [oi_time]) *)
Lemma thm_once_safety s0 pre a recv ref d p post :
  Inv s0 -> snd (step (OOnce a recv ref d p) (run pre s0)) = ROk ->
  OnceInv (mkJob (nid (run pre s0)) a recv ref p TOnce (now (run pre s0) + d)) (run (pre ++ OOnce a recv ref d p :: post) s0).
Proof.
  intros I0 Hok.
  destruct (call_start s0 pre _ a recv ref p post I0 (or_introl (ex_intro _ d eq_refl)) Hok) as (I & Hfree & I1 & -> & _).
  cbn [call_trig call_next arg_ok] in *. apply run_once_inv; [reflexivity|exact I1|cbn; lia|].
  split; cbn [j_id]; rewrite new_fires by assumption; [|cbn; lia|intros f []].
  intros j Hq Hid. split; [apply new_only; assumption|reflexivity].
Qed.

Lemma thm_cancel_stops s0 pre o a recv ref p mid c post :
  Inv s0 -> is_sched o a recv ref p -> snd (step o (run pre s0)) = ROk -> removes a ref c ->
  fires_of (nid (run pre s0)) (run (pre ++ o :: mid ++ c :: post) s0) =
  fires_of (nid (run pre s0)) (run (pre ++ o :: mid) s0).
Proof.
  intros I0 Hs Hok R.
  destruct (call_start s0 pre o a recv ref p (mid ++ c :: post) I0 Hs Hok) as (I & Hfree & I1 & -> & _).
  destruct (call_start s0 pre o a recv ref p mid I0 Hs Hok) as (_ & _ & _ & -> & _).
  destruct (run_call _ mid _ I1 (new_call _ a recv ref p _ _ I Hfree)) as [I2 C2].
  rewrite run_app. cbn [run]. set (s2 := run mid _) in *.
  assert (Hnt : is_tick c = false) by (apply removes_cases in R; destruct c; try reflexivity; destruct R).
  assert (G : Gone (nid (run pre s0)) (fst (step c s2))).
  { intros j Hq Hid. apply (step_queued_nontick c s2 j I2 Hnt) in Hq as [Hq Hrm]; [|rewrite Hid; apply (call_lt _ _ C2)].
    destruct (call_job _ _ C2 j Hq Hid) as (n & ->). exact (Hrm R). }
  destruct (run_gone (nid (run pre s0)) post _ (step_inv c s2 I2) (call_lt _ _ (step_call _ c s2 I2 C2)) G) as [_ ->].
  apply step_fires_nontick, Hnt.
Qed.

Lemma thm_once_cancelled s0 pre a recv ref d p mid c post :
  Inv s0 -> snd (step (OOnce a recv ref d p) (run pre s0)) = ROk -> removes a ref c -> elapsed mid < d ->
  fires_of (nid (run pre s0)) (run (pre ++ OOnce a recv ref d p :: mid ++ c :: post) s0) = [].
Proof.
  intros I0 Hok R Hel.
  rewrite (thm_cancel_stops s0 pre _ a recv ref p mid c post I0 (or_introl (ex_intro _ d eq_refl)) Hok R).
  destruct (fires_of _ _) as [|f l] eqn:Ef; [reflexivity|exfalso].
  assert (Hin : In f (fires_of (nid (run pre s0)) (run (pre ++ OOnce a recv ref d p :: mid) s0))) by (rewrite Ef; left; reflexivity).
  pose proof (oi_time _ _ (thm_once_safety s0 pre a recv ref d p mid I0 Hok) f Hin) as Hge. cbn [j_next] in Hge.
  apply In_fires_of in Hin as [[_ Hle]%(inv_fired _ (run_inv _ _ I0)) _].
  rewrite run_app, run_now, elapsed_cons in Hle. cbn [op_dt] in Hle. lia.
Qed.

Lemma thm_once_delivered s0 pre a recv ref d p post1 dt post2 :
  Inv s0 -> snd (step (OOnce a recv ref d p) (run pre s0)) = ROk ->
  no_stall post1 -> Forall (fun o => ~ removes a ref o) post1 ->
  d <= elapsed post1 + Z.max dt 0 ->
  exists f,
    fires_of (nid (run pre s0)) (run (pre ++ OOnce a recv ref d p :: post1 ++ OTick dt :: post2) s0) = [f] /\
    f_time f = now (run pre s0) + d /\ f_payload f = p /\ f_recv f = recv /\ f_owner f = a /\ f_ref f = ref /\
    (recv ∉ dead (run (pre ++ OOnce a recv ref d p :: post1 ++ OTick dt :: post2) s0) -> f_dead f = false).
Proof.
  intros I0 Hok Hns Hnr Hel.
  pose proof (fun f => thm_payload s0 pre _ a recv ref p (post1 ++ OTick dt :: post2) f I0 (or_introl (ex_intro _ d eq_refl)) Hok) as Hpay.
  destruct (call_start s0 pre _ a recv ref p (post1 ++ OTick dt :: post2) I0 (or_introl (ex_intro _ d eq_refl)) Hok)
    as (I & Hfree & I1 & E & Hd).
  rewrite E in *. cbn [call_trig call_next arg_ok] in *.
  destruct (once_delivered (mkJob (nid (run pre s0)) a recv ref p TOnce (now (run pre s0) + d)) eq_refl post1 dt post2 _ I1 Hns Hnr)
    as [_ (f & Ef & Ht)].
  - split; [apply new_queued; assumption|]. split; [apply new_fires; assumption|cbn; lia].
  - cbn. lia.
  - exists f. split; [exact Ef|]. split; [exact Ht|].
    destruct (Hpay f) as (Ho & Hr & Hrf & Hp & Hdl); [cbn [j_id] in Ef; rewrite Ef; left; reflexivity|].
    repeat (split; [assumption|]). intros Hnd. destruct (f_dead f); [destruct (Hnd (Hdl eq_refl))|reflexivity].
Qed.

Lemma loop_run s0 pre a recv ref i p post :
  Inv s0 -> snd (step (OLoop a recv ref i p) (run pre s0)) = ROk -> no_stall post ->
  0 < i /\
  LoopInv (mkJob (nid (run pre s0)) a recv ref p (TLoop i) (now (run pre s0) + i)) (now (run pre s0)) i
          (run (pre ++ OLoop a recv ref i p :: post) s0) /\
  (Forall (fun o => ~ removes a ref o) post ->
   Present (mkJob (nid (run pre s0)) a recv ref p (TLoop i) (now (run pre s0) + i)) (run (pre ++ OLoop a recv ref i p :: post) s0)).
Proof.
  intros I0 Hok Hns.
  destruct (call_start s0 pre _ a recv ref p post I0 (or_intror (or_introl (ex_intro _ i eq_refl))) Hok) as (I & Hfree & I1 & -> & Hi).
  cbn [call_trig call_next arg_ok] in *. split; [exact Hi|]. set (j0 := mkJob _ _ _ _ _ _ _).
  destruct (run_loop j0 (now (run pre s0)) i eq_refl Hi post _ I1 ltac:(cbn; lia) Hns) as [L P].
  - subst j0. exists 0%nat. cbn [j_id]. rewrite new_fires by assumption. split; [reflexivity|]. split; [cbn; lia|].
    intros j Hq Hid. rewrite (new_only _ a recv ref p _ _ I Hfree j Hq Hid). cbn. split; [f_equal|]; lia.
  - split; [exact L|]. intros Hnr. apply P; [exact Hnr|]. eexists. split; [apply new_queued; assumption|reflexivity].
Qed.

Lemma thm_loop_grid s0 pre a recv ref i p post :
  Inv s0 -> snd (step (OLoop a recv ref i p) (run pre s0)) = ROk -> no_stall post ->
  exists m : nat,
    map f_time (fires_of (nid (run pre s0)) (run (pre ++ OLoop a recv ref i p :: post) s0)) = grid (now (run pre s0)) i m /\
    now (run pre s0) + Z.of_nat m * i <= now (run (pre ++ OLoop a recv ref i p :: post) s0).
Proof.
  intros I0 Hok Hns. destruct (loop_run s0 pre a recv ref i p post I0 Hok Hns) as (_ & (m & Hf & Hle & _) & _).
  exists m. auto.
Qed.

Lemma thm_loop_exact s0 pre a recv ref i p post :
  Inv s0 -> snd (step (OLoop a recv ref i p) (run pre s0)) = ROk ->
  no_stall post -> Forall (fun o => ~ removes a ref o) post ->
  map f_time (fires_of (nid (run pre s0)) (run (pre ++ OLoop a recv ref i p :: post) s0)) =
  grid (now (run pre s0)) i
       (Z.to_nat ((now (run (pre ++ OLoop a recv ref i p :: post) s0) - now (run pre s0)) / i)).
Proof.
  intros I0 Hok Hns Hnr.
  destruct (loop_run s0 pre a recv ref i p post I0 Hok Hns) as (Hi & (m & Hf & Hle & Hjob) & P).
  destruct (P Hnr) as (j & Hq & Hid). destruct (Hjob j Hq Hid) as [_ Hlt]. cbn [j_id] in Hf. rewrite Hf. f_equal.
  rewrite <- (Nat2Z.id m) at 1. f_equal.
  apply (Z.div_unique_pos _ i (Z.of_nat m) (now (run (pre ++ OLoop a recv ref i p :: post) s0) - now (run pre s0) - i * Z.of_nat m)); lia.
Qed.

Lemma thm_failed_call o a recv ref p s :
  is_sched o a recv ref p -> snd (step o s) <> ROk -> fst (step o s) = s.
Proof. intros Hs Hne. destruct (sched_step o a recv ref p s Hs) as [[E _]|[E _]]; [exact E|rewrite E in Hne; contradiction]. Qed.

Lemma thm_reuse_rejected o a recv ref p s j :
  is_sched o a recv ref p -> tbl s !! job_key a ref = Some j ->
  fst (step o s) = s /\ snd (step o s) <> ROk.
Proof. intros Hs Hj. destruct (sched_step o a recv ref p s Hs) as [H|(_ & _ & Hf & _)]; [exact H|congruence]. Qed.

Lemma thm_reuse_result s a recv ref d p j :
  is_dead s a = false -> 0 <= d -> ref <> [] -> tbl s !! job_key a ref = Some j ->
  step (OOnce a recv ref d p) s = (s, RExists).
Proof.
  intros Hd Hd0 Hr Hj. unfold step, if_alive. rewrite Hd. rewrite (proj2 (Z.ltb_ge d 0)) by lia.
  unfold schedule. destruct ref; [contradiction|]. rewrite Hj. reflexivity.
Qed.

Lemma thm_once_negative_rejected s a recv ref d p :
  is_dead s a = false -> d < 0 -> step (OOnce a recv ref d p) s = (s, RIllegalArg).
Proof. intros Hd Hneg. unfold step, if_alive. rewrite Hd. rewrite (proj2 (Z.ltb_lt d 0)) by lia. reflexivity. Qed.

Lemma thm_loop_nonpositive_rejected s a recv ref i p :
  is_dead s a = false -> i <= 0 -> step (OLoop a recv ref i p) s = (s, RIllegalArg).
Proof. intros Hd Hneg. unfold step, if_alive. rewrite Hd. rewrite (proj2 (Z.leb_le i 0)) by lia. reflexivity. Qed.

Lemma thm_cron_invalid s a recv ref p :
  is_dead s a = false -> step (OCron a recv ref false p) s = (s, RParseErr).
Proof. intros Hd. unfold step, if_alive. rewrite Hd. reflexivity. Qed.

Lemma thm_cancel_unknown s a ref :
  is_dead s a = false -> jk_of s a !! ref = None -> step (OCancel a ref) s = (s, RNotFound).
Proof. intros Hd Hn. unfold step, if_alive. rewrite Hd. unfold cancel. rewrite Hn. reflexivity. Qed.

Lemma pos_init : PosInv init.
Proof. intros k j i [=]. Qed.

Lemma thm_loops_positive s0 ops : Inv s0 -> PosInv s0 -> PosInv (run ops s0).
Proof.
  intros I0 P0. apply (run_ind (fun s => Inv s /\ PosInv s)); [|auto].
  intros o s [I P]. split; [apply step_inv, I|apply step_pos; assumption].
Qed.

Lemma thm_death s (a : bytes) : Inv s -> a ∈ dead s ->
  (forall k j, tbl s !! k = Some j -> j_owner j <> a) /\ jk_of s a = ∅.
Proof.
  intros I Hd. split; [|exact (inv_deadjk _ I _ Hd)].
  intros k j Hj Ho. apply (inv_alive _ I _ _ Hj). rewrite Ho. exact Hd.
Qed.

Lemma died_is_dead s (a : bytes) : a ∈ dead (fst (step (ODied a) s)).
Proof. unfold step, if_alive, is_dead. case_bool_decide as E; cbn; [exact E|apply elem_of_union_l, elem_of_singleton; reflexivity]. Qed.

Lemma died_frozen s (a : bytes) post :
  Inv s -> List.filter (owned_by a) (fired (run (ODied a :: post) s)) = List.filter (owned_by a) (fired s).
Proof.
  intros I. cbn [run]. pose proof (step_inv (ODied a) s I) as I1.
  destruct (run_silent (owned_by a) post _ I1) as [_ ->]; [| |rewrite step_fired; apply f_equal, app_nil_r].
  - intros f <-%bool_decide_eq_true. right. apply died_is_dead.
  - intros j dd t [k Hj]. apply bool_decide_eq_false. cbn. intros <-. exact (inv_alive _ I1 _ _ Hj (died_is_dead s _)).
Qed.

Lemma thm_death_no_fire s0 pre (a : bytes) post f :
  Inv s0 -> In f (fired (run (pre ++ ODied a :: post) s0)) -> f_owner f = a -> In f (fired (run pre s0)).
Proof.
  intros I0 Hin Ho. rewrite run_app in Hin.
  assert (H : In f (List.filter (owned_by a) (fired (run (ODied a :: post) (run pre s0))))) by (apply filter_In; split; [exact Hin|apply bool_decide_eq_true, Ho]).
  rewrite died_frozen in H by apply run_inv, I0. apply filter_In in H. tauto.
Qed.

Lemma restarted_clears s (a : bytes) :
  Inv s ->
  (forall k j, tbl (fst (step (ORestarted a) s)) !! k = Some j -> j_owner j <> a) /\
  jk_of (fst (step (ORestarted a) s)) a = ∅.
Proof.
  intros I. unfold step, if_alive, is_dead. case_bool_decide as Hd; cbn [fst]; [exact (thm_death s a I Hd)|].
  split; [|apply clear_jk]. intros k j H%(clear_tbl s a k j I). tauto.
Qed.

Lemma thm_restart s0 pre (a : bytes) :
  Inv s0 ->
  (forall k j, tbl (run (pre ++ [ORestarted a]) s0) !! k = Some j -> j_owner j <> a) /\
  jk_of (run (pre ++ [ORestarted a]) s0) a = ∅.
Proof. intros I0. rewrite run_app. apply restarted_clears, run_inv, I0. Qed.

Lemma restarted_frozen s (a : bytes) post :
  Inv s ->
  List.filter (old_job_of a (nid s)) (fired (run (ORestarted a :: post) s)) = List.filter (old_job_of a (nid s)) (fired s).
Proof.
  intros I. cbn [run]. pose proof (step_inv (ORestarted a) s I) as I1.
  destruct (run_silent (old_job_of a (nid s)) post _ I1) as [_ ->]; [| |rewrite step_fired; apply f_equal, app_nil_r].
  - intros f [_ Hlt%N.ltb_lt]%andb_true_iff. left. pose proof (step_nid_mono (ORestarted a) s). lia.
  - intros j dd t [k Hj]. apply andb_false_iff. left. apply bool_decide_eq_false. exact (proj1 (restarted_clears s a I) k j Hj).
Qed.
