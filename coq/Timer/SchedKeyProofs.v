(** uniqueJobKey (Timer/SchedKey.v) is the model's pair key [job_key] on actor paths, hence injective there (C20); the one
    collision, quartz's replacement of the empty group by "default", needs an empty owner path. *)
From Coq Require Import List NArith.
From stdpp Require Import gmap.
From Vivid Require Import Timer.SchedModel Timer.SchedKey.
Import ListNotations.
Local Open Scope N_scope.

Lemma unique_key_nonempty a r : a <> [] -> unique_job_key a r = job_key a r.
Proof. destruct a; [congruence|reflexivity]. Qed.

Lemma unique_key_path a r : is_path a -> unique_job_key a r = job_key a r.
Proof. intros [x ->]. reflexivity. Qed.

Lemma unique_key_inj a1 r1 a2 r2 :
  a1 <> [] -> a2 <> [] -> unique_job_key a1 r1 = unique_job_key a2 r2 -> a1 = a2 /\ r1 = r2.
Proof.
  intros H1 H2. rewrite !unique_key_nonempty by assumption. unfold job_key. intros H. injection H as -> ->. auto.
Qed.

Lemma unique_key_inj_paths a1 r1 a2 r2 :
  is_path a1 -> is_path a2 -> unique_job_key a1 r1 = unique_job_key a2 r2 -> a1 = a2 /\ r1 = r2.
Proof. intros [x1 ->] [x2 ->]. apply unique_key_inj; discriminate. Qed.

Lemma unique_key_empty_group_collides r : unique_job_key [] r = unique_job_key default_group r /\ [] <> default_group.
Proof. split; [reflexivity|discriminate]. Qed.

(** the printed form is not injective (it is not what the queue compares) *)
Lemma key_string_collides :
  key_string ([47; 97], [58; 58; 98]) = key_string ([47; 97; 58; 58], [98]) /\
  ([47; 97], [58; 58; 98]) <> (([47; 97; 58; 58], [98]) : key).
Proof. split; [reflexivity|discriminate]. Qed.

Lemma key_eqb_spec k1 k2 : key_eqb k1 k2 = true <-> k1 = k2.
Proof. unfold key_eqb. apply bool_decide_eq_true. Qed.
