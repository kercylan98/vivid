(** Concrete witnesses (closed by computation) for Properties/C20.v. *)
From Coq Require Import List NArith ZArith.
From stdpp Require Import gmap.
From Vivid Require Import Timer.SchedModel.
Local Open Scope Z_scope.

Ltac conj_refl := lazymatch goal with |- _ /\ _ => split; [reflexivity|conj_refl] | _ => reflexivity end.

Definition w_a : bytes := [47; 97]%N.             (* "/a"   *)
Definition w_ab : bytes := [47; 97; 58; 98]%N.    (* "/a:b" *)
Definition w_b : bytes := [47; 98]%N.             (* "/b"   *)
Definition w_bc : bytes := [98; 58; 99]%N.        (* "b:c"  *)
Definition w_c : bytes := [99]%N.                 (* "c"    *)
Definition w_r : bytes := [114]%N.                (* "r"    *)

(** the former collision "/a" ":" "b:c" = "/a:b" ":" "c": the keys are pairs now, both jobs live side by side *)
Definition w_collision : list op :=
  [OOnce w_a w_a w_bc 100 1; OOnce w_ab w_ab w_c 50 2; OCancel w_ab w_c; OTick 1000].
Lemma wit_no_collision :
  run_res w_collision init = [ROk; ROk; ROk; RUnit] /\
  map (fun f => (f_payload f, f_time f)) (fired (run w_collision init)) = [(1%N, 100)].
Proof. vm_compute. conj_refl. Qed.

(** a live reference used again: quartz's error is returned, nothing changes, the first job goes on *)
Definition w_reuse : list op :=
  [OOnce w_a w_a w_r 300 1; OOnce w_a w_a w_r 50 2; OLoop w_a w_a w_r 50 3; OTick 1000; OOnce w_a w_a w_r 50 4; OTick 1000].
Lemma wit_reuse :
  run_res w_reuse init = [ROk; RExists; RExists; RUnit; ROk; RUnit] /\
  map (fun f => (f_payload f, f_time f)) (fired (run w_reuse init)) = [(1%N, 300); (4%N, 1050)].
Proof. vm_compute. conj_refl. Qed.

(** after a Once has fired its reference stays in jobKeys: Exists answers true, Cancel answers quartz's error *)
Definition w_stale : list op := [OOnce w_a w_a w_r 50 1; OTick 100; OExists w_a w_r; OCancel w_a w_r; OCancel w_a w_r].
Lemma wit_stale : run_res w_stale init = [ROk; RUnit; RBool true; RQuartzNotFound; RNotFound].
Proof. vm_compute. reflexivity. Qed.

(** quartz's misfire rule: the loop does not run for more than 100 ms across the deadline *)
Definition w_stall : list op := [OOnce w_a w_a w_r 500 1; OStall 700; OTick 100000; OExists w_a w_r].
Lemma wit_stall :
  run_res w_stall init = [ROk; RUnit; RUnit; RBool true] /\ fired (run w_stall init) = [] /\
  map_to_list (tbl (run w_stall init)) = [].
Proof. vm_compute. conj_refl. Qed.

Definition w_stall_loop : list op := [OLoop w_a w_a w_r 100 1; OStall 250; OTick 300].
Lemma wit_stall_loop :
  map f_time (fired (run w_stall_loop init)) = [350; 450; 550] /\ now (run w_stall_loop init) = 550.
Proof. vm_compute. split; reflexivity. Qed.

Lemma wit_rejected :
  run_res [OOnce w_a w_a w_r (-1) 1; OLoop w_a w_a w_r 0 2; OLoop w_a w_a w_r (-1000) 3; OOnce w_a w_a [] 5 4; OOnce w_a w_a w_r 0 5;
           OCron w_a w_a w_c false 6; OTick 10; ODump [w_a]] init
  = [RIllegalArg; RIllegalArg; RIllegalArg; REmptyRef; ROk; RParseErr; RUnit; RDump [(w_a, [w_r])] []].
Proof. vm_compute. reflexivity. Qed.
