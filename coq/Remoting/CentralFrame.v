(** Central.v composed with the framing theorem of C11: cold start, any number of concurrent first senders, any
    schedule, any chunking of the one connection's byte stream - the remote system delivers every sender's messages
    exactly once and in the order sent.  And the variant with a non-atomic table (not the code): refuted. *)
From Coq Require Import List NArith.
From Vivid Require Import Codec.Prim Remoting.Frame Remoting.FrameProofs Remoting.Link Remoting.Central Remoting.CentralProofs.
Import ListNotations.

Section CF.
  Context {A M : Type}.
  Variable eqb : A -> A -> bool.
  Hypothesis eqb_spec : forall a b, eqb a b = true <-> a = b.
  Variable enc : entry A M -> bytes.                 (* the envelope of one Enqueue (sender ref, receiver ref, message) *)
  Variable dec : bytes -> option (entry A M).
  Hypothesis codec_roundtrip : forall e, dec (enc e) = Some e.

  Theorem cold_start_delivery progs sched a i p chunks :
    let s := run eqb sched (init progs) in
    nth_error progs i = Some p -> finished s ->
    Forall (fun e => (1 <= N.of_nat (length (enc e)) <= max_frame)%N) (log_of eqb a s) ->
    concat chunks = concat (map (fun e => frame (enc e)) (log_of eqb a s)) ->
    delivered (receive dec chunks) = log_of eqb a s /\
    sent_by i (delivered (receive dec chunks)) = to_addr eqb a p.
  Proof.
    intros s Hp Hf Hsz Hc.
    destruct (exactly_once_in_order enc dec codec_roundtrip (log_of eqb a s) chunks Hsz Hc) as [_ Hd].
    split; [exact Hd|]. rewrite Hd. apply (per_sender_fifo eqb eqb_spec); assumption.
  Qed.
End CF.

(** the excluded variant: the two connections that serve the ONE address 7 are read by two independent reader
    actors; if the table's connection is read first the receiver sees sender 1's second message before its first *)
Lemma orphan_reorders :
  exists (progs : list (list (nat * nat))) (sched : list nat) (r : list (entry nat nat)),
    let s := orun Nat.eqb sched (oinit progs) in
    merges [box_log 0 (os_log s); box_log 1 (os_log s)] r /\
    nth_error progs 1 = Some [(7, 20); (7, 21)] /\ sent_by 1 r = [21; 20].
Proof.
  exists ow_progs, ow_sched.
  set (e10 := {| e_box := 0; e_from := 0; e_addr := 7; e_msg := 10 |}).
  set (e11 := {| e_box := 0; e_from := 0; e_addr := 7; e_msg := 11 |}).
  set (e21 := {| e_box := 0; e_from := 1; e_addr := 7; e_msg := 21 |}).
  set (e20 := {| e_box := 1; e_from := 1; e_addr := 7; e_msg := 20 |}).
  exists [e10; e11; e21; e20]. cbn zeta.
  replace (box_log 0 (os_log (orun Nat.eqb ow_sched (oinit ow_progs)))) with [e10; e11; e21] by (vm_compute; reflexivity).
  replace (box_log 1 (os_log (orun Nat.eqb ow_sched (oinit ow_progs)))) with [e20] by (vm_compute; reflexivity).
  split; [|split; reflexivity].
  apply (merges_cons [] e10 [e11; e21] [[e20]]). cbn.
  apply (merges_cons [] e11 [e21] [[e20]]). cbn.
  apply (merges_cons [] e21 [] [[e20]]). cbn.
  apply (merges_cons [[]] e20 [] []). cbn.
  apply merges_nil. repeat constructor.
Qed.
