(** Frames that DECODE but cannot be handed to anybody (tcp_connection.go onReadConn, the last branch):

        err = c.envelopHandler.HandleRemotingEnvelop(system, senderAddr, senderPath, receiverAddr, receiverPath, msg)
        ctx.TellSelf(c.conn)                     // re-arm the reader, whatever err is
        if err != nil { log "failed to handle remoting message" }
        return false, nil

    System.HandleRemotingEnvelop fails when actor.NewRef rejects the sender strings (an absent sender is written as two
    empty strings; a bad port; a bare IP) or the receiver strings (a path without '/').  Such a frame is "received"
    (RemotingMessageReceivedEvent) and reaches no mailbox; the reader loop goes on exactly as after any other frame.
    In Frame.v that frame is an [RMsg d] like every decoded frame; [routable d] says whether HandleRemotingEnvelop
    returned nil; what reaches local mailboxes is [handed].  (C14) *)
From Coq Require Import List NArith.
From Vivid Require Import Codec.Prim Remoting.Frame Remoting.FrameProofs.
Import ListNotations.
Local Open Scope N_scope.

Section Route.
  Context {D : Type}.
  Variable dec : bytes -> option D.
  Variable routable : D -> bool.

  Definition handed (evs : list (rev D)) : list D := filter routable (delivered evs).

  Lemma decodable_app a b : decodable dec (a ++ b) = decodable dec a ++ decodable dec b.
  Proof. induction a as [|x a IH]; [reflexivity|]. cbn [app decodable]. destruct (dec x); cbn; now rewrite IH. Qed.
  Lemma accepted_app a b : accepted (a ++ b) = accepted a ++ accepted b.
  Proof.
    induction a as [|x a IH]; [reflexivity|]. cbn [app accepted].
    destruct (max_frame <? N.of_nat (length x)); cbn; now rewrite IH.
  Qed.

  Theorem unroutable_continues bodies chunks :
    Forall wellformed bodies -> concat chunks = concat (map frame bodies) ->
    receive dec chunks = map (on_frame dec) bodies ++ [REof] /\
    handed (receive dec chunks) = filter routable (decodable dec (accepted bodies)).
  Proof.
    intros HF E. destruct (receive_mixed dec bodies chunks HF E) as [A B]. split; [exact A|].
    unfold handed. now rewrite B.
  Qed.

  Theorem unroutable_frame_is_skipped pre bad post chunks d :
    Forall wellformed (pre ++ bad :: post) ->
    dec bad = Some d -> routable d = false ->
    concat chunks = concat (map frame (pre ++ bad :: post)) ->
    handed (receive dec chunks) =
    filter routable (decodable dec (accepted pre)) ++ filter routable (decodable dec (accepted post)).
  Proof.
    intros HF Hd Hr E. destruct (unroutable_continues _ _ HF E) as [_ ->].
    rewrite accepted_app, decodable_app, filter_app. f_equal.
    cbn [accepted]. destruct (max_frame <? N.of_nat (length bad)); [reflexivity|].
    cbn [decodable]. rewrite Hd. cbn [filter]. now rewrite Hr.
  Qed.
End Route.
