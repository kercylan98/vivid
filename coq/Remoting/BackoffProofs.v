(** Lemmas about Remoting/Backoff.v: rounding, exactness of the capped exponential, the jitter interval, Try. *)
From Coq Require Import List ZArith Lia Bool.
From Vivid Require Import Remoting.Backoff.
Import ListNotations.
Local Open Scope Z_scope.

Lemma pow2_pos k : 0 <= k -> 0 < 2 ^ k.
Proof. intros. apply Z.pow_pos_nonneg; lia. Qed.

Lemma rn53_pos_small x : 0 <= x < 2 ^ 53 -> rn53_pos x = x.
Proof.
  intros [H0 H1]. unfold rn53_pos.
  assert (Z.log2 x + 1 - 53 <= 0).
  { destruct (Z.eq_dec x 0) as [->|Hn]; [cbn; lia|].
    assert (Z.log2 x < 53) by (apply Z.log2_lt_pow2; lia). lia. }
  destruct (Z.leb_spec (Z.log2 x + 1 - 53) 0); [reflexivity|lia].
Qed.

Lemma rn53_pos_cases x :
  0 <= x ->
  let s := Z.log2 x + 1 - 53 in
  (s <= 0 /\ rn53_pos x = x) \/
  (0 < s /\ exists q r, x = q * 2 ^ s + r /\ 0 <= r < 2 ^ s /\ 0 <= q /\
            (rn53_pos x = q * 2 ^ s \/ (0 < r /\ rn53_pos x = (q + 1) * 2 ^ s))).
Proof.
  intros Hx s. unfold rn53_pos. fold s.
  destruct (Z.leb_spec s 0) as [Hs|Hs]; [left; split; [exact Hs|reflexivity]|].
  right. split; [exact Hs|].
  assert (Hp : 0 < 2 ^ s) by (apply pow2_pos; lia).
  assert (Hh : 0 < 2 ^ (s - 1)) by (apply pow2_pos; lia).
  exists (x / 2 ^ s), (x mod 2 ^ s).
  pose proof (Z.div_mod x (2 ^ s) ltac:(lia)) as Hdm.
  pose proof (Z.mod_pos_bound x (2 ^ s) Hp) as Hm.
  assert (0 <= x / 2 ^ s) by (apply Z.div_pos; lia).
  repeat split; try lia.
  destruct (Z.ltb_spec (x mod 2 ^ s) (2 ^ (s - 1))); [left; reflexivity|].
  destruct (Z.ltb_spec (2 ^ (s - 1)) (x mod 2 ^ s)); [right; split; [lia|reflexivity]|].
  destruct (Z.even (x / 2 ^ s)); [left; reflexivity|right; split; [lia|reflexivity]].
Qed.

Lemma rn53_pos_nonneg x : 0 <= x -> 0 <= rn53_pos x.
Proof.
  intros Hx. pose proof (Z.pow_nonneg 2 (Z.log2 x + 1 - 53) ltac:(lia)) as Hp.
  destruct (rn53_pos_cases x Hx) as [[_ ->]|[Hs (q & r & _ & _ & Hq & [->| [_ ->]])]]; try lia; nia.
Qed.

(** a value with at most 53 + t significant bits is rounded to a multiple of a power of two that divides 2^t,
    so multiples of 2^t on either side of it stay on their side *)
Lemma rn53_pos_between x t c :
  0 <= x < 2 ^ (53 + t) -> 0 <= t ->
  (c * 2 ^ t <= x -> c * 2 ^ t <= rn53_pos x) /\ (x <= c * 2 ^ t -> rn53_pos x <= c * 2 ^ t).
Proof.
  intros [Hx Hlt] Ht.
  destruct (rn53_pos_cases x Hx) as [[_ ->]|[Hs (q & r & Hxe & Hr & Hq & Hres)]]; [split; auto|].
  assert (Hx0 : 0 < x).
  { destruct (Z.eq_dec x 0) as [E|]; [|lia]. exfalso. rewrite E in Hs. cbn in Hs. lia. }
  set (s := Z.log2 x + 1 - 53) in *.
  assert (Hst : s <= t).
  { assert (Z.log2 x < 53 + t) by (apply Z.log2_lt_pow2; lia). lia. }
  assert (Hp : 0 < 2 ^ s) by (apply pow2_pos; lia).
  assert (E : 2 ^ t = 2 ^ (t - s) * 2 ^ s) by (rewrite <- Z.pow_add_r by lia; f_equal; lia).
  set (c' := c * 2 ^ (t - s)).
  assert (Ec : c * 2 ^ t = c' * 2 ^ s) by (subst c'; rewrite E; ring).
  rewrite Ec. clear E Ec. generalize dependent c'. intros c'.
  split; intros H.
  - assert (c' <= q) by nia. destruct Hres as [->|[_ ->]]; nia.
  - destruct Hres as [->|[Hr0 ->]]; [nia|]. assert (q < c') by nia. nia.
Qed.

Lemma rn53_nonneg_eq x : 0 <= x -> rn53 x = rn53_pos x.
Proof. intros. unfold rn53. destruct (Z.ltb_spec x 0); [lia|reflexivity]. Qed.
Lemma rn53_neg_eq x : x < 0 -> rn53 x = - rn53_pos (- x).
Proof. intros. unfold rn53. destruct (Z.ltb_spec x 0); [reflexivity|lia]. Qed.

Lemma rn53_small x : - 2 ^ 53 < x < 2 ^ 53 -> rn53 x = x.
Proof.
  intros H. destruct (Z_lt_le_dec x 0).
  - rewrite rn53_neg_eq, rn53_pos_small by lia. lia.
  - rewrite rn53_nonneg_eq, rn53_pos_small by lia. reflexivity.
Qed.

Lemma rn53_between x t c :
  - 2 ^ (53 + t) < x < 2 ^ (53 + t) -> 0 <= t ->
  (c * 2 ^ t <= x -> c * 2 ^ t <= rn53 x) /\ (x <= c * 2 ^ t -> rn53 x <= c * 2 ^ t).
Proof.
  intros Hx Ht. destruct (Z_lt_le_dec x 0) as [Hn|Hn].
  - rewrite rn53_neg_eq by exact Hn.
    destruct (rn53_pos_between (- x) t (- c) ltac:(lia) Ht) as [A B].
    split; intros H.
    + assert (rn53_pos (- x) <= - c * 2 ^ t) by (apply B; lia). lia.
    + assert (- c * 2 ^ t <= rn53_pos (- x)) by (apply A; lia). lia.
  - rewrite rn53_nonneg_eq by exact Hn. apply rn53_pos_between; [lia|exact Ht].
Qed.

Lemma rn53_shift_exact x k : 0 <= x < 2 ^ 53 -> 0 <= k -> rn53 (x * 2 ^ k) = x * 2 ^ k.
Proof.
  intros [Hx Hlt] Hk. pose proof (pow2_pos k Hk).
  rewrite rn53_nonneg_eq by nia.
  destruct (rn53_pos_between (x * 2 ^ k) k x) as [A B]; [rewrite Z.pow_add_r by lia; nia|lia|].
  specialize (A ltac:(lia)). specialize (B ltac:(lia)). lia.
Qed.

Lemma bo_base_exact c k : cfg_ok c -> bo_base_f c k = bo_base c k.
Proof.
  intros [[Hi0 Hi1] [Hm0 Hm1]]. unfold bo_base_f, bo_base.
  assert (2 ^ 52 < 2 ^ 53) by (apply Z.pow_lt_mono_r; lia).
  rewrite (rn53_small (bo_init c)), (rn53_small (bo_max c)) by lia.
  rewrite rn53_shift_exact by lia.
  destruct (Z.ltb_spec (bo_max c) (bo_init c * 2 ^ Z.of_N k)); lia.
Qed.

Lemma bo_base_range c k : cfg_ok c -> 0 < bo_base c k < 2 ^ 52.
Proof.
  intros [[Hi0 Hi1] [Hm0 Hm1]]. unfold bo_base.
  assert (0 < 2 ^ Z.of_N k) by (apply pow2_pos; lia).
  assert (0 < bo_init c * 2 ^ Z.of_N k) by nia. lia.
Qed.

Lemma bo_base_le_max c k : bo_base c k <= bo_max c.
Proof. unfold bo_base. lia. Qed.

Lemma bo_base_mono c k : 0 < bo_init c -> bo_base c k <= bo_base c (k + 1).
Proof.
  intros Hi. unfold bo_base.
  assert (0 < 2 ^ Z.of_N k) by (apply pow2_pos; lia).
  replace (Z.of_N (k + 1)) with (Z.of_N k + 1) by lia.
  rewrite Z.pow_add_r by lia. change (2 ^ 1) with 2. nia.
Qed.

Lemma rn53_clamp x t lo hi :
  0 <= t -> - 2 ^ (53 + t) < x < 2 ^ (53 + t) -> lo * 2 ^ t <= x <= hi * 2 ^ t -> lo * 2 ^ t <= rn53 x <= hi * 2 ^ t.
Proof.
  intros Ht Hx [A B]. split; [apply (rn53_between x t lo Hx Ht), A|apply (rn53_between x t hi Hx Ht), B].
Qed.

Lemma bo_jit_bounds d r :
  0 < d < 2 ^ 52 -> draw_ok r ->
  (3 * d) / 4 <= bo_jit d r <= - ((- (5 * d)) / 4).
Proof.
  intros [Hd0 Hd1] [Hr0 Hr1]. unfold bo_jit, two63, two65 in *.
  change (2 ^ 52) with 4503599627370496 in Hd1.
  (* every bound below is a multiple of P = 2^63: kept as a name, the arithmetic stays small *)
  set (P := 2 ^ 63) in *.
  assert (HP : P = 9223372036854775808) by reflexivity.
  assert (E116 : 2 ^ (53 + 63) = 9007199254740992 * P) by reflexivity.
  assert (E65 : 2 ^ 65 = 4 * P) by reflexivity.
  assert (E118 : 2 ^ (53 + 65) = 36028797018963968 * P) by reflexivity.
  assert (Hu : 0 * P <= rn53 r <= 1 * P) by (apply (rn53_clamp r 63); lia).
  set (u := rn53 r) in *.
  assert (Ht : -1 * P <= rn53 (2 * u - P) <= 1 * P) by (apply (rn53_clamp _ 63); lia).
  set (t := rn53 (2 * u - P)) in *.
  assert (Hj : - d * P <= rn53 (t * d) <= d * P) by (apply (rn53_clamp _ 63); nia).
  set (j := rn53 (t * d)) in *.
  set (lo := (3 * d) / 4). set (hi := - ((- (5 * d)) / 4)).
  assert (Hlo : 0 <= lo /\ lo * 4 <= 3 * d).
  { subst lo. pose proof (Z.mul_div_le (3 * d) 4 ltac:(lia)). split; [apply Z.div_pos; lia|lia]. }
  assert (Hhi : 5 * d <= hi * 4 /\ hi <= 2 * d).
  { subst hi. pose proof (Z.div_mod (- (5 * d)) 4 ltac:(lia)). pose proof (Z.mod_pos_bound (- (5 * d)) 4 ltac:(lia)). lia. }
  assert (Hs : lo * 2 ^ 65 <= rn53 (d * 2 ^ 65 + j) <= hi * 2 ^ 65) by (apply (rn53_clamp _ 65); nia).
  set (s := rn53 (d * 2 ^ 65 + j)) in *.
  destruct (Z.ltb_spec s 0); [nia|].
  split; [apply Z.div_le_lower_bound; lia|apply Z.div_le_upper_bound; lia].
Qed.

Lemma bo_next_bounds c k r :
  cfg_ok c -> draw_ok r -> bo_lo c k <= bo_next c k r <= bo_hi c k.
Proof.
  intros Hc Hr. unfold bo_next, bo_lo, bo_hi. rewrite (bo_base_exact c k Hc).
  destruct (bo_jitter c); [|lia]. apply bo_jit_bounds; [apply bo_base_range; exact Hc|exact Hr].
Qed.

Lemma bo_next_no_jitter c k r : cfg_ok c -> bo_jitter c = false -> bo_next c k r = bo_base c k.
Proof. intros Hc Hj. unfold bo_next. rewrite Hj. apply bo_base_exact, Hc. Qed.

Lemma bo_lo_pos c k : cfg_ok c -> 0 <= bo_lo c k.
Proof.
  intros Hc. pose proof (bo_base_range c k Hc). unfold bo_lo. destruct (bo_jitter c); [apply Z.div_pos; lia|lia].
Qed.

Definition bo_hi_cap (c : bo_cfg) : Z := - ((- (5 * bo_max c)) / 4).

Lemma bo_hi_le_cap c k : cfg_ok c -> bo_hi c k <= bo_hi_cap c.
Proof.
  intros Hc. pose proof (bo_base_range c k Hc). pose proof (bo_base_le_max c k). unfold bo_hi, bo_hi_cap.
  assert (- (5 * bo_max c) / 4 <= - (5 * bo_base c k) / 4) by (apply Z.div_le_mono; lia).
  destruct (bo_jitter c); [lia|].
  pose proof (Z.div_mod (- (5 * bo_max c)) 4 ltac:(lia)). pose proof (Z.mod_pos_bound (- (5 * bo_max c)) 4 ltac:(lia)). lia.
Qed.

Lemma bo_run_app c att a b :
  bo_run c att (a ++ b) =
  let (a1, ra) := bo_run c att a in let (a2, rb) := bo_run c a1 b in (a2, ra ++ rb).
Proof.
  revert att. induction a as [|op a IH]; intros att; cbn [app bo_run].
  - destruct (bo_run c att b); reflexivity.
  - destruct (bo_step c att op) as [a1 r]. rewrite IH.
    destruct (bo_run c a1 a) as [a2 ra]. destruct (bo_run c a2 b) as [a3 rb]. reflexivity.
Qed.

Lemma bo_run_reset_forgets c att att' h h' ops :
  snd (bo_run c (fst (bo_run c att (h ++ [BReset]))) ops) = snd (bo_run c (fst (bo_run c att' (h' ++ [BReset]))) ops).
Proof.
  assert (F : forall a l, fst (bo_run c a (l ++ [BReset])) = 0%N).
  { intros a l. rewrite bo_run_app. destruct (bo_run c a l) as [a1 ra]. reflexivity. }
  rewrite !F. reflexivity.
Qed.

Fixpoint nexts_since_reset (ops : list bo_op) (acc : N) : N :=
  match ops with
  | [] => acc
  | BNext _ :: r => nexts_since_reset r (acc + 1)%N
  | BReset :: r => nexts_since_reset r 0%N
  | BGet :: r => nexts_since_reset r acc
  end.
Lemma bo_run_attempt c att ops : fst (bo_run c att ops) = nexts_since_reset ops att.
Proof.
  revert att. induction ops as [|op ops IH]; intros att; [reflexivity|].
  cbn [bo_run]. destruct op; cbn [bo_step nexts_since_reset];
    match goal with |- context [bo_run c ?a ops] => specialize (IH a); destruct (bo_run c a ops) end; exact IH.
Qed.

Fixpoint nseq (from : N) (n : nat) : list N :=
  match n with O => [] | S n' => from :: nseq (from + 1)%N n' end.

Lemma nseq_length from n : length (nseq from n) = n.
Proof. revert from. induction n; intros; cbn; auto. Qed.

Lemma bo_try_after c limit : forall outs att,
  tr_returned (bo_try c limit outs att) = true -> tr_after (bo_try c limit outs att) = 0%N.
Proof.
  induction outs as [|o outs IH]; intros att H; cbn [bo_try] in *.
  - discriminate.
  - destruct (fo_abort o || negb (fo_err o)); [reflexivity|].
    destruct ((0 <=? limit) && (limit <=? Z.of_N att)); [reflexivity|]. cbn [tr_after tr_returned] in *. auto.
Qed.

Lemma bo_try_shape c limit : forall outs att,
  let t := bo_try c limit outs att in
  tr_seen t = nseq att (length (tr_seen t)) /\
  (tr_returned t = true -> length (tr_seen t) = S (length (tr_sleeps t))) /\
  (tr_returned t = false -> length (tr_seen t) = length (tr_sleeps t) /\ length (tr_seen t) = length outs) /\
  (0 <= limit -> Z.of_N att <= limit -> Z.of_nat (length (tr_sleeps t)) <= limit - Z.of_N att) /\
  outs = firstn (length (tr_seen t)) outs ++ tr_rest t.
Proof.
  induction outs as [|o outs IH]; intros att; cbn [bo_try].
  - cbn. split; [reflexivity|]. split; [discriminate|]. split; [auto|]. split; [lia|reflexivity].
  - destruct (fo_abort o || negb (fo_err o)).
    { cbn. split; [reflexivity|]. split; [reflexivity|]. split; [discriminate|]. split; [lia|reflexivity]. }
    destruct ((0 <=? limit) && (limit <=? Z.of_N att)) eqn:Eb.
    { cbn. split; [reflexivity|]. split; [reflexivity|]. split; [discriminate|]. split; [lia|reflexivity]. }
    specialize (IH (att + 1)%N). cbn zeta in IH. destruct IH as (A & B & C & D & E).
    cbn [tr_seen tr_sleeps tr_returned tr_rest length nseq firstn app].
    split; [f_equal; exact A|]. split; [intros H; rewrite (B H); reflexivity|].
    split; [intros H; destruct (C H); split; lia|]. split; [|f_equal; exact E].
    intros Hl Ha. apply andb_false_iff in Eb.
    assert (Z.of_N att < limit) by (destruct Eb as [Eb|Eb]; [apply Z.leb_gt in Eb|apply Z.leb_gt in Eb]; lia).
    specialize (D Hl ltac:(lia)). lia.
Qed.

Lemma bo_try_all_fail c limit : forall (n : nat) outs att,
  0 <= limit -> Z.of_N att + Z.of_nat n = limit ->
  (n < length outs)%nat -> Forall fails (firstn (S n) outs) ->
  let t := bo_try c limit outs att in
  tr_returned t = true /\ tr_abort t = false /\ tr_err t = true /\
  tr_seen t = nseq att (S n) /\ length (tr_sleeps t) = n /\ tr_rest t = skipn (S n) outs /\ tr_after t = 0%N.
Proof.
  induction n as [|n IH]; intros outs att Hl Hat Hlen Hf; (destruct outs as [|o outs]; [cbn in Hlen; lia|]).
  - cbn [firstn] in Hf. destruct (Forall_inv Hf) as [Ha He]. cbn [bo_try]. rewrite Ha, He. cbn [orb negb].
    destruct (Z.leb_spec 0 limit); [|lia]. destruct (Z.leb_spec limit (Z.of_N att)); [|lia]. cbn. repeat split; auto.
  - cbn [firstn] in Hf. destruct (Forall_inv Hf) as [Ha He]. pose proof (Forall_inv_tail Hf) as Hf'.
    cbn [bo_try]. rewrite Ha, He. cbn [orb negb].
    destruct (Z.leb_spec 0 limit); [|lia]. destruct (Z.leb_spec limit (Z.of_N att)); [lia|]. cbn [andb].
    destruct (IH outs (att + 1)%N Hl ltac:(lia) ltac:(cbn in Hlen; lia) Hf') as (A & B & C & D & E & F & G).
    cbn [tr_returned tr_abort tr_err tr_seen tr_sleeps tr_rest tr_after nseq length skipn].
    repeat split; auto. f_equal. exact D.
Qed.

Lemma bo_try_stops c limit : forall (n : nat) outs att o,
  (limit < 0 \/ Z.of_N att + Z.of_nat n <= limit) ->
  Forall fails (firstn n outs) -> nth_error outs n = Some o -> fo_abort o || negb (fo_err o) = true ->
  let t := bo_try c limit outs att in
  tr_returned t = true /\ tr_abort t = fo_abort o /\ tr_err t = fo_err o /\
  tr_seen t = nseq att (S n) /\ length (tr_sleeps t) = n /\ tr_rest t = skipn (S n) outs /\ tr_after t = 0%N.
Proof.
  induction n as [|n IH]; intros outs att o Hl Hf Hn Ho; (destruct outs as [|o1 outs]; [discriminate|]).
  - cbn in Hn. injection Hn as ->. cbn [bo_try]. rewrite Ho. cbn. repeat split; auto.
  - cbn [firstn] in Hf. destruct (Forall_inv Hf) as [Ha He]. pose proof (Forall_inv_tail Hf) as Hf'. cbn in Hn.
    cbn [bo_try]. rewrite Ha, He. cbn [orb negb].
    assert (Hb : (0 <=? limit) && (limit <=? Z.of_N att) = false).
    { destruct (Z.leb_spec 0 limit); [|reflexivity]. destruct (Z.leb_spec limit (Z.of_N att)); [lia|reflexivity]. }
    rewrite Hb.
    destruct (IH outs (att + 1)%N o ltac:(lia) Hf' Hn Ho) as (A & B & C & D & E & F & G).
    cbn [tr_returned tr_abort tr_err tr_seen tr_sleeps tr_rest tr_after nseq length skipn].
    repeat split; auto. f_equal. exact D.
Qed.

Lemma bo_try_sleeps_bounds c limit : forall outs att,
  cfg_ok c -> Forall (fun o => draw_ok (fo_draw o)) outs ->
  let t := bo_try c limit outs att in
  Forall2 (fun k d => bo_lo c k <= d <= bo_hi c k) (nseq att (length (tr_sleeps t))) (tr_sleeps t) /\
  sum_lo c att (length (tr_sleeps t)) <= sum_z (tr_sleeps t) <= sum_hi c att (length (tr_sleeps t)).
Proof.
  intros outs att Hc. revert att. induction outs as [|o outs IH]; intros att Hd; cbn [bo_try].
  - cbn. split; [constructor|lia].
  - destruct (fo_abort o || negb (fo_err o)); [cbn; split; [constructor|lia]|].
    destruct ((0 <=? limit) && (limit <=? Z.of_N att)); [cbn; split; [constructor|lia]|].
    cbn [tr_sleeps length nseq sum_z sum_lo sum_hi].
    destruct (IH (att + 1)%N (Forall_inv_tail Hd)) as [A B].
    pose proof (bo_next_bounds c att (fo_draw o) Hc (Forall_inv Hd)).
    split; [constructor; assumption|lia].
Qed.

Lemma sum_hi_le_cap c : cfg_ok c -> forall n from, sum_hi c from n <= Z.of_nat n * bo_hi_cap c.
Proof.
  intros Hc. induction n as [|n IH]; intros from; [cbn; lia|].
  cbn [sum_hi]. pose proof (bo_hi_le_cap c from Hc). specialize (IH (from + 1)%N). lia.
Qed.

Lemma sum_lo_nonneg c : cfg_ok c -> forall n from, 0 <= sum_lo c from n.
Proof.
  intros Hc. induction n as [|n IH]; intros from; [cbn; lia|].
  cbn [sum_lo]. pose proof (bo_lo_pos c from Hc). specialize (IH (from + 1)%N). lia.
Qed.

(** why Try has `defer eb.Reset()`: with a counter left behind at k >= limit, the first failure of the next Try
    would be final *)
Lemma bo_try_stale_counter c limit o outs att :
  0 <= limit -> limit <= Z.of_N att -> fails o ->
  tr_seen (bo_try c limit (o :: outs) att) = [att] /\ tr_err (bo_try c limit (o :: outs) att) = true.
Proof.
  intros Hl Ha [A E]. cbn [bo_try]. rewrite A, E. cbn [orb negb].
  destruct (Z.leb_spec 0 limit); [|lia]. destruct (Z.leb_spec limit (Z.of_N att)); [|lia]. cbn. auto.
Qed.

Lemma bo_next_interval c k r :
  cfg_ok c -> 0 <= r < 2 ^ 63 ->
  let d := Z.min (bo_init c * 2 ^ Z.of_N k) (bo_max c) in
  (bo_jitter c = true -> (3 * d) / 4 <= bo_next c k r <= - ((- (5 * d)) / 4)) /\
  (bo_jitter c = false -> bo_next c k r = d).
Proof.
  intros Hc Hr d. split; intros Hj.
  - pose proof (bo_next_bounds c k r Hc Hr) as H. unfold bo_lo, bo_hi in H. rewrite Hj in H. exact H.
  - apply bo_next_no_jitter; assumption.
Qed.
