(** Lemmas about Remoting/Link.v (C14): what the peer receives over any history of cuts, refusals and retries is a
    subsequence of what was sent; dead letters; recovery; the caller sleeps. *)
From Coq Require Import List NArith Lia Bool.
From Vivid Require Import Codec.Prim Remoting.Frame Remoting.FrameProofs Remoting.Link.
Import ListNotations.
Local Open Scope N_scope.

Lemma subseq_nil_l {A} (l : list A) : subseq [] l.
Proof. induction l; constructor; auto. Qed.
Lemma subseq_refl {A} (l : list A) : subseq l l.
Proof. induction l; [apply subseq_nil|apply subseq_cons; auto]. Qed.
Lemma subseq_app {A} (a b c d : list A) : subseq a b -> subseq c d -> subseq (a ++ c) (b ++ d).
Proof. induction 1; cbn; intros Hcd; auto; [apply subseq_skip|apply subseq_cons]; auto. Qed.
Lemma subseq_app_r {A} (a b c : list A) : subseq a b -> subseq a (b ++ c).
Proof. intros H. rewrite <- (app_nil_r a). apply subseq_app; [exact H|apply subseq_nil_l]. Qed.
Lemma subseq_length {A} (a b : list A) : subseq a b -> (length a <= length b)%nat.
Proof. induction 1; cbn; lia. Qed.
Lemma subseq_In {A} (a b : list A) x : subseq a b -> In x a -> In x b.
Proof. induction 1; cbn; intuition. Qed.

Section P.
  Context {M : Type}.
  Variable encode : M -> option bytes.
  Variable limit : N.

  Notation st := (@st M).
  Notation attempt_once := (attempt_once encode).
  Notation try_loop := (try_loop encode limit).
  Notation exec := (exec encode limit).
  Notation wire_of := (wire_of encode).

  (** ghost structure of a wire: complete frames of messages, then a strict prefix of one more frame *)
  Definition good (p : M * bytes) : Prop := encode (fst p) = Some (snd p) /\ legal (snd p).
  Definition frames (f : list (M * bytes)) : bytes := concat (map frame (map snd f)).
  Definition strict_prefix (t : bytes) : Prop :=
    t = [] \/ exists b k, legal b /\ (k < length (frame b))%nat /\ t = firstn k (frame b).
  Definition wire_ok (f : list (M * bytes)) (w : bytes) : Prop :=
    Forall good f /\ exists t, w = frames f ++ t /\ strict_prefix t.
  Definition cur_ok (f : list (M * bytes)) (c : conn) : Prop :=
    Forall good f /\ exists t, c_wire c = frames f ++ t /\ strict_prefix t /\ (t <> [] -> c_cap c = Some 0).

  Definition Inv (done : list M) (s : st) : Prop :=
    exists fs fc,
      Forall2 wire_ok fs (old s) /\
      match cur s with Some c => cur_ok fc c | None => fc = [] end /\
      subseq (map fst (concat fs ++ fc)) done.

  Lemma wire_of_good m data : wire_of m = Some data -> exists b, good (m, b) /\ data = frame b.
  Proof.
    unfold wire_of. destruct (encode m) as [b|] eqn:E; [|discriminate]. intros H.
    apply send_frame_legal in H as [L ->]. exists b. split; [split; assumption|reflexivity].
  Qed.

  Lemma frames_snoc f p : frames (f ++ [p]) = frames f ++ frame (snd p).
  Proof. unfold frames. rewrite !map_app, concat_app. cbn. now rewrite app_nil_r. Qed.

  Lemma write_ok f c m b :
    cur_ok f c -> good (m, b) ->
    let (c', complete) := write c (frame b) in cur_ok (if complete then f ++ [(m, b)] else f) c'.
  Proof.
    intros (Hg & t & Hw & Hp & Hcap) Hb. unfold write.
    assert (L : (0 < length (frame b))%nat) by (rewrite frame_length; lia).
    (* a connection that still carries bytes is at a frame boundary: the whole frame is appended *)
    assert (Hall : forall cap', c_cap c <> Some 0 -> cur_ok (f ++ [(m, b)]) {| c_cap := cap'; c_wire := c_wire c ++ frame b |}).
    { intros cap' Hne. assert (t = []) as -> by (destruct t; [reflexivity|]; exfalso; apply Hne, Hcap; discriminate).
      split; [apply Forall_app; split; auto|]. exists []. cbn [c_wire c_cap]. rewrite frames_snoc, Hw, !app_nil_r.
      repeat split; [left; reflexivity|congruence]. }
    destruct (c_cap c) as [k|] eqn:Ek; [|apply Hall; discriminate].
    destruct (N.of_nat (length (frame b)) <=? k) eqn:Ef; [apply Hall; intros [= ->]; lia|].
    split; [exact Hg|]. cbn [c_wire c_cap]. destruct t as [|x t'].
    - exists (firstn (N.to_nat k) (frame b)). rewrite Hw, app_nil_r. repeat split; auto.
      right. exists b, (N.to_nat k). split; [apply Hb|split; [lia|reflexivity]].
    - assert (Some k = Some 0) as [= ->] by (apply Hcap; discriminate).
      exists (x :: t'). cbn [N.to_nat firstn]. rewrite app_nil_r. repeat split; auto.
  Qed.

  Lemma cur_ok_wire_ok f c : cur_ok f c -> wire_ok f (c_wire c).
  Proof.
    intros (Hg & t & Hw & Hp & _). split; [exact Hg|]. exists t. auto. Qed.

  Lemma fresh_ok cap : cur_ok [] {| c_cap := cap; c_wire := [] |}.
  Proof.
    split; [constructor|]. exists []. repeat split; [left; reflexivity|congruence]. Qed.

  Lemma Inv_log done l s : Inv done (log l s) <-> Inv done s.
  Proof. reflexivity. Qed.

  Lemma attempt_once_inv done m a s :
    Inv done s ->
    let (s1, o) := attempt_once m a s in
    match o with
    | OSuccess => Inv (done ++ [m]) s1
    | _ => Inv done s1
    end.
  Proof.
    intros HI. unfold attempt_once. destruct (a_stopped a); [exact HI|].
    (* the state after getOrCreateConnection, and the same state holding the connection at hand *)
    set (got := match cur s with Some _ => _ | None => _ end).
    assert (Hgot : Inv done (fst got) /\ Inv done (set_cur (snd got) (fst got))).
    { unfold got. split; [destruct (cur s); [|destruct (a_connect a)]; exact HI|].
      destruct HI as (fs & fc & Hold & Hcur & Hsub). exists fs, fc. destruct (cur s) as [c|]; [auto|].
      subst fc. destruct (a_connect a); cbn; auto using fresh_ok. }
    clearbody got. destruct got as [s1 [c|]]; destruct Hgot as [HI1 HIc]; [|exact HI1].
    destruct HIc as (fs & fc & Hold & Hcur & Hsub). cbn [set_cur cur old] in Hold, Hcur.
    (* a dropped connection joins the old ones with the frames it carried *)
    assert (Hdrop : forall c0, cur_ok fc c0 -> Inv done (drop c0 s1)).
    { intros c0 H0. exists (fs ++ [fc]), []. cbn [drop cur old]. split; [|split; [reflexivity|]].
      - apply Forall2_app; [exact Hold|]. constructor; [apply cur_ok_wire_ok; exact H0|constructor].
      - now rewrite concat_app, app_nil_r; cbn; rewrite app_nil_r. }
    destruct (wire_of m) as [data|] eqn:Ew; [destruct (a_closed a); [exact (Hdrop c Hcur)|]|exists fs, fc; auto].
    apply wire_of_good in Ew as (b & Hb & ->).
    pose proof (write_ok fc c m b Hcur Hb) as Hc'. destruct (write c (frame b)) as [c' complete].
    destruct complete; [|destruct (a_werr a); [exact (Hdrop c' Hc')|]]; cbn [orb negb].
    - exists fs, (fc ++ [(m, b)]). split; [exact Hold|]. split; [exact Hc'|].
      rewrite app_assoc, map_app. apply subseq_app; [exact Hsub|apply subseq_refl].
    - exists fs, fc. split; [exact Hold|]. split; [exact Hc'|]. now apply subseq_app_r.
  Qed.

  Lemma Inv_app done more s : Inv done s -> Inv (done ++ more) s.
  Proof. intros (fs & fc & A & B & C). exists fs, fc. split; [|split]; auto. now apply subseq_app_r. Qed.

  Lemma Inv_sleep done s : Inv done (sleep s) <-> Inv done s.
  Proof. reflexivity. Qed.
  Lemma Inv_finish done f s : Inv done (finish f s) <-> Inv done s.
  Proof. destruct f; reflexivity. Qed.

  Lemma try_loop_inv done m : forall script s,
    Inv done s -> Inv (done ++ [m]) (fst (fst (try_loop m script s))).
  Proof.
    induction script as [|a rest IH]; intros s HI; cbn [Link.try_loop fst].
    - now apply Inv_app.
    - pose proof (attempt_once_inv done m a s HI) as H1. destruct (attempt_once m a s) as [s1 o].
      destruct o; cbn [fst].
      + now apply Inv_finish.
      + apply Inv_finish. now apply Inv_app.
      + destruct (limit <=? attempt s1); cbn [fst]; [apply Inv_finish; now apply Inv_app|].
        apply IH. exact H1.
  Qed.

  Lemma exec_inv : forall ms done script s,
    Inv done s -> Inv (done ++ ms) (fst (exec ms script s)).
  Proof.
    induction ms as [|m ms IH]; intros done script s HI; cbn [Link.exec fst].
    - now rewrite app_nil_r.
    - pose proof (try_loop_inv done m script s HI) as H1.
      destruct (try_loop m script s) as [[s1 rest] ok]. cbn [fst] in H1.
      replace (done ++ m :: ms) with ((done ++ [m]) ++ ms) by (rewrite <- app_assoc; reflexivity).
      destruct ok; [now apply IH|now apply Inv_app].
  Qed.

  Lemma Inv_init : Inv [] (@init M).
  Proof. exists [], []. cbn. repeat split; constructor. Qed.

  (** the labels of one attempt other than the Sent event that ends a successful one *)
  Definition calm (l : label) : Prop := match l with LDial | LConnFailed _ | LSendFailed => True | _ => False end.

  Lemma calm_no_sleep tr : Forall calm tr -> count_sleeps tr = 0 /\ sleeps_ms tr = 0.
  Proof. induction 1 as [|l tr Hl _ IH]; [split; reflexivity|]. destruct l; try destruct Hl; exact IH. Qed.
  Lemma calm_not_In tr : Forall calm tr -> ~ In LDead tr /\ forall k, ~ In (LSent k) tr.
  Proof. rewrite Forall_forall. intros H. split; [|intros k]; intros Hin; exact (H _ Hin). Qed.

  Lemma attempt_once_shape m a s :
    let (s1, o) := attempt_once m a s in
    dead s1 = dead s /\ attempt s1 = attempt s /\ (o = ORetry -> cur s1 = None) /\
    exists tr, Forall calm tr /\
      match o with
      | OSuccess => exists n, trace s1 = trace s ++ tr ++ [LSent n]
      | _ => trace s1 = trace s ++ tr
      end.
  Proof.
    unfold attempt_once. destruct (a_stopped a).
    { repeat split; try discriminate. exists []. split; [constructor|symmetry; apply app_nil_r]. }
    set (got := match cur s with Some _ => _ | None => _ end).
    assert (G : dead (fst got) = dead s /\ attempt (fst got) = attempt s /\ (snd got = None -> cur (fst got) = None) /\
                exists pre, Forall calm pre /\ trace (fst got) = trace s ++ pre).
    { subst got. destruct (cur s) as [c|] eqn:Ec.
      - repeat split; try discriminate. exists []. split; [constructor|symmetry; apply app_nil_r].
      - destruct (a_connect a); repeat split; auto; eexists; (split; [|cbn; rewrite <- ?app_assoc; reflexivity]); repeat constructor. }
    clearbody got. destruct got as [s0 [c|]]; cbn [fst snd] in G; destruct G as (Gd & Ga & Gc & pre & Cpre & Gt);
      [|repeat split; auto; exists pre; auto].
    destruct (wire_of m) as [data|]; [destruct (a_closed a); [|destruct (write c data) as [c' complete]; destruct (complete || negb (a_werr a))]|];
      cbn [log set_cur drop dead attempt cur trace]; rewrite Gt, <- ?app_assoc; repeat split; auto; try discriminate.
    - exists pre. split; [exact Cpre|reflexivity].
    - exists pre. split; [exact Cpre|]. exists (N.of_nat (length data)). reflexivity.
    - exists (pre ++ [LSendFailed]). split; [apply Forall_app; repeat constructor; exact Cpre|reflexivity].
    - exists (pre ++ [LSendFailed]). split; [apply Forall_app; repeat constructor; exact Cpre|reflexivity].
  Qed.

  Lemma count_sleeps_app a b : count_sleeps (a ++ b) = count_sleeps a + count_sleeps b.
  Proof. induction a as [|x a IH]; [reflexivity|]. destruct x; cbn [app count_sleeps]; rewrite ?IH; lia. Qed.

  Lemma try_loop_spec m : forall script s s' rest,
    attempt s <= limit ->
    try_loop m script s = (s', rest, true) ->
    attempt s' = 0 /\
    exists tr, trace s' = trace s ++ tr /\ count_sleeps tr + attempt s <= limit /\
      ((dead s' = dead s /\ exists n tr0, tr = tr0 ++ [LSent n] /\ ~ In LDead tr0 /\ forall k, ~ In (LSent k) tr0) \/
       (dead s' = dead s ++ [m] /\ exists tr0, tr = tr0 ++ [LDead] /\ ~ In LDead tr0 /\ forall k, ~ In (LSent k) tr0)).
  Proof.
    induction script as [|a script IH]; intros s s' rest Hat H; cbn [Link.try_loop] in H; [discriminate|].
    pose proof (attempt_once_shape m a s) as Hs. destruct (attempt_once m a s) as [s1 o].
    destruct Hs as (Hd & Ha & _ & tr & Hc & Htr). destruct (calm_no_sleep tr Hc) as [Hcs _]. destruct (calm_not_In tr Hc) as [Hnd Hns].
    destruct o; [| |destruct (limit <=? attempt s1) eqn:El].
    1: { destruct Htr as [n Htr]. injection H as <- <-. cbn [finish attempt trace dead]. split; [reflexivity|].
         exists (tr ++ [LSent n]). split; [exact Htr|]. rewrite count_sleeps_app, Hcs. split; [cbn; lia|].
         left. split; [exact Hd|]. exists n, tr. auto. }
    3: { apply IH in H; [|cbn [sleep attempt]; lia].
         destruct H as (H0 & tr2 & Htr2 & Hcs2 & Hcase). split; [exact H0|].
         cbn [sleep trace attempt dead] in *.
         exists (tr ++ [LSleep (attempt s1)] ++ tr2). split; [rewrite Htr2, Htr, <- !app_assoc; reflexivity|].
         rewrite !count_sleeps_app. cbn [count_sleeps]. split; [lia|].
         assert (Hpre : forall tr0, ~ In LDead tr0 -> (forall k, ~ In (LSent k) tr0) ->
                   ~ In LDead (tr ++ [LSleep (attempt s1)] ++ tr0) /\ forall k, ~ In (LSent k) (tr ++ [LSleep (attempt s1)] ++ tr0)).
         { intros tr0 A B. split; [|intros k]; rewrite !in_app_iff; cbn; intuition (discriminate || eauto). }
         destruct Hcase as [(Hd2 & n & tr0 & -> & A & B)|(Hd2 & tr0 & -> & A & B)]; destruct (Hpre tr0 A B) as (A' & B').
         - left. split; [congruence|]. exists n, (tr ++ [LSleep (attempt s1)] ++ tr0). rewrite <- !app_assoc. auto.
         - right. split; [congruence|]. exists (tr ++ [LSleep (attempt s1)] ++ tr0). rewrite <- !app_assoc. auto. }
    (* the dead letter: the closure aborted, or the limit is reached *)
    all: injection H as <- <-; cbn [finish attempt trace dead]; split; [reflexivity|];
      exists (tr ++ [LDead]); rewrite app_assoc, Htr, count_sleeps_app; cbn [count_sleeps]; split; [reflexivity|];
      split; [lia|]; right; rewrite Hd; split; [reflexivity|]; exists tr; auto.
  Qed.

  Definition hard_fail (a : answers) : Prop :=
    a_stopped a = false /\ a_closed a = true /\ match a_connect a with COk _ => False | _ => True end.

  Lemma attempt_once_hard_fail m a s data :
    wire_of m = Some data -> hard_fail a ->
    exists s1, attempt_once m a s = (s1, ORetry) /\ attempt s1 = attempt s /\ dead s1 = dead s /\
               exists tr, trace s1 = trace s ++ tr /\ count_sleeps tr = 0 /\ sleeps_ms tr = 0.
  Proof.
    intros Hw (Hs & Hc & Hk). pose proof (attempt_once_shape m a s) as H.
    assert (O : snd (attempt_once m a s) = ORetry).
    { unfold attempt_once. rewrite Hs, Hw, Hc. destruct (cur s); [reflexivity|]. destruct (a_connect a); (contradiction || reflexivity). }
    destruct (attempt_once m a s) as [s1 o]. cbn in O. subst o. destruct H as (D & A & _ & tr & Ctr & T).
    exists s1. repeat split; auto. exists tr. split; [exact T|apply calm_no_sleep, Ctr].
  Qed.

  Fixpoint nominal_ms (from : N) (n : nat) : N :=
    match n with O => 0 | S n' => backoff_ms from + nominal_ms (from + 1) n' end.

  Lemma sleeps_ms_app a b : sleeps_ms (a ++ b) = sleeps_ms a + sleeps_ms b.
  Proof. induction a as [|x a IH]; [reflexivity|]. destruct x; cbn [app sleeps_ms]; rewrite ?IH; lia. Qed.

  Lemma try_loop_exhaust m data : forall (n : nat) script s,
    wire_of m = Some data ->
    attempt s + N.of_nat n = limit ->
    (n < length script)%nat -> Forall hard_fail (firstn (S n) script) ->
    exists s', try_loop m script s = (s', skipn (S n) script, true) /\
      dead s' = dead s ++ [m] /\ attempt s' = 0 /\
      exists tr, trace s' = trace s ++ tr /\ count_sleeps tr = N.of_nat n /\ sleeps_ms tr = nominal_ms (attempt s) n.
  Proof.
    induction n as [|n IH]; intros script s Hw Hat Hlen Hf; (destruct script as [|a script]; [cbn in Hlen; lia|]);
      cbn [firstn] in Hf; destruct (attempt_once_hard_fail m a s data Hw (Forall_inv Hf)) as (s1 & E & A1 & D1 & tr & Htr & C1 & C2);
      cbn [Link.try_loop]; rewrite E.
    - replace (limit <=? attempt s1) with true by lia.
      eexists. split; [reflexivity|]. cbn [finish dead attempt trace]. rewrite D1. repeat split; auto.
      exists (tr ++ [LDead]). rewrite Htr, <- app_assoc, count_sleeps_app, sleeps_ms_app, C1, C2. cbn. auto.
    - replace (limit <=? attempt s1) with false by lia.
      destruct (IH script (sleep s1) Hw) as (s' & E' & D' & A' & tr' & Htr' & C1' & C2').
      { cbn [sleep attempt]. lia. } { cbn in Hlen. lia. } { exact (Forall_inv_tail Hf). }
      exists s'. split; [exact E'|]. cbn [sleep dead attempt trace] in *. rewrite D', D1. repeat split; auto.
      exists (tr ++ [LSleep (attempt s1)] ++ tr'). split; [rewrite Htr', Htr, <- !app_assoc; reflexivity|].
      rewrite !count_sleeps_app, !sleeps_ms_app, C1, C2, C1', C2'. cbn [count_sleeps sleeps_ms nominal_ms].
      rewrite A1. split; lia.
  Qed.

  Lemma try_loop_encode_fail m a script s :
    wire_of m = None -> a_stopped a = false ->
    (cur s <> None \/ exists cap, a_connect a = COk cap) ->
    exists s', try_loop m (a :: script) s = (s', script, true) /\ dead s' = dead s ++ [m] /\
      exists tr, trace s' = trace s ++ tr /\ count_sleeps tr = 0.
  Proof.
    intros Hw Hs Hc. cbn [Link.try_loop]. unfold attempt_once. rewrite Hs, Hw.
    destruct (cur s) as [c|] eqn:Ec.
    - eexists. split; [reflexivity|]. cbn. split; [reflexivity|]. eexists. split; [rewrite <- app_assoc; reflexivity|]. reflexivity.
    - destruct Hc as [Hc|(cap & ->)]; [congruence|].
      eexists. split; [reflexivity|]. cbn. split; [reflexivity|]. eexists. split; [rewrite <- !app_assoc; reflexivity|]. reflexivity.
  Qed.

  Variable dec : bytes -> option M.
  (** the codec round trip (proved for the envelope layout in FrameProofs.env_roundtrip; for the message payload
      it is C12's theorem / the user codec's contract M9) *)
  Hypothesis codec_roundtrip : forall m b, encode m = Some b -> dec b = Some m.

  Lemma decodable_good f : Forall good f -> decodable dec (map snd f) = map fst f.
  Proof.
    induction 1 as [|p f [He _] _ IH]; [reflexivity|]. cbn [map decodable].
    rewrite (codec_roundtrip _ _ He), IH. reflexivity.
  Qed.

  Lemma legal_good f : Forall good f -> Forall legal (map snd f).
  Proof. induction 1 as [|p f [_ Hl] _ IH]; cbn; constructor; auto. Qed.

  Lemma wire_ok_delivered f w : wire_ok f w -> delivered (receive_stream dec w) = map fst f.
  Proof.
    intros (Hg & t & -> & [->|(b & k & Hb & Hk & ->)]); unfold frames.
    - rewrite app_nil_r, receive_stream_frames by now apply legal_good.
      rewrite delivered_app, delivered_on_body, decodable_good by assumption. cbn. now rewrite app_nil_r.
    - rewrite receive_stream_frames_partial by (auto using legal_good). now apply decodable_good.
  Qed.

  Lemma received_eq (s : st) :
    received dec s = concat (map (fun w => delivered (receive_stream dec w)) (old s)) ++
                     match cur s with Some c => delivered (receive_stream dec (c_wire c)) | None => [] end.
  Proof. unfold received, per_conn, wires. rewrite map_app, concat_app. destruct (cur s); cbn; now rewrite ?app_nil_r. Qed.

  Lemma Inv_received done s : Inv done s -> subseq (received dec s) done.
  Proof.
    intros (fs & fc & Hold & Hcur & Hsub).
    assert (E : received dec s = map fst (concat fs ++ fc)); [|now rewrite E].
    rewrite received_eq, map_app. f_equal.
    - clear Hsub Hcur. induction Hold as [|f w fs ws Hw _ IH]; [reflexivity|].
      cbn [map concat]. rewrite map_app, IH, (wire_ok_delivered f w Hw). reflexivity.
    - destruct (cur s) as [c|]; [|subst fc; reflexivity]. apply wire_ok_delivered. now apply cur_ok_wire_ok.
  Qed.

  (** C14 subsequence, all message lists, all scripts (= all cut offsets of all connections, all refusals,
      all retry settings), for receivers whose connections do not overlap *)
  Theorem subsequence ms script :
    subseq (received dec (fst (exec ms script (@init M)))) ms.
  Proof. apply Inv_received. change ms with ([] ++ ms). apply exec_inv, Inv_init. Qed.

  Definition fine (a : answers) : Prop :=
    a_stopped a = false /\ a_connect a = COk None /\ a_closed a = false /\ a_werr a = true.

  Lemma delivered_single m b : good (m, b) -> delivered (receive_stream dec (frame b)) = [m].
  Proof.
    intros Hg. apply (wire_ok_delivered [(m, b)]). split; [constructor; [exact Hg|constructor]|].
    exists []. unfold frames. cbn. rewrite !app_nil_r. split; [reflexivity|left; reflexivity].
  Qed.

  (** after a reported failure the connection has been dropped ([attempt_once_shape]: ORetry -> cur = None);
      from there the next attempt opens a new connection at a frame boundary and the message arrives *)
  Lemma recovers_after_drop m a script s data :
    wire_of m = Some data -> fine a -> cur s = None ->
    exists s', try_loop m (a :: script) s = (s', script, true) /\
      received dec s' = received dec s ++ [m] /\ dead s' = dead s /\ old s' = old s.
  Proof.
    intros Hw (Hs & Hc & Hcl & He) Ec. pose proof Hw as Hw0. apply wire_of_good in Hw0 as (b & Hb & ->).
    cbn [Link.try_loop]. unfold attempt_once. rewrite Hs, Ec, Hc.
    rewrite Hw, Hcl. cbn [write c_cap c_wire app orb].
    eexists. split; [reflexivity|]. cbn [finish dead old]. repeat split; auto.
    rewrite !received_eq. cbn [finish log set_cur cur old c_wire]. rewrite Ec, (delivered_single m b Hb), app_nil_r. reflexivity.
  Qed.

  Lemma recovers_retry done m a1 a2 script s data :
    1 <= limit -> Inv done s -> attempt s = 0 ->
    wire_of m = Some data -> fine a1 -> fine a2 ->
    exists s' rest, try_loop m (a1 :: a2 :: script) s = (s', rest, true) /\
      received dec s' = received dec s ++ [m] /\ dead s' = dead s.
  Proof.
    intros Hl HI Hat Hw F1 F2. remember (a2 :: script) as sc eqn:Esc. destruct (cur s) as [c|] eqn:Ec.
    2:{ destruct (recovers_after_drop m a1 sc s data Hw F1 Ec) as (s' & E & R & Dd & _). eauto. }
    pose proof Hw as Hw'. apply wire_of_good in Hw' as (b & Hb & ->).
    destruct F1 as (Hs & Hc & Hcl & He).
    destruct HI as (fs & fc & Hold & Hcur & Hsub). rewrite Ec in Hcur.
    pose proof (write_ok fc c m b Hcur Hb) as Hc'.
    cbn [Link.try_loop]. unfold attempt_once. rewrite Hs, Ec, Hw, Hcl.
    destruct (write c (frame b)) as [c' complete]. destruct complete; cbn [orb].
    - eexists _, _. split; [reflexivity|]. cbn [finish dead]. split; [|reflexivity].
      rewrite !received_eq. cbn [finish log set_cur cur old]. rewrite Ec, <- app_assoc. f_equal.
      rewrite (wire_ok_delivered _ _ (cur_ok_wire_ok _ _ Hc')), (wire_ok_delivered _ _ (cur_ok_wire_ok _ _ Hcur)).
      apply map_app.
    - rewrite He. cbn [negb].
      cbn [log drop attempt]. rewrite Hat. replace (limit <=? 0) with false by lia.
      set (s1 := sleep _).
      assert (Ec1 : cur s1 = None) by reflexivity.
      destruct (recovers_after_drop m a2 script s1 (frame b) Hw F2 Ec1) as (s' & E & R & Dd & _).
      exists s', script. rewrite Esc. split; [exact E|]. rewrite R, Dd. split; [|reflexivity]. f_equal.
      rewrite !received_eq. cbn [s1 sleep log drop cur old]. rewrite Ec, map_app, concat_app, app_nil_r. cbn [map concat]. f_equal.
      now rewrite app_nil_r, (wire_ok_delivered _ _ (cur_ok_wire_ok _ _ Hc')), (wire_ok_delivered _ _ (cur_ok_wire_ok _ _ Hcur)).
  Qed.
End P.

Definition refuse : answers := {| a_stopped := false; a_connect := CRefused; a_closed := false; a_werr := true |}.
Definition id_encode (b : bytes) : option bytes := Some b.

Lemma tell_blocks_witness :
  let s := fst (fst (try_loop id_encode 3 [7] [refuse; refuse; refuse; refuse] init)) in
  count_sleeps (trace s) = 3 /\ sleeps_ms (trace s) = 700 /\ dead s = [[7]].
Proof. vm_compute. auto. Qed.

(** capacity 5 = the one frame of message [1]: connection 1 is cut after it, message 2 is dead-lettered (limit 0),
    message 3 travels on connection 2 *)
Definition ok_conn (cap : option N) : answers := {| a_stopped := false; a_connect := COk cap; a_closed := false; a_werr := true |}.

Lemma overlap_witness :
  let ms := [[1]; [2]; [3]] in
  let s := fst (exec id_encode 0 ms [ok_conn (Some 5); ok_conn None; ok_conn None] init) in
  per_conn (fun b => Some b) s = [[[1]]; [[3]]] /\ dead s = [[2]] /\
  merges (per_conn (fun b => Some b) s) [[3]; [1]] /\ ~ subseq [[3]; [1]] ms.
Proof.
  cbn zeta. split; [vm_compute; reflexivity|]. split; [vm_compute; reflexivity|]. split.
  - replace (per_conn _ _) with [[[1]]; [[3]]] by (vm_compute; reflexivity).
    apply (merges_cons [[[1]]] [3] [] []). cbn.
    apply (merges_cons [] [1] [] [[]]). cbn. apply merges_nil. repeat constructor.
  - intros H. inversion H as [| ? ? ? H1 | ]; subst. inversion H1 as [| ? ? ? H2 | ]; subst.
    inversion H2 as [| ? ? ? H3 | ? ? ? H3 ]; subst.
    + inversion H3.
    + inversion H3 as [| ? ? ? H4 | ]; subst.
Qed.

(** M5, as modelled: a Write that does not complete has delivered a strict prefix and the connection carries
    nothing more *)
Lemma write_incomplete_strict_prefix c data c' :
  write c data = (c', false) ->
  exists k, (k < length data)%nat /\ c_wire c' = c_wire c ++ firstn k data /\ c_cap c' = Some 0.
Proof.
  unfold write. destruct (c_cap c) as [k|]; [|discriminate].
  destruct (N.of_nat (length data) <=? k) eqn:E; [discriminate|]. intros [= <-].
  exists (N.to_nat k). cbn. repeat split; auto. lia.
Qed.

Lemma write_complete_all c data c' :
  write c data = (c', true) -> c_wire c' = c_wire c ++ data.
Proof.
  unfold write. destruct (c_cap c) as [k|]; [|now intros [= <-]].
  destruct (N.of_nat (length data) <=? k); [now intros [= <-]|discriminate].
Qed.

Definition refuse_closed : answers := {| a_stopped := false; a_connect := CRefused; a_closed := true; a_werr := true |}.

Lemma try_loop_limit0_no_sleep {M} (encode : M -> option bytes) m script (s s' : @st M) rest :
  attempt s = 0 ->
  try_loop encode 0 m script s = (s', rest, true) ->
  exists tr, trace s' = trace s ++ tr /\ count_sleeps tr = 0.
Proof.
  intros Ha H. apply try_loop_spec in H; [|lia]. destruct H as (_ & tr & Htr & Hc & _).
  exists tr. split; [exact Htr|lia].
Qed.

Lemma retry_drops {M} (encode : M -> option bytes) m a (s s1 : @st M) :
  attempt_once encode m a s = (s1, ORetry) -> cur s1 = None.
Proof.
  intros H. pose proof (attempt_once_shape encode m a s) as Hs. rewrite H in Hs.
  destruct Hs as (_ & _ & Hd & _). now apply Hd.
Qed.
