(** Lemmas about Remoting/Churn.v: a message that arrives while an actor is registered at its path goes to THAT
    actor (the one registered at arrival time), exactly once, in order, whatever was registered there before
    (C11; [routing_history_independent]: C15). *)
From Coq Require Import List NArith Bool.
From Vivid Require Import Codec.Prim Remoting.Frame Remoting.FrameProofs Remoting.Churn.
Import ListNotations.
Local Open Scope N_scope.

Lemma bytes_eqb_refl a : bytes_eqb a a = true.
Proof. induction a as [|x a IH]; [reflexivity|]. cbn [bytes_eqb]. now rewrite N.eqb_refl, IH. Qed.

Lemma bytes_eqb_eq a : forall b, bytes_eqb a b = true <-> a = b.
Proof.
  induction a as [|x a IH]; intros [|y b]; cbn [bytes_eqb]; split; try congruence; try reflexivity.
  - intros H. apply andb_true_iff in H as [H1 H2]. apply N.eqb_eq in H1. apply IH in H2. congruence.
  - intros [= -> ->]. now rewrite N.eqb_refl, bytes_eqb_refl.
Qed.

Lemma bytes_eqb_neq a b : a <> b -> bytes_eqb a b = false.
Proof. intros H. destruct (bytes_eqb a b) eqn:E; [|reflexivity]. apply bytes_eqb_eq in E. contradiction. Qed.

Lemma lookup_remove_same p r : lookup p (remove p r) = None.
Proof.
  induction r as [|[q a] t IH]; [reflexivity|]. cbn [remove].
  destruct (bytes_eqb q p) eqn:E; [exact IH|]. cbn [lookup]. now rewrite E.
Qed.

Lemma lookup_remove_other p q r : p <> q -> lookup q (remove p r) = lookup q r.
Proof.
  intros N. induction r as [|[x a] t IH]; [reflexivity|]. cbn [remove lookup].
  destruct (bytes_eqb x p) eqn:E.
  - apply bytes_eqb_eq in E. subst x. now rewrite (bytes_eqb_neq _ _ N).
  - cbn [lookup]. now rewrite IH.
Qed.

Lemma lookup_spawn_free p i r :
  lookup p r = None -> lookup p (spawn p i r) = Some {| i_inc := i; i_epoch := 0 |}.
Proof. intros H. unfold spawn. rewrite H. cbn [lookup]. now rewrite bytes_eqb_refl. Qed.

Lemma lookup_spawn_taken p i r a : lookup p r = Some a -> spawn p i r = r.
Proof. intros H. unfold spawn. now rewrite H. Qed.

Lemma lookup_spawn_other p q i r : p <> q -> lookup q (spawn p i r) = lookup q r.
Proof.
  intros N. unfold spawn. destruct (lookup p r); [reflexivity|]. cbn [lookup]. now rewrite (bytes_eqb_neq _ _ N).
Qed.

Lemma lookup_restart_same p r a :
  lookup p r = Some a -> lookup p (restart p r) = Some {| i_inc := i_inc a; i_epoch := i_epoch a + 1 |}.
Proof.
  induction r as [|[q b] t IH]; [discriminate|]. cbn [lookup restart].
  destruct (bytes_eqb q p) eqn:E.
  - intros [= ->]. cbn [lookup]. now rewrite E.
  - intros H. cbn [lookup]. rewrite E. now apply IH.
Qed.

Lemma lookup_restart_none p r : lookup p r = None -> restart p r = r.
Proof.
  induction r as [|[q b] t IH]; [reflexivity|]. cbn [lookup restart].
  destruct (bytes_eqb q p); [discriminate|]. intros H. now rewrite IH.
Qed.

Lemma lookup_restart_other p q r : p <> q -> lookup q (restart p r) = lookup q r.
Proof.
  intros N. induction r as [|[x a] t IH]; [reflexivity|]. cbn [restart lookup].
  destruct (bytes_eqb x p) eqn:E.
  - apply bytes_eqb_eq in E. subst x. cbn [lookup]. now rewrite (bytes_eqb_neq _ _ N).
  - cbn [lookup]. now rewrite IH.
Qed.

Lemma lookup_respawn p i r :
  lookup p (reg_after [SKill p; SSpawn p i] r) = Some {| i_inc := i; i_epoch := 0 |}.
Proof. cbn [reg_after reg_step]. apply lookup_spawn_free, lookup_remove_same. Qed.

Lemma reg_after_app a : forall b r, reg_after (a ++ b) r = reg_after b (reg_after a r).
Proof. induction a as [|s a IH]; intros b r; [reflexivity|]. cbn [app reg_after]. apply IH. Qed.

Section Churn.
  Context {D : Type}.
  Variable dec : bytes -> option D.
  Variable rpath : D -> bytes.

  Lemma run_churn_app a : forall b r,
    run_churn dec rpath (a ++ b) r = run_churn dec rpath a r ++ run_churn dec rpath b (reg_after a r).
  Proof.
    induction a as [|s a IH]; intros b r; [reflexivity|].
    destruct s; cbn [app run_churn reg_after reg_step]; rewrite IH; [reflexivity..|]. now rewrite app_assoc.
  Qed.

  Lemma map_dispatch r p ds :
    Forall (fun d => rpath d = p) ds ->
    map (dispatch rpath r) ds = map (fun d => match lookup p r with Some a => ODeliver p a d | None => ODead p d end) ds.
  Proof. intros F. apply map_ext_Forall. eapply Forall_impl; [|exact F]. intros d <-. reflexivity. Qed.

  Lemma delivered_at_map_deliver p a ds : delivered_at p (map (ODeliver p a) ds) = map (fun d : D => (a, d)) ds.
  Proof. induction ds as [|d ds IH]; [reflexivity|]. cbn [map delivered_at]. now rewrite bytes_eqb_refl, IH. Qed.

  Lemma dead_at_map_deliver p q a (ds : list D) : dead_at q (map (ODeliver p a) ds) = [].
  Proof. induction ds as [|d ds IH]; [reflexivity|]. cbn [map dead_at]. exact IH. Qed.
End Churn.

Lemma reg_after_strip ss : forall r, reg_after (strip_traffic ss) r = reg_after ss r.
Proof. induction ss as [|s ss IH]; intros r; [reflexivity|]. destruct s; cbn [strip_traffic reg_after reg_step]; apply IH. Qed.

Section History.
  Context {D : Type}.
  Variable dec : bytes -> option D.
  Variable rpath : D -> bytes.

  Lemma routing_history_independent pre1 pre2 chunks r :
    strip_traffic pre1 = strip_traffic pre2 ->
    exists routed,
      routed = map (dispatch rpath (reg_after (strip_traffic pre1) r)) (delivered (receive dec chunks)) /\
      run_churn dec rpath (pre1 ++ [STraffic chunks]) r = run_churn dec rpath pre1 r ++ routed /\
      run_churn dec rpath (pre2 ++ [STraffic chunks]) r = run_churn dec rpath pre2 r ++ routed.
  Proof.
    intros E. eexists. split; [reflexivity|]. rewrite !run_churn_app. cbn [run_churn]. rewrite !app_nil_r.
    rewrite <- (reg_after_strip pre1), <- (reg_after_strip pre2), E. split; reflexivity.
  Qed.
End History.

Section Codec.
  Context {M : Type}.
  Variable enc : M -> bytes.
  Variable dec : bytes -> option M.
  Variable rpath : M -> bytes.
  Hypothesis codec_roundtrip : forall m, dec (enc m) = Some m.

  Lemma churn_phase pre post ms chunks r :
    Forall (fun m => legal (enc m)) ms ->
    concat chunks = concat (map (fun m => frame (enc m)) ms) ->
    run_churn dec rpath (pre ++ STraffic chunks :: post) r =
      run_churn dec rpath pre r ++ map (dispatch rpath (reg_after pre r)) ms
        ++ run_churn dec rpath post (reg_after pre r).
  Proof.
    intros HF E. rewrite run_churn_app. cbn [run_churn].
    destruct (exactly_once_in_order enc dec codec_roundtrip ms chunks HF E) as [_ ->]. reflexivity.
  Qed.

  Lemma churn_after pre ops ms chunks r :
    (forall r', run_churn dec rpath ops r' = []) ->
    Forall (fun m => legal (enc m)) ms ->
    concat chunks = concat (map (fun m => frame (enc m)) ms) ->
    run_churn dec rpath (pre ++ ops ++ [STraffic chunks]) r =
      run_churn dec rpath pre r ++ map (dispatch rpath (reg_after ops (reg_after pre r))) ms.
  Proof.
    intros Hops HF E. rewrite app_assoc, (churn_phase _ [] ms chunks r HF E), run_churn_app, reg_after_app, Hops.
    cbn [run_churn]. now rewrite !app_nil_r.
  Qed.

  Lemma churn_respawn_delivers pre p i ms chunks r :
    Forall (fun m => legal (enc m)) ms ->
    Forall (fun m => rpath m = p) ms ->
    concat chunks = concat (map (fun m => frame (enc m)) ms) ->
    run_churn dec rpath (pre ++ [SKill p; SSpawn p i; STraffic chunks]) r =
      run_churn dec rpath pre r ++ map (ODeliver p {| i_inc := i; i_epoch := 0 |}) ms.
  Proof.
    intros HF HP E. refine (eq_trans (churn_after pre [SKill p; SSpawn p i] ms chunks r (fun _ => eq_refl) HF E) _). f_equal.
    rewrite (map_dispatch _ _ _ _ HP), lookup_respawn. reflexivity.
  Qed.

  Lemma churn_restart_delivers pre p a ms chunks r :
    lookup p (reg_after pre r) = Some a ->
    Forall (fun m => legal (enc m)) ms ->
    Forall (fun m => rpath m = p) ms ->
    concat chunks = concat (map (fun m => frame (enc m)) ms) ->
    run_churn dec rpath (pre ++ [SRestart p; STraffic chunks]) r =
      run_churn dec rpath pre r ++ map (ODeliver p {| i_inc := i_inc a; i_epoch := i_epoch a + 1 |}) ms.
  Proof.
    intros HL HF HP E. refine (eq_trans (churn_after pre [SRestart p] ms chunks r (fun _ => eq_refl) HF E) _). f_equal.
    rewrite (map_dispatch _ _ _ _ HP). cbn [reg_after reg_step]. rewrite (lookup_restart_same _ _ _ HL). reflexivity.
  Qed.

  Lemma churn_killed_dead_letters pre p ms chunks r :
    Forall (fun m => legal (enc m)) ms ->
    Forall (fun m => rpath m = p) ms ->
    concat chunks = concat (map (fun m => frame (enc m)) ms) ->
    run_churn dec rpath (pre ++ [SKill p; STraffic chunks]) r =
      run_churn dec rpath pre r ++ map (ODead p) ms.
  Proof.
    intros HF HP E. refine (eq_trans (churn_after pre [SKill p] ms chunks r (fun _ => eq_refl) HF E) _). f_equal.
    rewrite (map_dispatch _ _ _ _ HP). cbn [reg_after reg_step]. rewrite lookup_remove_same. reflexivity.
  Qed.
End Codec.
