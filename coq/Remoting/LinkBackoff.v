(** Mailbox.Enqueue (Remoting/Link.v) composed with the exact back-off object (Remoting/Backoff.v).

    Link.v's machine writes [LSleep k] where the code calls time.Sleep(m.backoff.Next()) with currentAttempt = k.
    Here: the k's of one Enqueue are 0, 1, 2, ... (one per retry, no gaps, never more than ReconnectLimit), so the
    time the CALLING goroutine spends asleep inside one Tell is the sum of [bo_next mailbox_cfg k r_k] over them,
    whatever integers r_k the random source hands to rand.Float64: between 75 % and 125 % of the capped
    exponential, per sleep and in total. *)
From Coq Require Import List ZArith Lia.
From Vivid Require Import Codec.Prim Remoting.Link Remoting.LinkProofs Remoting.Backoff Remoting.BackoffProofs.
Import ListNotations.

Fixpoint sleep_ks (tr : list label) : list N :=
  match tr with
  | [] => []
  | LSleep k :: r => k :: sleep_ks r
  | _ :: r => sleep_ks r
  end.

Fixpoint sleep_ns (c : bo_cfg) (ks : list N) (rs : list Z) : Z :=
  match ks, rs with
  | k :: ks', r :: rs' => (bo_next c k r + sleep_ns c ks' rs')%Z
  | _, _ => 0%Z
  end.

Lemma sleep_ks_app a b : sleep_ks (a ++ b) = sleep_ks a ++ sleep_ks b.
Proof. induction a as [|x a IH]; [reflexivity|]. destruct x; cbn [app sleep_ks]; rewrite ?IH; reflexivity. Qed.

Lemma sleep_ks_length tr : N.of_nat (length (sleep_ks tr)) = count_sleeps tr.
Proof. induction tr as [|x tr IH]; [reflexivity|]. destruct x; cbn [sleep_ks count_sleeps length]; lia. Qed.

Lemma no_sleeps tr : count_sleeps tr = 0%N -> sleep_ks tr = [].
Proof. intros H. pose proof (sleep_ks_length tr) as L. destruct (sleep_ks tr); [reflexivity|]. cbn in L. lia. Qed.

Lemma nseq_app from a b : nseq from (a + b) = nseq from a ++ nseq (from + N.of_nat a)%N b.
Proof.
  revert from. induction a as [|a IH]; intros from; cbn [nseq plus app].
  - f_equal. lia.
  - f_equal. rewrite IH. do 2 f_equal. lia.
Qed.

Section LB.
  Context {M : Type}.
  Variable encode : M -> option bytes.
  Variable limit : N.

  Lemma try_loop_sleep_ks m : forall script (s s' : @st M) rest,
    try_loop encode limit m script s = (s', rest, true) ->
    exists tr, trace s' = trace s ++ tr /\ sleep_ks tr = nseq (attempt s) (length (sleep_ks tr)).
  Proof.
    induction script as [|a script IH]; intros s s' rest H; cbn [try_loop] in H; [discriminate|].
    pose proof (attempt_once_shape encode m a s) as Hs. destruct (attempt_once encode m a s) as [s1 o].
    destruct Hs as (_ & Ha & _ & tr & Hc & Htr). pose proof (no_sleeps tr (proj1 (calm_no_sleep tr Hc))) as Hks.
    destruct o; [destruct Htr as [n Htr]| |destruct (limit <=? attempt s1)%N].
    4: { destruct (IH _ _ _ H) as (tr2 & Htr2 & Hk2). cbn [sleep trace attempt] in *.
         exists (tr ++ [LSleep (attempt s1)] ++ tr2). split; [rewrite Htr2, Htr, <- !app_assoc; reflexivity|].
         rewrite !sleep_ks_app, Hks. cbn [sleep_ks app length nseq]. rewrite Hk2 at 1. rewrite Ha. reflexivity. }
    1: exists (tr ++ [LSent n]). 2, 3: exists (tr ++ [LDead]).
    all: injection H as <- <-; cbn [finish trace]; rewrite Htr, <- ?app_assoc, sleep_ks_app, Hks; split; reflexivity.
  Qed.
End LB.

Lemma sleep_ns_bounds c : cfg_ok c -> forall n from rs,
  length rs = n -> Forall draw_ok rs ->
  (sum_lo c from n <= sleep_ns c (nseq from n) rs <= sum_hi c from n)%Z.
Proof.
  intros Hc. induction n as [|n IH]; intros from rs Hl Hd.
  - cbn. lia.
  - destruct rs as [|r rs]; [discriminate|]. cbn [nseq sleep_ns sum_lo sum_hi].
    pose proof (bo_next_bounds c from r Hc (Forall_inv Hd)).
    specialize (IH (from + 1)%N rs ltac:(cbn in Hl; lia) (Forall_inv_tail Hd)). lia.
Qed.

Lemma mailbox_cfg_ok : cfg_ok mailbox_cfg.
Proof. unfold cfg_ok, mailbox_cfg. cbn [bo_init bo_max]. change (2 ^ 52)%Z with 4503599627370496%Z. lia. Qed.
Lemma server_cfg_ok : cfg_ok server_cfg.
Proof. unfold cfg_ok, server_cfg. cbn [bo_init bo_max]. change (2 ^ 52)%Z with 4503599627370496%Z. lia. Qed.

(** 3750000000 ns = [bo_hi_cap mailbox_cfg], 125 % of the 3 s cap *)
Theorem enqueue_blocking_time {M} (encode : M -> option bytes) (limit : N) m script (s s' : @st M) rest :
  attempt s = 0%N ->
  try_loop encode limit m script s = (s', rest, true) ->
  exists tr n, trace s' = trace s ++ tr /\ sleep_ks tr = nseq 0 n /\ (N.of_nat n <= limit)%N /\
    forall rs, length rs = n -> Forall draw_ok rs ->
      (sum_lo mailbox_cfg 0 n <= sleep_ns mailbox_cfg (sleep_ks tr) rs <= sum_hi mailbox_cfg 0 n /\
       0 <= sum_lo mailbox_cfg 0 n /\ sum_hi mailbox_cfg 0 n <= Z.of_nat n * 3750000000)%Z.
Proof.
  intros Ha H. destruct (try_loop_spec encode limit m script s s' rest ltac:(lia) H) as (_ & tr & Htr & Hn & _).
  destruct (try_loop_sleep_ks encode limit m script s s' rest H) as (tr2 & Htr2 & Hk).
  rewrite Htr in Htr2. apply app_inv_head in Htr2 as <-. rewrite <- sleep_ks_length in Hn. rewrite Ha in *.
  set (n := length (sleep_ks tr)) in *. exists tr, n. repeat split; auto; try lia.
  - rewrite Hk. apply (sleep_ns_bounds mailbox_cfg mailbox_cfg_ok _ 0%N rs); assumption.
  - rewrite Hk. apply (sleep_ns_bounds mailbox_cfg mailbox_cfg_ok _ 0%N rs); assumption.
  - apply sum_lo_nonneg, mailbox_cfg_ok.
  - apply (sum_hi_le_cap mailbox_cfg mailbox_cfg_ok _ 0%N).
Qed.

Theorem enqueue_exhaustion_blocks {M} (encode : M -> option bytes) (limit : N) m data script (s : @st M) :
  wire_of encode m = Some data -> attempt s = 0%N ->
  (N.to_nat limit < length script)%nat -> Forall hard_fail (firstn (S (N.to_nat limit)) script) ->
  exists s' tr, try_loop encode limit m script s = (s', skipn (S (N.to_nat limit)) script, true) /\
    dead s' = dead s ++ [m] /\ trace s' = trace s ++ tr /\ sleep_ks tr = nseq 0 (N.to_nat limit) /\
    forall rs, length rs = N.to_nat limit -> Forall draw_ok rs ->
      (sum_lo mailbox_cfg 0 (N.to_nat limit) <= sleep_ns mailbox_cfg (sleep_ks tr) rs <= sum_hi mailbox_cfg 0 (N.to_nat limit))%Z.
Proof.
  intros Hw Ha Hlen Hf.
  destruct (try_loop_exhaust encode limit m data (N.to_nat limit) script s Hw ltac:(lia) Hlen Hf)
    as (s' & E & Hd & _ & tr & Htr & Hc & _).
  destruct (try_loop_sleep_ks encode limit m script s s' _ E) as (tr2 & Htr2 & Hk).
  rewrite Htr in Htr2. apply app_inv_head in Htr2 as <-.
  assert (En : length (sleep_ks tr) = N.to_nat limit) by (pose proof (sleep_ks_length tr); lia). rewrite En, Ha in Hk.
  exists s', tr. repeat split; auto; rewrite Hk; apply (sleep_ns_bounds mailbox_cfg mailbox_cfg_ok); assumption.
Qed.
