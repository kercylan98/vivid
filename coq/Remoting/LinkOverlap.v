(** What remains true of C14's "subsequence" clause when the connections of one sender mailbox DO overlap at the
    receiver (every connection has its own reader actor; nothing orders them: known finding
    C14-reorder-across-connections).  For EVERY interleaving of the per-connection deliveries:
      - nothing is invented, corrupted or duplicated: the received list is a permutation of a subsequence of the
        sent list (every message at most as often as it was sent);
      - the messages of each single connection keep their order.
    So the only thing an overlap can break is the order between two connections. *)
From Coq Require Import List NArith Lia Permutation.
From Vivid Require Import Codec.Prim Remoting.Link Remoting.LinkProofs.
Import ListNotations.

Lemma merges_perm {A} (ls : list (list A)) r : merges ls r -> Permutation r (concat ls).
Proof.
  induction 1 as [ls H|pre x l post r _ IH].
  - rewrite (proj2 (concat_nil_Forall ls) H). constructor.
  - rewrite concat_app in IH. cbn [concat] in IH. rewrite concat_app. cbn [concat app].
    apply Permutation_cons_app. exact IH.
Qed.

Lemma subseq_nil_any {A} (l : list A) : subseq [] l.
Proof. exact (subseq_nil_l l). Qed.

Lemma merges_keeps_each {A} (ls : list (list A)) r : merges ls r -> Forall (fun l => subseq l r) ls.
Proof.
  induction 1 as [ls H|pre x l post r _ IH].
  - induction H as [|l ls -> _ IHf]; constructor; [apply subseq_nil|exact IHf].
  - apply Forall_app in IH as [Hpre Hrest]. apply Forall_app. split.
    + eapply Forall_impl; [|exact Hpre]. intros a Ha. apply subseq_skip, Ha.
    + constructor.
      * apply subseq_cons, (Forall_inv Hrest).
      * eapply Forall_impl; [|exact (Forall_inv_tail Hrest)]. intros a Ha. apply subseq_skip, Ha.
Qed.

Theorem overlap_perm_of_subseq {M} (encode : M -> option bytes) (limit : N) (dec : bytes -> option M) :
  (forall m b, encode m = Some b -> dec b = Some m) ->
  forall (ms : list M) (script : list answers) (r : list M),
    merges (per_conn dec (fst (exec encode limit ms script init))) r ->
    (exists r', Permutation r r' /\ subseq r' ms) /\
    Forall (fun l => subseq l r) (per_conn dec (fst (exec encode limit ms script init))).
Proof.
  intros Hrt ms script r Hm. split.
  - exists (concat (per_conn dec (fst (exec encode limit ms script init)))). split.
    + apply merges_perm, Hm.
    + apply (subsequence encode limit dec Hrt).
  - apply merges_keeps_each, Hm.
Qed.

Lemma subseq_count {A} (eqb : A -> A -> bool) (a b : list A) x :
  subseq a b -> (length (filter (eqb x) a) <= length (filter (eqb x) b))%nat.
Proof. induction 1; cbn; try destruct (eqb x x0); cbn; lia. Qed.

Theorem overlap_no_duplicate {M} (encode : M -> option bytes) (limit : N) (dec : bytes -> option M) (eqb : M -> M -> bool) :
  (forall m b, encode m = Some b -> dec b = Some m) ->
  forall (ms : list M) (script : list answers) (r : list M) (x : M),
    merges (per_conn dec (fst (exec encode limit ms script init))) r ->
    (length (filter (eqb x) r) <= length (filter (eqb x) ms))%nat.
Proof.
  intros Hrt ms script r x Hm.
  destruct (overlap_perm_of_subseq encode limit dec Hrt ms script r Hm) as [(r' & Hp & Hs) _].
  assert (E : length (filter (eqb x) r) = length (filter (eqb x) r')).
  { clear -Hp. induction Hp; cbn; auto; repeat match goal with |- context [eqb x ?y] => destruct (eqb x y) end; cbn; lia. }
  rewrite E. apply subseq_count, Hs.
Qed.
