(** Lemmas about Remoting/LinkPeers.v: mailboxes with separate attempt counters are independent (the run of one is a
    function of its own iterations only, whatever the other does in between), so the dead letter after limit+1
    failed attempts (LinkProofs.try_loop_exhaust) survives any interleaving; with ONE shared counter it does not. *)
From Coq Require Import List NArith Lia.
From Vivid Require Import Codec.Prim Remoting.Link Remoting.LinkProofs Remoting.LinkPeers.
Import ListNotations.
Local Open Scope N_scope.

Section Peers.
  Context {M : Type}.
  Variable encode : M -> option bytes.
  Variable limit : N.

  Notation st := (@st M).
  Notation iter := (iter encode limit).
  Notation run_iters := (run_iters encode limit).
  Notation try_loop := (try_loop encode limit).
  Notation pair_run := (pair_run encode limit).
  Notation shared_run := (shared_run encode limit).

  Lemma try_loop_iter m a rest (s : st) :
    try_loop m (a :: rest) s =
      (if snd (iter m a s) then (fst (iter m a s), rest, true) else try_loop m rest (fst (iter m a s))).
  Proof.
    cbn [Link.try_loop]. unfold LinkPeers.iter. destruct (attempt_once encode m a s) as [s1 o].
    destruct o; cbn [fst snd]; try reflexivity. destruct (limit <=? attempt s1); reflexivity.
  Qed.

  Lemma try_loop_iters m : forall script (s s' : st) rest,
    try_loop m script s = (s', rest, true) ->
    exists used, script = used ++ rest /\ run_iters (map (fun a => (m, a)) used) s = s'.
  Proof.
    induction script as [|a script IH]; intros s s' rest H; [discriminate|].
    rewrite try_loop_iter in H. destruct (snd (iter m a s)) eqn:E.
    - injection H as <- <-. exists [a]. split; reflexivity.
    - destruct (IH _ _ _ H) as (used & -> & R). exists (a :: used). split; [reflexivity|]. exact R.
  Qed.

  Lemma iter_returned_attempt m a (s : st) : snd (iter m a s) = true -> attempt (fst (iter m a s)) = 0.
  Proof.
    unfold LinkPeers.iter. destruct (attempt_once encode m a s) as [s1 o].
    destruct o; cbn [fst snd]; try reflexivity.
    destruct (limit <=? attempt s1); cbn [fst snd]; [reflexivity|discriminate].
  Qed.

  Lemma pair_run_independent : forall evs (sR sH : st),
    fst (pair_run evs (sR, sH)) = run_iters (proj PR evs) sR /\
    snd (pair_run evs (sR, sH)) = run_iters (proj PH evs) sH.
  Proof.
    induction evs as [|[w [m a]] evs IH]; intros sR sH; [split; reflexivity|].
    destruct w; cbn [LinkPeers.pair_run pair_step proj LinkPeers.run_iters fst snd]; apply IH.
  Qed.

  Lemma pair_run_R_only_depends_on_R evs evs' (sR sH sH' : st) :
    proj PR evs = proj PR evs' ->
    fst (pair_run evs (sR, sH)) = fst (pair_run evs' (sR, sH')).
  Proof.
    intros E. rewrite (proj1 (pair_run_independent evs sR sH)), (proj1 (pair_run_independent evs' sR sH')).
    now rewrite E.
  Qed.

  Lemma two_peers_dead_letter m data (n : nat) script evs (sR sH : st) :
    wire_of encode m = Some data ->
    attempt sR + N.of_nat n = limit ->
    (n < length script)%nat -> Forall hard_fail (firstn (S n) script) ->
    proj PR evs = map (fun a => (m, a)) (firstn (S n) script) ->
    let sR' := fst (pair_run evs (sR, sH)) in
    dead sR' = dead sR ++ [m] /\ attempt sR' = 0 /\
    exists tr, trace sR' = trace sR ++ tr /\ count_sleeps tr = N.of_nat n.
  Proof.
    intros Hw Ha Hl Hf Hp. cbn zeta. rewrite (proj1 (pair_run_independent evs sR sH)), Hp.
    destruct (try_loop_exhaust encode limit m data n script sR Hw Ha Hl Hf) as (s' & E & D & A & tr & T & C & _).
    destruct (try_loop_iters m _ _ _ _ E) as (used & Eu & R).
    assert (used = firstn (S n) script) as ->.
    { rewrite <- (firstn_skipn (S n) script) in Eu at 1. now apply app_inv_tail in Eu. }
    rewrite R. split; [exact D|]. split; [exact A|]. exists tr. split; assumption.
  Qed.

  Lemma iter_hard_fail_dead m a (s : st) data :
    wire_of encode m = Some data -> hard_fail a -> attempt s < limit -> dead (fst (iter m a s)) = dead s.
  Proof.
    intros Hw Ha Hl. unfold LinkPeers.iter.
    destruct (attempt_once_hard_fail encode m a s data Hw Ha) as (s1 & E & A1 & D1 & _).
    rewrite E. replace (limit <=? attempt s1) with false by lia. exact D1.
  Qed.

  (** every Enqueue of H that returns resets the shared counter (defer eb.Reset()), so R, alternating with it, never
      counts up to the limit *)
  Lemma shared_counter_never_dead_letters mr ar mh ah data :
    wire_of encode mr = Some data -> hard_fail ar -> 1 <= limit ->
    (forall s : st, snd (iter mh ah s) = true) ->
    forall (n : nat) (sR sH : st), attempt sR = 0 ->
      let p := shared_run (alternate n mr ar mh ah) (sR, sH) in
      dead (fst p) = dead sR /\ attempt (fst p) = 0.
  Proof.
    intros Hw Ha Hl Hh. induction n as [|n IH]; intros sR sH A0; [split; [reflexivity|exact A0]|].
    cbn [alternate LinkPeers.shared_run shared_step fst snd].
    pose proof (iter_hard_fail_dead mr ar sR data Hw Ha ltac:(lia)) as D.
    set (sR1 := fst (iter mr ar sR)) in *.
    set (sH1 := set_attempt (attempt sR1) sH).
    set (sH2 := fst (iter mh ah sH1)).
    assert (A1 : attempt (set_attempt (attempt sH2) sR1) = 0).
    { cbn [set_attempt attempt]. apply iter_returned_attempt, Hh. }
    destruct (IH (set_attempt (attempt sH2) sR1) sH2 A1) as [D' A'].
    cbn zeta. rewrite D', A'. cbn [set_attempt dead]. split; [exact D|reflexivity].
  Qed.
End Peers.

Definition stopped : answers := {| a_stopped := true; a_connect := CRefused; a_closed := false; a_werr := true |}.

Lemma stopped_always_returns {M} (encode : M -> option bytes) limit m (s : @st M) :
  snd (iter encode limit m stopped s) = true.
Proof. reflexivity. Qed.
