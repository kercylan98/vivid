(** Lemmas about Remoting/Frame.v (C11, C14): the receiver is chunking independent; a stream of legal frames is
    delivered exactly once, in order; an oversize frame is skipped whole and decode failures do not stop the
    stream, which stays aligned; the envelope is never empty; handshake. *)
From Coq Require Import List NArith ZArith Lia.
From Vivid Require Import Codec.Prim Codec.PrimProofs Remoting.Frame.
Import ListNotations.
Local Open Scope N_scope.

Lemma max_frame_val : max_frame = 4194304.
Proof. reflexivity. Qed.

Lemma read_full_take (n : N) : forall chunks buf,
  match take_N n (buf ++ concat chunks) with
  | Ok (h, t) => exists buf' ch', read_full n buf chunks = RFok h buf' ch' /\ buf' ++ concat ch' = t
  | Err _ => read_full n buf chunks = RFeof (buf ++ concat chunks)
  end.
Proof.
  unfold take_N. induction chunks as [|c cs IH]; intros buf; cbn [concat read_full].
  - rewrite app_nil_r. destruct (n <=? N.of_nat (length buf)); [|reflexivity].
    exists (skipn (N.to_nat n) buf), []. now rewrite app_nil_r.
  - destruct (n <=? N.of_nat (length buf)) eqn:E.
    + replace (n <=? N.of_nat (length (buf ++ c ++ concat cs))) with true by (rewrite app_length; lia).
      exists (skipn (N.to_nat n) buf), (c :: cs).
      rewrite firstn_app, skipn_app. replace (N.to_nat n - length buf)%nat with 0%nat by lia. now rewrite app_nil_r.
    + specialize (IH (buf ++ c)). rewrite <- app_assoc in IH. exact IH.
Qed.

Lemma take_N_nat k (s : bytes) : take_N (N.of_nat k) s = take_n k s.
Proof.
  unfold take_N, take_n. rewrite Nat2N.id. destruct (Nat.leb_spec k (length s)).
  - now replace (N.of_nat k <=? N.of_nat (length s)) with true by lia.
  - now replace (N.of_nat k <=? N.of_nat (length s)) with false by lia.
Qed.

Lemma take_n_eq k (s : bytes) :
  take_n k s = if Nat.leb k (length s) then Ok (firstn k s, skipn k s) else Err EEOF.
Proof. reflexivity. Qed.

Lemma frame_length b : length (frame b) = (4 + length b)%nat.
Proof. unfold frame, put_u32. now rewrite app_length, be_length. Qed.

Definition legal (b : bytes) : Prop := 1 <= N.of_nat (length b) <= max_frame.

(** [legal]: what vivid's sender writes; [wellformed]: anything a foreign writer can frame (the length fits the u32) *)
Definition wellformed (b : bytes) : Prop := 1 <= N.of_nat (length b) < 4294967296.
Definition on_frame {D} (dec : bytes -> option D) (b : bytes) : rev D :=
  if max_frame <? N.of_nat (length b) then ROversize (N.of_nat (length b)) else on_body dec b.

Lemma legal_wellformed b : legal b -> wellformed b.
Proof. unfold legal, wellformed. rewrite max_frame_val. lia. Qed.

Lemma on_frame_legal {D} (dec : bytes -> option D) bodies :
  Forall legal bodies -> map (on_frame dec) bodies = map (on_body dec) bodies.
Proof.
  intros HF. apply map_ext_Forall. eapply Forall_impl; [|exact HF]. intros b [_ H]. unfold on_frame.
  now replace (max_frame <? N.of_nat (length b)) with false by lia.
Qed.

Section R.
  Context {D : Type}.
  Variable dec : bytes -> option D.

  Lemma recv_parse : forall fuel buf chunks,
    recv dec fuel buf chunks = parse dec fuel (buf ++ concat chunks).
  Proof.
    induction fuel as [|f IH]; intros buf chunks; [reflexivity|]. cbn [recv parse].
    pose proof (read_full_take 4 chunks buf) as H4. rewrite (take_N_nat 4) in H4.
    generalize dependent (buf ++ concat chunks). intros s H4.
    destruct (take_n 4 s) as [[h t]|e] eqn:E4.
    - destruct H4 as (buf1 & ch1 & -> & <-). destruct s; [discriminate|].
      destruct (unbe h =? 0); [reflexivity|].
      pose proof (read_full_take (unbe h) ch1 buf1) as Hn.
      destruct (take_N (unbe h) (buf1 ++ concat ch1)) as [[b t']|];
        [destruct Hn as (buf2 & ch2 & -> & <-); rewrite !IH|rewrite Hn]; reflexivity.
    - rewrite H4. destruct s; reflexivity.
  Qed.

  (** fuel: each round consumes at least four bytes *)
  Lemma parse_fuel_irrel : forall f1 f2 s,
    (length s < f1)%nat -> (length s < f2)%nat -> parse dec f1 s = parse dec f2 s.
  Proof.
    induction f1 as [|f1 IH]; intros f2 s H1 H2; [lia|].
    destruct f2 as [|f2]; [lia|]. cbn [parse].
    destruct s as [|x s'] eqn:Es; [reflexivity|]. rewrite <- Es in *.
    rewrite take_n_eq. destruct (Nat.leb 4 (length s)) eqn:E4; [|reflexivity].
    apply Nat.leb_le in E4.
    assert (Hsk : (length (skipn 4 s) + 4 = length s)%nat) by (rewrite skipn_length; lia).
    destruct (unbe (firstn 4 s) =? 0); [reflexivity|].
    unfold take_N. destruct (unbe (firstn 4 s) <=? N.of_nat (length (skipn 4 s))); [|reflexivity].
    rewrite (IH f2 (skipn (N.to_nat (unbe (firstn 4 s))) (skipn 4 s))) by (rewrite skipn_length; lia). reflexivity.
  Qed.

  Lemma parse_no_fuel : forall f s, (length s < f)%nat -> ~ In RFuel (parse dec f s).
  Proof.
    induction f as [|f IH]; intros s H; [lia|]. cbn [parse].
    destruct s as [|x s'] eqn:Es; [cbn; intuition congruence|]. rewrite <- Es in *.
    rewrite take_n_eq. destruct (Nat.leb 4 (length s)) eqn:E4; [|cbn; intuition congruence].
    apply Nat.leb_le in E4.
    assert (Hsk : (length (skipn 4 s) + 4 = length s)%nat) by (rewrite skipn_length; lia).
    destruct (unbe (firstn 4 s) =? 0); [cbn; intuition congruence|].
    destruct (max_frame <? unbe (firstn 4 s)).
    - unfold take_N. destruct (unbe (firstn 4 s) <=? N.of_nat (length (skipn 4 s))); [|cbn; intuition congruence].
      intros [E|E]; [congruence|]. revert E. apply IH. rewrite skipn_length. lia.
    - unfold take_N. destruct (unbe (firstn 4 s) <=? N.of_nat (length (skipn 4 s))); [|cbn; intuition congruence].
      intros [E|E]; [unfold on_body in E; destruct (dec _); congruence|]. revert E. apply IH.
      rewrite skipn_length. lia.
  Qed.

  Lemma receive_chunking_independent chunks :
    receive dec chunks = receive_stream dec (concat chunks).
  Proof. unfold receive, receive_stream. now rewrite recv_parse. Qed.

  Lemma receive_no_fuel chunks : ~ In RFuel (receive dec chunks).
  Proof. rewrite receive_chunking_independent. apply parse_no_fuel. unfold fuel_for. lia. Qed.

  Lemma frame_header (b rest : bytes) :
    N.of_nat (length b) < 4294967296 ->
    take_n 4 (frame b ++ rest) = Ok (put_u32 (N.of_nat (length b)), b ++ rest)
    /\ unbe (put_u32 (N.of_nat (length b))) = N.of_nat (length b).
  Proof.
    intros H. split.
    - unfold frame. rewrite <- app_assoc.
      pose proof (take_n_app (put_u32 (N.of_nat (length b))) (b ++ rest)) as T.
      unfold put_u32 in *. rewrite be_length in T. exact T.
    - unfold put_u32. apply unbe_be. cbn. lia.
  Qed.

  Lemma parse_step f b rest :
    wellformed b -> parse dec (S f) (frame b ++ rest) = on_frame dec b :: parse dec f rest.
  Proof.
    intros [H1 H2]. destruct (frame_header b rest H2) as [T U].
    cbn [parse]. destruct (frame b ++ rest); [discriminate|]. rewrite T. cbn zeta. rewrite U, take_N_app.
    replace (N.of_nat (length b) =? 0) with false by lia. unfold on_frame.
    destruct (max_frame <? N.of_nat (length b)); reflexivity.
  Qed.

  Lemma parse_close_step f rest : parse dec (S f) (frame [] ++ rest) = [RClose].
  Proof. reflexivity. Qed.

  Lemma parse_frames : forall bodies f rest,
    Forall wellformed bodies -> (length bodies <= f)%nat ->
    parse dec f (concat (map frame bodies) ++ rest)
    = map (on_frame dec) bodies ++ parse dec (f - length bodies) rest.
  Proof.
    induction bodies as [|b bs IH]; intros f rest HF Hf.
    - cbn. now rewrite Nat.sub_0_r.
    - inversion HF as [|? ? Hb Hbs]; subst. cbn [length] in Hf. destruct f as [|f]; [lia|].
      cbn [map concat]. rewrite <- app_assoc, parse_step by exact Hb.
      rewrite IH by (auto; lia). reflexivity.
  Qed.

  Lemma frames_length_ge bodies : (length bodies <= length (concat (map frame bodies)))%nat.
  Proof.
    induction bodies as [|b bs IH]; cbn [map concat length]; [lia|].
    rewrite app_length, frame_length. lia.
  Qed.

  Lemma receive_stream_mixed bodies :
    Forall wellformed bodies ->
    receive_stream dec (concat (map frame bodies)) = map (on_frame dec) bodies ++ [REof].
  Proof.
    intros HF. unfold receive_stream, fuel_for.
    rewrite <- (app_nil_r (concat (map frame bodies))) at 2.
    pose proof (frames_length_ge bodies) as L.
    rewrite parse_frames by (auto; lia).
    destruct (S (length (concat (map frame bodies))) - length bodies)%nat eqn:E; [lia|]. reflexivity.
  Qed.

  Lemma receive_stream_frames bodies :
    Forall legal bodies ->
    receive_stream dec (concat (map frame bodies)) = map (on_body dec) bodies ++ [REof].
  Proof.
    intros HF. rewrite <- (on_frame_legal dec bodies HF). apply receive_stream_mixed.
    eapply Forall_impl; [apply legal_wellformed|exact HF].
  Qed.

  Lemma receive_frames bodies chunks :
    Forall legal bodies -> concat chunks = concat (map frame bodies) ->
    receive dec chunks = map (on_body dec) bodies ++ [REof].
  Proof. intros HF E. rewrite receive_chunking_independent, E. now apply receive_stream_frames. Qed.

  Lemma parse_partial f b (k : nat) :
    legal b -> (k < length (frame b))%nat -> (0 < f)%nat -> delivered (parse dec f (firstn k (frame b))) = [].
  Proof.
    intros [H1 H2] Hk Hf. rewrite max_frame_val in H2. destruct f as [|f]; [lia|]. cbn [parse].
    pose proof (frame_length b) as Lf.
    destruct (firstn k (frame b)) as [|x p] eqn:Ep; [reflexivity|]. rewrite <- Ep.
    rewrite take_n_eq. rewrite firstn_length, Nat.min_l by lia.
    destruct (Nat.leb 4 k) eqn:E4; [|reflexivity]. apply Nat.leb_le in E4.
    assert (Efirst : firstn 4 (firstn k (frame b)) = put_u32 (N.of_nat (length b))).
    { rewrite firstn_firstn, Nat.min_l by lia. unfold frame. rewrite firstn_app, firstn_all2 by (unfold put_u32; rewrite be_length; lia).
      unfold put_u32. rewrite be_length. cbn [Nat.sub firstn]. now rewrite app_nil_r. }
    rewrite Efirst. unfold put_u32. rewrite unbe_be by (cbn; lia).
    replace (N.of_nat (length b) =? 0) with false by lia.
    replace (max_frame <? N.of_nat (length b)) with false by (rewrite max_frame_val; lia).
    unfold take_N. rewrite skipn_length, firstn_length, Nat.min_l by lia.
    now replace (N.of_nat (length b) <=? N.of_nat (k - 4)) with false by lia.
  Qed.

  Lemma delivered_app (a b : list (rev D)) : delivered (a ++ b) = delivered a ++ delivered b.
  Proof.
    induction a as [|x a IH]; [reflexivity|]. destruct x; cbn [app delivered]; rewrite IH; reflexivity.
  Qed.

  Fixpoint decodable (bodies : list bytes) : list D :=
    match bodies with
    | [] => []
    | b :: r => match dec b with Some d => d :: decodable r | None => decodable r end
    end.

  Lemma delivered_on_body bodies : delivered (map (on_body dec) bodies) = decodable bodies.
  Proof.
    induction bodies as [|b bs IH]; [reflexivity|]. cbn [map decodable]. unfold on_body at 1.
    destruct (dec b); cbn [delivered]; now rewrite IH.
  Qed.

  Lemma receive_delivers bodies chunks :
    Forall legal bodies -> concat chunks = concat (map frame bodies) ->
    delivered (receive dec chunks) = decodable bodies.
  Proof.
    intros HF E. rewrite (receive_frames bodies chunks HF E), delivered_app, delivered_on_body.
    cbn. now rewrite app_nil_r.
  Qed.

  Lemma receive_stream_frames_partial bodies b k :
    Forall legal bodies -> legal b -> (k < length (frame b))%nat ->
    delivered (receive_stream dec (concat (map frame bodies) ++ firstn k (frame b))) = decodable bodies.
  Proof.
    intros HF Hb Hk. unfold receive_stream, fuel_for.
    pose proof (frames_length_ge bodies) as L.
    rewrite parse_frames by (try (eapply Forall_impl; [apply legal_wellformed|exact HF]); rewrite app_length; lia).
    rewrite (on_frame_legal dec bodies HF), delivered_app, delivered_on_body.
    rewrite parse_partial by (auto; rewrite app_length; lia). apply app_nil_r.
  Qed.
End R.

Section Codec.
  Context {M : Type}.
  Variable enc : M -> bytes.
  Variable dec : bytes -> option M.

  Lemma on_body_enc ms :
    Forall (fun m => dec (enc m) = Some m) ms -> map (on_body dec) (map enc ms) = map RMsg ms.
  Proof.
    intros H. rewrite map_map. apply map_ext_Forall. eapply Forall_impl; [|exact H].
    intros m Hm. unfold on_body. now rewrite Hm.
  Qed.

  Lemma delivered_RMsg (ms : list M) : delivered (map RMsg ms ++ [REof]) = ms.
  Proof. induction ms as [|m ms IH]; [reflexivity|]. cbn. now rewrite IH. Qed.

  (** the codec round trip is needed for the messages sent only *)
  Lemma exactly_once_on ms chunks :
    Forall (fun m => legal (enc m)) ms -> Forall (fun m => dec (enc m) = Some m) ms ->
    concat chunks = concat (map (fun m => frame (enc m)) ms) ->
    receive dec chunks = map RMsg ms ++ [REof] /\ delivered (receive dec chunks) = ms.
  Proof.
    intros HF HD E. rewrite <- map_map in E.
    rewrite (receive_frames dec _ _ (proj2 (Forall_map _ _ _) HF) E), (on_body_enc ms HD).
    split; [reflexivity|apply delivered_RMsg].
  Qed.

  Hypothesis codec_roundtrip : forall m, dec (enc m) = Some m.

  Lemma decodable_enc ms : decodable dec (map enc ms) = ms.
  Proof. induction ms as [|m ms IH]; [reflexivity|]. cbn [map decodable]. now rewrite codec_roundtrip, IH. Qed.

  Lemma exactly_once_in_order ms chunks :
    Forall (fun m => legal (enc m)) ms ->
    concat chunks = concat (map (fun m => frame (enc m)) ms) ->
    receive dec chunks = map RMsg ms ++ [REof] /\ delivered (receive dec chunks) = ms.
  Proof. intros HF. apply exactly_once_on; [exact HF|]. apply Forall_forall. auto. Qed.
End Codec.

Lemma put_lp4_length b : length (put_lp4 b) = (4 + length b)%nat.
Proof. unfold put_lp4, put_u32. now rewrite app_length, be_length. Qed.

Lemma env_encode_length e :
  length (env_encode e) =
  (25 + length (e_payload e) + length (e_name e) + length (e_saddr e) + length (e_spath e)
   + length (e_raddr e) + length (e_rpath e))%nat.
Proof. unfold env_encode. rewrite !app_length, !put_lp4_length. cbn [put_bool length]. lia. Qed.

Lemma env_encode_min e : 25 <= N.of_nat (length (env_encode e)).
Proof. rewrite env_encode_length. lia. Qed.

Lemma env_roundtrip e junk : env_len32 e -> env_parse (env_encode e ++ junk) = Ok e.
Proof.
  intros (H1 & H2 & H3 & H4 & H5 & H6). unfold env_parse, env_encode.
  repeat rewrite <- app_assoc.
  rewrite rd_lp4_put by assumption. cbn [bind].
  rewrite rd_lp4_put by assumption. cbn [bind].
  rewrite rd_bool_put. cbn [bind].
  rewrite rd_lp4_put by assumption. cbn [bind].
  rewrite rd_lp4_put by assumption. cbn [bind].
  rewrite rd_lp4_put by assumption. cbn [bind].
  rewrite rd_lp4_put by assumption. cbn [bind].
  now destruct e.
Qed.

Definition env_dec (b : bytes) : option env := match env_parse b with Ok e => Some e | Err _ => None end.

Lemma env_dec_enc e : env_len32 e -> env_dec (env_encode e) = Some e.
Proof. intros H. unfold env_dec. rewrite <- (app_nil_r (env_encode e)). now rewrite env_roundtrip. Qed.

(** the empty frame is the close handshake, and no envelope is empty: the two cannot collide *)
Lemma envelope_frame_not_close f e rest :
  N.of_nat (length (env_encode e)) <= max_frame ->
  exists ev, parse env_dec (S f) (frame (env_encode e) ++ rest) = ev :: parse env_dec f rest /\ ev <> RClose.
Proof.
  intros H. pose proof (env_encode_min e) as Hm.
  rewrite parse_step by (unfold wellformed; rewrite max_frame_val in H; lia). eexists; split; [reflexivity|].
  unfold on_frame, on_body. destruct (max_frame <? _); [|destruct (env_dec _)]; congruence.
Qed.

Lemma send_frame_legal b fr : send_frame b = Some fr -> legal b /\ fr = frame b.
Proof.
  unfold send_frame, legal. destruct (N.of_nat (length b) =? 0) eqn:E0; [discriminate|].
  destruct (max_frame <? N.of_nat (length b)) eqn:E1; [discriminate|]. cbn [orb].
  intros [= <-]. split; [lia|reflexivity].
Qed.

Lemma send_frame_refuses b : ~ legal b -> send_frame b = None.
Proof.
  unfold send_frame, legal. intros H.
  destruct (N.of_nat (length b) =? 0) eqn:E0; [reflexivity|].
  destruct (max_frame <? N.of_nat (length b)) eqn:E1; [reflexivity|]. lia.
Qed.

Lemma conn_receive_chunking_independent {D} (dec : bytes -> option D) chunks :
  conn_receive dec chunks = conn_receive_stream dec (concat chunks).
Proof.
  unfold conn_receive, conn_receive_stream, rd_u32, rd_uint.
  pose proof (read_full_take 4 chunks []) as H4. rewrite (take_N_nat 4) in H4. cbn [app] in H4.
  destruct (take_n 4 (concat chunks)) as [[h t]|e]; [|rewrite H4; reflexivity].
  destruct H4 as (buf1 & ch1 & -> & <-). cbn [bind]. destruct (hs_max <? unbe h); [reflexivity|].
  pose proof (read_full_take (unbe h) ch1 buf1) as Hn.
  destruct (take_N (unbe h) (buf1 ++ concat ch1)) as [[a t']|]; [|rewrite Hn; reflexivity].
  destruct Hn as (buf2 & ch2 & -> & <-). now rewrite recv_parse.
Qed.

Lemma conn_receive_stream_handshake {D} (dec : bytes -> option D) a rest :
  N.of_nat (length a) <= hs_max ->
  conn_receive_stream dec (handshake a ++ rest) = CConn a (receive_stream dec rest).
Proof.
  intros Ha. unfold hs_max in Ha. unfold conn_receive_stream, handshake, put_lp4. rewrite <- app_assoc.
  rewrite rd_u32_put by lia. replace (hs_max <? N.of_nat (length a)) with false by (unfold hs_max; lia).
  now rewrite take_N_app.
Qed.

Lemma conn_receive_frames {D} (dec : bytes -> option D) a bodies chunks :
  N.of_nat (length a) <= hs_max ->
  Forall legal bodies -> concat chunks = handshake a ++ concat (map frame bodies) ->
  conn_receive dec chunks = CConn a (map (on_body dec) bodies ++ [REof]).
Proof.
  intros Ha HF E. rewrite conn_receive_chunking_independent, E, conn_receive_stream_handshake by exact Ha.
  now rewrite receive_stream_frames.
Qed.

Lemma conn_exactly_once {M} (enc : M -> bytes) (dec : bytes -> option M) :
  (forall m, dec (enc m) = Some m) ->
  forall a ms chunks,
  N.of_nat (length a) <= hs_max ->
  Forall (fun m => legal (enc m)) ms ->
  concat chunks = handshake a ++ concat (map (fun m => frame (enc m)) ms) ->
  conn_receive dec chunks = CConn a (map RMsg ms ++ [REof]).
Proof.
  intros Hrt a ms chunks Ha HF E. rewrite <- map_map in E.
  rewrite (conn_receive_frames dec a (map enc ms) chunks Ha (proj2 (Forall_map _ _ _) HF) E).
  rewrite on_body_enc by (apply Forall_forall; auto). reflexivity.
Qed.

Fixpoint accepted (bodies : list bytes) : list bytes :=
  match bodies with
  | [] => []
  | b :: r => if max_frame <? N.of_nat (length b) then accepted r else b :: accepted r
  end.

Lemma delivered_on_frame {D} (dec : bytes -> option D) bodies :
  delivered (map (on_frame dec) bodies) = decodable dec (accepted bodies).
Proof.
  induction bodies as [|b bs IH]; [reflexivity|]. cbn [map accepted]. unfold on_frame at 1.
  destruct (max_frame <? N.of_nat (length b)); cbn [delivered]; [exact IH|].
  cbn [decodable]. unfold on_body. destruct (dec b); cbn [delivered]; now rewrite IH.
Qed.

Lemma receive_mixed {D} (dec : bytes -> option D) bodies chunks :
  Forall wellformed bodies -> concat chunks = concat (map frame bodies) ->
  receive dec chunks = map (on_frame dec) bodies ++ [REof] /\
  delivered (receive dec chunks) = decodable dec (accepted bodies).
Proof.
  intros HF E. rewrite receive_chunking_independent, E, receive_stream_mixed by exact HF.
  split; [reflexivity|]. rewrite delivered_app, delivered_on_frame. cbn. now rewrite app_nil_r.
Qed.

Section RefsP.
  Variable norm_addr norm_path : bytes -> option bytes.
  Hypothesis norm_addr_idem : forall a a', norm_addr a = Some a' -> norm_addr a' = Some a'.
  Hypothesis norm_path_idem : forall p p', norm_path p = Some p' -> norm_path p' = Some p'.

  Lemma new_ref_idem a p r : new_ref norm_addr norm_path a p = Some r ->
    new_ref norm_addr norm_path (fst r) (snd r) = Some r.
  Proof.
    unfold new_ref. destruct (norm_addr a) as [a'|] eqn:Ea; [|discriminate].
    destruct (norm_path p) as [p'|] eqn:Ep; [|discriminate]. intros [= <-]. cbn.
    now rewrite (norm_addr_idem _ _ Ea), (norm_path_idem _ _ Ep).
  Qed.

  (** the strings the encoder writes are GetAddress()/GetPath() of refs made by NewRef; the receiver's
      HandleRemotingEnvelop rebuilds exactly those refs from the decoded envelope *)
  Lemma handle_refs_made e a1 p1 a2 p2 s r :
    new_ref norm_addr norm_path a1 p1 = Some s -> new_ref norm_addr norm_path a2 p2 = Some r ->
    e_saddr e = fst s -> e_spath e = snd s -> e_raddr e = fst r -> e_rpath e = snd r ->
    handle_refs norm_addr norm_path e = Some (s, r).
  Proof.
    intros Hs Hr E1 E2 E3 E4. unfold handle_refs. rewrite E1, E2, E3, E4.
    now rewrite (new_ref_idem _ _ _ Hs), (new_ref_idem _ _ _ Hr).
  Qed.
End RefsP.

(** [env] covers user and system messages alike: the system flag, the message name and the four reference strings
    are fields of the envelope *)
Lemma envelopes_exactly_once (es : list env) (chunks : list bytes) :
  Forall env_len32 es ->
  Forall (fun e => N.of_nat (length (env_encode e)) <= max_frame) es ->
  concat chunks = concat (map (fun e => frame (env_encode e)) es) ->
  receive env_dec chunks = map RMsg es ++ [REof] /\ delivered (receive env_dec chunks) = es.
Proof.
  intros H32 Hmax. apply exactly_once_on.
  - eapply Forall_impl; [|exact Hmax]. intros e He. split; [pose proof (env_encode_min e); lia|exact He].
  - eapply Forall_impl; [apply env_dec_enc|exact H32].
Qed.
