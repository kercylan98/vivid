(** Lemmas about Remoting/Accept.v: the name of a peer's reader actor is taken exactly while the reader of the latest
    connection from that peer has not ended ([reg_mem_after]); hence which accepted connections are read (C14). *)
From Coq Require Import List NArith.
From Vivid Require Import Codec.Prim Remoting.Churn Remoting.ChurnProofs Remoting.Accept.
Import ListNotations.

Lemma reg_mem_del_other p q r : bytes_eqb q p = false -> reg_mem p (reg_del q r) = reg_mem p r.
Proof.
  intros H. induction r as [|x r IH]; [reflexivity|]. cbn [reg_del reg_mem].
  destruct (bytes_eqb x q) eqn:E.
  - rewrite IH. apply bytes_eqb_eq in E. subst x. now rewrite H.
  - cbn [reg_mem]. now rewrite IH.
Qed.

Lemma reg_mem_del_same p r : reg_mem p (reg_del p r) = false.
Proof.
  induction r as [|x r IH]; [reflexivity|]. cbn [reg_del]. destruct (bytes_eqb x p) eqn:E; [exact IH|].
  cbn [reg_mem]. now rewrite E, IH.
Qed.

Fixpoint reg_after (evs : list aev) (r : areg) : areg :=
  match evs with
  | [] => r
  | AAccept p _ :: t => reg_after t (if reg_mem p r then r else p :: r)
  | AGone _ :: t => reg_after t r
  | AReaderEnd p :: t => reg_after t (reg_del p r)
  end.

Lemma reg_after_app a : forall b r, reg_after (a ++ b) r = reg_after b (reg_after a r).
Proof. induction a as [|e a IH]; intros b r; [reflexivity|]. destruct e; cbn [app reg_after]; apply IH. Qed.

Lemma accept_run_app a b r : accept_run (a ++ b) r = accept_run a r ++ accept_run b (reg_after a r).
Proof.
  revert r. induction a as [|e a IH]; intros r; [reflexivity|]. destruct e as [p n|p|p]; cbn [app accept_run reg_after].
  - destruct (reg_mem p r); cbn [app]; now rewrite IH.
  - apply IH.
  - apply IH.
Qed.

Lemma accept_run_length a r : length (accept_run a r) = accepts a.
Proof.
  revert r. induction a as [|e a IH]; intros r; [reflexivity|]. destruct e as [p n|p|p]; cbn [accept_run accepts].
  - destruct (reg_mem p r); cbn [length]; now rewrite IH.
  - apply IH.
  - apply IH.
Qed.

Lemma reg_mem_after p : forall evs r, reg_mem p (reg_after evs r) = reader_pending p evs (reg_mem p r).
Proof.
  induction evs as [|e evs IH]; intros r; [reflexivity|]. destruct e as [q n|q|q]; cbn [reg_after reader_pending].
  - rewrite IH. f_equal. destruct (bytes_eqb q p) eqn:E.
    + apply bytes_eqb_eq in E. subst q. destruct (reg_mem p r) eqn:M; [exact M|]. cbn [reg_mem]. now rewrite bytes_eqb_refl.
    + destruct (reg_mem q r); [reflexivity|]. cbn [reg_mem]. now rewrite E.
  - apply IH.
  - rewrite IH. f_equal. destruct (bytes_eqb q p) eqn:E.
    + apply bytes_eqb_eq in E. subst q. apply reg_mem_del_same.
    + now apply reg_mem_del_other.
Qed.

Theorem accepted_after_reader_end_is_read pre p n post :
  reader_pending p pre false = false ->
  exists a b, accept_run (pre ++ AAccept p n :: post) [] = a ++ (p, n, n) :: b /\ length a = accepts pre.
Proof.
  intros H. rewrite accept_run_app. cbn [accept_run].
  assert (M : reg_mem p (reg_after pre []) = false) by (rewrite reg_mem_after; exact H).
  rewrite M. eexists _, _. split; [reflexivity|]. apply accept_run_length.
Qed.

Lemma prompt_all_read : forall evs seen,
  prompt evs seen -> all_read (accept_run evs (reg_after seen [])).
Proof.
  induction evs as [|e evs IH]; intros seen Hp; [constructor|].
  specialize (IH (seen ++ [e])). rewrite reg_after_app in IH.
  destruct e as [p n|p|p]; cbn [prompt accept_run reg_after] in *; [|exact (IH Hp)..].
  destruct Hp as [Hp1 Hp2]. rewrite reg_mem_after in *. cbn [reg_mem] in *. rewrite Hp1 in *.
  constructor; [reflexivity|exact (IH Hp2)].
Qed.

Definition peerP : bytes := [49; 50; 55; 46; 48; 46; 48; 46; 49; 58; 52; 52; 56; 57; 55]%N.   (* "127.0.0.1:44897" *)

Lemma accepted_before_reader_end_unread :
  exists (evs : list aev),
    tcp_ok evs [] = true /\ ~ all_read (accept_run evs []) /\
    accept_run evs [] = [(peerP, 3, 3); (peerP, 5, 0)]%N.
Proof.
  exists [AAccept peerP 3; AGone peerP; AAccept peerP 5; AReaderEnd peerP].
  assert (B : accept_run [AAccept peerP 3; AGone peerP; AAccept peerP 5; AReaderEnd peerP] [] = [(peerP, 3, 3); (peerP, 5, 0)]%N)
    by (vm_compute; reflexivity).
  split; [vm_compute; reflexivity|]. split; [|exact B].
  rewrite B. intros H. inversion H as [|? ? _ H2]; subst. inversion H2 as [|? ? H3 _]; subst. cbn in H3. discriminate.
Qed.
