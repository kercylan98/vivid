(** Lemmas about Remoting/Central.v: for EVERY schedule of any number of concurrent senders there is at most one
    mailbox (= one connection chain) per peer address, and every sender's messages to an address go onto that one
    wire exactly once, in program order (C11). *)
From Coq Require Import List Lia PeanoNat.
From Vivid Require Import Remoting.Central.
Import ListNotations.

Section P.
  Context {A M : Type}.
  Variable eqb : A -> A -> bool.
  Hypothesis eqb_spec : forall a b, eqb a b = true <-> a = b.

  Notation lookup := (lookup eqb).
  Notation get_or_create := (get_or_create eqb).
  Notation step := (@step A M eqb).
  Notation run := (@run A M eqb).
  Notation entry := (entry A M).
  Notation cstate := (cstate A M).

  Lemma eqb_refl a : eqb a a = true.
  Proof. now apply eqb_spec. Qed.

  Lemma lookup_app_some a t u id : lookup a t = Some id -> lookup a (t ++ u) = Some id.
  Proof.
    induction t as [|[b k] t IH]; cbn; [discriminate|]. destruct (eqb b a); auto.
  Qed.

  Lemma lookup_app_none a t b k : lookup a t = None -> lookup a (t ++ [(b, k)]) = if eqb b a then Some k else None.
  Proof.
    induction t as [|[c j] t IH]; cbn; [reflexivity|]. destruct (eqb c a); [discriminate|auto].
  Qed.

  Lemma get_or_create_lookup a t : lookup a (fst (get_or_create a t)) = Some (snd (get_or_create a t)).
  Proof.
    unfold get_or_create. destruct (lookup a t) as [id|] eqn:E; cbn [fst snd]; [exact E|].
    rewrite lookup_app_none by exact E. now rewrite eqb_refl.
  Qed.

  Lemma get_or_create_stable a b t id : lookup b t = Some id -> lookup b (fst (get_or_create a t)) = Some id.
  Proof.
    intros H. unfold get_or_create. destruct (lookup a t); cbn [fst]; [exact H|]. now apply lookup_app_some.
  Qed.

  Definition wf (t : list (A * nat)) : Prop :=
    forall k b id, nth_error t k = Some (b, id) -> id = k /\ lookup b t = Some k.

  Lemma lookup_nth a t id : lookup a t = Some id -> exists k b, nth_error t k = Some (b, id) /\ eqb b a = true.
  Proof.
    induction t as [|[b j] t IH]; cbn; [discriminate|]. destruct (eqb b a) eqn:E.
    - intros [= <-]. exists 0, b. auto.
    - intros H. destruct (IH H) as (k & c & Hk & Hc). exists (S k), c. auto.
  Qed.

  Lemma wf_get_or_create a t : wf t -> wf (fst (get_or_create a t)).
  Proof.
    intros W. unfold get_or_create. destruct (lookup a t) as [id|] eqn:E; cbn [fst]; [exact W|].
    intros k b id Hk. destruct (Nat.lt_ge_cases k (length t)) as [Hlt|Hge].
    - rewrite nth_error_app1 in Hk by exact Hlt. destruct (W k b id Hk) as [-> Hl]. split; [reflexivity|].
      now apply lookup_app_some.
    - rewrite nth_error_app2 in Hk by exact Hge. destruct (k - length t) as [|j] eqn:Ej; [|destruct j; discriminate].
      cbn in Hk. injection Hk as <- <-. assert (k = length t) by lia. subst k. split; [reflexivity|].
      rewrite lookup_app_none by exact E. now rewrite eqb_refl.
  Qed.

  Lemma wf_inj t a b id : wf t -> lookup a t = Some id -> lookup b t = Some id -> a = b.
  Proof.
    intros W Ha Hb. destruct (lookup_nth a t id Ha) as (k & a' & Hk & Ea). destruct (lookup_nth b t id Hb) as (j & b' & Hj & Eb).
    destruct (W k a' id Hk) as [-> _]. destruct (W j b' k Hj) as [-> _]. rewrite Hk in Hj. injection Hj as ->.
    apply eqb_spec in Ea, Eb. congruence.
  Qed.

  Lemma nth_error_set_nth {X} (l : list X) i j x y :
    nth_error (set_nth i x l) j = Some y -> (j = i /\ y = x) \/ (j <> i /\ nth_error l j = Some y).
  Proof.
    revert i j. induction l as [|z l IH]; intros [|i] [|j]; cbn; try discriminate; auto.
    - intros [= <-]. auto.
    - intros H. destruct (IH i j H) as [[-> ->]|[Hne Hj]]; auto.
  Qed.

  Lemma set_nth_length {X} (l : list X) j x : length (set_nth j x l) = length l.
  Proof. revert j. induction l as [|y l IH]; intros [|j]; cbn; auto. Qed.

  Definition done_by (i : nat) (l : list entry) : list (A * M) :=
    map (fun e => (e_addr e, e_msg e)) (filter (fun e => Nat.eqb (e_from e) i) l).

  Definition held (th : thread A M) : list (A * M) :=
    match t_hold th with Some (_, a, m) => [(a, m)] | None => [] end.

  Record Inv (progs : list (list (A * M))) (s : cstate) : Prop := {
    inv_wf : wf (cs_tbl s);
    inv_len : length (cs_thr s) = length progs;
    inv_log : forall e, In e (cs_log s) -> lookup (e_addr e) (cs_tbl s) = Some (e_box e);
    inv_hold : forall i th id a m, nth_error (cs_thr s) i = Some th -> t_hold th = Some (id, a, m) ->
                                   lookup a (cs_tbl s) = Some id;
    inv_acct : forall i th p, nth_error (cs_thr s) i = Some th -> nth_error progs i = Some p ->
                              done_by i (cs_log s) ++ held th ++ t_todo th = p;
    inv_from : forall e, In e (cs_log s) -> e_from e < length progs;
  }.

  Lemma Inv_init progs : Inv progs (init progs).
  Proof.
    split; cbn.
    - intros k b id H. destruct k; discriminate.
    - apply map_length.
    - intros e [].
    - intros i th id a m H Hh. rewrite nth_error_map in H. destruct (nth_error progs i); [|discriminate].
      injection H as <-. discriminate.
    - intros i th p H Hp. rewrite nth_error_map, Hp in H. injection H as <-. reflexivity.
    - intros e [].
  Qed.

  Lemma done_by_app i l e : done_by i (l ++ [e]) = done_by i l ++ (if Nat.eqb (e_from e) i then [(e_addr e, e_msg e)] else []).
  Proof. unfold done_by. rewrite filter_app, map_app. cbn. destruct (Nat.eqb (e_from e) i); reflexivity. Qed.

  Lemma step_inv progs i s : Inv progs s -> Inv progs (step i s).
  Proof.
    intros I. unfold Central.step. destruct (nth_error (cs_thr s) i) as [th|] eqn:Eth; [|exact I].
    assert (Hi : i < length (cs_thr s)) by (apply nth_error_Some; congruence).
    destruct (t_hold th) as [[[id a] m]|] eqn:Eh.
    - split; cbn [cs_tbl cs_log cs_thr].
      + apply I.
      + rewrite set_nth_length. apply I.
      + intros e He. apply in_app_or in He as [He|[<-|[]]]; [now apply I|]. cbn. eapply (inv_hold _ _ I); eauto.
      + intros j th' id' a' m' Hj Hh. destruct (nth_error_set_nth _ _ _ _ _ Hj) as [[-> ->]|[_ Hj']]; [discriminate|].
        eapply (inv_hold _ _ I); eauto.
      + intros j th' p Hj Hp. rewrite done_by_app. cbn [e_from e_addr e_msg].
        destruct (nth_error_set_nth _ _ _ _ _ Hj) as [[-> ->]|[Hne Hj']].
        * rewrite Nat.eqb_refl. cbn [held t_hold t_todo app].
          pose proof (inv_acct _ _ I i th p Eth Hp) as Hacc. unfold held in Hacc. rewrite Eh in Hacc.
          rewrite <- app_assoc. exact Hacc.
        * replace (Nat.eqb i j) with false by (symmetry; apply Nat.eqb_neq; congruence).
          rewrite app_nil_r. eapply (inv_acct _ _ I); eauto.
      + intros e He. apply in_app_or in He as [He|[<-|[]]]; [now apply I|]. cbn. rewrite <- (inv_len _ _ I). exact Hi.
    - destruct (t_todo th) as [|[a m] rest] eqn:Et; [exact I|].
      pose proof (get_or_create_lookup a (cs_tbl s)) as Hl. pose proof (wf_get_or_create a (cs_tbl s) (inv_wf _ _ I)) as Hw.
      destruct (get_or_create a (cs_tbl s)) as [t' id] eqn:Eg. cbn [fst snd] in Hl, Hw.
      assert (Hst : forall b k, lookup b (cs_tbl s) = Some k -> lookup b t' = Some k).
      { intros b k H. pose proof (get_or_create_stable a b (cs_tbl s) k H) as H'. rewrite Eg in H'. exact H'. }
      split; cbn [cs_tbl cs_log cs_thr].
      + exact Hw.
      + rewrite set_nth_length. apply I.
      + intros e He. apply Hst. now apply I.
      + intros j th' id' a' m' Hj Hh. destruct (nth_error_set_nth _ _ _ _ _ Hj) as [[-> ->]|[_ Hj']].
        * cbn in Hh. injection Hh as <- <- <-. exact Hl.
        * apply Hst. eapply (inv_hold _ _ I); eauto.
      + intros j th' p Hj Hp. destruct (nth_error_set_nth _ _ _ _ _ Hj) as [[-> ->]|[_ Hj']].
        * cbn [held t_hold t_todo app].
          pose proof (inv_acct _ _ I i th p Eth Hp) as Hacc. unfold held in Hacc. rewrite Eh, Et in Hacc. exact Hacc.
        * eapply (inv_acct _ _ I); eauto.
      + apply I.
  Qed.

  Lemma run_inv progs sched : forall s, Inv progs s -> Inv progs (run sched s).
  Proof. induction sched as [|i sched IH]; intros s I; [exact I|]. cbn. apply IH, step_inv, I. Qed.

  Theorem one_mailbox_per_address progs sched e1 e2 :
    let s := run sched (init progs) in
    In e1 (cs_log s) -> In e2 (cs_log s) -> (e_addr e1 = e_addr e2 <-> e_box e1 = e_box e2).
  Proof.
    intros s H1 H2. pose proof (run_inv progs sched _ (Inv_init progs)) as I. fold s in I.
    pose proof (inv_log _ _ I e1 H1) as L1. pose proof (inv_log _ _ I e2 H2) as L2. split; intros E.
    - rewrite E in L1. congruence.
    - rewrite E in L1. eapply wf_inj; eauto. apply I.
  Qed.

  Lemma log_of_is_addr progs s a :
    Inv progs s -> log_of eqb a s = filter (fun e => eqb (e_addr e) a) (cs_log s).
  Proof.
    intros I. unfold log_of, box_log. destruct (lookup a (cs_tbl s)) as [id|] eqn:El.
    - apply filter_ext_in. intros e He. pose proof (inv_log _ _ I e He) as L.
      destruct (Nat.eqb (e_box e) id) eqn:E1.
      + apply Nat.eqb_eq in E1. subst id. symmetry. apply eqb_spec. eapply wf_inj; eauto. apply I.
      + destruct (eqb (e_addr e) a) eqn:E2; [|reflexivity]. apply eqb_spec in E2. rewrite E2 in L.
        rewrite L in El. injection El as <-. now rewrite Nat.eqb_refl in E1.
    - symmetry.
      assert (Hl : forall e', In e' (cs_log s) -> eqb (e_addr e') a = false).
      { intros e' He'. destruct (eqb (e_addr e') a) eqn:E2; [|reflexivity]. apply eqb_spec in E2.
        pose proof (inv_log _ _ I e' He') as L. rewrite E2 in L. congruence. }
      clear I. induction (cs_log s) as [|x l IHl]; [reflexivity|]. cbn [filter]. rewrite (Hl x (or_introl eq_refl)).
      apply IHl. intros e' He'. apply Hl. now right.
  Qed.

  Lemma sent_by_log_of progs s a i :
    Inv progs s -> sent_by i (log_of eqb a s) = to_addr eqb a (done_by i (cs_log s)).
  Proof.
    intros I. rewrite (log_of_is_addr progs s a I). unfold sent_by, to_addr, done_by.
    induction (cs_log s) as [|e l IH]; [reflexivity|]. cbn [filter].
    destruct (eqb (e_addr e) a) eqn:Ea; destruct (Nat.eqb (e_from e) i) eqn:Ei; cbn [filter map fst snd]; rewrite ?Ea, ?Ei; cbn [map snd]; rewrite ?IH; reflexivity.
  Qed.

  Lemma to_addr_app a (p q : list (A * M)) : to_addr eqb a (p ++ q) = to_addr eqb a p ++ to_addr eqb a q.
  Proof. unfold to_addr. now rewrite filter_app, map_app. Qed.

  Lemma sent_acct progs sched i p a :
    nth_error progs i = Some p ->
    exists th, nth_error (cs_thr (run sched (init progs))) i = Some th /\
      to_addr eqb a p = sent_by i (log_of eqb a (run sched (init progs))) ++ to_addr eqb a (held th ++ t_todo th).
  Proof.
    intros Hp. pose proof (run_inv progs sched _ (Inv_init progs)) as I. set (s := run sched (init progs)) in *.
    assert (Hlen : i < length (cs_thr s)) by (rewrite (inv_len _ _ I); apply nth_error_Some; congruence).
    destruct (nth_error (cs_thr s) i) as [th|] eqn:Eth; [|apply nth_error_None in Eth; lia].
    exists th. split; [reflexivity|].
    rewrite (sent_by_log_of progs s a i I), <- to_addr_app, (inv_acct _ _ I i th p Eth Hp). reflexivity.
  Qed.

  Theorem per_sender_prefix progs sched i p a :
    nth_error progs i = Some p ->
    exists rest, to_addr eqb a p = sent_by i (log_of eqb a (run sched (init progs))) ++ rest.
  Proof. intros Hp. destruct (sent_acct progs sched i p a Hp) as (th & _ & E). eauto. Qed.

  Theorem per_sender_fifo progs sched i p a :
    nth_error progs i = Some p ->
    finished (run sched (init progs)) ->
    sent_by i (log_of eqb a (run sched (init progs))) = to_addr eqb a p.
  Proof.
    intros Hp Hf. destruct (sent_acct progs sched i p a Hp) as (th & Eth & ->).
    unfold finished in Hf. rewrite Forall_forall in Hf. destruct (Hf th (nth_error_In _ _ Eth)) as [Ht Hh].
    unfold held. rewrite Ht, Hh. cbn. now rewrite app_nil_r.
  Qed.

  Theorem wire_only_from_senders progs sched e :
    In e (cs_log (run sched (init progs))) -> e_from e < length progs.
  Proof. intros H. pose proof (run_inv progs sched _ (Inv_init progs)) as I. now apply (inv_from _ _ I). Qed.
End P.

(** the excluded variant: two senders, first contact at the same time *)
Definition ow_progs : list (list (nat * nat)) := [[(7, 10); (7, 11)]; [(7, 20); (7, 21)]].
(** both miss in Load; both LoadOrStore; each sends its first message through ITS OWN mailbox; the second messages
    find the table's mailbox *)
Definition ow_sched : list nat := [0; 1; 0; 1; 0; 1; 0; 0; 1; 1].

Lemma orphan_witness :
  let s := orun Nat.eqb ow_sched (oinit ow_progs) in
  map (fun e => (e_box e, e_from e, e_msg e)) (os_log s) = [(0, 0, 10); (1, 1, 20); (0, 0, 11); (0, 1, 21)] /\
  map e_msg (box_log 0 (os_log s)) = [10; 11; 21] /\ map e_msg (box_log 1 (os_log s)) = [20].
Proof. vm_compute. auto. Qed.
