(** C15 — location transparency: proofs.  The wire part COMPOSES the existing theorems:
      EnvelopeProofs.envelope_rt (= C12_envelope; through MsgsProofs.rt_Q it contains the round trip of every
      registered message kind: OnKill, OnKilled, WatchMessage, UnwatchMessage, PingMessage, PongMessage, PipeResult with
      and without Message, SchedulerMessage, and of a user payload through the Codec, M9),
      FrameProofs.receive_delivers / receive_chunking_independent (= C11: exactly once, in order, any chunking).
    No codec is re-proved here.  The second half links to the local semantics (Actor/Core.v). *)
From Coq Require Import List NArith ZArith Lia Bool.
From Coq Require Import ZifyN ZifyNat ZifyBool.
From Vivid Require Import Codec.Prim Codec.PrimProofs Codec.MsgPrim Codec.MsgPrimProofs Cluster.VV Codec.ClusterMsgs
  Codec.Msgs Codec.MsgsProofs Remoting.Frame Remoting.FrameProofs Codec.Envelope Codec.EnvelopeProofs
  Remoting.Transparency.
From Vivid Require Actor.Core Remoting.ChurnProofs.
Import ListNotations.
Local Open Scope N_scope.

(** [Codec.MsgPrim.bytes_eqb] and [Remoting.Churn.bytes_eqb] are the same function *)
Lemma bytes_eqb_refl a : bytes_eqb a a = true.
Proof. exact (ChurnProofs.bytes_eqb_refl a). Qed.
Lemma bytes_eqb_true a b : bytes_eqb a b = true -> a = b.
Proof. exact (proj1 (ChurnProofs.bytes_eqb_eq a b)). Qed.
Lemma bytes_eqb_neq a b : a <> b -> bytes_eqb a b = false.
Proof. exact (ChurnProofs.bytes_eqb_neq a b). Qed.

Lemma MOk_inj {A} (x y : A) : MOk x = MOk y -> x = y.
Proof. congruence. Qed.

Lemma send_frame_of_legal w : legal w -> send_frame w = Some (frame w).
Proof.
  unfold legal, send_frame. intros [H1 H2].
  replace (N.of_nat (length w) =? 0) with false by lia.
  replace (max_frame <? N.of_nat (length w)) with false by lia. reflexivity.
Qed.

Lemma small_len32 b : small b -> len32 b.
Proof. unfold small, len32. lia. Qed.


Lemma put_bool_length b : length (put_bool b) = 1%nat.
Proof. reflexivity. Qed.
Lemma put_i64_length z : length (put_i64 z) = 8%nat.
Proof. unfold put_i64, put_u64. apply be_length. Qed.
Lemma put_i32_length z : length (put_i32 z) = 4%nat.
Proof. unfold put_i32, put_u32. apply be_length. Qed.
Lemma txt_exception_length : length txt_exception = 11%nat.
Proof. reflexivity. Qed.
Lemma nil_length : length (@nil N) = 0%nat.
Proof. reflexivity. Qed.
Lemma name_of_short k : (length (name_of k) <= 32)%nat.
Proof. destruct k; cbn; lia. Qed.


Section Sizes.
  Variable U : Type.
  Variable has_codec : bool.
  Variable cenc : U -> mres bytes.

  Notation msg := (msg U).
  Notation envelope := (envelope U).
  Notation op := (op U).
  Notation enc_envelope := (enc_envelope U has_codec cenc).
  Notation fits := (fits U has_codec cenc).
  Notation wire := (wire U has_codec cenc).
  Notation frame_ok := (frame_ok U has_codec cenc).
  Notation op_envelope := (op_envelope U).

  Ltac len_simpl :=
    rewrite ?app_length, ?FrameProofs.put_lp4_length, ?put_bool_length, ?put_i64_length, ?put_i32_length,
            ?txt_exception_length, ?nil_length.

  Lemma enc_envelope_length (e : envelope) k b w :
    kind_of U (e_msg U e) = Some k -> enc_body U has_codec cenc (e_msg U e) = MOk b -> enc_envelope e = MOk w ->
    length w = (25 + length b + length (name_of k)
                + length (fst (strs_of (e_sender U e))) + length (snd (strs_of (e_sender U e)))
                + length (fst (strs_of (e_receiver U e))) + length (snd (strs_of (e_receiver U e))))%nat.
  Proof.
    intros Hk Hb Hw. rewrite (enc_envelope_registered U has_codec cenc e k b Hk Hb) in Hw. apply MOk_inj in Hw. subst w. len_simpl. lia.
  Qed.

  Lemma sizes_from_body (e : envelope) k b :
    kind_of U (e_msg U e) = Some k -> enc_body U has_codec cenc (e_msg U e) = MOk b ->
    N.of_nat (length b) + N.of_nat (length (fst (strs_of (e_sender U e)))) + N.of_nat (length (snd (strs_of (e_sender U e))))
    + N.of_nat (length (fst (strs_of (e_receiver U e)))) + N.of_nat (length (snd (strs_of (e_receiver U e)))) <= 4194000 ->
    fits (e_msg U e) /\ frame_ok e.
  Proof.
    intros Hk Hb Hl. split.
    - intros b' Hb'. rewrite Hb in Hb'. injection Hb' as <-. unfold len32. lia.
    - intros w Hw. rewrite (enc_envelope_length e k b w Hk Hb Hw), max_frame_val. pose proof (name_of_short k). lia.
  Qed.

  Lemma builtin_sizes (o : op) :
    small_op U o -> fits (e_msg U (op_envelope o)) /\ frame_ok (op_envelope o).
  Proof.
    unfold Transparency.small_op, small_aref, small.
    destruct o as [s t m|s t m|s t m|[sa sp] [ta tp] reason poison|[sa sp] [ta tp]|[sa sp] [ta tp]|[sa sp] [ta tp] t0
                  |[sa sp] [ta tp] ping resp|[sa sp] [ta tp]|s t id m e|[sa sp] [ta tp] id e|s t r m];
      cbn [Transparency.op_sender Transparency.op_receiver fst snd]; intros (Hs & Hr & Hx); try contradiction;
      destruct Hs as [Hs1 Hs2]; destruct Hr as [Hr1 Hr2];
      try match goal with e0 : perr |- _ =>
            destruct Hx as [Hid He]; destruct e0 as [|c t0|t0|];
            [| | |split; [intros b Hb|intros w Hw; unfold Envelope.enc_envelope, serialize_remoting in Hw]; discriminate]
          end;
      (eapply sizes_from_body; [reflexivity|reflexivity|]);
      cbn [Transparency.op_envelope Transparency.mk_env e_sender e_receiver strs_of to_eref fst snd];
      unfold enc_OnKill, enc_OnKilled, enc_Ping, w_ref, to_eref; cbn [fst snd]; repeat (progress len_simpl); lia.
  Qed.

  Theorem tell_outside_needs_codec (sys : bool) (s t : aref) (u : U) :
    has_codec = false -> wire (mk_env U sys s t (M_Outside u)) = None.
  Proof. intros Hc. unfold Transparency.wire, Envelope.enc_envelope. cbn. rewrite Hc. reflexivity. Qed.

  Theorem oversize_not_sent (e : envelope) w :
    enc_envelope e = MOk w -> max_frame < N.of_nat (length w) -> wire e = None.
  Proof.
    intros Hw Hl. unfold Transparency.wire, send_frame. rewrite Hw.
    replace (max_frame <? N.of_nat (length w)) with true by lia. rewrite orb_true_r. reflexivity.
  Qed.

End Sizes.

Section T.
  Variable U : Type.
  Variable has_codec : bool.
  Variable cenc : U -> mres bytes.
  Variable cdec : bytes -> mres U.
  Variable qerr : Z -> option bytes.
  Variable newref : bytes -> bytes -> mres (bytes * bytes).

  Notation msg := (msg U).
  Notation envelope := (envelope U).
  Notation op := (op U).
  Notation enc_envelope := (enc_envelope U has_codec cenc).
  Notation dec_envelope := (dec_envelope U has_codec cdec qerr newref).
  Notation valid_msg := (valid_msg U has_codec cenc cdec qerr newref).
  Notation fits := (fits U has_codec cenc).
  Notation wire := (wire U has_codec cenc).
  Notation wire_bytes := (wire_bytes U has_codec cenc).
  Notation wire_dec := (wire_dec U has_codec cdec qerr newref).
  Notation handle := (handle U newref).
  Notation remote_receive := (remote_receive U has_codec cdec qerr newref).
  Notation remote_transport := (remote_transport U has_codec cenc cdec qerr newref).
  Notation wire_valid := (wire_valid U has_codec cenc cdec qerr newref).
  Notation valid_op := (valid_op U has_codec cenc cdec qerr newref).
  Notation frame_ok := (frame_ok U has_codec cenc).
  Notation present_ref := (present_ref newref).
  Notation valid_aref := (valid_aref newref).
  Notation op_envelope := (op_envelope U).
  Notation env_equiv := (env_equiv U).

  Definition body_of (e : envelope) : bytes := match enc_envelope e with MOk w => w | MErr _ => [] end.

  Lemma present_valid_ref r : present_ref r -> valid_ref r.
  Proof. destruct r as [|a p|]; cbn; [tauto|intros (Ha & Hp & _); split; assumption|tauto]. Qed.

  Definition deliverable (own : bytes) (e : envelope) : Prop :=
    wire_valid e /\ present_ref (e_receiver U (localized U own e)).

  Lemma localized_canonical own (e : envelope) p : e_receiver U e = RRef own p -> localized U own e = e.
  Proof. destruct e as [sys s r m]. cbn [e_receiver]. intros ->. reflexivity. Qed.

  Lemma wire_valid_deliverable own (e : envelope) p : e_receiver U e = RRef own p -> wire_valid e -> deliverable own e.
  Proof. intros Hr HV. split; [exact HV|]. rewrite (localized_canonical own e p Hr). apply HV. Qed.

  Lemma handle_expected own (e : envelope) :
    present_ref (e_sender U e) -> present_ref (e_receiver U e) -> present_ref (e_receiver U (localized U own e)) ->
    handle own (expected_out U e) = Some (localized U own e).
  Proof.
    destruct e as [sys s r m]. unfold localized. cbn [e_system e_sender e_receiver e_msg].
    destruct s as [|a p|]; cbn [Transparency.present_ref]; try tauto.
    destruct r as [|a' p'|]; cbn [Transparency.present_ref]; try tauto.
    intros (_ & _ & H1) (_ & _ & H2) (_ & _ & H3). unfold Transparency.handle, expected_out.
    cbn [o_saddr o_spath o_raddr o_rpath o_system o_msg e_system e_sender e_receiver e_msg strs_of fst snd].
    rewrite H1, H2. cbn [fst snd to_eref]. destruct (bytes_eqb a' own) eqn:E.
    - apply bytes_eqb_true in E. subst a'. reflexivity.
    - rewrite H3. reflexivity.
  Qed.
  Lemma handle_before_fix_expected (e : envelope) :
    present_ref (e_sender U e) -> present_ref (e_receiver U e) -> handle_before_fix U newref (expected_out U e) = Some e.
  Proof.
    destruct e as [sys s r m]. cbn [e_sender e_receiver].
    destruct s as [|a p|]; cbn [Transparency.present_ref]; try tauto.
    destruct r as [|a' p'|]; cbn [Transparency.present_ref]; try tauto.
    intros (_ & _ & H1) (_ & _ & H2). unfold Transparency.handle_before_fix, expected_out.
    cbn [o_saddr o_spath o_raddr o_rpath o_system o_msg e_system e_sender e_receiver e_msg strs_of fst snd].
    rewrite H1, H2. reflexivity.
  Qed.

  (** DecodeEnvelopWithRemoting fails on the empty body, so an encoding that decodes and fits a frame is a legal body *)
  Lemma decoded_legal (e : envelope) w r :
    enc_envelope e = MOk w -> frame_ok e -> drun dec_envelope w = MOk r -> legal w.
  Proof.
    intros Hw Fo Hd. split; [|apply Fo; exact Hw]. destruct w as [|x w]; [|cbn [length]; lia].
    exfalso. revert Hd. unfold drun, Envelope.dec_envelope, dbind, d_str. cbn. discriminate.
  Qed.

  (** C12_envelope for a wire-valid envelope, in the shape the frame reader needs *)
  Lemma wire_valid_body (e : envelope) :
    wire_valid e ->
    enc_envelope e = MOk (body_of e) /\ legal (body_of e) /\ wire e = Some (frame (body_of e)) /\
    wire_dec (body_of e) = Some (expected_out U e).
  Proof.
    intros (Hs & Hr & Tm & Vm & Fm & Fo).
    destruct (envelope_rt U has_codec cenc cdec qerr newref e []) as (w & Hw & Hd).
    { repeat split; try assumption; apply present_valid_ref; assumption. }
    { exact Fm. }
    rewrite app_nil_r in Hd.
    assert (Hb : body_of e = w) by (unfold body_of; rewrite Hw; reflexivity).
    rewrite Hb.
    pose proof (decoded_legal e w _ Hw Fo Hd) as Hl.
    split; [exact Hw|]. split; [exact Hl|]. split.
    - unfold Transparency.wire. rewrite Hw. apply send_frame_of_legal. exact Hl.
    - unfold Transparency.wire_dec; rewrite Hd; reflexivity.
  Qed.

  Lemma wire_bytes_valid e : wire_valid e -> wire_bytes e = frame (body_of e).
  Proof. intros H. unfold Transparency.wire_bytes. destruct (wire_valid_body e H) as (_ & _ & -> & _). reflexivity. Qed.

  Theorem transport_chunking own (chunks1 chunks2 : list bytes) :
    concat chunks1 = concat chunks2 -> remote_receive own chunks1 = remote_receive own chunks2.
  Proof.
    intros E. unfold Transparency.remote_receive.
    rewrite !(receive_chunking_independent wire_dec), E. reflexivity.
  Qed.

  (** generic in the handler: instantiated with [handle] ([transport_stream]) and with [handle_before_fix] *)
  Lemma transport_stream_gen (h : envelope_out U -> option envelope) (f : envelope -> envelope)
        (es : list envelope) (chunks : list bytes) :
    Forall wire_valid es -> Forall (fun e => h (expected_out U e) = Some (f e)) es ->
    concat chunks = concat (map wire_bytes es) ->
    map h (delivered (receive wire_dec chunks)) = map (fun e => Some (f e)) es.
  Proof.
    intros HV HH E.
    assert (Hm : map wire_bytes es = map frame (map body_of es)).
    { rewrite map_map. apply map_ext_in. intros e He. apply wire_bytes_valid. exact (proj1 (List.Forall_forall _ _) HV e He). }
    rewrite Hm in E.
    assert (HF : Forall legal (map body_of es)).
    { apply List.Forall_map. eapply List.Forall_impl; [|exact HV]. intros e He. apply (wire_valid_body e He). }
    rewrite (receive_delivers wire_dec _ _ HF E).
    clear E Hm HF. induction HV as [|e es He _ IH]; [reflexivity|].
    inversion HH as [|? ? Hh HH']; subst.
    cbn [map decodable]. destruct (wire_valid_body e He) as (_ & _ & _ & ->).
    cbn [map]. rewrite Hh, (IH HH'). reflexivity.
  Qed.

  Theorem transport_stream own (es : list envelope) (chunks : list bytes) :
    Forall (deliverable own) es ->
    concat chunks = concat (map wire_bytes es) ->
    remote_receive own chunks = map (fun e => Some (localized U own e)) es.
  Proof.
    intros HD E. unfold Transparency.remote_receive. apply transport_stream_gen.
    - eapply List.Forall_impl; [|exact HD]. intros e He. apply He.
    - eapply List.Forall_impl; [|exact HD]. intros e ((Hs & Hr & _) & Hl). apply handle_expected; assumption.
    - exact E.
  Qed.

  Lemma transport_from_parts own (e e' : envelope) w o :
    enc_envelope e = MOk w -> legal w -> wire_dec w = Some o -> handle own o = Some e' ->
    remote_transport own e = Some e' /\
    forall chunks, concat chunks = wire_bytes e -> remote_receive own chunks = [Some e'].
  Proof.
    intros Hw Hl Hd Hh.
    assert (Hwire : wire e = Some (frame w)).
    { unfold Transparency.wire. rewrite Hw. apply send_frame_of_legal. exact Hl. }
    assert (Hb : wire_bytes e = frame w) by (unfold Transparency.wire_bytes; rewrite Hwire; reflexivity).
    assert (H1 : forall chunks, concat chunks = wire_bytes e -> remote_receive own chunks = [Some e']).
    { intros chunks E. unfold Transparency.remote_receive.
      rewrite (receive_delivers wire_dec [w] chunks).
      - cbn [decodable]. rewrite Hd. cbn [map]. rewrite Hh. reflexivity.
      - constructor; [exact Hl|constructor].
      - cbn [map concat]. rewrite app_nil_r. rewrite E. exact Hb. }
    split; [|exact H1]. unfold Transparency.remote_transport. rewrite Hwire.
    rewrite (H1 [frame w]); [reflexivity|]. cbn [concat]. rewrite app_nil_r. symmetry. exact Hb.
  Qed.

  Theorem transport_one own (e : envelope) :
    deliverable own e ->
    remote_transport own e = Some (localized U own e) /\
    forall chunks, concat chunks = wire_bytes e -> remote_receive own chunks = [Some (localized U own e)].
  Proof.
    intros [HV HL]. destruct (wire_valid_body e HV) as (Hw & Hl & _ & Hd).
    apply (transport_from_parts own e _ _ _ Hw Hl Hd). apply handle_expected; [apply HV|apply HV|exact HL].
  Qed.

  Lemma env_equiv_refl e : env_equiv e e.
  Proof. repeat split. Qed.
  (** between envelopes whose refs are present, [env_equiv] is equality: the model has no ref identity *)
  Lemma env_equiv_eq (e1 e2 : envelope) :
    env_equiv e1 e2 ->
    (exists a p, e_sender U e1 = RRef a p) -> (exists a p, e_receiver U e1 = RRef a p) ->
    (exists a p, e_sender U e2 = RRef a p) -> (exists a p, e_receiver U e2 = RRef a p) -> e1 = e2.
  Proof.
    destruct e1 as [y1 s1 r1 m1], e2 as [y2 s2 r2 m2]. unfold Transparency.env_equiv. cbn [e_system e_sender e_receiver e_msg].
    intros (-> & -> & Hs & Hr) (a1 & p1 & ->) (a2 & p2 & ->) (a3 & p3 & ->) (a4 & p4 & ->).
    cbn in Hs, Hr. congruence.
  Qed.

  Lemma valid_aref_present r : valid_aref r -> present_ref (to_eref r).
  Proof. destruct r as [a p]. cbn. tauto. Qed.

  Lemma valid_op_wire_valid (o : op) : valid_op o -> wire_valid (op_envelope o).
  Proof.
    intros (Hs & Hr & Hm & Hf & Ho). unfold Transparency.wire_valid.
    assert (Ps := valid_aref_present _ Hs). assert (Pr := valid_aref_present _ Hr).
    unfold Transparency.valid_aref in *.
    destruct o; cbn [Transparency.op_envelope Transparency.mk_env e_sender e_receiver e_msg Transparency.op_sender Transparency.op_receiver] in *;
      (split; [exact Ps|]; split; [exact Pr|]);
      cbn [ty_msg Msgs.valid_msg Transparency.valid_fields] in *; intuition eauto.
  Qed.

  Lemma localized_op own (o : op) :
    localized U own (op_envelope o) =
    {| e_system := e_system U (op_envelope o); e_sender := to_eref (op_sender U o);
       e_receiver := RRef own (snd (op_receiver U o)); e_msg := e_msg U (op_envelope o) |}.
  Proof. destruct o; reflexivity. Qed.
  Lemma localized_op_canonical (o : op) : localized U (fst (op_receiver U o)) (op_envelope o) = op_envelope o.
  Proof. destruct o; reflexivity. Qed.

  Lemma valid_op_deliverable own (o : op) :
    valid_op o -> valid_aref (own, snd (op_receiver U o)) -> deliverable own (op_envelope o).
  Proof.
    intros HV Ho. split; [apply valid_op_wire_valid, HV|]. rewrite localized_op. cbn [e_receiver].
    apply (valid_aref_present _ Ho).
  Qed.

  Theorem transparent_exact own (o : op) :
    valid_op o -> valid_aref (own, snd (op_receiver U o)) ->
    remote_transport own (op_envelope o) = Some (localized U own (op_envelope o)) /\
    forall chunks, concat chunks = wire_bytes (op_envelope o) ->
                   remote_receive own chunks = [Some (localized U own (op_envelope o))].
  Proof. intros HV Ho. apply transport_one, valid_op_deliverable; assumption. Qed.

  Lemma local_route own p : find_mailbox own (RRef own p) = ToLocal p.
  Proof. unfold find_mailbox. rewrite bytes_eqb_refl. reflexivity. Qed.

  Theorem transparent own (o : op) :
    valid_op o -> valid_aref (own, snd (op_receiver U o)) ->
    exists e', remote_transport own (op_envelope o) = Some e' /\ env_equiv e' (localized U own (op_envelope o)) /\
      (forall chunks, concat chunks = wire_bytes (op_envelope o) -> remote_receive own chunks = [Some e']) /\
      find_mailbox own (e_receiver U e') = ToLocal (snd (op_receiver U o)).
  Proof.
    intros HV Ho. destruct (transparent_exact own o HV Ho) as (H1 & H2).
    exists (localized U own (op_envelope o)). split; [exact H1|]. split; [apply env_equiv_refl|]. split; [exact H2|].
    rewrite localized_op. cbn [e_receiver]. apply local_route.
  Qed.

  Theorem transparent_stream own (os : list op) (chunks : list bytes) :
    Forall (fun o => valid_op o /\ valid_aref (own, snd (op_receiver U o))) os ->
    concat chunks = concat (map (fun o => wire_bytes (op_envelope o)) os) ->
    remote_receive own chunks = map (fun o => Some (localized U own (op_envelope o))) os.
  Proof.
    intros HV E. rewrite <- (map_map op_envelope wire_bytes) in E.
    rewrite (transport_stream own (map op_envelope os) chunks).
    - rewrite map_map. reflexivity.
    - apply List.Forall_map. eapply List.Forall_impl; [|exact HV]. intros o [H1 H2]. apply valid_op_deliverable; assumption.
    - exact E.
  Qed.

  Theorem routing (here : bytes) (o : op) :
    fst (op_receiver U o) <> here ->
    find_mailbox here (e_receiver U (op_envelope o)) = ToRemote (fst (op_receiver U o)).
  Proof.
    intros Hne.
    assert (Hr : e_receiver U (op_envelope o) = to_eref (op_receiver U o)) by (destruct o; reflexivity).
    rewrite Hr. unfold to_eref, find_mailbox. rewrite (bytes_eqb_neq _ _ Hne). reflexivity.
  Qed.

  (** in the per-operation corollaries [own] is the advertised address of the system that hosts the target; the ref the
      caller holds may carry that address or any other address string that reaches the system *)
  Lemma small_valid (o : op) :
    valid_aref (op_sender U o) -> valid_aref (op_receiver U o) -> Transparency.valid_fields U has_codec cenc cdec qerr newref o ->
    small_op U o -> valid_op o.
  Proof.
    intros Hs Hr Hf Hsm. destruct (builtin_sizes U has_codec cenc o Hsm) as [H1 H2].
    split; [exact Hs|split; [exact Hr|split; [exact Hf|split; [exact H1|exact H2]]]].
  Qed.

  Ltac flat_valid :=
    apply small_valid;
      [assumption|assumption|cbn; auto using small_len32
      |unfold Transparency.small_op; cbn [Transparency.op_sender Transparency.op_receiver]; tauto].

  Ltac finish H1 H2 :=
    eexists; split; [exact H1|]; split; [exact H2|]; rewrite localized_op; cbn; repeat split; apply local_route.

  Theorem remote_kill own (killer target : aref) (reason : bytes) (poison : bool) :
    valid_aref killer -> valid_aref target -> valid_aref (own, snd target) ->
    small_aref killer -> small_aref target -> small reason ->
    exists e',
      remote_transport own (op_envelope (OpKill killer target reason poison)) = Some e' /\
      (forall chunks, concat chunks = wire_bytes (op_envelope (OpKill killer target reason poison)) ->
                      remote_receive own chunks = [Some e']) /\
      e_system U e' = negb poison /\
      e_msg U e' = M_OnKill (RRef (fst killer) (snd killer)) reason poison /\
      e_sender U e' = RRef (fst killer) (snd killer) /\
      e_receiver U e' = RRef own (snd target) /\
      find_mailbox own (e_receiver U e') = ToLocal (snd target).
  Proof.
    intros Hk Ht Ho Sk St Sr.
    destruct (transparent_exact own (OpKill killer target reason poison)) as [H1 H2]; [flat_valid|exact Ho|].
    finish H1 H2.
  Qed.

  Theorem remote_watch own (watcher target : aref) :
    valid_aref watcher -> valid_aref target -> valid_aref (own, snd target) -> small_aref watcher -> small_aref target ->
    exists e',
      remote_transport own (op_envelope (OpWatch watcher target)) = Some e' /\
      (forall chunks, concat chunks = wire_bytes (op_envelope (OpWatch watcher target)) -> remote_receive own chunks = [Some e']) /\
      e_system U e' = true /\ e_msg U e' = M_Empty E_Watch /\
      e_sender U e' = RRef (fst watcher) (snd watcher) /\
      watcher_key (e_sender U e') = fst watcher ++ [64] ++ snd watcher /\
      find_mailbox own (e_receiver U e') = ToLocal (snd target).
  Proof.
    intros Hw Ht Ho Sw St.
    destruct (transparent_exact own (OpWatch watcher target)) as [H1 H2]; [flat_valid|exact Ho|].
    finish H1 H2.
  Qed.

  Theorem remote_unwatch own (watcher target : aref) :
    valid_aref watcher -> valid_aref target -> valid_aref (own, snd target) -> small_aref watcher -> small_aref target ->
    exists e',
      remote_transport own (op_envelope (OpUnwatch watcher target)) = Some e' /\
      (forall chunks, concat chunks = wire_bytes (op_envelope (OpUnwatch watcher target)) -> remote_receive own chunks = [Some e']) /\
      e_system U e' = true /\ e_msg U e' = M_Empty E_Unwatch /\
      watcher_key (e_sender U e') = fst watcher ++ [64] ++ snd watcher /\
      find_mailbox own (e_receiver U e') = ToLocal (snd target).
  Proof.
    intros Hw Ht Ho Sw St.
    destruct (transparent_exact own (OpUnwatch watcher target)) as [H1 H2]; [flat_valid|exact Ho|].
    finish H1 H2.
  Qed.

  Theorem remote_onkilled_names_target ownW ownT (watcher target : aref) :
    valid_aref watcher -> valid_aref (ownW, snd watcher) -> valid_aref target -> valid_aref (ownT, snd target) ->
    small_aref watcher -> small_aref target -> small ownT ->
    exists e1 e2,
      remote_transport ownT (op_envelope (OpWatch watcher target)) = Some e1 /\
      killed_notice U (ownT, snd target) (e_sender U e1) = op_envelope (OpKilledNotice (ownT, snd target) watcher) /\
      remote_transport ownW (killed_notice U (ownT, snd target) (e_sender U e1)) = Some e2 /\
      (forall chunks, concat chunks = wire_bytes (killed_notice U (ownT, snd target) (e_sender U e1)) ->
                      remote_receive ownW chunks = [Some e2]) /\
      e_system U e2 = true /\
      e_msg U e2 = M_OnKilled (RRef ownT (snd target)) /\
      find_mailbox ownW (e_receiver U e2) = ToLocal (snd watcher).
  Proof.
    intros Hw Hw' Ht Ht' Sw St So.
    destruct (transparent_exact ownT (OpWatch watcher target)) as [H1 _]; [flat_valid|exact Ht'|].
    assert (Sself : small_aref (ownT, snd target)) by (split; [exact So|apply St]).
    destruct (transparent_exact ownW (OpKilledNotice (ownT, snd target) watcher)) as [H3 H4]; [flat_valid|exact Hw'|].
    eexists. eexists. split; [exact H1|]. rewrite localized_op. cbn [e_sender].
    split; [reflexivity|]. split; [exact H3|]. split; [exact H4|].
    rewrite localized_op. cbn. repeat split. apply local_route.
  Qed.

  Theorem remote_ping_pong ownA ownT (agent target : aref) (t now : Z) :
    valid_aref agent -> valid_aref (ownA, snd agent) -> valid_aref target -> valid_aref (ownT, snd target) ->
    small_aref agent -> small_aref target -> small ownT -> in_i64 t -> in_i64 now ->
    exists e1 pong e2,
      remote_transport ownT (op_envelope (OpPing agent target t)) = Some e1 /\
      e_msg U e1 = M_Ping t /\ find_mailbox ownT (e_receiver U e1) = ToLocal (snd target) /\
      on_ping U (ownT, snd target) e1 now = Some pong /\ pong = op_envelope (OpPong (ownT, snd target) agent t now) /\
      remote_transport ownA pong = Some e2 /\
      (forall chunks, concat chunks = wire_bytes pong -> remote_receive ownA chunks = [Some e2]) /\
      e_system U e2 = false /\ e_msg U e2 = M_PongMessage (Some t) now /\
      find_mailbox ownA (e_receiver U e2) = ToLocal (snd agent).
  Proof.
    intros Hg Hg' Ht Ht' Sg St So It In.
    destruct (transparent_exact ownT (OpPing agent target t)) as [H1 _]; [flat_valid|exact Ht'|].
    assert (Sself : small_aref (ownT, snd target)) by (split; [exact So|apply St]).
    destruct (transparent_exact ownA (OpPong (ownT, snd target) agent t now)) as [H3 H4]; [flat_valid|exact Hg'|].
    eexists. eexists. eexists. split; [exact H1|]. rewrite localized_op. cbn [e_msg e_receiver e_sender e_system Transparency.op_envelope Transparency.mk_env].
    split; [reflexivity|]. split; [apply local_route|]. split; [reflexivity|]. split; [reflexivity|].
    split; [exact H3|]. split; [exact H4|]. rewrite localized_op. cbn. repeat split. apply local_route.
  Qed.

  Theorem remote_ask_reply ownA ownT (agent target : aref) (m m' : msg) :
    valid_op (OpAsk agent target m) -> valid_aref (ownT, snd target) ->
    valid_op (OpReply (ownT, snd target) agent m') -> valid_aref (ownA, snd agent) ->
    exists e1 e2,
      remote_transport ownT (op_envelope (OpAsk agent target m)) = Some e1 /\
      e_system U e1 = false /\ e_msg U e1 = m /\ e_sender U e1 = RRef (fst agent) (snd agent) /\
      find_mailbox ownT (e_receiver U e1) = ToLocal (snd target) /\
      reply_envelope U (ownT, snd target) e1 m' = op_envelope (OpReply (ownT, snd target) agent m') /\
      remote_transport ownA (reply_envelope U (ownT, snd target) e1 m') = Some e2 /\
      (forall chunks, concat chunks = wire_bytes (reply_envelope U (ownT, snd target) e1 m') -> remote_receive ownA chunks = [Some e2]) /\
      e_system U e2 = false /\ e_msg U e2 = m' /\
      find_mailbox ownA (e_receiver U e2) = ToLocal (snd agent) /\
      forall (X : Type) (table : bytes -> option X) (fut : X),
        table (snd agent) = Some fut ->
        lookup_local table (find_mailbox ownA (e_receiver U e2)) = Some fut.
  Proof.
    intros V1 Ht' V2 Hg'.
    destruct (transparent_exact ownT _ V1 Ht') as [H1 _]. destruct (transparent_exact ownA _ V2 Hg') as [H3 H4].
    eexists. eexists. split; [exact H1|]. rewrite localized_op.
    cbn [Transparency.op_envelope Transparency.mk_env e_system e_msg e_sender e_receiver Transparency.op_sender Transparency.op_receiver snd].
    do 3 (split; [reflexivity|]). split; [apply local_route|]. split; [reflexivity|].
    split; [exact H3|]. split; [exact H4|]. rewrite localized_op.
    cbn [Transparency.op_envelope Transparency.mk_env e_system e_msg e_sender e_receiver Transparency.op_sender Transparency.op_receiver snd].
    do 2 (split; [reflexivity|]). split; [apply local_route|].
    intros X table fut Hf. rewrite local_route. exact Hf.
  Qed.

  Theorem remote_pipe_success own (self forwarder : aref) (id : bytes) (m : msg) (e : perr) :
    valid_op (OpPipeSuccess self forwarder id m e) -> valid_aref (own, snd forwarder) ->
    exists e',
      remote_transport own (op_envelope (OpPipeSuccess self forwarder id m e)) = Some e' /\
      (forall chunks, concat chunks = wire_bytes (op_envelope (OpPipeSuccess self forwarder id m e)) ->
                      remote_receive own chunks = [Some e']) /\
      e_system U e' = false /\ e_msg U e' = M_PipeResult id m e /\
      e_sender U e' = RRef (fst self) (snd self) /\
      find_mailbox own (e_receiver U e') = ToLocal (snd forwarder).
  Proof. intros V Ho. destruct (transparent_exact own _ V Ho) as [H1 H2]. finish H1 H2. Qed.

  Theorem remote_pipe_failure own (self forwarder : aref) (id : bytes) (e : perr) :
    valid_aref self -> valid_aref forwarder -> valid_aref (own, snd forwarder) -> small_aref self -> small_aref forwarder ->
    small id -> ty_perr e -> valid_perr qerr e -> match e with PEVivid _ t => small t | _ => True end ->
    exists e',
      remote_transport own (op_envelope (OpPipeFailure self forwarder id e)) = Some e' /\
      (forall chunks, concat chunks = wire_bytes (op_envelope (OpPipeFailure self forwarder id e)) ->
                      remote_receive own chunks = [Some e']) /\
      e_system U e' = false /\ e_msg U e' = M_PipeResultNil id e /\
      find_mailbox own (e_receiver U e') = ToLocal (snd forwarder).
  Proof.
    intros Hs Hf Ho Ss Sf Sid Te Ve St.
    destruct (transparent_exact own (OpPipeFailure self forwarder id e)) as [H1 H2]; [|exact Ho|].
    { apply small_valid; [assumption|assumption|cbn; auto using small_len32|].
      unfold Transparency.small_op; cbn [Transparency.op_sender Transparency.op_receiver].
      split; [assumption|]. split; [assumption|]. split; [assumption|]. destruct e; auto; contradiction. }
    finish H1 H2.
  Qed.

  Theorem remote_scheduled own (self receiver : aref) (reference : bytes) (m : msg) :
    valid_op (OpScheduled self receiver reference m) -> valid_aref (own, snd receiver) ->
    exists e' seen,
      remote_transport own (op_envelope (OpScheduled self receiver reference m)) = Some e' /\
      (forall chunks, concat chunks = wire_bytes (op_envelope (OpScheduled self receiver reference m)) ->
                      remote_receive own chunks = [Some e']) /\
      e_system U e' = false /\ e_msg U e' = M_Scheduler reference m /\
      find_mailbox own (e_receiver U e') = ToLocal (snd receiver) /\
      on_scheduler U e' = Some seen /\ e_msg U seen = m /\ e_sender U seen = RRef (fst self) (snd self).
  Proof.
    intros V Ho. destruct (transparent_exact own _ V Ho) as [H1 H2].
    eexists. eexists. split; [exact H1|]. split; [exact H2|]. rewrite localized_op. cbn. repeat split. apply local_route.
  Qed.

  Theorem remote_pipe_failure_any_error own (self forwarder : aref) (id : bytes) (e : perr) (c : Z) (t : bytes) :
    valid_aref self -> valid_aref forwarder -> valid_aref (own, snd forwarder) ->
    small_aref self -> small_aref forwarder -> small id ->
    perr_wire e = MOk (c, t) -> in_i32 c -> small t ->
    exists e',
      remote_transport own (op_envelope (OpPipeFailure self forwarder id e)) = Some e' /\
      (forall chunks, concat chunks = wire_bytes (op_envelope (OpPipeFailure self forwarder id e)) ->
                      remote_receive own chunks = [Some e']) /\
      e_system U e' = false /\ e_msg U e' = M_PipeResultNil id (perr_of_wire qerr c t) /\
      e_sender U e' = RRef (fst self) (snd self) /\
      find_mailbox own (e_receiver U e') = ToLocal (snd forwarder).
  Proof.
    intros Hs Hf Ho Ss Sf Sid Hp Hc St.
    set (ev := op_envelope (OpPipeFailure self forwarder id e)).
    assert (Hsm : small_op U (OpPipeFailure self forwarder id e)).
    { unfold Transparency.small_op; cbn [Transparency.op_sender Transparency.op_receiver].
      split; [assumption|]. split; [assumption|]. split; [assumption|].
      destruct e as [|c0 t0|t0|]; cbn [perr_wire] in Hp; try exact I; injection Hp as <- <-; [exact St|].
      unfold small, txt_exception in *. cbn [length app] in St. lia. }
    destruct (builtin_sizes U has_codec cenc _ Hsm) as [Hfit Hfr].
    pose proof (small_len32 _ Sid) as Lid. pose proof (small_len32 _ St) as Lt.
    assert (Hb : enc_body U has_codec cenc (e_msg U ev) = MOk (put_bool false ++ put_lp4 id ++ put_i32 c ++ put_lp4 t)).
    { cbn [ev Transparency.op_envelope Transparency.mk_env e_msg Msgs.enc_body]. rewrite Hp. reflexivity. }
    pose proof (Hfit _ Hb) as Lb.
    destruct (envelope_decode_body U has_codec cenc cdec qerr newref ev K_PipeResult (put_bool false ++ put_lp4 id ++ put_i32 c ++ put_lp4 t)
                (M_PipeResultNil id (perr_of_wire qerr c t)) []) as (w & Hw & Hd);
      try assumption.
    - apply present_valid_ref, (valid_aref_present _ Hs).
    - apply present_valid_ref, (valid_aref_present _ Hf).
    - reflexivity.
    - cbn [Msgs.dec_body fst snd]. rewrite <- (app_nil_r (put_lp4 t)). rt_step. cbv iota. do 4 rt_step. reflexivity.
    - rewrite app_nil_r in Hd. pose proof (decoded_legal ev w _ Hw Hfr Hd) as Hl.
      (* what was decoded is the expected form of [ev] with the error mapped by [perr_of_wire] *)
      destruct (transport_from_parts own ev _ w _ Hw Hl ltac:(unfold Transparency.wire_dec; rewrite Hd; reflexivity)
                  (handle_expected own (mk_env U false self forwarder (M_PipeResultNil id (perr_of_wire qerr c t)))
                     (valid_aref_present _ Hs) (valid_aref_present _ Hf) (valid_aref_present _ Ho))) as [H1 H2].
      eexists. split; [exact H1|]. split; [exact H2|]. cbn. repeat split. apply local_route.
  Qed.

  Theorem absent_sender_dropped own (o : envelope_out U) er :
    o_saddr U o = [] -> o_spath U o = [] -> newref [] [] = MErr er -> handle own o = None.
  Proof. intros Ha Hp Hn. unfold Transparency.handle. rewrite Ha, Hp, Hn. reflexivity. Qed.

  Theorem alias_address_forwarded (local a p : bytes) : a <> local -> find_mailbox local (RRef a p) = ToRemote a.
  Proof. intros H. unfold find_mailbox. rewrite (bytes_eqb_neq _ _ H). reflexivity. Qed.

  Theorem alias_address_delivered own (o : op) :
    valid_op o -> valid_aref (own, snd (op_receiver U o)) -> wire_valid (localized U own (op_envelope o)) ->
    exists e',
      remote_transport own (op_envelope o) = Some e' /\
      remote_transport own (localized U own (op_envelope o)) = Some e' /\
      (forall chunks, concat chunks = wire_bytes (op_envelope o) -> remote_receive own chunks = [Some e']) /\
      find_mailbox own (e_receiver U e') = ToLocal (snd (op_receiver U o)) /\
      forall a, find_mailbox own (e_receiver U e') <> ToRemote a.
  Proof.
    intros HV Ho HL. destruct (transparent_exact own o HV Ho) as (H1 & H2).
    assert (Hr : e_receiver U (localized U own (op_envelope o)) = RRef own (snd (op_receiver U o)))
      by (rewrite localized_op; reflexivity).
    destruct (transport_one own (localized U own (op_envelope o))) as (H3 & _).
    { eapply wire_valid_deliverable; [exact Hr|exact HL]. }
    rewrite (localized_canonical own _ _ Hr) in H3.
    exists (localized U own (op_envelope o)). split; [exact H1|]. split; [exact H3|]. split; [exact H2|].
    rewrite Hr, local_route. split; [reflexivity|]. intros a; discriminate.
  Qed.

  Theorem alias_loop_before_fix own (o : op) :
    valid_op o -> fst (op_receiver U o) <> own ->
    (forall chunks, concat chunks = wire_bytes (op_envelope o) ->
                    remote_receive_before_fix U has_codec cdec qerr newref chunks = [Some (op_envelope o)]) /\
    find_mailbox own (e_receiver U (op_envelope o)) = ToRemote (fst (op_receiver U o)).
  Proof.
    intros HV Hne. split; [|apply routing; exact Hne].
    intros chunks E. unfold Transparency.remote_receive_before_fix.
    pose proof (valid_op_wire_valid o HV) as HW.
    apply (transport_stream_gen (handle_before_fix U newref) (fun e => e) [op_envelope o] chunks).
    - constructor; [exact HW|constructor].
    - constructor; [|constructor]. apply handle_before_fix_expected; apply HW.
    - cbn [map concat]. rewrite app_nil_r. exact E.
  Qed.
End T.

(** Link to the local semantics (Actor/Core.v, the lock-step validated model of internal/actor).

    Core.v is a ONE-system model: a ref is [RObj a] (the ref object owned by context [a], with its mailbox
    cache), [RFresh p] (a parsed / rebuilt ref: path only, no cache) or [RNone]; addresses do not occur.
    An envelope that arrives through HandleRemotingEnvelop carries refs built by NewRef, i.e. [RFresh]
    refs; the envelope a local call enqueues carries the sender's own ref object [RObj b].  What follows
    shows exactly where that difference can and cannot be seen:
      - [deliver] (Enqueue into the looked-up mailbox) and [dispatch] (Context.HandleEnvelop) use the sender
        ref only through [ref_path]; the ref object itself is merely STORED (current envelope, watcher table);
      - the stored ref is used again only by [resolve] (findMailbox, e.g. for Reply and for the OnKilled sent
        to a watcher), where an [RObj] goes through its mailbox cache and an [RFresh] through the registry:
        they agree while the cache is coherent with the registry and differ after the path was released or
        re-registered ([resolve_identity_witness]);
      - [IOnKilled] removes a child entry only for the very ref object of that child ([RObj c] with the
        registered context), never for a rebuilt ref: an OnKilled from another system can never remove a
        local child that happens to have the same path. *)
Module CoreLink.
  Import Vivid.Actor.Core.
  Import CoreView.

  Lemma map_upd {A B} (f : A -> B) (l : list A) i x : map f (upd l i x) = upd (map f l) i (f x).
  Proof. revert i. induction l as [|y l IH]; intros [|i]; cbn; try reflexivity. rewrite IH. reflexivity. Qed.

  Lemma erase_ref_of_path s r1 r2 : ref_path s r1 = ref_path s r2 -> erase_ref s r1 = erase_ref s r2.
  Proof. unfold erase_ref. intros ->. reflexivity. Qed.

  Lemma erase_set_actor s0 s a x : erase_state s0 (set_actor s a x) = set_actor (erase_state s0 s) a (erase_actor s0 x).
  Proof. unfold erase_state, set_actor. cbn. rewrite map_upd. reflexivity. Qed.
  Lemma erase_add_ghost s0 s o : erase_state s0 (add_ghost s o) = add_ghost (erase_state s0 s) o.
  Proof. reflexivity. Qed.
  Lemma erase_set_mb s0 x sq uq pa co cu :
    erase_actor s0 (set_mb x sq uq pa co cu) = set_mb (erase_actor s0 x) sq uq pa co (option_map (erase_env s0) cu).
  Proof. reflexivity. Qed.
  Lemma erase_set_state s0 x st : erase_actor s0 (set_state x st) = set_state (erase_actor s0 x) st.
  Proof. reflexivity. Qed.
  Lemma erase_set_restarting s0 x r : erase_actor s0 (set_restarting x r) = set_restarting (erase_actor s0 x) r.
  Proof. reflexivity. Qed.
  Lemma erase_set_decisions s0 x d : erase_actor s0 (set_decisions x d) = set_decisions (erase_actor s0 x) d.
  Proof. reflexivity. Qed.
  Lemma erase_set_watchers s0 x w :
    erase_actor s0 (set_watchers x w) = set_watchers (erase_actor s0 x) (map (fun pr => (fst pr, erase_ref s0 (snd pr))) w).
  Proof. reflexivity. Qed.
  Lemma erase_env_mk s0 sy r m :
    erase_env s0 {| e_sys := sy; e_sender := r; e_msg := m |} = {| e_sys := sy; e_sender := erase_ref s0 r; e_msg := m |}.
  Proof. reflexivity. Qed.

  (** the outcome of OnPreRestart, which [dispatch] looks up on MRestart, is only logged *)
  Lemma restart_hooks_unused (y : actor) : match a_hooks y with (_, _, _) :: _ => y | [] => y end = y.
  Proof. destruct (a_hooks y) as [|[[? ?] ?] ?]; reflexivity. Qed.

  Theorem dispatch_sender_path_only (s : state) (a : aid) (x : actor) (sy : bool) (r1 r2 : rref) (m : msg) :
    ref_path s r1 = ref_path s r2 ->
    snd (dispatch s a x (mk sy r1 m)) = snd (dispatch s a x (mk sy r2 m)) /\
    erase_state s (fst (dispatch s a x (mk sy r1 m))) = erase_state s (fst (dispatch s a x (mk sy r2 m))).
  Proof.
    intros H. pose proof (erase_ref_of_path s r1 r2 H) as HE.
    unfold dispatch, ref_eq, mk. cbn [e_sys e_msg e_sender]. rewrite !H.
    (* every test [dispatch] makes on the sender is now the same term on both sides: follow the tests at the head
       until both results are pairs; the instruction lists are then equal as they stand *)
    repeat (match goal with |- snd (match ?c with _ => _ end) = _ /\ _ => destruct c end; cbv beta iota).
    all: split; [reflexivity|]; cbn [fst].
    (* the states differ in the stored sender ref only; left unfolded, the updates keep the terms small *)
    all: rewrite ?restart_hooks_unused, ?erase_add_ghost, ?erase_set_actor, ?erase_set_state, ?erase_set_restarting,
           ?erase_set_decisions, ?erase_set_watchers, ?erase_set_mb, ?map_app.
    all: cbn [option_map map fst snd]; rewrite ?erase_env_mk, ?HE; reflexivity.
  Qed.

  Corollary dispatch_remote_like_local (s : state) (a b : aid) (x y : actor) (sy : bool) (m : msg) :
    get s b = Some y ->
    snd (dispatch s a x (mk sy (RObj b) m)) = snd (dispatch s a x (mk sy (RFresh (a_path y)) m)) /\
    erase_state s (fst (dispatch s a x (mk sy (RObj b) m))) = erase_state s (fst (dispatch s a x (mk sy (RFresh (a_path y)) m))).
  Proof. intros Hg. apply dispatch_sender_path_only. cbn [ref_path]. rewrite Hg. reflexivity. Qed.

  Theorem deliver_sender_irrelevant (s : state) (mb : mbox) (sy : bool) (r1 r2 : rref) (m : msg) :
    snd (deliver s mb (mk sy r1 m)) = snd (deliver s mb (mk sy r2 m)) /\
    (mb = MbDead -> fst (deliver s mb (mk sy r1 m)) = fst (deliver s mb (mk sy r2 m))) /\
    (forall r, fst (deliver s mb (mk sy r m)) =
               push_mb s (snd (deliver s mb (mk sy r m)))
                 (match mb with
                  | MbDead => {| e_sys := false; e_sender := root_ref; e_msg := MDeadLetter sy m |}
                  | _ => mk sy r m
                  end)).
  Proof. destruct mb; (split; [reflexivity|split; [intros E; try discriminate E; reflexivity|intros r; reflexivity]]). Qed.

  Theorem resolve_obj_fresh_agree (s : state) (a : aid) (x : actor) :
    get s a = Some x ->
    (forall y, a_cache x = Some y -> alookup (reg s) (a_path x) = Some y) ->
    fst (resolve s (RObj a)) = fst (resolve s (RFresh (a_path x))).
  Proof.
    intros Hg Hc. unfold resolve. rewrite Hg. destruct (a_cache x) as [y|] eqn:E.
    - rewrite (Hc y eq_refl). reflexivity.
    - destruct (alookup (reg s) (a_path x)); [reflexivity|]. destruct (path_eqb (a_path x) []); reflexivity.
  Qed.

  Theorem resolve_identity_witness :
    get reuse_state 1 = Some old_ctx /\
    fst (resolve reuse_state (RObj 1)) = MbActor 1 /\
    fst (resolve reuse_state (RFresh (a_path old_ctx))) = MbActor 2.
  Proof. repeat split. Qed.

  Theorem onkilled_fresh_keeps_children (s : state) (t : tid) (held : list aid) (x : actor) (p : path) :
    get s (self_of t) = Some x -> a_zombie x = false -> ref_eq s (RFresh p) (RObj (self_of t)) = false ->
    exec1 s t held (IOnKilled (RFresh p)) =
    (set_actor s (self_of t) x, [IBeh (MKilled (RFresh p)) (sp_killed (a_spec x)) (RecKilled (RFresh p)); ICheckMark]).
  Proof. intros Hg Hz He. unfold exec1. rewrite Hg. cbv zeta. rewrite Hz, He. reflexivity. Qed.
End CoreLink.
