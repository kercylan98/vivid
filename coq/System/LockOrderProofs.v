(** Proofs about the lock view of Start / Stop / ActorOf (System/LockOrder.v) for C07: for EVERY population of
    programs that respect the lock hierarchy and EVERY interleaving — mutual exclusion, acyclicity of the
    wait-for relation, and deadlock freedom; the programs of system.go respect the hierarchy; the seeded
    lock-order inversion does not and deadlocks. *)
From Coq Require Import List NArith Bool Lia Arith.
From Coq Require Import ZifyN ZifyNat ZifyBool.
From Vivid Require Import System.LockOrder.
Import ListNotations.
Local Open Scope N_scope.

Lemma nth_error_upd_eq {A} (l : list A) i x : (i < length l)%nat -> nth_error (upd l i x) i = Some x.
Proof. revert i. induction l; intros [|i] H; cbn in *; try lia; auto. apply IHl. lia. Qed.

Lemma nth_error_upd_neq {A} (l : list A) i j x : i <> j -> nth_error (upd l i x) j = nth_error l j.
Proof. revert i j. induction l; intros [|i] [|j] H; cbn; auto; try congruence. Qed.

Lemma nth_error_lt {A} (l : list A) i x : nth_error l i = Some x -> (i < length l)%nat.
Proof. intros H. apply nth_error_Some. congruence. Qed.

Lemma nth_upd_cases {A} (l : list A) i x j q :
  (i < length l)%nat ->
  nth_error (upd l i x) j = Some q -> (j = i /\ q = x) \/ (j <> i /\ nth_error l j = Some q).
Proof.
  intros Hi H. destruct (Nat.eq_dec j i) as [->|Hn].
  - rewrite nth_error_upd_eq in H by auto. left. split; congruence.
  - rewrite nth_error_upd_neq in H by auto. right. auto.
Qed.

Lemma exists_max (l : list N) : l <> [] -> exists m, In m l /\ forall x, In x l -> x <= m.
Proof.
  induction l as [|a l IH]; [congruence|]. intros _. destruct l as [|b l].
  - exists a. split; [left; reflexivity|]. intros x [->|[]]. lia.
  - destruct IH as [m [Hin Hmax]]; [discriminate|].
    destruct (N.leb_spec a m).
    + exists m. split; [right; exact Hin|]. intros x [->|Hx]; [lia|auto].
    + exists a. split; [left; reflexivity|]. intros x [->|Hx]; [lia|]. specialize (Hmax x Hx). lia.
Qed.

Lemma forallb_false_exists {A} (f : A -> bool) (l : list A) :
  forallb f l = false -> exists x, In x l /\ f x = false.
Proof.
  induction l as [|a l IH]; cbn; [discriminate|]. destruct (f a) eqn:E; cbn.
  - intros H. destruct (IH H) as [x [Hx Hf]]. exists x. auto.
  - intros _. exists a. auto.
Qed.

Lemma holds_In t l : holds t l = true <-> In l (held t).
Proof.
  unfold holds. rewrite existsb_exists. split.
  - intros [x [Hx He]]. apply N.eqb_eq in He. subst. exact Hx.
  - intros H. exists l. split; [exact H|apply N.eqb_refl].
Qed.

Lemma In_remove1 l h x : In x (remove1 l h) -> In x h.
Proof.
  induction h as [|a h IH]; cbn; [tauto|]. destruct (N.eqb a l); cbn; [auto|]. intros [->|H]; auto.
Qed.

Lemma free_spec ts l : free ts l = true <-> forall t, In t ts -> holds t l = false.
Proof.
  unfold free. rewrite forallb_forall. split; intros H t Ht; specialize (H t Ht).
  - now apply negb_true_iff in H.
  - now apply negb_true_iff.
Qed.

Lemma step_thread_cases env ts t t' :
  step_thread env ts t = Some t' ->
  (exists l r, todo t = Acq l :: r /\ env = false /\ free ts l = true /\ t' = {| held := l :: held t; todo := r |}) \/
  (exists l r, todo t = Rel l :: r /\ env = false /\ t' = {| held := remove1 l (held t); todo := r |}) \/
  (exists r, todo t = Wait :: r /\ env = true /\ t' = {| held := held t; todo := r |}) \/
  (exists r, todo t = Work :: r /\ env = false /\ t' = {| held := held t; todo := r |}).
Proof.
  unfold step_thread. destruct (todo t) as [|[l|l| |] r]; [discriminate| | | |].
  - destruct env; cbn; [discriminate|]. destruct (free ts l) eqn:F; [|discriminate].
    intros H. injection H as <-. left. exists l, r. auto.
  - destruct env; [discriminate|]. intros H. injection H as <-. right. left. exists l, r. auto.
  - destruct env; [|discriminate]. intros H. injection H as <-. right. right. left. exists r. auto.
  - destruct env; [discriminate|]. intros H. injection H as <-. right. right. right. exists r. auto.
Qed.

Definition inv (s : list thread) : Prop :=
  (forall i t, nth_error s i = Some t -> ordered (held t) (todo t) = true) /\
  (forall i j ti tj l, nth_error s i = Some ti -> nth_error s j = Some tj ->
                       holds ti l = true -> holds tj l = true -> i = j).

Lemma inv_upd env s i t t' :
  inv s -> nth_error s i = Some t -> step_thread env s t = Some t' -> inv (upd s i t').
Proof.
  intros [Ho Hm] Hi Hs. pose proof (nth_error_lt _ _ _ Hi) as Hlt.
  pose proof (Ho i t Hi) as Hot.
  assert (Hnew : ordered (held t') (todo t') = true /\
                 forall x, holds t' x = true -> holds t x = true \/ (forall u, In u s -> holds u x = false)).
  { apply step_thread_cases in Hs.
    destruct Hs as [[l [r [Ht [_ [Hf ->]]]]]|[[l [r [Ht [_ ->]]]]|[[r [Ht [_ ->]]]|[r [Ht [_ ->]]]]]];
      rewrite Ht in Hot; cbn [ordered held todo] in *.
    - apply andb_true_iff in Hot. split; [tauto|]. intros x [<-|Hx]%holds_In; [right; apply free_spec, Hf|left; apply holds_In, Hx].
    - apply andb_true_iff in Hot. split; [tauto|]. intros x Hx%holds_In%In_remove1. left. apply holds_In, Hx.
    - split; [destruct (held t); [exact Hot|discriminate]|auto].
    - auto. }
  destruct Hnew as [Hot' Hheld]. split.
  - intros k q Hk. apply nth_upd_cases in Hk; [|exact Hlt]. destruct Hk as [[-> ->]|[_ Hk]]; eauto.
  - intros a b ta tb l Ha Hb Hla Hlb.
    apply nth_upd_cases in Ha; [|exact Hlt]. apply nth_upd_cases in Hb; [|exact Hlt].
    destruct Ha as [[-> ->]|[Hna Ha]], Hb as [[-> ->]|[Hnb Hb]]; auto.
    + destruct (Hheld l Hla) as [H|H]; [eapply Hm; eauto|].
      rewrite (H tb) in Hlb; [discriminate|]. eapply nth_error_In; eauto.
    + destruct (Hheld l Hlb) as [H|H]; [eapply Hm; eauto|].
      rewrite (H ta) in Hla; [discriminate|]. eapply nth_error_In; eauto.
    + eapply Hm; eauto.
Qed.

Lemma inv_step e s s' : inv s -> step e s = Some s' -> inv s'.
Proof.
  intros Hi. destruct e as [i|i]; cbn; destruct (nth_error s i) as [t|] eqn:Hn; try discriminate;
    match goal with |- context [step_thread ?b s t] => destruct (step_thread b s t) as [t'|] eqn:Hs end;
    try discriminate; intros H; injection H as <-; eapply inv_upd; eauto.
Qed.

Lemma inv_run evs s : inv s -> inv (run evs s).
Proof.
  revert s. induction evs as [|e evs IH]; intros s H; cbn; [exact H|]. apply IH.
  unfold step_or_stay. destruct (step e s) eqn:E; [eapply inv_step; eauto|exact H].
Qed.

Lemma inv_init progs : forallb (ordered []) progs = true -> inv (init progs).
Proof.
  intros H. unfold init. split.
  - intros i t Hn. rewrite nth_error_map in Hn. destruct (nth_error progs i) as [p|] eqn:E; [|discriminate].
    injection Hn as <-. cbn. rewrite forallb_forall in H. apply H. eapply nth_error_In; eauto.
  - intros i j ti tj l Hi _ Hl _. rewrite nth_error_map in Hi. destruct (nth_error progs i); [|discriminate].
    injection Hi as <-. discriminate.
Qed.

Lemma reachable_inv progs s : forallb (ordered []) progs = true -> reachable progs s -> inv s.
Proof. intros H [evs <-]. apply inv_run. apply inv_init. exact H. Qed.

Theorem lo_mutex progs s i j ti tj l :
  forallb (ordered []) progs = true -> reachable progs s ->
  nth_error s i = Some ti -> nth_error s j = Some tj -> holds ti l = true -> holds tj l = true -> i = j.
Proof. intros H Hr. destruct (reachable_inv _ _ H Hr) as [_ Hm]. apply Hm. Qed.

(** a thread standing in front of [Acq l'] holds only locks of strictly lower rank: along "waits for the holder
    of" the rank of the wanted lock strictly increases, so the wait-for relation has no cycle *)
Theorem lo_acyclic progs s i t l' r l :
  forallb (ordered []) progs = true -> reachable progs s ->
  nth_error s i = Some t -> todo t = Acq l' :: r -> holds t l = true -> l < l'.
Proof.
  intros H Hr Hn Ht Hl. destruct (reachable_inv _ _ H Hr) as [Ho _]. specialize (Ho i t Hn).
  rewrite Ht in Ho. cbn [ordered] in Ho. apply andb_true_iff in Ho. destruct Ho as [Ho _].
  rewrite forallb_forall in Ho. apply holds_In in Hl. specialize (Ho l Hl). lia.
Qed.

Theorem lo_wait_holds_nothing progs s i t :
  forallb (ordered []) progs = true -> reachable progs s ->
  nth_error s i = Some t -> wants_cpu t = false -> held t = [].
Proof.
  intros H Hr Hn Hw. destruct (reachable_inv _ _ H Hr) as [Ho _]. specialize (Ho i t Hn).
  unfold wants_cpu in Hw. destruct (todo t) as [|[l|l| |] r]; try discriminate; cbn [ordered] in Ho;
    destruct (held t); auto; discriminate.
Qed.

Theorem lo_lowest_waiter_holds_nothing progs s i t r :
  forallb (ordered []) progs = true -> reachable progs s ->
  nth_error s i = Some t -> todo t = Acq 0 :: r -> held t = [].
Proof.
  intros H Hr Hn Ht. destruct (held t) as [|l h] eqn:Hh; [reflexivity|exfalso].
  assert (Hl : holds t l = true) by (apply holds_In; rewrite Hh; left; reflexivity).
  pose proof (lo_acyclic progs s i t 0 r l H Hr Hn Ht Hl). lia.
Qed.

Definition wanted (t : thread) : list N := match todo t with Acq l :: _ => [l] | _ => [] end.

Lemma progress_inv s : inv s -> existsb wants_cpu s = true -> existsb (enabled s) s = true.
Proof.
  intros [Ho Hm] Hw. destruct (existsb (enabled s) s) eqn:E; [reflexivity|exfalso].
  assert (Hall : forall t, In t s -> enabled s t = false).
  { intros t Ht. destruct (enabled s t) eqn:Et; [|reflexivity].
    assert (existsb (enabled s) s = true) by (apply existsb_exists; eauto). congruence. }
  assert (HoIn : forall t, In t s -> ordered (held t) (todo t) = true).
  { intros t Ht. destruct (In_nth_error _ _ Ht) as [i Hi]. eauto. }
  apply existsb_exists in Hw. destruct Hw as [t0 [Hin0 Hw0]].
  assert (HW : flat_map wanted s <> []).
  { pose proof (Hall t0 Hin0) as He. unfold wants_cpu in Hw0. unfold enabled in He.
    destruct (todo t0) as [|[l|l| |] r] eqn:Ht0; try discriminate.
    intros Hnil. assert (In l (flat_map wanted s)).
    { apply in_flat_map. exists t0. split; [exact Hin0|]. unfold wanted. rewrite Ht0. left. reflexivity. }
    rewrite Hnil in H. contradiction. }
  destruct (exists_max _ HW) as [m [Hmin Hmax]].
  apply in_flat_map in Hmin. destruct Hmin as [t [Hint Hwt]].
  unfold wanted in Hwt. destruct (todo t) as [|[l|l| |] r] eqn:Ht; try contradiction.
  destruct Hwt as [->|[]].
  pose proof (Hall t Hint) as He. unfold enabled in He. rewrite Ht in He.
  unfold free in He. apply forallb_false_exists in He. destruct He as [t' [Hin' Hh']].
  apply negb_false_iff in Hh'.
  pose proof (HoIn t' Hin') as Ho'. pose proof (Hall t' Hin') as He'. unfold enabled in He'.
  apply holds_In in Hh'.
  destruct (todo t') as [|[l'|l'| |] r'] eqn:Ht'; cbn [ordered] in Ho'; try discriminate.
  - destruct (held t'); [contradiction|discriminate].
  - apply andb_true_iff in Ho'. destruct Ho' as [Ho' _]. rewrite forallb_forall in Ho'.
    specialize (Ho' m Hh').
    assert (In l' (flat_map wanted s)).
    { apply in_flat_map. exists t'. split; [exact Hin'|]. unfold wanted. rewrite Ht'. left. reflexivity. }
    specialize (Hmax l' H). lia.
  - destruct (held t'); [contradiction|discriminate].
Qed.

Lemma enabled_step s i t :
  nth_error s i = Some t -> enabled s t = true -> exists s', step (EStep i) s = Some s'.
Proof.
  intros Hn He. cbn. rewrite Hn. unfold enabled in He. unfold step_thread.
  destruct (todo t) as [|[l|l| |] r]; try discriminate; cbn; try rewrite He; eauto.
Qed.

Theorem lo_progress progs s :
  forallb (ordered []) progs = true -> reachable progs s ->
  (exists i t, nth_error s i = Some t /\ wants_cpu t = true) ->
  exists j s', step (EStep j) s = Some s'.
Proof.
  intros H Hr [i [t [Hn Hw]]]. pose proof (reachable_inv _ _ H Hr) as Hi.
  assert (existsb wants_cpu s = true) by (apply existsb_exists; exists t; split; [eapply nth_error_In; eauto|exact Hw]).
  pose proof (progress_inv s Hi H0) as He. apply existsb_exists in He. destruct He as [u [Hu He]].
  destruct (In_nth_error _ _ Hu) as [j Hj]. exists j. eapply enabled_step; eauto.
Qed.

Lemma chain_ordered k rest :
  ordered [statusLock] (chain k ++ rest) = ordered [statusLock] rest.
Proof. induction k as [|k IH]; [reflexivity|]. cbn [chain app]. rewrite <- IH. reflexivity. Qed.

Lemma stop_prog_ordered e c : ordered [] (stop_prog e c) = true.
Proof. destruct e, c; reflexivity. Qed.

Theorem prog_ordered sh : ordered [] (prog_of sh) = true.
Proof.
  destruct sh as [|k|k e c|e c|e c| |]; try reflexivity.
  - change (ordered [statusLock] (chain k ++ [Rel statusLock; Work]) = true). rewrite chain_ordered. reflexivity.
  - change (ordered [statusLock] (chain k ++ [Rel statusLock] ++ stop_prog e c) = true). rewrite chain_ordered.
    change (ordered [] (stop_prog e c) = true). apply stop_prog_ordered.
  - apply stop_prog_ordered.
  - change (ordered [] (stop_prog e c) = true). apply stop_prog_ordered.
Qed.

Lemma progs_ordered shapes : forallb (ordered []) (map prog_of shapes) = true.
Proof. apply forallb_forall. intros p Hp. apply in_map_iff in Hp. destruct Hp as [sh [<- _]]. apply prog_ordered. Qed.

Definition mutant_progs : list (list op) := [prog_of (ShStart 1); stop_mutant].
Definition mutant_schedule : list ev := [EStep 0; EStep 1; EStep 0; EStep 0].
Definition mutant_dead : list thread := run mutant_schedule (init mutant_progs).

Lemma mutant_not_ordered : ordered [] stop_mutant = false.
Proof. reflexivity. Qed.

Lemma mutant_deadlock :
  reachable mutant_progs mutant_dead /\
  (forall t, In t mutant_dead -> wants_cpu t = true) /\
  (forall e, step e mutant_dead = None) /\
  (exists t0 t1 r0 r1,
      nth_error mutant_dead 0 = Some t0 /\ nth_error mutant_dead 1 = Some t1 /\
      held t0 = [statusLock] /\ todo t0 = Acq actorOfLock :: r0 /\
      held t1 = [actorOfLock] /\ todo t1 = Acq statusLock :: r1).
Proof.
  split; [exists mutant_schedule; reflexivity|]. split; [|split].
  - intros t [<-|[<-|[]]]; reflexivity.
  - intros [[|[|i]]|[|[|i]]]; try reflexivity; cbn; destruct i; reflexivity.
  - do 4 eexists. repeat split; reflexivity.
Qed.

(** Start (metrics: one chain ActorOf) holds statusLock and stands in front of actorOfLock, which an external
    System.ActorOf caller holds; a Stop stands in front of statusLock: three threads want to run, the state is
    reachable, and the ActorOf caller can go on *)
Definition ex_shapes : list shape := [ShStart 1; ShActorOf; ShStop true false].
Definition ex_state : list thread := run [EStep 0; EStep 0; EStep 0; EStep 1] (init (map prog_of ex_shapes)).

Lemma ex_state_facts :
  reachable (map prog_of ex_shapes) ex_state /\
  (exists t0 r0, nth_error ex_state 0 = Some t0 /\ held t0 = [statusLock] /\ todo t0 = Acq actorOfLock :: r0) /\
  step (EStep 0) ex_state = None /\ step (EStep 2) ex_state = None /\
  exists s', step (EStep 1) ex_state = Some s'.
Proof.
  split; [eexists; reflexivity|]. split; [do 2 eexists; repeat split; reflexivity|].
  split; [reflexivity|]. split; [reflexivity|]. eexists. reflexivity.
Qed.
