(** Proofs about the Start/Stop micro-step model (System/Lifecycle.v) for C07: inductive invariants over all thread
    populations and all event sequences. *)
From Coq Require Import List NArith Bool Lia Arith.
From Coq Require Import ZifyN ZifyNat.
From Vivid Require Import System.Lifecycle.
Import ListNotations.
Local Open Scope N_scope.

Lemma nth_error_upd_eq {A} (l : list A) i x : (i < length l)%nat -> nth_error (upd l i x) i = Some x.
Proof. revert i. induction l; intros [|i] H; cbn in *; try lia; auto. apply IHl. lia. Qed.

Lemma nth_error_upd_neq {A} (l : list A) i j x : i <> j -> nth_error (upd l i x) j = nth_error l j.
Proof. revert i j. induction l; intros [|i] [|j] H; cbn; auto; try congruence. Qed.

Lemma length_upd {A} (l : list A) i x : length (upd l i x) = length l.
Proof. revert i. induction l; intros [|i]; cbn; auto. Qed.

Lemma nth_error_lt {A} (l : list A) i x : nth_error l i = Some x -> (i < length l)%nat.
Proof. intros H. apply nth_error_Some. congruence. Qed.

Definition st_rank (x : stat) : nat := match x with Ready => 0 | Started => 1 | Stopped => 2 end.

Lemma status_after_cons_le l e :
  let rk := fun s => match s with Ready => 0%nat | Started => 1%nat | Stopped => 2%nat end in
  (rk (status_after l) <= rk (status_after (e :: l)))%nat.
Proof. destruct e as [[a b] c]. cbn. destruct (status_after l), b; cbn; lia. Qed.

Lemma after_entry l j b st : lin_wf l -> In (j, b, st) l -> (st_rank (next_status st b) <= st_rank (status_after l))%nat.
Proof.
  induction l as [|[[a k] seen] l IH]; [intros _ []|]. intros [Hs W] [E|Hin].
  - injection E as -> -> ->. subst st. apply le_n.
  - etransitivity; [apply IH; assumption|apply (status_after_cons_le l (a, k, seen))].
Qed.

Lemma after_start_entry l j st : lin_wf l -> In (j, true, st) l -> status_after l <> Ready.
Proof. intros W H E. pose proof (after_entry _ _ _ _ W H) as A. rewrite E in A. destruct st; cbn in A; lia. Qed.

Lemma after_stop_entry l j st : lin_wf l -> In (j, false, st) l -> st <> Ready -> status_after l = Stopped.
Proof.
  intros W H N. pose proof (after_entry _ _ _ _ W H) as A.
  destruct st; [congruence| |]; destruct (status_after l); cbn in A; (reflexivity || lia).
Qed.

(** an entry that moved the status is the only one of its kind: at most one Start sees Ready, at most one stop sees
    Started *)
Lemma entry_unique l i j b st : lin_wf l -> In (i, b, st) l -> In (j, b, st) l -> next_status st b <> st -> i = j.
Proof.
  intros W Hi Hj N.
  assert (Old : forall l' x y seen, lin_wf ((x, b, seen) :: l') -> seen = st -> In (y, b, st) l' -> False).
  { intros l' x y seen [Hs W'] -> Hy. pose proof (after_entry _ _ _ _ W' Hy) as A. rewrite <- Hs in A.
    destruct st, b; cbn in A, N; (lia || congruence). }
  induction l as [|[[a k] seen] l IH]; [destruct Hi|]. destruct Hi as [E|Hi], Hj as [E'|Hj].
  - congruence.
  - injection E as -> -> ->. destruct (Old _ _ _ _ W eq_refl Hj).
  - injection E' as -> -> ->. destruct (Old _ _ _ _ W eq_refl Hi).
  - apply IH; [apply W|assumption|assumption].
Qed.

Lemma eff_exists l : lin_wf l -> status_after l = Stopped -> exists j, In (j, false, Started) l.
Proof.
  induction l as [|[[a b] c0] l IH]; cbn; [discriminate|]. intros [Hs Hw] H.
  destruct (status_after l) eqn:E.
  - destruct b; discriminate.
  - destruct b; [discriminate|]. subst. exists a. auto.
  - destruct (IH Hw eq_refl) as (j & Hj). eauto.
Qed.
(** [claims p]: the log entries (is-start, status seen) that a thread standing at [p] owns in [lin s] under its own index
    ([claim_ok]); [seen_*] recover the status its critical section read from the result it carries. Two threads whose pcs claim
    the same status-moving entry are one thread ([entry_unique] via [claim_unique]): hence one Start gets through, one stop kills *)
Definition seen_start (r : res) : option stat :=
  match r with RNil => Some Ready | RAlreadyStarted => Some Started | RAlreadyStopped => Some Stopped | _ => None end.
Definition seen_check (r : res) : option stat :=
  match r with RNil => Some Started | RAlreadyStopped => Some Stopped | RNotStarted => Some Ready | _ => None end.
Definition seen_stop (r : res) : option stat :=
  match r with RNil | RStopFailed => Some Started | RAlreadyStopped => Some Stopped | RNotStarted => Some Ready | _ => None end.
Definition wclaim (w : who) : list (bool * stat) := match w with ByStart => [(true, Ready)] | _ => [] end.

Definition claims (p : pc) : option (list (bool * stat)) :=
  match p with
  | SUnlock r => option_map (fun st => [(true, st)]) (seen_start r)
  | SSpawnRoot | SChain | SUnlockFail | SGo => Some [(true, Ready)]
  | TLock w _ | TCheck w _ => Some (wclaim w)
  | TUnlock w _ r => option_map (fun st => (false, st) :: wclaim w) (seen_check r)
  | TReadCluster w _ | TLeaveReq w _ | TLeaveWait w _ | TReadCtx w _ | TKill w _ | TCancel w _ | TSelect w _ | TSchedStop w =>
      Some ((false, Started) :: wclaim w)
  | Done KStart (RStartFailed inner) => option_map (fun st => [(true, Ready); (false, st)]) (seen_stop inner)
  | Done KStart r => option_map (fun st => [(true, st)]) (seen_start r)
  | Done KStop r | Done KGuard r => option_map (fun st => [(false, st)]) (seen_stop r)
  | _ => Some []
  end.

Definition claim_ok (l : list (nat * bool * stat)) (j : nat) (p : pc) : Prop :=
  exists cl, claims p = Some cl /\ forall b st, In (b, st) cl -> In (j, b, st) l.

(** pcs of the one Start that got through, before its `go` statement *)
Definition pre_go (p : pc) : bool := match p with SSpawnRoot | SChain | SUnlock RNil | SGo => true | _ => false end.
(** pcs of that Start after system.Context was assigned (Start's failure path is not included: the
    assignment itself may have failed) *)
Definition past_root (p : pc) : bool :=
  match p with
  | SChain | SUnlock RNil | SGo | Done KStart RNil => true
  | _ => false
  end.
(** the Start that got through, before it has assigned s.clusterContext *)
Definition pre_cluster (p : pc) : bool := match p with SSpawnRoot | SChain => true | _ => false end.
(** the effective stop before it issued Kill(root) *)
Definition pre_kill (p : pc) : bool :=
  match p with
  | TUnlock _ _ RNil | TReadCluster _ _ | TLeaveReq _ _ | TLeaveWait _ _ | TReadCtx _ _ | TKill _ _ => true
  | _ => false
  end.
(** pcs of a stop that has executed s.cancel() and may have taken the timeout arm *)
Definition post_cancel (p : pc) : bool :=
  match p with
  | TSelect _ _ | Done _ RStopFailed | Done KStart (RStartFailed RStopFailed) => true
  | _ => false
  end.

(** Start's failure path: the chain failed (root creation or later), Start unlocks and runs s.Stop itself *)
Definition failing (p : pc) : bool :=
  match p with
  | SUnlockFail
  | TLock ByStart _ | TCheck ByStart _ | TUnlock ByStart _ _ | TReadCluster ByStart _ | TLeaveReq ByStart _ | TLeaveWait ByStart _
  | TReadCtx ByStart _ | TKill ByStart _ | TCancel ByStart _ | TSelect ByStart _ | TSchedStop ByStart | Done KStart (RStartFailed _) => true
  | _ => false
  end.
(** the Start that got through, still inside its critical section *)
Definition start_hold (p : pc) : bool :=
  match p with SSpawnRoot | SChain | SUnlock RNil | SUnlockFail => true | _ => false end.

(** what a stop that went past its select, or found no root to kill, leaves behind *)
Definition effect (s : st) : Prop :=
  skipped s = true \/ (1 <= kills s /\ guardClosed s = true /\ ctxDone s = true /\ hasCtx s = true).

(** a stop() that returned nil: Stop() = nil, the guard's stop(false) = nil, Start = start-failed(nil) *)
Definition stop_nil (k : kind) (r : res) : bool :=
  match k, r with
  | KStop, RNil | KGuard, RNil | KStart, RStartFailed RNil => true
  | _, _ => false
  end.

(** what a thread standing at p knows about the monotone part of the shared state *)
Definition pc_facts (s : st) (p : pc) : Prop :=
  match p with
  | TLeaveWait _ _ => leaveReq s = true
  | TKill _ _ => hasCtx s = true
  | TCancel _ _ => 1 <= kills s /\ hasCtx s = true
  | TSelect _ _ => 1 <= kills s /\ ctxDone s = true /\ hasCtx s = true
  | TSchedStop _ => effect s
  | TUnlock ByGuard _ r => r <> RNotStarted
  | Spawned k => env_pc k = true \/ k = GWait
  | Done k r =>
      (k = KGuard -> r <> RNotStarted) /\ (stop_nil k r = true -> schedStopped s = true /\ effect s) /\
      (post_cancel p = true -> ctxDone s = true)
  | _ => True
  end.

Definition tfacts (s : st) (j : nat) (p : pc) : Prop :=
  claim_ok (lin s) j p /\
  (guard_pc p = true -> status s <> Ready /\ spawned s = 1) /\
  (past_root p = true -> hasCtx s = true) /\
  pc_facts s p.

Definition holder_at (l : list pc) (j : nat) : bool := match nth_error l j with Some p => holder_pc p | None => false end.

Record phase (s : st) : Prop := {
  p_kills : kills s <= 1;
  p_spawned : spawned s <= 1;
  p_ready : status s = Ready -> hasCtx s = false;
  p_noroot : hasCtx s = false -> kills s = 0 /\ spawned s = 0 /\ clusterCtx s = false;
  p_running : status s <> Stopped -> kills s = 0;
  p_skipped : skipped s = true -> hasCtx s = false /\ status s = Stopped;
}.

(** what holds of the shared state while a thread stands in one of these classes of pcs: only a step of a thread inside
    the class - for [w_hold]: of the lock holder - changes it, and at most one thread is inside *)
Record window (s : st) (p : pc) : Prop := {
  w_kill : pre_kill p = true -> kills s = 0;
  w_go : pre_go p = true -> spawned s = 0;
  w_hold : start_hold p = true -> status s = Started;
  w_cluster : pre_cluster p = true -> clusterCtx s = false;
}.

Record inv (n : nat) (s : st) : Prop := {
  i_lock : forall j, lock s = Some j <-> holder_at (thr s) j = true;
  i_wf : lin_wf (lin s);
  i_status : status s = status_after (lin s);
  i_facts : forall j p, nth_error (thr s) j = Some p -> tfacts s j p;
  i_window : forall j p, nth_error (thr s) j = Some p -> window s p;
  i_created : forall j p, nth_error (thr s) j = Some p -> (n <= j)%nat -> guard_pc p = true;
  i_len : length (thr s) = (n + N.to_nat (spawned s))%nat;
  i_phase : phase s;
  i_root : status s <> Ready -> hasCtx s = false ->
           exists i p, nth_error (thr s) i = Some p /\ (p = SSpawnRoot \/ failing p = true);
}.

Record mono (s s' : st) : Prop := {
  m_lin : forall e, In e (lin s) -> In e (lin s');
  m_status : status s <> Ready -> status s' <> Ready;
  m_hasCtx : hasCtx s = true -> hasCtx s' = true;
  m_ctxDone : ctxDone s = true -> ctxDone s' = true;
  m_kills : kills s <= kills s';
  m_guardClosed : guardClosed s = true -> guardClosed s' = true;
  m_leaveReq : leaveReq s = true -> leaveReq s' = true;
  m_leaveDone : leaveDone s = true -> leaveDone s' = true;
  m_sched : schedStopped s = true -> schedStopped s' = true;
  m_skipped : skipped s = true -> skipped s' = true;
  m_spawned : spawned s <= spawned s';
}.

Lemma mono_refl s : mono s s.
Proof. constructor; auto; lia. Qed.

Lemma tfacts_mono s s' j p : mono s s' -> spawned s' <= 1 -> tfacts s j p -> tfacts s' j p.
Proof.
  intros [M1 M2 M3 M4 M5 M6 M7 M8 M9 M10 M11] Hsp ((cl & Hc & Hin) & Hg & Hr & Hx).
  assert (K : 1 <= kills s -> 1 <= kills s') by lia.
  assert (E : effect s -> effect s') by (intros [A|(A & B & C & D)]; [left|right]; auto).
  split; [exists cl; auto|]. split; [intros G; destruct (Hg G); split; [auto|lia]|]. split; [auto|].
  destruct p; try exact Hx; cbn in Hx |- *; auto.
  - destruct Hx; auto.
  - destruct Hx as (A & B & C); auto.
  - destruct Hx as (A & B & C). split; [exact A|]. split; [|auto]. intros H. destruct (B H). auto.
Qed.

(** one step of thread i standing at p, as a relation: the shared state becomes m, the thread goes to p' *)
Inductive tstep (c : cfg) (i : nat) (s : st) : pc -> st -> pc -> Prop :=
| t_spawned k : tstep c i s (Spawned k) s k
| t_slock : lock s = None -> tstep c i s SLock (set_lock s (Some i)) SCheck
| t_scheck : tstep c i s SCheck (set_check s i true (next_status (status s) true))
    (match status s with Ready => SSpawnRoot | Started => SUnlock RAlreadyStarted | Stopped => SUnlock RAlreadyStopped end)
| t_root : tstep c i s SSpawnRoot (set_hasCtx s) SChain
| t_root_fails : tstep c i s SSpawnRoot s SUnlockFail
| t_chain : tstep c i s SChain (set_clusterCtx s (cfg_cluster c)) (SUnlock RNil)
| t_chain_fails : tstep c i s SChain s SUnlockFail
| t_chain_fails_late : tstep c i s SChain (set_clusterCtx s (cfg_cluster c)) SUnlockFail
| t_sunlock r : tstep c i s (SUnlock r) (set_lock s None) (match r with RNil => SGo | _ => Done KStart r end)
| t_sunlock_fail : tstep c i s SUnlockFail (set_lock s None) (TLock ByStart None)
| t_go : tstep c i s SGo (set_spawned s) (Done KStart RNil)
| t_tlock w d : lock s = None -> tstep c i s (TLock w d) (set_lock s (Some i)) (TCheck w d)
| t_tcheck w d : tstep c i s (TCheck w d) (set_check s i false (next_status (status s) false))
    (TUnlock w d (match status s with Ready => RNotStarted | Started => RNil | Stopped => RAlreadyStopped end))
| t_tunlock w d r : tstep c i s (TUnlock w d r) (set_lock s None) (match r with RNil => TReadCluster w d | _ => finish w r end)
| t_read_cluster w d : tstep c i s (TReadCluster w d) s (if clusterCtx s then TLeaveReq w d else TReadCtx w d)
| t_leave_req w d : tstep c i s (TLeaveReq w d) (set_leaveReq s) (TLeaveWait w d)
| t_leave_wait w d : leaveDone s = true -> tstep c i s (TLeaveWait w d) s (TReadCtx w d)
| t_read_ctx w d : hasCtx s = true -> tstep c i s (TReadCtx w d) s (TKill w d)
| t_read_ctx_nil w d : hasCtx s = false -> tstep c i s (TReadCtx w d) (set_skipped s) (TSchedStop w)
| t_kill w d : tstep c i s (TKill w d) (set_kill s) (TCancel w d)
| t_cancel w d : tstep c i s (TCancel w d) (set_ctxDone s) (TSelect w (now s + timeout_of c d))
| t_select w dl : guardClosed s = true -> tstep c i s (TSelect w dl) s (TSchedStop w)
| t_timeout w dl : dl <= now s -> tstep c i s (TSelect w dl) s (finish w RStopFailed)
| t_sched_stop w : tstep c i s (TSchedStop w) (set_schedStopped s) (finish w RNil)
| t_gwait : ctxDone s = true -> tstep c i s GWait s (TLock ByGuard None)
| t_xcancel : tstep c i s XCancel (set_ctxDone s) (Done KCancel RNil).

Inductive sstep (c : cfg) (s : st) : ev -> st -> Prop :=
| s_thread i alt p m p' : nth_error (thr s) i = Some p -> tstep c i s p m p' -> sstep c s (EStep i alt) (goto m i p')
| s_tree : sstep c s ETreeDone (set_guardClosed s)
| s_leave : sstep c s ELeaveDone (set_leaveDone s)
| s_tick dt : sstep c s (ETick dt) (set_now s (now s + dt)).

Lemma step_sstep c e s s' : step c e s = Some s' -> sstep c s e s'.
Proof.
  destruct e as [i alt| | |dt]; cbn [step]; intros H.
  2-3: destruct (_ && _); [injection H as <-; constructor|discriminate].
  2: injection H as <-; constructor.
  destruct (nth_error (thr s) i) as [p|] eqn:Hp; [|discriminate H].
  destruct p; cbn [step_thread] in H;
    repeat match type of H with
           | match ?x with _ => _ end = Some _ => let E := fresh "E" in destruct x eqn:E; try discriminate H
           | (if ?x then _ else _) = Some _ => let E := fresh "E" in destruct x eqn:E; try discriminate H
           end; try discriminate H; injection H as <-; apply (s_thread c s i _ _ _ _ Hp).
  all: try (constructor; (assumption || (apply N.leb_le; assumption))).
  1-3: generalize (t_scheck c i s); rewrite E; exact (fun T => T).
  1-3: generalize (t_tcheck c i s w d); rewrite E; exact (fun T => T).
  all: generalize (t_read_cluster c i s w d); rewrite E; exact (fun T => T).
Qed.

Lemma step_tstep c i alt s s' p : step c (EStep i alt) s = Some s' -> nth_error (thr s) i = Some p ->
  exists m p', tstep c i s p m p' /\ s' = goto m i p'.
Proof.
  intros H Hp. pose proof (step_sstep _ _ _ _ H) as S. inversion S as [? ? p0 m p' Hp0 T| | |]; subst.
  rewrite Hp in Hp0. injection Hp0 as <-. eauto.
Qed.

Lemma tstep_mono c i s p m p' : tstep c i s p m p' -> mono s m.
Proof.
  destruct 1; try apply mono_refl; constructor; cbn; intros; auto; try lia; try discriminate.
  all: destruct (status s); cbn; congruence.
Qed.

Lemma step_mono c e s s' : step c e s = Some s' -> mono s s'.
Proof.
  intros H. destruct (step_sstep _ _ _ _ H) as [i alt p m p' _ T| | |dt].
  - destruct (tstep_mono _ _ _ _ _ _ T). constructor; assumption.
  - constructor; cbn; auto; lia.
  - constructor; cbn; auto; lia.
  - constructor; cbn; auto; lia.
Qed.

Lemma upd_app {A} (l e : list A) i x : (i < length l)%nat -> upd (l ++ e) i x = upd l i x ++ e.
Proof. revert i. induction l; intros [|i] H; cbn in *; try lia; auto. f_equal. apply IHl. lia. Qed.

Lemma goto_thr c i s p m p' : tstep c i s p m p' -> nth_error (thr s) i = Some p ->
  exists extra, thr (goto m i p') = upd (thr s) i p' ++ extra /\
    (extra = [] /\ spawned m = spawned s \/ extra = [Spawned GWait] /\ spawned m = spawned s + 1 /\ p = SGo).
Proof.
  intros T Hp. destruct T; try (exists []; rewrite app_nil_r; split; [reflexivity|left; split; reflexivity]).
  exists [Spawned GWait]. split; [|auto]. cbn. apply upd_app. eapply nth_error_lt, Hp.
Qed.

Lemma nth_upd_app {A} (l e : list A) i x j q : (i < length l)%nat -> nth_error (upd l i x ++ e) j = Some q ->
  j = i /\ q = x \/ j <> i /\ nth_error l j = Some q \/ (length l <= j)%nat /\ In q e.
Proof.
  intros Hi H. destruct (Nat.lt_ge_cases j (length l)) as [L|L].
  - rewrite nth_error_app1 in H by (rewrite length_upd; exact L). destruct (Nat.eq_dec j i) as [->|N].
    + rewrite nth_error_upd_eq in H by exact Hi. left. split; congruence.
    + rewrite nth_error_upd_neq in H by auto. auto.
  - right; right. split; [exact L|]. rewrite nth_error_app2 in H by (rewrite length_upd; exact L). eapply nth_error_In, H.
Qed.

Lemma goto_nth c i s p m p' j q : tstep c i s p m p' -> nth_error (thr s) i = Some p ->
  nth_error (thr (goto m i p')) j = Some q ->
  j = i /\ q = p' \/ j <> i /\ nth_error (thr s) j = Some q \/ (length (thr s) <= j)%nat /\ q = Spawned GWait /\ p = SGo.
Proof.
  intros T Hp Hq. destruct (goto_thr _ _ _ _ _ _ T Hp) as (extra & E & X). rewrite E in Hq.
  apply nth_upd_app in Hq; [|eapply nth_error_lt, Hp]. destruct Hq as [Hq|[Hq|[L Hq]]]; auto.
  destruct X as [[-> _]|(-> & _ & ->)]; [destruct Hq|]. destruct Hq as [<-|[]]. auto.
Qed.

Lemma goto_nth_eq c i s p m p' : tstep c i s p m p' -> nth_error (thr s) i = Some p -> nth_error (thr (goto m i p')) i = Some p'.
Proof.
  intros T Hp. destruct (goto_thr _ _ _ _ _ _ T Hp) as (extra & -> & _). pose proof (nth_error_lt _ _ _ Hp).
  rewrite nth_error_app1 by (rewrite length_upd; assumption). apply nth_error_upd_eq. assumption.
Qed.

Lemma claim_in l j p b st cl : claim_ok l j p -> claims p = Some cl -> In (b, st) cl -> In (j, b, st) l.
Proof. intros (cl' & Hc & Hin) Hc' Hi. rewrite Hc in Hc'. injection Hc' as ->. auto. Qed.

Lemma spawned_pcs k : env_pc k = true \/ k = GWait -> k = SLock \/ (exists d, k = TLock ByStop d) \/ k = XCancel \/ k = GWait.
Proof. intros [E| ->]; [|auto]. destruct k; try discriminate E; auto. destruct w; try discriminate E; eauto. Qed.

(** splits the goal along the tests that decide which pc a step leads to *)
Ltac branch_pc :=
  unfold finish, kind_of;
  repeat (match goal with
          | |- context[match status ?s with _ => _ end] => destruct (status s) eqn:?
          | |- context[if clusterCtx ?s then _ else _] => destruct (clusterCtx s)
          | |- context[match ?x with _ => _ end] => is_var x; destruct x
          end; cbn).

Lemma claim_mover c i s p m p' :
  tstep c i s p m p' -> (forall k, p = Spawned k -> env_pc k = true \/ k = GWait) -> claim_ok (lin s) i p -> claim_ok (lin m) i p'.
Proof.
  intros T K (cl & Hc & Hin). unfold claim_ok.
  destruct T; cbn [lin set_lock set_check set_hasCtx set_clusterCtx set_spawned set_leaveReq set_skipped set_kill set_ctxDone set_schedStopped];
    [destruct (spawned_pcs _ (K _ eq_refl)) as [->|[[d ->]|[->| ->]]]|..].
  all: cbn in Hc; branch_pc; cbn in Hc; try discriminate Hc; injection Hc as <-.
  all: (eexists; split; [reflexivity|]); intros b st Hb; cbn in Hb.
  all: try (apply Hin; cbn; tauto).
  all: destruct Hb as [[= <- <-]|Hb]; [left; reflexivity|right; apply Hin; exact Hb].
Qed.

(** the classes of pcs that [tfacts] speaks of are entered only by the step that establishes the fact *)
Lemma class_mover c i s p m p' : tstep c i s p m p' -> (forall k, p = Spawned k -> env_pc k = true \/ k = GWait) ->
  guard_pc p' = guard_pc p /\ (past_root p' = true -> past_root p = true \/ hasCtx m = true).
Proof.
  intros T K. destruct T; [destruct (spawned_pcs _ (K _ eq_refl)) as [->|[[d ->]|[->| ->]]]|..]; cbn; branch_pc; auto.
Qed.

Lemma facts_mover n c i s p m p' : inv n s -> nth_error (thr s) i = Some p -> tstep c i s p m p' -> tfacts m i p'.
Proof.
  intros V Hp T. pose proof (i_facts _ _ V _ _ Hp) as F.
  assert (K : forall k, p = Spawned k -> env_pc k = true \/ k = GWait) by (intros k ->; apply F).
  assert (Hs : spawned m <= 1).
  { pose proof (p_spawned _ (i_phase _ _ V)). destruct T; cbn; try assumption. rewrite (w_go _ _ (i_window _ _ V _ _ Hp) eq_refl). lia. }
  destruct (class_mover _ _ _ _ _ _ T K) as (Cg & Cr).
  split; [eapply claim_mover; [exact T|exact K|exact (proj1 F)]|].
  apply (tfacts_mono _ _ _ _ (tstep_mono _ _ _ _ _ _ T) Hs) in F. destruct F as ((cl & Hc & _) & Hg & Hr & Hx).
  rewrite Cg. split; [exact Hg|]. split; [intros G; destruct (Cr G); auto|]. clear Cg Cr Hr.
  destruct T; cbn in Hx |- *; try (branch_pc; exact I).
  - destruct (spawned_pcs _ (K _ eq_refl)) as [->|[[d ->]|[->| ->]]]; exact I.
  - (* SUnlock r: the claim of the pc excludes the results Start's switch does not produce *)
    destruct r; try discriminate Hc; cbn; auto; repeat split; discriminate.
  - repeat split; discriminate.
  - (* the guard goroutine's switch does not see Ready *)
    destruct w; try exact I. destruct (Hg eq_refl) as (G & _). destruct (status s); cbn in G; congruence.
  - destruct r; try (destruct w; discriminate Hc); try exact I; unfold finish; destruct w; cbn; repeat split; try discriminate; auto.
  - reflexivity.
  - assumption.
  - left. reflexivity.
  - split; [lia|apply Hx].
  - tauto.
  - right. tauto.
  - destruct w; cbn; repeat split; try discriminate; tauto.
  - destruct w; cbn; repeat split; try discriminate; auto.
  - repeat split; discriminate.
Qed.

(** how a step of thread t moves a lock word from lk to lk', h and h' telling whether t stands where the lock is held
    before and after: t takes the free lock on entering, frees it on leaving, and leaves it alone otherwise *)
Definition lock_move {T} (t : T) (h h' : bool) (lk lk' : option T) : Prop :=
  h = false /\ h' = true /\ lk = None /\ lk' = Some t \/ h = true /\ h' = false /\ lk' = None \/ h' = h /\ lk' = lk.

Lemma lock_move_frame {T} (dec : forall a b : T, {a = b} + {a <> b}) (h h' : T -> bool) t0 lk lk' :
  (forall t, lk = Some t <-> h t = true) -> (forall t, t <> t0 -> h' t = h t) ->
  lock_move t0 (h t0) (h' t0) lk lk' -> forall t, lk' = Some t <-> h' t = true.
Proof.
  intros L O Pat t. destruct (dec t t0) as [->|N].
  - destruct Pat as [(_ & B & _ & D)|[(_ & B & C)|(B & C)]]; rewrite B, ?C, ?D; [split; reflexivity|split; discriminate|apply L].
  - rewrite (O t N), <- (L t). destruct Pat as [(_ & _ & C & D)|[(A%L & _ & C)|(_ & C)]]; rewrite C, ?D; [split; congruence..|reflexivity].
Qed.

Lemma holder_at_nth l j p : nth_error l j = Some p -> holder_at l j = holder_pc p.
Proof. unfold holder_at. intros ->. reflexivity. Qed.

Lemma holder_at_other (l e : list pc) i x j : (forall q, In q e -> holder_pc q = false) -> j <> i ->
  holder_at (upd l i x ++ e) j = holder_at l j.
Proof.
  intros He N. unfold holder_at. destruct (Nat.lt_ge_cases j (length l)) as [L|L].
  - rewrite nth_error_app1 by (rewrite length_upd; exact L). rewrite nth_error_upd_neq by auto. reflexivity.
  - rewrite nth_error_app2 by (rewrite length_upd; exact L). rewrite (proj2 (nth_error_None l j) L).
    destruct (nth_error e _) as [q|] eqn:E; [apply He; eapply nth_error_In, E|reflexivity].
Qed.

Lemma tstep_lock c i s p m p' : tstep c i s p m p' -> (forall k, p = Spawned k -> env_pc k = true \/ k = GWait) ->
  lock_move i (holder_pc p) (holder_pc p') (lock s) (lock m).
Proof. intros T K. unfold lock_move. destruct T; [destruct (spawned_pcs _ (K _ eq_refl)) as [->|[[d ->]|[->| ->]]]|..]; cbn; branch_pc; auto 6. Qed.

Lemma tstep_lin c i s p m p' : tstep c i s p m p' -> lin_wf (lin s) -> status s = status_after (lin s) ->
  lin_wf (lin m) /\ status m = status_after (lin m).
Proof. intros T W S. destruct T; cbn; auto; rewrite <- S; auto. Qed.

Lemma claim_unique n s i j p q b st cp cq : inv n s -> nth_error (thr s) i = Some p -> nth_error (thr s) j = Some q ->
  claims p = Some cp -> In (b, st) cp -> claims q = Some cq -> In (b, st) cq -> next_status st b <> st -> i = j.
Proof.
  intros V Hp Hq Cp Ip Cq Iq N. apply (entry_unique (lin s) i j b st (i_wf _ _ V)); [| |exact N].
  - exact (claim_in _ _ _ _ _ _ (proj1 (i_facts _ _ V _ _ Hp)) Cp Ip).
  - exact (claim_in _ _ _ _ _ _ (proj1 (i_facts _ _ V _ _ Hq)) Cq Iq).
Qed.

Lemma pre_go_claim q : pre_go q = true -> claims q = Some [(true, Ready)].
Proof. destruct q; try discriminate; try reflexivity. destruct r; try discriminate; reflexivity. Qed.

Lemma pre_kill_claim q : pre_kill q = true -> exists cl, claims q = Some ((false, Started) :: cl).
Proof. destruct q; try discriminate; try (eexists; reflexivity). destruct r; try discriminate. eexists; reflexivity. Qed.

Lemma two_winners n s i j p q : inv n s -> nth_error (thr s) i = Some p -> nth_error (thr s) j = Some q ->
  pre_go p = true -> pre_go q = true -> i = j.
Proof.
  intros V Hp Hq Gp Gq.
  eapply (claim_unique n s i j p q true Ready); eauto using pre_go_claim; (left; reflexivity) || discriminate.
Qed.

Lemma two_effs n s i j p q : inv n s -> nth_error (thr s) i = Some p -> nth_error (thr s) j = Some q ->
  pre_kill p = true -> pre_kill q = true -> i = j.
Proof.
  intros V Hp Hq Gp Gq. destruct (pre_kill_claim _ Gp) as (c1 & H1). destruct (pre_kill_claim _ Gq) as (c2 & H2).
  eapply (claim_unique n s i j p q false Started); eauto; (left; reflexivity) || discriminate.
Qed.

Lemma claim_status n s i p cl b st : inv n s -> nth_error (thr s) i = Some p -> claims p = Some cl -> In (b, st) cl ->
  (b = true -> status s <> Ready) /\ (b = false -> st <> Ready -> status s = Stopped).
Proof.
  intros V Hp Hc Hin. pose proof (claim_in _ _ _ _ _ _ (proj1 (i_facts _ _ V _ _ Hp)) Hc Hin) as L.
  rewrite (i_status _ _ V). split; intros ->.
  - eapply after_start_entry; [apply (i_wf _ _ V)|exact L].
  - eapply after_stop_entry; [apply (i_wf _ _ V)|exact L].
Qed.

Lemma eff_stopped n s i p cl : inv n s -> nth_error (thr s) i = Some p -> claims p = Some cl -> In (false, Started) cl ->
  status s = Stopped.
Proof. intros V Hp Hc Hin. apply (claim_status n s i p cl false Started V Hp Hc Hin); [reflexivity|discriminate]. Qed.

Lemma phase_mover n c i s p m p' : inv n s -> nth_error (thr s) i = Some p -> tstep c i s p m p' -> phase m.
Proof.
  intros V Hp T. pose proof (i_phase _ _ V) as P. pose proof (i_facts _ _ V _ _ Hp) as (_ & _ & Hr & Hx).
  pose proof (i_window _ _ V _ _ Hp) as W.
  destruct T; try (destruct P; constructor; assumption); destruct P as [P1 P2 P3 P4 P5 P6].
  - constructor; cbn; auto; destruct (status s); cbn; intuition congruence.
  - (* the root is created under the lock, while the status is start *)
    pose proof (w_hold _ _ W eq_refl) as S. constructor; cbn; intuition congruence.
  - (* the chain runs behind the root *)
    constructor; cbn; auto. rewrite (Hr eq_refl). discriminate.
  - constructor; cbn; auto. rewrite (Hr eq_refl). discriminate.
  - constructor; cbn; auto; rewrite ?(w_go _ _ W eq_refl), ?(Hr eq_refl); (lia || discriminate).
  - constructor; cbn; auto; destruct (status s); cbn; intuition congruence.
  - constructor; cbn; auto. intros _. split; [assumption|exact (eff_stopped _ _ _ _ _ V Hp eq_refl (or_introl eq_refl))].
  - (* the kill, by the effective stop *)
    constructor; cbn; auto; rewrite ?(w_kill _ _ W eq_refl), ?Hx, ?(eff_stopped _ _ _ _ _ V Hp eq_refl (or_introl eq_refl)); (lia || congruence).
Qed.

(** the window of the thread that moves: it stays open while the thread stays inside the class, and is opened by the
    status switch that saw `ready` (Start) resp. `start` (stop) *)
Lemma window_mover n c i s p m p' : inv n s -> nth_error (thr s) i = Some p -> tstep c i s p m p' -> window m p'.
Proof.
  intros V Hp T. pose proof (i_window _ _ V _ _ Hp) as W. pose proof (i_phase _ _ V) as P.
  assert (K : forall k, p = Spawned k -> env_pc k = true \/ k = GWait) by (intros k ->; apply (i_facts _ _ V _ _ Hp)).
  destruct T; [destruct (spawned_pcs _ (K _ eq_refl)) as [->|[[d ->]|[->| ->]]]|..]; constructor; cbn; branch_pc;
    try discriminate; intros _; try (apply W; reflexivity); try reflexivity.
  - apply (p_noroot _ P), (p_ready _ P). assumption.
  - apply (p_noroot _ P), (p_ready _ P). assumption.
  - apply (p_running _ P). congruence.
Qed.

(** the window of another thread: the step that would close it is a step of the one thread inside the class *)
Lemma window_other n c i s p m p' j q : inv n s -> nth_error (thr s) i = Some p -> tstep c i s p m p' ->
  nth_error (thr s) j = Some q -> j <> i -> window m q.
Proof.
  intros V Hp T Hq N. destruct (i_window _ _ V _ _ Hq) as [A B C D].
  assert (Xk : pre_kill p = true -> pre_kill q = false).
  { intros E. destruct (pre_kill q) eqn:F; [destruct (N (eq_sym (two_effs _ _ _ _ _ _ V Hp Hq E F)))|reflexivity]. }
  assert (Xg : pre_go p = true -> pre_go q = false /\ pre_cluster q = false).
  { intros E. destruct (pre_go q) eqn:F; [destruct (N (eq_sym (two_winners _ _ _ _ _ _ V Hp Hq E F)))|].
    split; [reflexivity|]. destruct q; try reflexivity; discriminate F. }
  assert (Xh : holder_pc p = true -> start_hold q = false).
  { intros E. destruct (start_hold q) eqn:F; [|reflexivity].
    assert (G : holder_pc q = true) by (destruct q; try discriminate F; reflexivity).
    pose proof (proj2 (i_lock _ _ V i)). pose proof (proj2 (i_lock _ _ V j)).
    rewrite (holder_at_nth _ _ _ Hp), (holder_at_nth _ _ _ Hq) in *. intuition congruence. }
  destruct T; try (constructor; assumption); constructor; cbn; try assumption; intros Hc.
  - rewrite Xh in Hc by reflexivity. discriminate Hc.
  - rewrite (proj2 (Xg eq_refl)) in Hc. discriminate Hc.
  - rewrite (proj2 (Xg eq_refl)) in Hc. discriminate Hc.
  - rewrite (proj1 (Xg eq_refl)) in Hc. discriminate Hc.
  - rewrite Xh in Hc by reflexivity. discriminate Hc.
  - rewrite Xk in Hc by reflexivity. discriminate Hc.
Qed.

Lemma witness_other (P : pc -> Prop) l i x e :
  (exists j p, nth_error l j = Some p /\ P p /\ j <> i) ->
  exists j p, nth_error (upd l i x ++ e) j = Some p /\ P p.
Proof.
  intros (j & p & Hj & HP & Hn). exists j, p. split; auto.
  rewrite nth_error_app1 by (rewrite length_upd; eapply nth_error_lt; eauto). rewrite nth_error_upd_neq; auto.
Qed.

Lemma witness_self (P : pc -> Prop) l i p0 x e :
  nth_error l i = Some p0 -> P x -> exists j p, nth_error (upd l i x ++ e) j = Some p /\ P p.
Proof.
  intros Hi HP. exists i, x. split; auto.
  rewrite nth_error_app1 by (rewrite length_upd; eapply nth_error_lt; eauto). apply nth_error_upd_eq. eapply nth_error_lt; eauto.
Qed.

Lemma witness_step (W : pc -> Prop) c i s p m p' : tstep c i s p m p' -> nth_error (thr s) i = Some p ->
  (W p -> W p') -> (exists j q, nth_error (thr s) j = Some q /\ W q) ->
  exists j q, nth_error (thr (goto m i p')) j = Some q /\ W q.
Proof.
  intros T Hp K (j & q & Hq & Wq). destruct (goto_thr _ _ _ _ _ _ T Hp) as (e & -> & _).
  destruct (Nat.eq_dec j i) as [->|N].
  - eapply witness_self; [exact Hp|]. apply K. congruence.
  - apply witness_other. exists j, q. auto.
Qed.

Lemma failing_mover c i s p m p' : tstep c i s p m p' -> failing p = true -> failing p' = true.
Proof. destruct 1; cbn; branch_pc; auto; discriminate. Qed.

Lemma root_mover n c i s p m p' : inv n s -> nth_error (thr s) i = Some p -> tstep c i s p m p' ->
  status m <> Ready -> hasCtx m = false ->
  exists j q, nth_error (thr (goto m i p')) j = Some q /\ (q = SSpawnRoot \/ failing q = true).
Proof.
  intros V Hp T A B.
  assert (Hh : hasCtx s = false).
  { destruct (hasCtx s) eqn:E; [|reflexivity]. rewrite (m_hasCtx _ _ (tstep_mono _ _ _ _ _ _ T) E) in B. discriminate. }
  destruct (status s) eqn:S.
  2-3: (* the witness stays: root creation has failed if it moves on from SSpawnRoot without a root *)
    apply (witness_step _ _ _ _ _ _ _ T Hp); [|apply (i_root _ _ V); congruence];
    intros [->|F]; [|right; eapply failing_mover; eauto]; inversion T; subst; [discriminate B|right; reflexivity].
  (* the status has just left Ready: this was the switch of the Start that gets through *)
  destruct T; cbn in A; rewrite ?S in A; try (destruct (A eq_refl)).
  rewrite S. destruct (goto_thr _ _ _ _ _ _ (t_scheck c i s) Hp) as (e & E & _). rewrite S in E. rewrite E.
  eapply witness_self; [exact Hp|left; reflexivity].
Qed.

Lemma inv_tstep n c i s p m p' : inv n s -> nth_error (thr s) i = Some p -> tstep c i s p m p' -> inv n (goto m i p').
Proof.
  intros V Hp T. pose proof (i_facts _ _ V _ _ Hp) as (_ & _ & _ & Hx).
  assert (K : forall k, p = Spawned k -> env_pc k = true \/ k = GWait) by (intros k ->; exact Hx).
  pose proof (phase_mover _ _ _ _ _ _ _ V Hp T) as P.
  destruct (goto_thr _ _ _ _ _ _ T Hp) as (extra & E & X).
  destruct (tstep_lin _ _ _ _ _ _ T (i_wf _ _ V) (i_status _ _ V)) as (W & S).
  constructor.
  - apply (lock_move_frame Nat.eq_dec (holder_at (thr s)) _ i (lock s) (lock m) (i_lock _ _ V)).
    + intros j N. rewrite E. apply holder_at_other; [|exact N].
      destruct X as [[-> _]|(-> & _)]; [intros q []|intros q [<-|[]]; reflexivity].
    + rewrite (holder_at_nth _ _ _ Hp), (holder_at_nth _ _ _ (goto_nth_eq _ _ _ _ _ _ T Hp)). exact (tstep_lock _ _ _ _ _ _ T K).
  - exact W.
  - exact S.
  - intros j q Hq. destruct (goto_nth _ _ _ _ _ _ _ _ T Hp Hq) as [[-> ->]|[[_ Ho]|(_ & -> & ->)]].
    + exact (facts_mover _ _ _ _ _ _ _ V Hp T).
    + apply (tfacts_mono s); [destruct (tstep_mono _ _ _ _ _ _ T); constructor; assumption|apply P|exact (i_facts _ _ V _ _ Ho)].
    + (* the guard goroutine is created by the Start that got through, once *)
      inversion T; subst. split; [exists []; split; [reflexivity|intros ? ? []]|]. split; [intros _|split; [discriminate|right; reflexivity]].
      cbn. rewrite (w_go _ _ (i_window _ _ V _ _ Hp) eq_refl). split; [|reflexivity].
      apply (claim_status n s i SGo [(true, Ready)] true Ready V Hp eq_refl); [left|]; reflexivity.
  - intros j q Hq. enough (Wq : window m q) by (destruct Wq; constructor; assumption).
    destruct (goto_nth _ _ _ _ _ _ _ _ T Hp Hq) as [[-> ->]|[[Hn Ho]|(_ & -> & _)]].
    + exact (window_mover _ _ _ _ _ _ _ V Hp T).
    + exact (window_other _ _ _ _ _ _ _ _ _ V Hp T Ho Hn).
    + constructor; discriminate.
  - intros j q Hq Hn. destruct (goto_nth _ _ _ _ _ _ _ _ T Hp Hq) as [[-> ->]|[[_ Ho]|(_ & -> & _)]]; [|eauto using i_created|reflexivity].
    rewrite (proj1 (class_mover _ _ _ _ _ _ T K)). exact (i_created _ _ V _ _ Hp Hn).
  - cbn [spawned goto set_thr]. rewrite E, app_length, length_upd, (i_len _ _ V).
    destruct X as [[-> ->]|(-> & -> & _)]; cbn; lia.
  - destruct P; constructor; assumption.
  - exact (root_mover _ _ _ _ _ _ _ V Hp T).
Qed.

Lemma inv_step n c e s s' : inv n s -> step c e s = Some s' -> inv n s'.
Proof.
  intros V H. pose proof (step_mono _ _ _ _ H) as M.
  destruct (step_sstep _ _ _ _ H) as [i alt p m p' Hp T| | |dt]; [exact (inv_tstep _ _ _ _ _ _ _ V Hp T)|..];
    destruct V as [? ? ? F W ? ? P ?]; (constructor; [..|destruct P; constructor; assumption|]; try assumption); intros j q Hq;
    first [exact (tfacts_mono _ _ _ _ M (p_spawned _ P) (F j q Hq))|destruct (W j q Hq); constructor; assumption].
Qed.

Lemma nth_map_spawned ths j q : nth_error (map Spawned ths) j = Some q -> exists k, q = Spawned k /\ nth_error ths j = Some k.
Proof. rewrite nth_error_map. destruct (nth_error ths j); cbn; intros H; [injection H as <-; eauto|discriminate]. Qed.

Lemma inv_init ths : forallb env_pc ths = true -> inv (length ths) (init ths).
Proof.
  intros He.
  assert (Sp : forall j p, nth_error (thr (init ths)) j = Some p -> exists k, p = Spawned k /\ env_pc k = true).
  { intros j p Hq. destruct (nth_map_spawned _ _ _ Hq) as (k & -> & Hk). exists k. split; [reflexivity|].
    rewrite forallb_forall in He. apply He. eapply nth_error_In, Hk. }
  constructor; try discriminate; try (intros j p Hq; destruct (Sp j p Hq) as (k & -> & Ek); try discriminate).
  - intros j. split; [discriminate|]. unfold holder_at. destruct (nth_error _ j) as [p|] eqn:Hq; [|discriminate].
    destruct (Sp j p Hq) as (k & -> & _). discriminate.
  - exact I.
  - reflexivity.
  - split; [exists []; split; [reflexivity|intros ? ? []]|]. split; [|split; [discriminate|left; exact Ek]].
    destruct k; discriminate.
  - constructor; discriminate.
  - intros Hn. apply nth_error_lt in Hq. cbn in Hq. rewrite map_length in Hq. lia.
  - cbn. rewrite map_length. lia.
  - constructor; cbn; auto; (lia || discriminate).
  - intros N. destruct (N eq_refl).
Qed.


Lemma run_ind c (P : st -> Prop) :
  (forall e s s', P s -> step c e s = Some s' -> P s') -> forall evs s, P s -> P (run c evs s).
Proof.
  intros Hs evs. induction evs as [|e evs IH]; intros s Ps; [exact Ps|]. apply IH.
  unfold step_or_stay. destruct (step c e s) eqn:E; [exact (Hs _ _ _ Ps E)|exact Ps].
Qed.

Lemma reachable_inv c s : reachable c s -> exists n, inv n s.
Proof.
  intros (ths & evs & He & <-). exists (length ths). apply run_ind; [intros e s s'; apply inv_step|apply inv_init, He].
Qed.

Lemma thread_facts c s i p : reachable c s -> nth_error (thr s) i = Some p -> tfacts s i p.
Proof. intros R Hp. destruct (reachable_inv _ _ R) as (n & V). exact (i_facts _ _ V _ _ Hp). Qed.

Lemma reachable_run c ths evs : forallb env_pc ths = true -> reachable c (run c evs (init ths)).
Proof. intros He. exists ths, evs. auto. Qed.

Lemma reachable_continue c s evs : reachable c s -> reachable c (run c evs s).
Proof.
  intros (ths & evs0 & He & <-). exists ths, (evs0 ++ evs). split; auto. unfold run. rewrite fold_left_app. reflexivity.
Qed.

Lemma reachable_step c s e s' : reachable c s -> step c e s = Some s' -> reachable c s'.
Proof.
  intros R H. pose proof (reachable_continue c s [e] R) as R'. cbn in R'. unfold step_or_stay in R'. rewrite H in R'. exact R'.
Qed.

Lemma reachable_ind c (P : st -> Prop) :
  (forall ths, forallb env_pc ths = true -> P (init ths)) ->
  (forall e s s', reachable c s -> P s -> step c e s = Some s' -> P s') ->
  forall s, reachable c s -> P s.
Proof.
  intros Hi Hs s (ths & evs & He & <-).
  apply (run_ind c (fun s => reachable c s /\ P s)); [|split; [exists ths, []; auto|apply Hi, He]].
  intros e s s' [R Ps] H. split; [exact (reachable_step _ _ _ _ R H)|exact (Hs _ _ _ R Ps H)].
Qed.

Lemma one_way_step c e s s' : step c e s = Some s' ->
  status s' = status s \/ (status s = Ready /\ status s' = Started) \/ (status s = Started /\ status s' = Stopped).
Proof.
  intros H. destruct (step_sstep _ _ _ _ H) as [i alt p m p' _ T| | |dt]; auto.
  destruct T; cbn; auto; destruct (status s); auto.
Qed.

Lemma one_way_run c evs s : (st_rank (status s) <= st_rank (status (run c evs s)))%nat.
Proof.
  apply (run_ind c (fun s' => (st_rank (status s) <= st_rank (status s'))%nat)); [|apply le_n].
  intros e s1 s2 L H. destruct (one_way_step _ _ _ _ H) as [->|[[E ->]|[E ->]]]; [exact L|rewrite E in L..]; cbn in *; lia.
Qed.

Lemma stop_before_start c i alt s s' w d :
  nth_error (thr s) i = Some (TCheck w d) -> status s = Ready -> step c (EStep i alt) s = Some s' ->
  status s' = Ready /\ nth_error (thr s') i = Some (TUnlock w d RNotStarted) /\ kills s' = kills s /\ ctxDone s' = ctxDone s.
Proof.
  intros Hp Hs H. cbn in H. rewrite Hp in H. cbn in H. rewrite Hs in H. injection H as <-. cbn.
  repeat split; auto. apply nth_error_upd_eq. eapply nth_error_lt; eauto.
Qed.

Lemma mutex c s i j p q : reachable c s ->
  nth_error (thr s) i = Some p -> nth_error (thr s) j = Some q -> holder_pc p = true -> holder_pc q = true -> i = j.
Proof.
  intros R Hp Hq A B. destruct (reachable_inv _ _ R) as (n & V).
  pose proof (proj2 (i_lock _ _ V i)). pose proof (proj2 (i_lock _ _ V j)).
  rewrite (holder_at_nth _ _ _ Hp), (holder_at_nth _ _ _ Hq) in *. intuition congruence.
Qed.

(** the holder of the lock is never blocked and releases it within four of its own steps (Start: the switch,
    root creation, the rest of the chain, the deferred Unlock; stop: the switch, the deferred Unlock) *)
Definition hrank (p : pc) : nat :=
  match p with SCheck => 4 | SSpawnRoot => 3 | SChain => 2 | TCheck _ _ => 2 | SUnlock _ | SUnlockFail | TUnlock _ _ _ => 1 | _ => 0 end.

Lemma holder_step c s j p : nth_error (thr s) j = Some p -> holder_pc p = true ->
  exists s1, step c (EStep j 0) s = Some s1 /\
    (lock s1 = None \/ exists p', nth_error (thr s1) j = Some p' /\ holder_pc p' = true /\ (hrank p' < hrank p)%nat).
Proof.
  intros Hp Hh. pose proof (nth_error_lt _ _ _ Hp) as Hlt.
  destruct p; try discriminate; cbn [step]; rewrite Hp; cbn [step_thread]; try destruct (status s); try destruct r;
    (eexists; split; [reflexivity|]);
    first [left; reflexivity | right; eexists; split; [apply nth_error_upd_eq, Hlt|split; [reflexivity|cbn; lia]]].
Qed.

Lemma holder_releases c j : forall n s p, (hrank p <= n)%nat -> nth_error (thr s) j = Some p -> holder_pc p = true ->
  exists k s', (1 <= k <= n)%nat /\ steps_of c j k s = Some s' /\ lock s' = None.
Proof.
  induction n as [|n IH]; intros s p Hr Hp Hh.
  - destruct p; try discriminate; cbn in Hr; lia.
  - destruct (holder_step c s j p Hp Hh) as (s1 & H1 & [Hl|(p' & Hp' & Hh' & Hlt)]).
    + exists 1%nat, s1. split; [lia|]. cbn [steps_of]. rewrite H1. auto.
    + destruct (IH s1 p') as (k & s' & Hk & Hs & Hl); auto; [lia|].
      exists (S k), s'. split; [lia|]. cbn [steps_of]. rewrite H1. auto.
Qed.

Lemma lock_released c s j : reachable c s -> lock s = Some j ->
  (exists s1, step c (EStep j 0) s = Some s1) /\
  exists k s', (1 <= k <= 4)%nat /\ steps_of c j k s = Some s' /\ lock s' = None.
Proof.
  intros R Hl. destruct (reachable_inv _ _ R) as (n & V).
  pose proof (proj1 (i_lock _ _ V j) Hl) as Hh. unfold holder_at in Hh.
  destruct (nth_error (thr s) j) as [p|] eqn:Hp; [|discriminate Hh]. split.
  - destruct (holder_step c s j p Hp Hh) as (s1 & H1 & _). eauto.
  - apply (holder_releases c j 4 s p); auto. destruct p; cbn; lia.
Qed.

Lemma progress c s i p : reachable c s -> nth_error (thr s) i = Some p -> is_done p = false ->
  (exists alt s', step c (EStep i alt) s = Some s')
  \/ (lock_pc p = true /\ exists j, j <> i /\ lock s = Some j /\ exists s', step c (EStep j 0) s = Some s')
  \/ env_wait s p.
Proof.
  intros R Hp Hd. destruct (reachable_inv _ _ R) as (n & V).
  pose proof (i_facts _ _ V _ _ Hp) as (_ & _ & _ & Hx).
  assert (Go : forall alt, (exists s', step_thread c i alt s p = Some s') -> exists alt s', step c (EStep i alt) s = Some s').
  { intros alt E. exists alt. cbn [step]. rewrite Hp. exact E. }
  destruct (lock_pc p) eqn:Hl.
  - destruct (lock s) as [j|] eqn:El.
    + right. left. split; [reflexivity|]. exists j. split; [|split; [reflexivity|exact (proj1 (lock_released _ _ _ R El))]].
      intros ->. apply (i_lock _ _ V) in El. rewrite (holder_at_nth _ _ _ Hp) in El. destruct p; discriminate.
    + left. apply (Go 0). destruct p; try discriminate Hl; cbn [step_thread]; rewrite El; eauto.
  - destruct p; try discriminate; cbn [step_thread env_wait] in *;
      try (left; apply (Go 0); repeat match goal with |- exists _, match ?x with _ => _ end = _ => destruct x end; eauto; fail).
    + destruct (leaveDone s); [left; apply (Go 0)|]; eauto.
    + destruct Hx as (Hk & _). destruct (guardClosed s); [left; apply (Go 0); eauto|].
      destruct (N.leb_spec deadline (now s)) as [Le|Lt]; [left; apply (Go 1); eauto|right; right; split; [reflexivity|lia]].
    + destruct (ctxDone s); [left; apply (Go 0)|]; eauto.
Qed.

Lemma tstep_rank c i s p m p' : tstep c i s p m p' ->
  (rank p' < rank p)%nat /\ (p = SGo -> (rank p' + rank (Spawned GWait) < rank p)%nat).
Proof. destruct 1; cbn; branch_pc; split; (discriminate || lia). Qed.

Lemma own_step_rank c i alt s s' p : step c (EStep i alt) s = Some s' -> nth_error (thr s) i = Some p ->
  exists p', nth_error (thr s') i = Some p' /\ (rank p' < rank p)%nat /\
             (forall j, j <> i -> (j < length (thr s))%nat -> nth_error (thr s') j = nth_error (thr s) j).
Proof.
  intros H Hp. destruct (step_tstep _ _ _ _ _ _ H Hp) as (m & p' & T & ->). exists p'.
  split; [exact (goto_nth_eq _ _ _ _ _ _ T Hp)|]. split; [apply (tstep_rank _ _ _ _ _ _ T)|].
  intros j Hn Hj. destruct (goto_thr _ _ _ _ _ _ T Hp) as (e & -> & _).
  rewrite nth_error_app1 by (rewrite length_upd; exact Hj). apply nth_error_upd_neq. auto.
Qed.

Lemma step_thread_at c i alt s s' : step c (EStep i alt) s = Some s' -> exists p, nth_error (thr s) i = Some p.
Proof. cbn. destruct (nth_error (thr s) i); [eauto|discriminate]. Qed.

Lemma env_step_thr c e s s' : step c e s = Some s' -> (forall i alt, e <> EStep i alt) -> thr s' = thr s.
Proof.
  intros H N. destruct (step_sstep _ _ _ _ H); [destruct (N _ _ eq_refl)|reflexivity..].
Qed.

Lemma sum_upd (l : list pc) i p p' : nth_error l i = Some p ->
  (fold_right Nat.add 0 (map rank (upd l i p')) + rank p = fold_right Nat.add 0 (map rank l) + rank p')%nat.
Proof. revert i. induction l as [|a l IH]; intros [|i] H; cbn in *; try discriminate. - injection H as ->. lia. - specialize (IH _ H). lia. Qed.

Lemma thread_step_total c i alt s s' : step c (EStep i alt) s = Some s' -> (total_rank s' < total_rank s)%nat.
Proof.
  intros H. pose proof (step_sstep _ _ _ _ H) as S. inversion S as [? ? p m p' Hp T| | |]; subst. unfold total_rank.
  destruct (goto_thr _ _ _ _ _ _ T Hp) as (e & -> & X). rewrite map_app, fold_right_app.
  pose proof (sum_upd (thr s) i p p' Hp) as Hs. destruct (tstep_rank _ _ _ _ _ _ T) as (R1 & R2).
  destruct X as [[-> _]|(-> & _ & ->)]; cbn [map fold_right]; [lia|]. specialize (R2 eq_refl).
  assert (forall l a, fold_right Nat.add a l = (fold_right Nat.add 0 l + a)%nat) as Hf.
  { induction l; intros; cbn; [lia|]. rewrite IHl. lia. }
  rewrite Hf. lia.
Qed.

Lemma steps_bounded c evs s : (thread_steps c evs s <= total_rank s)%nat.
Proof.
  revert s. induction evs as [|e evs IH]; intros s; cbn; [lia|].
  destruct (step c e s) as [s'|] eqn:E; [|apply IH]. specialize (IH s').
  assert (En : (forall i alt, e <> EStep i alt) -> total_rank s' = total_rank s).
  { intros N. unfold total_rank. rewrite (env_step_thr _ _ _ _ E N). reflexivity. }
  destruct e; [pose proof (thread_step_total _ _ _ _ _ E); lia|..]; rewrite En in IH by discriminate; exact IH.
Qed.

(** 20 = [rank (Spawned SLock)]: a client's Start() is the longest call (19 own steps and the spawn); Stop starts at 12, cancel at 2 *)
Lemma total_rank_init ths : forallb env_pc ths = true -> (total_rank (init ths) <= 20 * length ths)%nat.
Proof.
  unfold total_rank. cbn. induction ths as [|p l IH]; cbn; [lia|]. intros H. apply andb_prop in H as [Hp Hl].
  specialize (IH Hl). destruct p; try discriminate; try (destruct w; try discriminate); cbn; lia.
Qed.

Lemma termination c ths evs : forallb env_pc ths = true -> (thread_steps c evs (init ths) <= 20 * length ths)%nat.
Proof. intros He. etransitivity; [apply steps_bounded|apply total_rank_init; auto]. Qed.

Lemma set_now_same s : set_now s (now s + 0) = s.
Proof. destruct s. unfold set_now. cbn. rewrite N.add_0_r. reflexivity. Qed.

Lemma step_now_indep c i alt s t p : nth_error (thr s) i = Some p ->
  (forall w dl, p <> TSelect w dl) ->
  (exists s', step c (EStep i alt) s = Some s') -> exists s', step c (EStep i alt) (set_now s t) = Some s'.
Proof.
  intros Hp Hn (s' & H). cbn [step] in *. cbn [thr set_now]. rewrite Hp in *.
  destruct p; cbn [step_thread] in *; cbn [lock status clusterCtx leaveDone hasCtx guardClosed ctxDone set_now];
    repeat match type of H with
           | match ?x with _ => _ end = Some _ => destruct x; try discriminate
           | (if ?x then _ else _) = Some _ => destruct x; try discriminate
           end; eauto.
  exfalso. eapply Hn. reflexivity.
Qed.

Lemma quiescent_final c s : reachable c s -> quiescent c s ->
  forall i p, nth_error (thr s) i = Some p ->
    is_done p = true \/ (p = GWait /\ ctxDone s = false) \/ (exists w d, p = TLeaveWait w d /\ leaveDone s = false /\ leaveReq s = true).
Proof.
  intros R Q i p Hp. destruct (is_done p) eqn:Hd; auto. right.
  destruct (progress _ _ _ _ R Hp Hd) as [(alt & s' & H)|[(Hl & j & Hn & Hlk & s' & H)|He]].
  - exfalso. specialize (Q i alt 0). rewrite set_now_same in Q. congruence.
  - exfalso. specialize (Q j 0 0). rewrite set_now_same in Q. congruence.
  - destruct p; cbn in He; try tauto.
    + right. exists w, d. tauto.
    + exfalso. destruct He as (Hg & Hlt & Hk). specialize (Q i 1 (deadline - now s)).
      cbn [step thr set_now] in Q. rewrite Hp in Q. cbn [step_thread now set_now] in Q.
      replace (deadline <=? now s + (deadline - now s)) with true in Q by (symmetry; apply N.leb_le; lia). discriminate.
Qed.

Lemma lin_ok c s : reachable c s -> lin_wf (lin s) /\ status s = status_after (lin s).
Proof. intros R. destruct (reachable_inv _ _ R) as (n & V). split; [apply (i_wf _ _ V)|apply (i_status _ _ V)]. Qed.

Lemma seen_stop_ok r st : seen_stop r = Some st -> stop_res_ok st r.
Proof. destruct r; intros [= <-]; cbn; auto. Qed.

Lemma returns c s i k r : reachable c s -> nth_error (thr s) i = Some (Done k r) ->
  match k with
  | KStart => exists seen, In (i, true, seen) (lin s) /\ start_res_ok seen r /\
                (forall inner, r = RStartFailed inner -> exists seen2, In (i, false, seen2) (lin s) /\ stop_res_ok seen2 inner)
  | KStop | KGuard => exists seen, In (i, false, seen) (lin s) /\ stop_res_ok seen r
  | KCancel => True
  end.
Proof.
  intros R Hp. destruct (thread_facts c s i _ R Hp) as ((cl & Hc & Hin) & _).
  assert (Stop : forall r, option_map (fun st => [(false, st)]) (seen_stop r) = Some cl ->
                   exists seen, In (i, false, seen) (lin s) /\ stop_res_ok seen r).
  { intros r0 E. destruct (seen_stop r0) as [st|] eqn:Es; [|discriminate]. injection E as <-.
    exists st. split; [apply Hin; left; reflexivity|exact (seen_stop_ok _ _ Es)]. }
  destruct k; [|exact (Stop r Hc)..|exact I]. destruct r as [| | | | |inner]; cbn in Hc; try discriminate Hc.
  1-3: injection Hc as <-; eexists; (split; [apply Hin; left; reflexivity|split; [cbn; auto|discriminate]]).
  destruct (seen_stop inner) as [st|] eqn:Es; [|discriminate]. injection Hc as <-.
  exists Ready. split; [apply Hin; left; reflexivity|]. split; [cbn; eauto|].
  intros ? [= <-]. exists st. split; [apply Hin; right; left; reflexivity|exact (seen_stop_ok _ _ Es)].
Qed.

Lemma select_branches c s i w dl : nth_error (thr s) i = Some (TSelect w dl) ->
  ((exists s', step c (EStep i 0) s = Some s') <-> guardClosed s = true) /\
  ((exists s', step c (EStep i 1) s = Some s') <-> dl <= now s).
Proof.
  intros Hp. cbn [step]. rewrite Hp. cbn [step_thread]. split; split.
  - intros (s' & H). destruct (guardClosed s); [auto|discriminate].
  - intros ->. eauto.
  - intros (s' & H). destruct (dl <=? now s) eqn:E; [apply N.leb_le; auto|discriminate].
  - intros H. apply N.leb_le in H. rewrite H. eauto.
Qed.

Lemma stop_nil_claim k r : stop_nil k r = true -> exists cl, claims (Done k r) = Some cl /\ In (false, Started) cl.
Proof. destruct k, r; try discriminate; try (destruct r; try discriminate); intros _; eexists; (split; [reflexivity|cbn; auto]). Qed.

Lemma stop_failed_effect c s i w dl : reachable c s -> nth_error (thr s) i = Some (TSelect w dl) ->
  kills s = 1 /\ ctxDone s = true /\ hasCtx s = true /\ status s = Stopped.
Proof.
  intros R Hp. destruct (reachable_inv _ _ R) as (n & V). pose proof (p_kills _ (i_phase _ _ V)).
  pose proof (i_facts _ _ V _ _ Hp) as (_ & _ & _ & Hk & Hd & Hh).
  repeat split; auto; try lia. apply (eff_stopped _ _ _ _ _ V Hp eq_refl). left. reflexivity.
Qed.

Lemma hasCtx_stable c evs s : hasCtx s = true -> hasCtx (run c evs s) = true /\ skipped (run c evs s) = skipped s.
Proof.
  intros Hh. apply (run_ind c (fun s' => hasCtx s' = true /\ skipped s' = skipped s)); [|auto].
  intros e s1 s2 [A B] H. rewrite <- B.
  destruct (step_sstep _ _ _ _ H) as [i alt p m p' _ T| | |dt]; auto.
  destruct T; auto. congruence.
Qed.

Lemma start_hold_claim l j p : start_hold p = true -> claim_ok l j p -> In (j, true, Ready) l.
Proof.
  intros Hf (cl & Hc & Hin). destruct p; try discriminate; cbn in Hc; try (injection Hc as <-; apply Hin; cbn; tauto).
  destruct r; try discriminate. cbn in Hc. injection Hc as <-. apply Hin. cbn. tauto.
Qed.

Lemma all_done c s : reachable c s -> quiescent c s -> ctxDone s = true -> (leaveReq s = true -> leaveDone s = true) ->
  forall i p, nth_error (thr s) i = Some p -> is_done p = true.
Proof.
  intros R Q Hc Hl i p Hp. destruct (quiescent_final _ _ R Q _ _ Hp) as [H|[[_ H]|(w & d & _ & H & H2)]]; auto; [congruence|specialize (Hl H2); congruence].
Qed.

Lemma cancel_stops c s g p : reachable c s -> quiescent c s -> ctxDone s = true -> (leaveReq s = true -> leaveDone s = true) ->
  nth_error (thr s) g = Some p -> guard_pc p = true ->
  status s = Stopped /\ (exists j, In (j, false, Started) (lin s)) /\ exists r, p = Done KGuard r /\ r <> RNotStarted.
Proof.
  intros R Q Hc Hl Hp Hg. pose proof (all_done _ _ R Q Hc Hl _ _ Hp) as Hd.
  destruct p; try discriminate Hd. destruct k; try discriminate Hg. destruct (reachable_inv _ _ R) as (n & V).
  pose proof (i_facts _ _ V _ _ Hp) as (_ & _ & _ & Hr & _). specialize (Hr eq_refl).
  destruct (returns c s g KGuard r R Hp) as (seen & Hin & Hok).
  assert (St : status s = Stopped).
  { rewrite (i_status _ _ V). apply (after_stop_entry _ g seen (i_wf _ _ V) Hin). intros ->. exact (Hr Hok). }
  split; auto. split; [|eauto]. apply eff_exists; [apply (i_wf _ _ V)|]. rewrite <- (i_status _ _ V). auto.
Qed.

Lemma created c ths evs : forallb env_pc ths = true ->
  let s := run c evs (init ths) in
  length (thr s) = (length ths + N.to_nat (spawned s))%nat /\ spawned s <= 1 /\
  forall j p, nth_error (thr s) j = Some p -> (length ths <= j)%nat -> guard_pc p = true.
Proof.
  intros He s. assert (V : inv (length ths) s) by (apply run_ind; [intros e s1 s2; apply inv_step|apply inv_init, He]).
  split; [apply (i_len _ _ V)|]. split; [apply (p_spawned _ (i_phase _ _ V))|apply (i_created _ _ V)].
Qed.

Lemma start_holds_lock c s i p : reachable c s -> nth_error (thr s) i = Some p -> start_hold p = true ->
  lock s = Some i /\ status s = Started.
Proof.
  intros R Hp Hh. destruct (reachable_inv _ _ R) as (n & V).
  split; [|apply (i_window _ _ V _ _ Hp), Hh]. apply (i_lock _ _ V). rewrite (holder_at_nth _ _ _ Hp). destruct p; try discriminate; reflexivity.
Qed.

Lemma root_nil_only_in_start_or_failed c s : reachable c s -> status s <> Ready -> hasCtx s = false ->
  exists i p, nth_error (thr s) i = Some p /\
    ((p = SSpawnRoot /\ lock s = Some i /\ status s = Started) \/ failing p = true).
Proof.
  intros R A B. destruct (reachable_inv _ _ R) as (n & V).
  destruct (i_root _ _ V A B) as (i & p & Hp & [->|Hf]); exists i; eexists; (split; [exact Hp|]); [left|right; exact Hf].
  split; [reflexivity|]. exact (start_holds_lock _ _ _ _ R Hp eq_refl).
Qed.

Lemma skip_only_if_root_failed c s : reachable c s -> skipped s = true ->
  hasCtx s = false /\ kills s = 0 /\ exists i p, nth_error (thr s) i = Some p /\ failing p = true.
Proof.
  intros R Hs. destruct (reachable_inv _ _ R) as (n & V). destruct (p_skipped _ (i_phase _ _ V) Hs) as (A & B).
  split; [exact A|]. split; [apply (p_noroot _ (i_phase _ _ V) A)|].
  destruct (i_root _ _ V) as (i & p & Hp & [->|F]); [congruence|exact A| |eauto].
  (* a Start about to create the root holds the lock with status start *)
  rewrite (w_hold _ _ (i_window _ _ V _ _ Hp) eq_refl) in B. discriminate.
Qed.

Lemma stop_effect_full c s i k r : reachable c s -> nth_error (thr s) i = Some (Done k r) -> stop_nil k r = true ->
  status s = Stopped /\ schedStopped s = true /\
  ((hasCtx s = true /\ kills s = 1 /\ guardClosed s = true /\ ctxDone s = true)
   \/ (hasCtx s = false /\ kills s = 0 /\ skipped s = true /\ exists j p, nth_error (thr s) j = Some p /\ failing p = true)).
Proof.
  intros R Hp Hn. destruct (reachable_inv _ _ R) as (n & V). destruct (stop_nil_claim _ _ Hn) as (cl & Hc & Hin).
  split; [exact (eff_stopped _ _ _ _ _ V Hp Hc Hin)|].
  destruct (i_facts _ _ V _ _ Hp) as (_ & _ & _ & _ & Hx & _). destruct (Hx Hn) as (B & [Hs|(C & D & E & F)]); (split; [exact B|]).
  - right. destruct (skip_only_if_root_failed _ _ R Hs) as (G & H & J). auto.
  - left. pose proof (p_kills _ (i_phase _ _ V)). repeat split; auto. lia.
Qed.

Lemma stop_terminates c s i k r : reachable c s -> nth_error (thr s) i = Some (Done k r) -> stop_nil k r = true ->
  hasCtx s = true ->
  status s = Stopped /\ schedStopped s = true /\ kills s = 1 /\ guardClosed s = true /\ ctxDone s = true.
Proof.
  intros R Hp Hn Hc. destruct (stop_effect_full _ _ _ _ _ R Hp Hn) as (A & B & [(_ & C)|(G & _)]); [auto|congruence].
Qed.

Lemma start_returned_hasCtx c s i : reachable c s -> nth_error (thr s) i = Some (Done KStart RNil) -> hasCtx s = true.
Proof. intros R Hp. apply (thread_facts c s i _ R Hp). reflexivity. Qed.

Lemma first_start_unique c s i j : reachable c s -> In (i, true, Ready) (lin s) -> In (j, true, Ready) (lin s) -> i = j.
Proof. intros R A B. apply (entry_unique (lin s) i j true Ready (proj1 (lin_ok c s R)) A B). discriminate. Qed.

Lemma effective_stop_unique c s i j : reachable c s -> In (i, false, Started) (lin s) -> In (j, false, Started) (lin s) -> i = j.
Proof. intros R A B. apply (entry_unique (lin s) i j false Started (proj1 (lin_ok c s R)) A B). discriminate. Qed.

Lemma kills_le_1 c s : reachable c s -> kills s <= 1.
Proof. intros R. destruct (reachable_inv _ _ R) as (n & V). apply (i_phase _ _ V). Qed.
