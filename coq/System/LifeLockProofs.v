(** Proofs about the merged machine System/LifeLock.v (C07): it refines System/Lifecycle.v (so every theorem of
    LifecycleProofs.v holds of [base] of every reachable state), actorOfLock is a mutual-exclusion lock, the lock
    hierarchy statusLock < actorOfLock is respected, and no reachable state is a deadlock - with both locks. *)
From Coq Require Import List NArith Bool Lia Arith.
From Coq Require Import ZifyN ZifyNat.
From Vivid Require Import System.Lifecycle System.LifecycleProofs System.LifeLock.
Import ListNotations.
Local Open Scope N_scope.

Lemma nth_updsub_eq l i x : nth i (updsub l i x) Idle = x.
Proof. revert l. induction i as [|i IH]; intros [|y l]; cbn; auto. Qed.

Lemma nth_updsub_neq l i j x : i <> j -> nth j (updsub l i x) Idle = nth j l Idle.
Proof.
  revert l j. induction i as [|i IH]; intros [|y l] [|j] H; cbn; auto; try congruence.
  - destruct j; reflexivity.
  - rewrite IH by congruence. destruct j; reflexivity.
Qed.

Lemma getsub_setsub_eq s i x : getsub (setsub s i x) i = x.
Proof. apply nth_updsub_eq. Qed.
Lemma getsub_setsub_neq s i j x : i <> j -> getsub (setsub s i x) j = getsub s j.
Proof. apply nth_updsub_neq. Qed.

Lemma lift_spec c e s s' : lift c e s = Some s' ->
  exists b, step (c_base c) e (base s) = Some b /\ s' = set_base s b.
Proof. unfold lift. destruct (step (c_base c) e (base s)) as [b|]; [|discriminate]. intros H. injection H as <-. eauto. Qed.

Lemma ext_step_frame j alt s s' : ext_step j alt s = Some s' ->
  base s' = base s /\ subs s' = subs s /\ clusterNow s' = clusterNow s /\
  exists x y, nth_error (ext s) j = Some x /\ ext s' = upd (ext s) j y /\ (xrank y < xrank x)%nat /\
              lock_move (OExt j) (xholds x) (xholds y) (alock s) (alock s').
Proof.
  unfold ext_step, lock_move. destruct (nth_error (ext s) j) as [[| | | |]|]; try discriminate;
    try destruct (alock s) eqn:Ea; try destruct alt; try discriminate; intros [= <-];
    repeat split; eexists _, _; (split; [reflexivity|]); (split; [reflexivity|]); (split; [cbn; lia|cbn; auto 6]).
Qed.

(** the pcs of the abstract machine that are refined *)
Definition region (p : pc) : bool := match p with SChain | TLeaveReq _ _ => true | _ => false end.

(** the state in which the k-th System.ActorOf call of the chain has returned without error *)
Definition chain_done (c : cfg2) (s : st2) (k : nat) : st2 :=
  if is_cluster_link (nth k (links c) LMetrics) then set_clusterNow (set_alock s None) true else set_alock s None.

(** a step of thread i inside a refined region (p: its abstract pc) leads to the given state by a sub-step that leaves
    [base] alone - last argument None - or is the abstract step EStep i a taken from that state - last argument Some a *)
Inductive rstep (c : cfg2) (i : nat) (s : st2) : pc -> st2 -> option N -> Prop :=
| r_enter p : getsub s i = Idle -> (p = SChain -> links c <> []) -> rstep c i s p (setsub s i (AAcq 0)) None
| r_acquire p k : getsub s i = AAcq k -> alock s = None ->
    rstep c i s p (setsub (set_alock s (Some (OLife i))) i (AWork k)) None
| r_work p k ok : getsub s i = AWork k -> rstep c i s p (setsub s i (ARel k ok)) None
| r_next k : getsub s i = ARel k true -> (S k < length (links c))%nat ->
    rstep c i s SChain (setsub (chain_done c s k) i (AAcq (S k))) None
| r_chain_empty : getsub s i = Idle -> links c = [] -> rstep c i s SChain s (Some 0)
| r_chain_end k : getsub s i = ARel k true -> (length (links c) <= S k)%nat ->
    rstep c i s SChain (setsub (chain_done c s k) i Idle) (Some 0)
| r_chain_fail k : getsub s i = ARel k false ->
    rstep c i s SChain (setsub (set_alock s None) i Idle) (Some (if existsb is_cluster_link (firstn k (links c)) then 2 else 1))
| r_leave_end w d k ok : getsub s i = ARel k ok ->
    rstep c i s (TLeaveReq w d) (setsub (set_alock (if ok then set_leaveHelper s true else s) None) i Idle) (Some 0).

Lemma life_step_cases c i alt s s' p : nth_error (thr (base s)) i = Some p -> step2 c (E2Life i alt) s = Some s' ->
  region p = false /\ lift c (EStep i alt) s = Some s' \/
  region p = true /\ exists s1 a, rstep c i s p s1 a /\ match a with None => s' = s1 | Some a' => lift c (EStep i a') s1 = Some s' end.
Proof.
  intros Hp H. cbn [step2] in H. rewrite Hp in H. destruct p; auto; right; (split; [reflexivity|]);
    unfold chain_step, leave_step, acquire in H; destruct (getsub s i) as [|k|k|k ok] eqn:Es.
  (* in front of actorOfLock, and inside Context.ActorOf: the same in the chain and in Leave() *)
  2,6: destruct (alock s) eqn:Ea; [discriminate|]; injection H as <-; eexists _, None;
    (split; [exact (r_acquire c i s _ k Es Ea)|reflexivity]).
  2,5: destruct alt as [|[| |]]; try discriminate; injection H as <-; eexists _, None;
    (split; [apply r_work, Es|reflexivity]).
  - destruct (links c) eqn:El; [exists s, (Some 0); split; [constructor; assumption|exact H]|].
    injection H as <-. eexists _, None. split; [constructor; [assumption|intros _; rewrite El; discriminate]|reflexivity].
  - destruct ok; [|eexists _, (Some _); split; [exact (r_chain_fail c i s k Es)|exact H]].
    fold (chain_done c s k) in H. destruct (Nat.ltb_spec (S k) (length (links c))) as [Lt|Ge].
    + injection H as <-. eexists _, None. split; [exact (r_next c i s k Es Lt)|reflexivity].
    + eexists _, (Some 0). split; [exact (r_chain_end c i s k Es Ge)|exact H].
  - injection H as <-. eexists _, None. split; [constructor; [assumption|discriminate]|reflexivity].
  - eexists _, (Some 0). split; [exact (r_leave_end c i s w d k ok Es)|exact H].
Qed.

Lemma rstep_frame c i s p s1 a : rstep c i s p s1 a ->
  base s1 = base s /\ ext s1 = ext s /\ (forall j, j <> i -> getsub s1 j = getsub s j) /\ (a <> None -> getsub s1 i = Idle).
Proof.
  intros R. assert (Cd : forall k, base (chain_done c s k) = base s /\ ext (chain_done c s k) = ext s /\ subs (chain_done c s k) = subs s)
    by (intros k; unfold chain_done; destruct (is_cluster_link _); auto).
  destruct R; try destruct ok; repeat split; try apply Cd; auto; try (intros j N; rewrite getsub_setsub_neq by congruence; unfold getsub; try rewrite (proj2 (proj2 (Cd k))); reflexivity);
    try (intros _; assumption || apply getsub_setsub_eq); try (intros N; destruct (N eq_refl)).
Qed.

Lemma step2_base c e s s' : step2 c e s = Some s' ->
  base s' = base s \/ exists e', step (c_base c) e' (base s) = Some (base s').
Proof.
  assert (L : forall e0 s0, base s0 = base s -> lift c e0 s0 = Some s' ->
                base s' = base s \/ exists e', step (c_base c) e' (base s) = Some (base s')).
  { intros e0 s0 Hb Hl. apply lift_spec in Hl. destruct Hl as (b & Hs & ->). right. exists e0. rewrite <- Hb. exact Hs. }
  intros H. destruct e as [i alt|j xalt| | |dt].
  - destruct (nth_error (thr (base s)) i) as [p|] eqn:Hp; [|cbn in H; rewrite Hp in H; discriminate].
    destruct (life_step_cases _ _ _ _ _ _ Hp H) as [[_ Hl]|(_ & s1 & a & R & E)]; [exact (L _ s eq_refl Hl)|].
    destruct (rstep_frame _ _ _ _ _ _ R) as (Hb & _). destruct a; [exact (L _ s1 Hb E)|left; congruence].
  - left. apply (ext_step_frame j xalt s s' H).
  - exact (L _ s eq_refl H).
  - cbn in H. destruct (leaveHelper s); [exact (L _ s eq_refl H)|discriminate].
  - exact (L _ s eq_refl H).
Qed.

Lemma run2_ind c (P : st2 -> Prop) :
  (forall e s s', P s -> step2 c e s = Some s' -> P s') -> forall evs s, P s -> P (run2 c evs s).
Proof.
  intros Hs evs. induction evs as [|e evs IH]; intros s Ps; [exact Ps|]. apply IH.
  unfold step_or_stay2. destruct (step2 c e s) eqn:E; [exact (Hs _ _ _ Ps E)|exact Ps].
Qed.

Theorem refines c s : reachable2 c s -> reachable (c_base c) (base s).
Proof.
  intros (ths & m & evs & He & <-). apply (run2_ind c (fun s => reachable (c_base c) (base s))); [|exists ths, []; auto].
  intros e s s' R H. destruct (step2_base _ _ _ _ H) as [->|(e' & He')]; [exact R|exact (reachable_step _ _ _ _ R He')].
Qed.

Lemma reachable2_run c ths m evs : forallb env_pc ths = true -> reachable2 c (run2 c evs (init2 ths m)).
Proof. intros H. exists ths, m, evs. auto. Qed.

Lemma reachable2_ind c (P : st2 -> Prop) :
  (forall ths m, forallb env_pc ths = true -> P (init2 ths m)) ->
  (forall e s s', reachable2 c s -> P s -> step2 c e s = Some s' -> P s') ->
  forall s, reachable2 c s -> P s.
Proof.
  intros Hi Hs s (ths & m & evs & He & <-). induction evs as [|e evs IH] using rev_ind; [apply Hi, He|].
  unfold run2. rewrite fold_left_app. cbn. fold (run2 c evs (init2 ths m)).
  unfold step_or_stay2. destruct (step2 c e (run2 c evs (init2 ths m))) eqn:E; [|exact IH].
  exact (Hs _ _ _ (reachable2_run c ths m evs He) IH E).
Qed.

Definition sub_index (x : sub) : option nat := match x with Idle => None | AAcq k | AWork k | ARel k _ => Some k end.

Record invL (c : cfg2) (s : st2) : Prop := {
  l_own : forall t, alock s = Some t <-> holds_actorOf s t = true;
  l_sub : forall i, getsub s i <> Idle -> exists p, nth_error (thr (base s)) i = Some p /\ region p = true;
  l_pos : forall i k, nth_error (thr (base s)) i = Some SChain -> sub_index (getsub s i) = Some k -> (k < length (links c))%nat;
}.

Lemma owner_eq_dec (a b : owner) : {a = b} + {a <> b}.
Proof. decide equality; apply Nat.eq_dec. Qed.

Lemma rstep_lock c i s p s1 a : rstep c i s p s1 a ->
  lock_move (OLife i) (holds_alock (getsub s i)) (holds_alock (getsub s1 i)) (alock s) (alock s1).
Proof.
  assert (Cd : forall k, alock (chain_done c s k) = None) by (intros k; unfold chain_done; destruct (is_cluster_link _); reflexivity).
  unfold lock_move. destruct 1 as [p E0 _|p k E0 Ea|p k ok E0|k E0 _|E0 _|k E0 _|k E0|w d k ok E0];
    rewrite ?getsub_setsub_eq, E0; cbn; rewrite ?Cd; try destruct ok; auto 6.
Qed.

Lemma invL_rstep c i s p s1 a : invL c s -> nth_error (thr (base s)) i = Some p -> region p = true ->
  rstep c i s p s1 a -> invL c s1.
Proof.
  intros [A C D] Hp Hr R. destruct (rstep_frame _ _ _ _ _ _ R) as (Hb & He & Hs & _). constructor; rewrite ?Hb.
  - apply (lock_move_frame owner_eq_dec (holds_actorOf s) _ (OLife i) (alock s) _ A); [|exact (rstep_lock _ _ _ _ _ _ R)].
    intros [j|j] N; cbn [holds_actorOf]; [rewrite Hs by congruence; reflexivity|rewrite He; reflexivity].
  - intros j Hj. destruct (Nat.eq_dec j i) as [->|N]; [eauto|]. rewrite Hs in Hj by exact N. exact (C j Hj).
  - intros j k Hj Hx. destruct (Nat.eq_dec j i) as [->|N]; [|rewrite Hs in Hx by exact N; exact (D j k Hj Hx)].
    specialize (D i). assert (Ep : p = SChain) by congruence.
    destruct R as [p E0 Hl|p k0 E0 _|p k0 ok E0|k0 E0 Hk|E0 _|k0 E0 _|k0 E0|w d k0 ok E0];
      rewrite ?getsub_setsub_eq in Hx; try discriminate Hx; try exact (D k Hj Hx); try (apply (D k Hj); rewrite E0; exact Hx).
    + injection Hx as <-. destruct (links c); [destruct (Hl Ep eq_refl)|cbn; lia].
    + injection Hx as <-. exact Hk.
Qed.

Lemma inv_lift_thread c s i alt s' : invL c s -> getsub s i = Idle ->
  lift c (EStep i alt) s = Some s' -> invL c s'.
Proof.
  intros [A C D] Hi H. apply lift_spec in H. destruct H as (b & Hs & ->).
  destruct (step_thread_at _ _ _ _ _ Hs) as (p & Hp). destruct (own_step_rank _ _ _ _ _ _ Hs Hp) as (p' & Hp' & _ & Hoth).
  assert (Hsame : forall j, getsub s j <> Idle -> nth_error (thr b) j = nth_error (thr (base s)) j).
  { intros j Hj. destruct (C j Hj) as (q & Hq & _). apply Hoth; [congruence|]. eapply nth_error_lt; eauto. }
  constructor; cbn.
  - exact A.
  - intros j Hj. change (getsub s j <> Idle) in Hj. rewrite (Hsame j Hj). apply C; auto.
  - intros j k Hj Hk. change (sub_index (getsub s j) = Some k) in Hk.
    assert (Hne : getsub s j <> Idle) by (intros E; rewrite E in Hk; discriminate).
    rewrite (Hsame j Hne) in Hj. eapply D; eauto.
Qed.

Lemma inv_lift_env c s e s' : invL c s -> (forall i alt, e <> EStep i alt) -> lift c e s = Some s' -> invL c s'.
Proof.
  intros [A C D] He H. apply lift_spec in H. destruct H as (b & Hs & ->).
  pose proof (env_step_thr _ _ _ _ Hs He) as Ht.
  constructor; cbn; auto.
  - intros j Hj. rewrite Ht. apply C; auto.
  - intros j k. rewrite Ht. apply D.
Qed.

Lemma invL_ext_step c s s1 j x y : invL c s -> nth_error (ext s) j = Some x ->
  base s1 = base s -> subs s1 = subs s -> ext s1 = upd (ext s) j y ->
  lock_move (OExt j) (xholds x) (xholds y) (alock s) (alock s1) ->
  invL c s1.
Proof.
  intros [A C D] Hx Hb Hs He Pat. constructor; [|unfold getsub; rewrite Hb, Hs; assumption..].
  apply (lock_move_frame owner_eq_dec (holds_actorOf s) _ (OExt j) (alock s) _ A).
  - intros [i|j'] N; cbn [holds_actorOf]; [unfold getsub; rewrite Hs; reflexivity|].
    rewrite He, nth_error_upd_neq by congruence. reflexivity.
  - cbn [holds_actorOf]. rewrite He, Hx, nth_error_upd_eq by (eapply nth_error_lt, Hx). exact Pat.
Qed.

Lemma sub_idle_outside c s i p : invL c s -> nth_error (thr (base s)) i = Some p -> region p = false -> getsub s i = Idle.
Proof.
  intros I Hp Hr. destruct (getsub s i) eqn:E; auto;
    (destruct (l_sub _ _ I i) as (q & Hq & Hreg); [rewrite E; discriminate|]; congruence).
Qed.

Lemma invL_step c e s s' : invL c s -> step2 c e s = Some s' -> invL c s'.
Proof.
  intros I H. destruct e as [i alt|j xalt| | |dt].
  - destruct (nth_error (thr (base s)) i) as [p|] eqn:Hp; [|cbn in H; rewrite Hp in H; discriminate].
    destruct (life_step_cases _ _ _ _ _ _ Hp H) as [[Hr Hl]|(Hr & s1 & a & R & E)].
    { exact (inv_lift_thread c s i alt s' I (sub_idle_outside _ _ _ _ I Hp Hr) Hl). }
    pose proof (invL_rstep _ _ _ _ _ _ I Hp Hr R) as IS.
    destruct a as [a|]; [|rewrite E; exact IS].
    exact (inv_lift_thread c s1 i a s' IS (proj2 (proj2 (proj2 (rstep_frame _ _ _ _ _ _ R))) ltac:(discriminate)) E).
  - destruct (ext_step_frame _ _ _ _ H) as (Hb & Hs & _ & x & y & Hx & He & _ & Lm).
    exact (invL_ext_step c s s' j x y I Hx Hb Hs He Lm).
  - apply (inv_lift_env c s ETreeDone s' I); [discriminate|exact H].
  - cbn in H. destruct (leaveHelper s); [|discriminate]. apply (inv_lift_env c s ELeaveDone s' I); [discriminate|exact H].
  - apply (inv_lift_env c s (ETick dt) s' I); [discriminate|exact H].
Qed.

Lemma nth_repeat_x m j x : nth_error (repeat_x m) j = Some x -> x = XSpawned.
Proof. revert j. induction m; intros [|j] H; cbn in H; try discriminate; [congruence|eauto]. Qed.

Lemma invL_init c ths m : invL c (init2 ths m).
Proof.
  constructor.
  - intros [i|j]; (split; [discriminate|]); cbn; intros Ht.
    + unfold getsub in Ht. cbn in Ht. destruct i; discriminate.
    + destruct (nth_error (repeat_x m) j) eqn:E; [|discriminate]. apply nth_repeat_x in E. subst. discriminate.
  - intros i Hi. exfalso. apply Hi. unfold getsub. cbn. destruct i; reflexivity.
  - intros i k _ Hk. unfold getsub in Hk. cbn in Hk. destruct i; discriminate.
Qed.

Lemma reachable2_inv c s : reachable2 c s -> invL c s.
Proof. apply reachable2_ind; [intros ths m _; apply invL_init|intros e s1 s2 _; apply invL_step]. Qed.

Theorem actorOf_mutex c s t t' : reachable2 c s -> holds_actorOf s t = true -> holds_actorOf s t' = true -> t = t'.
Proof.
  intros R H H'. pose proof (reachable2_inv _ _ R) as I. apply (l_own _ _ I) in H. apply (l_own _ _ I) in H'. congruence.
Qed.

Theorem status_mutex c s i j : reachable2 c s -> holds_status s i = true -> holds_status s j = true -> i = j.
Proof.
  intros R Hi Hj. unfold holds_status in *.
  destruct (nth_error (thr (base s)) i) as [p|] eqn:Ep; [|discriminate].
  destruct (nth_error (thr (base s)) j) as [q|] eqn:Eq; [|discriminate].
  eapply (mutex (c_base c) (base s)); eauto. apply refines. exact R.
Qed.

Theorem life_holder_where c s i : reachable2 c s -> holds_actorOf s (OLife i) = true ->
  exists p, nth_error (thr (base s)) i = Some p /\
    ((p = SChain /\ lock (base s) = Some i) \/ (exists w d, p = TLeaveReq w d /\ holds_status s i = false)).
Proof.
  intros R H. pose proof (reachable2_inv _ _ R) as I. cbn in H.
  destruct (l_sub _ _ I i) as (p & Hp & Hr); [intros E; rewrite E in H; discriminate|].
  exists p. split; [exact Hp|]. destruct p; try discriminate Hr.
  - left. split; [reflexivity|].
    eapply (start_holds_lock (c_base c) (base s) i SChain); [apply refines; exact R|exact Hp|reflexivity].
  - right. exists w, d. split; [reflexivity|]. unfold holds_status. rewrite Hp. reflexivity.
Qed.

Theorem status_waiter_holds_nothing c s i : reachable2 c s -> wants_status s i = true ->
  holds_actorOf s (OLife i) = false /\ holds_status s i = false.
Proof.
  intros R H. pose proof (reachable2_inv _ _ R) as I. unfold wants_status, holds_status in *.
  destruct (nth_error (thr (base s)) i) as [p|] eqn:Hp; [|discriminate]. split.
  - cbn. rewrite (sub_idle_outside _ _ _ _ I Hp); [reflexivity|]. destruct p; try discriminate H; reflexivity.
  - destruct p; try discriminate H; reflexivity.
Qed.

Theorem env_waiter_holds_nothing c s i p : reachable2 c s -> nth_error (thr (base s)) i = Some p -> env_wait (base s) p ->
  holds_actorOf s (OLife i) = false /\ holds_status s i = false.
Proof.
  intros R Hp H. pose proof (reachable2_inv _ _ R) as I. unfold holds_status. rewrite Hp. split.
  - cbn. rewrite (sub_idle_outside _ _ _ _ I Hp); [reflexivity|]. destruct p; try contradiction; reflexivity.
  - destruct p; try contradiction; reflexivity.
Qed.

Lemma lift_chain_ok c s0 s i alt : base s0 = base s -> nth_error (thr (base s)) i = Some SChain ->
  (alt = 0 \/ alt = 1 \/ alt = 2) -> exists s', lift c (EStep i alt) s0 = Some s'.
Proof.
  intros Hb Hp Ha. unfold lift. rewrite Hb. cbn [step]. rewrite Hp. cbn [step_thread].
  destruct Ha as [->|[->| ->]]; eexists; reflexivity.
Qed.

Lemma lift_leave_ok c s0 s i w d alt : base s0 = base s -> nth_error (thr (base s)) i = Some (TLeaveReq w d) ->
  exists s', lift c (EStep i alt) s0 = Some s'.
Proof. intros Hb Hp. unfold lift. rewrite Hb. cbn [step]. rewrite Hp. cbn [step_thread]. eexists; reflexivity. Qed.

Lemma region_enabled c s i p : nth_error (thr (base s)) i = Some p -> region p = true ->
  can_step c s (OLife i) \/ exists k o, getsub s i = AAcq k /\ alock s = Some o.
Proof.
  intros Hp Hr. unfold can_step. cbn [ev_of step2]. rewrite Hp.
  assert (Acq : forall k, (exists (alt : N) s', acquire s i k = Some s') \/ exists k' o, AAcq k = AAcq k' /\ alock s = Some o).
  { intros k. unfold acquire. destruct (alock s) as [o|]; [right; eauto|left; exists 0; eexists; reflexivity]. }
  destruct p; try discriminate Hr; [unfold chain_step|unfold leave_step];
    destruct (getsub s i) as [|k|k|k ok]; try apply Acq; left; exists 0; try (eexists; reflexivity).
  - destruct (links c); [apply (lift_chain_ok c _ s i 0); auto|eexists; reflexivity].
  - destruct ok; [|apply (lift_chain_ok c _ s i); [reflexivity|exact Hp|destruct (existsb _ _); auto]].
    destruct (Nat.ltb (S k) (length (links c))); [eexists; reflexivity|].
    apply (lift_chain_ok c _ s i 0); [destruct (is_cluster_link _); reflexivity|exact Hp|auto].
  - apply (lift_leave_ok c _ s i w d 0); [destruct ok; reflexivity|exact Hp].
Qed.

Lemma holder_can_step c s o : invL c s -> alock s = Some o -> can_step c s o.
Proof.
  intros I Ha. pose proof (proj1 (l_own _ _ I _) Ha) as Hh. destruct o as [i|j]; cbn in Hh.
  - destruct (l_sub _ _ I i) as (p & Hp & Hr); [intros E; rewrite E in Hh; discriminate|].
    destruct (region_enabled c s i p Hp Hr) as [Cs|(k & o & Es & _)]; [exact Cs|]. rewrite Es in Hh. discriminate.
  - unfold can_step. cbn [ev_of step2]. unfold ext_step. exists 0.
    destruct (nth_error (ext s) j) as [[| | | |]|]; try discriminate Hh; eexists; reflexivity.
Qed.

Definition blocked_on_actorOf (c : cfg2) (s : st2) (t : owner) : Prop :=
  wants_actorOf s t = true /\ exists o, alock s = Some o /\ o <> t /\ can_step c s o.

Lemma life_enabled c s i : invL c s -> (exists alt b, step (c_base c) (EStep i alt) (base s) = Some b) ->
  can_step c s (OLife i) \/ blocked_on_actorOf c s (OLife i).
Proof.
  intros I (alt & b & Hs). destruct (step_thread_at _ _ _ _ _ Hs) as (p & Hp). destruct (region p) eqn:Hr.
  - destruct (region_enabled c s i p Hp Hr) as [Cs|(k & o & Es & Ea)]; [left; exact Cs|right].
    split; [cbn; rewrite Es; reflexivity|]. exists o. split; [exact Ea|]. split; [|exact (holder_can_step c s o I Ea)].
    intros ->. pose proof (proj1 (l_own _ _ I _) Ea) as Hh. cbn in Hh. rewrite Es in Hh. discriminate.
  - left. exists alt. cbn [ev_of step2]. rewrite Hp. unfold lift. rewrite Hs.
    destruct p; try discriminate Hr; eexists; reflexivity.
Qed.

Theorem no_deadlock2 c s t : reachable2 c s -> unfinished s t ->
  can_step c s t
  \/ blocked_on_actorOf c s t
  \/ (exists i j, t = OLife i /\ wants_status s i = true /\ lock (base s) = Some j /\ j <> i /\
        (can_step c s (OLife j) \/ blocked_on_actorOf c s (OLife j)))
  \/ env_wait2 s t.
Proof.
  intros R U. pose proof (reachable2_inv _ _ R) as I. pose proof (refines _ _ R) as Rb.
  destruct t as [i|j].
  - destruct U as (p & Hp & Hd).
    destruct (progress _ _ _ _ Rb Hp Hd) as [(alt & b & Hs)|[(Hl & j & Hn & Hlk & b & Hs)|He]].
    + destruct (life_enabled c s i I) as [H|H]; eauto.
    + right. right. left. exists i, j. split; [reflexivity|]. split; [unfold wants_status; rewrite Hp; exact Hl|].
      split; [exact Hlk|]. split; [exact Hn|]. apply life_enabled; eauto.
    + right. right. right. exists p. auto.
  - destruct U as (x & Hx & Hd). unfold can_step, blocked_on_actorOf. cbn [ev_of step2 wants_actorOf]. unfold ext_step. rewrite Hx.
    destruct x; try congruence.
    + left. exists 0. eexists; reflexivity.
    + destruct (alock s) as [o|] eqn:Ea; [right; left|left; exists 0; eexists; reflexivity].
      split; [reflexivity|]. exists o. split; [reflexivity|]. split; [|eapply holder_can_step; eauto].
      intros ->. pose proof (proj1 (l_own _ _ I _) Ea) as Hh. cbn in Hh. rewrite Hx in Hh. discriminate.
    + left. exists 0. eexists; reflexivity.
    + left. exists 0. eexists; reflexivity.
Qed.

Theorem some_thread_can_step c s t : reachable2 c s -> unfinished s t -> ~ env_wait2 s t -> exists t', can_step c s t'.
Proof.
  intros R U N. destruct (no_deadlock2 c s t R U) as [H|[(_ & o & _ & _ & H)|[(i & j & _ & _ & _ & _ & [H|(_ & o & _ & _ & H)])|H]]]; eauto.
  contradiction.
Qed.

Theorem status_holder_progress c s j : reachable2 c s -> lock (base s) = Some j ->
  can_step c s (OLife j) \/ blocked_on_actorOf c s (OLife j).
Proof.
  intros R Hl. pose proof (reachable2_inv _ _ R) as I. pose proof (refines _ _ R) as Rb.
  destruct (lock_released _ _ _ Rb Hl) as ((b & Hs) & _). apply life_enabled; eauto.
Qed.

Lemma sub_rank_pos L x : (1 <= sub_rank L x)%nat.
Proof. destruct x; cbn; lia. Qed.

Lemma rank_lift c s0 s i alt s' : base s0 = base s -> getsub s0 i = Idle ->
  lift c (EStep i alt) s0 = Some s' -> (rank2 c s' (OLife i) < rank2 c s (OLife i))%nat.
Proof.
  intros Hb Hi H. apply lift_spec in H. destruct H as (b & Hs & ->). rewrite Hb in Hs.
  destruct (step_thread_at _ _ _ _ _ Hs) as (p & Hp). destruct (own_step_rank _ _ _ _ _ _ Hs Hp) as (p' & Hp' & Hr & _).
  unfold rank2. cbn [base set_base]. rewrite Hp, Hp'. change (getsub (set_base s0 b) i) with (getsub s0 i). rewrite Hi.
  pose proof (sub_rank_pos (length (links c)) (getsub s i)). cbn [sub_rank]. nia.
Qed.

(** [rank2] is at most 20 * (3 * #chain-calls + 8) + 3 * #chain-calls + 4 for a life-cycle call ([rank] <= 20) and 4 for an
    external System.ActorOf call: every call finishes within that many of its own steps *)
Theorem own_steps2 c s t alt s' : reachable2 c s -> step2 c (ev_of t alt) s = Some s' ->
  (rank2 c s' t < rank2 c s t)%nat.
Proof.
  intros R H. pose proof (reachable2_inv _ _ R) as I. destruct t as [i|j]; cbn [ev_of] in H.
  - destruct (nth_error (thr (base s)) i) as [p|] eqn:Hp; [|cbn in H; rewrite Hp in H; discriminate].
    destruct (life_step_cases _ _ _ _ _ _ Hp H) as [[Hr Hl]|(Hr & s1 & a & RS & E)].
    { exact (rank_lift c s s i alt s' eq_refl (sub_idle_outside _ _ _ _ I Hp Hr) Hl). }
    destruct (rstep_frame _ _ _ _ _ _ RS) as (Hb & _ & _ & Hi). destruct a as [a|].
    + exact (rank_lift c s1 s i a s' Hb (Hi ltac:(discriminate)) E).
    + subst s'. unfold rank2. rewrite Hb, Hp. apply Nat.add_lt_mono_l.
      inversion RS as [? E0 ?|? k E0 ?|? k ok E0|k E0 ?| | | |]; subst; rewrite getsub_setsub_eq, E0; cbn; lia.
  - destruct (ext_step_frame _ _ _ _ H) as (_ & _ & _ & x & y & Hx & He & Hlt & _).
    unfold rank2. rewrite He, Hx, nth_error_upd_eq by (eapply nth_error_lt, Hx). exact Hlt.
Qed.
