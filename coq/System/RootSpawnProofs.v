(** Proofs about System/RootSpawn.v (C07): with the re-read of the root's state after the registration (the code since /repo
    6438ab6) every child registered by a System.ActorOf racing the root's OnKill is sent a kill, the root never waits for a
    child nobody kills, and at quiescence everything has terminated; with the stale read both fail. *)
From Coq Require Import List Bool Arith Lia.
From Vivid Require Import System.RootSpawn.
Import ListNotations.

Lemma nth_error_upd_eq {A} (l : list A) i x : i < length l -> nth_error (upd l i x) i = Some x.
Proof. revert i. induction l; intros [|i] H; cbn in *; try lia; auto. apply IHl. lia. Qed.

Lemma nth_error_upd_neq {A} (l : list A) i j x : i <> j -> nth_error (upd l i x) j = nth_error l j.
Proof. revert i j. induction l; intros [|i] [|j] H; cbn; auto; try congruence. Qed.

Lemma nth_error_lt {A} (l : list A) i x : nth_error l i = Some x -> i < length l.
Proof. intros H. apply nth_error_Some. congruence. Qed.

Lemma mem_In x l : mem x l = true <-> In x l.
Proof.
  unfold mem. rewrite existsb_exists. split.
  - intros (y & Hy & E). apply Nat.eqb_eq in E. subst. exact Hy.
  - intros H. exists x. split; [exact H|apply Nat.eqb_refl].
Qed.

Lemma In_remove_all x y l : In y (remove_all x l) -> In y l.
Proof. unfold remove_all. intros H. apply filter_In in H. tauto. Qed.

Lemma length_remove_all_le x l : length (remove_all x l) <= length l.
Proof. unfold remove_all. induction l as [|a l IH]; cbn; [lia|]. destruct (Nat.eqb x a); cbn; lia. Qed.

Lemma length_remove_all x l : In x l -> length (remove_all x l) < length l.
Proof.
  pose proof (length_remove_all_le x) as Le. unfold remove_all in *.
  induction l as [|a l IH]; cbn; [tauto|]. intros [->|H].
  - rewrite Nat.eqb_refl. cbn. specialize (Le l). lia.
  - destruct (Nat.eqb x a); cbn; [specialize (Le l); lia|]. specialize (IH H). lia.
Qed.

Definition will_be_killed (s : rs) (ch : nat) : Prop :=
  In ch (killSent s) \/ rp s = RIdle \/ rp s = RCollect \/ exists j st0, nth_error (callers s) j = Some (A3 st0 ch).

Record invJ (s : rs) : Prop := {
  j_run : rst s = RRunning <-> rp s = RIdle;
  j_dead : rst s = RKilled <-> rp s = RDead;
  j_kids : forall ch, In ch (children s) -> will_be_killed s ch;
}.

Lemma invJ_init n : invJ (rinit n).
Proof. constructor; cbn; try tauto. split; discriminate. Qed.

(** a step of caller j keeps what is known about child ch: the kills sent stay, the root is where it was, and the other
    callers stand where they stood; only j's own final check for ch has to account for it *)
Lemma wbk_caller_step s s' j q p' ch :
  nth_error (callers s) j = Some q -> callers s' = upd (callers s) j p' -> rp s' = rp s ->
  (forall c, In c (killSent s) -> In c (killSent s')) ->
  (forall st0, q = A3 st0 ch -> will_be_killed s' ch) ->
  will_be_killed s ch -> will_be_killed s' ch.
Proof.
  intros Hq Hc Hr Hk H3 [H|[H|[H|(j0 & st0 & H)]]].
  4: destruct (Nat.eq_dec j0 j) as [->|N]; [apply (H3 st0); congruence|].
  all: unfold will_be_killed; rewrite Hr; auto.
  right; right; right. exists j0, st0. rewrite Hc, nth_error_upd_neq by congruence. exact H.
Qed.

Lemma invJ_step e s s' : invJ s -> rstep true e s = Some s' -> invJ s'.
Proof.
  intros [R D K] H. destruct e as [j| |ch]; cbn [rstep] in H.
  - unfold step_caller in H. destruct (nth_error (callers s) j) as [[|st0|st0 ch|res]|] eqn:Hj; try discriminate.
    + assert (forall p', invJ (set_callers s (upd (callers s) j p'))).
      { intros p'. constructor; cbn; auto. intros ch Hc.
        apply (wbk_caller_step s _ j _ p' ch Hj); [reflexivity..|auto|discriminate|exact (K ch Hc)]. }
      destruct (rst s); injection H as <-; auto.
    + injection H as <-. constructor; cbn; auto. intros ch [<-|Hc].
      * right. right. right. exists j, st0. apply nth_error_upd_eq. eapply nth_error_lt; eauto.
      * apply (wbk_caller_step s _ j _ (A3 st0 (fresh s)) ch Hj); [reflexivity..|auto|discriminate|exact (K ch Hc)].
    + injection H as <-. constructor; cbn; auto. intros c Hc.
      apply (wbk_caller_step s _ j _ (ADone (Some ch)) c Hj); [reflexivity..| | |exact (K c Hc)]; cbn.
      * intros c' Hc'. destruct (negb _); [right|]; exact Hc'.
      * intros st1 [= _ ->]. unfold will_be_killed. cbn. destruct (rst s) eqn:Er; cbn; [right; left; apply R; reflexivity|auto..].
  - unfold step_root in H. destruct (rp s) eqn:Ep; try discriminate.
    + injection H as <-. constructor; cbn; try (split; discriminate). intros ch Hc. unfold will_be_killed. cbn. auto.
    + injection H as <-. constructor; cbn.
      * rewrite R. split; discriminate.
      * rewrite D. split; discriminate.
      * intros ch Hc. left. apply in_or_app. left. exact Hc.
    + destruct (children s) eqn:Ec; [|discriminate]. injection H as <-. constructor; cbn; try tauto. split; discriminate.
  - unfold step_die in H. destruct (mem ch (killSent s) && mem ch (children s)); [|discriminate]. injection H as <-.
    constructor; cbn; auto. intros c Hc. apply In_remove_all in Hc. destruct (K c Hc) as [H1|[H1|[H1|H1]]]; unfold will_be_killed; cbn; auto.
Qed.

Lemma invJ_run evs s : invJ s -> invJ (rrun true evs s).
Proof.
  revert s. induction evs as [|e evs IH]; intros s I; cbn; [exact I|]. apply IH.
  unfold rstep_or_stay. destruct (rstep true e s) eqn:E; [eapply invJ_step; eauto|exact I].
Qed.

Lemma rreachable_inv s : rreachable true s -> invJ s.
Proof. intros (n & evs & <-). apply invJ_run. apply invJ_init. Qed.

Definition all_callers_done (s : rs) : Prop := forall j p, nth_error (callers s) j = Some p -> adone p = true.

Theorem registered_child_is_killed s : rreachable true s -> all_callers_done s -> rp s = RWait \/ rp s = RDead ->
  forall ch, In ch (children s) -> In ch (killSent s).
Proof.
  intros R A P ch Hc. destruct (j_kids _ (rreachable_inv _ R) ch Hc) as [H|[H|[H|(j & st0 & H)]]]; auto.
  - destruct P; congruence.
  - destruct P; congruence.
  - specialize (A _ _ H). discriminate.
Qed.

Lemma killed_child_dies reread s ch : In ch (killSent s) -> In ch (children s) ->
  exists s', rstep reread (EDie ch) s = Some s' /\ length (children s') < length (children s).
Proof.
  intros Hk Hc. cbn. unfold step_die. rewrite (proj2 (mem_In _ _) Hk), (proj2 (mem_In _ _) Hc).
  eexists. split; [reflexivity|]. apply length_remove_all, Hc.
Qed.

Theorem root_wait_progress s : rreachable true s -> all_callers_done s -> rp s = RWait ->
  exists e s', rstep true e s = Some s' /\ (e = ERoot \/ exists ch, e = EDie ch /\ length (children s') < length (children s)).
Proof.
  intros R A P. destruct (children s) as [|ch l] eqn:Ec.
  - exists ERoot. cbn. unfold step_root. rewrite P, Ec. eexists. split; [reflexivity|auto].
  - assert (Hc : In ch (children s)) by (rewrite Ec; left; reflexivity).
    destruct (killed_child_dies true s ch (registered_child_is_killed s R A (or_introl P) ch Hc) Hc) as (s' & H & Hlt).
    exists (EDie ch), s'. split; [exact H|]. right. exists ch. rewrite <- Ec. auto.
Qed.

Lemma caller_progress reread s j p : nth_error (callers s) j = Some p -> adone p = false -> exists s', rstep reread (ECall j) s = Some s'.
Proof.
  intros Hp Hd. cbn. unfold step_caller. rewrite Hp. destruct p; try discriminate; [destruct (rst s)| |]; eexists; reflexivity.
Qed.

(** the root's OnKill being in the mailbox, [ERoot] is enabled at RIdle: a quiescent state is past it *)
Theorem quiescent_all_terminated s : rreachable true s -> rquiescent true s ->
  all_callers_done s /\ rp s = RDead /\ rst s = RKilled /\ children s = [].
Proof.
  intros R Q. pose proof (rreachable_inv _ R) as I.
  assert (A : all_callers_done s).
  { intros j p Hp. destruct (adone p) eqn:Hd; [reflexivity|]. destruct (caller_progress true s j p Hp Hd) as (s' & H). rewrite (Q (ECall j)) in H. discriminate. }
  split; [exact A|].
  pose proof (Q ERoot) as Hr. cbn in Hr. unfold step_root in Hr. destruct (rp s) eqn:Ep; try discriminate.
  - exfalso. destruct (root_wait_progress s R A Ep) as (e & s' & He & _). rewrite (Q e) in He. discriminate.
  - split; [reflexivity|]. split; [apply (j_dead _ I); exact Ep|].
    destruct (children s) as [|ch l] eqn:Ec; [reflexivity|exfalso].
    assert (Hc : In ch (children s)) by (rewrite Ec; left; reflexivity).
    destruct (killed_child_dies true s ch (registered_child_is_killed s R A (or_intror Ep) ch Hc) Hc) as (s' & H & _).
    rewrite (Q (EDie ch)) in H. discriminate.
Qed.

(** the root takes its OnKill and collects an empty table between a caller's read of the state and its registration: the
    caller's final check uses `running`, the child is never killed, the root waits for it for ever *)
Definition stale_orphan : rs := rrun false [ECall 0; ERoot; ERoot; ECall 0; ECall 0] (rinit 1).

Lemma stale_orphan_facts :
  rreachable false stale_orphan /\ rquiescent false stale_orphan /\
  rp stale_orphan = RWait /\ rst stale_orphan = RKilling /\ children stale_orphan = [0] /\ killSent stale_orphan = [] /\
  callers stale_orphan = [ADone (Some 0)].
Proof.
  split; [exists 1, [ECall 0; ERoot; ERoot; ECall 0; ECall 0]; reflexivity|]. split; [|repeat split; reflexivity].
  intros [j| |ch]; cbn.
  - destruct j as [|[|j]]; reflexivity.
  - reflexivity.
  - reflexivity.
Qed.

(** ... or the root has died before the registration: the actor lives on under a dead root *)
Definition stale_survivor : rs := rrun false [ECall 0; ERoot; ERoot; ERoot; ECall 0; ECall 0] (rinit 1).

Lemma stale_survivor_facts :
  rreachable false stale_survivor /\ rquiescent false stale_survivor /\
  rp stale_survivor = RDead /\ rst stale_survivor = RKilled /\ children stale_survivor = [0] /\ killSent stale_survivor = [] /\
  callers stale_survivor = [ADone (Some 0)].
Proof.
  split; [exists 1, [ECall 0; ERoot; ERoot; ERoot; ECall 0; ECall 0]; reflexivity|]. split; [|repeat split; reflexivity].
  intros [j| |ch]; cbn.
  - destruct j as [|[|j]]; reflexivity.
  - reflexivity.
  - reflexivity.
Qed.

Lemma repaired_same_schedules :
  killSent (rrun true [ECall 0; ERoot; ERoot; ECall 0; ECall 0] (rinit 1)) = [0] /\
  killSent (rrun true [ECall 0; ERoot; ERoot; ERoot; ECall 0; ECall 0] (rinit 1)) = [0].
Proof. split; reflexivity. Qed.

Lemma rreachable_run reread n evs : rreachable reread (rrun reread evs (rinit n)).
Proof. exists n, evs. reflexivity. Qed.
