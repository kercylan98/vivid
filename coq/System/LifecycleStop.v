(** Every stop that gets through cancels the system context, and with it ends the context-guard goroutine.

    stop() calls s.cancel() BEFORE the select on guardClosedSignal / time.After: the timeout arm returns early, so a
    cancel placed after the select would be skipped by a timed-out Stop - the status is `stop` by then, every later Stop
    answers "already stopped" without cancelling, and the guard goroutine created by Start stays parked on
    <-s.options.Context.Done() for ever.  Proved here for the micro-step model System/Lifecycle.v (all populations, all
    schedules): [returned_stop_cancelled], [stopped_system_quiesces] (C07). *)
From Coq Require Import List NArith.
From Vivid Require Import System.Lifecycle System.LifecycleProofs.
Import ListNotations.
Local Open Scope N_scope.

(** pcs of the effective stop between its status switch and s.cancel() *)
Definition pre_cancel (p : pc) : bool :=
  match p with
  | TUnlock _ _ RNil | TReadCluster _ _ | TLeaveReq _ _ | TLeaveWait _ _ | TReadCtx _ _ | TKill _ _ | TCancel _ _ => true
  | _ => false
  end.

Lemma pre_cancel_mover c i s p m p' : tstep c i s p m p' -> pre_cancel p = true ->
  pre_cancel p' = true \/ ctxDone m = true \/ hasCtx s = false.
Proof. destruct 1; cbn; branch_pc; auto; discriminate. Qed.

Lemma stop_cancels c s : reachable c s -> status s = Stopped -> hasCtx s = true ->
  ctxDone s = true \/ exists j p, nth_error (thr s) j = Some p /\ pre_cancel p = true.
Proof.
  apply (reachable_ind c (fun s => status s = Stopped -> hasCtx s = true ->
                              ctxDone s = true \/ exists j p, nth_error (thr s) j = Some p /\ pre_cancel p = true));
    [discriminate|]. clear s. intros e s s' R IH H. destruct (reachable_inv _ _ R) as (n & V).
  destruct (step_sstep _ _ _ _ H) as [i alt p m p' Hp T| | |dt]; [|exact IH..].
  change (status m = Stopped -> hasCtx m = true ->
          ctxDone m = true \/ exists j q, nth_error (thr (goto m i p')) j = Some q /\ pre_cancel q = true).
  intros A B. destruct (ctxDone m) eqn:C; [left; reflexivity|right].
  destruct (hasCtx s) eqn:Hh; [destruct (status s) eqn:St|].
  1-2: (* the status has just become stop: this was the switch of the effective stop *)
    destruct T; cbn in A; rewrite ?St in A; try discriminate A;
    destruct (goto_thr _ _ _ _ _ _ (t_tcheck c i s w d) Hp) as (x & E & _); rewrite St in E |- *; rewrite E;
    (eapply witness_self; [exact Hp|reflexivity]).
  - destruct (IH eq_refl eq_refl) as [D|Wt]; [rewrite (m_ctxDone _ _ (tstep_mono _ _ _ _ _ _ T) D) in C; discriminate C|].
    apply (witness_step _ _ _ _ _ _ _ T Hp); [|exact Wt].
    intros Pp. destruct (pre_cancel_mover _ _ _ _ _ _ T Pp) as [Q|[Q|Q]]; congruence.
  - (* the root is created while the status is start *)
    destruct T; cbn in A, B; try congruence. rewrite (w_hold _ _ (i_window _ _ V _ _ Hp) eq_refl) in A. discriminate A.
Qed.

(** a stop that got through and has returned *)
Definition eff_returned (k : kind) (r : res) : bool :=
  match k, r with
  | KStop, RNil | KStop, RStopFailed | KGuard, RNil | KGuard, RStopFailed
  | KStart, RStartFailed RNil | KStart, RStartFailed RStopFailed => true
  | _, _ => false
  end.

Theorem returned_stop_cancelled c s i k r :
  reachable c s -> nth_error (thr s) i = Some (Done k r) -> eff_returned k r = true -> hasCtx s = true -> ctxDone s = true.
Proof.
  intros R Hp He Hh. destruct (stop_nil k r) eqn:Hn.
  - eapply stop_terminates; eauto.
  - apply (thread_facts c s i _ R Hp).
    destruct k, r; try discriminate; try reflexivity. destruct r; try discriminate; reflexivity.
Qed.

Theorem stopped_system_quiesces c s :
  reachable c s -> quiescent c s -> status s = Stopped -> (leaveReq s = true -> leaveDone s = true) ->
  (forall i p, nth_error (thr s) i = Some p -> is_done p = true) /\ (hasCtx s = true -> ctxDone s = true).
Proof.
  intros R Q Hs Hl.
  assert (Hc : hasCtx s = true -> ctxDone s = true).
  { intros Hh. destruct (stop_cancels c s R Hs Hh) as [H|(j & p & Hp & Hpre)]; [exact H|exfalso].
    destruct (quiescent_final _ _ R Q _ _ Hp) as [H|[[-> _]|(w & d & -> & H1 & H2)]].
    - destruct p; discriminate.
    - discriminate.
    - specialize (Hl H2). congruence. }
  split; [|exact Hc]. intros i p Hp.
  destruct (quiescent_final _ _ R Q _ _ Hp) as [H|[[-> Hcd]|(w & d & -> & H1 & H2)]]; [exact H|exfalso|exfalso].
  - (* a guard goroutine exists: the `go` statement was executed, after the root was created *)
    destruct (reachable_inv _ _ R) as (n & V).
    pose proof (i_facts _ _ V _ _ Hp) as (_ & Hg & _). destruct (Hg eq_refl) as (_ & Hsp).
    destruct (hasCtx s) eqn:Hh; [specialize (Hc eq_refl); congruence|].
    destruct (p_noroot _ (i_phase _ _ V) Hh) as (_ & Z & _). rewrite Z in Hsp. discriminate Hsp.
  - specialize (Hl H2). congruence.
Qed.

Theorem effective_stop_quiesces c s j :
  reachable c s -> quiescent c s -> In (j, false, Started) (lin s) -> (leaveReq s = true -> leaveDone s = true) ->
  (forall i p, nth_error (thr s) i = Some p -> is_done p = true) /\ (hasCtx s = true -> ctxDone s = true).
Proof.
  intros R Q Hin Hl. apply (stopped_system_quiesces c); auto.
  destruct (lin_ok _ _ R) as (W & ->). apply (after_stop_entry _ j Started W Hin). discriminate.
Qed.
