(** The unsynchronised read `s.clusterContext != nil` in stop sees the final value (C07).

    The start-up chain assigns s.clusterContext in the MIDDLE of Start's critical section (between the "@cluster" and the
    proxy-manager System.ActorOf calls); stop reads the field without any lock, after its own status switch.  On the merged
    machine ([clusterNow] = the field as the code writes it, [clusterCtx (base s)] = the abstract model's value, assigned at
    the end of the chain): whenever no thread is inside the chain the two agree - in particular whenever some stop stands
    at its read. *)
From Coq Require Import List NArith Bool Lia Arith.
From Coq Require Import ZifyN ZifyNat ZifyBool.
From Vivid Require Import System.Lifecycle System.LifecycleProofs System.LifeLock System.LifeLockProofs.
Import ListNotations.
Local Open Scope N_scope.

Definition pos (x : sub) : nat := match x with Idle => 0 | AAcq k | AWork k | ARel k _ => k end.

Record invK (c : cfg2) (s : st2) : Prop := {
  k_in : forall i, nth_error (thr (base s)) i = Some SChain ->
           clusterNow s = existsb is_cluster_link (firstn (pos (getsub s i)) (links c));
  k_out : (forall i, nth_error (thr (base s)) i <> Some SChain) -> clusterNow s = clusterCtx (base s);
}.

Lemma links_cluster c : existsb is_cluster_link (links c) = cfg_cluster (c_base c).
Proof.
  unfold links. destruct (c_metrics c), (c_remoting c), (cfg_cluster (c_base c)), (c_singletons c); reflexivity.
Qed.

Lemma existsb_firstn_le {A} (f : A -> bool) k l : existsb f (firstn k l) = true -> existsb f l = true.
Proof.
  revert k. induction l as [|a l IH]; intros [|k]; cbn; try discriminate; auto.
  destruct (f a); cbn; eauto.
Qed.

Lemma existsb_firstn_S {A} (f : A -> bool) k l d : (k < length l)%nat ->
  existsb f (firstn (S k) l) = existsb f (firstn k l) || f (nth k l d).
Proof.
  revert k. induction l as [|a l IH]; intros [|k] H; cbn [length] in H; try lia.
  - cbn. destruct (f a); reflexivity.
  - change (f a || existsb f (firstn (S k) l) = (f a || existsb f (firstn k l)) || f (nth k l d)).
    rewrite (IH k) by lia. destruct (f a); reflexivity.
Qed.

Lemma one_in_chain c s i j : reachable c s -> nth_error (thr s) i = Some SChain -> nth_error (thr s) j = Some SChain -> i = j.
Proof. intros R Hi Hj. destruct (reachable_inv _ _ R) as (n & V). eapply two_winners; eauto. Qed.

Lemma step_outside_chain c i alt s s' p : reachable c s -> step c (EStep i alt) s = Some s' ->
  nth_error (thr s) i = Some p -> p <> SChain ->
  clusterCtx s' = clusterCtx s /\
  (forall j, j <> i -> nth_error (thr s') j = Some SChain <-> nth_error (thr s) j = Some SChain) /\
  (nth_error (thr s') i = Some SChain ->
   clusterCtx s = false /\ forall j, nth_error (thr s) j <> Some SChain).
Proof.
  intros R H Hp Hn. destruct (reachable_inv _ _ R) as (n & V).
  destruct (step_tstep _ _ _ _ _ _ H Hp) as (m & p' & T & ->).
  split; [destruct T; try reflexivity; congruence|]. split.
  - intros j Hj. split; intros Hq.
    + destruct (goto_nth _ _ _ _ _ _ _ _ T Hp Hq) as [[-> _]|[[_ Ho]|(_ & E & _)]]; [congruence|exact Ho|discriminate E].
    + destruct (own_step_rank _ _ _ _ _ _ H Hp) as (_ & _ & _ & Hsame). rewrite Hsame; [exact Hq|exact Hj|eapply nth_error_lt, Hq].
  - rewrite (goto_nth_eq _ _ _ _ _ _ T Hp). intros [= E].
    assert (Er : p = SSpawnRoot).
    { pose proof (i_facts _ _ V _ _ Hp) as (_ & _ & _ & Hx).
      destruct T; try reflexivity; exfalso; revert E; cbn; branch_pc; try discriminate.
      intros ->. destruct Hx as [E|E]; discriminate E. }
    subst p. split; [exact (w_cluster _ _ (i_window _ _ V _ _ Hp) eq_refl)|].
    intros j Hj. assert (i = j) by (eapply two_winners; eauto). congruence.
Qed.

Lemma invK_stutter_other c s s' : base s' = base s -> clusterNow s' = clusterNow s ->
  (forall j, nth_error (thr (base s)) j = Some SChain -> getsub s' j = getsub s j) -> invK c s -> invK c s'.
Proof.
  intros Hb Hc Hs [A B]. constructor; rewrite Hb, Hc.
  - intros i Hi. rewrite (Hs i Hi). apply A. exact Hi.
  - exact B.
Qed.

Lemma invK_chain_sub c s s1 i : reachable (c_base c) (base s) -> nth_error (thr (base s)) i = Some SChain ->
  base s1 = base s -> clusterNow s1 = existsb is_cluster_link (firstn (pos (getsub s1 i)) (links c)) -> invK c s1.
Proof.
  intros R Hi Hb Hc. constructor; rewrite Hb.
  - intros j Hj. rewrite (one_in_chain _ _ _ _ R Hj Hi). exact Hc.
  - intros N. destruct (N i Hi).
Qed.

(** the field after a step of the chain thread: it is assigned by the "@cluster" call; when the thread leaves the chain
    (last argument Some a) the field and the branch a of the abstract step agree *)
Lemma rstep_cluster c i s s1 a : invL c s -> nth_error (thr (base s)) i = Some SChain -> rstep c i s SChain s1 a ->
  clusterNow s = existsb is_cluster_link (firstn (pos (getsub s i)) (links c)) ->
  match a with
  | None => clusterNow s1 = existsb is_cluster_link (firstn (pos (getsub s1 i)) (links c))
  | Some a => (a = 0 /\ clusterNow s1 = cfg_cluster (c_base c)) \/ (a = 1 /\ clusterNow s1 = false) \/
              (a = 2 /\ clusterNow s1 = true /\ cfg_cluster (c_base c) = true)
  end.
Proof.
  intros I Hp R Hnow.
  assert (Cd : forall k, getsub s i = ARel k true ->
                clusterNow (chain_done c s k) = existsb is_cluster_link (firstn (S k) (links c))).
  { intros k Es. assert (Hk : (k < length (links c))%nat) by (apply (l_pos _ _ I i k Hp); rewrite Es; reflexivity).
    rewrite Es in Hnow. cbn [pos] in Hnow. rewrite (existsb_firstn_S _ _ _ LMetrics Hk), <- Hnow. unfold chain_done.
    destruct (is_cluster_link _); cbn; [rewrite orb_true_r|rewrite orb_false_r]; auto. }
  inversion R as [? Es ?|? k Es ?|? k ok Es|k Es Hk|Es El|k Es Hk|k Es|]; subst; rewrite Es in Hnow; cbn [pos] in Hnow;
    rewrite ?getsub_setsub_eq; cbn [pos clusterNow setsub set_subs set_alock]; try assumption.
  - exact (Cd k Es).
  - left. split; [reflexivity|]. rewrite Hnow, <- links_cluster, El. reflexivity.
  - left. split; [reflexivity|]. rewrite (Cd k Es), firstn_all2 by lia. apply links_cluster.
  - destruct (existsb is_cluster_link (firstn k (links c))) eqn:Ex.
    + right. right. split; [reflexivity|]. split; [exact Hnow|]. rewrite <- links_cluster. exact (existsb_firstn_le _ _ _ Ex).
    + right. left. split; [reflexivity|exact Hnow].
Qed.

Lemma invK_lift_other c s s0 s' i alt p : reachable (c_base c) (base s) -> nth_error (thr (base s)) i = Some p -> p <> SChain ->
  base s0 = base s -> clusterNow s0 = clusterNow s -> (forall j, j <> i -> getsub s0 j = getsub s j) -> getsub s0 i = Idle ->
  lift c (EStep i alt) s0 = Some s' -> invK c s -> invK c s'.
Proof.
  intros R Hp Hn Hb Hc Hs Hi H [A B]. apply lift_spec in H. destruct H as (b & Hst & ->). rewrite Hb in Hst.
  destruct (step_outside_chain _ _ _ _ _ _ R Hst Hp Hn) as (Hcc & Hoth & Hent).
  constructor; cbn [base set_base clusterNow]; rewrite ?Hcc, Hc.
  - intros j Hj. change (getsub (set_base s0 b) j) with (getsub s0 j). destruct (Nat.eq_dec j i) as [->|Hne].
    + destruct (Hent Hj) as (Hf & NoChain). rewrite Hi, (B NoChain), Hf. reflexivity.
    + rewrite (Hs j Hne). apply A, Hoth; assumption.
  - intros N. apply B. intros j Hj. destruct (Nat.eq_dec j i) as [->|Hne]; [congruence|].
    apply (N j), Hoth; assumption.
Qed.

Lemma invK_lift_chain_end c s s0 s' i a : reachable (c_base c) (base s) -> nth_error (thr (base s)) i = Some SChain ->
  base s0 = base s ->
  (a = 0 /\ clusterNow s0 = cfg_cluster (c_base c)) \/ (a = 1 /\ clusterNow s0 = false) \/
  (a = 2 /\ clusterNow s0 = true /\ cfg_cluster (c_base c) = true) ->
  lift c (EStep i a) s0 = Some s' -> invK c s'.
Proof.
  intros R Hp Hb Ha H. apply lift_spec in H. destruct H as (b & Hst & ->). rewrite Hb in Hst.
  destruct (reachable_inv _ _ R) as (n & V). pose proof (w_cluster _ _ (i_window _ _ V _ _ Hp) eq_refl) as Hf.
  assert (Gone : forall j, nth_error (thr b) j <> Some SChain).
  { destruct (step_tstep _ _ _ _ _ _ Hst Hp) as (m & p' & T & ->).
    intros j Hj. destruct (goto_nth _ _ _ _ _ _ _ _ T Hp Hj) as [[-> <-]|[[Hne Ho]|(_ & E & _)]]; [|apply Hne|discriminate E].
    - inversion T.
    - exact (one_in_chain _ _ _ _ R Ho Hp). }
  constructor; cbn [base set_base clusterNow]; [intros j Hj; destruct (Gone j Hj)|intros _].
  cbn [step] in Hst. rewrite Hp in Hst. cbn [step_thread] in Hst.
  destruct Ha as [(-> & Hc)|[(-> & Hc)|(-> & Hc & Hcl)]]; injection Hst as <-; cbn; rewrite Hc; congruence.
Qed.

Lemma invK_lift_env c s s' e : (forall i alt, e <> EStep i alt) -> lift c e s = Some s' -> invK c s -> invK c s'.
Proof.
  intros He H [A B]. apply lift_spec in H. destruct H as (b & Hst & ->).
  destruct (step_sstep _ _ _ _ Hst); [destruct (He _ _ eq_refl)|..]; constructor; assumption.
Qed.

Lemma invK_step c e s s' : reachable2 c s -> invK c s -> step2 c e s = Some s' -> invK c s'.
Proof.
  intros R2 K H. pose proof (refines _ _ R2) as R. pose proof (reachable2_inv _ _ R2) as I.
  destruct e as [i alt|j xalt| | |dt].
  - destruct (nth_error (thr (base s)) i) as [p|] eqn:Hp; [|cbn in H; rewrite Hp in H; discriminate].
    destruct (life_step_cases _ _ _ _ _ _ Hp H) as [[Hr Hl]|(Hr & s1 & a & RS & E)].
    { refine (invK_lift_other c s s s' i alt p R Hp _ eq_refl eq_refl (fun _ _ => eq_refl) (sub_idle_outside _ _ _ _ I Hp Hr) Hl K).
      intros ->. discriminate Hr. }
    destruct p; try discriminate Hr.
    + pose proof (rstep_cluster _ _ _ _ _ I Hp RS (k_in _ _ K i Hp)) as Hn. destruct (rstep_frame _ _ _ _ _ _ RS) as (Hb & _).
      destruct a as [a|]; [exact (invK_lift_chain_end c s s1 s' i a R Hp Hb Hn E)|].
      subst s'. exact (invK_chain_sub c s s1 i R Hp Hb Hn).
    + destruct (rstep_frame _ _ _ _ _ _ RS) as (Hb & _ & Hs & Hi).
      assert (Hc : clusterNow s1 = clusterNow s) by (inversion RS; subst; try destruct ok; reflexivity).
      destruct a as [a|].
      * refine (invK_lift_other c s s1 s' i a (TLeaveReq w d) R Hp _ Hb Hc Hs (Hi _) E K); discriminate.
      * subst s'. apply (invK_stutter_other c s s1 Hb Hc); [|exact K]. intros j Hj. apply Hs. congruence.
  - destruct (ext_step_frame _ _ _ _ H) as (Hb & Hs & Hc & _).
    apply (invK_stutter_other c s); [exact Hb|exact Hc| |exact K]. intros i _. unfold getsub. rewrite Hs. reflexivity.
  - apply (invK_lift_env c s s' ETreeDone); [discriminate|exact H|exact K].
  - cbn in H. destruct (leaveHelper s); [|discriminate]. apply (invK_lift_env c s s' ELeaveDone); [discriminate|exact H|exact K].
  - apply (invK_lift_env c s s' (ETick dt)); [discriminate|exact H|exact K].
Qed.

Lemma invK_init c ths m : invK c (init2 ths m).
Proof.
  constructor; cbn; [|reflexivity]. intros i Hi. rewrite nth_error_map in Hi.
  destruct (nth_error ths i); cbn in Hi; discriminate.
Qed.

Lemma reachable2_invK c s : reachable2 c s -> invK c s.
Proof. apply reachable2_ind; [intros ths m _; apply invK_init|intros e s1 s2; apply invK_step]. Qed.

Theorem cluster_read_consistent c s i w d : reachable2 c s -> nth_error (thr (base s)) i = Some (TReadCluster w d) ->
  clusterNow s = clusterCtx (base s).
Proof.
  intros R Hp. apply (k_out _ _ (reachable2_invK _ _ R)). intros j Hj.
  pose proof (refines _ _ R) as Rb. destruct (reachable_inv _ _ Rb) as (n & V).
  (* the reader passed its switch having seen `start`: the status is stop; the chain thread holds the lock with status start *)
  pose proof (eff_stopped _ _ _ _ _ V Hp eq_refl (or_introl eq_refl)) as Hs.
  rewrite (w_hold _ _ (i_window _ _ V _ _ Hj) eq_refl) in Hs. discriminate Hs.
Qed.
