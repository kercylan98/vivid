(** The core invariant of Future/FutModel.v: definitions, initial state, clock tick. *)
From Coq Require Import List NArith Bool Arith.
From RecordUpdate Require Import RecordSet.
From Vivid Require Import Future.FutModel Future.FutSpec Future.FutBase.
Import ListNotations RecordSetNotations.
Local Open Scope N_scope.

Definition AllThr (P : nat -> pc -> Prop) (l : list pc) : Prop := forall j p, nth_error l j = Some p -> P j p.

Lemma AllThr_upd (P Q : nat -> pc -> Prop) l i q :
  AllThr P l ->
  (forall j p, j <> i -> nth_error l j = Some p -> P j p -> Q j p) ->
  Q i q ->
  AllThr Q (upd l i q).
Proof.
  intros H Hst Hq j p Hj. apply nth_error_upd_inv in Hj as [[-> ->]|[N Hj]]; auto.
Qed.

Lemma AllThr_snoc (P : nat -> pc -> Prop) l x : AllThr P l -> P (length l) x -> AllThr P (l ++ [x]).
Proof. intros H Hx j p Hj. apply nth_error_snoc_inv in Hj as [Hj|[-> ->]]; auto. Qed.

Definition ask_pc (p : pc) : bool :=
  match p with Start (ANew _) | ANew _ | AAppend | ACheck => true | _ => false end.
Definition timer_pc (p : pc) : bool :=
  match p with Start TFire | TFire => true | CCas (VErr e) => e =? E_TIMEOUT | _ => false end.

(** what a thread's pc says about the shared state *)
Definition await_ok (k : pc) : Prop :=
  match k with RLookup _ _ | CCas _ | PLock _ | WRecv _ | Done => True | _ => False end.
Definition L (s : st) (j : nat) (p : pc) : Prop :=
  match p with
  | Start (ANew _) | ANew _ => j = 0%nat /\ created s = false
  | AAppend | ACheck => j = 0%nat /\ created s = true /\ sent s = false
  | Start TFire | TFire => created s = true /\ armed s <> None
  | Start (RLookup q _) => q <> fpath
  | Start (Await k) | Await k => await_ok k
  | Start DLookup => True
  | Start (FReg q id) | FReg q id => q <> fpath /\ id <> fid
  | Start (FUnreg q) | FUnreg q => q <> fpath
  | Start _ => False
  | RLookup q _ => q = fpath -> sent s = true
  | CCas _ => created s = true
  | CAssign _ | CDone _ | CCloser _ | CLock _ | CTell _ _ => winners s = [j]
  | PLoad _ => mu s = Some j
  | PAppend fs raw => mu s = Some j /\ raw = fwd s ++ fs /\ taken s = false
  | PWaitDone _ => closed s = true
  | PTell _ r => exists v, final s = Some v /\ r = vpair v
  | _ => True
  end.

Definition holder_pc (p : pc) : bool := match p with PLoad _ | PAppend _ _ => true | _ => false end.
Definition wl (w : nat) (v : val) : list (nat * bool) := match v with VNil => [] | _ => [(w, false)] end.
Definition stopped_ok (s : st) : Prop := tstopped s = match armed s with Some _ => true | None => false end.

(** the stage of the thread that won the CAS *)
Definition wphase (s : st) (w : nat) (v : val) (p : pc) : Prop :=
  match p with
  | CAssign v' => v' = v /\ v <> VNil /\ assigned s = false /\ err s = None /\ msg s = None /\ done s = false /\
                  wlog s = [] /\ closer_ran s = false /\ tstopped s = false /\ taken s = false
  | CDone v' => v' = v /\ assigned s = true /\ res_of s = vpair v /\ done s = false /\ wlog s = wl w v /\
                closer_ran s = false /\ tstopped s = false /\ taken s = false
  | CCloser v' => v' = v /\ assigned s = true /\ res_of s = vpair v /\ done s = true /\ wlog s = wl w v /\
                  closer_ran s = false /\ stopped_ok s /\ taken s = false
  | CLock v' => v' = v /\ assigned s = true /\ res_of s = vpair v /\ done s = true /\ wlog s = wl w v /\
                closer_ran s = true /\ stopped_ok s /\ taken s = false
  | CTell _ r => r = vpair v /\ assigned s = true /\ res_of s = vpair v /\ done s = true /\ wlog s = wl w v /\
                 closer_ran s = true /\ stopped_ok s /\ fwd s = [] /\ taken s = true
  | Done => assigned s = true /\ res_of s = vpair v /\ done s = true /\ wlog s = wl w v /\
            closer_ran s = true /\ stopped_ok s /\ fwd s = [] /\ taken s = true
  | _ => False
  end.

(** the fields of the state that [wphase] reads; [fwd] only once the forwarders have been taken *)
Definition wview (s : st) :=
  (assigned s, err s, msg s, done s, wlog s, closer_ran s, tstopped s, armed s, taken s).

Lemma wphase_frame s s' w v p :
  wview s' = wview s -> (taken s = true -> fwd s' = fwd s) -> wphase s w v p -> wphase s' w v p.
Proof.
  unfold wview. intros E Hfw. injection E as Ea Ee Em Ed Ew Ec Et Er Ek.
  destruct p; cbn; try exact (fun H => H); unfold stopped_ok, res_of; rewrite Ea, Ee, Em, Ed, Ew, Ec, ?Et, ?Er, Ek; try exact (fun H => H).
  all: intros H; rewrite Hfw; tauto.
Qed.

Lemma wphase_facts s w v p : wphase s w v p ->
  (res_of s = vpair v \/ res_of s = (None, None) /\ done s = false) /\ (wlog s = [] \/ wlog s = [(w, false)]).
Proof.
  destruct p; cbn; try contradiction; unfold res_of; intros H; decompose [and] H; clear H.
  1: split; [right; split; congruence|left; assumption].
  all: split; [left; assumption|destruct v; cbn in *; auto].
Qed.

(** [i_new]/[i_open]/[i_win]: the three ages of the future (not created, open, closed); once closed, the state is fixed by the
    pc of the single winner ([wphase]). [i_ask], [i_timer]: a thread that will still send / fire is there, for the terminal-state
    proofs. [i_fired], [i_rets], [i_tells]: what was observed agrees with the final result *)
Record Inv (s : st) : Prop := {
  i_loc : AllThr (L s) (thr s);
  i_new : created s = false ->
          closed s = false /\ sent s = false /\ armed s = None /\ fired s = None /\ rlookup fpath (reg s) = None;
  i_open : closed s = false ->
           winners s = [] /\ final s = None /\ assigned s = false /\ err s = None /\ msg s = None /\ done s = false /\
           wlog s = [] /\ closer_ran s = false /\ tstopped s = false /\ attempts s = [] /\ taken s = false;
  i_win : closed s = true ->
          exists w v p, winners s = [w] /\ final s = Some v /\ nth_error (thr s) w = Some p /\ wphase s w v p;
  i_mu : forall j, mu s = Some j -> exists p, nth_error (thr s) j = Some p /\ holder_pc p = true;
  i_route : forall q id, rlookup q (reg s) = Some id -> (q = fpath <-> id = fid);
  i_reg : rlookup fpath (reg s) <> None -> nth_error (thr s) 0 = Some ACheck \/ closer_ran s = false;
  i_ask : sent s = false -> exists j p, nth_error (thr s) j = Some p /\ ask_pc p = true;
  i_timer : armed s <> None -> closed s = true \/ exists j p, nth_error (thr s) j = Some p /\ timer_pc p = true;
  i_fired : forall t, fired s = Some t -> exists t0, armed s = Some t0 /\ t0 + tmo s <= t;
  i_rets : forall j full r, In (j, full, r) (rets s) -> done s = true /\ r = (if full then msg s else None, err s);
  i_tells : forall x r, In (x, r) (tells s) -> exists v, final s = Some v /\ r = vpair v
}.

Lemma init_inv t progs : forallb prog_ok progs = true -> Inv (init t progs).
Proof.
  intros Hok. split; cbn; try congruence; try tauto.
  - intros j p Hj. destruct j as [|j]; cbn in Hj.
    + injection Hj as <-. cbn. auto.
    + apply nth_error_In in Hj. apply in_map_iff in Hj as [g [<- Hg]].
      rewrite forallb_forall in Hok. specialize (Hok _ Hg).
      destruct g as [q v|e| |fs|full|q id|q]; cbn in *; auto.
      * destruct (q =? 0) eqn:E; cbn; auto. apply N.eqb_neq in E. exact E.
      * destruct fs; cbn; auto.
      * apply andb_true_iff in Hok as [A B]. apply negb_true_iff in A, B. apply N.eqb_neq in A, B. auto.
      * apply negb_true_iff in Hok. apply N.eqb_neq in Hok. auto.
  - intros _. exists 0%nat, (Start (ANew t)). auto.
Qed.

Lemma tick_inv s : Inv s -> Inv (tick s).
Proof.
  intros [].
  split; cbn; auto.
Qed.

Ltac destr_pc_match :=
  repeat match goal with
  | H : context [match ?k with Start _ => _ | _ => _ end] |- _ => is_var k; destruct k
  | |- context [match ?k with Start _ => _ | _ => _ end] => is_var k; destruct k
  end.

Lemma sent_created s : Inv s -> sent s = true -> created s = true.
Proof. intros HI H. destruct (created s) eqn:E; auto. destruct (i_new _ HI E) as (_ & ? & _). congruence. Qed.

Lemma reg_created s : Inv s -> rlookup fpath (reg s) <> None -> created s = true.
Proof. intros HI H. destruct (created s) eqn:E; auto. destruct (i_new _ HI E) as (_ & _ & _ & _ & ?). congruence. Qed.

Lemma result_is_final s : Inv s ->
  res_of s = (None, None) /\ done s = false \/ exists v, final s = Some v /\ res_of s = vpair v /\ closed s = true.
Proof.
  intros HI. destruct (closed s) eqn:Hc.
  - destruct (i_win _ HI Hc) as (w & v & p & _ & Hf & _ & Hph).
    destruct (proj1 (wphase_facts _ _ _ _ Hph)) as [Hr|Hr]; eauto.
  - left. destruct (i_open _ HI Hc) as (_ & _ & _ & He & Hm & Hd & _). unfold res_of. rewrite He, Hm. auto.
Qed.

Lemma done_final s : Inv s -> done s = true -> exists v, final s = Some v /\ res_of s = vpair v /\ closed s = true.
Proof. intros HI Hd. destruct (result_is_final _ HI) as [[_ Hd']|H]; [congruence|exact H]. Qed.

Lemma winner_closed s j : Inv s -> winners s = [j] -> closed s = true.
Proof.
  intros HI Hw. destruct (closed s) eqn:E; auto. destruct (i_open _ HI E) as (? & _). congruence.
Qed.
