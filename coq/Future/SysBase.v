(** Basic lemmas and tactics for the proofs about Future/SysModel.v: the two-level map futureAgents, the clock,
    step inversion. *)
From Coq Require Import List NArith Bool Arith.
From RecordUpdate Require Import RecordSet.
From Vivid Require Import Future.FutModel Future.FutSpec Future.FutBase Future.SysModel.
Import ListNotations RecordSetNotations.
Local Open Scope N_scope.

Lemma memb_In k l : memb k l = true <-> In k l.
Proof.
  induction l as [|x l IH]; cbn; [split; [discriminate|tauto]|].
  rewrite orb_true_iff, IH, Nat.eqb_eq. tauto.
Qed.

Lemma rem_In k j l : In j (rem k l) <-> In j l /\ j <> k.
Proof.
  induction l as [|x l IH]; cbn; [tauto|].
  destruct (Nat.eqb x k) eqn:E.
  - apply Nat.eqb_eq in E. subst x. rewrite IH. split; [tauto|]. intros [[->|H] N]; tauto.
  - apply Nat.eqb_neq in E. cbn. rewrite IH. split.
    + intros [->|[H N]]; auto.
    + intros [[->|H] N]; auto.
Qed.

Lemma dcopy_keys_In k ord inner : In k (dcopy_keys ord inner) <-> In k inner.
Proof.
  unfold dcopy_keys. rewrite in_app_iff, !filter_In, memb_In. split.
  - tauto.
  - intros H. destruct (memb k ord) eqn:E; [left; split; auto; apply memb_In; auto|right; split; auto].
Qed.

Definition ag_wf (ag : list (N * list nat)) : Prop :=
  NoDup (map fst ag) /\ forall b l, In (b, l) ag -> l <> [].

Lemma ag_get_set b a l ag : ag_get b (ag_set a l ag) = if a =? b then l else ag_get b ag.
Proof.
  induction ag as [|[c l0] ag IH]; cbn.
  - destruct (a =? b); reflexivity.
  - destruct (c =? a) eqn:E1; cbn.
    + apply N.eqb_eq in E1. subst c. destruct (a =? b); reflexivity.
    + rewrite IH. destruct (c =? b) eqn:E2; auto.
      apply N.eqb_eq in E2. subst c. apply N.eqb_neq in E1.
      destruct (a =? b) eqn:E3; auto. apply N.eqb_eq in E3. congruence.
Qed.

Lemma ag_get_drop b a ag : ag_get b (ag_drop a ag) = if a =? b then [] else ag_get b ag.
Proof.
  unfold ag_drop. induction ag as [|[c l0] ag IH]; cbn.
  - destruct (a =? b); reflexivity.
  - destruct (c =? a) eqn:E1; cbn.
    + apply N.eqb_eq in E1. subst c. rewrite IH. destruct (a =? b); reflexivity.
    + rewrite IH. destruct (c =? b) eqn:E2; auto.
      apply N.eqb_eq in E2. subst c. rewrite N.eqb_sym, E1. reflexivity.
Qed.

Lemma ag_get_In a l ag : NoDup (map fst ag) -> In (a, l) ag -> ag_get a ag = l.
Proof.
  induction ag as [|[c l0] ag IH]; cbn; [tauto|].
  intros Hnd [E|H].
  - injection E as -> ->. rewrite N.eqb_refl. reflexivity.
  - inversion Hnd as [|? ? Hn Hnd']; subst.
    destruct (c =? a) eqn:E1; auto.
    apply N.eqb_eq in E1. subst c. exfalso. apply Hn. change a with (fst (a, l)). apply in_map. exact H.
Qed.

Lemma ag_set_keys a l ag x : In x (map fst (ag_set a l ag)) <-> x = a \/ In x (map fst ag).
Proof.
  induction ag as [|[c l0] ag IH]; cbn; [intuition|].
  destruct (c =? a) eqn:E1; cbn.
  - apply N.eqb_eq in E1. subst c. intuition.
  - rewrite IH. intuition.
Qed.

Lemma ag_set_In a l ag b m : In (b, m) (ag_set a l ag) -> (b = a /\ m = l) \/ In (b, m) ag.
Proof.
  induction ag as [|[c l0] ag IH]; cbn.
  - intros [E|[]]. injection E as <- <-. auto.
  - destruct (c =? a) eqn:E1; cbn.
    + intros [E|H]; [injection E as <- <-; auto|auto].
    + intros [E|H]; auto. destruct (IH H); auto.
Qed.

Lemma ag_wf_set a l ag : ag_wf ag -> l <> [] -> ag_wf (ag_set a l ag).
Proof.
  intros [Hnd Hne] Hl. split.
  - clear Hne. induction ag as [|[c l0] ag IH]; cbn.
    + constructor; [tauto|constructor].
    + inversion Hnd as [|? ? Hn Hnd']; subst. destruct (c =? a) eqn:E1; cbn.
      * apply N.eqb_eq in E1. subst c. constructor; auto.
      * constructor; auto. rewrite ag_set_keys. intros [->|H]; [rewrite N.eqb_refl in E1; discriminate|tauto].
  - intros b m H. destruct (ag_set_In _ _ _ _ _ H) as [[-> ->]|H']; eauto.
Qed.

Lemma ag_wf_drop a ag : ag_wf ag -> ag_wf (ag_drop a ag).
Proof.
  intros [Hnd Hne]. unfold ag_drop. split.
  - clear Hne. induction ag as [|[c l0] ag IH]; cbn; [constructor|].
    inversion Hnd as [|? ? Hn Hnd']; subst. destruct (c =? a); cbn; auto.
    constructor; auto. intros H. apply Hn. apply in_map_iff in H as [[x y] [<- H]]. apply filter_In in H as [H _].
    change x with (fst (x, y)). apply in_map. exact H.
  - intros b m H. apply filter_In in H as [H _]. eauto.
Qed.

Lemma ag_wf_add a k ag : ag_wf ag -> ag_wf (ag_add a k ag).
Proof. intros H. apply ag_wf_set; auto. discriminate. Qed.

Lemma ag_wf_del a k ag : ag_wf ag -> ag_wf (ag_del a k ag).
Proof.
  intros H. unfold ag_del. destruct (rem k (ag_get a ag)) eqn:E.
  - apply ag_wf_drop; auto.
  - apply ag_wf_set; auto. discriminate.
Qed.

Lemma ag_get_add b j a k ag : In j (ag_get b (ag_add a k ag)) <-> (b = a /\ j = k) \/ In j (ag_get b ag).
Proof.
  unfold ag_add. rewrite ag_get_set. destruct (a =? b) eqn:E.
  - apply N.eqb_eq in E. subst b. cbn. rewrite rem_In. split.
    + intros [<-|[H _]]; auto.
    + intros [[_ ->]|H]; auto. destruct (Nat.eq_dec j k) as [->|N]; auto.
  - apply N.eqb_neq in E. split; [auto|intros [[-> _]|H]; [congruence|auto]].
Qed.

Lemma ag_get_del b j a k ag : In j (ag_get b (ag_del a k ag)) <-> In j (ag_get b ag) /\ ~ (b = a /\ j = k).
Proof.
  unfold ag_del. destruct (rem k (ag_get a ag)) eqn:E.
  - rewrite ag_get_drop. destruct (a =? b) eqn:E1.
    + apply N.eqb_eq in E1. subst b. cbn. split; [tauto|]. intros [H N].
      assert (Hr : In j (rem k (ag_get a ag))) by (apply rem_In; split; auto; intro; subst; tauto).
      rewrite E in Hr. destruct Hr.
    + apply N.eqb_neq in E1. split; [intros H; split; auto; intros [-> _]; congruence|tauto].
  - rewrite ag_get_set. destruct (a =? b) eqn:E1.
    + apply N.eqb_eq in E1. subst b. rewrite <- E, rem_In. split; [intros [H N]; split; auto; tauto|].
      intros [H N]. split; auto; try (intro; subst; tauto).
    + apply N.eqb_neq in E1. split; [intros H; split; auto; intros [-> _]; congruence|tauto].
Qed.

Lemma ag_wf_nonempty ag : ag_wf ag -> ag <> [] -> exists a k, In k (ag_get a ag).
Proof.
  intros [Hnd Hne] H. destruct ag as [|[a l] ag]; [congruence|].
  exists a. destruct l as [|k l]; [exfalso; apply (Hne a []); [left; reflexivity|reflexivity]|].
  exists k. cbn. rewrite N.eqb_refl. left. reflexivity.
Qed.

Lemma stick_iter n s : N.iter n stick s = s <| y_now := y_now s + n |>.
Proof.
  induction n as [|n IH] using N.peano_ind.
  - cbn [N.iter]. rewrite N.add_0_r. destruct s; reflexivity.
  - rewrite N.iter_succ, IH. unfold stick. destruct s; cbn. rewrite N.add_succ_r, N.add_1_r. reflexivity.
Qed.

Lemma nth_error_upd_none {A} (l : list A) i x : nth_error l i = None -> upd l i x = l.
Proof. revert i; induction l as [|a l IH]; intros [|i] H; cbn in *; try discriminate; auto. f_equal. auto. Qed.

Ltac sdestr_cond H :=
  repeat match type of H with
  | (if ?b then _ else _) = Some _ => let E := fresh "Hc" in destruct b eqn:E
  | match getf ?s ?k with Some _ => _ | None => _ end = Some _ => let E := fresh "Hf" in let f := fresh "f" in destruct (getf s k) as [f|] eqn:E
  | match ?o with Some _ => _ | None => _ end = Some _ => let E := fresh "Hc" in destruct o eqn:E
  | match ?v with VMsg _ => _ | VErr _ => _ | VNil => _ end = Some _ => let E := fresh "Hv" in destruct v eqn:E
  | match ?l with [] => _ | _ :: _ => _ end = Some _ => let E := fresh "Hl" in destruct l eqn:E
  end.

(** [sstep] as a relation: what thread i does at pc p with script sc, branch by branch, with the guards of the branch *)
Section View.
Variables (i : nat) (s : sst).
Local Notation goto s0 q sc := (s0 <| y_thr := upd (y_thr s) i (q, sc) |>).
Local Notation setf k f := (s <| y_futs := upd (y_futs s) k f |>).

Inductive SStep : spc -> list sop -> sst -> Prop :=
| VStart sc : SStep SStart sc (goto s SIdle sc)
| VIdle s0 sc : SStep SIdle (s0 :: sc) (s <| y_thr := upd (y_thr s) i (first_pc s0, sc) |>)
| VAwait k p sc f (Hf : getf s k = Some f) (Hc : f_sent f = true) : SStep (SAwait k p) sc (goto s p sc)
| VNewT a t sc (Hc : (0 <? t) = true) :
    SStep (SNew a t) sc (s <| y_futs := y_futs s ++ [new_fut a t i (y_now s)] |>
                           <| y_thr := upd (y_thr s) i (SStore (length (y_futs s)), sc) ++ [(STStart (length (y_futs s)), [])] |>)
| VNew a t sc (Hc : (0 <? t) = false) :
    SStep (SNew a t) sc (s <| y_futs := y_futs s ++ [new_fut a t i (y_now s)] |>
                           <| y_thr := upd (y_thr s) i (SStore (length (y_futs s)), sc) |>)
| VStore k sc f (Hf : getf s k = Some f) :
    SStep (SStore k) sc (goto (setf k (f <| f_inctx := true |> <| f_stored := true |>)) (SAgents k) sc)
| VAgents k sc f (Hf : getf s k = Some f) :
    SStep (SAgents k) sc (goto (s <| y_agents := ag_add (f_asker f) k (y_agents s) |>) (SCheck k) sc)
| VCheckC k sc f (Hf : getf s k = Some f) (Hc : f_closed f = true) : SStep (SCheck k) sc (goto s (SRemCtx k) sc)
| VCheckO k sc f (Hf : getf s k = Some f) (Hc : f_closed f = false) :
    SStep (SCheck k) sc (goto (setf k (f <| f_sent := true |>)) SIdle sc)
| VRemCtx k sc f (Hf : getf s k = Some f) : SStep (SRemCtx k) sc (goto (setf k (f <| f_inctx := false |>)) (SRemAg k) sc)
| VRemAg k sc f (Hf : getf s k = Some f) :
    SStep (SRemAg k) sc (goto (setf k (f <| f_sent := true |>) <| y_agents := ag_del (f_asker f) k (y_agents s) |>) SIdle sc)
| VTStart k sc : SStep (STStart k) sc (goto s (STFire k) sc)
| VFireS k sc f n (Hf : getf s k = Some f) (Hc : f_armed f = Some n) (Hc0 : (n + f_tmo f <=? y_now s) = true)
    (Hc1 : f_tstopped f = true) : SStep (STFire k) sc (goto s SIdle sc)
| VFire k sc f n (Hf : getf s k = Some f) (Hc : f_armed f = Some n) (Hc0 : (n + f_tmo f <=? y_now s) = true)
    (Hc1 : f_tstopped f = false) :
    SStep (STFire k) sc (goto (setf k (f <| f_fired := Some (y_now s) |>)) (SCas k (VErr E_TIMEOUT) []) sc)
| VRLoad k v sc f (Hf : getf s k = Some f) :
    SStep (SRLoad k v) sc (goto (s <| y_routed := y_routed s ++ [(k, v, f_inctx f)] |>) (if f_inctx f then SCas k v [] else SIdle) sc)
| VDCopy a ord sc :
    SStep (SDCopy a ord) sc (goto (s <| y_dcopies := y_dcopies s ++ [(i, a, dcopy_keys ord (ag_get a (y_agents s)))] |>)
                                  (fin (dcopy_keys ord (ag_get a (y_agents s)))) sc)
| VDLoad0 sc : SStep (SDLoad []) sc (goto s SIdle sc)
| VDLoad n l0 sc f (Hf : getf s n = Some f) :
    SStep (SDLoad (n :: l0)) sc (goto s (if f_inctx f then SCas n (VErr E_DEAD) l0 else fin l0) sc)
| VCasL k v rest sc f (Hf : getf s k = Some f) (Hc : f_closed f = true) :
    SStep (SCas k v rest) sc (goto (setf k (f <| f_attempts := f_attempts f ++ [i] |>)) (fin rest) sc)
| VCasW k v rest sc f (Hf : getf s k = Some f) (Hc : f_closed f = false) :
    SStep (SCas k v rest) sc
      (goto (setf k (f <| f_closed := true |> <| f_attempts := f_attempts f ++ [i] |> <| f_winners := f_winners f ++ [i] |>
                       <| f_final := Some v |>))
            (match v with VNil => SDone k v rest | _ => SAssign k v rest end) sc)
| VAssign k v rest sc f (Hf : getf s k = Some f) :
    SStep (SAssign k v rest) sc (goto (setf k (f <| f_msg := fst (vpair v) |> <| f_err := snd (vpair v) |>
                                                 <| f_wlog := f_wlog f ++ [(i, f_done f)] |>)) (SDone k v rest) sc)
| VDone k v rest sc f (Hf : getf s k = Some f) :
    SStep (SDone k v rest) sc
      (goto (setf k (f <| f_done := true |> <| f_tstopped := match f_armed f with Some _ => true | None => f_tstopped f end |>))
            (SCRemCtx k rest) sc)
| VCRemCtx k rest sc f (Hf : getf s k = Some f) :
    SStep (SCRemCtx k rest) sc (goto (setf k (f <| f_inctx := false |> <| f_crem := true |>)) (SCRemAg k rest) sc)
| VCRemAg k rest sc f (Hf : getf s k = Some f) :
    SStep (SCRemAg k rest) sc
      (goto (setf k (f <| f_arem := true |>) <| y_agents := ag_del (f_asker f) k (y_agents s) |>) (SLock k rest) sc)
| VLock k rest sc : SStep (SLock k rest) sc (goto s (fin rest) sc)
| VWRecv k full sc f (Hf : getf s k = Some f) (Hc : f_done f = true) :
    SStep (SWRecv k full) sc (goto (s <| y_rets := y_rets s ++ [(i, k, full, (if full then f_msg f else None, f_err f))] |>) SIdle sc).

Lemma sstep_view s' : sstep i s = Some s' -> exists p sc, nth_error (y_thr s) i = Some (p, sc) /\ SStep p sc s'.
Proof.
  intros H. unfold sstep in H. destruct (nth_error (y_thr s) i) as [[p sc]|]; [|discriminate H]. exists p, sc. split; [reflexivity|].
  destruct p; sdestr_cond H; try discriminate H; apply Some_inj in H; subst; econstructor; eassumption.
Qed.
End View.

(** [sstep_inv H] : H : sstep i s = Some s'.  Leaves one goal per (pc, branch) with
    Hp : nth_error (y_thr s) i = Some (<pc>, sc), the guards of the branch, and s' replaced by the state it returns *)
Ltac sstep_inv H :=
  let p := fresh "p" in let sc := fresh "sc" in let Hp := fresh "Hp" in let V := fresh "V" in
  destruct (sstep_view _ _ _ H) as (p & sc & Hp & V); destruct V.

Lemma sstep_shape s s' i : sstep i s = Some s' ->
  exists p sc x, nth_error (y_thr s) i = Some (p, sc) /\
    (y_thr s' = upd (y_thr s) i x \/
     exists a t, p = SNew a t /\ (0 <? t) = true /\ y_thr s' = upd (y_thr s) i x ++ [(STStart (length (y_futs s)), [])]) /\
    (y_dcopies s' = y_dcopies s \/
     exists a ord, p = SDCopy a ord /\ y_dcopies s' = y_dcopies s ++ [(i, a, dcopy_keys ord (ag_get a (y_agents s)))]).
Proof.
  intros H. sstep_inv H; eexists _, _, _; (split; [exact Hp|]); cbn [y_thr y_dcopies set]; eauto 8.
Qed.

Lemma step_thr_other s s' i j x :
  sstep i s = Some s' -> j <> i -> nth_error (y_thr s) j = Some x -> nth_error (y_thr s') j = Some x.
Proof.
  intros H Nj Hj. destruct (sstep_shape _ _ _ H) as (p & sc & y & _ & [E|(a & t & _ & _ & E)] & _); rewrite E.
  - rewrite nth_error_upd_ne by auto. exact Hj.
  - apply nth_error_snoc_old. rewrite nth_error_upd_ne by auto. exact Hj.
Qed.

Lemma step_thr_inv s s' i j x :
  sstep i s = Some s' -> nth_error (y_thr s') j = Some x ->
  j = i \/ nth_error (y_thr s) j = Some x \/
  (j = length (y_thr s) /\ x = (STStart (length (y_futs s)), []) /\
   exists a t sc, nth_error (y_thr s) i = Some (SNew a t, sc) /\ (0 <? t) = true).
Proof.
  intros H Hj. destruct (Nat.eq_dec j i) as [->|Nj]; auto. right.
  destruct (sstep_shape _ _ _ H) as (p & sc & y & Hp & [E|(a & t & -> & Ht & E)] & _); rewrite E in Hj.
  - rewrite nth_error_upd_ne in Hj by auto. auto.
  - apply nth_error_snoc_inv in Hj as [Hj|[-> ->]].
    + rewrite nth_error_upd_ne in Hj by auto; auto.
    + right. rewrite upd_length. eauto 8.
Qed.

Lemma thr_exists_step s s' i j : sstep i s = Some s' -> nth_error (y_thr s) j <> None -> nth_error (y_thr s') j <> None.
Proof.
  intros H. rewrite !nth_error_Some. destruct (sstep_shape _ _ _ H) as (p & sc & y & _ & [E|(a & t & _ & _ & E)] & _); rewrite E.
  - rewrite upd_length. auto.
  - rewrite app_length, upd_length. intros. apply Nat.lt_lt_add_r. assumption.
Qed.

Lemma step_dcopies s s' i x : sstep i s = Some s' -> In x (y_dcopies s') ->
  In x (y_dcopies s) \/
  exists a ord sc, nth_error (y_thr s) i = Some (SDCopy a ord, sc) /\
                   x = (i, a, dcopy_keys ord (ag_get a (y_agents s))).
Proof.
  intros H Hx. destruct (sstep_shape _ _ _ H) as (p & sc & y & Hp & _ & [E|(a & ord & -> & E)]); rewrite E in Hx; auto.
  apply in_app_or in Hx as [Hx|[<-|[]]]; eauto 6.
Qed.

Lemma step_dcopies_mono s s' i x : sstep i s = Some s' -> In x (y_dcopies s) -> In x (y_dcopies s').
Proof.
  intros H Hx. destruct (sstep_shape _ _ _ H) as (p & sc & y & _ & _ & [E|(a & ord & _ & E)]); rewrite E; auto using in_or_app.
Qed.
