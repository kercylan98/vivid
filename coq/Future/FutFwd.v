(** Where the result comes from, reply routing, and the forwarder accounting (all populations, all schedules). *)
From Coq Require Import List NArith Bool Lia Arith.
From RecordUpdate Require Import RecordSet.
From Vivid Require Import Future.FutModel Future.FutSpec Future.FutBase Future.FutInvDef Future.FutInv Future.FutProofs.
Import ListNotations RecordSetNotations.
Local Open Scope N_scope.

Section Origin.
Variable progs : list prog.

Definition V0 (s : st) (p : pc) : Prop :=
  match p with
  | RLookup q v => q = fpath -> In (PReply fpath v) progs
  | DLookup => In PDeath progs
  | CCas v => origin progs s v
  | _ => True
  end.
Definition V (s : st) (p : pc) : Prop :=
  match p with
  | Start (Await k) => V0 s k
  | Start k => V0 s k
  | Await k => V0 s k
  | _ => V0 s p
  end.

Record Inv2 (s : st) : Prop := {
  o_thr : AllThr (fun _ p => V s p) (thr s);
  o_final : forall v, final s = Some v -> origin progs s v;
  o_routed : forall q v d id, In (q, v, d) (routed s) -> d = Some id -> (q = fpath <-> id = fid)
}.

Lemma origin_mono s s' v : (fired s <> None -> fired s' <> None) -> origin progs s v -> origin progs s' v.
Proof. unfold origin. intros Hm H. intuition. Qed.

Lemma V0_mono s s' p : (fired s <> None -> fired s' <> None) -> V0 s p -> V0 s' p.
Proof. intros Hm. destruct p; cbn; auto. apply origin_mono; auto. Qed.

Lemma V_mono s s' p : (fired s <> None -> fired s' <> None) -> V s p -> V s' p.
Proof.
  intros Hm. destruct p; try exact (V0_mono s s' _ Hm).
  destruct p; exact (V0_mono s s' _ Hm).
Qed.

Lemma step_inv2 i s s' : Inv s -> Inv2 s -> step i s = Some s' -> Inv2 s'.
Proof.
  intros HI [Ho Hf Hr] H. destruct (step_stable _ _ _ HI H) as (_ & _ & _ & _ & Hm & _). split.
  - (* threads *)
    pose proof (i_route _ HI) as Hrt. pose proof (i_open _ HI) as Hopen.
    step_inv H; pose proof (i_loc _ HI _ _ Hp) as HLi; cbn in HLi; pose proof (Ho _ _ Hp) as HVi; cbn [thr set].
    all: try (apply AllThr_upd with (P := fun _ p => V s p); [exact Ho | intros j p0 _ _ HV; revert HV; apply V_mono; exact Hm | ]).
    all: try solve [cbn; auto].
    all: try solve [destruct (fwd s); cbn; auto].
    all: try solve [destruct l0; cbn; auto].
    all: try solve [destruct fs; cbn; auto].
    + (* Start p *) cbn in HVi. destruct p; cbn in *; auto; try tauto.
    + (* Await p *) cbn in HVi. destruct p; cbn in *; auto; try tauto.
    + (* ANew with timer *)
      apply AllThr_snoc; [|cbn; auto].
      apply AllThr_upd with (P := fun _ p => V s p); [exact Ho | intros j p0 _ _ HV; revert HV; apply V_mono; exact Hm | cbn; auto].
    + (* TFire fires *) cbn. unfold origin. cbn. right. right. right. split; congruence.
    + (* RLookup *)
      cbn in HVi. destruct (rlookup p (reg s)) as [id|] eqn:E; cbn; auto.
      destruct (id =? 0) eqn:E2; cbn; auto. apply N.eqb_eq in E2; subst id.
      left. apply HVi. apply (Hrt _ _ E). reflexivity.
    + (* DLookup *)
      cbn in HVi. destruct (opt_eqb (rlookup 0 (reg s)) 0); cbn; auto. unfold origin. auto.
  - (* final *)
    pose proof (i_open _ HI) as Hopen.
    step_inv H; pose proof (Ho _ _ Hp) as HVi; cbn in HVi; intros v0 Hv0; cbn in Hv0;
      try (apply (origin_mono s); [exact Hm | apply Hf; exact Hv0]).
    all: injection Hv0 as <-; revert HVi; apply origin_mono; exact Hm.
  - (* routed *)
    pose proof (i_route _ HI) as Hrt.
    step_inv H; intros q0 v0 d0 id0 Hin Hd; cbn in Hin; try (apply (Hr _ _ _ _ Hin Hd)).
    apply in_app_or in Hin as [Hin|[Hin|[]]]; [apply (Hr _ _ _ _ Hin Hd)|].
    injection Hin as <- <- <-. apply (Hrt _ _ Hd).
Qed.

Lemma init_inv2 t : Inv2 (init t progs).
Proof.
  split; cbn; try congruence; try tauto.
  intros j p Hj. destruct j as [|j]; cbn in Hj.
  - injection Hj as <-. cbn. auto.
  - apply nth_error_In in Hj. apply in_map_iff in Hj as [g [<- Hg]].
    destruct g as [q v|e| |fs|full|q id|q]; cbn; auto.
    + destruct (q =? 0) eqn:E; cbn.
      * apply N.eqb_eq in E; subst q. auto.
      * apply N.eqb_neq in E. tauto.
    + unfold origin. right. left. eauto.
    + destruct fs; cbn; auto.
Qed.

Lemma tick_inv2 s : Inv2 s -> Inv2 (tick s).
Proof. intros []. split; cbn; auto. Qed.

Theorem reach_inv2 t s : forallb prog_ok progs = true -> reach t progs s -> Inv2 s.
Proof.
  intros Hok Hr. apply (reach_ind t progs Inv2); auto using init_inv2, tick_inv2.
  intros i s1 s2 HI H2 H. exact (step_inv2 _ _ _ HI H2 H).
Qed.
End Origin.

Fixpoint pend_of (p : pc) : list N :=
  match p with Start k | Await k => pend_of k | PLock fs | PLoad fs | PAppend fs _ | PWaitDone fs => fs | _ => [] end.
Fixpoint tell_of (p : pc) : list N :=
  match p with Start k | Await k => tell_of k | CTell l _ | PTell l _ => l | _ => [] end.

Notation cnt x l := (count_occ N.eq_dec l x).

Lemma cnt_flat_upd (f : pc -> list N) l i p q x : nth_error l i = Some p ->
  (cnt x (flat_map f (upd l i q)) + cnt x (f p) = cnt x (flat_map f l) + cnt x (f q))%nat.
Proof.
  revert i; induction l as [|a l IH]; intros [|i] H; cbn in *; try discriminate.
  - injection H as ->. rewrite !count_occ_app. lia.
  - specialize (IH _ H). rewrite !count_occ_app. lia.
Qed.

Lemma cnt_flat_snoc (f : pc -> list N) l y x : cnt x (flat_map f (l ++ [y])) = (cnt x (flat_map f l) + cnt x (f y))%nat.
Proof. rewrite flat_map_app, count_occ_app. cbn. rewrite app_nil_r. reflexivity. Qed.

Lemma cnt_flat_le (f : pc -> list N) l i p x : nth_error l i = Some p -> (cnt x (f p) <= cnt x (flat_map f l))%nat.
Proof.
  revert i; induction l as [|a l IH]; intros [|i] H; cbn in *; try discriminate.
  - injection H as ->. rewrite count_occ_app. lia.
  - specialize (IH _ H). rewrite count_occ_app. lia.
Qed.

Lemma uniq_nodup seen l : NoDup l -> (forall x, In x l -> ~ In x seen) -> uniq seen l = l.
Proof.
  revert seen; induction l as [|a l IH]; intros seen Hn Hd; cbn; auto.
  inversion Hn as [|? ? Ha Hl]; subst.
  destruct (existsb (N.eqb a) seen) eqn:E.
  - apply existsb_exists in E as (y & Hy & Ey). apply N.eqb_eq in Ey; subst y. exfalso. apply (Hd a); cbn; auto.
  - f_equal. apply IH; auto. intros x Hx [<-|Hs]; [tauto|]. apply (Hd x); cbn; auto.
Qed.

(** every forwarder named by a PipeTo call is in exactly one place: with its caller, in [fwd], with a teller, or told *)
Definition Inv3 (progs : list prog) (s : st) : Prop :=
  forall x, cnt x (all_fwds progs) =
            (cnt x (flat_map pend_of (thr s)) + cnt x (fwd s) + cnt x (flat_map tell_of (thr s)) + cnt x (map fst (tells s)))%nat.

Lemma step_inv3 progs i s s' : NoDup (all_fwds progs) -> Inv s -> Inv3 progs s -> step i s = Some s' -> Inv3 progs s'.
Proof.
  intros Hnd HI H3 H.
  step_inv H; intros x; pose proof (H3 x) as H3x;
    pose proof (cnt_flat_upd pend_of _ _ _ Done x Hp) as Ep0; pose proof (cnt_flat_upd tell_of _ _ _ Done x Hp) as Et0;
    cbn [thr fwd tells set].
  all: try match goal with |- context [if opt_eqb ?a ?b then _ else _] => destruct (opt_eqb a b) end.
  all: try match goal with |- context [match ?l with [] => _ | _ :: _ => _ end] => destruct l eqn:El end.
  all: try match goal with |- context [upd (thr ?s) ?i ?q] =>
         pose proof (cnt_flat_upd pend_of _ _ _ q x Hp) as Ep; pose proof (cnt_flat_upd tell_of _ _ _ q x Hp) as Et end.
  all: rewrite ?cnt_flat_snoc, ?map_app, ?count_occ_app; cbn [pend_of tell_of map fst count_occ] in *.
  all: try lia.
  all: try solve [repeat match goal with
                  | H : context [N.eq_dec ?a ?b] |- _ => destruct (N.eq_dec a b)
                  | |- context [N.eq_dec ?a ?b] => destruct (N.eq_dec a b)
                  end; lia].
  (* PAppend: Unique is the identity because all forwarders are distinct; raw is still forwarders ++ fs *)
  destruct (i_loc _ HI _ _ Hp) as (_ & -> & _).
  rewrite uniq_nodup; [rewrite count_occ_app; lia| |intros ? _ []].
  apply (NoDup_count_occ N.eq_dec). intros y.
  pose proof (H3 y) as H3y. pose proof (cnt_flat_le pend_of _ _ _ y Hp) as Hle. cbn [pend_of] in Hle.
  pose proof (proj1 (NoDup_count_occ N.eq_dec _) Hnd y). rewrite count_occ_app. lia.
Qed.

Lemma init_inv3 t progs : Inv3 progs (init t progs).
Proof.
  intros x. cbn. rewrite !Nat.add_0_r.
  assert (E : forall l, flat_map tell_of (map (fun g => Start (first_pc g)) l) = []).
  { induction l as [|g l IH]; cbn; auto. rewrite IH, app_nil_r. destruct g as [q v|e| |fs|full|q id|q]; cbn; auto.
    - destruct (q =? 0); reflexivity.
    - destruct fs; reflexivity. }
  rewrite E. cbn. rewrite Nat.add_0_r. f_equal.
  unfold all_fwds. induction progs as [|g l IH]; cbn; auto. rewrite IH. f_equal.
  destruct g as [q v|e| |fs|full|q id|q]; cbn; auto.
  - destruct (q =? 0); reflexivity.
  - destruct fs; reflexivity.
Qed.

Lemma tick_inv3 progs s : Inv3 progs s -> Inv3 progs (tick s).
Proof. intros H x. exact (H x). Qed.

Theorem reach_inv3 t progs s : forallb prog_ok progs = true -> NoDup (all_fwds progs) -> reach t progs s -> Inv3 progs s.
Proof.
  intros Hok Hnd Hr. apply (reach_ind t progs (Inv3 progs)); auto using init_inv3, tick_inv3.
  intros i s1 s2 HI H3 H. exact (step_inv3 _ _ _ _ Hnd HI H3 H).
Qed.

Lemma all_done_flat (f : pc -> list N) l : f Done = [] -> (forall i p, nth_error l i = Some p -> p = Done) -> flat_map f l = [].
Proof.
  intros Hf. induction l as [|a l IH]; intros H; cbn; auto.
  rewrite (H 0%nat a eq_refl), Hf. cbn. apply IH. intros i p Hi. apply (H (S i) p Hi).
Qed.

Lemma told_length x l : length (map snd (filter (fun e : N * res => fst e =? x) l)) = cnt x (map fst l).
Proof.
  induction l as [|[a r] l IH]; cbn; auto.
  destruct (N.eq_dec a x) as [->|Hn].
  - rewrite N.eqb_refl. cbn. rewrite IH. reflexivity.
  - apply N.eqb_neq in Hn. rewrite Hn. exact IH.
Qed.

Lemma tell_final s x r : Inv s -> done s = true -> In (x, r) (tells s) -> r = res_of s.
Proof.
  intros HI Hd Hin. destruct (i_tells _ HI _ _ Hin) as (v & Hf & ->).
  destruct (done_final _ HI Hd) as (v' & Hf' & Hr & _). congruence.
Qed.

Lemma terminal_all_done s : Inv s -> terminal s -> done s = true -> forall i p, nth_error (thr s) i = Some p -> p = Done.
Proof.
  intros HI Ht Hd i p Hp. destruct (no_deadlock _ HI Ht _ _ Hp) as [?|(_ & Hd' & _)]; auto. congruence.
Qed.

Theorem forwarders_once t progs s :
  forallb prog_ok progs = true -> NoDup (all_fwds progs) -> reach t progs s -> terminal s -> done s = true ->
  forall x, In x (all_fwds progs) -> told x s = [res_of s].
Proof.
  intros Hok Hnd Hr Ht Hd x Hx.
  pose proof (reach_inv _ _ _ Hok Hr) as HI. pose proof (reach_inv3 _ _ _ Hok Hnd Hr x) as H3.
  pose proof (terminal_all_done _ HI Ht Hd) as Had.
  rewrite (all_done_flat pend_of _ eq_refl Had), (all_done_flat tell_of _ eq_refl Had) in H3.
  destruct (done_final _ HI Hd) as (_ & _ & _ & Hc).
  destruct (terminal_closed _ HI Ht Hc) as (_ & _ & Hfw & _). rewrite Hfw in H3. cbn in H3.
  rewrite (proj1 (NoDup_count_occ' N.eq_dec _) Hnd x Hx) in H3.
  assert (Hall : forall r, In r (told x s) -> r = res_of s).
  { intros r Hin. unfold told in Hin. apply in_map_iff in Hin as ([x' r'] & <- & Hin). apply filter_In in Hin as [Hin _].
    apply (tell_final _ _ _ HI Hd Hin). }
  pose proof (told_length x (tells s)) as Hl. fold (told x s) in Hl. rewrite <- H3 in Hl.
  destruct (told x s) as [|a [|b l]]; cbn in Hl; try lia. f_equal. apply Hall. left. reflexivity.
Qed.

Theorem told_only_named t progs s x :
  forallb prog_ok progs = true -> NoDup (all_fwds progs) -> reach t progs s -> told x s <> [] -> In x (all_fwds progs).
Proof.
  intros Hok Hnd Hr Hne. pose proof (reach_inv3 _ _ _ Hok Hnd Hr x) as H3.
  pose proof (told_length x (tells s)) as Hl. fold (told x s) in Hl.
  apply (count_occ_In N.eq_dec). destruct (told x s); [congruence|]. cbn in Hl. lia.
Qed.

Lemma msg_final s m : Inv s -> msg s = Some m -> final s = Some (VMsg m).
Proof.
  intros HI Hm. destruct (result_is_final _ HI) as [[Hr _]|(v & -> & Hr & _)]; unfold res_of in Hr; [congruence|].
  destruct v; cbn in Hr; congruence.
Qed.

Theorem reply_value_addressed t progs s m :
  forallb prog_ok progs = true -> reach t progs s -> msg s = Some m -> In (PReply fpath (VMsg m)) progs.
Proof.
  intros Hok Hr Hm. pose proof (reach_inv _ _ _ Hok Hr) as HI.
  pose proof (o_final _ _ (reach_inv2 progs _ _ Hok Hr) _ (msg_final _ _ HI Hm)) as Ho.
  destruct Ho as [?|[(e & ? & _)|[(? & _)|(? & _)]]]; auto; discriminate.
Qed.

Definition quiet (s : st) : bool :=
  forallb (fun p => match p with Done => true | WRecv _ => negb (done s) | _ => false end) (thr s).

Lemma quiet_terminal s : quiet s = true -> terminal s.
Proof.
  intros Hq k i. rewrite tick_iter. unfold step. cbn.
  destruct (nth_error (thr s) i) as [p|] eqn:E; auto.
  unfold quiet in Hq. rewrite forallb_forall in Hq. specialize (Hq p (nth_error_In _ _ E)).
  destruct p; try discriminate; auto. destruct (done s); [discriminate|reflexivity].
Qed.

(** without freshness of the agent path (here: the focus future is also reachable under another request's path 7)
    a reply addressed to that other request completes this future with a message nobody replied to it *)
Lemma routing_needs_M7 :
  exists progs sched m,
    ~ M7_agent_path_fresh progs /\ msg (run sched (init 0 progs)) = Some m /\ ~ In (PReply fpath (VMsg m)) progs.
Proof.
  exists [PForeignReg 7 0; PReply 7 (VMsg 9)], (map Run [0;0;0;0;1;1;2;2;2;2]%nat), 9.
  split; [unfold M7_agent_path_fresh; cbn; discriminate|]. split; [vm_compute; reflexivity|].
  cbn. intros [H|[H|[]]]; discriminate.
Qed.
