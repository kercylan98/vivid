(** Lists of threads, the registry, the clock, and [step] as a relation (step inversion) for Future/FutModel.v. *)
From Coq Require Import List NArith Bool Lia Arith.
From RecordUpdate Require Import RecordSet.
From Vivid Require Import Future.FutModel Future.FutSpec.
Import ListNotations RecordSetNotations.
Local Open Scope N_scope.

Lemma upd_length {A} (l : list A) i x : length (upd l i x) = length l.
Proof. revert i; induction l as [|a l IH]; intros [|i]; cbn; auto. Qed.

Lemma nth_error_upd_eq {A} (l : list A) i x p : nth_error l i = Some p -> nth_error (upd l i x) i = Some x.
Proof. revert i; induction l as [|a l IH]; intros [|i] H; cbn in *; try discriminate; auto. Qed.

Lemma nth_error_upd_ne {A} (l : list A) i j x : i <> j -> nth_error (upd l i x) j = nth_error l j.
Proof.
  revert i j; induction l as [|a l IH]; intros [|i] [|j] H; cbn; auto; try congruence.
Qed.

Lemma nth_error_upd_inv {A} (l : list A) i j x p :
  nth_error (upd l i x) j = Some p -> (j = i /\ p = x) \/ (j <> i /\ nth_error l j = Some p).
Proof.
  intros H. destruct (Nat.eq_dec j i) as [->|N].
  - left. split; auto.
    destruct (nth_error l i) as [q|] eqn:E.
    + rewrite (nth_error_upd_eq _ _ _ _ E) in H. congruence.
    + apply nth_error_None in E. assert (nth_error (upd l i x) i = None) by (apply nth_error_None; rewrite upd_length; auto). congruence.
  - right. split; auto. rewrite nth_error_upd_ne in H by auto. exact H.
Qed.

Lemma nth_error_snoc_len {A} (l : list A) x : nth_error (l ++ [x]) (length l) = Some x.
Proof. rewrite nth_error_app2, Nat.sub_diag by apply le_n. reflexivity. Qed.

Lemma nth_error_snoc_inv {A} (l : list A) x j p :
  nth_error (l ++ [x]) j = Some p -> nth_error l j = Some p \/ (j = length l /\ p = x).
Proof.
  intros H. destruct (Nat.lt_ge_cases j (length l)) as [Hl|Hl].
  - left. rewrite nth_error_app1 in H; auto.
  - right. rewrite nth_error_app2 in H by auto.
    destruct (j - length l)%nat as [|k] eqn:E; cbn in H.
    + split; [lia|congruence].
    + destruct k; discriminate.
Qed.

Lemma nth_error_snoc_old {A} (l : list A) x j p : nth_error l j = Some p -> nth_error (l ++ [x]) j = Some p.
Proof. intros H. rewrite nth_error_app1; auto. apply nth_error_Some. congruence. Qed.

Lemma fold_left_repeat {A B} (f : A -> B -> A) b k s : fold_left f (repeat b k) s = N.iter (N.of_nat k) (fun s => f s b) s.
Proof.
  revert s; induction k as [|k IH]; intros s; [reflexivity|].
  cbn [repeat fold_left]. rewrite IH, Nat2N.inj_succ, N.iter_succ_r. reflexivity.
Qed.

Lemma rlookup_rremove q p r : rlookup q (rremove p r) = if p =? q then None else rlookup q r.
Proof.
  unfold rremove. induction r as [|[a id] r IH]; cbn [filter rlookup fst].
  - destruct (p =? q); reflexivity.
  - destruct (a =? p) eqn:E1; cbn [negb rlookup].
    + apply N.eqb_eq in E1; subst a. rewrite IH. destruct (p =? q); reflexivity.
    + rewrite IH. destruct (a =? q) eqn:E2; auto.
      apply N.eqb_eq in E2; subst a. rewrite N.eqb_sym, E1. reflexivity.
Qed.

Lemma rlookup_rinsert q p id r : rlookup q (rinsert p id r) = if p =? q then Some id else rlookup q r.
Proof. unfold rinsert. cbn [rlookup]. rewrite rlookup_rremove. destruct (p =? q); reflexivity. Qed.

Lemma rlookup_rremove_ne q p r : p <> q -> rlookup q (rremove p r) = rlookup q r.
Proof. intros H. apply N.eqb_neq in H. rewrite rlookup_rremove, H. reflexivity. Qed.

Lemma rlookup_rinsert_ne q p id r : p <> q -> rlookup q (rinsert p id r) = rlookup q r.
Proof. intros H. apply N.eqb_neq in H. rewrite rlookup_rinsert, H. reflexivity. Qed.

Definition route_ok (r : list (N * N)) : Prop := forall q id, rlookup q r = Some id -> (q = fpath <-> id = fid).

Lemma route_rremove p r : route_ok r -> route_ok (rremove p r).
Proof. intros Hr q id. rewrite rlookup_rremove. destruct (p =? q); [discriminate|apply Hr]. Qed.

Lemma route_rinsert p id r : (p = fpath <-> id = fid) -> route_ok r -> route_ok (rinsert p id r).
Proof.
  intros Hp Hr q id'. rewrite rlookup_rinsert. destruct (p =? q) eqn:E; [|apply Hr].
  apply N.eqb_eq in E. subst q. intros [= <-]. exact Hp.
Qed.

Lemma tick_iter k s : N.iter k tick s = s <| now := now s + k |>.
Proof.
  induction k as [|k IH] using N.peano_ind.
  - cbn [N.iter]. rewrite N.add_0_r. destruct s; reflexivity.
  - rewrite N.iter_succ, IH. unfold tick. destruct s; cbn. rewrite N.add_succ_r, N.add_1_r. reflexivity.
Qed.

Ltac destr_cond H :=
  repeat match type of H with
  | (if ?b then _ else _) = Some _ => let E := fresh "Hc" in destruct b eqn:E
  | match ?o with Some _ => _ | None => _ end = Some _ => let E := fresh "Hc" in destruct o eqn:E
  | match ?v with VMsg _ => _ | VErr _ => _ | VNil => _ end = Some _ => let E := fresh "Hv" in destruct v eqn:E
  | match ?l with [] => _ | _ :: _ => _ end = Some _ => let E := fresh "Hl" in destruct l eqn:E
  end.

Lemma Some_inj {A} (a b : A) : Some a = Some b -> a = b.
Proof. intros [=]. assumption. Qed.

(** [step] as a relation: what thread i does at pc p, one constructor per branch, with the guards of the branch *)
Section View.
Variables (i : nat) (s : st).
Local Notation goto s0 q := (s0 <| thr := upd (thr s) i q |>).

Inductive Step : pc -> st -> Prop :=
| AtStart p : Step (Start p) (goto s p)
| AtAwait p (Hc : sent s = true) : Step (Await p) (goto s p)
| AtNewT timeout (Hc : (0 <? timeout) = true) :
    Step (ANew timeout) (s <| tmo := timeout |> <| armed := Some (now s) |> <| created := true |> <| thr := upd (thr s) i AAppend ++ [Start TFire] |>)
| AtNew timeout (Hc : (0 <? timeout) = false) : Step (ANew timeout) (goto (s <| tmo := timeout |> <| created := true |>) AAppend)
| AtAppend : Step AAppend (goto (s <| reg := rinsert fpath fid (reg s) |>) ACheck)
| AtCheck : Step ACheck (goto (s <| reg := if closed s then rremove fpath (reg s) else reg s |> <| sent := true |>) Done)
| AtFireS n (Hc : armed s = Some n) (Hc0 : (n + tmo s <=? now s) = true) (Hc1 : tstopped s = true) : Step TFire (goto s Done)
| AtFire n (Hc : armed s = Some n) (Hc0 : (n + tmo s <=? now s) = true) (Hc1 : tstopped s = false) :
    Step TFire (goto (s <| fired := Some (now s) |>) (CCas (VErr E_TIMEOUT)))
| AtLookup p v : Step (RLookup p v) (goto (s <| routed := routed s ++ [(p, v, rlookup p (reg s))] |>)
                                        (if opt_eqb (rlookup p (reg s)) fid then CCas v else Done))
| AtDeath : Step DLookup (goto s (if opt_eqb (rlookup fpath (reg s)) fid then CCas (VErr E_DEAD) else Done))
| AtCasL v (Hc : closed s = true) : Step (CCas v) (goto (s <| attempts := attempts s ++ [i] |>) Done)
| AtCasW v (Hc : closed s = false) (Hv : v <> VNil) :
    Step (CCas v) (goto (s <| closed := true |> <| attempts := attempts s ++ [i] |> <| winners := winners s ++ [i] |>
                           <| final := Some v |>) (CAssign v))
| AtCasN (Hc : closed s = false) :
    Step (CCas VNil) (goto (s <| closed := true |> <| attempts := attempts s ++ [i] |> <| winners := winners s ++ [i] |>
                              <| final := Some VNil |> <| assigned := true |>) (CDone VNil))
| AtAssign v : Step (CAssign v) (goto (s <| msg := fst (vpair v) |> <| err := snd (vpair v) |> <| assigned := true |>
                                        <| wlog := wlog s ++ [(i, done s)] |>) (CDone v))
| AtDone v : Step (CDone v) (goto (s <| done := true |> <| tstopped := match armed s with Some _ => true | None => tstopped s end |>) (CCloser v))
| AtCloser v : Step (CCloser v) (goto (s <| reg := rremove fpath (reg s) |> <| closer_ran := true |>) (CLock v))
| AtLock v (Hc : mu s = None) :
    Step (CLock v) (goto (s <| fwd := [] |> <| taken := true |>) (match fwd s with [] => Done | l => CTell l (msg s, err s) end))
| AtTell0 r : Step (CTell [] r) (goto s Done)
| AtTell n l0 r : Step (CTell (n :: l0) r) (goto (s <| tells := tells s ++ [(n, r)] |>) (match l0 with [] => Done | _ => CTell l0 r end))
| AtPLock fs (Hc : mu s = None) : Step (PLock fs) (goto (s <| mu := Some i |>) (PLoad fs))
| AtPLoadC fs (Hc : closed s = true) : Step (PLoad fs) (goto (s <| mu := None |>) (PWaitDone fs))
| AtPLoadO fs (Hc : closed s = false) : Step (PLoad fs) (goto s (PAppend fs (fwd s ++ fs)))
| AtPAppend fs raw : Step (PAppend fs raw) (goto (s <| mu := None |> <| fwd := uniq [] raw |>) Done)
| AtPWait fs (Hc : done s = true) : Step (PWaitDone fs) (goto s (match fs with [] => Done | _ => PTell fs (msg s, err s) end))
| AtPTell0 r : Step (PTell [] r) (goto s Done)
| AtPTell n l0 r : Step (PTell (n :: l0) r) (goto (s <| tells := tells s ++ [(n, r)] |>) (match l0 with [] => Done | _ => PTell l0 r end))
| AtRecv full (Hc : done s = true) :
    Step (WRecv full) (goto (s <| rets := rets s ++ [(i, full, (if full then msg s else None, err s))] |>) Done)
| AtReg p id : Step (FReg p id) (goto (s <| reg := rinsert p id (reg s) |>) Done)
| AtUnreg p : Step (FUnreg p) (goto (s <| reg := rremove p (reg s) |>) Done).

Lemma step_view s' : step i s = Some s' -> exists p, nth_error (thr s) i = Some p /\ Step p s'.
Proof.
  intros H. unfold step in H. destruct (nth_error (thr s) i) as [p|]; [|discriminate H]. exists p. split; [reflexivity|].
  destruct p; destr_cond H; try discriminate H; apply Some_inj in H; subst; econstructor; first [eassumption | discriminate].
Qed.
End View.

(** [step_inv H] : H : step i s = Some s'.  Leaves one goal per (pc, branch) with Hp : nth_error (thr s) i = Some <pc>,
    the guards of the branch, and s' replaced by the state the branch returns.
    Afterwards, reduce projections of the new state with [cbn [set <fields>]], and unfold the predicates over it before a
    full [cbn]: a partly reduced new state makes [Qed] compare update chains field by field, exponentially in their depth. *)
Ltac step_inv H :=
  let p := fresh "p" in let Hp := fresh "Hp" in let V := fresh "V" in
  destruct (step_view _ _ _ H) as (p & Hp & V); destruct V.

Lemma step_other i s s' j p : step i s = Some s' -> j <> i -> nth_error (thr s) j = Some p -> nth_error (thr s') j = Some p.
Proof.
  intros H N Hj. step_inv H; cbn [thr set]; try apply nth_error_snoc_old; rewrite nth_error_upd_ne by auto; exact Hj.
Qed.

Lemma step_keeps (P : pc -> bool) i s s' p j pj :
  step i s = Some s' -> nth_error (thr s) i = Some p -> P p = false ->
  nth_error (thr s) j = Some pj -> P pj = true -> nth_error (thr s') j = Some pj.
Proof. intros H Hp HP Hj HPj. apply (step_other _ _ _ _ _ H); [intros ->|exact Hj]. congruence. Qed.

Lemma thread_kept (P : pc -> bool) i s s' p :
  step i s = Some s' -> nth_error (thr s) i = Some p -> P p = false ->
  (exists j pj, nth_error (thr s) j = Some pj /\ P pj = true) -> exists j pj, nth_error (thr s') j = Some pj /\ P pj = true.
Proof. intros H Hp HP (j & pj & Hj & Hpj). exists j, pj. split; [exact (step_keeps P _ _ _ _ _ _ H Hp HP Hj Hpj)|exact Hpj]. Qed.
