(** The kill chain of an incarnation (since /repo 3f0f6ad): doKill cleans up the futures the actor is waiting on, runs the
    actor's OnKill / OnKilled handlers - which may issue further Asks - and cleans up ONCE MORE after the last handler.
    In script form every Ask of a goroutine is followed, later in the same script, by a clean-up of the same asker path
    ([covered_script]).  For such a goroutine, among ANY other threads and for every interleaving: when it has finished
    its script, every future it created has been completed by somebody (its CAS is won). *)
From Coq Require Import List NArith Bool Lia Arith.
From RecordUpdate Require Import RecordSet.
From Vivid Require Import Future.FutModel Future.FutSpec Future.FutBase Future.SysModel Future.SysBase Future.SysInvDef
  Future.SysInv Future.SysProofs.
Import ListNotations RecordSetNotations.
Local Open Scope N_scope.

Fixpoint covered_script (sc : list sop) : Prop :=
  match sc with
  | [] => True
  | OAsk a _ :: rest => (exists ord, In (ODeath a ord) rest) /\ covered_script rest
  | _ :: rest => covered_script rest
  end.

Definition asks_of (a : N) (ts : list N) : list sop := map (OAsk a) ts.

(** one incarnation of the actor at path a: Asks from message handlers (timeouts [pre]), doKill's clean-up, Asks from the
    OnKill / child-OnKilled / own-OnKilled handlers (timeouts [mid]), the clean-up after the last handler *)
Definition incarnation (a : N) (pre : list N) (ord1 : list nat) (mid : list N) (ord2 : list nat) : list sop :=
  asks_of a pre ++ [ODeath a ord1] ++ asks_of a mid ++ [ODeath a ord2].

Lemma covered_asks_then a ts rest ord : In (ODeath a ord) rest -> covered_script rest -> covered_script (asks_of a ts ++ rest).
Proof.
  intros Hin Hc. induction ts as [|t ts IH]; cbn; auto. split; auto.
  exists ord. apply in_or_app. auto.
Qed.

Lemma incarnation_covered a pre ord1 mid ord2 : covered_script (incarnation a pre ord1 mid ord2).
Proof.
  unfold incarnation. apply (covered_asks_then a pre _ ord1); [left; reflexivity|].
  cbn [app covered_script]. apply (covered_asks_then a mid _ ord2); cbn; auto.
Qed.

Lemma covered_tail o sc : covered_script (o :: sc) -> covered_script sc.
Proof. destruct o; cbn; tauto. Qed.

(** what thread j (p, sc) still owes to a future it created *)
Definition owes (k : nat) (a : N) (p : spc) (sc : list sop) : Prop :=
  (exists ord, In (ODeath a ord) sc) \/ (exists ord, p = SDCopy a ord) \/ pending k p.

Definition CovThread (s : sst) (j : nat) : Prop :=
  forall p sc, nth_error (y_thr s) j = Some (p, sc) ->
    covered_script sc /\
    (forall a t, p = SNew a t -> exists ord, In (ODeath a ord) sc) /\
    (forall k f, getf s k = Some f -> f_owner f = j -> f_closed f = false -> owes k (f_asker f) p sc).

Lemma cov_init progs j sc0 : nth_error progs j = Some sc0 -> covered_script sc0 -> CovThread (sinit progs) j.
Proof.
  intros Hj Hc p sc Hp. cbn in Hp. rewrite nth_error_map, Hj in Hp. injection Hp as <- <-.
  split; auto. split; [intros; discriminate|]. intros k f Hg. unfold getf in Hg. cbn in Hg. destruct k; discriminate.
Qed.

Lemma cov_tick s j : CovThread s j -> CovThread (stick s) j.
Proof. intros H p sc Hp. apply (H p sc Hp). Qed.

Lemma owner_not_asking progs s k f p sc :
  Inv progs s -> getf s k = Some f -> nth_error (y_thr s) (f_owner f) = Some (p, sc) -> ask_of k p = false -> f_sent f = true.
Proof.
  intros HI Hg Hp Ha. destruct (f_sent f) eqn:Es; auto.
  destruct (f_snt _ _ _ _ (i_fut _ _ HI _ _ Hg) Es) as (q & scq & Hq & HP). rewrite Hp in Hq. injection Hq as <- <-. congruence.
Qed.

Lemma fin_not_new rest a t : fin rest <> SNew a t.
Proof. destruct rest; discriminate. Qed.

Lemma step_script progs s s' j p sc p' sc' :
  Inv progs s -> sstep j s = Some s' ->
  nth_error (y_thr s) j = Some (p, sc) -> nth_error (y_thr s') j = Some (p', sc') ->
  (sc' = sc /\ forall a t, p' <> SNew a t) \/ (p = SIdle /\ exists o, sc = o :: sc' /\ p' = first_pc o).
Proof.
  intros HI H Hp Hp'. pose proof (proj1 (i_loc _ _ HI _ _ _ Hp)) as HL. unfold sstep in H. rewrite Hp in H.
  destruct p; cbn in H; sdestr_cond H; try discriminate H; injection H as <-; cbn [y_thr set] in Hp';
    try (rewrite (nth_error_upd_eq _ _ _ _ Hp) in Hp'; injection Hp' as <- <-);
    try (rewrite (nth_error_snoc_old _ _ _ _ (nth_error_upd_eq _ _ _ _ Hp)) in Hp'; injection Hp' as <- <-).
  all: try solve [left; split; [reflexivity|intros; try discriminate; try (destruct rest; discriminate)]].
  all: try solve [right; split; auto; eauto].
  - left. split; auto. intros a t ->. cbn in HL. exact HL.
  - left. split; auto. intros a t. destruct (f_inctx f); discriminate.
  - left. split; auto. intros a0 t. apply fin_not_new.
  - left. split; auto. intros a t. destruct (f_inctx f); [discriminate|apply fin_not_new].
  - left. split; auto. intros a t. destruct v; discriminate.
Qed.

Lemma step_fut_back s s' i k f' : sstep i s = Some s' -> getf s' k = Some f' ->
  (exists f, getf s k = Some f) \/
  (k = length (y_futs s) /\ exists a t sc, nth_error (y_thr s) i = Some (SNew a t, sc) /\ f' = new_fut a t i (y_now s)).
Proof.
  intros H Hg'. sstep_inv H; fut_cases Hg'; unfold getf in *; eauto 8.
Qed.

Lemma cov_self progs s s' j : Inv progs s -> sstep j s = Some s' -> CovThread s j -> CovThread s' j.
Proof.
  intros HI H HC p' sc' Hp'.
  destruct (step_frame _ _ _ _ HI H) as [_ Hfr].
  destruct (nth_error (y_thr s) j) as [[p sc]|] eqn:Hp; [|unfold sstep in H; rewrite Hp in H; discriminate].
  destruct (HC _ _ Hp) as (Hcs & Hnew & Howe).
  pose proof (step_script _ _ _ _ _ _ _ _ HI H Hp Hp') as Hsc.
  split; [|split].
  - destruct Hsc as [[-> _]|(_ & o & -> & _)]; auto. eapply covered_tail; eauto.
  - intros a t ->. destruct Hsc as [[_ Hn]|(_ & o & -> & Ho)]; [exfalso; eapply Hn; eauto|].
    destruct o; try discriminate. injection Ho as <- <-. cbn in Hcs. tauto.
  - intros k f' Hg' Ho' Hc'.
    destruct (step_fut_back _ _ _ _ _ H Hg') as [(f & Hg)|(-> & a & t & sc0 & Hp0 & ->)].
    + destruct (Hfr _ _ Hg) as (f2 & Hg2 & Hle). rewrite Hg' in Hg2. injection Hg2 as <-. destruct Hle.
      assert (Hc : f_closed f = false) by (destruct (f_closed f) eqn:E; auto; rewrite le_closed in Hc'; auto).
      rewrite le_owner in Ho'. rewrite le_asker.
      destruct (Howe _ _ Hg Ho' Hc) as [(ord & Hin)|[(ord & ->)|Hpen]].
      * (* a clean-up is still in the script *)
        destruct Hsc as [[-> _]|(_ & o & -> & ->)]; [left; eauto|].
        destruct Hin as [->|Hin]; [right; left; cbn; eauto|left; eauto].
      * (* the clean-up copies the keys now *)
        right; right.
        assert (Hs : f_sent f = true) by (apply (owner_not_asking _ _ _ _ (SDCopy (f_asker f) ord) sc HI Hg); [rewrite Ho'; exact Hp|reflexivity]).
        destruct (f_reg _ _ _ _ (i_fut _ _ HI _ _ Hg) Hs Hc) as [_ Hin].
        unfold sstep in H. rewrite Hp in H. injection H as <-. cbn [y_thr set] in Hp'.
        rewrite (nth_error_upd_eq _ _ _ _ Hp) in Hp'. injection Hp' as <- <-.
        apply fin_pending. apply dcopy_keys_In. exact Hin.
      * (* in the loop *)
        right; right.
        destruct (pending_self _ _ _ _ _ _ _ HI H Hp Hpen) as [(q & scq & Hq & HP)|(f1 & Hg1 & [Hi|(v & rest & ->)])].
        -- rewrite Hp' in Hq. injection Hq as <- <-. exact HP.
        -- exfalso. rewrite Hg in Hg1. injection Hg1 as <-.
           assert (Hs : f_sent f = true).
           { apply (owner_not_asking _ _ _ _ p sc HI Hg); [rewrite Ho'; exact Hp|]. destruct p; cbn in Hpen; try tauto; reflexivity. }
           destruct (f_reg _ _ _ _ (i_fut _ _ HI _ _ Hg) Hs Hc). congruence.
        -- exfalso. destruct (cas_closes _ _ _ _ _ _ _ Hp H) as (f3 & Hg3 & Hc3). rewrite Hg' in Hg3. injection Hg3 as <-. congruence.
    + (* the future was created by this step: the Ask's clean-up is still in the script *)
      rewrite Hp in Hp0. injection Hp0 as -> <-. cbn [f_asker new_fut].
      destruct Hsc as [[-> _]|(E & _)]; [|discriminate]. left. eapply Hnew; eauto.
Qed.

Lemma cov_other progs s s' i j : Inv progs s -> sstep i s = Some s' -> i <> j ->
  nth_error (y_thr s) j <> None -> CovThread s j -> CovThread s' j.
Proof.
  intros HI H Nij Hex HC p sc Hp'.
  destruct (step_frame _ _ _ _ HI H) as [_ Hfr].
  assert (Hp : nth_error (y_thr s) j = Some (p, sc)).
  { destruct (step_thr_inv _ _ _ _ _ H Hp') as [->|[Hold|(-> & _)]]; [congruence|auto|].
    exfalso. apply Hex. apply nth_error_None. lia. }
  destruct (HC _ _ Hp) as (Hcs & Hnew & Howe). split; auto. split; auto.
  intros k f' Hg' Ho' Hc'.
  destruct (step_fut_back _ _ _ _ _ H Hg') as [(f & Hg)|(-> & a & t & sc0 & Hp0 & ->)].
  - destruct (Hfr _ _ Hg) as (f2 & Hg2 & Hle). rewrite Hg' in Hg2. injection Hg2 as <-. destruct Hle.
    assert (Hc : f_closed f = false) by (destruct (f_closed f) eqn:E; auto; rewrite le_closed in Hc'; auto).
    rewrite le_owner in Ho'. rewrite le_asker. apply (Howe _ _ Hg Ho' Hc).
  - cbn in Ho'. congruence.
Qed.

Lemma cov_run progs j sched s : Inv progs s -> nth_error (y_thr s) j <> None -> CovThread s j ->
  CovThread (srun sched s) j /\ nth_error (y_thr (srun sched s)) j <> None.
Proof.
  intros HI Hex HC. refine (proj2 (srun_ind progs (fun s1 => CovThread s1 j /\ nth_error (y_thr s1) j <> None) _ _ sched s HI (conj HC Hex))).
  - intros s1 [H1 H2]. split; [apply cov_tick|]; assumption.
  - intros i s1 s2 HI1 [H1 H2] E. split; [|eapply thr_exists_step; eauto].
    destruct (Nat.eq_dec i j) as [->|N]; [eapply cov_self; eauto|eapply cov_other; eauto].
Qed.

Lemma cov_reach progs j sc0 s : nth_error progs j = Some sc0 -> covered_script sc0 -> sreach progs s -> CovThread s j.
Proof.
  intros Hj Hc [sched <-]. apply (cov_run progs j sched (sinit progs)); [apply init_inv| |eapply cov_init; eauto].
  cbn. rewrite nth_error_map, Hj. discriminate.
Qed.

Theorem covered_finished_closed progs j sc0 s k f :
  nth_error progs j = Some sc0 -> covered_script sc0 -> sreach progs s ->
  nth_error (y_thr s) j = Some (SIdle, []) -> getf s k = Some f -> f_owner f = j -> f_closed f = true.
Proof.
  intros Hj Hc Hr Hfin Hg Ho. destruct (f_closed f) eqn:E; auto. exfalso.
  destruct (cov_reach _ _ _ _ Hj Hc Hr _ _ Hfin) as (_ & _ & Howe).
  destruct (Howe _ _ Hg Ho E) as [(ord & [])|[(ord & Hx)|[]]]. discriminate.
Qed.

Theorem covered_finished_done progs j sc0 s k f :
  nth_error progs j = Some sc0 -> covered_script sc0 -> sreach progs s -> sterminal s ->
  nth_error (y_thr s) j = Some (SIdle, []) -> getf s k = Some f -> f_owner f = j ->
  f_done f = true /\ f_inctx f = false /\ (forall a, ~ In k (ag_get a (y_agents s))) /\
  exists v, f_final f = Some v /\ fres f = vpair v /\ sorigin progs s k f v.
Proof.
  intros Hj Hc Hr Ht Hfin Hg Ho. pose proof (sreach_inv _ _ Hr) as HI.
  pose proof (covered_finished_closed _ _ _ _ _ _ Hj Hc Hr Hfin Hg Ho) as Hcl.
  destruct (sys_terminal_closed _ _ _ _ HI Ht Hg Hcl) as (Hd & Hi & _ & v & Hv & Hres).
  split; auto. split; auto. split; [apply (sys_no_registration_left _ _ _ _ HI Ht Hg Hd)|].
  exists v. split; auto. split; auto. apply (f_orig _ _ _ _ (i_fut _ _ HI _ _ Hg)). auto.
Qed.
