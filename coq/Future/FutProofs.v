(** Proofs of the C04 statements from the core invariant (Future/FutInv.v). *)
From Coq Require Import List NArith Bool Lia Arith.
From Vivid Require Import Future.FutModel Future.FutSpec Future.FutBase Future.FutInvDef Future.FutInv.
Import ListNotations.
Local Open Scope N_scope.

Lemma one_winner s : Inv s -> (length (winners s) <= 1)%nat /\ (closed s = true <-> winners s <> []).
Proof.
  intros HI. destruct (closed s) eqn:Hc.
  - destruct (i_win _ HI Hc) as (w & v & p & Hw & _). rewrite Hw. cbn. split; [lia|]. split; congruence.
  - destruct (i_open _ HI Hc) as (Hw & _). rewrite Hw. cbn. split; [lia|]. split; congruence.
Qed.

Lemma writes_once s : Inv s ->
  (length (wlog s) <= 1)%nat /\ forall i d, In (i, d) (wlog s) -> winners s = [i] /\ d = false.
Proof.
  intros HI. destruct (closed s) eqn:Hc.
  - destruct (i_win _ HI Hc) as (w & v & p & Hw & Hf & Hp & Hph).
    destruct (proj2 (wphase_facts _ _ _ _ Hph)) as [-> | ->]; cbn; split; try lia; try tauto.
    intros i d [E|[]]. injection E as <- <-. auto.
  - destruct (i_open _ HI Hc) as (_ & _ & _ & _ & _ & _ & -> & _). cbn. split; [lia|tauto].
Qed.

Lemma write_before_done i s s' v :
  Inv s -> nth_error (thr s) i = Some (CAssign v) -> step i s = Some s' ->
  done s = false /\ closed s = true /\ res_of s = (None, None) /\ res_of s' = vpair v /\ final s = Some v.
Proof.
  intros HI Hp H. destruct (winner_phase _ _ _ HI Hp eq_refl) as (v0 & Hf & Hph & Hc). cbn in Hph.
  destruct Hph as (-> & _ & _ & He & Hm & Hd & _).
  unfold step in H. rewrite Hp in H. injection H as <-. unfold res_of; cbn. rewrite He, Hm.
  repeat split; auto. destruct (vpair v0); reflexivity.
Qed.

Lemma result_stable i s s' : Inv s -> done s = true -> step i s = Some s' -> res_of s' = res_of s /\ done s' = true.
Proof. intros HI Hd H. destruct (step_stable _ _ _ HI H) as (_ & _ & _ & _ & _ & Hs & _). destruct (Hs Hd). auto. Qed.

Lemma result_stable_run sched s : Inv s -> done s = true -> res_of (run sched s) = res_of s /\ done (run sched s) = true.
Proof.
  intros HI Hd. apply (run_ind (fun s1 => res_of s1 = res_of s /\ done s1 = true)); auto.
  intros i s1 s2 HI1 [Hr Hd1] H. destruct (result_stable _ _ _ HI1 Hd1 H). split; congruence.
Qed.

Lemma waiter_needs_done i s s' full : nth_error (thr s) i = Some (WRecv full) -> step i s = Some s' -> done s = true.
Proof. intros Hp H. unfold step in H. rewrite Hp in H. destruct (done s); auto; discriminate. Qed.

Definition blocked (s : st) (p : pc) : Prop :=
  match p with
  | Done => True
  | Await _ => sent s = false
  | CLock _ | PLock _ => mu s <> None
  | PWaitDone _ | WRecv _ => done s = false
  | TFire => armed s = None
  | _ => False
  end.

Lemma terminal_blocked s i p : terminal s -> nth_error (thr s) i = Some p -> blocked s p.
Proof.
  intros Ht Hp. pose proof (Ht 0 i) as H0. cbn [N.iter] in H0. unfold step in H0. rewrite Hp in H0.
  destruct p; cbn [blocked]; auto;
    repeat match type of H0 with
    | (if ?b then _ else _) = None => destruct b eqn:?
    | match ?o with Some _ => _ | None => _ end = None => destruct o eqn:?
    | match ?l with [] => _ | _ :: _ => _ end = None => destruct l eqn:?
    | match ?v with VMsg _ => _ | VErr _ => _ | VNil => _ end = None => destruct v eqn:?
    end; try discriminate H0; auto; try congruence.
  (* TFire, armed but before the deadline: advance the clock to the deadline *)
  exfalso. match goal with Ha : armed s = Some ?t0 |- _ =>
    specialize (Ht (t0 + tmo s) i); rewrite tick_iter in Ht; unfold step in Ht; cbn -[N.add N.leb] in Ht;
    rewrite Hp, Ha, (proj2 (N.leb_le _ _) (N.le_add_l _ (now s))) in Ht end.
  destruct (tstopped s); discriminate.
Qed.

Lemma all_done_terminal s : (forall i p, nth_error (thr s) i = Some p -> p = Done) -> terminal s.
Proof.
  intros H k i. rewrite tick_iter. unfold step. cbn.
  destruct (nth_error (thr s) i) as [p|] eqn:E; auto. rewrite (H _ _ E). reflexivity.
Qed.

Lemma terminal_sent s : Inv s -> terminal s -> sent s = true.
Proof.
  intros HI Ht. destruct (sent s) eqn:E; auto. exfalso.
  destruct (i_ask _ HI E) as (j & p & Hj & Hp). pose proof (terminal_blocked _ _ _ Ht Hj) as Hb.
  destruct p; cbn in Hp; try discriminate; cbn in Hb; auto.
Qed.

Lemma terminal_mu s : Inv s -> terminal s -> mu s = None.
Proof.
  intros HI Ht. destruct (mu s) as [j|] eqn:E; auto. exfalso.
  destruct (i_mu _ HI _ E) as (p & Hj & Hh). pose proof (terminal_blocked _ _ _ Ht Hj) as Hb.
  destruct p; cbn in Hh; try discriminate; exact Hb.
Qed.

Lemma terminal_closed s : Inv s -> terminal s -> closed s = true ->
  done s = true /\ closer_ran s = true /\ fwd s = [] /\ exists w v, winners s = [w] /\ final s = Some v /\ res_of s = vpair v /\ nth_error (thr s) w = Some Done.
Proof.
  intros HI Ht Hc. destruct (i_win _ HI Hc) as (w & v & p & Hw & Hf & Hp & Hph).
  pose proof (terminal_blocked _ _ _ Ht Hp) as Hb. pose proof (terminal_mu _ HI Ht) as Hm.
  destruct p; cbn in Hph; try tauto; cbn in Hb; try tauto; try congruence.
  repeat split; try tauto. exists w, v. intuition.
Qed.

Lemma completes s : Inv s -> terminal s -> (attempts s <> [] \/ armed s <> None) -> done s = true.
Proof.
  intros HI Ht H.
  assert (Hc : closed s = true).
  { destruct (closed s) eqn:Hc; auto. exfalso. destruct H as [H|H].
    - destruct (i_open _ HI Hc) as (_ & _ & _ & _ & _ & _ & _ & _ & _ & Ha & _). congruence.
    - destruct (i_timer _ HI H) as [?|(j & p & Hj & Hp)]; [congruence|].
      pose proof (terminal_blocked _ _ _ Ht Hj) as Hb. pose proof (i_loc _ HI _ _ Hj) as HL.
      destruct p; cbn in Hp; try discriminate; cbn in Hb; auto. }
  apply (terminal_closed _ HI Ht Hc).
Qed.

Lemma no_deadlock s : Inv s -> terminal s ->
  forall i p, nth_error (thr s) i = Some p ->
    p = Done \/ (exists full, p = WRecv full) /\ done s = false /\ closed s = false /\ attempts s = [] /\ armed s = None.
Proof.
  intros HI Ht i p Hp.
  pose proof (terminal_blocked _ _ _ Ht Hp) as Hb. pose proof (i_loc _ HI _ _ Hp) as HL.
  pose proof (terminal_sent _ HI Ht) as Hs. pose proof (terminal_mu _ HI Ht) as Hm.
  destruct p; cbn in Hb; try tauto; try congruence; auto.
  - cbn in HL. tauto.
  - cbn in HL. destruct (terminal_closed _ HI Ht HL) as (? & _). congruence.
  - right. split; eauto. split; auto.
    assert (Hc : closed s = false).
    { destruct (closed s) eqn:Hc; auto. destruct (terminal_closed _ HI Ht Hc) as (? & _). congruence. }
    split; auto. split.
    + apply (i_open _ HI Hc).
    + destruct (armed s) eqn:Ea; auto. assert (done s = true) by (apply completes; auto; right; congruence). congruence.
Qed.

Lemma no_registration_left s : Inv s -> terminal s -> done s = true -> rlookup fpath (reg s) = None.
Proof.
  intros HI Ht Hd. destruct (rlookup fpath (reg s)) eqn:E; auto. exfalso.
  assert (Hn : rlookup fpath (reg s) <> None) by congruence.
  destruct (done_final _ HI Hd) as (_ & _ & _ & Hc).
  destruct (terminal_closed _ HI Ht Hc) as (_ & Hcr & _).
  destruct (i_reg _ HI Hn) as [H0|H0]; [|congruence].
  exact (terminal_blocked _ _ _ Ht H0).
Qed.
