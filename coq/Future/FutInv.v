(** The core invariant is inductive: preservation by every step of every thread. *)
From Coq Require Import List NArith Bool Arith.
From RecordUpdate Require Import RecordSet.
From Vivid Require Import Future.FutModel Future.FutSpec Future.FutBase Future.FutInvDef.
Import ListNotations RecordSetNotations.
Local Open Scope N_scope.

Lemma past_cas_is_winner s i p : Inv s -> nth_error (thr s) i = Some p -> close_pc p = true -> winners s = [i].
Proof. intros HI Hp Hc. pose proof (i_loc _ HI _ _ Hp) as HL. destruct p; try discriminate Hc; exact HL. Qed.

Lemma winner_phase s i p : Inv s -> nth_error (thr s) i = Some p -> close_pc p = true ->
  exists v, final s = Some v /\ wphase s i v p /\ closed s = true.
Proof.
  intros HI Hp Hcp. pose proof (past_cas_is_winner _ _ _ HI Hp Hcp) as Hw.
  pose proof (winner_closed _ _ HI Hw) as Hcl.
  destruct (i_win _ HI Hcl) as (w & v0 & pw & Hw' & Hf & Hpw & Hph).
  rewrite Hw in Hw'; injection Hw' as <-. rewrite Hp in Hpw; injection Hpw as <-. eauto.
Qed.

Lemma step_stable i s s' : Inv s -> step i s = Some s' ->
  (created s = true -> created s' = true) /\ (sent s = true -> sent s' = true) /\ (armed s <> None -> armed s' <> None) /\
  (closed s = true -> closed s' = true) /\ (fired s <> None -> fired s' <> None) /\
  (done s = true -> done s' = true /\ res_of s' = res_of s) /\
  (forall w, winners s = [w] -> winners s' = [w]) /\ (forall v, final s = Some v -> final s' = Some v) /\
  (i <> 0%nat -> created s' = created s /\ sent s' = sent s) /\
  (forall j, mu s = Some j -> j <> i -> mu s' = Some j /\ fwd s' = fwd s /\ taken s' = taken s).
Proof.
  intros HI H. pose proof (i_open _ HI) as Hopen. unfold res_of.
  step_inv H; pose proof (i_loc _ HI _ _ Hp) as HLi; cbn in HLi; cbn; repeat split; auto; try solve [intuition congruence].
  (* CAssign writes the result: done is still open *)
  all: destruct (winner_phase _ _ _ HI Hp eq_refl) as (v0 & _ & Hph & _); cbn in Hph; exfalso; intuition congruence.
Qed.

Lemma L_stable i s s' j p : Inv s -> step i s = Some s' -> j <> i -> L s j p -> L s' j p.
Proof.
  intros HI H N. destruct (step_stable _ _ _ HI H) as (Hcr & Hse & Har & Hcl & _ & _ & Hw & Hf & Hown & Hmu).
  destruct p; cbn; destr_pc_match; cbn; try tauto; auto.
  1-4: intros [-> HL]; destruct (Hown (not_eq_sym N)) as [E1 E2]; rewrite ?E1, ?E2; exact (conj eq_refl HL).
  - intros Hm. apply (Hmu _ Hm N).
  - intros (Hm & -> & Ht). destruct (Hmu _ Hm N) as (-> & -> & ->). auto.
  - intros (v & Hv & ->). eauto.
Qed.

Lemma step_loc i s s' : Inv s -> step i s = Some s' -> AllThr (L s') (thr s').
Proof.
  intros HI H.
  pose proof (fun j p N (_ : nth_error (thr s) j = Some p) => L_stable i s s' j p HI H N) as Hst.
  step_inv H; pose proof (i_loc _ HI _ _ Hp) as HLi; cbn in HLi; cbn [thr set].
  all: try (apply AllThr_upd with (P := L s); [exact (i_loc _ HI) | exact Hst | ]).
  (* left: [L] for the new pc of thread i *)
  all: try solve [cbn; intuition congruence].
  all: try solve [cbn; rewrite (proj1 (i_open _ HI Hc)); reflexivity].   (* the CAS is won *)
  - (* Start *) destruct p; cbn in *; tauto.
  - (* Await *) destruct p; cbn in *; try tauto. exact (sent_created _ HI Hc).
  - (* ANew, timer armed *)
    destruct HLi as [-> Hcr]. destruct (i_new _ HI Hcr) as (_ & Hs & _).
    apply AllThr_snoc; [apply AllThr_upd with (P := L s); [exact (i_loc _ HI) | exact Hst | ]|]; cbn; auto. split; congruence.
  - destruct HLi as [-> Hcr]. destruct (i_new _ HI Hcr) as (_ & Hs & _). cbn. auto.
  - (* RLookup: what is registered under the future's path is registered by ask, after NewFuture *)
    destruct (rlookup p (reg s)) as [id|] eqn:E; cbn; [|exact I]. destruct (id =? 0) eqn:E2; cbn; [|exact I].
    apply (reg_created _ HI). apply N.eqb_eq in E2. subst id. rewrite <- (proj2 (i_route _ HI _ _ E) eq_refl), E. discriminate.
  - (* DLookup *)
    destruct (rlookup 0 (reg s)) as [id|] eqn:E; cbn; [|exact I]. destruct (id =? 0); cbn; [|exact I].
    apply (reg_created _ HI). congruence.
  - (* CLock *) destruct (fwd s); cbn; auto.
  - (* CTell *) destruct l0; cbn; auto.
  - (* PLoad, open *) cbn. destruct (i_open _ HI Hc) as (_ & _ & _ & _ & _ & _ & _ & _ & _ & _ & Htk). auto.
  - (* PWaitDone *) destruct fs; cbn; auto. destruct (done_final _ HI Hc) as (v & Hf & Hr & _). exists v. split; auto.
  - (* PTell *) destruct l0; cbn; auto.
Qed.

Lemma step_new i s s' : Inv s -> step i s = Some s' ->
  created s' = false ->
  closed s' = false /\ sent s' = false /\ armed s' = None /\ fired s' = None /\ rlookup fpath (reg s') = None.
Proof.
  intros HI H.
  step_inv H; pose proof (i_loc _ HI _ _ Hp) as HLi; cbn in HLi; intros Hcr.
  all: try exact (i_new _ HI Hcr).
  all: cbn [set created] in Hcr; try congruence.
  (* AAppend, ACheck, TFire: NewFuture has run *)
  1-3: exfalso; intuition congruence.
  - (* CCloser *) destruct (i_new _ HI Hcr) as (Hc & _). rewrite (winner_closed _ _ HI HLi) in Hc. discriminate.
  (* FReg, FUnreg: another path *)
  - cbn [set closed sent armed fired reg]. rewrite rlookup_rinsert_ne by apply HLi. exact (i_new _ HI Hcr).
  - cbn [set closed sent armed fired reg]. rewrite rlookup_rremove_ne by apply HLi. exact (i_new _ HI Hcr).
Qed.

Lemma step_open i s s' : Inv s -> step i s = Some s' ->
  closed s' = false ->
  winners s' = [] /\ final s' = None /\ assigned s' = false /\ err s' = None /\ msg s' = None /\ done s' = false /\
  wlog s' = [] /\ closer_ran s' = false /\ tstopped s' = false /\ attempts s' = [] /\ taken s' = false.
Proof.
  intros HI H.
  step_inv H; pose proof (i_loc _ HI _ _ Hp) as HLi; cbn in HLi; intros Hc'.
  all: try exact (i_open _ HI Hc').
  all: cbn [set closed] in Hc'; try congruence.
  (* the other steps belong to the close sequence, whose thread has won the CAS *)
  all: destruct (i_open _ HI Hc') as (Hw & _); congruence.
Qed.

Lemma win_frame i s s' p : Inv s -> step i s = Some s' -> nth_error (thr s) i = Some p -> close_pc p = false ->
  closed s = true -> winners s' = winners s -> final s' = final s -> wview s' = wview s -> (taken s = true -> fwd s' = fwd s) ->
  exists w v pw, winners s' = [w] /\ final s' = Some v /\ nth_error (thr s') w = Some pw /\ wphase s' w v pw.
Proof.
  intros HI H Hp Hcp Hc -> -> E Hfw.
  destruct (i_win _ HI Hc) as (w & v & pw & Hw & Hf & Hpw & Hph). exists w, v, pw.
  split; [exact Hw|]. split; [exact Hf|]. split; [|exact (wphase_frame _ _ _ _ _ E Hfw Hph)].
  apply (step_other _ _ _ _ _ H); [intros ->|exact Hpw]. rewrite Hp in Hpw. injection Hpw as <-.
  destruct p; try discriminate Hcp; try contradiction Hph. unfold step in H. rewrite Hp in H. discriminate H.
Qed.

Lemma step_win i s s' : Inv s -> step i s = Some s' ->
  closed s' = true ->
  exists w v p, winners s' = [w] /\ final s' = Some v /\ nth_error (thr s') w = Some p /\ wphase s' w v p.
Proof.
  intros HI H.
  step_inv H; pose proof (i_loc _ HI _ _ Hp) as HLi; cbn in HLi; intros Hc'.
  all: try solve [apply (win_frame _ _ _ _ HI H Hp eq_refl Hc'); [reflexivity | reflexivity | reflexivity | intros _; reflexivity]].
  all: cbn [set closed] in Hc'; try congruence.
  (* ANew arms the timer: not closed yet *)
  1: destruct HLi as [_ Hcr]; destruct (i_new _ HI Hcr) as (Hcl & _); congruence.
  (* the CAS is won *)
  1-2: destruct (i_open _ HI Hc) as (Hw & _ & Ha & He & Hm & Hd & Hwl & Hcr & Hts & _ & Htk);
       eexists i, _, _; (split; [cbn [set winners]; rewrite Hw; reflexivity|]); (split; [reflexivity|]);
       (split; [exact (nth_error_upd_eq _ _ _ _ Hp)|]); unfold wphase, res_of; cbn; intuition congruence.
  (* a step of the winner *)
  all: try (destruct (winner_phase _ _ _ HI Hp eq_refl) as (v0 & Hf & Hph & _); unfold wphase, stopped_ok, res_of in Hph;
            eexists i, v0, _; (split; [exact HLi|]); (split; [exact Hf|]); (split; [exact (nth_error_upd_eq _ _ _ _ Hp)|])).
  all: try solve [unfold wphase, stopped_ok, res_of; cbn; intuition congruence].
  - (* CAssign *)
    destruct Hph as (-> & Hnn & ? & ? & ? & Hd & Hwl & ? & ? & ?). unfold wphase, res_of; cbn. rewrite Hwl, Hd.
    repeat split; auto; try (destruct (vpair v0); reflexivity); destruct v0; cbn; congruence.
  - (* CDone *)
    destruct Hph as (-> & ? & ? & ? & ? & ? & Hts & ?). unfold wphase, stopped_ok, res_of; cbn. rewrite Hts.
    repeat split; auto; destruct (armed s); reflexivity.
  - (* CLock *) destruct (fwd s); unfold wphase, stopped_ok, res_of; cbn; intuition congruence.
  - (* CTell *) destruct l0; unfold wphase, stopped_ok, res_of; cbn; intuition congruence.
  - (* PAppend: the holder of mu writes forwarders; the winner cannot have taken them yet *)
    apply (win_frame _ _ _ _ HI H Hp eq_refl Hc'); try reflexivity. destruct HLi as (_ & _ & Htk). congruence.
Qed.

Lemma step_mu i s s' : Inv s -> step i s = Some s' ->
  forall j, mu s' = Some j -> exists p, nth_error (thr s') j = Some p /\ holder_pc p = true.
Proof.
  intros HI H.
  step_inv H; intros j Hm; cbn [set mu] in Hm; try discriminate Hm.
  all: try solve [destruct (i_mu _ HI _ Hm) as (pj & Hj & Hh); exists pj; split; [exact (step_keeps holder_pc _ _ _ _ _ _ H Hp eq_refl Hj Hh)|exact Hh]].
  - (* PLock *) injection Hm as <-. eexists. split; [exact (nth_error_upd_eq _ _ _ _ Hp)|reflexivity].
  - (* PLoad, still open: the holder moves on *)
    rewrite (i_loc _ HI _ _ Hp : mu s = Some i) in Hm. injection Hm as <-.
    eexists. split; [exact (nth_error_upd_eq _ _ _ _ Hp)|reflexivity].
Qed.

Lemma step_route i s s' : Inv s -> step i s = Some s' ->
  forall q id, rlookup q (reg s') = Some id -> (q = fpath <-> id = fid).
Proof.
  intros HI H. pose proof (i_route _ HI : route_ok (reg s)) as Hr.
  step_inv H; try exact Hr; pose proof (i_loc _ HI _ _ Hp) as HLi; cbn in HLi; cbn [set reg].
  - apply route_rinsert; tauto.
  - destruct (closed s); [apply route_rremove|]; exact Hr.
  - apply route_rremove, Hr.
  - apply route_rinsert; tauto.
  - apply route_rremove, Hr.
Qed.

Lemma step_reg i s s' : Inv s -> step i s = Some s' ->
  rlookup fpath (reg s') <> None -> nth_error (thr s') 0 = Some ACheck \/ closer_ran s' = false.
Proof.
  intros HI H.
  step_inv H; pose proof (i_loc _ HI _ _ Hp) as HLi; cbn in HLi; intros Hq; cbn [set reg closer_ran] in Hq |- *.
  (* FReg, FUnreg: another path *)
  all: try (rewrite rlookup_rinsert_ne in Hq by apply HLi).
  all: try (rewrite rlookup_rremove_ne in Hq by apply HLi).
  (* the registration is untouched; thread 0, if at ACheck, is not the one that steps *)
  all: try solve [destruct (i_reg _ HI Hq) as [H1|H1]; [left; apply (step_other _ _ _ _ _ H); [congruence|exact H1] | right; exact H1]].
  - (* AAppend *) left. destruct HLi as (-> & _). exact (nth_error_upd_eq _ _ _ _ Hp).
  - (* ACheck: if the future is still open, closer() has not run *)
    right. destruct (closed s) eqn:Hc; [|apply (i_open _ HI Hc)]. rewrite rlookup_rremove in Hq. contradiction Hq. reflexivity.
  - (* CCloser *) rewrite rlookup_rremove in Hq. contradiction Hq. reflexivity.
Qed.

Lemma step_ask i s s' : Inv s -> step i s = Some s' ->
  sent s' = false -> exists j p, nth_error (thr s') j = Some p /\ ask_pc p = true.
Proof.
  intros HI H.
  step_inv H; intros Hq; cbn [set sent] in Hq; try discriminate Hq.
  all: try exact (thread_kept ask_pc _ _ _ _ H Hp eq_refl (i_ask _ HI Hq)).
  (* the asker itself moves on, and stays the asker *)
  - destruct (ask_pc (Start p)) eqn:E.
    + exists i, p. split; [exact (nth_error_upd_eq _ _ _ _ Hp)|]. destruct p; try discriminate E; reflexivity.
    + exact (thread_kept ask_pc _ _ _ _ H Hp E (i_ask _ HI Hq)).
  - exists i, AAppend. split; [exact (nth_error_snoc_old _ _ _ _ (nth_error_upd_eq _ _ _ _ Hp))|reflexivity].
  - exists i, AAppend. split; [exact (nth_error_upd_eq _ _ _ _ Hp)|reflexivity].
  - exists i, ACheck. split; [exact (nth_error_upd_eq _ _ _ _ Hp)|reflexivity].
Qed.

Lemma step_timer i s s' : Inv s -> step i s = Some s' ->
  armed s' <> None -> closed s' = true \/ exists j p, nth_error (thr s') j = Some p /\ timer_pc p = true.
Proof.
  intros HI H.
  step_inv H; intros Hq; cbn [set armed] in Hq.
  all: try solve [destruct (i_timer _ HI Hq) as [Hc1|Hex]; [left; exact Hc1|right; exact (thread_kept timer_pc _ _ _ _ H Hp eq_refl Hex)]].
  all: try solve [left; first [reflexivity | assumption]].
  - (* Start p *) destruct (timer_pc (Start p)) eqn:E.
    + right. exists i, p. split; [exact (nth_error_upd_eq _ _ _ _ Hp)|]. destruct p; try discriminate E; reflexivity.
    + destruct (i_timer _ HI Hq) as [Hc1|Hex]; [left; exact Hc1|right; exact (thread_kept timer_pc _ _ _ _ H Hp E Hex)].
  - (* ANew starts the timer goroutine *)
    right. exists (length (upd (thr s) i AAppend)), (Start TFire). split; [|reflexivity].
    cbn [set thr]. rewrite nth_error_app2, Nat.sub_diag by apply le_n. reflexivity.
  - (* TFire after timer.Stop(): only close() stops the timer *)
    left. destruct (closed s) eqn:E; [exact E|]. destruct (i_open _ HI E) as (_ & _ & _ & _ & _ & _ & _ & _ & Hts & _). congruence.
  - right. exists i, (CCas (VErr E_TIMEOUT)). split; [exact (nth_error_upd_eq _ _ _ _ Hp)|reflexivity].
Qed.

Lemma step_fired i s s' : Inv s -> step i s = Some s' ->
  forall t, fired s' = Some t -> exists t0, armed s' = Some t0 /\ t0 + tmo s' <= t.
Proof.
  intros HI H.
  step_inv H; try exact (i_fired _ HI); intros t Ht; cbn [set fired armed tmo] in Ht |- *.
  (* ANew: nothing has fired before NewFuture *)
  1-2: destruct (i_loc _ HI _ _ Hp) as [_ Hcr]; destruct (i_new _ HI Hcr) as (_ & _ & _ & Hf & _); congruence.
  - (* TFire *) injection Ht as <-. exists n. split; [assumption|]. apply N.leb_le. assumption.
Qed.

Lemma step_rets i s s' : Inv s -> step i s = Some s' ->
  forall j full r, In (j, full, r) (rets s') -> done s' = true /\ r = (if full then msg s' else None, err s').
Proof.
  intros HI H.
  step_inv H; try exact (i_rets _ HI); intros j0 fl r0 Hin; cbn [set rets done msg err] in Hin |- *.
  - (* CAssign: done is still open, so nobody has returned *)
    destruct (winner_phase _ _ _ HI Hp eq_refl) as (v0 & _ & Hph & _). destruct (i_rets _ HI _ _ _ Hin) as [Hd _].
    cbn in Hph. intuition congruence.
  - (* CDone *) split; [reflexivity|apply (i_rets _ HI _ _ _ Hin)].
  - (* WRecv *) apply in_app_or in Hin as [Hin|[[= <- <- <-]|[]]]; [exact (i_rets _ HI _ _ _ Hin)|]. split; [assumption|reflexivity].
Qed.

Lemma step_tells i s s' : Inv s -> step i s = Some s' ->
  forall x r, In (x, r) (tells s') -> exists v, final s' = Some v /\ r = vpair v.
Proof.
  intros HI H.
  step_inv H; try exact (i_tells _ HI); intros x0 r0 Hin; cbn [set tells final] in Hin |- *.
  (* the CAS is won: nothing was told while the future was open *)
  1-2: destruct (i_tells _ HI _ _ Hin) as (v0 & Hf & _); destruct (i_open _ HI Hc) as (_ & Hn & _); congruence.
  - (* CTell *)
    apply in_app_or in Hin as [Hin|[[= <- <-]|[]]]; [exact (i_tells _ HI _ _ Hin)|].
    destruct (winner_phase _ _ _ HI Hp eq_refl) as (v0 & Hf & Hph & _). exists v0. split; [exact Hf|apply Hph].
  - (* PTell *)
    apply in_app_or in Hin as [Hin|[[= <- <-]|[]]]; [exact (i_tells _ HI _ _ Hin)|]. exact (i_loc _ HI _ _ Hp).
Qed.

Theorem step_inv_thm i s s' : Inv s -> step i s = Some s' -> Inv s'.
Proof.
  intros HI H. split; eauto using step_loc, step_new, step_open, step_win, step_mu, step_route, step_reg, step_ask, step_timer,
    step_fired, step_rets, step_tells.
Qed.

Lemma run_ind (P : st -> Prop) :
  (forall s, Inv s -> P s -> P (tick s)) ->
  (forall i s s', Inv s -> P s -> step i s = Some s' -> P s') ->
  forall sched s, Inv s -> P s -> Inv (run sched s) /\ P (run sched s).
Proof.
  intros Ht Hs sched. induction sched as [|a l IH]; intros s HI HP; [auto|].
  destruct a as [|i]; cbn; [apply IH; [apply tick_inv|]; auto|].
  destruct (step i s) eqn:E; apply IH; eauto using step_inv_thm.
Qed.

Lemma reach_ind t progs (P : st -> Prop) :
  forallb prog_ok progs = true -> P (init t progs) ->
  (forall s, Inv s -> P s -> P (tick s)) ->
  (forall i s s', Inv s -> P s -> step i s = Some s' -> P s') ->
  forall s, reach t progs s -> Inv s /\ P s.
Proof. intros Hok H Ht Hs s [sched <-]. apply run_ind; auto. apply init_inv, Hok. Qed.

Theorem reach_inv t progs s : forallb prog_ok progs = true -> reach t progs s -> Inv s.
Proof. intros Hok Hr. apply (reach_ind t progs (fun _ => True)); auto. Qed.

Theorem reachable_inv s : reachable s -> Inv s.
Proof. intros (t & progs & Hok & Hr). eapply reach_inv; eauto. Qed.
