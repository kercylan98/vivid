(** The invariant of Future/SysModel.v: definitions, initial state, clock tick. *)
From Coq Require Import List NArith Bool Arith.
From RecordUpdate Require Import RecordSet.
From Vivid Require Import Future.FutModel Future.FutSpec Future.FutBase Future.SysModel Future.SysBase.
Import ListNotations RecordSetNotations.
Local Open Scope N_scope.

Definition ask_of (k : nat) (p : spc) : bool :=
  match p with SStore k' | SAgents k' | SCheck k' | SRemCtx k' | SRemAg k' => Nat.eqb k' k | _ => false end.
Definition own_ctx (k : nat) (p : spc) : bool :=
  match p with SAgents k' | SCheck k' | SRemCtx k' => Nat.eqb k' k | _ => false end.
Definition own_ag (k : nat) (p : spc) : bool :=
  match p with SCheck k' | SRemCtx k' | SRemAg k' => Nat.eqb k' k | _ => false end.
Definition timer_of (k : nat) (p : spc) : bool :=
  match p with
  | STStart k' | STFire k' => Nat.eqb k' k
  | SCas k' (VErr e) _ => Nat.eqb k' k && (e =? E_TIMEOUT)
  | _ => false
  end.

(** the stage of the close sequence of future k that a pc is in *)
Inductive stage : Type := StAssign | StDone | StRemCtx | StRemAg | StLock | StFin.
Definition stage_of (k : nat) (p : spc) : stage :=
  match p with
  | SAssign k' _ _ => if Nat.eqb k' k then StAssign else StFin
  | SDone k' _ _ => if Nat.eqb k' k then StDone else StFin
  | SCRemCtx k' _ => if Nat.eqb k' k then StRemCtx else StFin
  | SCRemAg k' _ => if Nat.eqb k' k then StRemAg else StFin
  | SLock k' _ => if Nat.eqb k' k then StLock else StFin
  | _ => StFin
  end.

Definition swl (w : nat) (v : val) : list (nat * bool) := match v with VNil => [] | _ => [(w, false)] end.
Definition fstopped_ok (f : fut) : Prop := f_tstopped f = match f_armed f with Some _ => true | None => false end.

Definition wstage (f : fut) (w : nat) (v : val) (st : stage) : Prop :=
  match st with
  | StAssign => v <> VNil /\ fres f = (None, None) /\ f_done f = false /\ f_wlog f = [] /\ f_crem f = false /\
                f_arem f = false /\ f_tstopped f = false
  | StDone => fres f = vpair v /\ f_done f = false /\ f_wlog f = swl w v /\ f_crem f = false /\ f_arem f = false /\
              f_tstopped f = false
  | StRemCtx => fres f = vpair v /\ f_done f = true /\ f_wlog f = swl w v /\ f_crem f = false /\ f_arem f = false /\
                fstopped_ok f
  | StRemAg => fres f = vpair v /\ f_done f = true /\ f_wlog f = swl w v /\ f_crem f = true /\ f_arem f = false /\
               fstopped_ok f
  | StLock | StFin => fres f = vpair v /\ f_done f = true /\ f_wlog f = swl w v /\ f_crem f = true /\ f_arem f = true /\
                      fstopped_ok f
  end.

Lemma wstage_facts f w v st : wstage f w v st ->
  (fres f = vpair v \/ fres f = (None, None) /\ f_done f = false) /\ (f_wlog f = [] \/ f_wlog f = [(w, false)]).
Proof.
  destruct st; cbn; intros H; decompose [and] H; clear H.
  1: split; [right; split; assumption|left; assumption].
  all: split; [left; assumption|destruct v; cbn in *; auto].
Qed.

(** the keys a death loop still has to visit were copied by this thread *)
Definition rest_ok (s : sst) (i : nat) (rest : list nat) : Prop :=
  forall k, In k rest -> exists a l0, In (i, a, l0) (y_dcopies s) /\ In k l0.

Definition exf (s : sst) (k : nat) (P : fut -> Prop) : Prop := exists f, getf s k = Some f /\ P f.

Definition await_ok (progs : list (list sop)) (k : nat) (q : spc) : Prop :=
  match q with
  | SRLoad k' v => k' = k /\ In (OReply k v) (all_ops progs)
  | SCas k' (VErr e) [] => k' = k /\ In (OClose k e) (all_ops progs)
  | SWRecv k' _ => k' = k
  | SIdle => True
  | _ => False
  end.

Definition L (progs : list (list sop)) (s : sst) (i : nat) (p : spc) : Prop :=
  match p with
  | SStart | SIdle | SNew _ _ | SDCopy _ _ => True
  | SAwait k q => await_ok progs k q
  | SStore k => exf s k (fun f => f_owner f = i /\ f_sent f = false)
  | SAgents k => exf s k (fun f => f_owner f = i /\ f_sent f = false /\ f_stored f = true /\
                                   (f_closed f = false -> f_inctx f = true))
  | SCheck k => exf s k (fun f => f_owner f = i /\ f_sent f = false /\ f_stored f = true /\
                                  (f_closed f = false -> f_inctx f = true /\ In k (ag_get (f_asker f) (y_agents s))))
  | SRemCtx k | SRemAg k => exf s k (fun f => f_owner f = i /\ f_sent f = false /\ f_closed f = true)
  | STStart k | STFire k => exf s k (fun f => f_armed f <> None)
  | SRLoad k v => In (OReply k v) (all_ops progs) /\ exf s k (fun _ => True)
  | SDLoad l => rest_ok s i l
  | SCas k v rest => exf s k (fun f => sorigin progs s k f v) /\ rest_ok s i rest
  | SAssign k v rest | SDone k v rest => exf s k (fun f => f_winners f = [i] /\ f_final f = Some v) /\ rest_ok s i rest
  | SCRemCtx k rest | SCRemAg k rest | SLock k rest => exf s k (fun f => f_winners f = [i]) /\ rest_ok s i rest
  | SWRecv k _ => exf s k (fun _ => True)
  end.

(** key k of a death's copy is still going to be visited by thread pc p *)
Definition pending (k : nat) (p : spc) : Prop :=
  match p with
  | SDLoad l => In k l
  | SCas k' v rest => (k' = k /\ v = VErr E_DEAD) \/ In k rest
  | SAssign _ _ rest | SDone _ _ rest | SCRemCtx _ rest | SCRemAg _ rest | SLock _ rest => In k rest
  | _ => False
  end.

Definition thr_at (s : sst) (j : nat) (P : spc -> Prop) : Prop :=
  exists p sc, nth_error (y_thr s) j = Some (p, sc) /\ P p.

(** [f_open]/[f_win] as in Future/FutInvDef.v, with [wstage] for [wphase]. [f_ctx]/[f_ag]: a registration still there after the
    closer removed it means the owner stands before its own re-check and removal, so none leaks; [f_reg]: a sent, open future is
    in both tables. [f_timer]/[f_snt]: the thread that will still fire / send *)
Record FInv (progs : list (list sop)) (s : sst) (k : nat) (f : fut) : Prop := {
  f_open : f_closed f = false ->
           f_winners f = [] /\ f_final f = None /\ fres f = (None, None) /\ f_done f = false /\ f_wlog f = [] /\
           f_attempts f = [] /\ f_tstopped f = false /\ f_crem f = false /\ f_arem f = false;
  f_win : f_closed f = true ->
          exists w v, f_winners f = [w] /\ f_final f = Some v /\ thr_at s w (fun p => wstage f w v (stage_of k p));
  f_ctx : f_inctx f = true -> f_crem f = false \/ thr_at s (f_owner f) (fun p => own_ctx k p = true);
  f_ag : In k (ag_get (f_asker f) (y_agents s)) -> f_arem f = false \/ thr_at s (f_owner f) (fun p => own_ag k p = true);
  f_sto : f_inctx f = false -> f_stored f = true -> f_closed f = true;
  f_reg : f_sent f = true -> f_closed f = false -> f_inctx f = true /\ In k (ag_get (f_asker f) (y_agents s));
  f_timer : f_armed f <> None -> f_closed f = true \/ exists j, thr_at s j (fun p => timer_of k p = true);
  f_fire : forall t, f_fired f = Some t -> exists t0, f_armed f = Some t0 /\ t0 + f_tmo f <= t;
  f_snt : f_sent f = false -> thr_at s (f_owner f) (fun p => ask_of k p = true);
  f_orig : forall v, f_final f = Some v -> sorigin progs s k f v
}.

Record Inv (progs : list (list sop)) (s : sst) : Prop := {
  i_loc : forall j p sc, nth_error (y_thr s) j = Some (p, sc) -> L progs s j p /\ incl sc (all_ops progs);
  i_fut : forall k f, getf s k = Some f -> FInv progs s k f;
  i_ag : ag_wf (y_agents s) /\
         forall a k, In k (ag_get a (y_agents s)) -> exf s k (fun f => f_asker f = a /\ f_stored f = true);
  i_rets : forall j k full r, In (j, k, full, r) (y_rets s) ->
           exf s k (fun f => f_done f = true /\ r = (if full then f_msg f else None, f_err f));
  i_cp : forall d a l k, In (d, a, l) (y_dcopies s) -> In k l ->
         exf s k (fun f => f_asker f = a /\ f_stored f = true /\ (f_closed f = true \/ thr_at s d (pending k)))
}.

Lemma init_inv progs : Inv progs (sinit progs).
Proof.
  split; cbn.
  - intros j p sc Hj. apply nth_error_In in Hj. apply in_map_iff in Hj as [sc0 [E Hin]].
    injection E as <- <-. cbn. split; auto.
    intros o Ho. unfold all_ops. apply in_concat. eauto.
  - intros k f Hk. unfold getf in Hk. cbn in Hk. destruct k; discriminate.
  - split; [split; [constructor|intros ? ? []]|intros ? ? []].
  - intros ? ? ? ? [].
  - intros ? ? ? ? [].
Qed.

(** the clock only matters to a timer's fire step: no invariant mentions [y_now] *)
Lemma tick_L progs s i p : L progs s i p -> L progs (stick s) i p.
Proof. destruct p; cbn; auto. Qed.

Lemma tick_inv progs s : Inv progs s -> Inv progs (stick s).
Proof.
  intros [Hl Hf Ha Hr Hc]. split; cbn; auto.
  intros k f Hk. destruct (Hf k f Hk). split; auto.
Qed.
