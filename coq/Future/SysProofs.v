(** Proofs of the system-level C04 statements from the invariant of Future/SysModel.v (Future/SysInv.v). *)
From Coq Require Import List NArith Bool Lia Arith.
From RecordUpdate Require Import RecordSet.
From Vivid Require Import Future.FutModel Future.FutSpec Future.FutBase Future.SysModel Future.SysBase Future.SysInvDef Future.SysInv.
From Vivid Require Future.SysRun.
Import ListNotations RecordSetNotations.
Local Open Scope N_scope.

Lemma sys_one_winner progs s k f : Inv progs s -> getf s k = Some f ->
  (length (f_winners f) <= 1)%nat /\ (f_closed f = true <-> f_winners f <> []).
Proof.
  intros HI Hg. pose proof (i_fut _ _ HI _ _ Hg) as HF. destruct (f_closed f) eqn:Hc.
  - destruct (f_win _ _ _ _ HF Hc) as (w & v & Hw & _). rewrite Hw. cbn. split; [lia|]. split; congruence.
  - destruct (f_open _ _ _ _ HF Hc) as (Hw & _). rewrite Hw. cbn. split; [lia|]. split; congruence.
Qed.

Lemma sys_past_cas progs s i p sc k : Inv progs s -> nth_error (y_thr s) i = Some (p, sc) ->
  stage_of k p <> StFin -> exists f, getf s k = Some f /\ f_winners f = [i].
Proof.
  intros HI Hp Hst. pose proof (proj1 (i_loc _ _ HI _ _ _ Hp)) as HL.
  destruct p; cbn in Hst; try congruence;
    match type of Hst with (if Nat.eqb ?a ?b then _ else _) <> _ => destruct (Nat.eqb_spec a b); [subst|congruence] end;
    cbn in HL; destruct HL as [(f & Hg & HL) _]; exists f; split; auto; tauto.
Qed.

Lemma sys_writes_once progs s k f : Inv progs s -> getf s k = Some f ->
  (length (f_wlog f) <= 1)%nat /\ forall i d, In (i, d) (f_wlog f) -> f_winners f = [i] /\ d = false.
Proof.
  intros HI Hg. pose proof (i_fut _ _ HI _ _ Hg) as HF. destruct (f_closed f) eqn:Hc.
  - destruct (f_win _ _ _ _ HF Hc) as (w & v & Hw & _ & (p & sc & Hp & Hws)).
    destruct (proj2 (wstage_facts _ _ _ _ Hws)) as [-> | ->]; cbn; split; try lia; try tauto.
    intros i d [E|[]]. injection E as <- <-. auto.
  - destruct (f_open _ _ _ _ HF Hc) as (_ & _ & _ & _ & -> & _). cbn. split; [lia|tauto].
Qed.

Lemma sys_result_is_final progs s k f : Inv progs s -> getf s k = Some f ->
  fres f = (None, None) /\ f_done f = false \/ exists v, f_final f = Some v /\ fres f = vpair v /\ f_closed f = true.
Proof.
  intros HI Hg. pose proof (i_fut _ _ HI _ _ Hg) as HF. destruct (f_closed f) eqn:Hc.
  - destruct (f_win _ _ _ _ HF Hc) as (w & v & _ & Hfin & (p & sc & _ & Hws)).
    destruct (proj1 (wstage_facts _ _ _ _ Hws)) as [Hr|Hr]; eauto.
  - left. destruct (f_open _ _ _ _ HF Hc) as (_ & _ & Hr & Hd & _). auto.
Qed.

Lemma sys_done_final progs s k f : Inv progs s -> getf s k = Some f -> f_done f = true ->
  exists v, f_final f = Some v /\ fres f = vpair v /\ f_closed f = true.
Proof. intros HI Hg Hd. destruct (sys_result_is_final _ _ _ _ HI Hg) as [[_ Hd']|H]; [congruence|exact H]. Qed.

Record fut_mono (f f' : fut) : Prop := {
  m_asker : f_asker f' = f_asker f;
  m_closed : f_closed f = true -> f_closed f' = true;
  m_done : f_done f = true -> f_done f' = true /\ fres f' = fres f;
  m_sent : f_sent f = true -> f_sent f' = true
}.

Lemma srun_mono progs sched s k f : Inv progs s -> getf s k = Some f ->
  exists f', getf (srun sched s) k = Some f' /\ fut_mono f f'.
Proof.
  intros HI Hg. refine (proj2 (srun_ind progs (fun s1 => exists f', getf s1 k = Some f' /\ fut_mono f f') _ _ sched s HI _)).
  - auto.
  - intros i s1 s2 HI1 (f1 & Hg1 & [Ea Hc Hd Hs]) H.
    destruct (proj2 (step_frame _ _ _ _ HI1 H) _ _ Hg1) as (f2 & Hg2 & Hle). exists f2. split; [exact Hg2|]. split.
    + rewrite (le_asker _ _ _ _ _ _ Hle). exact Ea.
    + intros E. apply (le_closed _ _ _ _ _ _ Hle), Hc, E.
    + intros E. destruct (Hd E) as [Hd1 Hr1]. destruct (le_done _ _ _ _ _ _ Hle Hd1) as [Hd2 Hr2]. split; congruence.
    + intros E. apply (le_sent_mono _ _ _ _ _ _ Hle), Hs, E.
  - exists f. split; auto. split; auto.
Qed.

Lemma srun_stable progs sched s k f : Inv progs s -> getf s k = Some f -> f_done f = true ->
  exists f', getf (srun sched s) k = Some f' /\ f_done f' = true /\ fres f' = fres f.
Proof. intros HI Hg Hd. destruct (srun_mono _ sched _ _ _ HI Hg) as (f' & Hg' & Hm). exists f'. split; [exact Hg'|exact (m_done _ _ Hm Hd)]. Qed.

Lemma srun_copied sched s k : copied s k -> copied (srun sched s) k.
Proof.
  revert s; induction sched as [|a l IH]; intros s H; cbn; auto. apply IH.
  destruct a as [|i]; cbn; auto. destruct (sstep i s) eqn:E; auto.
  destruct H as (d & a0 & l0 & Hin & Hk). exists d, a0, l0. split; auto. eapply step_dcopies_mono; eauto.
Qed.

Definition sblocked (s : sst) (p : spc) (sc : list sop) : Prop :=
  match p with
  | SIdle => sc = []
  | SAwait k _ => match getf s k with Some f => f_sent f = false | None => True end
  | SWRecv k _ => match getf s k with Some f => f_done f = false | None => True end
  | STFire k => match getf s k with Some f => f_armed f = None | None => True end
  | SStart | STStart _ | SNew _ _ | SDCopy _ _ | SDLoad [] | SLock _ _ => False
  | SStore k | SAgents k | SCheck k | SRemCtx k | SRemAg k | SRLoad k _ | SDLoad (k :: _) | SCas k _ _ | SAssign k _ _
  | SDone k _ _ | SCRemCtx k _ | SCRemAg k _ => getf s k = None
  end.

Lemma sterminal_blocked s i p sc : sterminal s -> nth_error (y_thr s) i = Some (p, sc) -> sblocked s p sc.
Proof.
  intros Ht Hp.
  assert (H0 : sstep i s = None) by (specialize (Ht 0 i); cbn [N.iter] in Ht; exact Ht).
  unfold sstep in H0; rewrite Hp in H0.
  destruct p; cbn [sblocked]; cbn in H0; try discriminate H0.
  all: try (destruct sc; [reflexivity|discriminate H0]).
  all: try match goal with |- match ?l with [] => False | _ => _ end => destruct l as [|k l]; [discriminate H0|] end.
  all: try match type of H0 with context [getf ?s0 ?k] => destruct (getf s0 k) as [f|] eqn:Hg; [|auto] end.
  all: try match goal with |- f_armed _ = None => fail 1 | _ =>
           match type of H0 with context [if ?b then _ else _] => destruct b eqn:Eb; try discriminate H0; auto end end.
  all: try discriminate H0.
  (* STFire: advance the clock to the deadline *)
  destruct (f_armed f) as [t0|] eqn:Ea; auto. exfalso.
  specialize (Ht (t0 + f_tmo f) i). rewrite stick_iter in Ht. unfold sstep, getf in *. cbn -[N.add N.leb] in Ht.
  rewrite Hp, Hg, Ea in Ht.
  assert (E : (t0 + f_tmo f <=? y_now s + (t0 + f_tmo f)) = true) by (apply N.leb_le; lia).
  rewrite E in Ht. destruct (f_tstopped f); discriminate.
Qed.

Lemma terminal_not_at progs s j (P : spc -> Prop) :
  Inv progs s -> sterminal s -> thr_at s j P ->
  (forall p sc, P p -> L progs s j p -> sblocked s p sc -> False) -> False.
Proof.
  intros HI Ht (p & sc & Hj & HP) Hno. apply (Hno p sc HP).
  - apply (i_loc _ _ HI _ _ _ Hj).
  - eapply sterminal_blocked; eauto.
Qed.

(** a thread whose [L] says that future k exists is not blocked on [getf s k = None] *)
Ltac noexf :=
  repeat match goal with
  | H : exf _ _ _ |- _ => destruct H as (? & ? & ?)
  | H : exf _ _ _ /\ _ |- _ => destruct H as [(? & ? & ?) ?]
  | H : _ /\ exf _ _ _ |- _ => destruct H as [? (? & ? & ?)]
  end; try congruence.

Lemma sys_terminal_closed progs s k f : Inv progs s -> sterminal s -> getf s k = Some f -> f_closed f = true ->
  f_done f = true /\ f_inctx f = false /\ ~ In k (ag_get (f_asker f) (y_agents s)) /\
  exists v, f_final f = Some v /\ fres f = vpair v.
Proof.
  intros HI Ht Hg Hc. pose proof (i_fut _ _ HI _ _ Hg) as HF.
  destruct (f_win _ _ _ _ HF Hc) as (w & v & Hw & Hfin & (p & sc & Hp & Hws)).
  pose proof (sterminal_blocked _ _ _ _ Ht Hp) as Hb. pose proof (proj1 (i_loc _ _ HI _ _ _ Hp)) as HL.
  assert (Hst : wstage f w v StFin).
  { destruct p; cbn in Hws, Hb, HL; try exact Hws; try tauto; noexf. }
  cbn in Hst. destruct Hst as (Hr & Hd & _ & Hcr & Har & _).
  split; auto. split; [|split; [|eauto]].
  - destruct (f_inctx f) eqn:Ei; auto. exfalso.
    destruct (f_ctx _ _ _ _ HF Ei) as [?|Hat]; [congruence|].
    apply (terminal_not_at _ _ _ _ HI Ht Hat). intros q scq HP HLq Hbq.
    destruct q; cbn in HP; try discriminate; cbn in HLq, Hbq; noexf.
  - intros Hin. destruct (f_ag _ _ _ _ HF Hin) as [?|Hat]; [congruence|].
    apply (terminal_not_at _ _ _ _ HI Ht Hat). intros q scq HP HLq Hbq.
    destruct q; cbn in HP; try discriminate; cbn in HLq, Hbq; noexf.
Qed.

Lemma sys_completes progs s k f : Inv progs s -> sterminal s -> getf s k = Some f ->
  (f_attempts f <> [] \/ f_armed f <> None \/ copied s k) -> f_done f = true.
Proof.
  intros HI Ht Hg H. pose proof (i_fut _ _ HI _ _ Hg) as HF.
  assert (Hc : f_closed f = true).
  { destruct (f_closed f) eqn:Hc; auto. exfalso. destruct H as [H|[H|H]].
    - destruct (f_open _ _ _ _ HF Hc) as (_ & _ & _ & _ & _ & Ha & _). congruence.
    - destruct (f_timer _ _ _ _ HF H) as [?|[j Hat]]; [congruence|].
      apply (terminal_not_at _ _ _ _ HI Ht Hat). intros q scq HP HLq Hbq.
      destruct q; cbn in HP; try discriminate; cbn in HLq, Hbq; auto.
      + apply Nat.eqb_eq in HP. subst. destruct HLq as (f1 & Hg1 & Ha1). rewrite Hg1 in Hbq. congruence.
      + destruct v; try discriminate. noexf.
    - destruct H as (d & a & l & Hin & Hk).
      destruct (i_cp _ _ HI _ _ _ _ Hin Hk) as (f1 & Hg1 & _ & _ & [Hcl|Hat]).
      + rewrite Hg in Hg1. injection Hg1 as <-. congruence.
      + apply (terminal_not_at _ _ _ _ HI Ht Hat). intros q scq HP HLq Hbq.
        destruct q; cbn in HP; try tauto; cbn in HLq, Hbq; auto; noexf.
        destruct l0 as [|k1 l1]; [destruct HP|].
        destruct (HLq k1 (or_introl eq_refl)) as (a1 & l2 & Hin1 & Hk1).
        destruct (i_cp _ _ HI _ _ _ _ Hin1 Hk1) as (f2 & Hg2 & _). congruence. }
  apply (sys_terminal_closed _ _ _ _ HI Ht Hg Hc).
Qed.

Lemma sys_no_registration_left progs s k f : Inv progs s -> sterminal s -> getf s k = Some f -> f_done f = true ->
  f_inctx f = false /\ forall a, ~ In k (ag_get a (y_agents s)).
Proof.
  intros HI Ht Hg Hd. destruct (sys_done_final _ _ _ _ HI Hg Hd) as (_ & _ & _ & Hc).
  destruct (sys_terminal_closed _ _ _ _ HI Ht Hg Hc) as (_ & Hi & Ha & _). split; auto.
  intros a Hin. destruct (proj2 (i_ag _ _ HI) _ _ Hin) as (f1 & Hg1 & Ha1 & _).
  rewrite Hg in Hg1. injection Hg1 as <-. subst a. auto.
Qed.

Lemma sys_tables_empty progs s : Inv progs s -> sterminal s ->
  (forall k f, getf s k = Some f -> f_done f = true) ->
  y_agents s = [] /\ forall k f, getf s k = Some f -> f_inctx f = false.
Proof.
  intros HI Ht Hall. split.
  - destruct (y_agents s) as [|e ag] eqn:E; auto. exfalso.
    destruct (ag_wf_nonempty (y_agents s)) as (a & k & Hin); [apply (i_ag _ _ HI)|rewrite E; discriminate|].
    destruct (proj2 (i_ag _ _ HI) _ _ Hin) as (f & Hg & _).
    apply (proj2 (sys_no_registration_left _ _ _ _ HI Ht Hg (Hall _ _ Hg)) a). exact Hin.
  - intros k f Hg. apply (sys_no_registration_left _ _ _ _ HI Ht Hg (Hall _ _ Hg)).
Qed.

Lemma sys_no_deadlock progs s i p sc : Inv progs s -> sterminal s -> nth_error (y_thr s) i = Some (p, sc) ->
  (p = SIdle /\ sc = []) \/
  (exists k q, p = SAwait k q /\ getf s k = None) \/
  (exists k full f, p = SWRecv k full /\ getf s k = Some f /\ f_done f = false /\ f_closed f = false /\
                    f_attempts f = [] /\ f_armed f = None /\ ~ copied s k).
Proof.
  intros HI Ht Hp. pose proof (sterminal_blocked _ _ _ _ Ht Hp) as Hb. pose proof (proj1 (i_loc _ _ HI _ _ _ Hp)) as HL.
  destruct p; cbn in Hb, HL; try tauto; auto.
  all: try solve [exfalso; noexf].
  - (* SAwait *)
    right; left. destruct (getf s k) as [f|] eqn:Hg; [|eauto]. exfalso.
    apply (terminal_not_at _ _ _ _ HI Ht (f_snt _ _ _ _ (i_fut _ _ HI _ _ Hg) Hb)). intros q scq HP HLq Hbq.
    destruct q; cbn in HP; try discriminate; cbn in HLq, Hbq; noexf.
  - (* STFire *)
    exfalso. destruct HL as (f & Hg & Ha). rewrite Hg in Hb. congruence.
  - (* SDLoad *)
    exfalso. destruct l as [|k1 l1]; [exact Hb|].
    destruct (HL k1 (or_introl eq_refl)) as (a1 & l2 & Hin1 & Hk1).
    destruct (i_cp _ _ HI _ _ _ _ Hin1 Hk1) as (f2 & Hg2 & _). congruence.
  - (* SWRecv *)
    right; right. destruct HL as (f & Hg & _). rewrite Hg in Hb. exists k, full, f. split; auto. split; auto. split; auto.
    assert (Hc : f_closed f = false).
    { destruct (f_closed f) eqn:Hc; auto. destruct (sys_terminal_closed _ _ _ _ HI Ht Hg Hc) as (? & _). congruence. }
    split; auto. split; [apply (f_open _ _ _ _ (i_fut _ _ HI _ _ Hg) Hc)|].
    split.
    + destruct (f_armed f) eqn:Ea; auto. assert (f_done f = true) by (eapply sys_completes; eauto; right; left; congruence). congruence.
    + intros Hcp. assert (f_done f = true) by (eapply sys_completes; eauto). congruence.
Qed.

Lemma sys_reply_value progs s k f m : Inv progs s -> getf s k = Some f -> f_msg f = Some m ->
  In (OReply k (VMsg m)) (all_ops progs).
Proof.
  intros HI Hg Hm. pose proof (i_fut _ _ HI _ _ Hg) as HF.
  destruct (sys_result_is_final _ _ _ _ HI Hg) as [[Hr _]|(v & Hfin & Hr & _)].
  - unfold fres in Hr. congruence.
  - unfold fres in Hr. destruct v as [m'|e|]; cbn in Hr; try congruence.
    injection Hr as Hm' _. rewrite Hm in Hm'. injection Hm' as <-.
    destruct (f_orig _ _ _ _ HF _ Hfin) as [H|[(e & E & _)|[[E _]|[E _]]]]; auto; discriminate.
Qed.

Lemma sys_error_origin progs s k f e : Inv progs s -> getf s k = Some f -> f_err f = Some e ->
  In (OReply k (VErr e)) (all_ops progs) \/ In (OClose k e) (all_ops progs) \/
  (e = E_TIMEOUT /\ exists t t0, f_fired f = Some t /\ f_armed f = Some t0 /\ t0 + f_tmo f <= t) \/
  (e = E_DEAD /\ exists d l, In (d, f_asker f, l) (y_dcopies s) /\ In k l).
Proof.
  intros HI Hg He. pose proof (i_fut _ _ HI _ _ Hg) as HF.
  destruct (sys_result_is_final _ _ _ _ HI Hg) as [[Hr _]|(v & Hfin & Hr & _)].
  - unfold fres in Hr. congruence.
  - unfold fres in Hr. destruct v as [m'|e'|]; cbn in Hr; try congruence.
    injection Hr as _ He'. rewrite He in He'. injection He' as <-.
    destruct (f_orig _ _ _ _ HF _ Hfin) as [H|[(e1 & E & H)|[[E H]|[E H]]]]; auto.
    + injection E as <-. auto.
    + injection E as ->. right; right; left. split; auto.
      destruct (f_fired f) as [t|] eqn:Ef; [|congruence]. destruct (f_fire _ _ _ _ HF _ Ef) as (t0 & Ha & Hle). eauto 6.
    + injection E as ->. right; right; right. auto.
Qed.

Lemma sys_death_copy_step progs s s' i a ord sc k f :
  Inv progs s -> nth_error (y_thr s) i = Some (SDCopy a ord, sc) -> sstep i s = Some s' ->
  getf s k = Some f -> f_asker f = a -> f_sent f = true ->
  f_closed f = true \/ copied s' k.
Proof.
  intros HI Hp H Hg Ha Hs. destruct (f_closed f) eqn:Hc; auto. right.
  destruct (f_reg _ _ _ _ (i_fut _ _ HI _ _ Hg) Hs Hc) as [_ Hin]. rewrite Ha in Hin.
  unfold sstep in H. rewrite Hp in H. injection H as <-.
  exists i, a, (dcopy_keys ord (ag_get a (y_agents s))). split.
  - cbn. apply in_or_app. right. left. reflexivity.
  - apply dcopy_keys_In. auto.
Qed.

Lemma sys_death_completes progs s s' i a ord sc k f sched :
  Inv progs s -> nth_error (y_thr s) i = Some (SDCopy a ord, sc) -> sstep i s = Some s' ->
  getf s k = Some f -> f_asker f = a -> f_sent f = true ->
  sterminal (srun sched s') ->
  exists f', getf (srun sched s') k = Some f' /\ f_done f' = true.
Proof.
  intros HI Hp H Hg Ha Hs Ht.
  pose proof (step_inv _ _ _ _ HI H) as HI'. pose proof (srun_inv _ sched _ HI') as HI''.
  destruct (proj2 (step_frame _ _ _ _ HI H) _ _ Hg) as (f1 & Hg1 & Hle).
  destruct (srun_mono _ sched _ _ _ HI' Hg1) as (f2 & Hg2 & Hm).
  exists f2. split; auto.
  destruct (sys_death_copy_step _ _ _ _ _ _ _ _ _ HI Hp H Hg Ha Hs) as [Hc|Hcp].
  - apply (sys_terminal_closed _ _ _ _ HI'' Ht Hg2). apply (m_closed _ _ Hm). apply (le_closed _ _ _ _ _ _ Hle). exact Hc.
  - eapply sys_completes; eauto. right; right. apply srun_copied. exact Hcp.
Qed.

Lemma sfinished_terminal s : sfinished s -> sterminal s.
Proof.
  intros H n i. rewrite stick_iter. unfold sstep. cbn.
  destruct (nth_error (y_thr s) i) as [[p sc]|] eqn:E; auto.
  destruct (H _ _ _ E) as [-> ->]. reflexivity.
Qed.

Lemma sfinished_dec s : forallb SysRun.thr_finished (y_thr s) = true -> sfinished s.
Proof.
  intros H i p sc Hi. rewrite forallb_forall in H. specialize (H _ (nth_error_In _ _ Hi)).
  destruct p; try discriminate. destruct sc; try discriminate. auto.
Qed.

(** one actor goroutine as the code was before /repo 3f0f6ad: doKill's clean-up of path 5, then an Ask of path 5 without
    timer (issued by the OnKill handler), no clean-up afterwards *)
Definition dying_asker_progs : list (list sop) := [[ODeath 5 [0%nat]; OAsk 5 0]].
Definition dying_asker_state : sst := srun (map SRun (repeat 0%nat 10)) (sinit dying_asker_progs).

Lemma dying_asker_witness :
  sreach dying_asker_progs dying_asker_state /\ sterminal dying_asker_state /\ sfinished dying_asker_state /\
  exists f, getf dying_asker_state 0 = Some f /\ f_asker f = 5 /\ f_owner f = 0%nat /\ f_sent f = true /\
            f_done f = false /\ f_closed f = false /\ f_armed f = None /\
            f_inctx f = true /\ In 0%nat (ag_get 5 (y_agents dying_asker_state)) /\
            y_dcopies dying_asker_state = [(0%nat, 5, [])].
Proof.
  split; [exists (map SRun (repeat 0%nat 10)); unfold dying_asker_state; reflexivity|].
  assert (Hf : sfinished dying_asker_state) by (apply sfinished_dec; vm_compute; reflexivity).
  split; [apply sfinished_terminal; exact Hf|]. split; [exact Hf|].
  vm_compute. eexists. repeat split; auto.
Qed.
