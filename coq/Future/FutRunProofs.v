(** The replay of Future/FutRun.v only ever executes model actions: the state it reaches is [run] of the
    action list [acts_of] (thread steps, with [Tick]s in front of a timer fire), hence reachable. *)
From Coq Require Import List NArith Bool.
From Vivid Require Import Base.Tm Future.FutModel Future.FutBase Future.FutRun.
Import ListNotations.
Local Open Scope N_scope.

Theorem replay_is_run sched s : snd (replay sched s) = run (acts_of sched s) s.
Proof.
  revert s; induction sched as [|i r IH]; intros s; [reflexivity|].
  cbn [replay acts_of]. unfold run. rewrite fold_left_app, fold_left_repeat, N2Nat.id. change (N.iter _ _ s) with (advance s i).
  destruct (step i (advance s i)) as [s'|] eqn:E; [|reflexivity].
  specialize (IH s'). destruct (replay r s') as [out sf]. cbn [snd fold_left do_act] in *. rewrite E. exact IH.
Qed.
