(** The replay of Future/SysRun.v only ever executes model actions: the state it reaches is [srun] of the action list
    [sacts_of] (thread steps, with [STick]s in front of a timer fire), hence reachable. *)
From Coq Require Import List NArith Bool.
From Vivid Require Import Base.Tm Future.FutModel Future.FutBase Future.SysModel Future.SysRun.
Import ListNotations.
Local Open Scope N_scope.

Theorem sreplay_is_run sched s : snd (sreplay sched s) = srun (sacts_of sched s) s.
Proof.
  revert s; induction sched as [|i r IH]; intros s; [reflexivity|].
  cbn [sreplay sacts_of]. unfold srun. rewrite fold_left_app, fold_left_repeat, N2Nat.id. change (N.iter _ _ s) with (sadvance s i).
  destruct (sstep i (sadvance s i)) as [s'|] eqn:E; [|reflexivity].
  specialize (IH s'). destruct (sreplay r s') as [out sf]. cbn [snd fold_left sdo] in *. rewrite E. exact IH.
Qed.
