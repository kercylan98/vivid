(** The invariant of Future/SysModel.v is inductive: preservation by every step of every thread. *)
From Coq Require Import List NArith Bool Arith.
From RecordUpdate Require Import RecordSet.
From Vivid Require Import Future.FutModel Future.FutSpec Future.FutBase Future.SysModel Future.SysBase Future.SysInvDef.
Import ListNotations RecordSetNotations.
Local Open Scope N_scope.

Lemma exf_upd (futs : list fut) k f f' k' (P Q : fut -> Prop) :
  nth_error futs k = Some f ->
  (exists f0, nth_error futs k' = Some f0 /\ P f0) ->
  (k' = k -> P f -> Q f') ->
  (forall f0, k' <> k -> P f0 -> Q f0) ->
  exists f1, nth_error (upd futs k f') k' = Some f1 /\ Q f1.
Proof.
  intros Hk (f0 & H0 & HP) H1 H2. destruct (Nat.eq_dec k' k) as [->|N].
  - rewrite Hk in H0. injection H0 as <-. exists f'. split; auto. eapply nth_error_upd_eq; eauto.
  - exists f0. split; auto. rewrite nth_error_upd_ne; auto.
Qed.

Lemma exf_snoc (futs : list fut) f k' (P Q : fut -> Prop) :
  (exists f0, nth_error futs k' = Some f0 /\ P f0) ->
  (forall f0, P f0 -> Q f0) ->
  exists f1, nth_error (futs ++ [f]) k' = Some f1 /\ Q f1.
Proof. intros (f0 & H0 & HP) H. exists f0. split; auto. apply nth_error_snoc_old; auto. Qed.

Lemma exf_same (futs : list fut) k' (P Q : fut -> Prop) :
  (exists f0, nth_error futs k' = Some f0 /\ P f0) ->
  (forall f0, P f0 -> Q f0) ->
  exists f1, nth_error futs k' = Some f1 /\ Q f1.
Proof. intros (f0 & H0 & HP) H. eauto. Qed.

Lemma winners_closed progs s k f j : Inv progs s -> getf s k = Some f -> f_winners f = [j] -> f_closed f = true.
Proof.
  intros HI Hk Hw. destruct (f_closed f) eqn:E; auto.
  destruct (f_open _ _ _ _ (i_fut _ _ HI _ _ Hk) E) as (? & _). congruence.
Qed.

Lemma sorigin_mono progs s s' k f f' v :
  f_asker f' = f_asker f -> (f_fired f <> None -> f_fired f' <> None) ->
  (forall x, In x (y_dcopies s) -> In x (y_dcopies s')) ->
  sorigin progs s k f v -> sorigin progs s' k f' v.
Proof.
  intros Ha Hf Hd [H|[H|[[-> H]|[-> (d & l & H & Hl)]]]]; unfold sorigin; auto.
  - right; right; left. auto.
  - right; right; right. split; auto. exists d, l. rewrite Ha. auto.
Qed.

Lemma rest_ok_mono s s' i rest :
  (forall x, In x (y_dcopies s) -> In x (y_dcopies s')) -> rest_ok s i rest -> rest_ok s' i rest.
Proof. intros Hd H k Hk. destruct (H k Hk) as (a & l0 & H1 & H2). eauto. Qed.

Lemma rest_ok_nil s i : rest_ok s i [].
Proof. intros k []. Qed.

Lemma rest_ok_tail s i k l : rest_ok s i (k :: l) -> rest_ok s i l.
Proof. intros H x Hx. apply H. right; auto. Qed.

(** all that one step of thread [i] can do to future [k]: identity fields fixed, flags only rise, result and winners frozen once
    set, [f_sent] written by the owner alone, a registration (context, agent table) dropped only if the future is closed.
    [step_frame] proves it once for all steps; the preservation lemmas ([L_stable] through [exf_step]) take the fields they need *)
Record fut_le (s s' : sst) (i k : nat) (f f' : fut) : Prop := {
  le_asker : f_asker f' = f_asker f;
  le_tmo : f_tmo f' = f_tmo f;
  le_owner : f_owner f' = f_owner f;
  le_armed : f_armed f' = f_armed f;
  le_stored : f_stored f = true -> f_stored f' = true;
  le_closed : f_closed f = true -> f_closed f' = true;
  le_done : f_done f = true -> f_done f' = true /\ fres f' = fres f;
  le_fired : f_fired f <> None -> f_fired f' <> None;
  le_sent : f_owner f <> i -> f_sent f' = f_sent f;
  le_sent_mono : f_sent f = true -> f_sent f' = true;
  le_inctx : f_inctx f = true -> f_inctx f' = true \/ f_closed f' = true;
  le_ag : In k (ag_get (f_asker f) (y_agents s)) -> In k (ag_get (f_asker f) (y_agents s')) \/ f_closed f' = true;
  le_win : f_winners f <> [] -> f_winners f' = f_winners f /\ f_final f' = f_final f
}.

Lemma fut_le_ag s s' i k f :
  (In k (ag_get (f_asker f) (y_agents s)) -> In k (ag_get (f_asker f) (y_agents s')) \/ f_closed f = true) ->
  fut_le s s' i k f f.
Proof. intros H. split; auto. Qed.

(** HL : [L] of the stepping thread's pc *)
Ltac use_L HI Hp :=
  let HL := fresh "HL" in
  pose proof (proj1 (i_loc _ _ HI _ _ _ Hp)) as HL; cbn [L] in HL; unfold exf in HL.

(** opens the [exf] facts of HL and identifies their future with the one the step looked up (Hf) *)
Ltac same_fut Hf :=
  repeat match goal with
  | H : exists f, getf _ _ = Some f /\ _ |- _ => let f0 := fresh "f0" in let Hg := fresh "Hg" in destruct H as (f0 & Hg & H)
  | H : (exists f, getf _ _ = Some f /\ _) /\ _ |- _ => let Hr := fresh "Hr" in destruct H as [H Hr]
  end;
  repeat match goal with
  | Hg : getf ?s ?k = Some ?f0, Hf' : getf ?s ?k = Some ?f |- _ =>
      first [constr_eq f0 f; fail 1 | rewrite Hf' in Hg; injection Hg as <-]
  end.

Lemma open_facts progs s k f : Inv progs s -> getf s k = Some f -> f_closed f = false ->
  f_winners f = [] /\ f_done f = false.
Proof. intros HI Hk Hc. destruct (f_open _ _ _ _ (i_fut _ _ HI _ _ Hk) Hc) as (? & _ & _ & ? & _). auto. Qed.

Lemma assign_not_done progs s i k v rest sc f : Inv progs s ->
  nth_error (y_thr s) i = Some (SAssign k v rest, sc) -> getf s k = Some f -> f_done f = false.
Proof.
  intros HI Hp Hk. pose proof (proj1 (i_loc _ _ HI _ _ _ Hp)) as HL. cbn in HL. destruct HL as [(f0 & Hg & Hw & Hfin) _].
  rewrite Hk in Hg. injection Hg as <-.
  pose proof (winners_closed _ _ _ _ _ HI Hk Hw) as Hc.
  destruct (f_win _ _ _ _ (i_fut _ _ HI _ _ Hk) Hc) as (w & v0 & Hw' & _ & (p & sc0 & Hpw & Hst)).
  rewrite Hw in Hw'. injection Hw' as <-. rewrite Hp in Hpw. injection Hpw as <- <-.
  cbn in Hst. rewrite Nat.eqb_refl in Hst. cbn in Hst. tauto.
Qed.

Lemma step_frame progs s s' i : Inv progs s -> sstep i s = Some s' ->
  (forall x, In x (y_dcopies s) -> In x (y_dcopies s')) /\
  forall k f, getf s k = Some f -> exists f', getf s' k = Some f' /\ fut_le s s' i k f f'.
Proof.
  intros HI H.
  sstep_inv H; use_L HI Hp;
    try (pose proof (assign_not_done _ _ _ _ _ _ _ _ HI Hp Hf) as Hnd);
    same_fut Hf; (split; [cbn; intros x Hx; try apply in_or_app; auto|]); intros k0 g Hg0;
    unfold getf in *; cbn [y_futs y_agents set] in *.
  (* the sweeps, in order: steps that write no future; steps that append one (old indices stay); the steps that overwrite
     future [k] are split on k0 = k. Then the other futures: agent table untouched, an entry of [k] deleted; steps that only add
     an agent entry; last the overwritten future, field by field. Left: the three steps whose fields need [Inv] *)
  all: try solve [exists g; split; [auto|apply fut_le_ag; cbn; auto]].
  all: try solve [exists g; split; [apply nth_error_snoc_old; auto|apply fut_le_ag; cbn; auto]].
  all: try (match goal with
       | Hf : nth_error (y_futs ?s0) ?k = Some ?f |- exists f', nth_error (upd (y_futs ?s0) ?k ?fn) ?k1 = Some f' /\ _ =>
           destruct (Nat.eq_dec k1 k) as [->|Nk];
           [rewrite Hf in Hg0; injection Hg0 as <-; exists fn; split; [eapply nth_error_upd_eq; eauto|]
           |exists g; split; [rewrite nth_error_upd_ne; auto|]]
       end).
  all: try solve [apply fut_le_ag; cbn; auto].
  all: try solve [apply fut_le_ag; cbn; intros Hin; left; apply ag_get_del; split; auto; intros [_ ?]; congruence].
  all: try solve [exists g; split; auto; apply fut_le_ag; cbn; intros Hin; left; apply ag_get_add; auto].
  all: try solve [split; cbn; auto; try tauto; try congruence; intuition congruence].
  - (* SCas wins *)
    destruct (open_facts _ _ _ _ HI Hg Hc) as [Hw Hd]. split; cbn; auto; try congruence; intuition congruence.
  - (* SCRemCtx *)
    pose proof (winners_closed _ _ _ _ _ HI Hg HL) as Hcl. split; cbn; auto.
  - (* SCRemAg *)
    pose proof (winners_closed _ _ _ _ _ HI Hg HL) as Hcl. split; cbn; auto.
Qed.

Lemma exf_step progs s s' i k (P Q : fut -> Prop) : Inv progs s -> sstep i s = Some s' ->
  (forall f f', fut_le s s' i k f f' -> P f -> Q f') -> exf s k P -> exf s' k Q.
Proof.
  intros HI H HPQ (f & Hg & HP). destruct (proj2 (step_frame _ _ _ _ HI H) _ _ Hg) as (f' & Hg' & Hle). exists f'. eauto.
Qed.

Lemma L_stable progs s s' i j p sc :
  Inv progs s -> sstep i s = Some s' -> j <> i -> nth_error (y_thr s) j = Some (p, sc) -> L progs s' j p.
Proof.
  intros HI H Nj Hj.
  pose proof (proj1 (i_loc _ _ HI _ _ _ Hj)) as HL.
  pose proof (proj1 (step_frame _ _ _ _ HI H)) as Hdc.
  assert (Hro : forall rest, rest_ok s j rest -> rest_ok s' j rest) by (intros; eapply rest_ok_mono; eauto).
  destruct p; cbn [L] in *; auto.
  all: try (destruct HL as [HL Hr]; split; [|first [apply Hro, Hr | revert Hr; apply (exf_step _ _ _ _ _ _ _ HI H); auto]]); try exact HL.
  all: revert HL; apply (exf_step _ _ _ _ _ _ _ HI H); intros f f' [Ea _ Eo Er Hsto Hcl _ Hfi Hse _ Hic Hag Hwn] HP.
  (* the pcs of an Ask: the owner is thread j, so thread i does not touch [f_sent] *)
  all: try (destruct HP as (Ho & Hs & HP); rewrite Eo, Hse by congruence; split; [exact Ho|]; split; [exact Hs|]).
  - destruct HP as [Ho Hs]. rewrite Eo, Hse by congruence. auto.
  - (* SAgents *) destruct HP as [Hst Hin]. split; [exact (Hsto Hst)|]. intros Hc'.
    destruct (f_closed f) eqn:Ec; [rewrite Hcl in Hc' by auto; discriminate|]. destruct (Hic (Hin eq_refl)); congruence.
  - (* SCheck *) destruct HP as [Hst Hin]. split; [exact (Hsto Hst)|]. intros Hc'.
    destruct (f_closed f) eqn:Ec; [rewrite Hcl in Hc' by auto; discriminate|]. destruct (Hin eq_refl) as [Hi Ha].
    rewrite Ea. destruct (Hic Hi), (Hag Ha); split; congruence.
  - auto.
  - auto.
  - congruence.
  - congruence.
  - (* SCas *) exact (sorigin_mono _ _ _ _ _ _ _ Ea Hfi Hdc HP).
  - destruct HP as [Hw Hf]. destruct Hwn as [E1 E2]; [congruence|split; congruence].
  - destruct HP as [Hw Hf]. destruct Hwn as [E1 E2]; [congruence|split; congruence].
  - destruct Hwn; congruence.
  - destruct Hwn; congruence.
  - destruct Hwn; congruence.
  - exact I.
Qed.

Lemma exf_here (futs : list fut) k f f' (P : fut -> Prop) :
  nth_error futs k = Some f -> P f' -> exists f1, nth_error (upd futs k f') k = Some f1 /\ P f1.
Proof. intros H HP. exists f'. split; auto. eapply nth_error_upd_eq; eauto. Qed.

Lemma fin_L progs s i rest : rest_ok s i rest -> L progs s i (fin rest).
Proof. destruct rest; cbn; auto. Qed.

Lemma first_pc_L progs s i o : In o (all_ops progs) -> L progs s i (first_pc o).
Proof. destruct o; cbn; auto. Qed.

(** [exf] of the future the step has just written, whose old value is at Hg *)
Ltac here Hg := unfold exf, getf; cbn [y_futs y_agents y_dcopies set]; eapply exf_here; [exact Hg|]; cbn.

Lemma L_self progs s s' i p' sc' :
  Inv progs s -> sstep i s = Some s' -> nth_error (y_thr s') i = Some (p', sc') ->
  L progs s' i p' /\ incl sc' (all_ops progs).
Proof.
  intros HI H Hi'.
  assert (Hsame : forall s2 r, rest_ok s i r -> y_dcopies s2 = y_dcopies s -> rest_ok s2 i r).
  { intros s2 r Hr E k Hk. rewrite E. auto. }
  sstep_inv H; use_L HI Hp; pose proof (proj2 (i_loc _ _ HI _ _ _ Hp)) as Hsc; same_fut Hf;
    cbn [y_thr set] in Hi';
    try (rewrite (nth_error_upd_eq _ _ _ _ Hp) in Hi'; injection Hi' as <- <-);
    try (rewrite (nth_error_snoc_old _ _ _ _ (nth_error_upd_eq _ _ _ _ Hp)) in Hi'; injection Hi' as <- <-).
  all: try solve [split; [cbn; auto|auto]].
  all: try solve [split; [apply fin_L; apply Hsame; auto|auto]].
  (* but for SIdle, the script is the same *)
  all: try (split; [|exact Hsc]).
  all: try solve [cbn [L]; here Hg; tauto].                                                        (* SStore, SRemCtx *)
  all: try solve [cbn [L]; split; [here Hg; first [tauto | auto] | apply Hsame; auto]].            (* the close sequence *)
  all: try solve [cbn [L]; unfold exf, getf; cbn; eexists; split; [apply nth_error_snoc_len|auto]]. (* SNew *)
  - (* SIdle *)
    split; [apply first_pc_L; apply Hsc; left; auto|intros o Ho; apply Hsc; right; auto].
  - (* SAwait *)
    destruct p; cbn in HL; try tauto; cbn [L]; auto.
    + destruct HL as [-> Hin]. split; auto. exists f. auto.
    + destruct v; try tauto. destruct rest; try tauto. destruct HL as [-> Hin]. split; [|apply rest_ok_nil].
      exists f. split; auto. right; left. eauto.
    + subst. exists f. auto.
  - (* SAgents *)
    cbn [L]. unfold exf, getf. cbn. exists f0. split; auto. destruct HL as (? & ? & ? & Hin). repeat split; auto.
    apply ag_get_add. auto.
  - (* SCheck closed *)
    cbn [L]. exists f0. unfold getf in *. cbn. tauto.
  - (* STStart *)
    cbn [L]. exists f0. auto.
  - (* STFire *)
    cbn [L]. split; [|apply rest_ok_nil]. here Hg. right; right; left. split; auto. discriminate.
  - (* SRLoad *)
    destruct (f_inctx f); cbn [L]; auto. destruct HL as [Hin _]. split; [|apply rest_ok_nil].
    exists f. split; [exact Hf|]. left. exact Hin.
  - (* SDCopy *)
    apply fin_L. intros k Hk. exists a, (dcopy_keys ord (ag_get a (y_agents s))).
    split; auto. cbn. apply in_or_app. right. left. reflexivity.
  - (* SDLoad *)
    destruct (f_inctx f).
    + cbn [L]. split; [|apply (Hsame _ l0); [eapply rest_ok_tail; eauto|reflexivity]].
      exists f. split; [exact Hf|]. right; right; right. split; auto.
      destruct (HL n (or_introl eq_refl)) as (a & l1 & Hin & Hn).
      destruct (i_cp _ _ HI _ _ _ _ Hin Hn) as (f1 & Hg1 & Ha & _). rewrite Hf in Hg1. injection Hg1 as <-.
      exists i, l1. rewrite Ha. auto.
    + apply fin_L. apply (Hsame _ l0); [eapply rest_ok_tail; eauto|reflexivity].
  - (* SCas wins *)
    destruct (open_facts _ _ _ _ HI Hg Hc) as [Hw _].
    destruct v; cbn [L]; (split; [here Hg; rewrite Hw; auto|apply Hsame; auto]).
Qed.

Lemma step_loc progs s s' i : Inv progs s -> sstep i s = Some s' ->
  forall j p sc, nth_error (y_thr s') j = Some (p, sc) -> L progs s' j p /\ incl sc (all_ops progs).
Proof.
  intros HI H j p sc Hj.
  destruct (step_thr_inv _ _ _ _ _ H Hj) as [->|[Hold|(-> & E & a & t & sc0 & Hp & Ht)]].
  - eapply L_self; eauto.
  - destruct (Nat.eq_dec j i) as [->|Nj]; [eapply L_self; eauto|].
    split; [eapply L_stable; eauto|apply (i_loc _ _ HI _ _ _ Hold)].
  - injection E as -> ->. split; [|intros ? []].
    unfold sstep in H. rewrite Hp, Ht in H. injection H as <-. cbn [L]. unfold exf, getf. cbn.
    exists (new_fut a t i (y_now s)). split; [apply nth_error_snoc_len|]. cbn. rewrite Ht. discriminate.
Qed.

Lemma step_ag progs s s' i : Inv progs s -> sstep i s = Some s' ->
  ag_wf (y_agents s') /\
  forall a k, In k (ag_get a (y_agents s')) -> exf s' k (fun f => f_asker f = a /\ f_stored f = true).
Proof.
  intros HI H. destruct (i_ag _ _ HI) as [Hwf Hag].
  destruct (step_frame _ _ _ _ HI H) as [_ Hfr].
  assert (Hold : forall a k, In k (ag_get a (y_agents s)) -> exf s' k (fun f => f_asker f = a /\ f_stored f = true)).
  { intros a k Hin. destruct (Hag _ _ Hin) as (f & Hg & Ha & Hs). destruct (Hfr _ _ Hg) as (f' & Hg' & []).
    exists f'. split; auto. split; [congruence|auto]. }
  sstep_inv H; use_L HI Hp; same_fut Hf; cbn [y_agents set]; try (split; [exact Hwf|exact Hold]).
  - (* SAgents *)
    split; [apply ag_wf_add; auto|]. intros a0 k0 Hin. apply ag_get_add in Hin as [[-> ->]|Hin]; [|apply Hold; auto].
    destruct (Hfr _ _ Hg) as (f' & Hg' & []). exists f'. split; auto. split; [congruence|tauto].
  - (* SRemAg *)
    split; [apply ag_wf_del; auto|]. intros a0 k0 Hin. apply ag_get_del in Hin as [Hin _]. apply Hold; auto.
  - (* SCRemAg *)
    split; [apply ag_wf_del; auto|]. intros a0 k0 Hin. apply ag_get_del in Hin as [Hin _]. apply Hold; auto.
Qed.

Lemma step_rets progs s s' i : Inv progs s -> sstep i s = Some s' ->
  forall j k full r, In (j, k, full, r) (y_rets s') ->
  exf s' k (fun f => f_done f = true /\ r = (if full then f_msg f else None, f_err f)).
Proof.
  intros HI H. destruct (step_frame _ _ _ _ HI H) as [_ Hfr].
  assert (Hold : forall j k full r, In (j, k, full, r) (y_rets s) ->
                 exf s' k (fun f => f_done f = true /\ r = (if full then f_msg f else None, f_err f))).
  { intros j k full r Hin. destruct (i_rets _ _ HI _ _ _ _ Hin) as (f & Hg & Hd & Hr).
    destruct (Hfr _ _ Hg) as (f' & Hg' & []). destruct (le_done0 Hd) as [Hd' Hres]. exists f'. split; auto. split; auto.
    unfold fres in Hres. injection Hres as Hm He. rewrite Hm, He. exact Hr. }
  sstep_inv H; cbn [y_rets set]; try exact Hold.
  intros j k0 full0 r Hin. apply in_app_or in Hin as [Hin|[E|[]]]; [eapply Hold; eauto|].
  injection E as <- <- <- <-. exists f. split; [exact Hf|]. auto.
Qed.

Lemma fin_pending k rest : In k rest -> pending k (fin rest).
Proof. destruct rest; cbn; auto. Qed.

Lemma thr_at_other s s' i j P : sstep i s = Some s' -> j <> i -> thr_at s j P -> thr_at s' j P.
Proof. intros H Nj (p & sc & Hj & HP). exists p, sc. split; auto. eapply step_thr_other; eauto. Qed.

Lemma thr_at_step s s' i p sc q sc' j (P : spc -> Prop) :
  sstep i s = Some s' -> nth_error (y_thr s) i = Some (p, sc) -> nth_error (y_thr s') i = Some (q, sc') ->
  (P p -> P q) -> thr_at s j P -> thr_at s' j P.
Proof.
  intros H Hp Hq HP Hat. destruct (Nat.eq_dec j i) as [->|Nj]; [|exact (thr_at_other _ _ _ _ _ H Nj Hat)].
  destruct Hat as (p0 & sc0 & Hj & H0). rewrite Hp in Hj. injection Hj as <- <-. exists q, sc'. auto.
Qed.

Lemma pending_self progs s s' i k p sc :
  Inv progs s -> sstep i s = Some s' -> nth_error (y_thr s) i = Some (p, sc) -> pending k p ->
  thr_at s' i (pending k) \/
  (exists f, getf s k = Some f /\ (f_inctx f = false \/ exists v rest, p = SCas k v rest)).
Proof.
  intros HI H Hp Hpen.
  unfold sstep in H. rewrite Hp in H.
  destruct p; cbn in Hpen; try tauto; sdestr_cond H; try discriminate H; injection H as <-.
  all: try solve [left; exists (fin rest), sc; split; [cbn; eapply nth_error_upd_eq; eauto|apply fin_pending; auto]].
  all: try solve [left; eexists _, sc; split; [cbn; eapply nth_error_upd_eq; eauto|cbn; auto]].
  - (* SDLoad *)
    destruct (f_inctx f) eqn:Ei.
    + left. exists (SCas n (VErr E_DEAD) l0), sc. split; [cbn; eapply nth_error_upd_eq; eauto|].
      cbn. destruct Hpen as [->|Hin]; auto.
    + destruct Hpen as [->|Hin].
      * right. exists f. split; auto.
      * left. exists (fin l0), sc. split; [cbn; eapply nth_error_upd_eq; eauto|apply fin_pending; auto].
  - (* SCas closed *)
    destruct Hpen as [[-> ->]|Hin].
    + right. exists f. split; eauto.
    + left. exists (fin rest), sc. split; [cbn; eapply nth_error_upd_eq; eauto|apply fin_pending; auto].
  - (* SCas wins *)
    destruct Hpen as [[-> ->]|Hin].
    + right. exists f. split; eauto.
    + left. eexists _, sc. split; [cbn; eapply nth_error_upd_eq; eauto|]. destruct v; cbn; auto.
Qed.

Lemma cas_closes s s' i k v rest sc :
  nth_error (y_thr s) i = Some (SCas k v rest, sc) -> sstep i s = Some s' ->
  exists f', getf s' k = Some f' /\ f_closed f' = true.
Proof.
  intros Hp H. unfold sstep in H. rewrite Hp in H. destruct (getf s k) as [f|] eqn:Hf; [|discriminate].
  unfold getf in *. destruct (f_closed f) eqn:Hc; injection H as <-; cbn; eexists; (split; [eapply nth_error_upd_eq; eauto|]); cbn; auto.
Qed.

Lemma step_cp progs s s' i : Inv progs s -> sstep i s = Some s' ->
  forall d a l k, In (d, a, l) (y_dcopies s') -> In k l ->
  exf s' k (fun f => f_asker f = a /\ f_stored f = true /\ (f_closed f = true \/ thr_at s' d (pending k))).
Proof.
  intros HI H d a l k Hin Hk.
  destruct (step_frame _ _ _ _ HI H) as [_ Hfr].
  destruct (step_dcopies _ _ _ _ H Hin) as [Hold|(a0 & ord & sc & Hp & E)].
  - destruct (i_cp _ _ HI _ _ _ _ Hold Hk) as (f & Hg & Ha & Hst & Hcl).
    destruct (Hfr _ _ Hg) as (f' & Hg' & Hle). destruct Hle.
    exists f'. split; auto. split; [congruence|]. split; auto.
    destruct Hcl as [Hc|Hpen]; auto.
    destruct (Nat.eq_dec d i) as [->|Nd]; [|right; eapply thr_at_other; eauto].
    destruct Hpen as (p & sc & Hp & Hpen).
    destruct (pending_self _ _ _ _ _ _ _ HI H Hp Hpen) as [?|(f1 & Hg1 & [Hi|(v & rest & ->)])]; auto.
    + rewrite Hg in Hg1. injection Hg1 as <-. left. apply le_closed0. apply (f_sto _ _ _ _ (i_fut _ _ HI _ _ Hg)); auto.
    + destruct (cas_closes _ _ _ _ _ _ _ Hp H) as (f2 & Hg2 & Hc2). rewrite Hg' in Hg2. injection Hg2 as <-. auto.
  - injection E as -> -> ->. pose proof Hk as Hk0. apply dcopy_keys_In in Hk. pose proof Hk as Hm.
    destruct (proj2 (i_ag _ _ HI) _ _ Hm) as (f & Hg & Ha & Hst).
    destruct (Hfr _ _ Hg) as (f' & Hg' & Hle). destruct Hle.
    exists f'. split; auto. split; [congruence|]. split; auto. right.
    unfold sstep in H. rewrite Hp in H. injection H as <-.
    eexists _, sc. split; [cbn; eapply nth_error_upd_eq; eauto|]. apply fin_pending. exact Hk0.
Qed.

(** split [getf s' k0 = Some f'] into: the future the step wrote / an untouched one / the one just created *)
Ltac fut_cases Hg' :=
  unfold getf in Hg'; cbn [y_futs set] in Hg';
  match type of Hg' with
  | nth_error (upd _ _ _) _ = Some _ =>
      apply nth_error_upd_inv in Hg' as [[-> ->]|[Nk Hg']]
  | nth_error (_ ++ [_]) _ = Some _ =>
      apply nth_error_snoc_inv in Hg' as [Hg'|[-> ->]]
  | _ => idtac
  end.

Lemma step_open progs s s' i : Inv progs s -> sstep i s = Some s' ->
  forall k f', getf s' k = Some f' -> f_closed f' = false ->
  f_winners f' = [] /\ f_final f' = None /\ fres f' = (None, None) /\ f_done f' = false /\ f_wlog f' = [] /\
  f_attempts f' = [] /\ f_tstopped f' = false /\ f_crem f' = false /\ f_arem f' = false.
Proof.
  intros HI H k0 f' Hg'.
  sstep_inv H; use_L HI Hp; same_fut Hf; fut_cases Hg'.
  all: try solve [apply (f_open _ _ _ _ (i_fut _ _ HI _ _ Hg'))].
  all: try solve [cbn; auto].
  all: try solve [cbn; intros Hc'; apply (f_open _ _ _ _ (i_fut _ _ HI _ _ Hg)); auto].
  all: try solve [cbn; intros Hc';
                  match goal with Hw : f_winners _ = [_] |- _ => rewrite (winners_closed _ _ _ _ _ HI Hg Hw) in Hc'; discriminate
                  | Hw : f_winners _ = [_] /\ _ |- _ => rewrite (winners_closed _ _ _ _ _ HI Hg (proj1 Hw)) in Hc'; discriminate end].
  all: try solve [cbn; intros Hc'; congruence].
  all: intros _; unfold new_fut, fres; cbn; repeat split; auto.
Qed.

Lemma step_sto progs s s' i : Inv progs s -> sstep i s = Some s' ->
  forall k f', getf s' k = Some f' -> f_inctx f' = false -> f_stored f' = true -> f_closed f' = true.
Proof.
  intros HI H k0 f' Hg'.
  sstep_inv H; use_L HI Hp; same_fut Hf; fut_cases Hg'.
  all: try solve [apply (f_sto _ _ _ _ (i_fut _ _ HI _ _ Hg'))].
  all: try solve [cbn; auto; try congruence; try tauto].
  all: try solve [cbn; apply (f_sto _ _ _ _ (i_fut _ _ HI _ _ Hg))].
  all: try solve [cbn; intros _ _;
                  match goal with Hw : f_winners _ = [_] |- _ => apply (winners_closed _ _ _ _ _ HI Hg Hw)
                  | Hw : f_winners _ = [_] /\ _ |- _ => apply (winners_closed _ _ _ _ _ HI Hg (proj1 Hw)) end].
Qed.

Lemma step_fire progs s s' i : Inv progs s -> sstep i s = Some s' ->
  forall k f', getf s' k = Some f' -> forall t, f_fired f' = Some t -> exists t0, f_armed f' = Some t0 /\ t0 + f_tmo f' <= t.
Proof.
  intros HI H k0 f' Hg'.
  sstep_inv H; use_L HI Hp; same_fut Hf; fut_cases Hg'.
  all: try solve [apply (f_fire _ _ _ _ (i_fut _ _ HI _ _ Hg'))].
  all: try solve [cbn; apply (f_fire _ _ _ _ (i_fut _ _ HI _ _ Hg))].
  all: try solve [cbn; intros ? ?; discriminate].
  - cbn. intros t0 E. injection E as <-. exists n. split; auto. apply N.leb_le. auto.
Qed.

Lemma step_orig progs s s' i : Inv progs s -> sstep i s = Some s' ->
  forall k f', getf s' k = Some f' -> forall v, f_final f' = Some v -> sorigin progs s' k f' v.
Proof.
  intros HI H k0 f' Hg'.
  destruct (step_frame _ _ _ _ HI H) as [Hdc _].
  assert (Hm : forall k f v, getf s k = Some f -> f_final f = Some v -> forall f2, f_asker f2 = f_asker f ->
               (f_fired f <> None -> f_fired f2 <> None) -> sorigin progs s' k f2 v).
  { intros k f v Hg Hfin f2 Ha Hfi. eapply sorigin_mono; eauto. apply (f_orig _ _ _ _ (i_fut _ _ HI _ _ Hg)); auto. }
  sstep_inv H; use_L HI Hp; same_fut Hf; fut_cases Hg'.
  all: try solve [intros v0 Hv0; eapply Hm; eauto].
  all: try solve [cbn; intros v0 Hv0; eapply Hm; eauto; cbn; congruence].
  all: try solve [cbn; intros ? ?; discriminate].
  - (* SCas wins *)
    cbn. intros v0 E. injection E as <-. eapply sorigin_mono; eauto.
Qed.

Lemma step_reg progs s s' i : Inv progs s -> sstep i s = Some s' ->
  forall k f', getf s' k = Some f' -> f_sent f' = true -> f_closed f' = false ->
  f_inctx f' = true /\ In k (ag_get (f_asker f') (y_agents s')).
Proof.
  intros HI H k0 f' Hg'.
  (* an Ask that had returned before the step: through the frame *)
  assert (Hold : forall f, getf s k0 = Some f -> f_sent f = true -> f_closed f' = false ->
                 f_inctx f' = true /\ In k0 (ag_get (f_asker f') (y_agents s'))).
  { intros f Hg Hs Hc'. destruct (proj2 (step_frame _ _ _ _ HI H) _ _ Hg) as (f2 & Hg2 & [Ea _ _ _ _ Hcl _ _ _ _ Hic Hag _]).
    rewrite Hg' in Hg2. injection Hg2 as <-.
    assert (Hc : f_closed f = false) by (destruct (f_closed f) eqn:E; auto; rewrite Hcl in Hc'; auto).
    destruct (f_reg _ _ _ _ (i_fut _ _ HI _ _ Hg) Hs Hc) as [Hi Ha].
    split; [destruct (Hic Hi); congruence|rewrite Ea; destruct (Hag Ha); congruence]. }
  sstep_inv H; use_L HI Hp; same_fut Hf; fut_cases Hg'; intros Hs' Hc'.
  all: try exact (Hold _ Hg' Hs' Hc').
  all: cbn [f_sent f_closed new_fut set] in Hs', Hc'; try discriminate Hs'; try congruence.
  all: try exact (Hold _ Hg Hs' Hc').
  - (* SCheck, open: Ask returns now, registered in both tables *) cbn. apply HL, Hc.
  - (* SRemAg *) destruct HL as (_ & _ & ?). congruence.
Qed.

(** the stepping thread's entry in the new thread list *)
Ltac new_self Hp := cbn [y_thr set]; first [eapply nth_error_upd_eq; exact Hp | apply nth_error_snoc_old; eapply nth_error_upd_eq; exact Hp].

(** [thr_at s' i P] for the stepping thread: its new pc is explicit after step inversion *)
Ltac self_at Hp := eexists _, _; split; [new_self Hp | cbn; rewrite ?Nat.eqb_refl; auto].

(** closes [P p -> P q] for a class predicate P of future k0 at the pcs of a step: P is false at p, or the same test at q,
    or true at p only for another future *)
Ltac class_kept :=
  cbn; let E := fresh "E" in intros E; try apply andb_true_iff in E as [E _]; first [discriminate E | exact E | rewrite E; reflexivity | apply Nat.eqb_eq in E; congruence].

(** [Hat : thr_at s j P] for a class predicate P: the same in the state after the step H of the thread at Hp *)
Ltac witness_kept H Hp Hat := refine (thr_at_step _ _ _ _ _ _ _ _ _ H Hp _ _ Hat); [new_self Hp | class_kept].

Lemma step_snt progs s s' i : Inv progs s -> sstep i s = Some s' ->
  forall k f', getf s' k = Some f' -> f_sent f' = false -> thr_at s' (f_owner f') (fun p => ask_of k p = true).
Proof.
  intros HI H k0 f' Hg'.
  sstep_inv H; use_L HI Hp; same_fut Hf; fut_cases Hg'; cbn [f_sent f_owner new_fut set]; intros Hs'; try discriminate Hs'.
  (* an old future, written or not: its asker keeps asking *)
  all: try solve [pose proof (f_snt _ _ _ _ (i_fut _ _ HI _ _ Hg') Hs') as Hat; witness_kept H Hp Hat].
  all: try solve [pose proof (f_snt _ _ _ _ (i_fut _ _ HI _ _ Hg) Hs') as Hat; witness_kept H Hp Hat].
  (* the new future: its creator is at SStore *)
  all: self_at Hp.
Qed.

Lemma step_ctx progs s s' i : Inv progs s -> sstep i s = Some s' ->
  forall k f', getf s' k = Some f' -> f_inctx f' = true ->
  f_crem f' = false \/ thr_at s' (f_owner f') (fun p => own_ctx k p = true).
Proof.
  intros HI H k0 f' Hg'.
  sstep_inv H; use_L HI Hp; same_fut Hf; fut_cases Hg'; cbn [f_inctx f_crem f_owner new_fut set]; intros Hi'; try discriminate Hi'.
  (* an old future, written or not: what held before, with the owner still at a pc that owns the entry *)
  all: try solve [destruct (f_ctx _ _ _ _ (i_fut _ _ HI _ _ Hg') Hi') as [Hcr|Hat]; [left; exact Hcr|right];
                  witness_kept H Hp Hat].
  all: try solve [destruct (f_ctx _ _ _ _ (i_fut _ _ HI _ _ Hg) Hi') as [Hcr|Hat]; [left; exact Hcr|right];
                  witness_kept H Hp Hat].
  - (* SStore *) right. destruct HL as [<- _]. self_at Hp.
  - (* SCheck, open *) left. apply (f_open _ _ _ _ (i_fut _ _ HI _ _ Hg)). auto.
Qed.

Lemma step_fag progs s s' i : Inv progs s -> sstep i s = Some s' ->
  forall k f', getf s' k = Some f' -> In k (ag_get (f_asker f') (y_agents s')) ->
  f_arem f' = false \/ thr_at s' (f_owner f') (fun p => own_ag k p = true).
Proof.
  intros HI H k0 f' Hg'.
  sstep_inv H; use_L HI Hp; same_fut Hf; fut_cases Hg'; cbn [y_agents f_asker f_arem f_owner new_fut set]; intros Hi'.
  all: try solve [left; reflexivity].
  (* a removal from the asker's set: of another future, or of this one *)
  all: try (apply ag_get_del in Hi' as [Hi' Hn]; try solve [exfalso; apply Hn; auto]).
  (* an old future, written or not: what held before, with the owner still at a pc that owns the entry *)
  all: try solve [destruct (f_ag _ _ _ _ (i_fut _ _ HI _ _ Hg') Hi') as [Hcr|Hat]; [left; exact Hcr|right];
                  witness_kept H Hp Hat].
  all: try solve [destruct (f_ag _ _ _ _ (i_fut _ _ HI _ _ Hg) Hi') as [Hcr|Hat]; [left; exact Hcr|right];
                  witness_kept H Hp Hat].
  - (* SAgents *)
    apply ag_get_add in Hi' as [[Ha ->]|Hi'].
    + right. unfold getf in Hg. rewrite Hg in Hg'. injection Hg' as <-. destruct HL as [<- _]. self_at Hp.
    + destruct (f_ag _ _ _ _ (i_fut _ _ HI _ _ Hg') Hi') as [Hcr|Hat]; [left; exact Hcr|right].
      witness_kept H Hp Hat.
  - (* SCheck, open *) left. apply (f_open _ _ _ _ (i_fut _ _ HI _ _ Hg)). auto.
Qed.

Lemma step_timer progs s s' i : Inv progs s -> sstep i s = Some s' ->
  forall k f', getf s' k = Some f' -> f_armed f' <> None ->
  f_closed f' = true \/ exists j, thr_at s' j (fun p => timer_of k p = true).
Proof.
  intros HI H k0 f' Hg'.
  sstep_inv H; use_L HI Hp; same_fut Hf; fut_cases Hg'; cbn [f_armed f_closed set]; intros Ha'.
  all: try solve [left; first [reflexivity | assumption]].
  (* an old future, written or not: closed before, or its timer thread is still a timer thread *)
  all: try solve [destruct (f_timer _ _ _ _ (i_fut _ _ HI _ _ Hg') Ha') as [Hcl|[j Hat]]; [left; exact Hcl|right; exists j];
                  witness_kept H Hp Hat].
  all: try solve [destruct (f_timer _ _ _ _ (i_fut _ _ HI _ _ Hg) Ha') as [Hcl|[j Hat]]; [left; exact Hcl|right; exists j];
                  witness_kept H Hp Hat].
  - (* SNew with timer *)
    right. exists (length (y_thr s)). exists (STStart (length (y_futs s))), []. split; [|cbn; apply Nat.eqb_refl].
    cbn. rewrite <- (upd_length (y_thr s) i (SStore (length (y_futs s)), sc)). apply nth_error_snoc_len.
  - (* SNew without timer *)
    cbn in Ha'. rewrite Hc in Ha'. contradiction Ha'. reflexivity.
  - (* STFire after timer.Stop(): only close() stops the timer *)
    destruct (Nat.eq_dec k0 k) as [->|Nk].
    + left. unfold getf in Hg. rewrite Hg in Hg'. injection Hg' as <-.
      destruct (f_closed f0) eqn:Ec; auto. destruct (f_open _ _ _ _ (i_fut _ _ HI _ _ Hg) Ec) as (_ & _ & _ & _ & _ & _ & ? & _). congruence.
    + destruct (f_timer _ _ _ _ (i_fut _ _ HI _ _ Hg') Ha') as [Hcl|[j Hat]]; [left; exact Hcl|right; exists j].
      witness_kept H Hp Hat.
  (* SCas on another future *)
  - destruct (f_timer _ _ _ _ (i_fut _ _ HI _ _ Hg') Ha') as [Hcl|[j Hat]]; [left; exact Hcl|right; exists j].
    refine (thr_at_step _ _ _ _ _ _ _ _ _ H Hp _ _ Hat); [new_self Hp | destruct v; class_kept].
  - destruct (f_timer _ _ _ _ (i_fut _ _ HI _ _ Hg') Ha') as [Hcl|[j Hat]]; [left; exact Hcl|right; exists j].
    refine (thr_at_step _ _ _ _ _ _ _ _ _ H Hp _ _ Hat); [new_self Hp | destruct v; class_kept].
Qed.

Definition same_w (f f' : fut) : Prop :=
  f_winners f' = f_winners f /\ f_final f' = f_final f /\ fres f' = fres f /\ f_done f' = f_done f /\
  f_wlog f' = f_wlog f /\ f_crem f' = f_crem f /\ f_arem f' = f_arem f /\ f_tstopped f' = f_tstopped f /\
  f_armed f' = f_armed f.

Lemma same_w_refl f : same_w f f.
Proof. repeat split. Qed.

Lemma wstage_same f f' w v st : same_w f f' -> wstage f w v st -> wstage f' w v st.
Proof.
  intros (E1 & E2 & E3 & E4 & E5 & E6 & E7 & E8 & E9) H.
  destruct st; cbn in *; unfold fstopped_ok in *; rewrite ?E3, ?E4, ?E5, ?E6, ?E7, ?E8, ?E9; exact H.
Qed.

Lemma stage_first k o : stage_of k (first_pc o) = StFin.
Proof. destruct o; reflexivity. Qed.

Lemma stage_fin k rest : stage_of k (fin rest) = StFin.
Proof. destruct rest; reflexivity. Qed.

(** a closed future keeps its winner record across a step that is not one of the winner's own close steps on it *)
Lemma win_carry progs s s' i p sc p' sc' k0 f f' :
  Inv progs s -> sstep i s = Some s' ->
  nth_error (y_thr s) i = Some (p, sc) -> nth_error (y_thr s') i = Some (p', sc') ->
  getf s k0 = Some f -> same_w f f' ->
  (stage_of k0 p' = stage_of k0 p \/ ((stage_of k0 p = StLock \/ stage_of k0 p = StFin) /\ stage_of k0 p' = StFin)) ->
  f_closed f = true ->
  exists w v, f_winners f' = [w] /\ f_final f' = Some v /\ thr_at s' w (fun q => wstage f' w v (stage_of k0 q)).
Proof.
  intros HI H Hp Hp' Hg Hsw Hst Hc.
  destruct (f_win _ _ _ _ (i_fut _ _ HI _ _ Hg) Hc) as (w & v & Hw & Hfin & (q & scq & Hq & Hws)).
  pose proof Hsw as (E1 & E2 & _).
  exists w, v. split; [congruence|]. split; [congruence|].
  destruct (Nat.eq_dec w i) as [->|Nw].
  - rewrite Hp in Hq. injection Hq as <- <-. exists p', sc'. split; auto.
    apply (wstage_same f); auto.
    destruct Hst as [->|[[E|E] ->]]; auto; rewrite E in Hws; exact Hws.
  - exists q, scq. split; [eapply step_thr_other; eauto|]. apply (wstage_same f); auto.
Qed.

Lemma winner_stage progs s i k f p sc :
  Inv progs s -> nth_error (y_thr s) i = Some (p, sc) -> getf s k = Some f -> f_winners f = [i] ->
  exists v, f_final f = Some v /\ wstage f i v (stage_of k p) /\ f_closed f = true.
Proof.
  intros HI Hp Hg Hw. pose proof (winners_closed _ _ _ _ _ HI Hg Hw) as Hc.
  destruct (f_win _ _ _ _ (i_fut _ _ HI _ _ Hg) Hc) as (w & v & Hw' & Hfin & (q & scq & Hq & Hws)).
  rewrite Hw in Hw'. injection Hw' as <-. rewrite Hp in Hq. injection Hq as <- <-. eauto.
Qed.

(** the stage condition of [win_carry] when both pcs are explicit: computes [stage_of], splitting on the key tests *)
Ltac stage_goal :=
  cbn [stage_of]; rewrite ?stage_first, ?stage_fin;
  repeat match goal with
  | |- context [Nat.eqb ?a ?b] => destruct (Nat.eqb_spec a b); try congruence
  end; auto.

Lemma step_win progs s s' i : Inv progs s -> sstep i s = Some s' ->
  forall k f', getf s' k = Some f' -> f_closed f' = true ->
  exists w v, f_winners f' = [w] /\ f_final f' = Some v /\ thr_at s' w (fun p => wstage f' w v (stage_of k p)).
Proof.
  intros HI H k0 f' Hg'.
  sstep_inv H; use_L HI Hp; same_fut Hf; fut_cases Hg'.
  (* futures the step did not write *)
  all: try solve [intros Hc'; eapply (win_carry _ _ _ _ _ _ _ _ _ _ _ HI H Hp); [new_self Hp|exact Hg'|apply same_w_refl|stage_goal|exact Hc']].
  (* written, but not by its winner's close sequence *)
  all: try solve [cbn [f_closed set]; intros Hc'; eapply (win_carry _ _ _ _ _ _ _ _ _ _ _ HI H Hp);
                  [new_self Hp|exact Hg|repeat split|stage_goal|exact Hc']].
  all: try solve [cbn; intros; discriminate].
  (* a close step of the winner on its future: the stage advances with the write *)
  all: try (intros _; assert (Hw : f_winners f0 = [i]) by (first [exact HL | exact (proj1 HL)]);
       destruct (winner_stage _ _ _ _ _ _ _ HI Hp Hg Hw) as (v0 & Hfin & Hws & _);
       cbn [stage_of] in Hws; rewrite Nat.eqb_refl in Hws; unfold wstage, fres, fstopped_ok in Hws;
       exists i, v0; (split; [exact Hw|]); (split; [exact Hfin|]); eexists _, sc; (split; [new_self Hp|]);
       cbn [stage_of]; rewrite Nat.eqb_refl; unfold wstage, fres, fstopped_ok; cbn).
  - (* SAwait *)
    intros Hc'. eapply (win_carry _ _ _ _ _ _ _ _ _ _ _ HI H Hp); [new_self Hp|exact Hg'|apply same_w_refl| |exact Hc'].
    left. destruct p; cbn in HL; try tauto; try reflexivity.
  - (* SRLoad *)
    intros Hc'. eapply (win_carry _ _ _ _ _ _ _ _ _ _ _ HI H Hp); [new_self Hp|exact Hg'|apply same_w_refl| |exact Hc'].
    left. destruct (f_inctx f); reflexivity.
  - (* SDLoad *)
    intros Hc'. eapply (win_carry _ _ _ _ _ _ _ _ _ _ _ HI H Hp); [new_self Hp|exact Hg'|apply same_w_refl| |exact Hc'].
    left. destruct (f_inctx f); cbn [stage_of]; rewrite ?stage_fin; reflexivity.
  - (* SCas wins: the new winner *)
    intros _. destruct (f_open _ _ _ _ (i_fut _ _ HI _ _ Hg) Hc) as (Hw & _ & Hrs & Hd & Hwl & _ & Hts & Hcr & Har).
    unfold fres in Hrs. injection Hrs as Hm He.
    exists i, v. split; [cbn [f_winners set]; rewrite Hw; reflexivity|]. split; [reflexivity|].
    eexists _, sc. split; [new_self Hp|].
    destruct v; cbn [stage_of]; rewrite Nat.eqb_refl; unfold wstage, fres, fstopped_ok; cbn; rewrite ?Hm, ?He; repeat split; auto; discriminate.
  - (* SCas wins: another future *)
    intros Hc'. eapply (win_carry _ _ _ _ _ _ _ _ _ _ _ HI H Hp); [new_self Hp|exact Hg'|apply same_w_refl| |exact Hc'].
    left. destruct v; stage_goal.
  - (* SAssign *)
    destruct HL as [_ Hv]. rewrite Hv in Hfin. injection Hfin as <-. destruct Hws as (Hnn & Hrs & Hd & Hwl & Hcr & Har & Hts).
    rewrite Hwl, Hd. repeat split; auto; try (destruct (vpair v); reflexivity). destruct v; cbn; congruence.
  - (* SDone *)
    destruct Hws as (Hrs & Hd & Hwl & Hcr & Har & Hts). rewrite Hts. repeat split; auto; destruct (f_armed f0); reflexivity.
  - (* SCRemCtx *) tauto.
  - (* SCRemAg *) tauto.
Qed.

Theorem step_inv progs s s' i : Inv progs s -> sstep i s = Some s' -> Inv progs s'.
Proof.
  intros HI H.
  split; [exact (step_loc _ _ _ _ HI H)| |exact (step_ag _ _ _ _ HI H)|exact (step_rets _ _ _ _ HI H)|exact (step_cp _ _ _ _ HI H)].
  intros k f' Hg'.
  split; eauto using step_open, step_win, step_ctx, step_fag, step_sto, step_reg, step_timer, step_fire, step_snt, step_orig.
Qed.

Lemma srun_ind progs (P : sst -> Prop) :
  (forall s, P s -> P (stick s)) ->
  (forall i s s', Inv progs s -> P s -> sstep i s = Some s' -> P s') ->
  forall sched s, Inv progs s -> P s -> Inv progs (srun sched s) /\ P (srun sched s).
Proof.
  intros Ht Hs sched. induction sched as [|a l IH]; intros s HI HP; [auto|].
  destruct a as [|i]; cbn; [apply IH; [apply tick_inv|]; auto|].
  destruct (sstep i s) eqn:E; apply IH; eauto using step_inv.
Qed.

Lemma srun_inv progs sched s : Inv progs s -> Inv progs (srun sched s).
Proof. intros HI. apply (srun_ind progs (fun _ => True)); auto. Qed.

Theorem sreach_inv progs s : sreach progs s -> Inv progs s.
Proof. intros [sched <-]. apply srun_inv. apply init_inv. Qed.
